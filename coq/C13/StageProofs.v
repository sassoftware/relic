(* C13/StageProofs.v — when the sibling temporary cannot be created (name too long once ".tmp<random>" is added, directory not
   writable, EMFILE, ENOSPC at create) the only reaction of the code is to report the error with everything untouched: for
   every environment (every combination of failing calls), every strategy that stages through atomicfile.WriteAny or
   atomicfile.New, every destination and every content.  A plan that opens, truncates, unlinks or writes the destination
   itself is never accepted by the protocol checker; the witnesses against the design with a fallback are set up here. *)
From Relic Require Import Base.Prelude Base.Lists Generated.C13_gen C13.Fs C13.FsProofs C13.Stage C13.Strategies C13.StratProofs.

Definition staged (e : oenv) : Prop := e_dash e = false /\ e_special e = false.

(* WriteAny on a destination that is neither "-" nor special: isSpecial's stat, then New - whatever else would fail *)
Theorem writeany_result_cases : forall e, staged e ->
  writeany_result e = ([EvStat; EvOpen 1 1 194 (f_temp e)], (if f_temp e then RNil else RAtomic), f_temp e).
Proof. intros [d s [] f2 f3 f4 f5 f6 op] [Hd Hs]; cbn in Hd, Hs; subst; reflexivity. Qed.

Theorem stage_failure_returns_error : forall e, staged e -> f_temp e = true ->
  o_handle (writeany_result e) = RNil /\ o_err (writeany_result e) = true /\
  fail_aborts writeany_result e 1 = true /\
  forall pt pd it idest, map (ev_op pt pd it idest) (o_events (writeany_result e)) = [SNop K_STAT_DEST; SCreate pt it].
Proof.
  intros e He Hf. rewrite (writeany_result_cases e He), Hf. repeat split.
  destruct e as [d s f1 f2 f3 f4 f5 f6 op], He as [Hd Hs]. cbn in Hd, Hs, Hf. subst. reflexivity.
Qed.

(* no environment makes WriteAny (non-special destination) open, truncate, remove or create the destination itself *)
Theorem writeany_never_touches_dest : forall e, e_special e = false ->
  existsb ev_touches_dest (o_events (writeany_result e)) = false.
Proof. intros [[] s [] f2 f3 f4 f5 f6 op] Hs; cbn in Hs; subst; reflexivity. Qed.

(* an operation that is not: a call without effect, the creation of the temporary, a data call on the temporary's inode, the
   rename of the temporary over the destination *)
Definition direct_op (pt pd : path) (it : ino) (o : sop) : bool :=
  match o with
  | SOpen _ _ _ _ => true
  | SWrite i _ | SPWrite i _ _ | STrunc i _ => negb (i =? it)
  | SCopy _ dst _ _ => negb (dst =? it)
  | SUnlink _ => true
  | SCreate p i => negb ((p =? pt) && (i =? it))
  | SRename a b => negb ((a =? pt) && (b =? pd))
  | SStdout _ => true
  | SNop _ => false
  end.

Lemma accepts_not_direct pt pd it ph st ph1 : accepts pt pd it ph st ph1 -> direct_op pt pd it (p_op st) = false.
Proof.
  intros [x H _ _|x H _ _|x H|x H _ _]; rewrite ?H; cbn [direct_op]; rewrite ?Z.eqb_refl; try reflexivity.
  - destruct (p_op x); try discriminate. reflexivity.
  - apply ok1_local in H. destruct (p_op x); cbn [local_op] in H; try discriminate; cbn [direct_op]; rewrite ?H; reflexivity.
Qed.

(* what the property says about such a run, in the words of the statement: every name reads as before (the destination holds
   its complete previous content, or stays absent), no temporary exists, no inode changed (the input is unmodified) *)
Definition spec_refused (pt : path) (s0 s : fsys) : Prop :=
  (forall p, sread s p = sread s0 p) /\ (forall q, dirent s q = dirent s0 q) /\ (forall i, idata s i = idata s0 i) /\
  (dirent s0 pt = None -> spec_no_temp pt s).
Lemma spec_refused_refl pt s0 : spec_refused pt s0 s0.
Proof. repeat split; auto. Qed.

Definition stage_failure_ok (pt pd : path) (it : ino) (s0 : fsys) (pl : list pstep) : Prop :=
  exists n st,
    natural_fault pl = Some n /\ nth_error pl n = Some st /\ p_op st = SCreate pt it /\ p_onerr st = Abort /\
    (* the handled error *)
    spec_refused pt s0 (outcome pl s0) /\
    (* killed at any instant up to and including the failing call *)
    (forall k, (k <= n)%nat -> spec_refused pt s0 (scrash k pl s0)) /\
    (* and the plan as a whole is a protocol run: nothing in it opens or writes the destination *)
    check pt pd it 0 pl = Some 2%nat.

Section Fail.
Variables (pt pd : path) (it : ino) (s0 : fsys).

Lemma natural_fault_pre pre st rest : forallb pre_ok pre = true -> p_natfail st = true ->
  natural_fault (pre ++ st :: rest) = Some (length pre).
Proof.
  intros Hp Hs. induction pre as [|x pre IH]; cbn [app natural_fault length].
  - rewrite Hs. reflexivity.
  - cbn [forallb] in Hp. apply andb_true_iff in Hp as [(_ & _ & Hx)%pre_ok_iff Hp]. rewrite Hx, (IH Hp). reflexivity.
Qed.

(* up to the creation nothing with an effect is called *)
Lemma crash_in_pre pre rest k : forallb pre_ok pre = true -> (k <= length pre)%nat -> scrash k (pre ++ rest) s0 = s0.
Proof.
  intros Hp Hk. unfold scrash. rewrite ops_of_app, firstn_app.
  replace (k - length (ops_of pre))%nat with 0%nat by (unfold ops_of; rewrite map_length; lia).
  cbn [firstn]. rewrite app_nil_r. apply srun_nops, forallb_firstn, pre_nops, Hp.
Qed.

(* a staged plan whose creation fails: the creation is the step that fails by itself and is reported; the error is the
   outcome and NOTHING on disk differs from before - at the end and at every instant *)
Theorem staged_failure pre fill : forallb pre_ok pre = true -> forallb (step_ok1 pt it) fill = true ->
  stage_failure_ok pt pd it s0 (staged_plan pt pd it pre true fill).
Proof.
  intros Hp Hf. pose proof (check_staged pt pd it pre true fill Hp Hf) as Hc. unfold staged_plan in *.
  set (st := mkP (SCreate pt it) Abort [] true) in *. set (rest := fill ++ commit_plan pt pd true) in *.
  assert (Hn : nth_error (pre ++ st :: rest) (length pre) = Some st) by (rewrite nth_error_app2, Nat.sub_diag by lia; reflexivity).
  pose proof (natural_fault_pre pre st rest Hp eq_refl) as Hnf.
  exists (length pre), st. split; [exact Hnf|]. split; [exact Hn|]. do 2 (split; [reflexivity|]). split; [|split; [|exact Hc]].
  - unfold outcome. rewrite Hnf. unfold fault. rewrite Hn. cbn [st p_op p_onerr p_cleanup partial srun fold_left].
    fold (scrash (length pre) (pre ++ st :: rest) s0). rewrite crash_in_pre by auto. apply spec_refused_refl.
  - intros k Hk. rewrite crash_in_pre by assumption. apply spec_refused_refl.
Qed.
End Fail.

(* WriteAny that opens the destination itself (O_WRONLY|O_CREATE|O_TRUNC) when the sibling cannot be created
   (Stage.fallback_tree), whole-file strategy, two writes [5] and [6]; s_demo: name 2 = the destination, content [7] *)
Definition e_temp_fails : oenv := set_fail (env_ok false false) 1.
Definition fb_plan (idest : ino) : list pstep := whole_plan_t 3 2 20 fallback_tree new_tree e_temp_fails idest [[5]; [6]].
Definition s_absent : fsys :=
  mkFsys (fun q => if q =? 1 then Some (EFile 10) else None) (fun i => if i =? 10 then [1; 2] else []) [].

(* the same strategy over the trees of the source is the protocol (non-vacuity of the comparison) *)
Example source_trees_accepted : check 3 2 20 0 (whole_plan_t 3 2 20 writeany_tree new_tree e_temp_fails 11 [[5]; [6]]) = Some 2%nat.
Proof. vm_compute. reflexivity. Qed.
