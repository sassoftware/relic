(* C13/Proofs.v — the op-list model: creating and filling the temporary never removes or replaces the destination, so a
   kill at that stage leaves destination and input alone; a kill during Commit is one of three explicit cases. *)
From Relic Require Import Base.Prelude Generated.C13_gen C13.Model.

Lemma commit_ops_eq : commit_ops = [Chmod; CloseF; Rename].
Proof. reflexivity. Qed.
Lemma close_ops_eq : close_ops = [CloseF; RemoveTemp].
Proof. reflexivity. Qed.

Lemma run_ops_app a b s : run_ops (a ++ b) s = run_ops b (run_ops a s).
Proof. apply fold_left_app. Qed.

(* what success and handled error have in common: create, then fill *)
Definition fill_ops (writes : list bytes) (edits : list (bytes -> bytes)) : list op :=
  [CreateTemp] ++ map Write writes ++ map Edit edits.
Lemma success_ops_eq writes edits : success_ops writes edits = fill_ops writes edits ++ [Chmod; CloseF; Rename].
Proof. unfold success_ops, fill_ops. rewrite commit_ops_eq, <- !app_assoc. reflexivity. Qed.
Lemma error_ops_eq writes edits : error_ops true writes edits = fill_ops writes edits ++ [CloseF; RemoveTemp].
Proof. unfold error_ops, fill_ops. rewrite close_ops_eq, <- !app_assoc. reflexivity. Qed.

Lemma run_writes ws inp old : forall acc,
  run_ops (map Write ws) (mkFs inp old (Some acc)) = mkFs inp old (Some (acc ++ concat ws)).
Proof.
  induction ws as [|w ws IH]; intros acc; cbn [map concat]; [now rewrite app_nil_r|].
  unfold run_ops in *. cbn [fold_left step f_input f_dest f_temp option_map]. rewrite IH, app_assoc. reflexivity.
Qed.
Lemma run_edits es inp old : forall t,
  run_ops (map Edit es) (mkFs inp old (Some t)) = mkFs inp old (Some (fold_left (fun t f => f t) es t)).
Proof. induction es as [|e es IH]; intros t; [reflexivity|apply IH]. Qed.

(* state after filling: dest untouched, temp holds everything written and edited *)
Lemma fill_state inp old writes edits :
  run_ops (fill_ops writes edits) (mkFs inp old None) = mkFs inp old (Some (final_content writes edits)).
Proof.
  unfold fill_ops. rewrite !run_ops_app. change (run_ops [CreateTemp] (mkFs inp old None)) with (mkFs inp old (Some [])).
  rewrite run_writes, run_edits. reflexivity.
Qed.

(* an operation that neither removes nor replaces the destination leaves it, and the input, as they are *)
Definition keeps_dest (o : op) : Prop := match o with RemoveDest | Rename => False | _ => True end.
Lemma prefix_untouched (ops : list op) : Forall keeps_dest ops ->
  forall k s, f_dest (crash k ops s) = f_dest s /\ f_input (crash k ops s) = f_input s.
Proof.
  unfold crash, run_ops. induction 1 as [|o ops Ho _ IH]; intros [|k] s; try (split; reflexivity).
  cbn [firstn fold_left]. destruct (IH k (step s o)) as [-> ->]. destruct o; try contradiction; split; reflexivity.
Qed.
Lemma fill_keeps_dest writes edits : Forall keeps_dest (fill_ops writes edits).
Proof.
  apply Forall_forall. unfold fill_ops. cbn [app]. intros o [<-|Ho]; [exact I|].
  apply in_app_or in Ho as [Ho|Ho]; apply in_map_iff in Ho as [x [<- _]]; exact I.
Qed.

Lemma crash_safe inp old writes edits k :
  let ops := success_ops writes edits in
  let s := crash k ops (mkFs inp old None) in
  (f_dest s = old \/ f_dest s = Some (final_content writes edits)) /\
  (old <> None -> f_dest s <> None) /\
  f_input s = inp.
Proof.
  cbv zeta. rewrite success_ops_eq. unfold crash. rewrite firstn_app.
  destruct (k - length (fill_ops writes edits))%nat as [|j] eqn:Ej.
  - (* killed while filling (or right after) *)
    cbn [firstn]. rewrite app_nil_r.
    destruct (prefix_untouched _ (fill_keeps_dest writes edits) k (mkFs inp old None)) as [Hd Hi]. unfold crash in Hd, Hi.
    rewrite Hd, Hi. repeat split; auto.
  - (* killed during Commit: all of the filling has run *)
    rewrite firstn_all2 by lia. rewrite run_ops_app, fill_state.
    destruct j as [|[|j]]; cbn; rewrite ?firstn_nil; cbn; repeat split; auto; congruence.
Qed.
