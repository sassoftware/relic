(* C13/StratProofs.v — every output strategy, as assembled from the generated scripts, follows the write-rename protocol
   for all inputs; the content it produces; the in-place decision; the other kinds of destination.
   A strategy that stages its output is a `staged_plan pre b fill`: calls without effect, the creation of the temporary, a
   filling phase, Commit.  Of every staged plan hold check_staged (the checker accepts it), staged_content (the new content is
   what the filling phase writes into the empty temporary) and, in StageProofs.v, staged_failure (a creation that fails leaves
   everything as it was).  A strategy X contributes its filling phase X_fill with X_fill_ok and X_fill_content, and the
   equation X_plan_eq between its interpreted script and a staged plan; the theorems about X are these put together. *)
From Relic Require Import Base.Prelude Base.Lists Base.Slice Generated.C13_gen C13.Fs C13.FsProofs C13.Stage C13.Strategies.

Lemma forallb_map_impl {A B} (P : A -> bool) (Q : B -> bool) (f : A -> B) l :
  (forall x, P x = true -> Q (f x) = true) -> forallb P l = true -> forallb Q (map f l) = true.
Proof.
  intros HPQ. induction l as [|x l IH]; intros H; [reflexivity|].
  cbn [forallb] in H. apply andb_true_iff in H as [Hx Hl]. cbn [map forallb]. rewrite (HPQ x Hx). exact (IH Hl).
Qed.

Lemma zslice_rest (a : Z) (l : bytes) : zslice a (a + Z.max 0 (zlen l - a)) l = zdrop a l.
Proof.
  unfold zslice. apply ztake_all.
  destruct (Z.le_gt_cases 0 a); [rewrite zlen_zdrop_gen by assumption|rewrite zdrop_neg by lia]; lia.
Qed.

Section S.
Variables (pt pd : path) (it iin : ino).
Notation chk := (check pt pd it).
Notation ok1 := (step_ok1 pt it).
Notation mk := (mk_steps pt pd).
Notation nz := (@nil Z).

Lemma cleanup_tt : cleanup_ops pt pd true true = [SNop K_CLOSE_TMP; SUnlink pt].
Proof. reflexivity. Qed.
Lemma cleanup_tf : cleanup_ops pt pd true false = [SUnlink pt].
Proof. reflexivity. Qed.
Lemma cleanup_f b : cleanup_ops pt pd false b = [].
Proof. reflexivity. Qed.
Lemma removes_tt : cleanup_removes pt [SNop K_CLOSE_TMP; SUnlink pt] = true.
Proof. unfold cleanup_removes. cbn. rewrite Z.eqb_refl. reflexivity. Qed.
Lemma removes_tf : cleanup_removes pt [SUnlink pt] = true.
Proof. unfold cleanup_removes. cbn. rewrite Z.eqb_refl. reflexivity. Qed.

(* calls without effect; the creation of the sibling temporary (it fails by itself iff b); the filling phase; Commit *)
Definition staged_plan (pre : list pstep) (b : bool) (fill : list pstep) : list pstep :=
  pre ++ mkP (SCreate pt it) Abort [] b :: fill ++ commit_plan pt pd true.

Definition pre_ok (st : pstep) : bool := is_nop (p_op st) && cleanup_none (p_cleanup st) && negb (p_natfail st).

Lemma pre_ok_iff st : pre_ok st = true <-> is_nop (p_op st) = true /\ cleanup_none (p_cleanup st) = true /\ p_natfail st = false.
Proof. unfold pre_ok. rewrite !andb_true_iff, negb_true_iff. tauto. Qed.

Lemma check_pre l r : forallb pre_ok l = true -> chk 0 (l ++ r) = chk 0 r.
Proof.
  apply check_stay. intros st (H1 & H2 & H3)%pre_ok_iff.
  apply acc_before; [exact H1|exact H2|]. unfold natfail_ok. rewrite H3. reflexivity.
Qed.
Lemma pre_nops l : forallb pre_ok l = true -> forallb is_nop (ops_of l) = true.
Proof. apply forallb_map_impl. intros st H%pre_ok_iff. apply H. Qed.
Lemma check_fill l r : forallb ok1 l = true -> chk 1 (l ++ r) = chk 1 r.
Proof. apply check_stay, acc_fill. Qed.
Lemma commit_plan_true : commit_plan pt pd true =
  [mkP (SNop K_CHMOD) Ignore [SNop K_CLOSE_TMP; SUnlink pt] false;
   mkP (SNop K_CLOSE_TMP) Abort [SUnlink pt] false;
   mkP (SRename pt pd) Abort [SUnlink pt] false].
Proof. reflexivity. Qed.
Lemma check_commit : chk 1 (commit_plan pt pd true) = Some 2%nat.
Proof.
  rewrite commit_plan_true. cbn [Fs.check p_op p_onerr p_cleanup step_ok1 local_op is_nop andb is_abort].
  rewrite removes_tf, !Z.eqb_refl. reflexivity.
Qed.

Theorem check_staged pre b fill :
  forallb pre_ok pre = true -> forallb ok1 fill = true -> chk 0 (staged_plan pre b fill) = Some 2%nat.
Proof.
  intros Hp Hf. unfold staged_plan. rewrite (check_pre _ _ Hp).
  rewrite (check_cons pt pd it 0 _ 1) by (apply acc_create; reflexivity).
  rewrite (check_fill _ _ Hf). apply check_commit.
Qed.

Lemma ops_staged pre b fill : ops_of (staged_plan pre b fill) =
  ops_of pre ++ SCreate pt it :: ops_of fill ++ [SNop K_CHMOD; SNop K_CLOSE_TMP; SRename pt pd].
Proof. unfold staged_plan. rewrite ops_of_app. cbn [ops_of map p_op]. fold (ops_of (fill ++ commit_plan pt pd true)). rewrite ops_of_app. reflexivity. Qed.

(* a primitive may stay in the filling phase: it touches only the temporary, and is a no-effect call if its failure is ignored *)
Definition prim_ok (k : Z) (x : prim) : bool :=
  let '(o, ign, nf) := x in
  local_op it o && (match (if ign then Ignore else kind_onerr k) with Ignore => is_nop o && negb nf | Abort => true end).
Lemma mk_fill_ok armed k l : armed || (k =? 2) = true -> forallb (prim_ok k) l = true -> forallb ok1 (mk armed k l) = true.
Proof.
  intros Ha. induction l as [|[[o ign] nf] l IH]; intros H; [reflexivity|].
  cbn [forallb] in H. apply andb_true_iff in H as [Hx Hl]. cbn [mk_steps map forallb]. fold (mk armed k l).
  rewrite (IH Hl), andb_true_r. unfold step_ok1. cbn [p_op p_onerr p_cleanup]. rewrite Ha, cleanup_tt.
  unfold prim_ok in Hx. apply andb_true_iff in Hx as [H1 H2]. rewrite H1. cbn [andb].
  destruct (if ign then Ignore else kind_onerr k); [exact H2|apply removes_tt].
Qed.
Lemma ops_mk armed k l : ops_of (mk armed k l) = map (fun x : prim => fst (fst x)) l.
Proof. unfold ops_of, mk_steps. rewrite map_map. apply map_ext. intros [[o i] n]. reflexivity. Qed.

(* what the filling phase leaves in the temporary: acc is its content so far, dat the content of the other inodes *)
Definition tmp_step (dat : ino -> bytes) (acc : bytes) (o : sop) : bytes :=
  match o with
  | SWrite _ d => acc ++ d
  | SCopy src _ off n => acc ++ zslice off (off + n) (if src =? it then acc else dat src)
  | SPWrite _ off d => pwrite_bytes acc off d
  | STrunc _ n => trunc_bytes n acc
  | _ => acc
  end.
Definition tmp_eval (dat : ino -> bytes) (ops : list sop) (acc : bytes) : bytes := fold_left (tmp_step dat) ops acc.
Lemma tmp_eval_cons dat o ops acc : tmp_eval dat (o :: ops) acc = tmp_eval dat ops (tmp_step dat acc o).
Proof. reflexivity. Qed.
Lemma tmp_eval_app dat a b acc : tmp_eval dat (a ++ b) acc = tmp_eval dat b (tmp_eval dat a acc).
Proof. unfold tmp_eval. apply fold_left_app. Qed.

Lemma srun_tmp dat ops : forall s, (forall i, i <> it -> idata s i = dat i) -> forallb (local_op it) ops = true ->
  idata (srun ops s) it = tmp_eval dat ops (idata s it).
Proof.
  induction ops as [|o ops IH]; intros s Hs H; [reflexivity|].
  cbn [forallb] in H. apply andb_true_iff in H as [Ho Hr]. rewrite srun_cons, tmp_eval_cons.
  destruct (local_effect it o s Ho) as [_ Hi]. rewrite IH; [f_equal|intros i Hne; rewrite Hi by exact Hne; apply Hs, Hne|exact Hr].
  destruct o; cbn [local_op] in Ho; try discriminate Ho; try apply Z.eqb_eq in Ho; subst; cbn [sstep tmp_step];
    rewrite ?set_data_same; try reflexivity.
  destruct (Z.eqb_spec src it) as [->|Hne]; [|rewrite (Hs src Hne)]; reflexivity.
Qed.

Lemma ok1_locals fill : forallb ok1 fill = true -> forallb (local_op it) (ops_of fill) = true.
Proof. apply forallb_map_impl, ok1_local. Qed.

(* the complete new content of a staged strategy is what its filling phase writes into the empty temporary *)
Theorem staged_content pre b fill s0 : forallb pre_ok pre = true -> forallb ok1 fill = true ->
  idata (srun (ops_of (staged_plan pre b fill)) s0) it = tmp_eval (idata s0) (ops_of fill) [].
Proof.
  intros Hp Hf. rewrite ops_staged, srun_app, (srun_nops (ops_of pre)), srun_cons, srun_app by apply pre_nops, Hp.
  set (s1 := sstep s0 (SCreate pt it)). set (s2 := srun (ops_of fill) s1).
  (* Commit changes no inode *)
  transitivity (idata s2 it); [cbn; destruct (pt =? pd); [|destruct (dirent s2 pt)]; reflexivity|].
  unfold s2. rewrite (srun_tmp (idata s0)); [unfold s1; cbn [sstep]; rewrite set_data_same; reflexivity| |apply ok1_locals, Hf].
  intros i Hi. unfold s1. cbn [sstep]. rewrite set_data_other by exact Hi. reflexivity.
Qed.

Lemma writes_ok k (ws : list bytes) : kind_onerr k = Abort ->
  forallb (prim_ok k) (map (fun d => (SWrite it d, false, false)) ws) = true.
Proof.
  intros Hk. induction ws as [|w ws IH]; [reflexivity|]. cbn [map forallb prim_ok local_op]. rewrite Hk, Z.eqb_refl, IH. reflexivity.
Qed.
Lemma tmp_writes dat ws : forall acc, tmp_eval dat (map (SWrite it) ws) acc = acc ++ concat ws.
Proof.
  induction ws as [|w ws IH]; intros acc; [cbn; now rewrite app_nil_r|].
  cbn [map concat]. rewrite tmp_eval_cons, IH. cbn [tmp_step]. rewrite app_assoc. reflexivity.
Qed.

Lemma edits_ok k (es : list edit) : kind_onerr k = Abort ->
  forallb (prim_ok k) (map (fun e => (edit_sop it e, false, false)) es) = true.
Proof.
  intros Hk. induction es as [|e es IH]; [reflexivity|].
  cbn [map forallb prim_ok]. rewrite Hk, IH. destruct e; cbn [edit_sop local_op]; rewrite Z.eqb_refl; reflexivity.
Qed.
Lemma tmp_edits dat es : forall acc, tmp_eval dat (map (edit_sop it) es) acc = fold_left apply_edit es acc.
Proof.
  induction es as [|e es IH]; intros acc; [reflexivity|].
  cbn [map fold_left]. rewrite tmp_eval_cons, IH. destruct e; reflexivity.
Qed.

Lemma nops_ok k c n : forallb (prim_ok k) (repeat (SNop c, false, false) n) = true.
Proof. induction n as [|n IH]; [reflexivity|]. cbn [repeat forallb]. rewrite IH. cbn. destruct (kind_onerr k); reflexivity. Qed.
Lemma tmp_nops dat c n acc : tmp_eval dat (map (fun x : prim => fst (fst x)) (repeat (SNop c, false, false) n)) acc = acc.
Proof. induction n as [|n IH]; [reflexivity|]. exact IH. Qed.

Lemma merge_from_ok k io : kind_onerr k = Abort -> forall n, forallb (prim_ok k) (merge_prims_from it n io) = true.
Proof.
  intros Hk. induction io as [|[| |d|d] io IH]; intros n; [reflexivity| | | |]; cbn [merge_prims_from map forallb mio_prim prim_ok local_op next_seek orb];
    rewrite ?Hk, ?Z.eqb_refl, IH; try reflexivity.
  destruct (getsize_seek_ignored n); reflexivity.
Qed.
Lemma tmp_merge_from dat io : forall n acc, tmp_eval dat (map (fun x : prim => fst (fst x)) (merge_prims_from it n io)) acc = acc ++ spec_merge io.
Proof.
  unfold spec_merge. induction io as [|[| |d|d] io IH]; intros n acc; cbn [merge_prims_from map concat fst mio_prim next_seek];
    [cbn; now rewrite app_nil_r| | | |]; rewrite tmp_eval_cons, IH; cbn [tmp_step]; rewrite <- ?app_assoc; reflexivity.
Qed.
Lemma merge_prims_cs_false io : merge_prims_cs it false io = merge_prims it io.
Proof.
  unfold merge_prims_cs, merge_prims. generalize 0%nat. induction io as [|x io IH]; intros n; [reflexivity|].
  cbn [merge_prims_cs_from merge_prims_from andb]. rewrite IH. reflexivity.
Qed.

(* what precedes the creation when the handle comes from WriteAny: isSpecial's stat of the destination *)
Definition wa_pre : list pstep := [mkP (SNop K_STAT_DEST) Ignore [] false].

(* the filling phase of each strategy, that it is one, and what it writes *)

Definition whole_fill (writes : list bytes) : list pstep :=
  mk true 1 (map (fun d => (SWrite it d, false, false)) writes) ++ mk true 0 [(SNop K_CLOSE_IN, false, false)].
Lemma whole_fill_ok writes : forallb ok1 (whole_fill writes) = true.
Proof. unfold whole_fill. rewrite forallb_app, !mk_fill_ok; try reflexivity. apply writes_ok. reflexivity. Qed.
Lemma whole_fill_content dat writes : tmp_eval dat (ops_of (whole_fill writes)) [] = spec_whole writes.
Proof. unfold whole_fill. rewrite ops_of_app, !ops_mk, map_map, tmp_eval_app. cbn [map fst]. rewrite tmp_writes. reflexivity. Qed.

Definition writefile_fill (data : bytes) : list pstep := mk true 1 [(SWrite it data, false, false)].
Lemma writefile_fill_ok data : forallb ok1 (writefile_fill data) = true.
Proof. apply mk_fill_ok; [reflexivity|]. cbn. rewrite Z.eqb_refl. reflexivity. Qed.

Definition pgp_fill (inline clearsign : bool) (io : list mio) : list pstep :=
  (if pgp_merges inline clearsign then mk true 1 [(SNop K_SEEK_IN, false, false); (SNop K_READ_RESULT, false, false)] else []) ++
  mk true 1 (merge_prims it io) ++ mk true 0 [(SNop K_CLOSE_IN, false, false)].
Lemma pgp_fill_ok inline clearsign io : forallb ok1 (pgp_fill inline clearsign io) = true.
Proof.
  unfold pgp_fill. destruct (pgp_merges inline clearsign); rewrite !forallb_app, !mk_fill_ok; try reflexivity;
    apply merge_from_ok; reflexivity.
Qed.
Lemma pgp_fill_content dat inline clearsign io : tmp_eval dat (ops_of (pgp_fill inline clearsign io)) [] = spec_merge io.
Proof.
  unfold pgp_fill. rewrite !ops_of_app, !ops_mk, !tmp_eval_app. unfold merge_prims. rewrite tmp_merge_from.
  destruct (pgp_merges inline clearsign); reflexivity.
Qed.

(* patch by rewrite: per patch the order check, the copy of the input up to the patch, the seek over the replaced part, the
   new bytes; pos is the input offset reached *)
Fixpoint rw_prims (insize pos : Z) (ps : list patch) : list prim :=
  match ps with
  | [] => []
  | p :: r => (SNop K_CHECK, false, rewrite_out_of_order (rw_delta pos p))
              :: (if rewrite_copy_before (rw_delta pos p)
                  then [(SCopy iin it pos (rw_delta pos p), false, insize <? pos + rw_delta pos p)] else [])
              ++ (SNop K_SEEK_IN, false, false) :: (SWrite it (p_blob p), false, false) :: rw_prims insize (rw_next pos p) r
  end.
Fixpoint rw_final_pos (pos : Z) (ps : list patch) : Z :=
  match ps with [] => pos | p :: r => rw_final_pos (rw_next pos p) r end.
Definition rw_fill (insize : Z) (ps : list patch) : list pstep :=
  mk true 1 (rw_prims insize 0 ps) ++
  mk true 1 [(SCopy iin it (rw_final_pos 0 ps) (Z.max 0 (insize - rw_final_pos 0 ps)), false, false)] ++
  mk true 0 [(SNop K_CLOSE_IN, false, false)].

Lemma rw_prims_ok insize ps : forall pos, forallb (prim_ok 1) (rw_prims insize pos ps) = true.
Proof.
  induction ps as [|p ps IH]; intros pos; [reflexivity|].
  cbn [rw_prims forallb]. rewrite forallb_app. cbn [forallb]. rewrite IH.
  destruct (rewrite_copy_before (rw_delta pos p)); cbn; rewrite !Z.eqb_refl; reflexivity.
Qed.
Lemma rw_fill_ok insize ps : forallb ok1 (rw_fill insize ps) = true.
Proof.
  unfold rw_fill. rewrite !forallb_app, !mk_fill_ok; try reflexivity; [|apply rw_prims_ok].
  cbn. rewrite Z.eqb_refl. reflexivity.
Qed.
Lemma tmp_rw dat insize ps : iin <> it -> forall pos acc,
  tmp_eval dat (map (fun x : prim => fst (fst x)) (rw_prims insize pos ps)) acc ++ zdrop (rw_final_pos pos ps) (dat iin)
  = acc ++ spec_rewrite_from (dat iin) pos ps.
Proof.
  intros Hio. apply Z.eqb_neq in Hio. induction ps as [|p ps IH]; intros pos acc; [reflexivity|].
  cbn [rw_prims rw_final_pos spec_rewrite_from]. change (rewrite_copy_before (rw_delta pos p)) with (rw_delta pos p >? 0).
  destruct (rw_delta pos p >? 0); cbn [app map fst]; rewrite !tmp_eval_cons; cbn [tmp_step]; rewrite IH, <- ?app_assoc; [|reflexivity].
  rewrite Hio. unfold rw_delta, rewrite_delta. replace (pos + (p_off p - pos)) with (p_off p) by lia. reflexivity.
Qed.
Lemma rw_fill_content dat insize ps : iin <> it -> insize = zlen (dat iin) ->
  tmp_eval dat (ops_of (rw_fill insize ps)) [] = spec_rewrite_from (dat iin) 0 ps.
Proof.
  intros Hio ->. unfold rw_fill. rewrite !ops_of_app, !ops_mk, !tmp_eval_app. cbn [map fst tmp_eval fold_left tmp_step].
  rewrite (proj2 (Z.eqb_neq _ _) Hio), zslice_rest. apply (tmp_rw dat _ ps Hio 0 []).
Qed.

Definition msi_fill (insize nreads : Z) (e1 e2 : list edit) : list pstep :=
  mk false 2 [(SNop K_SEEK_IN, false, false); (SCopy iin it 0 insize, false, false); (SNop K_SEEK_TMP, false, false);
              (SNop K_CLOSE_IN, false, false)] ++
  mk true 1 (repeat (SNop K_PREAD_TMP, false, false) (Z.to_nat nreads)) ++
  mk true 1 (map (fun e => (edit_sop it e, false, false)) e1) ++ mk true 1 (map (fun e => (edit_sop it e, false, false)) e2).
Lemma msi_fill_ok insize nreads e1 e2 : forallb ok1 (msi_fill insize nreads e1 e2) = true.
Proof.
  unfold msi_fill. rewrite !forallb_app, !mk_fill_ok; try reflexivity; try (apply edits_ok; reflexivity); [apply nops_ok|].
  cbn. rewrite Z.eqb_refl. reflexivity.
Qed.
Lemma msi_fill_content dat insize nreads e1 e2 : iin <> it ->
  tmp_eval dat (ops_of (msi_fill insize nreads e1 e2)) [] = spec_msi (zslice 0 insize (dat iin)) (e1 ++ e2).
Proof.
  intros Hio. unfold msi_fill, spec_msi. rewrite !ops_of_app, !ops_mk, !map_map, !tmp_eval_app, tmp_nops, !tmp_edits, fold_left_app.
  cbn [map fst tmp_eval fold_left tmp_step]. rewrite (proj2 (Z.eqb_neq _ _) Hio). reflexivity.
Qed.

(* `interp` on the entries of script sc, leaving what the callees expand to (env) as it stands *)
Ltac run_script sc env guard := cbn [interp sc env guard e_cnd e_kind e_callee forallb negb andb orb Z.eqb Pos.eqb].

(* applyRewrite's script: what precedes the loop over the patches, the loop body, what follows *)
Lemma rw_pre_eq : sc_pre rewrite_script = [(0, 1, 0, nz); (1, 1, 0, nz); (2, 9, 0, nz)].
Proof. reflexivity. Qed.
Lemma rw_body_eq : sc_body rewrite_script = [(8, 1, 1, [2]); (3, 1, 1, [4]); (0, 1, 1, nz); (4, 1, 1, nz)].
Proof. reflexivity. Qed.
Lemma rw_post_eq : sc_post rewrite_script = [(5, 1, 0, nz); (6, 0, 0, nz); (7, 1, 0, nz)].
Proof. reflexivity. Qed.
Lemma rw_loop_eq en insize ps : forall pos,
  rw_loop pt pd it iin en insize true (sc_body rewrite_script) pos ps = (mk true 1 (rw_prims insize pos ps), rw_final_pos pos ps).
Proof.
  induction ps as [|p ps IH]; intros pos; [reflexivity|].
  cbn [rw_loop rw_prims rw_final_pos]. rewrite IH, rw_body_eq. run_script rewrite_script rw_env rw_guard.
  destruct (rewrite_copy_before (rw_delta pos p)); reflexivity.
Qed.

Section Env.
(* the environment of the run: ANY combination of failing calls; the destination is neither "-" nor a special file *)
Variables (en : oenv) (idest : ino).
Hypothesis Hdash : e_dash en = false.
Hypothesis Hspecial : e_special en = false.

(* the open phase, whatever fails: New is one call, the creation of the sibling temporary; when it fails New stops there and
   returns the error.  WriteAny (destination not "-", not special) is isSpecial's stat and New, nothing else. *)
Lemma new_steps_staged : new_steps_e pt pd it en it false 1 = [mkP (SCreate pt it) Abort [] (f_temp en)].
Proof. clear Hdash Hspecial. destruct en as [d s f1 f2 f3 f4 f5 f6 op]. destruct f1; reflexivity. Qed.
Lemma new_steps_staged2 : new_steps_e pt pd it en it false 2 = [mkP (SCreate pt it) Abort [SNop K_CLOSE_TMP; SUnlink pt] (f_temp en)].
Proof. clear Hdash Hspecial. destruct en as [d s f1 f2 f3 f4 f5 f6 op]. destruct f1; reflexivity. Qed.
Lemma writeany_steps_staged : writeany_steps_e pt pd it en idest false 1 =
  [mkP (SNop K_STAT_DEST) Ignore [] false; mkP (SCreate pt it) Abort [] (f_temp en)].
Proof. destruct en as [d s f1 f2 f3 f4 f5 f6 op]. cbn in Hdash, Hspecial. subst d s. destruct f1; reflexivity. Qed.
Lemma staged_finish pl : finish_plan pt it (o_handle (writeany_result en)) idest pl = pl.
Proof. destruct en as [d s f1 f2 f3 f4 f5 f6 op]. cbn in Hdash, Hspecial. subst d s. destruct f1; reflexivity. Qed.

(* The script of each strategy, interpreted, IS a staged plan: run the script, put in what the open phase is. *)
Lemma whole_plan_eq writes : whole_plan_e pt pd it en idest writes = staged_plan wa_pre (f_temp en) (whole_fill writes).
Proof.
  unfold whole_plan_e. rewrite staged_finish. run_script whole_script whole_env whole_guard.
  rewrite writeany_steps_staged. unfold staged_plan, whole_fill. rewrite <- !app_assoc. reflexivity.
Qed.
Lemma writefile_plan_eq data : writefile_plan_e pt pd it en idest data = staged_plan wa_pre (f_temp en) (writefile_fill data).
Proof.
  unfold writefile_plan_e. rewrite staged_finish. run_script writefile_script writefile_env writefile_env.
  rewrite writeany_steps_staged. reflexivity.
Qed.
Lemma pgp_plan_eq inline clearsign io :
  pgp_plan_gen_e pt pd it en idest false inline clearsign io = staged_plan wa_pre (f_temp en) (pgp_fill inline clearsign io).
Proof.
  unfold pgp_plan_gen_e, pgp_fill, pgp_guard, pgp_merges, pgp_merge_clearsign. rewrite staged_finish.
  destruct inline, clearsign; run_script pgp_script pgp_env pgp_env;
    rewrite writeany_steps_staged, ?merge_prims_cs_false; unfold staged_plan; rewrite <- ?app_assoc; reflexivity.
Qed.
Lemma rewrite_plan_eq insize ps : rewrite_plan_e pt pd it iin en insize ps =
  staged_plan (mk false 1 [(SNop K_SEEK_IN, false, false)]) (f_temp en) (rw_fill insize ps).
Proof.
  unfold rewrite_plan_e. cbv zeta. rewrite rw_pre_eq, rw_post_eq.
  change (armed_after (rw_guard 0 None) 2 false _) with true. rewrite rw_loop_eq.
  run_script rewrite_script rw_env rw_guard.
  rewrite new_steps_staged. unfold staged_plan, rw_fill. rewrite <- !app_assoc. reflexivity.
Qed.
Lemma msi_plan_eq insize nreads e1 e2 : msi_plan_e pt pd it iin en insize nreads e1 e2 =
  staged_plan (mk false 1 [(SNop K_READ_RESULT, false, false)]) (f_temp en) (msi_fill insize nreads e1 e2).
Proof.
  unfold msi_plan_e. run_script msi_script msi_env msi_env.
  unfold wip_plan_e. run_script writeinplace_script wip_env wip_env.
  rewrite new_steps_staged. unfold staged_plan, msi_fill. rewrite <- !app_assoc. reflexivity.
Qed.

Theorem whole_protocol_e writes : chk 0 (whole_plan_e pt pd it en idest writes) = Some 2%nat.
Proof. rewrite whole_plan_eq. apply check_staged; [reflexivity|apply whole_fill_ok]. Qed.
Theorem writefile_protocol_e data : chk 0 (writefile_plan_e pt pd it en idest data) = Some 2%nat.
Proof. rewrite writefile_plan_eq. apply check_staged; [reflexivity|apply writefile_fill_ok]. Qed.
Theorem rewrite_protocol_e insize ps : chk 0 (rewrite_plan_e pt pd it iin en insize ps) = Some 2%nat.
Proof. rewrite rewrite_plan_eq. apply check_staged; [reflexivity|apply rw_fill_ok]. Qed.
Theorem msi_protocol_e insize nreads e1 e2 : chk 0 (msi_plan_e pt pd it iin en insize nreads e1 e2) = Some 2%nat.
Proof. rewrite msi_plan_eq. apply check_staged; [reflexivity|apply msi_fill_ok]. Qed.
Theorem pgp_gen_protocol_e inline clearsign io : chk 0 (pgp_plan_gen_e pt pd it en idest false inline clearsign io) = Some 2%nat.
Proof. rewrite pgp_plan_eq. apply check_staged; [reflexivity|apply pgp_fill_ok]. Qed.
(* on the current source the final Flush of MergeClearSign is returned, so this is the plan of every PGP variant *)
Lemma flush_not_dropped : clearsign_flush_dropped = false.
Proof. reflexivity. Qed.
Theorem pgp_protocol_e inline clearsign io : chk 0 (pgp_plan_e pt pd it en idest inline clearsign io) = Some 2%nat.
Proof. unfold pgp_plan_e. rewrite flush_not_dropped. apply pgp_gen_protocol_e. Qed.
End Env.
End S.

(* nothing fails: the plans of the uninterrupted run *)
Section S0.
Variables (pt pd : path) (it iin : ino).
Theorem whole_protocol writes : check pt pd it 0 (whole_plan pt pd it writes) = Some 2%nat.
Proof. apply whole_protocol_e; reflexivity. Qed.
Theorem writefile_protocol data : check pt pd it 0 (writefile_plan pt pd it data) = Some 2%nat.
Proof. apply writefile_protocol_e; reflexivity. Qed.
Theorem rewrite_protocol insize ps : check pt pd it 0 (rewrite_plan pt pd it iin insize ps) = Some 2%nat.
Proof. apply rewrite_protocol_e. Qed.
Theorem msi_protocol insize nreads edits1 edits2 : check pt pd it 0 (msi_plan pt pd it iin insize nreads edits1 edits2) = Some 2%nat.
Proof. apply msi_protocol_e. Qed.
Theorem pgp_gen_protocol inline clearsign io : check pt pd it 0 (pgp_plan_gen pt pd it false inline clearsign io) = Some 2%nat.
Proof. apply pgp_gen_protocol_e; reflexivity. Qed.
Theorem pgp_protocol inline clearsign io : check pt pd it 0 (pgp_plan pt pd it inline clearsign io) = Some 2%nat.
Proof. unfold pgp_plan. rewrite flush_not_dropped. apply pgp_gen_protocol. Qed.
End S0.

(* binpatch.Apply: when is the input overwritten in place? *)
(* the shape of a patch set that can be applied by overwriting: every patch keeps its size, except that the last one may
   instead end exactly at the end of the file *)
Fixpoint shape_ok (ps : list patch) (in_size : Z) : Prop :=
  match ps with
  | [] => True
  | p :: r => match r with
              | [] => p_old p = zlen (p_blob p) \/ p_off p + p_old p = in_size
              | _ :: _ => p_old p = zlen (p_blob p) /\ shape_ok r in_size
              end
  end.

(* `i != len(p.Patches)-1` at the i-th patch, r being the patches after it *)
Lemma not_last_tail {A} i n (r : list A) : i + (1 + zlen r) = n -> apply_not_last i n = match r with [] => false | _ => true end.
Proof.
  intros H. unfold apply_not_last. destruct r as [|x r]; [rewrite zlen_nil in H|rewrite zlen_cons in H; pose proof (zlen_nonneg r)];
    destruct (Z.eqb_spec i (n - 1)); try reflexivity; lia.
Qed.

Lemma eligible_iff ps : forall i n in_size size, i + zlen ps = n ->
  (eligible_from i n ps in_size size <> None <-> shape_ok ps in_size).
Proof.
  induction ps as [|p r IH]; intros i n in_size size Hn; [cbn; split; [auto|discriminate]|].
  rewrite zlen_cons in Hn. cbn [eligible_from shape_ok]. rewrite (not_last_tail i n r Hn).
  unfold apply_same_size, apply_not_at_eof, apply_old_end.
  destruct (Z.eqb_spec (p_old p) (zlen (p_blob p))) as [E1|E1].
  - rewrite (IH (i + 1) n) by lia. destruct r; cbn; tauto.
  - destruct r as [|x r']; [|tauto].
    destruct (Z.eqb_spec (p_off p + p_old p) in_size); cbn [negb eligible_from]; split; try discriminate; tauto.
Qed.

Lemma has_links_false sys nlink : has_links sys nlink = false <-> (sys = true -> nlink = 1).
Proof. unfold has_links. destruct sys; cbn [negb]; [rewrite negb_false_iff, Z.eqb_eq|]; intuition congruence. Qed.
Lemma can_overwrite_true reg same links : can_overwrite reg same links = true <-> reg = true /\ same = true /\ links = false.
Proof. destruct reg, same, links; cbn; intuition congruence. Qed.
Lemma fallback_first_false lstat_fails can_ow cw :
  apply_fallback_first lstat_fails can_ow cw = false <-> lstat_fails = false /\ can_ow = true /\ cw = true.
Proof. destruct lstat_fails, can_ow, cw; cbn; intuition congruence. Qed.

(* in place is chosen exactly when: the input could be stat'ed, Lstat(outpath) succeeded and found a regular file that is
   the same file as the input and has no other hard link, and the patch set has the overwritable shape *)
Theorem inplace_iff st lst reg same sys cw nlink ps n :
  apply_decision st lst reg same sys cw nlink ps n <> None <->
  st = true /\ lst = true /\ reg = true /\ same = true /\ cw = true /\ (sys = true -> nlink = 1) /\ shape_ok ps n.
Proof.
  unfold apply_decision. destruct st; cbn [negb]; [|split; [intros H; contradiction|intros (H & _); discriminate]].
  destruct (apply_fallback_first _ _ _) eqn:F.
  - split; [intros H; contradiction|]. intros (_ & -> & -> & -> & -> & Hk & _).
    apply has_links_false in Hk. rewrite Hk in F. discriminate.
  - apply fallback_first_false in F as (Hl & (-> & -> & Hk)%can_overwrite_true & ->).
    apply negb_false_iff in Hl as ->. rewrite has_links_false in Hk.
    rewrite (eligible_iff ps 0 (zlen ps) n n) by lia. split; [intros H; repeat split; assumption|intros H; apply H].
Qed.

(* whenever in place is not chosen, Apply runs the write-rename protocol *)
Theorem apply_not_inplace_protocol_e pt pd it iin en insize ps :
  check pt pd it 0 (apply_plan_e pt pd it iin en None insize ps) = Some 2%nat.
Proof. unfold apply_plan_e. rewrite check_pre by reflexivity. apply rewrite_protocol_e. Qed.
Theorem apply_not_inplace_protocol pt pd it iin insize ps :
  check pt pd it 0 (apply_plan pt pd it iin None insize ps) = Some 2%nat.
Proof. apply apply_not_inplace_protocol_e. Qed.

(* destination "-" *)
Definition is_stdout (o : sop) : bool := match o with SStdout _ => true | _ => false end.
Lemma srun_no_file_effect ops s : forallb (fun o => is_nop o || is_stdout o) ops = true ->
  (forall q, dirent (srun ops s) q = dirent s q) /\ (forall i, idata (srun ops s) i = idata s i).
Proof.
  intros H. pattern (srun ops s). refine (srun_invariant _ _ _ ops s H _); [|auto].
  intros o s' Ho Hs'. destruct o; try discriminate; exact Hs'.
Qed.
Lemma stdout_ops pt pd prims : forallb stdout_prim_ok prims = true ->
  forallb (fun o => is_nop o || is_stdout o) (ops_of (stdout_plan pt pd prims)) = true.
Proof.
  unfold stdout_plan. rewrite ops_of_app, forallb_app, ops_mk. intros H. apply andb_true_iff. split; [revert H|reflexivity].
  apply forallb_map_impl. intros [[o i] n]. unfold stdout_prim_ok. cbn [fst]. destruct o; try discriminate; reflexivity.
Qed.

(* the file system of the witnesses: name 1 is inode 10 with content [1; 2], name 2 is inode 11 with content [7] *)
Definition s_demo : fsys :=
  mkFsys (fun q => if q =? 1 then Some (EFile 10) else if q =? 2 then Some (EFile 11) else None)
         (fun i => if i =? 10 then [1; 2] else if i =? 11 then [7] else []) [].

(* a patch set that is out of order, or reaches past the end of the input, fails by itself after the temporary exists *)
Example rewrite_natural_failures :
  natural_fault (rewrite_plan 3 2 20 10 2 [mkPatch 1 0 [9]; mkPatch 0 0 [8]]) <> None /\
  natural_fault (rewrite_plan 3 2 20 10 2 [mkPatch 5 0 [9]]) <> None /\
  natural_fault (rewrite_plan 3 2 20 10 2 [mkPatch 1 1 [9]]) = None.
Proof. repeat apply conj; vm_compute; discriminate || reflexivity. Qed.
