(* C13/FsProofs.v — what the write-rename protocol guarantees: every plan accepted by `check` is crash safe at every
   call boundary, leaves no temporary after an error at any step, and never touches an existing inode.
   `check` is taken apart once, into the relation `accepts` of a single step (check_one); INV ph is what holds of the disk in
   phase ph, and every accepted step carries it to the next phase (accepts_inv).  The theorems come in two layers: directory
   entries and inodes first (protocol_crash, protocol_fault_abort), then what a reader of the names sees (the _read theorems),
   for which the temporary's inode must be new and nothing may link to its name. *)
From Relic Require Import Base.Prelude Base.Lists C13.Fs.

Lemma srun_app a b s : srun (a ++ b) s = srun b (srun a s).
Proof. unfold srun. apply fold_left_app. Qed.
Lemma srun_cons o r s : srun (o :: r) s = srun r (sstep s o).
Proof. reflexivity. Qed.
Lemma ops_of_app a b : ops_of (a ++ b) = ops_of a ++ ops_of b.
Proof. unfold ops_of. apply map_app. Qed.
Lemma ops_of_firstn k pl : ops_of (firstn k pl) = firstn k (ops_of pl).
Proof. unfold ops_of. symmetry. apply firstn_map. Qed.

Lemma srun_split ops n o s : nth_error ops n = Some o ->
  srun ops s = srun (skipn (S n) ops) (sstep (srun (firstn n ops) s) o).
Proof. intros H. rewrite (split_at_nth _ _ _ H) at 1. rewrite srun_app, srun_cons. reflexivity. Qed.

(* what every operation of a kind preserves, a run of such operations preserves *)
Lemma srun_invariant (P : sop -> bool) (I : fsys -> Prop) :
  (forall o s, P o = true -> I s -> I (sstep s o)) -> forall ops s, forallb P ops = true -> I s -> I (srun ops s).
Proof.
  intros Hstep. induction ops as [|o ops IH]; intros s H Hs; [exact Hs|].
  cbn [forallb] in H. apply andb_true_iff in H as [Ho Hr]. rewrite srun_cons. apply IH; [exact Hr|]. apply Hstep; assumption.
Qed.

Lemma srun_nops c s : forallb is_nop c = true -> srun c s = s.
Proof.
  intros H. pattern (srun c s). refine (srun_invariant _ _ _ c s H eq_refl).
  intros o s' Ho ->. destruct o; try discriminate. reflexivity.
Qed.

Lemma is_abort_eq e : is_abort e = true -> e = Abort.
Proof. destruct e; [discriminate|reflexivity]. Qed.

Lemma set_data_same s i d : idata (set_data s i d) i = d.
Proof. cbn. now rewrite Z.eqb_refl. Qed.
Lemma set_data_other s i d j : j <> i -> idata (set_data s i d) j = idata s j.
Proof. intros H. cbn. destruct (j =? i) eqn:E; [apply Z.eqb_eq in E; contradiction|reflexivity]. Qed.
Lemma set_dir_same s p e : dirent (set_dir s p e) p = e.
Proof. cbn. now rewrite Z.eqb_refl. Qed.
Lemma set_dir_other s p e q : q <> p -> dirent (set_dir s p e) q = dirent s q.
Proof. intros H. cbn. destruct (q =? p) eqn:E; [apply Z.eqb_eq in E; contradiction|reflexivity]. Qed.

Lemma natural_fault_nth pl : forall n, natural_fault pl = Some n -> exists st, nth_error pl n = Some st /\ p_natfail st = true.
Proof.
  induction pl as [|st pl IH]; intros n H; [discriminate|].
  cbn [natural_fault] in H. destruct (p_natfail st) eqn:E.
  - injection H as <-. exists st. split; [reflexivity|exact E].
  - destruct (natural_fault pl) as [k|]; [|discriminate]. injection H as <-. destruct (IH k eq_refl) as [st' [H1 H2]].
    exists st'. split; assumption.
Qed.

Section Proto.
Variables (pt pd : path) (it : ino) (s0 : fsys).
Hypothesis Hneq : pt <> pd.
Hypothesis Hpt0 : dirent s0 pt = None.

Notation check := (check pt pd it).

Lemma check_app a : forall ph b, check ph (a ++ b) = match check ph a with Some ph1 => check ph1 b | None => None end.
Proof.
  induction a as [|st a IH]; intros ph b; [reflexivity|].
  cbn [app]. destruct ph as [|[|ph]]; cbn [Fs.check]; [| |reflexivity];
    destruct (p_op st); try reflexivity;
    match goal with |- context [if ?c then _ else _] => destruct c end; try apply IH; reflexivity.
Qed.

Lemma check_done ph pl ph' : (2 <= ph)%nat -> check ph pl = Some ph' -> pl = [] /\ ph' = ph.
Proof.
  intros H. destruct ph as [|[|ph]]; try lia. destruct pl; cbn; intros E; [injection E as <-; auto|discriminate].
Qed.

(* `check`, one step at a time: st is accepted in phase ph and leads to phase ph1.  What follows reasons about an accepted
   plan by cases on this relation, not on the text of `check`. *)
Inductive accepts : nat -> pstep -> nat -> Prop :=
| acc_before st : is_nop (p_op st) = true -> cleanup_none (p_cleanup st) = true -> natfail_ok st = true -> accepts 0 st 0
| acc_create st : p_op st = SCreate pt it -> p_onerr st = Abort -> cleanup_none (p_cleanup st) = true -> accepts 0 st 1
| acc_fill st : step_ok1 pt it st = true -> accepts 1 st 1
| acc_rename st : p_op st = SRename pt pd -> p_onerr st = Abort -> cleanup_removes pt (p_cleanup st) = true -> accepts 1 st 2.

Lemma check_one ph st ph1 : check ph [st] = Some ph1 <-> accepts ph st ph1.
Proof.
  split.
  - destruct ph as [|[|ph]]; cbn [Fs.check]; [| |discriminate]; destruct (p_op st) eqn:Eo; try discriminate;
      (match goal with |- (if ?g then _ else _) = _ -> _ => destruct g eqn:Eg; [|discriminate] end); intros [= <-];
      try (apply acc_fill, Eg); rewrite !andb_true_iff in Eg.
    + destruct Eg as [[[Ep Ei] Ea] Ec]. apply Z.eqb_eq in Ep, Ei. subst. apply acc_create; auto using is_abort_eq.
    + destruct Eg as [Ec En]. apply acc_before; [rewrite Eo; reflexivity|exact Ec|exact En].
    + destruct Eg as [[[Ea Eb] Ee] Ec]. apply Z.eqb_eq in Ea, Eb. subst. apply acc_rename; auto using is_abort_eq.
  - intros [x H1 H2 H3|x H1 H2 H3|x H|x H1 H2 H3]; cbn [Fs.check].
    + destruct (p_op x); try discriminate. rewrite H2, H3. reflexivity.
    + rewrite H1, H2, H3, !Z.eqb_refl. reflexivity.
    + destruct (p_op x) eqn:Eo; rewrite ?H; try reflexivity. unfold step_ok1 in H. rewrite Eo in H. discriminate.
    + rewrite H1, H2, H3, !Z.eqb_refl. reflexivity.
Qed.

Lemma check_cons ph st ph1 r : accepts ph st ph1 -> check ph (st :: r) = check ph1 r.
Proof. intros H. apply check_one in H. change (st :: r) with ([st] ++ r). rewrite check_app, H. reflexivity. Qed.

Lemma check_cons_inv ph st r ph' : check ph (st :: r) = Some ph' -> exists ph1, accepts ph st ph1 /\ check ph1 r = Some ph'.
Proof.
  change (st :: r) with ([st] ++ r). rewrite check_app. destruct (check ph [st]) as [ph1|] eqn:E; [|discriminate].
  exists ph1. split; [apply check_one, E|assumption].
Qed.

(* the n-th step of an accepted plan is accepted in the phase its predecessors lead to *)
Lemma check_nth pl ph ph' n st : check ph pl = Some ph' -> nth_error pl n = Some st ->
  exists ph1 ph2, check ph (firstn n pl) = Some ph1 /\ accepts ph1 st ph2.
Proof.
  intros Hc Hn. rewrite (split_at_nth _ _ _ Hn), check_app in Hc.
  destruct (check ph (firstn n pl)) as [ph1|]; [|discriminate].
  apply check_cons_inv in Hc as (ph2 & Ha & _). exists ph1, ph2. split; [reflexivity|exact Ha].
Qed.

(* steps that are accepted without leaving the phase can be skipped *)
Lemma check_stay ph (Q : pstep -> bool) l r :
  (forall st, Q st = true -> accepts ph st ph) -> forallb Q l = true -> check ph (l ++ r) = check ph r.
Proof.
  intros HQ. induction l as [|st l IH]; intros H; [reflexivity|].
  cbn [forallb] in H. apply andb_true_iff in H as [Hs Hl]. cbn [app]. rewrite (check_cons ph st ph) by apply HQ, Hs. exact (IH Hl).
Qed.

Lemma accepts_phase ph st ph1 : accepts ph st ph1 -> (ph <= 1)%nat.
Proof. intros []; lia. Qed.

Lemma ok1_local st : step_ok1 pt it st = true -> local_op it (p_op st) = true.
Proof. unfold step_ok1. intros H. apply andb_true_iff in H as [H _]. exact H. Qed.

(* what the error handling of an accepted step is: a failure that is ignored is the failure of a call without effect ... *)
Lemma accepts_ignore ph st ph1 : accepts ph st ph1 -> p_onerr st = Ignore -> is_nop (p_op st) = true.
Proof.
  intros [x H1 _ _|x _ H2 _|x H|x _ H2 _] Hi; try congruence.
  unfold step_ok1 in H. rewrite Hi in H. apply andb_true_iff in H as [_ H]. apply andb_true_iff in H as [H _]. exact H.
Qed.
(* ... giving up runs no call with an effect before the temporary exists, and unlinks the temporary afterwards ... *)
Lemma accepts_abort ph st ph1 : accepts ph st ph1 -> p_onerr st = Abort ->
  match ph with O => cleanup_none (p_cleanup st) | _ => cleanup_removes pt (p_cleanup st) end = true.
Proof.
  intros [x _ H2 _|x _ _ H3|x H|x _ _ H3] Ha; try assumption.
  unfold step_ok1 in H. rewrite Ha in H. apply andb_true_iff in H as [_ H]. exact H.
Qed.
(* ... and a step that fails by itself is never one whose failure is ignored *)
Lemma accepts_natfail ph st ph1 : accepts ph st ph1 -> natfail_ok st = true.
Proof.
  unfold natfail_ok. intros [x _ _ H3|x _ H2 _|x H|x _ H2 _]; rewrite ?H2, ?orb_true_r; try reflexivity; [exact H3|].
  unfold step_ok1 in H. apply andb_true_iff in H as [_ H].
  destruct (p_onerr x); [apply andb_true_iff in H as [_ H]; rewrite H; reflexivity|apply orb_true_r].
Qed.
Lemma natural_fault_aborts pl ph' n : check 0 pl = Some ph' -> natural_fault pl = Some n ->
  exists st, nth_error pl n = Some st /\ p_onerr st = Abort.
Proof.
  intros Hc H. destruct (natural_fault_nth pl n H) as (st & Hn & Hf). exists st. split; [exact Hn|].
  destruct (check_nth _ _ _ _ _ Hc Hn) as (ph1 & ph2 & _ & Hacc). apply accepts_natfail in Hacc.
  unfold natfail_ok in Hacc. rewrite Hf in Hacc. apply is_abort_eq, Hacc.
Qed.

(* the three phases: nothing created yet; the temporary exists; it has been renamed over the destination *)
Definition INV (ph : nat) (s : fsys) : Prop :=
  match ph with
  | O => (forall q, dirent s q = dirent s0 q) /\ (forall i, idata s i = idata s0 i)
  | S O => dirent s pt = Some (EFile it) /\ (forall q, q <> pt -> dirent s q = dirent s0 q) /\ (forall i, i <> it -> idata s i = idata s0 i)
  | _ => dirent s pt = None /\ dirent s pd = Some (EFile it) /\
         (forall q, q <> pt -> q <> pd -> dirent s q = dirent s0 q) /\ (forall i, i <> it -> idata s i = idata s0 i)
  end.

(* a local operation: dirent unchanged, only inode `it` changes *)
Lemma local_effect o s : local_op it o = true ->
  (forall q, dirent (sstep s o) q = dirent s q) /\ (forall i, i <> it -> idata (sstep s o) i = idata s i).
Proof.
  destruct o; cbn [local_op]; intros H; try discriminate; try (apply Z.eqb_eq in H; subst);
    cbn [sstep]; split; intros; try reflexivity; try (rewrite set_data_other by assumption; reflexivity).
Qed.

Lemma local_inv1 o s : local_op it o = true -> INV 1 s -> INV 1 (sstep s o).
Proof.
  intros Hl (H1 & H2 & H3). destruct (local_effect o s Hl) as [Hd Hi].
  cbn [INV]. rewrite Hd. split; [exact H1|]. split.
  - intros q Hq. rewrite Hd. apply H2, Hq.
  - intros i Hi'. rewrite Hi by assumption. apply H3, Hi'.
Qed.

Lemma locals_inv1 c s : forallb (local_op it) c = true -> INV 1 s -> INV 1 (srun c s).
Proof. exact (srun_invariant (local_op it) (INV 1) local_inv1 c s). Qed.

Lemma create_inv s : INV 0 s -> INV 1 (sstep s (SCreate pt it)).
Proof.
  intros [H1 H2]. cbn [INV sstep]. split; [apply set_dir_same|]. split.
  - intros q Hq. cbn [set_data dirent]. rewrite set_dir_other by assumption. apply H1.
  - intros i Hi. rewrite set_data_other by assumption. apply H2.
Qed.

Lemma rename_inv s : INV 1 s -> INV 2 (sstep s (SRename pt pd)).
Proof.
  intros (H1 & H2 & H3). cbn [INV sstep].
  destruct (pt =? pd) eqn:E; [apply Z.eqb_eq in E; contradiction|]. rewrite H1.
  split; [apply set_dir_same|]. split; [|split].
  - rewrite set_dir_other by (intro; apply Hneq; congruence). apply set_dir_same.
  - intros q Hq1 Hq2. rewrite !set_dir_other by assumption. apply H2, Hq1.
  - intros i Hi. apply H3, Hi.
Qed.

Lemma accepts_inv ph st ph1 s : accepts ph st ph1 -> INV ph s -> INV ph1 (sstep s (p_op st)).
Proof.
  intros [x H1 _ _|x H1 _ _|x H|x H1 _ _] Hs; rewrite ?H1.
  - destruct (p_op x); try discriminate. exact Hs.
  - apply create_inv, Hs.
  - apply local_inv1; [apply ok1_local, H|exact Hs].
  - apply rename_inv, Hs.
Qed.

(* running an accepted plan moves from phase to phase *)
Lemma run_inv pl : forall ph ph' s, check ph pl = Some ph' -> INV ph s -> INV ph' (srun (ops_of pl) s).
Proof.
  induction pl as [|st pl IH]; intros ph ph' s Hc Hs.
  - cbn in Hc. injection Hc as <-. exact Hs.
  - apply check_cons_inv in Hc as (ph1 & Ha & Hc). apply (IH ph1); [exact Hc|]. apply (accepts_inv ph), Hs. exact Ha.
Qed.

Lemma INV0_s0 : INV 0 s0.
Proof. split; reflexivity. Qed.

(* in every phase the old inodes, and the names other than the temporary's and the destination's, are as at the start *)
Lemma INV_frame ph s : INV ph s ->
  (forall i, i <> it -> idata s i = idata s0 i) /\ (forall q, q <> pt -> q <> pd -> dirent s q = dirent s0 q).
Proof.
  destruct ph as [|[|ph]]; [intros [H1 H2]|intros (_ & H1 & H2)|intros (_ & _ & H1 & H2)]; split; auto.
Qed.

Lemma partial_local o m : local_op it o = true -> forallb (local_op it) (partial o m) = true.
Proof. destruct o; cbn; intros H; try discriminate; try rewrite H; reflexivity. Qed.

(* a call that fails, having done part of its work, leaves the phase it was made in *)
Lemma partial_inv ph st ph1 m s : accepts ph st ph1 -> INV ph s -> INV ph (srun (partial (p_op st) m) s).
Proof.
  intros [x H1 _ _|x H1 _ _|x H|x H1 _ _] Hs; rewrite ?H1; try exact Hs.
  - destruct (p_op x); try discriminate. exact Hs.
  - apply locals_inv1; [apply partial_local, ok1_local, H|exact Hs].
Qed.

Theorem protocol_crash pl ph' k :
  check 0 pl = Some ph' ->
  let s := scrash k pl s0 in
  let new := idata (srun (ops_of pl) s0) it in
  (forall i, i <> it -> idata s i = idata s0 i) /\
  (forall q, q <> pt -> q <> pd -> dirent s q = dirent s0 q) /\
  ((dirent s pd = dirent s0 pd /\ (dirent s pt = None \/ dirent s pt = Some (EFile it))) \/
   (dirent s pd = Some (EFile it) /\ dirent s pt = None /\ idata s it = new)).
Proof.
  intros Hc. cbv zeta. unfold scrash. rewrite <- ops_of_firstn.
  rewrite <- (firstn_skipn k pl) in Hc. rewrite check_app in Hc.
  destruct (check 0 (firstn k pl)) as [ph1|] eqn:E1; [|discriminate].
  pose proof (run_inv _ _ _ _ E1 INV0_s0) as Hinv. destruct (INV_frame _ _ Hinv) as [Hi Hq].
  split; [exact Hi|]. split; [exact Hq|]. destruct ph1 as [|[|ph1]].
  - destruct Hinv as [H1 _]. left. rewrite !H1. auto.
  - destruct Hinv as (H1 & H2 & _). left. split; [apply H2; congruence|right; exact H1].
  - destruct Hinv as (H1 & H2 & _). right. split; [exact H2|]. split; [exact H1|].
    apply check_done in Hc as [Hnil _]; [|lia].
    rewrite <- (firstn_skipn k pl) at 2. rewrite Hnil, app_nil_r. reflexivity.
Qed.

Lemma cleanup_frame c s : forallb (fun o => is_nop o || is_unlink_t pt o) c = true ->
  (forall q, q <> pt -> dirent (srun c s) q = dirent s q) /\ (forall i, idata (srun c s) i = idata s i) /\
  (dirent s pt = None -> dirent (srun c s) pt = None).
Proof.
  intros H. pattern (srun c s). refine (srun_invariant _ _ _ c s H _); [|auto].
  intros o s' Ho (I1 & I2 & I3). destruct o; try discriminate Ho; [exact (conj I1 (conj I2 I3))|].
  apply Z.eqb_eq in Ho. subst p. cbn [sstep]. split; [|split; [exact I2|intros _; apply set_dir_same]].
  intros q Hq. rewrite set_dir_other by exact Hq. apply I1, Hq.
Qed.

Lemma cleanup_unlinks c : forall s, cleanup_removes pt c = true -> dirent (srun c s) pt = None.
Proof.
  unfold cleanup_removes. induction c as [|o c IH]; intros s H; [discriminate|].
  apply andb_true_iff in H as [He Ha]. cbn [existsb forallb] in *. apply andb_true_iff in Ha as [Ho Hc].
  rewrite srun_cons. destruct (is_unlink_t pt o) eqn:Eu.
  - destruct o; try discriminate. cbn in Eu. apply Z.eqb_eq in Eu. subst p.
    apply (cleanup_frame c (sstep s (SUnlink pt)) Hc). cbn [sstep]. apply set_dir_same.
  - cbn [orb] in He. apply IH. rewrite He, Hc. reflexivity.
Qed.

Lemma removes_not_none c : cleanup_removes pt c = true -> cleanup_none c = false.
Proof.
  unfold cleanup_removes, cleanup_none. intros H. apply andb_true_iff in H as [H _].
  induction c as [|o c IH]; [discriminate|]. cbn [existsb forallb] in *. destruct o; try reflexivity. apply IH, H.
Qed.

(* giving up, before the temporary exists or while it does, leaves every name and every old inode as at the start *)
Lemma cleanup_restores ph c s :
  INV ph s -> match ph with O => cleanup_none c | _ => cleanup_removes pt c end = true -> (ph <= 1)%nat ->
  (forall q, dirent (srun c s) q = dirent s0 q) /\ (forall i, i <> it -> idata (srun c s) i = idata s0 i).
Proof.
  intros Hs Hc Hph. destruct ph as [|[|ph]]; [| |lia].
  - rewrite (srun_nops _ _ Hc). destruct Hs as [H1 H2]. split; [exact H1|intros; apply H2].
  - destruct Hs as (_ & I2 & I3). pose proof (cleanup_unlinks _ s Hc) as Hu.
    apply andb_true_iff in Hc as [_ Hall]. destruct (cleanup_frame _ s Hall) as (F1 & F2 & _). split.
    + intros q. destruct (Z.eq_dec q pt) as [->|Hq]; [rewrite Hu, Hpt0; reflexivity|]. rewrite F1 by assumption. apply I2, Hq.
    + intros i Hi. rewrite F2. apply I3, Hi.
Qed.

(* the state in which the n-th call of an accepted plan fails *)
Lemma fault_state pl ph' n m st : check 0 pl = Some ph' -> nth_error pl n = Some st ->
  exists ph1 ph2, accepts ph1 st ph2 /\ INV ph1 (srun (partial (p_op st) m) (srun (firstn n (ops_of pl)) s0)).
Proof.
  intros Hc Hn. destruct (check_nth _ _ _ _ _ Hc Hn) as (ph1 & ph2 & E1 & Ha).
  exists ph1, ph2. split; [exact Ha|]. apply (partial_inv _ _ _ _ _ Ha). rewrite <- ops_of_firstn. exact (run_inv _ _ _ _ E1 INV0_s0).
Qed.

Theorem protocol_fault_abort pl ph' n m st :
  check 0 pl = Some ph' -> nth_error pl n = Some st -> p_onerr st = Abort ->
  let s := fault n m pl s0 in
  (forall q, dirent s q = dirent s0 q) /\ (forall i, i <> it -> idata s i = idata s0 i).
Proof.
  intros Hc Hn Ha. cbv zeta. unfold fault. rewrite Hn, Ha.
  destruct (fault_state _ _ _ m _ Hc Hn) as (ph1 & ph2 & Hacc & Hinv).
  exact (cleanup_restores _ _ _ Hinv (accepts_abort _ _ _ Hacc Ha) (accepts_phase _ _ _ Hacc)).
Qed.

(* an ignored failure is always a failure of a call without effect: the run is the normal run *)
Theorem protocol_fault_ignore pl ph' n m st :
  check 0 pl = Some ph' -> nth_error pl n = Some st -> p_onerr st = Ignore ->
  fault n m pl s0 = srun (ops_of pl) s0.
Proof.
  intros Hc Hn Hi. unfold fault. rewrite Hn, Hi.
  destruct (check_nth _ _ _ _ _ Hc Hn) as (ph1 & ph2 & _ & Hacc). pose proof (accepts_ignore _ _ _ Hacc Hi) as Hnop.
  rewrite (srun_split (ops_of pl) n (p_op st)) by apply map_nth_error, Hn. destruct (p_op st); try discriminate. reflexivity.
Qed.

(* the same facts as a reader of the names sees them: for that the temporary's inode and name must be new as well *)
Hypothesis Hfresh_ino : forall q, dirent s0 q <> Some (EFile it).
Hypothesis Hfresh_link : forall q, dirent s0 q <> Some (ELink pt).

Lemma read_same_dir s p :
  dirent s p = dirent s0 p ->
  (forall q, dirent s0 p = Some (ELink q) -> dirent s q = dirent s0 q) ->
  (forall i, i <> it -> idata s i = idata s0 i) -> sread s p = sread s0 p.
Proof.
  intros Hd Hl Hi. unfold sread, resolve. rewrite Hd.
  destruct (dirent s0 p) as [[i|q|]|] eqn:E; try reflexivity.
  - cbn. f_equal. apply Hi. intros ->. apply (Hfresh_ino p). exact E.
  - rewrite (Hl q eq_refl). destruct (dirent s0 q) as [[i| |]|] eqn:E2; try reflexivity.
    cbn. f_equal. apply Hi. intros ->. apply (Hfresh_ino q). exact E2.
Qed.

Lemma other_names s :
  (forall q, q <> pt -> q <> pd -> dirent s q = dirent s0 q) -> (forall i, i <> it -> idata s i = idata s0 i) ->
  spec_other_names pt pd s0 s.
Proof.
  intros Hq Hi q Hq1 Hq2 Hq3. split; [|apply Hq; assumption]. apply read_same_dir; [apply Hq; assumption| |exact Hi].
  intros q' E. apply Hq; [intros ->; apply (Hfresh_link q); exact E|intros ->; apply Hq3; exact E].
Qed.

Theorem protocol_crash_read pl ph' k :
  check 0 pl = Some ph' ->
  let s := scrash k pl s0 in
  let new := idata (srun (ops_of pl) s0) it in
  spec_dest_old_or_new pd new s0 s /\ spec_dest_not_lost pd s0 s /\
  spec_inodes_untouched it s0 s /\ spec_other_names pt pd s0 s.
Proof.
  intros Hc. cbv zeta. destruct (protocol_crash pl ph' k Hc) as (Hi & Hq & Hd). cbv zeta in *.
  set (s := scrash k pl s0) in *.
  assert (Hr : spec_dest_old_or_new pd (idata (srun (ops_of pl) s0) it) s0 s).
  { destruct Hd as [[Hd _]|(Hd & _ & Hn)]; [left|right].
    - apply read_same_dir; [exact Hd| |exact Hi].
      intros q' E. destruct (Z.eq_dec q' pd) as [->|Hne]; [exact Hd|].
      apply Hq; [intros ->; apply (Hfresh_link pd); exact E|exact Hne].
    - unfold sread, resolve. rewrite Hd. cbn. f_equal. exact Hn. }
  split; [exact Hr|]. split; [|split; [exact Hi|exact (other_names s Hq Hi)]].
  (* old or new, hence not lost *)
  intros H. destruct Hr as [-> | ->]; [exact H|discriminate].
Qed.

Theorem protocol_complete_read pl :
  check 0 pl = Some 2%nat ->
  let s := srun (ops_of pl) s0 in
  sread s pd = Some (idata s it) /\ spec_no_temp pt s /\ spec_inodes_untouched it s0 s /\ spec_other_names pt pd s0 s.
Proof.
  intros Hc. cbv zeta. destruct (run_inv _ _ _ _ Hc INV0_s0) as (H1 & H2 & H3 & H4).
  split; [unfold sread, resolve; rewrite H2; reflexivity|]. split; [exact H1|]. split; [exact H4|exact (other_names _ H3 H4)].
Qed.

Theorem protocol_fault_read pl ph' n m st :
  check 0 pl = Some ph' -> nth_error pl n = Some st -> p_onerr st = Abort ->
  let s := fault n m pl s0 in
  (forall p, sread s p = sread s0 p) /\ spec_no_temp pt s /\ spec_inodes_untouched it s0 s.
Proof.
  intros Hc Hn Ha. cbv zeta. destruct (protocol_fault_abort pl ph' n m st Hc Hn Ha) as [Hd Hi]. cbv zeta in *.
  split; [|split; [unfold spec_no_temp; rewrite Hd; exact Hpt0|exact Hi]].
  intros p. apply read_same_dir; [apply Hd|intros; apply Hd|exact Hi].
Qed.
End Proto.

Theorem protocol_safe pt pd it s0 pl :
  pt <> pd -> fresh pt it s0 -> check pt pd it 0 pl = Some 2%nat -> safe_plan pt pd it s0 pl.
Proof.
  intros Hneq (Hpt0 & Hino & Hlink) Hc. unfold safe_plan. cbv zeta.
  split; [intros k; apply (protocol_crash_read pt pd it s0 Hneq Hpt0 Hino Hlink pl _ k Hc)|].
  split; [apply (protocol_complete_read pt pd it s0 Hneq Hino Hlink pl Hc)|].
  split.
  - intros n m st Hn. destruct (p_onerr st) eqn:Ee.
    + apply (protocol_fault_ignore pt pd it s0 pl _ n m st Hc Hn Ee).
    + apply (protocol_fault_read pt pd it s0 Hneq Hpt0 Hino pl _ n m st Hc Hn Ee).
  - intros n H. unfold outcome. rewrite H. destruct (natural_fault_aborts pt pd it pl _ n Hc H) as (st & Hn & Ee).
    apply (protocol_fault_read pt pd it s0 Hneq Hpt0 Hino pl _ n 0 st Hc Hn Ee).
Qed.

(* sequential signings to one destination: each starts in the state its predecessors leave, with a temporary that is new there *)
Fixpoint jobs_ok (pd : path) (jobs : list job) (s : fsys) : Prop :=
  match jobs with
  | [] => True
  | j :: r => j_pt j <> pd /\ fresh (j_pt j) (j_it j) s /\ check (j_pt j) pd (j_it j) 0 (j_plan j) = Some 2%nat /\
              jobs_ok pd r (srun (ops_of (j_plan j)) s)
  end.
Definition job_content (j : job) (s : fsys) : bytes := idata (srun (ops_of (j_plan j)) s) (j_it j).

(* the last of a sequence of signings runs in the state its predecessors leave, and is in order there *)
Lemma run_jobs_snoc jobs j : forall s, run_jobs (jobs ++ [j]) s = srun (ops_of (j_plan j)) (run_jobs jobs s).
Proof. induction jobs as [|x jobs IH]; intros s; [reflexivity|apply IH]. Qed.
Lemma jobs_ok_last pd jobs j : forall s, jobs_ok pd (jobs ++ [j]) s -> jobs_ok pd [j] (run_jobs jobs s).
Proof. induction jobs as [|x jobs IH]; intros s H; [exact H|]. destruct H as (_ & _ & _ & H). apply IH, H. Qed.
