(* C16/Proofs.v — the SignedData model: what parsing establishes, re-parsing of what is emitted, regions, attribute digest
   preimage, builder attributes, timestamp embedding, agreement with the RFC 5652 walker. *)
From Relic Require Import Base.Prelude Base.Enc Generated.C16_gen C16.Model C16.Tlv.


(* the values srcgen read from lib/pkcs7 (re-checked on every build) *)
Lemma layout_ok_true : layout_ok = true. Proof. vm_compute. reflexivity. Qed.
Lemma OCT_dalgs_v : OCT_dalgs = 49. Proof. reflexivity. Qed.
Lemma OCT_certs_v : OCT_certs = 160. Proof. reflexivity. Qed.
Lemma OCT_crls_v : OCT_crls = 161. Proof. reflexivity. Qed.
Lemma OCT_sis_v : OCT_sis = 49. Proof. reflexivity. Qed.
Lemma OCT_auth_v : OCT_auth = 160. Proof. reflexivity. Qed.
Lemma OCT_unauth_v : OCT_unauth = 161. Proof. reflexivity. Qed.
Lemma OCT_explicit_v : OCT_explicit = 160. Proof. reflexivity. Qed.
Lemma OCT_explicit_prim_v : OCT_explicit_prim = 128. Proof. reflexivity. Qed.
Lemma certs_opt_v : SD_Certificates_opt = true. Proof. reflexivity. Qed.
Lemma crls_opt_v : SD_CRLs_opt = true. Proof. reflexivity. Qed.
Lemma certs_set_v : certs_set = false. Proof. reflexivity. Qed.
Lemma dalgs_set_v : SD_DigestAlgorithmIdentifiers_set = true. Proof. reflexivity. Qed.
Lemma sis_set_v : SD_SignerInfos_set = true. Proof. reflexivity. Qed.
Lemma auth_opt_v : SI_AuthenticatedAttributes_opt = true. Proof. reflexivity. Qed.
Lemma unauth_opt_v : SI_UnauthenticatedAttributes_opt = true. Proof. reflexivity. Qed.
Lemma auth_set_v : SI_AuthenticatedAttributes_set || attrs_set = false. Proof. reflexivity. Qed.
Lemma unauth_set_v : SI_UnauthenticatedAttributes_set || attrs_set = false. Proof. reflexivity. Qed.
Lemma attrs_set_v : attrs_set = false. Proof. reflexivity. Qed.
Lemma si_keeps_raw_v : si_keeps_raw = true. Proof. reflexivity. Qed.
Lemma ci_keeps_raw_v : ci_keeps_raw = true. Proof. reflexivity. Qed.

Lemma tag_ok_const t : (0 <=? t) && (t <? 256) && negb (t mod 32 =? 31) = true -> tag_ok t.
Proof. intros H. unfold tag_ok. lia. Qed.
Ltac tagok := apply tag_ok_const; reflexivity.

Lemma read_expect_inv oct l t rest : read_expect oct l = Ok (t, rest) -> read_tlv l = Ok (t, rest) /\ t_tag t = oct.
Proof.
  unfold read_expect. intros H. apply bind_ok in H as ([t' r'] & E & H). cbn [fst] in H.
  destruct (t_tag t' =? oct) eqn:Et; [|discriminate]. inversion H; subst. split; [exact E|lia].
Qed.
Lemma read_expect_valid oct t rest : valid t -> t_tag t = oct -> read_expect oct (t_full t ++ rest) = Ok (t, rest).
Proof.
  intros Hv Ht. unfold read_expect. rewrite read_tlv_valid by exact Hv. cbn [bind fst]. rewrite Ht, Z.eqb_refl. reflexivity.
Qed.
Lemma read_expect_full oct t : valid t -> t_tag t = oct -> read_expect oct (t_full t) = Ok (t, []).
Proof. intros Hv Ht. rewrite <- (app_nil_r (t_full t)). apply read_expect_valid; assumption. Qed.
Lemma read_expect_enc oct body rest : tag_ok oct -> small body ->
  read_expect oct (enc_tlv oct body ++ rest) = Ok (mkTlv oct body (enc_tlv oct body), rest).
Proof.
  intros Ht Hs. unfold read_expect. rewrite read_tlv_enc by assumption. cbn [bind fst t_tag]. rewrite Z.eqb_refl. reflexivity.
Qed.

Lemma read_expect_ok oct l t rest : all_bytes l = true -> read_expect oct l = Ok (t, rest) ->
  l = t_full t ++ rest /\ valid t /\ t_tag t = oct /\ all_bytes rest = true.
Proof.
  intros Hb H. apply read_expect_inv in H as [H Ht]. apply read_tlv_ok in H as (Hl & Hv & Hr); [|exact Hb]. tauto.
Qed.

Lemma read_optional_present opt oct t rest : valid t -> t_tag t = oct ->
  read_optional opt oct (t_full t ++ rest) = Ok (Some t, rest).
Proof.
  intros Hv Ht. unfold read_optional.
  destruct (valid_nonempty t Hv) as (b & r & Hbr).
  rewrite Hbr at 1. cbn [app]. rewrite read_hdr_valid by exact Hv. cbn [bind]. rewrite Ht, Z.eqb_refl.
  rewrite read_tlv_valid by exact Hv. reflexivity.
Qed.
Lemma read_optional_absent_nil oct : read_optional true oct [] = Ok (None, []).
Proof. reflexivity. Qed.
Lemma read_optional_absent oct t rest : valid t -> t_tag t <> oct ->
  read_optional true oct (t_full t ++ rest) = Ok (None, t_full t ++ rest).
Proof.
  intros Hv Ht. unfold read_optional.
  destruct (valid_nonempty t Hv) as (b & r & Hbr).
  rewrite Hbr at 1. cbn [app]. rewrite read_hdr_valid by exact Hv. cbn [bind].
  replace (t_tag t =? oct) with false by lia. reflexivity.
Qed.
Definition opt_full (o : option tlv) : bytes := match o with Some t => t_full t | None => [] end.
Lemma read_optional_ok oct l o rest : all_bytes l = true -> read_optional true oct l = Ok (o, rest) ->
  l = opt_full o ++ rest /\ all_bytes rest = true /\ match o with Some t => valid t /\ t_tag t = oct | None => True end.
Proof.
  intros Hb H. unfold read_optional in H. destruct l as [|b l'].
  - inversion H; subst. auto.
  - apply bind_ok in H as ([[tag len] r] & E & H). destruct (tag =? oct) eqn:Et.
    + apply bind_ok in H as ([t rest'] & E0 & H). inversion H; subst. cbn [fst snd opt_full].
      apply read_tlv_ok in E0 as (Hl & Hv & Hr); [|exact Hb]. split; [exact Hl|]. split; [exact Hr|]. split; [exact Hv|].
      (* the tag read by read_hdr is the tag of the element *)
      rewrite Hl in E. rewrite read_hdr_valid in E by exact Hv. inversion E; subst. lia.
    + inversion H; subst. auto.
Qed.

Lemma map_res_inv {A B} (f : A -> result B) l : forall vs, map_res f l = Ok vs -> Forall2 (fun a v => f a = Ok v) l vs.
Proof.
  induction l as [|a l IH]; intros vs H; cbn [map_res] in H.
  - inversion H; subst. constructor.
  - apply bind_ok in H as (b & E & H). apply bind_ok in H as (bs & E0 & [= <-]). constructor; [exact E|]. apply IH. exact E0.
Qed.
Lemma map_res_ok {A B} (f : A -> result B) l vs : Forall2 (fun a v => f a = Ok v) l vs -> map_res f l = Ok vs.
Proof. induction 1; cbn [map_res]; [reflexivity|]. rewrite H, IHForall2. reflexivity. Qed.

Lemma map_ext_Forall {A B} (f g : A -> B) l : Forall (fun x => f x = g x) l -> map f l = map g l.
Proof. induction 1; cbn; congruence. Qed.

Lemma parse_list_inv {A} oct (f : tlv -> result A) body vs : all_bytes body = true -> parse_list oct f body = Ok vs ->
  exists ts, body = concat (map t_full ts) /\ Forall valid ts /\ Forall2 (fun t v => t_tag t = oct /\ f t = Ok v) ts vs.
Proof.
  intros Hb H. unfold parse_list in H. apply bind_ok in H as (ts & E & H). apply read_all_ok in E as (Hl & Hv); [|exact Hb].
  exists ts. split; [exact Hl|]. split; [exact Hv|].
  apply map_res_inv in H. clear - H. induction H as [|t v ts vs Hf _ IH]; constructor; auto.
  destruct (t_tag t =? oct) eqn:Et; [|discriminate]. split; [lia|exact Hf].
Qed.
Lemma parse_list_emit {A} oct (f : tlv -> result A) (mk : A -> tlv) vs :
  Forall (fun v => valid (mk v) /\ t_tag (mk v) = oct /\ f (mk v) = Ok v) vs ->
  parse_list oct f (concat (map (fun v => t_full (mk v)) vs)) = Ok vs.
Proof.
  intros H. unfold parse_list.
  replace (map (fun v => t_full (mk v)) vs) with (map t_full (map mk vs)) by (rewrite map_map; reflexivity).
  rewrite read_all_concat.
  - cbn [bind]. apply map_res_ok. clear - H. induction H as [|v vs (Hv & Ht & Hf) _ IH]; cbn [map]; constructor; [|exact IH].
    rewrite Ht, Z.eqb_refl. exact Hf.
  - clear - H. induction H as [|v vs (Hv & _) _ IH]; cbn [map]; constructor; assumption.
Qed.

Lemma all_bytes_concat_valid ts : Forall valid ts -> all_bytes (concat (map t_full ts)) = true.
Proof. intros H. apply all_bytes_concat. induction H; cbn; constructor; auto using valid_full_bytes. Qed.
Lemma small_concat ls : small (concat ls) -> Forall small ls.
Proof.
  induction ls as [|l ls IH]; intros H; [constructor|]. cbn [concat] in H. apply small_app in H as [H1 H2]. constructor; auto.
Qed.
Lemma concat_map_sort_on {A} (key : A -> bytes) l : concat (sort_b (map key l)) = concat (map key (sort_on key l)).
Proof. rewrite map_sort_on. reflexivity. Qed.
Lemma Forall_small_perm_sort ls : Forall small ls -> Forall small (sort_b ls).
Proof. intros H. rewrite <- sort_on_id_key. apply Forall_sort_on. exact H. Qed.

Definition subslice (r x : bytes) : Prop := exists pre post, x = pre ++ r ++ post.
Lemma subslice_refl x : subslice x x.
Proof. exists [], []. rewrite app_nil_r. reflexivity. Qed.
Lemma subslice_trans a b c : subslice a b -> subslice b c -> subslice a c.
Proof.
  intros (p1 & q1 & ->) (p2 & q2 & ->). exists (p2 ++ p1), (q1 ++ q2). rewrite <- !app_assoc. reflexivity.
Qed.
Lemma subslice_app_l a x y : subslice a x -> subslice a (x ++ y).
Proof. intros (p & q & ->). exists p, (q ++ y). rewrite <- !app_assoc. reflexivity. Qed.
Lemma subslice_app_r a x y : subslice a y -> subslice a (x ++ y).
Proof. intros (p & q & ->). exists (x ++ p), q. rewrite <- !app_assoc. reflexivity. Qed.
#[local] Hint Resolve subslice_refl subslice_app_l subslice_app_r : subslice.
Lemma subslice_concat a ls : In a ls -> subslice a (concat ls).
Proof.
  induction ls as [|l ls IH]; intros H; [contradiction|]. cbn [concat]. destruct H as [->|H].
  - apply subslice_app_l. apply subslice_refl.
  - apply subslice_app_r. apply IH. exact H.
Qed.
Lemma subslice_enc tag b : subslice b (enc_tlv tag b).
Proof. unfold enc_tlv. exists (tag :: enc_len (zlen b)), []. rewrite app_nil_r. reflexivity. Qed.
Lemma subslice_body t : valid t -> subslice (t_body t) (t_full t).
Proof. intros (Hf & _). rewrite Hf. apply subslice_enc. Qed.

Definition alg_body (a : algid) : bytes := enc_tlv T_OID (a_oid a) ++ a_params a.
Definition mk_alg (a : algid) : tlv := mkTlv T_SEQ (alg_body a) (emit_algid a).
Definition wf_alg (a : algid) : Prop :=
  oid_ok (a_oid a) = true /\ all_bytes (a_oid a) = true /\ small (a_oid a) /\
  (a_params a = [] \/ exists p, valid p /\ a_params a = t_full p).

Lemma parse_algid_wf body a : all_bytes body = true -> parse_algid body = Ok a -> wf_alg a.
Proof.
  intros Hb H. unfold parse_algid in H. apply bind_ok in H as ([t rest] & E & H).
  apply read_expect_ok in E as (Hl & Hv & Ht & Hr); [|exact Hb]. cbn [fst snd] in H.
  destruct (oid_ok (t_body t)) eqn:Eo; cbn [negb] in H; [|discriminate].
  destruct rest as [|b r].
  - inversion H; subst. unfold wf_alg. cbn. repeat split; auto using valid_body_bytes, valid_small.
  - apply bind_ok in H as ([p rest2] & E & [= <-]). cbn [fst].
    apply read_tlv_ok in E as (Hl2 & Hv2 & _); [|exact Hr].
    unfold wf_alg. cbn. repeat split; auto using valid_body_bytes, valid_small. right. eauto.
Qed.
Lemma alg_body_bytes a : wf_alg a -> all_bytes (alg_body a) = true.
Proof.
  intros (Ho & Hb & Hs & Hp). unfold alg_body. apply all_bytes_app_iff. split.
  - apply (valid_full_bytes (mkTlv T_OID (a_oid a) (enc_tlv T_OID (a_oid a)))). apply valid_enc; [tagok|assumption|assumption].
  - destruct Hp as [->|(p & Hv & ->)]; [reflexivity|]. apply valid_full_bytes. exact Hv.
Qed.
Lemma algid_reparse a : wf_alg a -> small (emit_algid a) ->
  valid (mk_alg a) /\ t_tag (mk_alg a) = T_SEQ /\ parse_algid (t_body (mk_alg a)) = Ok a.
Proof.
  intros Hw Hs. pose proof (alg_body_bytes a Hw) as Hbb. destruct Hw as (Ho & Hb & Hso & Hp).
  unfold emit_algid in Hs. apply small_enc_tlv in Hs. fold (alg_body a) in Hs.
  split; [|split; [reflexivity|]].
  - unfold mk_alg, emit_algid. fold (alg_body a). apply valid_enc; [tagok|assumption|assumption].
  - cbn [mk_alg t_body]. unfold parse_algid, alg_body.
    rewrite read_expect_enc by (try tagok; assumption). cbn [bind fst snd t_body]. rewrite Ho. cbn [negb].
    destruct Hp as [Hp|(p & Hv & Hp)]; rewrite Hp.
    + destruct a; cbn in *; subst; reflexivity.
    + destruct (valid_nonempty p Hv) as (b & r & Hbr). rewrite Hbr. rewrite <- Hbr.
      rewrite read_tlv_full by exact Hv. cbn [bind fst].
      destruct a; cbn in *; subst; reflexivity.
Qed.

(* structs that keep their raw encoding: SignerInfo, ContentInfo *)
Definition mk_raw (raw : bytes) : tlv := mkTlv T_SEQ (strip_hdr raw) raw.
Lemma mk_raw_valid t : valid t -> t_tag t = T_SEQ -> mk_raw (t_full t) = t.
Proof.
  intros Hv Ht. unfold mk_raw, strip_hdr. rewrite (read_hdr_full t Hv), <- Ht. symmetry. apply tlv_eta.
Qed.

Lemma parse_si_raw t s : parse_si t = Ok s -> si_raw s = t_full t.
Proof.
  unfold parse_si. intros H.
  (* past every step of the parser, down to the record it returns *)
  repeat first [ apply bind_ok in H as (? & _ & H)
               | match type of H with (if ?c then _ else _) = _ => destruct c; [discriminate|] end ].
  injection H as <-. reflexivity.
Qed.
(* a SignerInfo that came out of the parser *)
Definition wf_si (s : sinfo) : Prop := exists t, valid t /\ t_tag t = T_SEQ /\ parse_si t = Ok s.
Lemma wf_si_mk s : wf_si s -> valid (mk_raw (si_raw s)) /\ t_tag (mk_raw (si_raw s)) = T_SEQ /\ parse_si (mk_raw (si_raw s)) = Ok s.
Proof.
  intros (t & Hv & Ht & Hp). rewrite (parse_si_raw t s Hp). rewrite mk_raw_valid by assumption. tauto.
Qed.
Lemma emit_si_wf s : wf_si s -> emit_si s = si_raw s.
Proof.
  intros (t & Hv & Ht & Hp). unfold emit_si. rewrite (parse_si_raw t s Hp).
  destruct (valid_nonempty t Hv) as (b & r & Hbr). rewrite Hbr. rewrite <- Hbr. rewrite si_keeps_raw_v.
  rewrite <- Ht. apply emit_raw_valid. exact Hv.
Qed.
Lemma map_emit_si_wf l : Forall wf_si l -> map emit_si l = map si_raw l.
Proof. intros H. apply map_ext_Forall. eapply Forall_impl; [|exact H]. exact emit_si_wf. Qed.

Definition wf_ci (c : cinfo) : Prop := exists t, valid t /\ t_tag t = T_SEQ /\ parse_ci t = Ok c.
Lemma parse_ci_raw t c : parse_ci t = Ok c -> ci_raw c = t_full t.
Proof.
  unfold parse_ci. intros H. apply bind_ok in H as (x & _ & H). destruct (oid_ok (t_body (fst x))); [|discriminate]. injection H as <-. reflexivity.
Qed.
Lemma emit_ci_wf c : wf_ci c -> emit_ci c = ci_raw c.
Proof.
  intros (t & Hv & Ht & Hp). unfold emit_ci. rewrite (parse_ci_raw t c Hp).
  destruct (valid_nonempty t Hv) as (b & r & Hbr). rewrite Hbr. rewrite <- Hbr. rewrite ci_keeps_raw_v.
  rewrite <- Ht. apply emit_raw_valid. exact Hv.
Qed.
Lemma wf_ci_mk c : wf_ci c -> valid (mk_raw (ci_raw c)) /\ t_tag (mk_raw (ci_raw c)) = T_SEQ /\ parse_ci (mk_raw (ci_raw c)) = Ok c.
Proof.
  intros (t & Hv & Ht & Hp). rewrite (parse_ci_raw t c Hp). rewrite mk_raw_valid by assumption. tauto.
Qed.

(* CertificateList (region level) *)
Definition crl_body (c : crl) : bytes :=
  emit_raw T_SEQ (c_tbs c) ++ emit_algid (c_alg c) ++ enc_tlv T_BITS (enc_bits (c_sig c)).
Definition mk_crl (c : crl) : tlv := mkTlv T_SEQ (crl_body c) (emit_crl c).
Definition wf_crl (c : crl) : Prop :=
  (exists t, valid t /\ t_tag t = T_SEQ /\ c_tbs c = t_full t) /\ wf_alg (c_alg c) /\
  bits_ok (c_sig c) = true /\ all_bytes (c_sig c) = true /\ small (c_sig c).

Lemma parse_crl_wf t c : valid t -> parse_crl t = Ok c -> wf_crl c /\ exists r, t_body t = c_tbs c ++ r.
Proof.
  intros Hv H. unfold parse_crl in H.
  apply bind_ok in H as ([t1 r1] & E1 & H). apply read_expect_ok in E1 as (Hl1 & Hv1 & Ht1 & Hr1); [|apply valid_body_bytes; exact Hv].
  apply bind_ok in H as ([t2 r2] & E2 & H). apply read_expect_ok in E2 as (_ & Hv2 & _ & Hr2); [|exact Hr1].
  apply bind_ok in H as (a & Ea & H). apply parse_algid_wf in Ea; [|apply valid_body_bytes; exact Hv2].
  apply bind_ok in H as ([t3 r3] & E3 & H). apply read_expect_ok in E3 as (_ & Hv3 & _ & _); [|exact Hr2].
  cbn [fst] in H. destruct (bits_ok (t_body t3)) eqn:Eb; cbn [negb] in H; [|discriminate].
  injection H as <-. unfold wf_crl. cbn [c_tbs c_alg c_sig fst]. split; [|exists r1; exact Hl1]. split; [exists t1; auto|]. split; [exact Ea|].
  repeat split; auto using valid_body_bytes, valid_small.
Qed.
Lemma crl_reparse c : wf_crl c -> small (emit_crl c) ->
  valid (mk_crl c) /\ t_tag (mk_crl c) = T_SEQ /\ parse_crl (mk_crl c) = Ok c.
Proof.
  intros ((t & Hv & Ht & Htbs) & Ha & Hb & Hbb & Hbs) Hs.
  unfold emit_crl in Hs. apply small_enc_tlv in Hs. fold (crl_body c) in Hs.
  pose proof Hs as Hs'. unfold crl_body in Hs'. apply small_app in Hs' as [_ Hs']. apply small_app in Hs' as [Hsa _].
  destruct (algid_reparse _ Ha Hsa) as (Hva & _ & Hpa).
  assert (Eraw : emit_raw T_SEQ (c_tbs c) = t_full t) by (rewrite Htbs, <- Ht; apply emit_raw_valid; exact Hv).
  assert (Hvb : valid (mkTlv T_BITS (c_sig c) (enc_tlv T_BITS (c_sig c)))) by (apply valid_enc; [tagok|assumption|assumption]).
  assert (Hbytes : all_bytes (crl_body c) = true).
  { unfold crl_body. rewrite Eraw, (enc_bits_id _ Hbb Hb). apply all_bytes_app_iff. split; [apply valid_full_bytes; exact Hv|].
    apply all_bytes_app_iff. split; [apply (valid_full_bytes _ Hva)|apply (valid_full_bytes _ Hvb)]. }
  split; [|split; [reflexivity|]].
  - unfold mk_crl, emit_crl. fold (crl_body c). apply valid_enc; [tagok|assumption|assumption].
  - unfold parse_crl. cbn [mk_crl t_body]. unfold crl_body. rewrite Eraw.
    rewrite read_expect_valid by assumption. cbn [bind fst snd].
    change (emit_algid (c_alg c)) with (t_full (mk_alg (c_alg c))).
    rewrite read_expect_valid by (try exact Hva; reflexivity). cbn [bind fst snd]. rewrite Hpa. cbn [bind].
    rewrite (enc_bits_id _ Hbb Hb).
    rewrite <- (app_nil_r (enc_tlv T_BITS (c_sig c))). rewrite read_expect_enc by (try tagok; assumption).
    cbn [bind fst snd t_body t_full]. rewrite Hb. cbn [negb]. rewrite <- Htbs. destruct c; reflexivity.
Qed.

(* certificates: raw values kept whole *)
Definition wf_raws (l : list bytes) : Prop := Forall (fun b => exists t, valid t /\ b = t_full t) l.
Lemma wf_raws_map ts : Forall valid ts -> wf_raws (map t_full ts).
Proof. induction 1; cbn; constructor; eauto. Qed.
Lemma wf_raws_read l : wf_raws l -> exists ts, Forall valid ts /\ l = map t_full ts.
Proof.
  induction 1 as [|b l (t & Hv & ->) _ (ts & Hvs & ->)]; [exists []; split; [constructor|reflexivity]|].
  exists (t :: ts). split; [constructor; assumption|reflexivity].
Qed.

Definition wf_sd (sd : sdata) : Prop :=
  (exists c, all_bytes c = true /\ int64_ok c = true /\ small c /\ sd_version sd = dec_int c) /\
  Forall wf_alg (sd_dalgs sd) /\ wf_ci (sd_ci sd) /\
  wf_raws (opt_list (sd_certs sd)) /\ Forall wf_crl (opt_list (sd_crls sd)) /\ Forall wf_si (sd_sis sd).

(* what re-parsing the emitted structure yields: the SET OF fields come back in emitted (sorted) order *)
Definition norm_sd (sd : sdata) : sdata :=
  mkSd (sd_version sd) (sort_on emit_algid (sd_dalgs sd)) (sd_ci sd) (sd_certs sd) (sd_crls sd) (sort_on emit_si (sd_sis sd)).

Lemma Forall2_valid_r {A} (R : tlv -> A -> Prop) (P : A -> Prop) ts vs :
  Forall valid ts -> Forall2 R ts vs -> (forall t v, valid t -> R t v -> P v) -> Forall P vs.
Proof.
  intros Hv H2 HP. induction H2; inversion Hv; subst; constructor; eauto.
Qed.

(* what parse_sd_body has read when it succeeds: three elements, the two optional fields and the SignerInfos element, one
   behind the other, and what parsing their contents gave *)
Lemma parse_sd_body_inv body sd : all_bytes body = true -> parse_sd_body body = Ok sd ->
  exists t1 t2 t3 r3 o4 r4 o5 r5 t6 r6,
    (body = t_full t1 ++ t_full t2 ++ t_full t3 ++ r3 /\ r3 = opt_full o4 ++ r4 /\ r4 = opt_full o5 ++ r5 /\ r5 = t_full t6 ++ r6) /\
    (valid t1 /\ valid t2 /\ valid t3 /\ t_tag t3 = T_SEQ /\ valid t6 /\
     match o4 with Some t => valid t | None => True end /\ match o5 with Some t => valid t | None => True end) /\
    (read_optional true OCT_certs r3 = Ok (o4, r4) /\ read_optional true OCT_crls r4 = Ok (o5, r5)) /\
    (int64_ok (t_body t1) = true /\ sd_version sd = dec_int (t_body t1) /\
     parse_list T_SEQ (fun t => parse_algid (t_body t)) (t_body t2) = Ok (sd_dalgs sd) /\ parse_ci t3 = Ok (sd_ci sd) /\
     opt_certs o4 = Ok (sd_certs sd) /\ opt_crls o5 = Ok (sd_crls sd) /\ parse_list T_SEQ parse_si (t_body t6) = Ok (sd_sis sd)).
Proof.
  intros Hb H. unfold parse_sd_body in H. rewrite certs_opt_v, crls_opt_v in H.
  apply bind_ok in H as ([t1 r1] & E1 & H). apply read_expect_ok in E1 as (Hl1 & Hv1 & _ & Hr1); [|exact Hb].
  cbn [fst snd] in H. destruct (int64_ok (t_body t1)) eqn:Ei; cbn [negb] in H; [|discriminate].
  apply bind_ok in H as ([t2 r2] & E2 & H). apply read_expect_ok in E2 as (Hl2 & Hv2 & _ & Hr2); [|exact Hr1].
  apply bind_ok in H as (dalgs & Ed & H).
  apply bind_ok in H as ([t3 r3] & E3 & H). apply read_expect_ok in E3 as (Hl3 & Hv3 & Ht3 & Hr3); [|exact Hr2].
  apply bind_ok in H as (ci & Eci & H).
  apply bind_ok in H as ([o4 r4] & E4 & H). pose proof (read_optional_ok _ _ _ _ Hr3 E4) as (Hl4 & Hr4 & Hv4).
  apply bind_ok in H as (certs & Ece & H).
  apply bind_ok in H as ([o5 r5] & E5 & H). pose proof (read_optional_ok _ _ _ _ Hr4 E5) as (Hl5 & Hr5 & Hv5).
  apply bind_ok in H as (crls & Ecr & H).
  apply bind_ok in H as ([t6 r6] & E6 & H). apply read_expect_ok in E6 as (Hl6 & Hv6 & _ & _); [|exact Hr5].
  apply bind_ok in H as (sis & Esi & H). injection H as <-. cbn [fst snd] in *.
  exists t1, t2, t3, r3, o4, r4, o5, r5, t6, r6. rewrite Hl1, Hl2, Hl3. cbn [sd_version sd_dalgs sd_ci sd_certs sd_crls sd_sis].
  split; [|split; [|split]]; repeat (split; [first [reflexivity | assumption | destruct o4; tauto]|]); first [assumption | destruct o5; tauto].
Qed.

Lemma parse_sd_body_wf body sd : all_bytes body = true -> parse_sd_body body = Ok sd -> wf_sd sd.
Proof.
  intros Hb H. destruct (parse_sd_body_inv body sd Hb H)
    as (t1 & t2 & t3 & r3 & o4 & r4 & o5 & r5 & t6 & r6 & _ & (Hv1 & Hv2 & Hv3 & Ht3 & Hv6 & Hv4 & Hv5) & _ & (Hi & Hver & Hd & Hci & Hce & Hcr & Hsi)).
  apply parse_list_inv in Hd as (ts2 & _ & Hvs2 & Hf2); [|apply valid_body_bytes; exact Hv2].
  apply parse_list_inv in Hsi as (ts6 & _ & Hvs6 & Hf6); [|apply valid_body_bytes; exact Hv6].
  split; [|split; [|split; [|split; [|split]]]].
  - exists (t_body t1). auto using valid_body_bytes, valid_small.
  - eapply Forall2_valid_r; [exact Hvs2|exact Hf2|]. intros t v Hv [_ Hp]. eapply parse_algid_wf; [|exact Hp]. apply valid_body_bytes; exact Hv.
  - exists t3. tauto.
  - destruct o4 as [t4|]; cbn [opt_certs] in Hce.
    + apply bind_ok in Hce as (ts & Ets & [= <-]). apply read_all_ok in Ets as (_ & Hvs); [|apply valid_body_bytes; exact Hv4].
      apply wf_raws_map. exact Hvs.
    + injection Hce as <-. constructor.
  - destruct o5 as [t5|]; cbn [opt_crls] in Hcr.
    + apply bind_ok in Hcr as (cl & Ecl & [= <-]). apply parse_list_inv in Ecl as (ts5 & _ & Hvs5 & Hf5); [|apply valid_body_bytes; exact Hv5].
      eapply Forall2_valid_r; [exact Hvs5|exact Hf5|]. intros t v Hv [_ Hp]. exact (proj1 (parse_crl_wf t v Hv Hp)).
    + injection Hcr as <-. constructor.
  - eapply Forall2_valid_r; [exact Hvs6|exact Hf6|]. intros t v Hv [Htag Hp]. exists t. tauto.
Qed.

(* a list of well-formed values, each of which re-parses if its encoding is small, emitted as the contents of one element *)
Lemma emit_list_valid {A} oct (f : tlv -> result A) (mk : A -> tlv) (W : A -> Prop) tag vs :
  (forall v, W v -> small (t_full (mk v)) -> valid (mk v) /\ t_tag (mk v) = oct /\ f (mk v) = Ok v) ->
  Forall W vs -> tag_ok tag -> small (concat (map (fun v => t_full (mk v)) vs)) ->
  exists e, enc_tlv tag (concat (map (fun v => t_full (mk v)) vs)) = t_full e /\ valid e /\ t_tag e = tag /\ parse_list oct f (t_body e) = Ok vs.
Proof.
  intros Hre HW Ht Hs.
  assert (H : Forall (fun v => valid (mk v) /\ t_tag (mk v) = oct /\ f (mk v) = Ok v) vs).
  { pose proof (small_concat _ Hs) as Hss. rewrite Forall_forall in *. intros v Hv. apply Hre; [apply HW, Hv|].
    apply Hss. exact (in_map (fun v => t_full (mk v)) vs v Hv). }
  eexists (mkTlv tag _ _). split; [reflexivity|]. split; [|split; [reflexivity|apply parse_list_emit; exact H]].
  apply valid_enc; [exact Ht|exact Hs|].
  apply all_bytes_concat. rewrite Forall_forall in *. intros b (v & <- & Hv)%in_map_iff. apply valid_full_bytes, H, Hv.
Qed.

(* the two optional fields of a parsed SignedData as Marshal writes them: absent, or one element whose contents parse back *)
Lemma emit_certs_field certs : wf_raws (opt_list certs) -> small (emit_opt_list OCT_certs certs) ->
  exists o, emit_opt_list OCT_certs certs = opt_full o /\ opt_certs o = Ok certs /\
            match o with Some t => valid t /\ t_tag t = OCT_certs | None => True end.
Proof.
  destruct certs as [l|]; [|exists None; auto]. cbn [emit_opt_list opt_list]. intros (ts & Hvs & ->)%wf_raws_read Hs%small_enc_tlv.
  exists (Some (mkTlv OCT_certs (concat (map t_full ts)) (enc_tlv OCT_certs (concat (map t_full ts))))).
  split; [reflexivity|]. cbn [opt_certs t_body]. rewrite read_all_concat by exact Hvs. split; [reflexivity|]. split; [|reflexivity].
  apply valid_enc; [tagok|exact Hs|apply all_bytes_concat_valid; exact Hvs].
Qed.
Lemma emit_crls_field crls : Forall wf_crl (opt_list crls) -> small (emit_opt_list OCT_crls (option_map (map emit_crl) crls)) ->
  exists o, emit_opt_list OCT_crls (option_map (map emit_crl) crls) = opt_full o /\ opt_crls o = Ok crls /\
            match o with Some t => valid t /\ t_tag t = OCT_crls | None => True end.
Proof.
  destruct crls as [l|]; [|exists None; auto]. cbn [emit_opt_list opt_list option_map]. intros Hw Hs%small_enc_tlv.
  destruct (emit_list_valid T_SEQ parse_crl mk_crl wf_crl OCT_crls l crl_reparse Hw ltac:(tagok) Hs) as (e & E & Hv & Ht & Hp).
  exists (Some e). split; [exact E|]. cbn [opt_crls]. rewrite Hp. auto.
Qed.

(* what Marshal writes for a SignedData that came out of the parser: the same six fields parse_sd_body_inv finds, each
   a valid element whose contents parse back (the SET OF fields in sorted order) *)
Lemma emit_sd_body_elements sd : wf_sd sd -> small (emit_sd_body sd) ->
  exists e1 e2 e3 o4 o5 e6,
    emit_sd_body sd = t_full e1 ++ t_full e2 ++ t_full e3 ++ opt_full o4 ++ opt_full o5 ++ t_full e6 /\
    (valid e1 /\ valid e2 /\ valid e3 /\ valid e6 /\
     match o4 with Some t => valid t /\ t_tag t = OCT_certs | None => True end /\
     match o5 with Some t => valid t /\ t_tag t = OCT_crls | None => True end) /\
    (t_tag e1 = T_INT /\ t_tag e2 = OCT_dalgs /\ t_tag e3 = T_SEQ /\ t_tag e6 = OCT_sis) /\
    (int64_ok (t_body e1) = true /\ dec_int (t_body e1) = sd_version sd /\
     parse_list T_SEQ (fun t => parse_algid (t_body t)) (t_body e2) = Ok (sort_on emit_algid (sd_dalgs sd)) /\
     parse_ci e3 = Ok (sd_ci sd) /\ opt_certs o4 = Ok (sd_certs sd) /\ opt_crls o5 = Ok (sd_crls sd) /\
     parse_list T_SEQ parse_si (t_body e6) = Ok (sort_on emit_si (sd_sis sd))).
Proof.
  intros ((c & Hcb & Hci & Hcs & Hver) & Hda & Hci' & Hce & Hcr & Hsi) Hs.
  assert (Ecert : option_map (maybe_sort certs_set) (sd_certs sd) = sd_certs sd) by (rewrite certs_set_v; destruct (sd_certs sd); reflexivity).
  unfold emit_sd_body in Hs |- *. rewrite Ecert, dalgs_set_v, sis_set_v in Hs |- *. cbn [maybe_sort] in Hs |- *.
  rewrite Hver, (enc_dec_int c Hcb Hci) in Hs |- *.
  apply small_app in Hs as [_ [Hs2%small_enc_tlv [_ [Hs4 [Hs5 Hs6%small_enc_tlv]%small_app]%small_app]%small_app]%small_app].
  (* the two SET OF fields: the sorted encodings are the encodings of the sorted lists, whose members re-parse one by one *)
  pose proof (Forall_sort_on _ emit_algid _ Hda) as Hdw. pose proof (Forall_sort_on _ emit_si _ Hsi) as Hsw.
  rewrite concat_map_sort_on in Hs2. rewrite concat_map_sort_on, (map_emit_si_wf _ Hsw) in Hs6. rewrite !concat_map_sort_on, (map_emit_si_wf _ Hsw).
  destruct (emit_list_valid T_SEQ (fun t => parse_algid (t_body t)) mk_alg wf_alg OCT_dalgs _ algid_reparse Hdw ltac:(tagok) Hs2)
    as (e2 & E2 & Hv2 & Ht2 & Hp2).
  destruct (emit_list_valid T_SEQ parse_si (fun s => mk_raw (si_raw s)) wf_si OCT_sis _ (fun s Hw _ => wf_si_mk s Hw) Hsw ltac:(tagok) Hs6)
    as (e6 & E6 & Hv6 & Ht6 & Hp6).
  change (map emit_algid) with (map (fun a => t_full (mk_alg a))). change (map si_raw) with (map (fun s => t_full (mk_raw (si_raw s)))).
  rewrite E2, E6.
  destruct (wf_ci_mk _ Hci') as (Hv3 & Ht3 & Hp3). rewrite (emit_ci_wf _ Hci').
  destruct (emit_certs_field _ Hce Hs4) as (o4 & -> & Hp4 & Hv4). destruct (emit_crls_field _ Hcr Hs5) as (o5 & -> & Hp5 & Hv5).
  exists (mkTlv T_INT c (enc_tlv T_INT c)), e2, (mk_raw (ci_raw (sd_ci sd))), o4, o5, e6.
  cbn [t_full t_body t_tag]. split; [reflexivity|]. split; [|split].
  - split; [apply valid_enc; [tagok|exact Hcs|exact Hcb]|]. repeat (split; [assumption|]). assumption.
  - repeat apply conj; assumption || reflexivity.
  - repeat apply conj; first [assumption | reflexivity | symmetry; assumption].
Qed.

Lemma emit_sd_body_bytes sd : wf_sd sd -> small (emit_sd_body sd) -> all_bytes (emit_sd_body sd) = true.
Proof.
  intros Hw Hs. destruct (emit_sd_body_elements sd Hw Hs) as (e1 & e2 & e3 & o4 & o5 & e6 & -> & (Hv1 & Hv2 & Hv3 & Hv6 & Hv4 & Hv5) & _).
  rewrite !all_bytes_app, !valid_full_bytes by assumption.
  destruct o4 as [e4|], o5 as [e5|]; cbn [opt_full]; rewrite ?valid_full_bytes by tauto; reflexivity.
Qed.

(* an optional field is read back (or found absent) when an element with another identifier octet follows *)
Lemma read_optional_next oct o t rest :
  match o with Some u => valid u /\ t_tag u = oct | None => True end -> valid t -> t_tag t <> oct ->
  read_optional true oct (opt_full o ++ t_full t ++ rest) = Ok (o, t_full t ++ rest).
Proof.
  intros Ho Hv Ht. destruct o as [u|]; [apply read_optional_present; tauto|apply read_optional_absent; assumption].
Qed.

Lemma sd_reparse sd : wf_sd sd -> small (emit_sd_body sd) -> parse_sd_body (emit_sd_body sd) = Ok (norm_sd sd).
Proof.
  intros Hw Hs. destruct (emit_sd_body_elements sd Hw Hs)
    as (e1 & e2 & e3 & o4 & o5 & e6 & -> & (Hv1 & Hv2 & Hv3 & Hv6 & Hv4 & Hv5) & (Ht1 & Ht2 & Ht3 & Ht6) & (Hi & Hver & Hp2 & Hp3 & Hp4 & Hp5 & Hp6)).
  assert (T6 : t_tag e6 <> OCT_crls /\ t_tag e6 <> OCT_certs) by (rewrite Ht6, OCT_sis_v, OCT_crls_v, OCT_certs_v; lia).
  unfold parse_sd_body. rewrite certs_opt_v, crls_opt_v.
  rewrite read_expect_valid by assumption. cbn [bind fst snd]. rewrite Hi. cbn [negb].
  rewrite read_expect_valid by assumption. cbn [bind fst snd]. rewrite Hp2. cbn [bind].
  rewrite read_expect_valid by assumption. cbn [bind fst snd]. rewrite Hp3. cbn [bind].
  rewrite <- (app_nil_r (t_full e6)).
  (* behind the certificates comes the CRL field or, when there is none, the SignerInfos *)
  destruct o5 as [e5|].
  - destruct Hv5 as [Hv5 Ht5]. change (opt_full (Some e5)) with (t_full e5).
    rewrite read_optional_next by (try assumption; rewrite Ht5, OCT_crls_v, OCT_certs_v; lia). cbn [bind fst snd]. rewrite Hp4. cbn [bind].
    rewrite (read_optional_next OCT_crls (Some e5)) by tauto. cbn [bind fst snd]. rewrite Hp5. cbn [bind].
    rewrite read_expect_valid by assumption. cbn [bind fst snd]. rewrite Hp6. cbn [bind]. unfold norm_sd. rewrite Hver. reflexivity.
  - cbn [opt_full app]. rewrite read_optional_next by tauto. cbn [bind fst snd]. rewrite Hp4. cbn [bind].
    rewrite read_optional_absent by tauto. cbn [bind fst snd]. rewrite Hp5. cbn [bind].
    rewrite read_expect_valid by assumption. cbn [bind fst snd]. rewrite Hp6. cbn [bind]. unfold norm_sd. rewrite Hver. reflexivity.
Qed.

(* ContentInfoSignedData: Unmarshal, Marshal, Unmarshal *)
Definition wf_cms (o : cms) : Prop :=
  oid_ok (o_ctype o) = true /\ all_bytes (o_ctype o) = true /\ small (o_ctype o) /\
  match o_sd o with Some sd => wf_sd sd | None => True end.
Definition norm_cms (o : cms) : cms := mkCms (o_ctype o) (option_map norm_sd (o_sd o)).

(* what parse_cms_body has read: the content type and, when there is a SignedData, the element it was parsed from *)
Lemma parse_cms_body_inv body o : all_bytes body = true -> parse_cms_body body = Ok o ->
  (exists t1, valid t1 /\ oid_ok (t_body t1) = true /\ o_ctype o = t_body t1) /\
  forall sd, o_sd o = Some sd -> exists ti, valid ti /\ subslice (t_full ti) body /\ parse_sd_body (t_body ti) = Ok sd.
Proof.
  intros Hb H. unfold parse_cms_body in H.
  apply bind_ok in H as ([t1 r1] & E1 & H). apply read_expect_ok in E1 as (Hl1 & Hv1 & _ & Hr1); [|exact Hb].
  cbn [fst snd] in H. destruct (oid_ok (t_body t1)) eqn:Eo; cbn [negb] in H; [|discriminate].
  (* three ways out without a SignedData *)
  destruct r1 as [|b r1']; [injection H as <-; split; [eauto|discriminate]|].
  apply bind_ok in H as ([[tag len] r] & Eh & H). apply read_hdr_canon in Eh as (Hlh & _); [|exact Hr1].
  destruct r as [|b2 r2]; [discriminate|].
  destruct ((tag =? OCT_explicit) || (tag =? OCT_explicit_prim) && (len =? 0)); [|injection H as <-; split; [eauto|discriminate]].
  destruct (len >? 0); [|discriminate].
  apply bind_ok in H as ([[tag2 len2] r3] & _ & H).
  destruct (tag2 =? T_SEQ); [|injection H as <-; split; [eauto|discriminate]].
  apply bind_ok in H as ([ti resti] & Ei & H). apply read_tlv_ok in Ei as (Hli & Hvi & _).
  2:{ rewrite Hlh in Hr1. apply all_bytes_cons in Hr1 as [_ [_ Hr]%all_bytes_app_iff]. exact Hr. }
  apply bind_ok in H as (sd' & Esd & [= <-]). cbn [fst o_ctype o_sd] in *. split; [eauto|]. intros sd [= <-].
  exists ti. split; [exact Hvi|]. split; [|exact Esd]. rewrite Hl1, Hlh, Hli. apply subslice_app_r. exists (tag :: enc_len len), resti. reflexivity.
Qed.

Lemma parse_cms_body_wf body o : all_bytes body = true -> parse_cms_body body = Ok o -> wf_cms o.
Proof.
  intros Hb H. destruct (parse_cms_body_inv body o Hb H) as [(t1 & Hv1 & Ho & Hct) Hsd]. unfold wf_cms. rewrite Hct.
  split; [exact Ho|]. split; [exact (valid_body_bytes t1 Hv1)|]. split; [exact (valid_small t1 Hv1)|].
  destruct (o_sd o) as [sd|]; [|exact I]. destruct (Hsd sd eq_refl) as (ti & Hvi & _ & Esd).
  exact (parse_sd_body_wf _ _ (valid_body_bytes ti Hvi) Esd).
Qed.

Lemma trailing_nil : unmarshal_trailing_garbage trim_right [] = false.
Proof. reflexivity. Qed.

(* pkcs7.Unmarshal reads one SEQUENCE; what follows it is not garbage in the sense of unmarshal_trailing_garbage *)
Lemma parse_cms_inv x o : all_bytes x = true -> parse_cms x = Ok o ->
  exists t pad, x = t_full t ++ pad /\ valid t /\ t_tag t = T_SEQ /\ parse_cms_body (t_body t) = Ok o /\
                unmarshal_trailing_garbage trim_right pad = false.
Proof.
  intros Hb H. unfold parse_cms in H. rewrite layout_ok_true in H. cbn [negb] in H.
  apply bind_ok in H as ([t pad] & E & H). apply read_expect_ok in E as (Hl & Hv & Ht & _); [|exact Hb].
  apply bind_ok in H as (o' & Eb & H). cbn [fst snd] in *.
  destruct (unmarshal_trailing_garbage trim_right pad) eqn:Eg; [discriminate|]. injection H as <-. eauto 8.
Qed.

Lemma parse_cms_wf x o : all_bytes x = true -> parse_cms x = Ok o -> wf_cms o.
Proof.
  intros Hb H. destruct (parse_cms_inv x o Hb H) as (t & pad & _ & Hv & _ & Eb & _).
  exact (parse_cms_body_wf _ _ (valid_body_bytes t Hv) Eb).
Qed.

(* the explicit [0] wrapper around one SEQUENCE, read forwards *)
Lemma parse_cms_body_wrapped t1 w ti :
  valid t1 -> t_tag t1 = T_OID -> valid w -> t_tag w = OCT_explicit -> valid ti -> t_tag ti = T_SEQ -> t_body w = t_full ti ->
  parse_cms_body (t_full t1 ++ t_full w) =
  if negb (oid_ok (t_body t1)) then Err E_SCALAR else sd <- parse_sd_body (t_body ti) ;; Ok (mkCms (t_body t1) (Some sd)).
Proof.
  intros Hv1 Ht1 Hvw Htw Hvi Hti Hb. unfold parse_cms_body. rewrite read_expect_valid by assumption. cbn [bind fst snd].
  destruct (oid_ok (t_body t1)); cbn [negb]; [|reflexivity].
  destruct (valid_nonempty w Hvw) as (b & r & Hbr). rewrite Hbr, <- Hbr.
  rewrite (read_hdr_full w Hvw), Htw, Hb. cbn [bind].
  destruct (valid_nonempty ti Hvi) as (b2 & r2 & Hbr2). rewrite Hbr2, <- Hbr2, Z.eqb_refl. cbn [orb].
  replace (zlen (t_full ti) >? 0) with true by (rewrite Hbr2, zlen_cons; pose proof (zlen_nonneg r2); lia).
  rewrite (read_hdr_full ti Hvi). cbn [bind]. rewrite Hti, Z.eqb_refl, (read_tlv_full ti Hvi). reflexivity.
Qed.

Lemma cms_reparse o : wf_cms o -> small (emit_cms o) -> parse_cms (emit_cms o) = Ok (norm_cms o).
Proof.
  intros (Ho & Hob & Hos & Hsd) Hs. unfold emit_cms in *. apply small_enc_tlv in Hs.
  unfold parse_cms. rewrite layout_ok_true. cbn [negb].
  rewrite <- (app_nil_r (enc_tlv T_SEQ _)). rewrite read_expect_enc by (try tagok; exact Hs).
  cbn [bind fst snd t_body]. rewrite trailing_nil. unfold norm_cms.
  destruct (o_sd o) as [sd|] eqn:Esd; cbn [option_map].
  - apply small_app in Hs as [_ Hs]. pose proof (small_enc_tlv _ _ Hs) as Hs1. pose proof (small_enc_tlv _ _ Hs1) as Hs2.
    assert (Hvi : valid (mkTlv T_SEQ (emit_sd_body sd) (enc_tlv T_SEQ (emit_sd_body sd)))).
    { apply valid_enc; [tagok|exact Hs2|exact (emit_sd_body_bytes sd Hsd Hs2)]. }
    pose proof (parse_cms_body_wrapped (mkTlv T_OID (o_ctype o) (enc_tlv T_OID (o_ctype o))) (mkTlv OCT_explicit _ (enc_tlv OCT_explicit _)) _
                  ltac:(apply valid_enc; [tagok|assumption|assumption]) eq_refl
                  ltac:(apply valid_enc; [tagok|exact Hs1|exact (valid_full_bytes _ Hvi)]) eq_refl Hvi eq_refl eq_refl) as R.
    cbn [t_full t_body] in R. rewrite R, Ho, (sd_reparse sd Hsd Hs2). reflexivity.
  - rewrite app_nil_r. unfold parse_cms_body. rewrite <- (app_nil_r (enc_tlv T_OID _)), read_expect_enc by (try tagok; exact Hos).
    cbn [bind fst snd t_body]. rewrite Ho. reflexivity.
Qed.

Lemma regions_norm sd : Forall wf_si (sd_sis sd) -> regions_of (norm_sd sd) = regions_of sd.
Proof.
  intros Hsi. unfold regions_of, norm_sd. cbn [sd_ci sd_certs sd_crls sd_sis]. f_equal.
  rewrite <- !map_emit_si_wf by (try apply Forall_sort_on; exact Hsi). rewrite map_sort_on. apply sort_b_idem.
Qed.

Lemma sort_on_idem_emit {A} (key : A -> bytes) l : sort_b (map key (sort_on key l)) = sort_b (map key l).
Proof. rewrite map_sort_on. apply sort_b_idem. Qed.

Lemma emit_norm_sd sd : emit_sd_body (norm_sd sd) = emit_sd_body sd.
Proof.
  unfold emit_sd_body, norm_sd. cbn [sd_version sd_dalgs sd_ci sd_certs sd_crls sd_sis].
  rewrite dalgs_set_v, sis_set_v. cbn [maybe_sort]. rewrite !sort_on_idem_emit. reflexivity.
Qed.
Lemma emit_norm_cms o : emit_cms (norm_cms o) = emit_cms o.
Proof.
  unfold emit_cms, norm_cms. cbn [o_ctype o_sd]. destruct (o_sd o); cbn [option_map]; [|reflexivity]. rewrite emit_norm_sd. reflexivity.
Qed.

(* THE round trip: what Unmarshal accepted is emitted by Marshal in a form that Unmarshal accepts again, with the same
   signed regions; and emitting that once more gives the same bytes. *)
Theorem signed_regions_stable x o :
  all_bytes x = true -> parse_cms x = Ok o -> zlen (emit_cms o) < 2 ^ 31 ->
  exists o', parse_cms (emit_cms o) = Ok o' /\ cms_regions o' = cms_regions o /\ emit_cms o' = emit_cms o.
Proof.
  intros Hb Hp Hs. pose proof (parse_cms_wf x o Hb Hp) as Hw.
  exists (norm_cms o). split; [apply cms_reparse; assumption|]. split; [|apply emit_norm_cms].
  unfold cms_regions, norm_cms. cbn [o_sd]. destruct Hw as (_ & _ & _ & Hsd).
  destruct (o_sd o) as [sd|]; cbn [option_map]; [|reflexivity]. f_equal. apply regions_norm. apply Hsd.
Qed.

Lemma elements_unique t rest seq :
  valid t -> Forall valid seq -> t_full t ++ rest = concat (map t_full seq) ->
  exists seq', seq = t :: seq' /\ rest = concat (map t_full seq').
Proof.
  intros Hv Hvs H. destruct seq as [|u seq'].
  - cbn in H. destruct (valid_nonempty t Hv) as (b & r & Hbr). rewrite Hbr in H. discriminate.
  - inversion Hvs; subst. cbn [map concat] in H.
    pose proof (read_tlv_valid t rest Hv) as R1. rewrite H in R1. rewrite read_tlv_valid in R1 by assumption.
    inversion R1; subst. eauto.
Qed.

Lemma unsorted_set_seq body : unsorted_set (enc_tlv 48 body) = Ok (49 :: enc_len (zlen body) ++ body).
Proof.
  unfold unsorted_set, enc_tlv. rewrite zlen_cons.
  replace (mus_nonempty (1 + zlen (enc_len (zlen body) ++ body))) with true
    by (unfold mus_nonempty; pose proof (zlen_nonneg (enc_len (zlen body) ++ body)); lia).
  reflexivity.
Qed.

Lemma one_full t : valid t -> one (t_full t) = Some t.
Proof. intros Hv. unfold one. rewrite (read_all_one t Hv). reflexivity. Qed.

(* encoding/asn1 does not look at what follows the last field of a struct, so the contents of an ACCEPTED SignerInfo need not
   be a run of complete elements; where they are, the fourth element is the signed attributes field or (field absent) the
   signature algorithm *)
Lemma parse_si_elements t s seq :
  valid t -> parse_si t = Ok s -> read_all (t_body t) = Ok seq ->
  exists t1 t2 t3 t4 more,
    seq = t1 :: t2 :: t3 :: t4 :: more /\
    match si_auth s with
    | Some _ => t_tag t4 = 160
    | None => t_tag t4 = T_SEQ
    end.
Proof.
  intros Hv Hp Hseq. pose proof (valid_body_bytes t Hv) as Hbb.
  apply read_all_ok in Hseq as (Hcat & Hvs); [|exact Hbb].
  unfold parse_si in Hp. rewrite auth_opt_v in Hp.
  apply bind_ok in Hp as ([t1 r1] & E1 & Hp). apply read_expect_ok in E1 as (Hl1 & Hv1 & _ & Hr1); [|exact Hbb].
  cbn [fst snd] in Hp. destruct (int64_ok (t_body t1)); cbn [negb] in Hp; [|discriminate].
  apply bind_ok in Hp as ([t2 r2] & E2 & Hp). apply read_expect_ok in E2 as (Hl2 & Hv2 & _ & Hr2); [|exact Hr1].
  apply bind_ok in Hp as (i1 & _ & Hp). apply bind_ok in Hp as (i2 & _ & Hp).
  destruct (int_ok (t_body (fst i2))); cbn [negb] in Hp; [|discriminate].
  apply bind_ok in Hp as ([t3 r3] & E3 & Hp). apply read_expect_ok in E3 as (Hl3 & Hv3 & _ & Hr3); [|exact Hr2].
  apply bind_ok in Hp as (dalg & _ & Hp).
  apply bind_ok in Hp as ([o4 r4] & E4 & Hp). apply read_optional_ok in E4 as (Hl4 & Hr4 & Hv4); [|exact Hr3].
  apply bind_ok in Hp as (auth & Eauth & Hp).
  apply bind_ok in Hp as ([t5 r5] & E5 & Hp). apply read_expect_ok in E5 as (Hl5 & Hv5 & Ht5 & _); [|exact Hr4].
  do 4 (apply bind_ok in Hp as (? & _ & Hp)). injection Hp as <-. cbn [fst snd si_auth] in *.
  (* the first three elements, then the fourth *)
  rewrite Hl1, Hl2, Hl3, Hl4, Hl5 in Hcat.
  destruct (elements_unique _ _ _ Hv1 Hvs Hcat) as (s1 & -> & Hc1). apply Forall_inv_tail in Hvs.
  destruct (elements_unique _ _ _ Hv2 Hvs Hc1) as (s2 & -> & Hc2). apply Forall_inv_tail in Hvs.
  destruct (elements_unique _ _ _ Hv3 Hvs Hc2) as (s3 & -> & Hc3). apply Forall_inv_tail in Hvs.
  destruct o4 as [t4|]; cbn [opt_attrs opt_full app] in *.
  - destruct Hv4 as [Hv4 Ht4]. destruct (elements_unique _ _ _ Hv4 Hvs Hc3) as (s4 & -> & _).
    apply bind_ok in Eauth as (l & _ & [= <-]). rewrite OCT_auth_v in Ht4. eauto 8.
  - destruct (elements_unique _ _ _ Hv5 Hvs Hc3) as (s4 & -> & _). injection Eauth as <-. eauto 8.
Qed.

(* parsed SignerInfo: relic re-reads the fourth element of the raw encoding and changes its identifier octet to SET *)
Theorem attr_digest_parsed t s l p :
  valid t -> t_tag t = T_SEQ -> parse_si t = Ok s -> si_auth s = Some l -> aab s = Ok p ->
  exists pre tl post, si_raw s = t_full t /\ emit_si s = t_full t /\
    t_body t = pre ++ (160 :: tl) ++ post /\ p = 49 :: tl /\ spec_signed_attrs_preimage (si_raw s) = Some p.
Proof.
  intros Hv Ht Hp Hauth Haab.
  pose proof (parse_si_raw t s Hp) as Hraw.
  assert (Hwf : wf_si s) by (exists t; tauto).
  unfold aab in Haab. rewrite Hraw in Haab.
  destruct (valid_nonempty t Hv) as (b & r & Hbr).
  replace (aab_use_fields (negb (zlen (t_full t) =? 0))) with false in Haab
    by (rewrite Hbr, zlen_cons; pose proof (zlen_nonneg r); replace (1 + zlen r =? 0) with false by lia; reflexivity).
  rewrite read_expect_full in Haab by assumption. cbn [bind fst] in Haab.
  apply bind_ok in Haab as (seq & Eseq & Haab).
  destruct (parse_si_elements t s seq Hv Hp Eseq) as (t1 & t2 & t3 & t4 & s4 & -> & Ht4). rewrite Hauth in Ht4.
  pose proof Eseq as Hcat. apply read_all_ok in Hcat as (Hcat & Hvs); [|apply valid_body_bytes; exact Hv].
  replace (aab_short (zlen (t1 :: t2 :: t3 :: t4 :: s4))) with false in Haab
    by (unfold aab_short; rewrite !zlen_cons; pose proof (zlen_nonneg s4); lia).
  change (nth (Z.to_nat aab_index) (t1 :: t2 :: t3 :: t4 :: s4) (mkTlv 0 [] [])) with t4 in Haab.
  change (octet 0 aab_rv_IsCompound aab_rv_Tag) with 48 in Haab.
  rewrite unsorted_set_seq in Haab. injection Haab as <-.
  assert (Hf4 : t_full t4 = 160 :: enc_len (zlen (t_body t4)) ++ t_body t4).
  { do 3 apply Forall_inv_tail in Hvs. apply Forall_inv in Hvs. destruct Hvs as (Hf4 & _). rewrite Hf4, Ht4. reflexivity. }
  exists (t_full t1 ++ t_full t2 ++ t_full t3), (enc_len (zlen (t_body t4)) ++ t_body t4), (concat (map t_full s4)).
  split; [exact Hraw|]. split; [rewrite emit_si_wf by exact Hwf; exact Hraw|]. split; [|split; [reflexivity|]].
  - rewrite Hcat. cbn [map concat]. rewrite Hf4, <- !app_assoc. reflexivity.
  - (* the RFC 5652 walker finds the same octets *)
    unfold spec_signed_attrs_preimage, children. rewrite Hraw, (one_full t Hv), Eseq, Ht4. cbn [Z.eqb Pos.eqb]. rewrite Hf4. reflexivity.
Qed.

(* SignerInfo built by relic (no raw encoding): the bytes that are digested are the emitted [0] field with its first octet
   replaced by 0x31 *)
Definition auth_field (s : sinfo) : bytes :=
  emit_opt_attrs OCT_auth (SI_AuthenticatedAttributes_set || attrs_set) (si_auth s).
Theorem attr_digest_built s l :
  si_raw s = [] -> si_auth s = Some l ->
  exists tl, auth_field s = 160 :: tl /\ aab s = Ok (49 :: tl) /\ subslice (auth_field s) (emit_si s).
Proof.
  intros Hraw Hauth. unfold auth_field. rewrite Hauth, auth_set_v, OCT_auth_v. cbn [emit_opt_attrs].
  exists (enc_len (zlen (emit_attrs false l)) ++ emit_attrs false l). split; [reflexivity|]. split.
  - unfold aab. rewrite Hraw, Hauth. change (aab_use_fields (negb (zlen (@nil Z) =? 0))) with true. cbv iota.
    unfold attrs_bytes. rewrite attrs_set_v. change (octet 0 true 16) with 48. apply unsorted_set_seq.
  - unfold emit_si. rewrite Hraw. unfold emit_si_fields. rewrite Hauth, auth_set_v, OCT_auth_v. cbn [emit_opt_attrs].
    eapply subslice_trans; [|apply subslice_enc].
    apply subslice_app_r. apply subslice_app_r. apply subslice_app_r. apply subslice_app_l. apply subslice_refl.
Qed.

Definition has_oid (oid : bytes) (l : list attr) : bool := existsb (fun a => bytes_eqb (at_oid a) oid) l.
Lemma append_attr_fresh l oid v : has_oid oid l = false ->
  append_attr l oid v = l ++ [mkAttr oid (octet attr_rv_Class attr_rv_IsCompound attr_rv_Tag) v []].
Proof.
  induction l as [|a l IH]; intros H; [reflexivity|]. cbn [has_oid existsb] in H. apply orb_false_iff in H as [H1 H2].
  cbn [append_attr]. rewrite H1. cbn [app]. f_equal. apply IH. exact H2.
Qed.
Lemma has_oid_app oid l1 l2 : has_oid oid (l1 ++ l2) = has_oid oid l1 || has_oid oid l2.
Proof. unfold has_oid. apply existsb_app. Qed.

Lemma sign_adds_v : sign_adds = [(1, 1); (2, 2)]. Proof. reflexivity. Qed.
Lemma oids_differ : bytes_eqb OID_content_type OID_message_digest = false. Proof. vm_compute. reflexivity. Qed.

Definition ct_attr (b : builder) : attr := mkAttr OID_content_type 49 (enc_tlv T_OID (b_ctype b)) [].
Definition md_attr (b : builder) : attr := mkAttr OID_message_digest 49 (enc_tlv T_OCT (b_digest b)) [].

(* with attributes present and none of them a content-type or message-digest attribute, Sign appends exactly one of each,
   with exactly one value: the content type and the content digest *)
Theorem builder_attrs_once b l0 :
  b_attrs b = Some l0 -> has_oid OID_content_type l0 = false -> has_oid OID_message_digest l0 = false ->
  snd (sign_attrs b) = Some (l0 ++ [ct_attr b; md_attr b]).
Proof.
  intros Ha H1 H2. unfold sign_attrs. rewrite Ha. change (sign_with_attrs true) with true. cbv iota.
  change sign_si_auth_is_builder_attrs with true. cbv iota. cbn [snd]. rewrite sign_adds_v. cbn [fold_left fst snd].
  unfold add_attr. change (sign_oid 1) with OID_content_type. change (sign_oid 2) with OID_message_digest.
  rewrite (append_attr_fresh l0 OID_content_type _ H1).
  rewrite append_attr_fresh.
  - rewrite <- app_assoc. reflexivity.
  - rewrite has_oid_app, H2. cbn [has_oid existsb at_oid]. rewrite oids_differ. reflexivity.
Qed.
Theorem builder_no_attrs b : b_attrs b = None -> snd (sign_attrs b) = None /\ sign_preimage b = Ok (0, b_digest b).
Proof.
  intros Ha.
  assert (E : snd (sign_attrs b) = None).
  { unfold sign_attrs. rewrite Ha. change (sign_with_attrs false) with false. cbv iota.
    change sign_si_auth_is_builder_attrs with true. cbv iota. cbn [snd]. try rewrite Ha. reflexivity. }
  split; [exact E|]. unfold sign_preimage. rewrite E. reflexivity.
Qed.

(* a built SignerInfo: the token is embedded as Marshal(Unmarshal(token)), whose regions are the token's; the signed
   attributes and the signature value of the enclosing SignerInfo are untouched *)
Theorem embed_token_verbatim au s x tok :
  all_bytes x = true -> parse_cms x = Ok tok -> zlen (emit_cms tok) < 2 ^ 31 ->
  si_raw s = [] -> si_unauth s = None ->
  let s' := add_stamp au s tok in
  subslice (emit_cms tok) (emit_si s') /\
  (exists tok', parse_cms (emit_cms tok) = Ok tok' /\ cms_regions tok' = cms_regions tok) /\
  si_auth s' = si_auth s /\ si_sig s' = si_sig s /\ aab s' = aab s.
Proof.
  intros Hb Hp Hs Hraw Hun. cbn zeta.
  assert (Hadd : add_stamp au s tok = mkSi (si_raw s) (si_version s) (si_issuer s) (si_serial s) (si_dalg s) (si_auth s) (si_ealg s) (si_sig s)
                   (Some [mkAttr (if au then enc_oid oid_spc_timestamp_token else enc_oid oid_attr_timestamp_token) 49 (emit_cms tok) []])).
  { unfold add_stamp. destruct au; cbv iota; rewrite Hun; reflexivity. }
  rewrite Hadd. split; [|split; [|split; [reflexivity|split; [reflexivity|]]]].
  - unfold emit_si. cbn [si_raw]. rewrite Hraw. unfold emit_si_fields. cbn [si_unauth si_version si_issuer si_serial si_dalg si_auth si_ealg si_sig].
    rewrite unauth_set_v. cbn [emit_opt_attrs emit_attrs maybe_sort map concat emit_attr at_oid at_tag at_body at_full emit_rawvalue].
    eapply subslice_trans; [|apply subslice_enc].
    do 6 apply subslice_app_r. eapply subslice_trans; [|apply subslice_enc]. rewrite app_nil_r.
    eapply subslice_trans; [|apply subslice_enc]. apply subslice_app_r. apply subslice_enc.
  - destruct (signed_regions_stable x tok Hb Hp Hs) as (tok' & H1 & H2 & _). eauto.
  - unfold aab. cbn [si_raw si_auth]. reflexivity.
Qed.

Lemma trim_right_rev_nil l : trim_right_rev l [0] = [] -> Forall (fun b => b = 0) l.
Proof.
  induction l as [|b r IH]; intros H; [constructor|]. cbn [trim_right_rev existsb] in H.
  destruct (b =? 0) eqn:E; cbn [orb] in H; [|discriminate]. constructor; [lia|]. apply IH. exact H.
Qed.

Definition region_list (sd : sdata) : list bytes :=
  ci_raw (sd_ci sd) :: opt_list (sd_certs sd) ++ map c_tbs (opt_list (sd_crls sd)) ++ map si_raw (sd_sis sd).

Lemma Forall2_In_r {A B} (R : A -> B -> Prop) l vs v : Forall2 R l vs -> In v vs -> exists a, In a l /\ R a v.
Proof.
  induction 1 as [|a b l vs Hab _ IH]; intros Hin; [contradiction|]. destruct Hin as [->|Hin]; [exists a; cbn; auto|].
  destruct (IH Hin) as (a' & Ha & Hr). exists a'. cbn. auto.
Qed.
Lemma in_children x t ts : valid t -> t_body t = concat (map t_full ts) -> In x ts -> subslice (t_full x) (t_full t).
Proof.
  intros Hv Hcat Hin. eapply subslice_trans; [|apply subslice_body; exact Hv]. rewrite Hcat. apply subslice_concat, in_map, Hin.
Qed.
Lemma parse_sd_body_regions body sd r :
  all_bytes body = true -> parse_sd_body body = Ok sd -> In r (region_list sd) -> subslice r body.
Proof.
  intros Hb H Hin. destruct (parse_sd_body_inv body sd Hb H)
    as (t1 & t2 & t3 & r3 & o4 & r4 & o5 & r5 & t6 & r6 & (-> & -> & -> & ->) & (_ & _ & _ & _ & Hv6 & Hv4 & Hv5) & _ & (_ & _ & _ & Eci & Ece & Ecr & Esi)).
  destruct Hin as [<-|[Hin|[Hin|Hin]%in_app_or]%in_app_or].
  - (* encapsulated content info *)
    rewrite (parse_ci_raw _ _ Eci). auto 8 with subslice.
  - (* a certificate *)
    destruct o4 as [t4|]; cbn [opt_certs] in Ece; [|injection Ece as Ece; rewrite <- Ece in Hin; contradiction].
    apply bind_ok in Ece as (ts & Ets & [= Ece]). rewrite <- Ece in Hin. apply read_all_ok in Ets as (Hcat & _); [|apply valid_body_bytes; exact Hv4].
    apply in_map_iff in Hin as (t & <- & Ht). apply subslice_trans with (t_full t4); [exact (in_children t t4 ts Hv4 Hcat Ht)|auto 8 with subslice].
  - (* tbsCertList of a CRL *)
    destruct o5 as [t5|]; cbn [opt_crls] in Ecr; [|injection Ecr as Ecr; rewrite <- Ecr in Hin; contradiction].
    apply bind_ok in Ecr as (cl & Ecl & [= Ecr]). rewrite <- Ecr in Hin. apply parse_list_inv in Ecl as (ts & Hcat & Hvs & Hf); [|apply valid_body_bytes; exact Hv5].
    apply in_map_iff in Hin as (c & <- & Hc). destruct (Forall2_In_r _ _ _ _ Hf Hc) as (t & Ht & _ & Hp).
    rewrite Forall_forall in Hvs. destruct (parse_crl_wf t c (Hvs t Ht) Hp) as [_ [r' Hr']].
    apply subslice_trans with (t_full t); [eapply subslice_trans; [|apply subslice_body, Hvs, Ht]; rewrite Hr'; auto with subslice|].
    apply subslice_trans with (t_full t5); [exact (in_children t t5 ts Hv5 Hcat Ht)|auto 8 with subslice].
  - (* a SignerInfo *)
    apply parse_list_inv in Esi as (ts & Hcat & Hvs & Hf); [|apply valid_body_bytes; exact Hv6].
    apply in_map_iff in Hin as (s & <- & Hs). destruct (Forall2_In_r _ _ _ _ Hf Hs) as (t & Ht & _ & Hp).
    rewrite (parse_si_raw _ _ Hp). apply subslice_trans with (t_full t6); [exact (in_children t t6 ts Hv6 Hcat Ht)|auto 8 with subslice].
Qed.

Theorem regions_are_subslices x o sd r :
  all_bytes x = true -> parse_cms x = Ok o -> o_sd o = Some sd -> In r (region_list sd) -> subslice r x.
Proof.
  intros Hb H Hsd Hin. destruct (parse_cms_inv x o Hb H) as (t & pad & -> & Hv & _ & Eb & _).
  destruct (parse_cms_body_inv _ o (valid_body_bytes t Hv) Eb) as [_ Hti]. destruct (Hti sd Hsd) as (ti & Hvi & Hsub & Esd).
  eapply subslice_trans; [apply (parse_sd_body_regions _ _ _ (valid_body_bytes _ Hvi) Esd Hin)|].
  eapply subslice_trans; [apply subslice_body; exact Hvi|]. eapply subslice_trans; [exact Hsub|].
  apply subslice_app_l, subslice_body, Hv.
Qed.

Lemma read_all_cons l t ts : all_bytes l = true -> read_all l = Ok (t :: ts) ->
  l = t_full t ++ concat (map t_full ts) /\ valid t /\ Forall valid ts /\
  read_tlv l = Ok (t, concat (map t_full ts)) /\ read_all (concat (map t_full ts)) = Ok ts.
Proof.
  intros Hb H. apply read_all_ok in H as (Hl & Hvs); [|exact Hb]. inversion Hvs; subst. cbn [map concat] in *.
  split; [reflexivity|]. split; [assumption|]. split; [assumption|]. split; [apply read_tlv_valid; assumption|apply read_all_concat; assumption].
Qed.
Lemma children_ok t l : valid t -> children t = Some l -> read_all (t_body t) = Ok l.
Proof. unfold children. destruct (read_all (t_body t)); intros; congruence. Qed.

(* the optional field as the model reads it and as the walker splits it *)
Lemma split_optional_agree oct rest o r' :
  Forall valid rest -> read_optional true oct (concat (map t_full rest)) = Ok (o, r') ->
  exists rest', Forall valid rest' /\ r' = concat (map t_full rest') /\
    spec_split_optional oct rest = (match o with Some t => children t | None => Some [] end, rest').
Proof.
  intros Hv H. destruct rest as [|t r]; cbn [map concat spec_split_optional] in *.
  - injection H as <- <-. exists []. auto.
  - inversion Hv; subst. destruct (t_tag t =? oct) eqn:Et.
    + rewrite read_optional_present in H by (try assumption; lia). injection H as <- <-. exists r. auto.
    + rewrite read_optional_absent in H by (try assumption; lia). injection H as <- <-. exists (t :: r). auto.
Qed.
(* a SEQUENCE OF parsed from the contents of an element whose children the walker knows *)
Lemma parse_list_children {A} oct (f : tlv -> result A) t l vs :
  valid t -> children t = Some l -> parse_list oct f (t_body t) = Ok vs ->
  Forall valid l /\ Forall2 (fun t v => t_tag t = oct /\ f t = Ok v) l vs.
Proof.
  intros Hv Hc H. apply parse_list_inv in H as (ts & Hcat & Hvs & Hf); [|apply valid_body_bytes; exact Hv].
  apply children_ok in Hc; [|exact Hv]. rewrite Hcat, read_all_concat in Hc by exact Hvs. injection Hc as <-. auto.
Qed.

Lemma crl_tbs_agree ts : forall cs tbs,
  Forall valid ts -> Forall2 (fun t c => t_tag t = T_SEQ /\ parse_crl t = Ok c) ts cs ->
  all_some (map spec_tbs ts) = Some tbs -> map c_tbs cs = tbs.
Proof.
  induction ts as [|t ts IH]; intros cs tbs Hv H2 Hs; inversion H2; subst; cbn [map all_some] in *.
  - inversion Hs. reflexivity.
  - inversion Hv; subst. destruct H1 as [_ Hp].
    destruct (spec_tbs t) as [b|] eqn:Eb; [|discriminate].
    destruct (all_some (map spec_tbs ts)) as [bs|] eqn:Ebs; [|discriminate]. inversion Hs; subst. f_equal; [|apply IH; auto].
    unfold spec_tbs in Eb. destruct (children t) as [[|tb [|a [|b' [|]]]]|] eqn:Ec; try discriminate. inversion Eb; subst.
    (* the first child the walker finds is the element the model read as tbsCertList *)
    apply children_ok in Ec; [|assumption]. apply read_all_ok in Ec as (Hcat & Hvs); [|apply valid_body_bytes; assumption].
    destruct (parse_crl_wf t y H3 Hp) as [((t1 & Hv1 & _ & ->) & _) (r & Hr)]. rewrite Hr in Hcat.
    destruct (elements_unique _ _ _ Hv1 Hvs Hcat) as (? & [= <- _] & _). reflexivity.
Qed.

Lemma si_raw_agree ts : forall ss, Forall2 (fun t s => t_tag t = T_SEQ /\ parse_si t = Ok s) ts ss -> map si_raw ss = map t_full ts.
Proof.
  induction ts as [|t ts IH]; intros ss H; inversion H; subst; cbn [map]; [reflexivity|].
  destruct H2 as [_ Hp]. rewrite (parse_si_raw _ _ Hp). f_equal. apply IH. assumption.
Qed.

Lemma sd_spec_agree body sd ver dal eci rest cl rl sis sl tbs :
  all_bytes body = true -> parse_sd_body body = Ok sd -> read_all body = Ok (ver :: dal :: eci :: rest) ->
  (let (certs, rest1) := spec_split_optional 160 rest in
   let (crls, rest2) := spec_split_optional 161 rest1 in
   certs = Some cl /\ crls = Some rl /\ rest2 = [sis]) ->
  children sis = Some sl -> all_some (map spec_tbs rl) = Some tbs ->
  regions_of sd = mkReg (t_full eci) (sort_b (map t_full cl)) tbs (sort_b (map t_full sl)).
Proof.
  intros Hb H Hall Hsplit Hsl Htbs.
  destruct (parse_sd_body_inv body sd Hb H)
    as (t1 & t2 & t3 & r3 & o4 & r4 & o5 & r5 & t6 & r6 & (Hl & _ & _ & Hl6) & (Hv1 & Hv2 & Hv3 & _ & Hv6 & Hv4 & Hv5) & (E4 & E5) & (_ & _ & _ & Eci & Ece & Ecr & Esi)).
  (* the elements the walker found are the elements the model read *)
  apply read_all_ok in Hall as (Hcat & Hvs); [|exact Hb]. rewrite Hl in Hcat.
  destruct (elements_unique _ _ _ Hv1 Hvs Hcat) as (? & [= <- <-] & Hc1). apply Forall_inv_tail in Hvs.
  destruct (elements_unique _ _ _ Hv2 Hvs Hc1) as (? & [= <- <-] & Hc2). apply Forall_inv_tail in Hvs.
  destruct (elements_unique _ _ _ Hv3 Hvs Hc2) as (? & [= <- <-] & ->). apply Forall_inv_tail in Hvs.
  rewrite OCT_certs_v in E4. rewrite OCT_crls_v in E5.
  destruct (split_optional_agree _ _ _ _ Hvs E4) as (rest1 & Hvs1 & -> & S1). rewrite S1 in Hsplit.
  destruct (split_optional_agree _ _ _ _ Hvs1 E5) as (rest2 & Hvs2 & -> & S2). rewrite S2 in Hsplit. destruct Hsplit as (Hcl & Hrl & ->).
  symmetry in Hl6. destruct (elements_unique _ _ _ Hv6 Hvs2 Hl6) as (? & [= <- _] & _).
  unfold regions_of. f_equal.
  - exact (parse_ci_raw _ _ Eci).
  - destruct o4 as [t4|]; cbn [opt_certs] in Ece.
    + apply bind_ok in Ece as (ts & Ets & [= <-]). rewrite (children_ok _ _ Hv4 Hcl) in Ets. injection Ets as <-. reflexivity.
    + injection Ece as <-. injection Hcl as <-. reflexivity.
  - destruct o5 as [t5|]; cbn [opt_crls] in Ecr.
    + apply bind_ok in Ecr as (cs & Ecs & [= <-]). destruct (parse_list_children _ _ _ _ _ Hv5 Hrl Ecs) as [Hvr Hf]. exact (crl_tbs_agree rl cs tbs Hvr Hf Htbs).
    + injection Ecr as <-. injection Hrl as <-. injection Htbs as <-. reflexivity.
  - rewrite (si_raw_agree _ _ (proj2 (parse_list_children _ _ _ _ _ Hv6 Hsl Esi))). reflexivity.
Qed.

Lemma one_ok x t : all_bytes x = true -> one x = Some t -> x = t_full t /\ valid t /\ read_tlv x = Ok (t, []).
Proof.
  unfold one. intros Hb H. destruct (read_all x) as [[|t' [|]]| |] eqn:E; try discriminate. inversion H; subst.
  apply read_all_cons in E as (Hl & Hv & _ & Hr & _); [|exact Hb]. cbn [map concat] in *. rewrite app_nil_r in Hl. auto.
Qed.

