(* C16/Pss.v — RSA-PSS parameters in CMS: the salt length DECLARED in the signature AlgorithmIdentifier
   (lib/x509tools MarshalRSAPSSParameters, generated: pss_declared_salt) versus the salt length the signer USES when
   lib/pkcs7 SignatureBuilder.Sign hands the same options to crypto.Signer.Sign (crypto/rsa.SignPSS of the toolchain,
   generated: pss_used_salt).  RFC 8017 9.1.2 (EMSA-PSS-VERIFY, steps 3 and 10): a verifier uses sLen from the
   parameters (RFC 4055 3.1 saltLength) and rejects unless DB has exactly emLen - hLen - sLen - 2 leading zero octets,
   i.e. unless the salt used has exactly the declared length. *)
From Relic Require Import Base.Prelude Generated.C16_gen.

(* ---- faithful model: both resolutions are the generated definitions; the call sites are generated facts ---- *)
Definition pss_call_sites_ok : bool :=
  pss_sign_declares_with_builder_opts && pss_sign_signs_with_builder_opts && pss_pkix_passes_opts_unchanged
  && pss_params_carry_salt_length.

(* what one CMS signing run does with PSS options: Some (declared, used), or None when the signer refuses *)
Definition pss_sign_run (saltOpt modBits hLen : Z) : option (Z * Z) :=
  let '(u, e) := pss_used_salt saltOpt modBits hLen in
  if e =? 0 then Some (pss_declared_salt saltOpt modBits hLen, u) else None.

(* ---- independent specification (RFC 8017 9.1.1 / 9.1.2, RFC 4055 3.1, crypto/rsa documentation of the sentinels) ---- *)
Definition spec_em_len (modBits : Z) : Z := (modBits - 1 + 7) / 8.          (* emLen = ceil((modBits-1)/8), emBits = modBits-1 *)
Definition spec_max_salt (modBits hLen : Z) : Z := spec_em_len modBits - hLen - 2.   (* emLen >= hLen + sLen + 2 *)
(* "PSSSaltLengthAuto causes the salt to be as large as possible when signing", "EqualsHash: equal the length of the hash" *)
Definition spec_salt (saltOpt modBits hLen : Z) : Z :=
  if saltOpt =? 0 then spec_max_salt modBits hLen else if saltOpt =? -1 then hLen else saltOpt.
(* EMSA-PSS-VERIFY step 10 with sLen taken from the parameters: accepted iff the salt in EM has the declared length *)
Definition spec_verifier_accepts (declared used : Z) : bool := declared =? used.

Lemma pss_used_is_spec : forall saltOpt modBits hLen s,
  0 <= modBits -> pss_used_salt saltOpt modBits hLen = (s, 0) ->
  s = spec_salt saltOpt modBits hLen /\ s = pss_declared_salt saltOpt modBits hLen.
Proof.
  intros o m h s Hm. unfold pss_used_salt, pss_declared_salt, spec_salt, spec_max_salt, spec_em_len.
  rewrite (Z.quot_div_nonneg (m - 1 + 7) 8) by lia.
  destruct (o =? 0) eqn:E0.
  - destruct (_ <? 0); intro H; inversion H; lia.
  - destruct (o =? -1) eqn:E1.
    + intro H; inversion H; auto.
    + destruct (o <=? 0); intro H; inversion H; auto.
Qed.

(* the declared length is the used one: every option value, every modulus size, every hash (relic fix 4b12f85) *)
Lemma pss_declared_salt_is_used : forall saltOpt modBits hLen declared used,
  0 <= modBits ->
  pss_sign_run saltOpt modBits hLen = Some (declared, used) ->
  pss_call_sites_ok = true /\ spec_verifier_accepts declared used = true /\ used = spec_salt saltOpt modBits hLen.
Proof.
  intros o m h d u Hm. unfold pss_sign_run.
  destruct (pss_used_salt o m h) as [u' e] eqn:Hu.
  destruct (e =? 0) eqn:He; [|discriminate]. apply Z.eqb_eq in He. subst e.
  intros [= <- <-]. destruct (pss_used_is_spec o m h u' Hm Hu) as [Hs Hd].
  split; [reflexivity|]. split; [apply Z.eqb_eq; symmetry; exact Hd|exact Hs].
Qed.
