(* C16/VProofs.v — lemmas about the verification path (C16/VModel.v). *)
From Relic Require Import Base.Prelude Base.Enc Base.Slice Generated.C16_gen C16.Model C16.Tlv C16.Proofs C16.VModel.

(* The interpretation of each generated body equals its reference function, for ALL primitives, hooks and inputs.  Proof:
   evaluate the interpreter on the symbolic input (vm_compute: it is a decision tree over the primitives' answers), then
   split every remaining case distinction. *)
Ltac atomic x := lazymatch x with context [match _ with _ => _ end] => fail | _ => idtac end.
(* One case distinction of the goal is split.  A test of an integer against a constant (z =? 4, evaluated to a nest of
   matches on the digits of z) is split as a whole into true / false and kept as an equation: splitting z itself makes five
   cases of every test, and copies whatever follows the test as often. *)
Ltac split_match :=
  match goal with
  | |- context [match ?x with _ => _ end] =>
      first [ atomic x; destruct x
            | lazymatch x with match ?z with _ => _ end => atomic z; lazymatch type of z with Z => destruct x eqn:? end end ]
  | |- context [match ?x with _ => _ end] =>      (* a scrutinee that mentions a list append (a fix) *)
      lazymatch x with
      | match _ with _ => _ end => fail
      | _ => destruct x
      end
  end.
(* a leaf that holds only by what a test said about an integer (an error class that is compared and then returned) *)
Ltac use_test :=
  match goal with
  | E : match ?z with _ => _ end = _ |- _ => revert E; destruct z; cbv iota; intro E; try discriminate
  end.
Ltac cases leaf := repeat (first [reflexivity | leaf | split_match; cbv beta iota | use_test]).
Ltac crunch := vm_compute; cases fail.

(* the real primitives and the layered hooks, exposed by rewriting (never by conversion on the interpreter) *)
Lemma rp_hash_of C : p_hash_of (real_prims C) = c_hash_of C. Proof. reflexivity. Qed.
Lemma rp_H C : p_H (real_prims C) = c_H C. Proof. reflexivity. Qed.
Lemma rp_pkix C : p_pkix (real_prims C) = c_pkix C. Proof. reflexivity. Qed.
Lemma rp_raw C : p_raw (real_prims C) = c_raw C. Proof. reflexivity. Qed.
Lemma rp_parse_certs C : p_parse_certs (real_prims C) = c_parse_certs C. Proof. reflexivity. Qed.
Lemma rp_tstinfo C : p_tstinfo (real_prims C) = c_tstinfo C. Proof. reflexivity. Qed.
Lemma rp_sitime C : p_sitime (real_prims C) = c_sitime C. Proof. reflexivity. Qed.
Lemma rp_eq C : p_eq (real_prims C) = bytes_eqb. Proof. reflexivity. Qed.
Lemma rp_nattrs C o : p_nattrs (real_prims C) o = zlen (opt_list o). Proof. reflexivity. Qed.
Lemma rp_nsis C l : p_nsis (real_prims C) l = zlen l. Proof. reflexivity. Qed.
Lemma rp_ncerts C l : p_ncerts (real_prims C) l = zlen l. Proof. reflexivity. Qed.
Lemma rp_ntls C l : p_ntls (real_prims C) l = zlen l. Proof. reflexivity. Qed.
Lemma rp_nth_si C : p_nth_si (real_prims C) = nth_z. Proof. reflexivity. Qed.
Lemma rp_nth_tl C : p_nth_tl (real_prims C) = nth_z. Proof. reflexivity. Qed.
Lemma rp_getone C : p_getone (real_prims C) = get_one. Proof. reflexivity. Qed.
Lemma rp_find C : p_find (real_prims C) = find_cert. Proof. reflexivity. Qed.
Lemma rp_unmarshal_seq C : p_unmarshal_seq (real_prims C) = unmarshal_seq. Proof. reflexivity. Qed.
Lemma rp_marshal_rv C : p_marshal_rv (real_prims C) = marshal_rv. Proof. reflexivity. Qed.
Lemma rp_marshal_attrs C : p_marshal_attrs (real_prims C) = marshal_attrs. Proof. reflexivity. Qed.
Lemma rp_ci_unmarshal C c : p_ci_unmarshal (real_prims C) c = ci_unmarshal_raw (ci_raw c). Proof. reflexivity. Qed.
Lemma rp_tl_class C : p_tl_class (real_prims C) = tl_class. Proof. reflexivity. Qed.
Lemma rp_tl_num C : p_tl_num (real_prims C) = tl_num. Proof. reflexivity. Qed.
Lemma hk_empty1 P : k_has_empty (hooks1 P) = run_has_empty P hooks0. Proof. reflexivity. Qed.
Lemma hk_empty2 P : k_has_empty (hooks2 P) = run_has_empty P hooks0. Proof. reflexivity. Qed.
Lemma hk_ci3 P : k_ci_bytes (hooks3 P) = run_ci_bytes P hooks0. Proof. reflexivity. Qed.
Lemma hk_ci4 P : k_ci_bytes (hooks4 P) = run_ci_bytes P hooks0. Proof. reflexivity. Qed.
Lemma hk_attrs1 P : k_attrs_bytes (hooks1 P) = run_attrs_bytes P hooks0. Proof. reflexivity. Qed.
Lemma hk_aab2 P : k_aab (hooks2 P) = run_aab P (hooks1 P). Proof. reflexivity. Qed.
Lemma hk_verify3 P : k_si_verify (hooks3 P) = run_si_verify P (hooks2 P). Proof. reflexivity. Qed.
Lemma hk_imprint4 P : k_imprint (hooks4 P) = run_imprint P (hooks2 P). Proof. reflexivity. Qed.
Lemma hk_finish4 P : k_finish (hooks4 P) = run_finish P (hooks3 P). Proof. reflexivity. Qed.
Lemma has_empty_m_def C s : has_empty_m C s = run_has_empty (real_prims C) hooks0 s. Proof. unfold has_empty_m. reflexivity. Qed.
Lemma ci_bytes_m_def C c : ci_bytes_m C c = run_ci_bytes (real_prims C) hooks0 c. Proof. unfold ci_bytes_m. reflexivity. Qed.
Lemma aab_m_def C s : aab_m C s = run_aab (real_prims C) (hooks1 (real_prims C)) s. Proof. unfold aab_m. reflexivity. Qed.
Lemma si_verify_def C : si_verify C = run_si_verify (real_prims C) (hooks2 (real_prims C)). Proof. unfold si_verify. reflexivity. Qed.
Lemma imprint_verify_def C : imprint_verify C = run_imprint (real_prims C) (hooks2 (real_prims C)). Proof. unfold imprint_verify. reflexivity. Qed.
Lemma ts_finish_def C : ts_finish C = run_finish (real_prims C) (hooks3 (real_prims C)). Proof. unfold ts_finish. reflexivity. Qed.
Lemma sd_verify_def C : sd_verify C = run_sd_verify (real_prims C) (hooks3 (real_prims C)). Proof. unfold sd_verify. reflexivity. Qed.
Ltac expose := rewrite ?rp_hash_of, ?rp_H, ?rp_pkix, ?rp_raw, ?rp_parse_certs, ?rp_tstinfo, ?rp_sitime, ?rp_eq, ?rp_nattrs, ?rp_nsis,
                       ?rp_ncerts, ?rp_ntls, ?rp_nth_si, ?rp_nth_tl, ?rp_getone, ?rp_find, ?rp_unmarshal_seq, ?rp_marshal_rv,
                       ?rp_marshal_attrs, ?rp_ci_unmarshal, ?rp_tl_class, ?rp_tl_num, ?hk_empty1, ?hk_empty2, ?hk_ci3, ?hk_ci4, ?hk_attrs1, ?hk_aab2, ?hk_verify3, ?hk_imprint4, ?hk_finish4.

Definition lift_bytes (r : result bytes) : result bytes :=
  match r with Ok b => Ok b | Err _ => Err EV_NOTSEQ | Panic _ => Panic EV_PANIC end.

Lemma attrs_bytes_eq P K o : run_attrs_bytes P K o = lift_bytes (p_marshal_attrs P o).
Proof. destruct P, K. unfold run_attrs_bytes, lift_bytes. crunch. Qed.

Lemma has_empty_eq P K s : run_has_empty P K s = ref_has_empty P s.
Proof. destruct P, K. unfold run_has_empty, ref_has_empty. crunch. Qed.

Lemma ci_bytes_eq P K c : run_ci_bytes P K c = ref_ci_bytes P c.
Proof. destruct P, K. unfold run_ci_bytes, ref_ci_bytes. crunch. Qed.

Lemma aab_eq P K s : run_aab P K s = ref_aab P K s.
Proof. destruct P, K. unfold run_aab, ref_aab. crunch. Qed.

Lemma si_verify_eq P K s content skip certs :
  run_si_verify P K s (Wby content) skip certs = ref_si_verify P K s content skip certs.
Proof. destruct P, K. unfold run_si_verify, ref_si_verify, ref_finish, sig_decides, sig_err. crunch. Qed.

(* a nil content slice behaves like an empty one (hash.Write(nil) writes nothing) *)
Lemma si_verify_nil_eq P K s skip certs :
  run_si_verify P K s Wnil skip certs = ref_si_verify P K s [] skip certs.
Proof. destruct P, K. unfold run_si_verify, ref_si_verify, ref_finish, sig_decides, sig_err. crunch. Qed.

Lemma imprint_eq P K a hashed data : run_imprint P K a hashed (Wby data) = ref_imprint P a hashed data.
Proof. destruct P, K. unfold run_imprint, ref_imprint. crunch. Qed.

Definition blob_val (o : option bytes) : value := match o with Some b => Wby b | None => Wnil end.
Lemma finish_eq P K s blob certs h t certErr :
  run_finish P K s (blob_val blob) certs h (Wti t) certErr = ref_ts_finish P K s (blob_val blob) certs h (Wti t) certErr.
Proof. destruct P, K, blob; unfold run_finish, ref_ts_finish, ts_time, blob_val; crunch. Qed.
(* the counter-signature variant: the time source is the SignerInfo itself *)
Lemma finish_cs_eq P K s blob certs h s' certErr :
  run_finish P K s (blob_val blob) certs h (Wsi s') certErr = ref_ts_finish P K s (blob_val blob) certs h (Wsi s') certErr.
Proof. destruct P, K, blob; unfold run_finish, ref_ts_finish, ts_time, blob_val; crunch. Qed.

Lemma ts_verify_eq P K tok data certs : run_ts_verify P K tok (Wby data) certs = ref_ts_verify P K tok data certs.
Proof. destruct P, K, tok as [ct [[]|]]; unfold run_ts_verify, ref_ts_verify; crunch. Qed.

Lemma lift_bytes_ok r b : lift_bytes r = Ok b <-> r = Ok b.
Proof. destruct r; cbn; split; intro H; congruence. Qed.

Lemma nth_z_some {A} (l : list A) j d : 0 <= j < zlen l -> nth_z l j = Some (nth (Z.to_nat j) l d).
Proof.
  intros H. unfold nth_z. replace ((0 <=? j) && (j <? zlen l)) with true by lia.
  apply nth_error_nth'. unfold zlen in H. lia.
Qed.

(* the interpreted AuthenticatedAttributesBytes is Model.aab (the model the round-trip theorems of Proofs.v are about) *)
Lemma aab_m_ok C s b : aab_m C s = Ok b <-> aab s = Ok b.
Proof.
  unfold aab_m. rewrite aab_eq. unfold ref_aab, aab.
  destruct (si_raw s) as [|z r] eqn:Hraw.
  - cbn [is_empty]. change (aab_use_fields (negb (zlen (@nil Z) =? 0))) with true. cbv iota.
    expose. rewrite attrs_bytes_eq. expose. apply lift_bytes_ok.
  - cbn [is_empty].
    replace (aab_use_fields (negb (zlen (z :: r) =? 0))) with false
      by (rewrite zlen_cons; pose proof (zlen_nonneg r); replace (1 + zlen r =? 0) with false by lia; reflexivity).
    expose. unfold unmarshal_seq.
    destruct (read_expect T_SEQ (z :: r)) as [[t rest]| |]; cbn [bind fst snd]; [|split; intro H; discriminate ..].
    destruct (read_all (t_body t)) as [seq| |]; cbn [bind]; [|split; intro H; discriminate ..].
    expose. unfold aab_short.
    destruct (zlen seq <? 4) eqn:Hn; cbv iota; [split; intro H; discriminate|].
    rewrite (nth_z_some seq 3 (mkTlv 0 [] [])) by lia.
    change (Z.to_nat aab_index) with (Z.to_nat 3).
    unfold marshal_rv.
    change (octet 0 aab_rv_IsCompound aab_rv_Tag) with (octet 0 true 16).
    destruct (unsorted_set (enc_tlv (octet 0 true 16) (t_body (nth (Z.to_nat 3) seq (mkTlv 0 [] []))))); split; intro H; congruence.
Qed.

(* hasEmptyAuthenticatedAttributes on a parsed SignerInfo, in terms of its contents *)
Lemma has_empty_m_raw C t s : valid t -> t_tag t = T_SEQ -> parse_si t = Ok s ->
  has_empty_m C s = if negb (zlen (opt_list (si_auth s)) =? 0) then false else
                    match read_all (t_body t) with
                    | Ok seq => if zlen seq <? 4 then false else
                                match nth_z seq 3 with Some f => (tl_class f =? 2) && (tl_num f =? 0) | None => true end
                    | _ => true
                    end.
Proof.
  intros Hv Ht Hp. unfold has_empty_m. rewrite has_empty_eq. unfold ref_has_empty. expose.
  rewrite (parse_si_raw t s Hp). destruct (valid_nonempty t Hv) as (b & r & Hbr). rewrite Hbr. cbn [is_empty]. rewrite <- Hbr.
  unfold unmarshal_seq. rewrite read_expect_full by assumption. cbn [bind fst snd].
  destruct (read_all (t_body t)); reflexivity.
Qed.
(* when the contents are complete elements, exactly "[0] present, no attribute inside"; when they are not (something
   undecodable behind the last field), "true" unless attributes were read *)
Lemma has_empty_parsed C t s seq :
  valid t -> t_tag t = T_SEQ -> parse_si t = Ok s -> read_all (t_body t) = Ok seq ->
  has_empty_m C s = match si_auth s with Some [] => true | _ => false end.
Proof.
  intros Hv Ht Hp Hseq. rewrite (has_empty_m_raw C t s Hv Ht Hp), Hseq.
  destruct (parse_si_elements t s seq Hv Hp Hseq) as (t1 & t2 & t3 & t4 & more & -> & H4).
  replace (zlen (t1 :: t2 :: t3 :: t4 :: more) <? 4) with false by (rewrite !zlen_cons; pose proof (zlen_nonneg more); lia).
  rewrite (nth_z_some _ 3 t1) by (rewrite !zlen_cons; pose proof (zlen_nonneg more); lia).
  change (nth (Z.to_nat 3) (t1 :: t2 :: t3 :: t4 :: more) t1) with t4. unfold tl_class, tl_num.
  destruct (si_auth s) as [[|a l]|].
  - rewrite H4. reflexivity.
  - cbn [opt_list]. replace (zlen (a :: l) =? 0) with false by (rewrite zlen_cons; pose proof (zlen_nonneg l); lia). reflexivity.
  - rewrite H4. reflexivity.
Qed.
(* so: an accepting Verify of a SignerInfo without attributes has found complete elements and no [0] field *)
Lemma no_attrs_accept_shape C t s :
  valid t -> t_tag t = T_SEQ -> parse_si t = Ok s -> opt_list (si_auth s) = [] -> has_empty_m C s = false ->
  si_auth s = None /\ exists seq, read_all (t_body t) = Ok seq.
Proof.
  intros Hv Ht Hp He Hf. pose proof Hf as Hf'. rewrite (has_empty_m_raw C t s Hv Ht Hp), He in Hf'.
  (* discriminate is given its hypothesis: left to search, it would evaluate the interpreter behind has_empty_m in Hf *)
  destruct (read_all (t_body t)) as [seq| |] eqn:E; [|discriminate Hf'..].
  rewrite (has_empty_parsed C t s seq Hv Ht Hp E) in Hf. destruct (si_auth s) as [[|a l]|]; [discriminate Hf|discriminate He|eauto].
Qed.

(* ContentInfo.Bytes: the interpretation of the source is Model.ci_bytes (the function the round-trip harness compares) *)
Lemma ci_bytes_split raw :
  ci_bytes raw = match ci_unmarshal_raw raw with
                 | Ok c => Ok (Some (t_body c))
                 | Err e => if is_syntax_error e then Ok None else Err e
                 | Panic e => Panic e
                 end.
Proof.
  unfold ci_bytes, ci_unmarshal_raw.
  destruct (read_expect T_SEQ raw) as [[t r]| |]; cbn [bind fst snd]; [|reflexivity|reflexivity].
  destruct (read_expect T_OID (t_body t)) as [[ot rest]| |]; cbn [bind fst snd]; [|reflexivity|reflexivity].
  destruct (oid_ok (t_body ot)); cbn [negb]; [|reflexivity].
  destruct (read_tlv rest) as [[v r2]| |]; cbn [bind fst snd]; [|reflexivity|reflexivity].
  destruct (read_tlv (t_body v)) as [[c r3]| |]; cbn [bind fst snd]; reflexivity.
Qed.
Lemma ci_bytes_m_ok C c o : ci_bytes_m C c = Ok o <-> ci_bytes (ci_raw c) = Ok o.
Proof.
  unfold ci_bytes_m. rewrite ci_bytes_eq. unfold ref_ci_bytes. expose. rewrite ci_bytes_split.
  destruct (ci_unmarshal_raw (ci_raw c)) as [t|e|e]; [tauto| |split; intro H; discriminate].
  destruct (is_syntax_error e); [tauto|split; intro H; discriminate].
Qed.

Definition signature_accepted (C : crypto) (c : cert) (s : sinfo) (digest : bytes) : Prop :=
  sig_decides (real_prims C) c s digest = SigOk.

Lemma si_verify_unfold C s content skip certs :
  si_verify C s (Wby content) skip certs = ref_si_verify (real_prims C) (hooks2 (real_prims C)) s content skip certs.
Proof. unfold si_verify. rewrite si_verify_eq. reflexivity. Qed.

Lemma sig_err_accept r c c' : sig_err r (VAccept c) = VAccept c' -> r = SigOk /\ c = c'.
Proof. destruct r; cbn; intro H; [inversion H; auto|discriminate|discriminate]. Qed.

Lemma ref_finish_accept C s certs d c :
  ref_finish (real_prims C) s certs d = VAccept c ->
  find_cert certs (si_issuer s) (si_serial s) = Some c /\
  match d with Some dg => signature_accepted C c s dg | None => True end.
Proof.
  unfold ref_finish. expose.
  destruct (find_cert certs (si_issuer s) (si_serial s)) as [c0|]; [|discriminate].
  destruct d as [dg|].
  - intro H. apply sig_err_accept in H as [H ->]. split; [reflexivity|exact H].
  - intro H. inversion H; subst. split; [reflexivity|exact I].
Qed.

(* what an accepting run of SignerInfo.Verify has established *)
Theorem si_verify_accept_inv C s content skip certs c :
  si_verify C s (Wby content) skip certs = VAccept c ->
  exists h, c_hash_of C (si_dalg s) = Some h /\ find_cert certs (si_issuer s) (si_serial s) = Some c /\
    ((opt_list (si_auth s) = [] /\ has_empty_m C s = false /\ (skip = true \/ signature_accepted C c s (c_H C h content))) \/
     (opt_list (si_auth s) <> [] /\
      exists md ab, get_one (opt_list (si_auth s)) OID_message_digest = Ok md /\ (skip = false -> md = c_H C h content) /\
                    aab s = Ok ab /\ signature_accepted C c s (c_H C h ab))).
Proof.
  rewrite si_verify_unfold. unfold ref_si_verify.
  expose. rewrite <- ?aab_m_def.
  destruct (c_hash_of C (si_dalg s)) as [h|]; [|discriminate]. intro H. exists h. split; [reflexivity|].
  destruct (zlen (opt_list (si_auth s)) =? 0) eqn:Hn.
  - rewrite <- ?has_empty_m_def in H. destruct (has_empty_m C s) eqn:He; [discriminate H|].
    apply ref_finish_accept in H as [Hf Hs]. split; [exact Hf|]. left. split; [|split; [reflexivity|]].
    + destruct (opt_list (si_auth s)); [reflexivity|]. rewrite zlen_cons in Hn. pose proof (zlen_nonneg l). lia.
    + destruct skip; [left; reflexivity|right; exact Hs].
  - destruct (get_one (opt_list (si_auth s)) OID_message_digest) as [md| |] eqn:Hg; [|discriminate H|discriminate H].
    destruct (match (if skip then None else Some (c_H C h content)) with Some d => negb (bytes_eqb md d) | None => false end) eqn:Hmd;
      [discriminate H|].
    destruct (aab_m C s) as [ab| |] eqn:Hab; [|discriminate H|discriminate H].
    apply -> aab_m_ok in Hab. apply ref_finish_accept in H as [Hf Hs]. split; [exact Hf|]. right. split.
    + intro E. rewrite E in Hn. discriminate Hn.
    + exists md, ab. split; [reflexivity|]. split; [|split; [exact Hab|exact Hs]].
      intros ->. apply negb_false_iff in Hmd. apply list_eqb_Z_eq in Hmd. exact Hmd.
Qed.

Lemma spec_preimage_of_signed x p content : spec_signed_attrs_preimage x = Some p -> spec_si_preimage x content = Some (true, p).
Proof.
  unfold spec_signed_attrs_preimage, spec_si_preimage. destruct (one x) as [si|]; [|discriminate].
  destruct (children si) as [[|a [|b [|c [|f r]]]]|]; try discriminate.
  destruct (t_tag f =? 160); [|discriminate]. destruct (t_full f); [discriminate|]. intro H; inversion H; reflexivity.
Qed.

Lemma spec_preimage_absent t t1 t2 t3 t4 more content :
  valid t -> read_all (t_body t) = Ok (t1 :: t2 :: t3 :: t4 :: more) -> t_tag t4 = T_SEQ ->
  spec_si_preimage (t_full t) content = Some (false, content).
Proof.
  intros Hv Hseq Ht4. unfold spec_si_preimage, children. rewrite (one_full t Hv), Hseq, Ht4. reflexivity.
Qed.

(* PARSED SignerInfo with signed attributes: an accepting Verify has checked the signature against the digest of exactly
   the [0] field as it stands in the input — which is emitted again verbatim — with the first octet replaced by 0x31, and
   (unless digests are skipped) the message-digest attribute equals the digest of the content *)
Theorem verify_parsed_digests_emitted C t s a l content skip certs c :
  valid t -> t_tag t = T_SEQ -> parse_si t = Ok s -> si_auth s = Some (a :: l) ->
  si_verify C s (Wby content) skip certs = VAccept c ->
  exists h pre tl post,
    c_hash_of C (si_dalg s) = Some h /\
    emit_si s = t_full t /\ t_body t = pre ++ (160 :: tl) ++ post /\
    spec_si_preimage (emit_si s) content = Some (true, 49 :: tl) /\
    find_cert certs (si_issuer s) (si_serial s) = Some c /\
    signature_accepted C c s (c_H C h (49 :: tl)) /\
    (skip = false -> get_one (a :: l) OID_message_digest = Ok (c_H C h content)).
Proof.
  intros Hv Ht Hp Hauth Hacc. apply si_verify_accept_inv in Hacc as (h & Hh & Hf & [[He _]|[_ (md & ab & Hg & Hmd & Hab & Hs)]]).
  - rewrite Hauth in He. discriminate.
  - destruct (attr_digest_parsed t s (a :: l) ab Hv Ht Hp Hauth Hab) as (pre & tl & post & Hraw & Hemit & Hbody & -> & Hspec).
    exists h, pre, tl, post. split; [exact Hh|]. split; [exact Hemit|]. split; [exact Hbody|].
    split; [rewrite Hemit, <- Hraw; apply spec_preimage_of_signed; exact Hspec|]. split; [exact Hf|]. split; [exact Hs|].
    intros Hsk. rewrite Hauth in Hg. cbn [opt_list] in Hg. rewrite Hg, (Hmd Hsk). reflexivity.
Qed.

(* no other encoding of the same attributes can make Verify accept: if the signature does not check against the digest of
   the RFC 5652 preimage of the EMITTED bytes, Verify rejects — whatever the signature primitives answer on any other digest
   (the sorted DER SET OF, a re-encoding, another order, the content digest) *)
Theorem other_encodings_cannot_help C t s a l content skip certs h p :
  valid t -> t_tag t = T_SEQ -> parse_si t = Ok s -> si_auth s = Some (a :: l) ->
  spec_si_preimage (t_full t) content = Some (true, p) -> c_hash_of C (si_dalg s) = Some h ->
  (forall c, ~ signature_accepted C c s (c_H C h p)) ->
  forall c, si_verify C s (Wby content) skip certs <> VAccept c.
Proof.
  intros Hv Ht Hp Hauth Hspec Hh Hno c Hacc.
  destruct (verify_parsed_digests_emitted C t s a l content skip certs c Hv Ht Hp Hauth Hacc)
    as (h' & pre & tl & post & Hh' & Hemit & _ & Hspec' & _ & Hs & _).
  rewrite Hemit, Hspec in Hspec'. inversion Hspec'; subst p. rewrite Hh in Hh'. inversion Hh'; subst h'.
  exact (Hno c Hs).
Qed.

(* a [0] field without attributes is refused, whatever follows inside the SignerInfo *)
Lemma empty_attrs_rejected C t s content skip certs c :
  valid t -> t_tag t = T_SEQ -> parse_si t = Ok s -> si_auth s = Some [] -> si_verify C s (Wby content) skip certs <> VAccept c.
Proof.
  intros Hv Ht Hp Hauth Hacc. apply si_verify_accept_inv in Hacc as (h & _ & _ & [[He [Hf _]]|[Hne _]]).
  - destruct (no_attrs_accept_shape C t s Hv Ht Hp He Hf) as [Hn _]. rewrite Hauth in Hn. discriminate Hn.
  - rewrite Hauth in Hne. cbn in Hne. congruence.
Qed.

(* the dichotomy (relic fixes daed528 and b8abb42 included), for EVERY accepted SignerInfo: an accepting Verify with digests
   checked means EITHER there is no [0] field and the signature is over the content digest, OR the field holds at least one
   attribute and the signature is over exactly the emitted field re-tagged.  An empty field is refused. *)
Theorem verify_accept_dichotomy C t s content certs c :
  valid t -> t_tag t = T_SEQ -> parse_si t = Ok s ->
  si_verify C s (Wby content) false certs = VAccept c ->
  exists h, c_hash_of C (si_dalg s) = Some h /\
    ((si_auth s = None /\ spec_si_preimage (emit_si s) content = Some (false, content) /\ signature_accepted C c s (c_H C h content)) \/
     (exists a l tl, si_auth s = Some (a :: l) /\ spec_si_preimage (emit_si s) content = Some (true, 49 :: tl) /\
                     subslice (160 :: tl) (emit_si s) /\ signature_accepted C c s (c_H C h (49 :: tl)))).
Proof.
  intros Hv Ht Hp Hacc.
  destruct (si_auth s) as [[|a l]|] eqn:Hauth.
  - destruct (empty_attrs_rejected C t s content false certs c Hv Ht Hp Hauth Hacc).
  - destruct (verify_parsed_digests_emitted C t s a l content false certs c Hv Ht Hp Hauth Hacc)
      as (h & pre & tl & post & Hh & Hemit & Hbody & Hspec & _ & Hs & _).
    exists h. split; [exact Hh|]. right. exists a, l, tl. split; [reflexivity|]. split; [exact Hspec|]. split; [|exact Hs].
    rewrite Hemit. eapply subslice_trans; [|apply subslice_body; exact Hv]. rewrite Hbody. exists pre, post. reflexivity.
  - pose proof Hacc as Hacc'. apply si_verify_accept_inv in Hacc' as (h & Hh & _ & [[He [Hf [Hs|Hs]]]|[Hne _]]).
    + discriminate Hs.
    + exists h. split; [exact Hh|]. left. split; [reflexivity|]. split; [|exact Hs].
      destruct (no_attrs_accept_shape C t s Hv Ht Hp He Hf) as [_ (seq & Hseq)].
      destruct (parse_si_elements t s seq Hv Hp Hseq) as (t1 & t2 & t3 & t4 & more & -> & H4). rewrite Hauth in H4.
      assert (Hwf : wf_si s) by (exists t; tauto). rewrite (emit_si_wf s Hwf), (parse_si_raw t s Hp).
      exact (spec_preimage_absent t _ _ _ _ _ content Hv Hseq H4).
    + rewrite Hauth in Hne. cbn in Hne. congruence.
Qed.
(* the two witnesses that refuted the dichotomy before those fixes: A0 00 signed over the content digest; the same plus a
   truncated element 04 05 00 behind the signature value, which encoding/asn1 does not look at *)
Definition empty_attrs_si0 : bytes :=
  [48; 46; 2; 1; 1; 48; 17; 48; 12; 49; 10; 48; 8; 6; 3; 85; 4; 3; 12; 1; 120; 2; 1; 9; 48; 7; 6; 3; 42; 3; 1; 5; 0;
   160; 0; 48; 7; 6; 3; 42; 3; 2; 5; 0; 4; 2; 190; 239].
Definition empty_attrs_si : bytes :=
  [48; 49; 2; 1; 1; 48; 17; 48; 12; 49; 10; 48; 8; 6; 3; 85; 4; 3; 12; 1; 120; 2; 1; 9; 48; 7; 6; 3; 42; 3; 1; 5; 0;
   160; 0; 48; 7; 6; 3; 42; 3; 2; 5; 0; 4; 2; 190; 239; 4; 5; 0].
Definition witness_crypto (content : bytes) : crypto :=
  mkCrypto (fun _ => Some 1) (fun _ b => 200 :: b)
           (fun _ _ _ d _ => if bytes_eqb d (200 :: content) then SigOk else SigOther) (fun _ _ _ _ => SigOther)
           (fun _ => ([], 0)) (fun _ => Err 1) (fun _ => 0).
Definition dummy_si : sinfo := mkSi [] 0 [] [] (mkAlg [] []) None (mkAlg [] []) [] None.
Definition tlv_of (x : bytes) : tlv := match read_tlv x with Ok (t, _) => t | _ => mkTlv 0 [] [] end.
Definition si_of (x : bytes) : sinfo := match parse_si (tlv_of x) with Ok s => s | _ => dummy_si end.
Definition cert_of (x : bytes) : cert := mkCert (si_issuer (si_of x)) (si_serial (si_of x)) 5.
Definition witness_content : bytes := [1; 2; 3].

(* pkcs9: MessageImprint.Verify, finishVerify, Verify *)
Lemma imprint_ok_inv C a hashed data :
  imprint_verify C a hashed (Wby data) = 0 -> exists h, c_hash_of C a = Some h /\ c_H C h data = hashed.
Proof.
  unfold imprint_verify. rewrite imprint_eq. unfold ref_imprint. expose.
  destruct (c_hash_of C a) as [h|]; [|discriminate]. destruct (bytes_eqb (c_H C h data) hashed) eqn:E; [|discriminate].
  intros _. exists h. split; [reflexivity|]. apply list_eqb_Z_eq. exact E.
Qed.

Lemma ts_finish_accept_inv C s blob certs h ti cerr s' c h' t :
  ts_finish C s (blob_val blob) certs h (Wti ti) cerr = TsAccept s' c h' t ->
  s' = s /\ h' = h /\ t = ti_time ti /\ 0 <= ti_time ti /\ si_verify C s (blob_val blob) false certs = VAccept c.
Proof.
  unfold ts_finish. rewrite finish_eq. unfold ref_ts_finish, ts_time. expose. rewrite <- ?si_verify_def.
  destruct (si_verify C s (blob_val blob) false certs) as [c0|e].
  - destruct (ti_time ti <? 0) eqn:Ht; [discriminate|]. intro H; inversion H; subst. repeat split; try reflexivity. lia.
  - destruct ((e =? EV_CERT) && negb (cerr =? 0)); discriminate.
Qed.

Lemma zlen_one {A} (l : list A) x : zlen l = 1 -> nth_z l 0 = Some x -> l = [x].
Proof.
  destruct l as [|y [|z r]]; intros Hl Hn.
  - discriminate.
  - unfold nth_z in Hn. cbn in Hn. congruence.
  - rewrite !zlen_cons in Hl. pose proof (zlen_nonneg r). lia.
Qed.

(* SignedData.Verify: the loop of the interpretation against ref_sd_loop *)
Lemma sd_loop_sim P K (stepf : sinfo -> step) (reff : sinfo -> vres) :
  (forall s, match stepf s, reff s with
             | StContinue st', VAccept c => run_sd_post P K st' = SdAccept s c
             | StStop r, VReject e => r = SdReject e
             | _, _ => False
             end) ->
  forall l st last,
    match last with
    | Some (s, c) => run_sd_post P K st = SdAccept s c
    | None => run_sd_post P K st = SdReject EV_UNKNOWN
    end ->
    sd_finish P K (sd_loop stepf st l) = ref_sd_loop reff last l.
Proof.
  intros Hstep. induction l as [|s r IH]; intros st last Hlast.
  - cbn [sd_loop sd_finish ref_sd_loop]. destruct last as [[s c]|]; exact Hlast.
  - cbn [sd_loop ref_sd_loop]. specialize (Hstep s).
    destruct (stepf s) as [st'|x], (reff s) as [c|e]; try contradiction.
    + apply (IH st' (Some (s, c))). exact Hstep.
    + cbn [sd_finish]. exact Hstep.
Qed.

(* evaluate one sub-term of the goal (the interpreter on concrete program text) and leave the rest folded *)
Ltac compute_term t := let v := eval vm_compute in t in change t with v.

(* the reference side of a goal, brought to the form vm_compute gives the interpreter side *)
Ltac norm := cbv beta iota delta [Z.eqb Z.ltb Z.compare Pos.eqb Pos.compare Pos.compare_cont negb andb orb fst snd
                                   VModel.p_eq VModel.p_nsis VModel.p_parse_certs VModel.k_ci_bytes VModel.k_si_verify
                                   Model.sd_sis Model.sd_certs Model.sd_ci].
Ltac post_leaf := idtac; match goal with |- run_sd_post ?P ?K ?st' = _ => compute_term (run_sd_post P K st'); reflexivity end.
Lemma sd_verify_eq P K sd ext skip : run_sd_verify P K sd (ext_val ext) skip = ref_sd_verify P K sd ext skip.
Proof.
  destruct P, K, sd. unfold run_sd_verify, ref_sd_verify, ref_sd_select.
  compute_term independent_iterations. cbv iota beta. cbn [negb].
  destruct ext as [e|]; cbn [ext_val].
  all: match goal with |- context [run_sd_pre ?P ?K ?sd ?x ?sk] => compute_term (run_sd_pre P K sd x sk) end.
  all: norm.
  (* every path through the statements in front of the loop ends in a return or at the loop; there the collection ranged
     over is computed and one pass of the body is compared with ref_sd_step, by evaluation again *)
  all: cases ltac:(first
    [ match goal with |- context [range_collection ?P ?K ?st] => compute_term (range_collection P K st); cbv iota beta end
    | match goal with
      | |- sd_finish ?P ?K (sd_loop ?f ?st ?l) = ref_sd_loop ?g None ?l' =>
          apply (sd_loop_sim P K f g);
          [ let s := fresh "s" in intro s;
            match goal with |- context [run_sd_body ?P ?K ?st0 s] => compute_term (run_sd_body P K st0 s) end;
            match goal with |- context [ref_sd_step ?K ?c ?sk ?l ?ce s] => compute_term (ref_sd_step K c sk l ce s) end;
            cases post_leaf
          | post_leaf ]
      end ]).
Qed.

Lemma ref_sd_loop_accept (f : sinfo -> vres) l : forall last s c,
  ref_sd_loop f last l = SdAccept s c ->
  Forall (fun s' => exists c', f s' = VAccept c') l /\ (In s l \/ last = Some (s, c)).
Proof.
  induction l as [|x r IH]; intros last s c H; cbn [ref_sd_loop] in H.
  - destruct last as [[s0 c0]|]; [|discriminate]. inversion H; subst. split; [constructor|right; reflexivity].
  - destruct (f x) as [cx|e] eqn:Ex; [|discriminate]. apply IH in H as [HF Hin]. split.
    + constructor; [eauto|exact HF].
    + left. destruct Hin as [Hin|Hin]; [right; exact Hin|inversion Hin; subst; left; reflexivity].
Qed.

Lemma ref_sd_step_accept K content skip certs cerr s c :
  ref_sd_step K content skip certs cerr s = VAccept c -> k_si_verify K s content skip certs = VAccept c.
Proof.
  unfold ref_sd_step. destruct (k_si_verify K s content skip certs) as [c0|e]; [auto|].
  destruct ((e =? EV_CERT) && negb (cerr =? 0)); discriminate.
Qed.

(* what an accepting SignedData.Verify has established, for all primitives and hooks: a content was selected, and every
   SignerInfo's Verify accepted over it *)
Lemma ref_sd_verify_accept P K sd ext skip s c :
  ref_sd_verify P K sd ext skip = SdAccept s c ->
  exists content certs, ref_sd_select K P sd ext skip = SelContent content /\ In s (sd_sis sd) /\
    Forall (fun s' => exists c', k_si_verify K s' content skip certs = VAccept c') (sd_sis sd).
Proof.
  unfold ref_sd_verify. destruct (ref_sd_select K P sd ext skip) as [content|e]; [|discriminate].
  destruct (p_nsis P (sd_sis sd) =? 0); [discriminate|]. intro H. apply ref_sd_loop_accept in H as [HF [Hin|Hin]]; [|discriminate].
  exists content. eexists. split; [reflexivity|]. split; [exact Hin|].
  eapply Forall_impl; [|exact HF]. intros s' (c' & Hs'). exists c'. apply ref_sd_step_accept in Hs'. exact Hs'.
Qed.

(* with digests checked, the selected content is the embedded one; external content must be equal to it or stand in for it.
   Stated over the hook's answer: a step that took ci_bytes_m apart (discriminate, apply .. in) would run the interpreter. *)
Lemma ref_sd_select_content K P sd ext content :
  ref_sd_select K P sd ext false = SelContent content ->
  match ext with
  | Some e => k_ci_bytes K (sd_ci sd) = Ok None /\ content = Wby e \/
              exists b, k_ci_bytes K (sd_ci sd) = Ok (Some b) /\ p_eq P e b = true /\ content = Wby b
  | None => exists b, k_ci_bytes K (sd_ci sd) = Ok (Some b) /\ content = Wby b
  end.
Proof.
  unfold ref_sd_select. destruct (k_ci_bytes K (sd_ci sd)) as [[b|]| |], ext as [x|]; try discriminate.
  - destruct (p_eq P x b) eqn:E; [|discriminate]. intros [= <-]. right. eauto.
  - intros [= <-]. eauto.
  - intros [= <-]. left. auto.
Qed.

Lemma sd_verify_accept C sd ext s c :
  sd_verify C sd (ext_val ext) false = SdAccept s c ->
  exists content certs,
    match ext with
    | Some e => content = e /\ (ci_bytes (ci_raw (sd_ci sd)) = Ok None \/ ci_bytes (ci_raw (sd_ci sd)) = Ok (Some e))
    | None => ci_bytes (ci_raw (sd_ci sd)) = Ok (Some content)
    end /\ In s (sd_sis sd) /\
    Forall (fun s' => exists c', si_verify C s' (Wby content) false certs = VAccept c') (sd_sis sd).
Proof.
  rewrite sd_verify_def, sd_verify_eq. intros (content & certs & Hsel & Hin & HF)%ref_sd_verify_accept.
  apply ref_sd_select_content in Hsel. rewrite hk_ci3, <- ci_bytes_m_def, rp_eq in Hsel.
  rewrite hk_verify3, <- si_verify_def in HF.
  destruct ext as [e|].
  - destruct Hsel as [[Hb ->]|(b & Hb & <-%bytes_eqb_eq & ->)]; apply -> ci_bytes_m_ok in Hb; exists e, certs; auto.
  - destruct Hsel as (b & Hb & ->). apply -> ci_bytes_m_ok in Hb. exists b, certs. auto.
Qed.

(* SignedData.Verify with EXTERNAL content supplied and digests checked: when it accepts, the SignedData either carries no
   content or carries exactly the external content, and EVERY SignerInfo was verified against the external content (so by
   verify_parsed_digests_emitted its message-digest attribute is the digest of the external content) *)
Theorem sd_verify_external_content C sd ext s c :
  sd_verify C sd (Wby ext) false = SdAccept s c ->
  (ci_bytes (ci_raw (sd_ci sd)) = Ok None \/ ci_bytes (ci_raw (sd_ci sd)) = Ok (Some ext)) /\
  In s (sd_sis sd) /\
  exists certs, Forall (fun s' => exists c', si_verify C s' (Wby ext) false certs = VAccept c') (sd_sis sd).
Proof.
  intros (content & certs & [-> Hci] & Hin & HF)%(sd_verify_accept C sd (Some ext)). eauto.
Qed.

(* without external content the embedded content is what every SignerInfo is verified against *)
Theorem sd_verify_embedded_content C sd s c :
  sd_verify C sd Wnil false = SdAccept s c ->
  exists b certs, ci_bytes (ci_raw (sd_ci sd)) = Ok (Some b) /\
    Forall (fun s' => exists c', si_verify C s' (Wby b) false certs = VAccept c') (sd_sis sd).
Proof.
  intros (b & certs & Hci & _ & HF)%(sd_verify_accept C sd None). eauto.
Qed.

(* ContentInfo.Bytes of  SEQUENCE { contentType, [0] { one element } }  is the contents of that element, which is what the
   RFC 5652 reader finds *)
Lemma ci_bytes_elements t0 t1 t2 t3 :
  valid t0 -> valid t1 -> valid t2 -> valid t3 -> t_tag t0 = T_SEQ -> t_tag t1 = T_OID -> t_tag t2 = 160 ->
  oid_ok (t_body t1) = true -> t_body t0 = t_full t1 ++ t_full t2 -> t_body t2 = t_full t3 ->
  ci_bytes (t_full t0) = Ok (Some (t_body t3)) /\ spec_econtent (t_full t0) = Some (Some (t_body t3)).
Proof.
  intros V0 V1 V2 V3 T0 T1 T2 Ho B0 B2. split.
  - unfold ci_bytes. rewrite (read_expect_full T_SEQ t0 V0 T0). cbv beta iota.
    rewrite B0, (read_expect_valid T_OID t1 _ V1 T1). cbv beta iota. rewrite Ho. cbn [negb].
    rewrite (read_tlv_full t2 V2). cbv beta iota. rewrite B2, (read_tlv_full t3 V3). reflexivity.
  - unfold spec_econtent, children. rewrite (one_full t0 V0), B0.
    pose proof (read_all_concat [t1; t2] (Forall_cons _ V1 (Forall_cons _ V2 (Forall_nil _)))) as R.
    cbn [map concat] in R. rewrite app_nil_r in R. rewrite R, T2, B2, (read_all_one t3 V3). reflexivity.
Qed.

(* for EVERY payload and every identifier octet of the inner element: whatever the payload looks like (also when it is
   itself a run of complete OCTET STRING elements), Bytes() of  SEQUENCE { contentType, [0] { tag len payload } }  is payload *)
Theorem ci_bytes_is_econtent ctype tag payload :
  oid_ok ctype = true -> all_bytes ctype = true -> tag_ok tag -> all_bytes payload = true ->
  small (enc_tlv T_SEQ (enc_tlv T_OID ctype ++ enc_tlv 160 (enc_tlv tag payload))) ->
  let raw := enc_tlv T_SEQ (enc_tlv T_OID ctype ++ enc_tlv 160 (enc_tlv tag payload)) in
  ci_bytes raw = Ok (Some payload) /\ spec_econtent raw = Some (Some payload).
Proof.
  intros Hoid Hcb Htag Hpb Hsmall. cbv zeta.
  pose proof (small_enc_tlv _ _ Hsmall) as Hs0. pose proof Hs0 as [Hs1%small_enc_tlv Hs2%small_enc_tlv]%small_app.
  pose proof (small_enc_tlv _ _ Hs2) as Hs3.
  assert (V1 : valid (mkTlv T_OID ctype (enc_tlv T_OID ctype))) by (apply valid_enc; [tagok|assumption|assumption]).
  assert (V3 : valid (mkTlv tag payload (enc_tlv tag payload))) by (apply valid_enc; assumption).
  assert (V2 : valid (mkTlv 160 (enc_tlv tag payload) (enc_tlv 160 (enc_tlv tag payload)))).
  { apply valid_enc; [tagok|exact Hs2|exact (valid_full_bytes _ V3)]. }
  assert (V0 : valid (mkTlv T_SEQ (enc_tlv T_OID ctype ++ enc_tlv 160 (enc_tlv tag payload)) (enc_tlv T_SEQ (enc_tlv T_OID ctype ++ enc_tlv 160 (enc_tlv tag payload))))).
  { apply valid_enc; [tagok|exact Hs0|]. apply all_bytes_app_iff. split; [exact (valid_full_bytes _ V1)|exact (valid_full_bytes _ V2)]. }
  exact (ci_bytes_elements _ _ _ _ V0 V1 V2 V3 eq_refl eq_refl eq_refl Hoid eq_refl eq_refl).
Qed.
