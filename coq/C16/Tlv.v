(* C16/Tlv.v — lemmas about the DER tag/length reader and writer, SET OF sorting and the scalar codecs of C16/Model.v. *)
From Relic Require Import Base.Prelude Base.Enc Base.Slice Generated.C16_gen C16.Model.

Lemma all_bytes_app_iff a b : all_bytes (a ++ b) = true <-> all_bytes a = true /\ all_bytes b = true.
Proof. rewrite all_bytes_app, andb_true_iff. tauto. Qed.
Lemma all_bytes_nil : all_bytes [] = true.
Proof. reflexivity. Qed.
Lemma all_bytes_concat ls : Forall (fun l => all_bytes l = true) ls -> all_bytes (concat ls) = true.
Proof.
  induction 1; cbn [concat]; [reflexivity|]. apply all_bytes_app_iff. tauto.
Qed.

Definition tag_ok (t : Z) : Prop := 0 <= t < 256 /\ t mod 32 <> 31.
Definition small (l : bytes) : Prop := zlen l < 2 ^ 31.

Lemma small_app a b : small (a ++ b) -> small a /\ small b.
Proof. unfold small. rewrite zlen_app. pose proof (zlen_nonneg a). pose proof (zlen_nonneg b). lia. Qed.

Lemma enc_len_pos n : 1 <= zlen (enc_len n).
Proof.
  unfold enc_len. repeat match goal with |- context [if ?c then _ else _] => destruct c end; cbn; lia.
Qed.
Lemma zlen_enc_tlv t b : zlen (enc_tlv t b) = 1 + zlen (enc_len (zlen b)) + zlen b.
Proof. unfold enc_tlv. rewrite zlen_cons, zlen_app. lia. Qed.
Lemma small_enc_tlv t b : small (enc_tlv t b) -> small b.
Proof. unfold small. rewrite zlen_enc_tlv. pose proof (enc_len_pos (zlen b)). lia. Qed.

Lemma be_dec_snoc l b : be_dec (l ++ [b]) = be_dec l * 256 + b.
Proof. unfold be_dec. rewrite rev_app_distr. cbn [rev app le_dec]. lia. Qed.
Lemma be_dec_range l : all_bytes l = true -> 0 <= be_dec l < 256 ^ zlen l.
Proof. apply Enc.be_dec_range. Qed.
Lemma be_dec_cons b l : be_dec (b :: l) = b * 256 ^ zlen l + be_dec l.
Proof.
  induction l as [|x l IH] using rev_ind; [cbn; lia|].
  rewrite app_comm_cons, !be_dec_snoc, IH, zlen_app, Z.pow_add_r by (pose proof (zlen_nonneg l); cbn; lia). change (256 ^ zlen [x]) with 256. ring.
Qed.

Lemma cons_app_inv {A} (b : A) l ds r k : b :: l = ds ++ r -> length ds = S k -> exists ds', ds = b :: ds' /\ l = ds' ++ r /\ length ds' = k.
Proof. destruct ds as [|d ds']; [discriminate 2|]. intros [= <- ->] [= Hl]. eauto. Qed.

(* The long-form length loop reads k big-endian digits behind an accumulator.  It succeeds exactly when the value stays
   below 2^31 and has no leading zero digit (256^k <= 256 v says that v needs all k digits). *)
Definition len_digits (k : nat) (acc : Z) (l : bytes) (v : Z) (r ds : bytes) : Prop :=
  l = ds ++ r /\ length ds = k /\ all_bytes ds = true /\ v = acc * 256 ^ Z.of_nat k + be_dec ds /\
  (k <> O -> 256 ^ Z.of_nat k <= 256 * v /\ v < 2 ^ 31).
Lemma read_len_spec k : forall acc l v r, 0 <= acc ->
  (all_bytes l = true -> read_len k acc l = Ok (v, r) -> exists ds, len_digits k acc l v r ds) /\
  (forall ds, len_digits k acc l v r ds -> read_len k acc l = Ok (v, r)).
Proof.
  unfold len_digits. induction k as [|k IH]; intros acc l v r Hacc; cbn [read_len].
  - split.
    + intros _ [= <- <-]. exists []. do 3 (split; [reflexivity|]). split; [cbn; lia|congruence].
    + intros [|] (-> & [=] & _ & -> & _). cbn. do 2 f_equal. lia.
  - destruct l as [|b l']; [split; [discriminate 2|intros [|] ([=] & [=] & _)]|].
    rewrite Nat2Z.inj_succ, Z.pow_succ_r by lia. set (p := 256 ^ Z.of_nat k). assert (Hp : 0 < p) by (apply Z.pow_pos_nonneg; lia).
    (* what a digit string b :: ds' of this length is worth *)
    assert (Hval : forall ds', length ds' = k -> all_bytes ds' = true -> be_dec (b :: ds') = b * p + be_dec ds' /\ 0 <= be_dec ds' < p).
    { intros ds' Hl Hd. rewrite be_dec_cons. pose proof (be_dec_range ds' Hd). unfold zlen in *. rewrite Hl in *. auto. }
    split.
    + intros [Hb0 Hb]%all_bytes_cons. destruct (acc >=? 2 ^ 23) eqn:E1; [discriminate|]. destruct (acc * 256 + b =? 0) eqn:E2; [discriminate|].
      intros (ds' & -> & Hl' & Hd & -> & Hr)%(proj1 (IH (acc * 256 + b) l' v r ltac:(lia))); [|exact Hb]. destruct (Hval ds' Hl' Hd) as [Hv ?].
      exists (b :: ds'). split; [reflexivity|]. split; [cbn; congruence|]. split; [apply all_bytes_cons; auto|]. rewrite Hv. fold p. split; [ring|]. intros _.
      destruct k; [change p with 1 in *; lia|]. specialize (Hr ltac:(discriminate)). nia.
    + intros ds (Hds & Hl & Hd & -> & Hr). destruct (cons_app_inv _ _ _ _ _ Hds Hl) as (ds' & -> & -> & Hl'). specialize (Hr ltac:(discriminate)).
      apply all_bytes_cons in Hd as [Hb0 Hd]. destruct (Hval ds' Hl' Hd) as [Hv ?]. rewrite Hv in *.
      replace (acc >=? 2 ^ 23) with false by nia. replace (acc * 256 + b =? 0) with false by nia.
      apply (proj2 (IH (acc * 256 + b) (ds' ++ r) _ r ltac:(lia)) ds'). split; [reflexivity|]. split; [exact Hl'|]. split; [exact Hd|]. fold p. split; [ring|]. intros Hk.
      rewrite <- (Nat.succ_pred k Hk), Nat2Z.inj_succ, Z.pow_succ_r in * by lia. nia.
Qed.

(* appendLength writes 0x80 + k and the k big-endian digits of n, k being the number of digits n needs *)
Lemma enc_len_long k n : (1 <= k <= 4)%nat -> 128 <= n -> 256 ^ Z.of_nat k <= 256 * n < 256 * 256 ^ Z.of_nat k ->
  enc_len n = (128 + Z.of_nat k) :: be_enc k n.
Proof.
  intros Hk Hn Hr. destruct k as [|[|[|[|[|k]]]]]; try lia.
  all: match type of Hr with context [256 ^ ?e] => let v := eval vm_compute in (256 ^ e) in change (256 ^ e) with v in Hr end.
  all: unfold enc_len; rewrite !(proj2 (Z.ltb_ge _ _)) by lia; try rewrite (proj2 (Z.ltb_lt _ _)) by lia.
  all: cbn [be_enc le_enc rev app]; repeat (apply (f_equal2 cons); [lia|]); reflexivity.
Qed.
Lemma enc_len_cases n : 0 <= n < 2 ^ 32 ->
  n < 128 /\ enc_len n = [n] \/
  128 <= n /\ exists k, (1 <= k <= 4)%nat /\ 256 ^ Z.of_nat k <= 256 * n < 256 * 256 ^ Z.of_nat k /\ enc_len n = (128 + Z.of_nat k) :: be_enc k n.
Proof.
  intros Hn. destruct (Z_lt_dec n 128) as [H|H]; [left; split; [exact H|]; unfold enc_len; now rewrite (proj2 (Z.ltb_lt _ _) H)|right; split; [lia|]].
  assert (exists k, (1 <= k <= 4)%nat /\ 256 ^ Z.of_nat k <= 256 * n < 256 * 256 ^ Z.of_nat k) as (k & Hk & Hr).
  { destruct (Z_lt_dec n 256); [exists 1%nat|destruct (Z_lt_dec n 65536); [exists 2%nat|destruct (Z_lt_dec n 16777216); [exists 3%nat|exists 4%nat]]].
    all: split; [lia|].
    all: match goal with |- context [256 ^ ?e] => let v := eval vm_compute in (256 ^ e) in change (256 ^ e) with v end; lia. }
  exists k. split; [exact Hk|]. split; [exact Hr|]. apply enc_len_long; [exact Hk|lia|exact Hr].
Qed.
Lemma enc_len_bytes n : 0 <= n < 2 ^ 32 -> all_bytes (enc_len n) = true.
Proof.
  intros Hn. destruct (enc_len_cases n Hn) as [[H ->]|(H & k & Hk & _ & ->)]; apply all_bytes_cons; (split; [lia|]); [reflexivity|apply be_enc_bytes].
Qed.

Lemma read_hdr_enc tag n r :
  tag_ok tag -> 0 <= n < 2 ^ 31 -> read_hdr (tag :: enc_len n ++ r) = Ok (tag, n, r).
Proof.
  intros [Ht Hm] Hn. unfold read_hdr.
  replace (tag mod 32 =? 31) with false by (symmetry; apply Z.eqb_neq; exact Hm).
  destruct (enc_len_cases n ltac:(lia)) as [[H ->]|(H & k & Hk & Hr & ->)]; cbn [app].
  { replace (n <? 128) with true by lia. reflexivity. }
  replace (128 + Z.of_nat k <? 128) with false by lia. replace (128 + Z.of_nat k =? 128) with false by lia.
  replace (Z.to_nat (128 + Z.of_nat k - 128)) with k by lia.
  rewrite (proj2 (read_len_spec k 0 (be_enc k n ++ r) n r (Z.le_refl 0)) (be_enc k n)).
  - cbn [bind fst snd]. replace (n <? 128) with false by lia. reflexivity.
  - split; [reflexivity|]. split; [apply be_enc_length|]. split; [apply be_enc_bytes|]. rewrite be_dec_enc by lia. split; lia.
Qed.

(* the header that was read is the canonical one (DER): this is where Go's minimal-length checks pay off *)
Lemma read_hdr_canon l tag len r :
  all_bytes l = true -> read_hdr l = Ok (tag, len, r) ->
  l = tag :: enc_len len ++ r /\ 0 <= len < 2 ^ 31 /\ tag_ok tag.
Proof.
  intros Hb H. unfold read_hdr in H.
  destruct l as [|b [|lb r2]]; try discriminate; [destruct (b mod 32 =? 31); discriminate|].
  apply all_bytes_cons in Hb as [Hb0 [Hlb Hb]%all_bytes_cons].
  destruct (b mod 32 =? 31) eqn:Em; [discriminate|].
  assert (Htag : tag_ok b) by (split; [lia|apply Z.eqb_neq; exact Em]).
  destruct (lb <? 128) eqn:E1.
  { inversion H; subst. unfold enc_len. rewrite E1. repeat split; try lia; apply Htag. }
  destruct (lb =? 128) eqn:E2; [discriminate|].
  destruct (read_len (Z.to_nat (lb - 128)) 0 r2) as [[v r']| |] eqn:El; try discriminate. cbn [bind fst snd] in H.
  destruct (v <? 128) eqn:E3; [discriminate|]. injection H as <- <- <-.
  apply (proj1 (read_len_spec _ 0 r2 v r' (Z.le_refl 0)) Hb) in El as (ds & -> & Hl & Hd & Hv & Hr).
  set (k := Z.to_nat (lb - 128)) in *. specialize (Hr ltac:(lia)). cbn in Hv. subst v.
  pose proof (be_dec_range ds Hd) as Hu. unfold zlen in Hu. rewrite Hl in Hu.
  assert (Hk : (k <= 4)%nat).
  { destruct (le_lt_dec k 4) as [|Hk]; [assumption|exfalso]. replace k with (5 + (k - 5))%nat in Hr by lia.
    rewrite Nat2Z.inj_add, Z.pow_add_r in Hr by lia. change (256 ^ Z.of_nat 5) with (2 ^ 40) in Hr.
    pose proof (Z.pow_pos_nonneg 256 (Z.of_nat (k - 5)) ltac:(lia) ltac:(lia)). nia. }
  rewrite (enc_len_long k (be_dec ds)) by lia. replace (128 + Z.of_nat k) with lb by lia.
  rewrite <- Hl, be_enc_dec by exact Hd. repeat split; try lia; apply Htag.
Qed.

(* a well-formed element: canonical header, single-octet identifier, length below 2^31 *)
Definition valid (t : tlv) : Prop :=
  t_full t = enc_tlv (t_tag t) (t_body t) /\ tag_ok (t_tag t) /\ small (t_body t) /\ all_bytes (t_body t) = true.

Lemma valid_body_bytes t : valid t -> all_bytes (t_body t) = true.
Proof. intros (_ & _ & _ & H). exact H. Qed.
Lemma valid_small t : valid t -> small (t_body t).
Proof. intros (_ & _ & H & _). exact H. Qed.
Lemma valid_full_bytes t : valid t -> all_bytes (t_full t) = true.
Proof.
  intros (Hf & Ht & Hs & Hb). rewrite Hf. unfold enc_tlv. apply all_bytes_cons. split; [apply Ht|].
  apply all_bytes_app_iff. split; [|exact Hb]. apply enc_len_bytes. unfold small in Hs. pose proof (zlen_nonneg (t_body t)). lia.
Qed.

Lemma read_tlv_ok l t rest :
  all_bytes l = true -> read_tlv l = Ok (t, rest) ->
  l = t_full t ++ rest /\ valid t /\ all_bytes rest = true.
Proof.
  intros Hb H. unfold read_tlv in H.
  destruct (read_hdr l) as [[[tag len] r]| |] eqn:Eh; cbn [bind] in H; try discriminate.
  apply read_hdr_canon in Eh as (Hl & Hlen & Htag); [|exact Hb].
  destruct (zlen r <? len) eqn:El; [discriminate|]. inversion H; subst t rest l; clear H. cbn [t_full t_body t_tag].
  apply all_bytes_cons in Hb as [_ [_ Hr]%all_bytes_app_iff].
  (* the element is the header and the first len octets behind it *)
  rewrite app_comm_cons, zlen_app, ztake_app_r by lia.
  replace (zlen (tag :: enc_len len) + zlen r - zlen r + len - zlen (tag :: enc_len len)) with len by lia.
  split; [|split].
  - rewrite <- app_assoc, ztake_zdrop. reflexivity.
  - unfold valid, small, enc_tlv. cbn [t_full t_body t_tag app]. rewrite zlen_ztake by lia.
    split; [reflexivity|]. split; [exact Htag|]. split; [lia|]. apply all_bytes_ztake. exact Hr.
  - apply all_bytes_zdrop. exact Hr.
Qed.

Lemma read_tlv_enc tag body rest :
  tag_ok tag -> small body -> read_tlv (enc_tlv tag body ++ rest) = Ok (mkTlv tag body (enc_tlv tag body), rest).
Proof.
  intros Ht Hs. unfold read_tlv.
  assert (E : read_hdr (enc_tlv tag body ++ rest) = Ok (tag, zlen body, body ++ rest)).
  { unfold enc_tlv. cbn [app]. rewrite <- app_assoc.
    apply read_hdr_enc; [exact Ht|]. unfold small in Hs. pose proof (zlen_nonneg body). lia. }
  rewrite E. cbn [bind]. rewrite !zlen_app.
  replace (zlen body + zlen rest <? zlen body) with false by (pose proof (zlen_nonneg rest); lia).
  rewrite ztake_app_exact, zdrop_app_exact, (ztake_app_len _ (enc_tlv tag body)) by lia. reflexivity.
Qed.

Lemma tlv_eta t : t = mkTlv (t_tag t) (t_body t) (t_full t).
Proof. destruct t; reflexivity. Qed.

Lemma read_tlv_valid t rest : valid t -> read_tlv (t_full t ++ rest) = Ok (t, rest).
Proof.
  intros (Hf & Ht & Hs & Hb). rewrite Hf. rewrite read_tlv_enc by assumption. rewrite <- Hf. rewrite <- tlv_eta. reflexivity.
Qed.
Lemma read_hdr_valid t rest : valid t -> read_hdr (t_full t ++ rest) = Ok (t_tag t, zlen (t_body t), t_body t ++ rest).
Proof.
  intros (Hf & Ht & Hs & Hb). rewrite Hf. unfold enc_tlv. cbn [app]. rewrite <- app_assoc.
  apply read_hdr_enc; [exact Ht|]. unfold small in Hs. pose proof (zlen_nonneg (t_body t)). lia.
Qed.
Lemma read_tlv_full t : valid t -> read_tlv (t_full t) = Ok (t, []).
Proof. intros Hv. rewrite <- (app_nil_r (t_full t)). apply read_tlv_valid. exact Hv. Qed.
Lemma read_hdr_full t : valid t -> read_hdr (t_full t) = Ok (t_tag t, zlen (t_body t), t_body t).
Proof. intros Hv. pose proof (read_hdr_valid t [] Hv) as H. rewrite !app_nil_r in H. exact H. Qed.
Lemma valid_enc tag body : tag_ok tag -> small body -> all_bytes body = true -> valid (mkTlv tag body (enc_tlv tag body)).
Proof. intros. unfold valid. cbn. tauto. Qed.
Lemma valid_nonempty t : valid t -> exists b r, t_full t = b :: r.
Proof. intros (Hf & _). rewrite Hf. unfold enc_tlv. eauto. Qed.

(* the header of a raw element is regenerated identically: RawContent structs come out byte for byte *)
Lemma emit_raw_valid t : valid t -> emit_raw (t_tag t) (t_full t) = t_full t.
Proof.
  intros Hv. unfold emit_raw, strip_hdr. rewrite (read_hdr_full t Hv). symmetry. apply Hv.
Qed.

Lemma read_all_f_ok fuel : forall l ts,
  all_bytes l = true -> read_all_f fuel l = Ok ts -> l = concat (map t_full ts) /\ Forall valid ts.
Proof.
  induction fuel as [|f IH]; intros l ts Hb H.
  - destruct l; cbn in H; [|discriminate]. inversion H; subst. cbn. auto.
  - destruct l as [|b l']; cbn [read_all_f] in H.
    + inversion H; subst. cbn. auto.
    + destruct (read_tlv (b :: l')) as [[t rest]| |] eqn:Er; cbn [bind] in H; try discriminate.
      apply read_tlv_ok in Er as (Hl & Hv & Hrest); [|exact Hb].
      cbn [fst snd] in H.
      destruct (read_all_f f rest) as [rs| |] eqn:Ea; cbn [bind] in H; try discriminate.
      inversion H; subst ts; clear H.
      apply IH in Ea as (Hr & Hvs); [|exact Hrest].
      split; [|constructor; assumption]. cbn [map concat]. rewrite Hl at 1. f_equal. exact Hr.
Qed.
Lemma read_all_ok l ts :
  all_bytes l = true -> read_all l = Ok ts -> l = concat (map t_full ts) /\ Forall valid ts.
Proof. apply read_all_f_ok. Qed.

Lemma read_all_f_concat ts : Forall valid ts -> forall fuel, (length ts <= fuel)%nat ->
  read_all_f fuel (concat (map t_full ts)) = Ok ts.
Proof.
  induction 1 as [|t ts Hv Hvs IH]; intros fuel Hf.
  - destruct fuel; reflexivity.
  - destruct fuel as [|f]; [cbn in Hf; lia|].
    cbn [map concat]. destruct (valid_nonempty t Hv) as (b & r & Hbr).
    rewrite Hbr. cbn [app read_all_f].
    change (b :: r ++ concat (map t_full ts)) with ((b :: r) ++ concat (map t_full ts)). rewrite <- Hbr.
    rewrite read_tlv_valid by exact Hv. cbn [bind fst snd].
    rewrite IH by (cbn in Hf; lia). reflexivity.
Qed.
Lemma length_concat_ge ts : Forall valid ts -> (length ts <= length (concat (map t_full ts)))%nat.
Proof.
  induction 1 as [|t ts Hv _ IH]; [cbn; lia|].
  cbn [map concat length]. rewrite app_length. destruct (valid_nonempty t Hv) as (b & r & Hbr). rewrite Hbr. cbn [length]. lia.
Qed.
Lemma read_all_concat ts : Forall valid ts -> read_all (concat (map t_full ts)) = Ok ts.
Proof. intros H. apply read_all_f_concat; [exact H|]. apply length_concat_ge. exact H. Qed.
Lemma read_all_one t : valid t -> read_all (t_full t) = Ok [t].
Proof. intros Hv. rewrite <- (app_nil_r (t_full t)). exact (read_all_concat [t] (Forall_cons _ Hv (Forall_nil _))). Qed.

Lemma bytes_leb_total a : forall b, bytes_leb a b = false -> bytes_leb b a = true.
Proof.
  induction a as [|x a IH]; intros [|y b] H; cbn in *; try discriminate; try reflexivity.
  destruct (x <? y) eqn:E1; [discriminate|]. destruct (y <? x) eqn:E2; [reflexivity|]. apply IH. exact H.
Qed.

Fixpoint sorted_b (l : list bytes) : Prop :=
  match l with
  | x :: ((y :: _) as r) => bytes_leb x y = true /\ sorted_b r
  | _ => True
  end.
Lemma insert_b_sorted x l : sorted_b l -> sorted_b (insert_b x l).
Proof.
  induction l as [|y r IH]; intros H; cbn [insert_b]; [exact I|].
  destruct (bytes_leb x y) eqn:E.
  - cbn [sorted_b]. split; [exact E|exact H].
  - destruct r as [|z r'].
    + cbn. split; [apply bytes_leb_total; exact E|exact I].
    + cbn [sorted_b] in H. destruct H as [Hyz Hr]. specialize (IH Hr). cbn [insert_b] in *.
      destruct (bytes_leb x z) eqn:E2.
      * cbn [sorted_b]. split; [apply bytes_leb_total; exact E|]. exact IH.
      * cbn [sorted_b]. split; [exact Hyz|]. exact IH.
Qed.
Lemma sort_b_sorted l : sorted_b (sort_b l).
Proof. induction l as [|x l IH]; [exact I|]. cbn [sort_b fold_right]. apply insert_b_sorted. exact IH. Qed.
Lemma sort_b_id l : sorted_b l -> sort_b l = l.
Proof.
  induction l as [|x l IH]; intros H; [reflexivity|].
  cbn [sort_b fold_right]. change (fold_right insert_b [] l) with (sort_b l).
  destruct l as [|y r]; [reflexivity|]. cbn [sorted_b] in H. destruct H as [Hxy Hr].
  rewrite IH by exact Hr. cbn [insert_b]. rewrite Hxy. reflexivity.
Qed.
Lemma sort_b_idem l : sort_b (sort_b l) = sort_b l.
Proof. apply sort_b_id. apply sort_b_sorted. Qed.

Lemma map_insert_on {A} (key : A -> bytes) x l : map key (insert_on key x l) = insert_b (key x) (map key l).
Proof.
  induction l as [|y r IH]; [reflexivity|]. cbn [insert_on insert_b map].
  destruct (bytes_leb (key x) (key y)); cbn [map]; [reflexivity|]. rewrite IH. reflexivity.
Qed.
Lemma map_sort_on {A} (key : A -> bytes) l : map key (sort_on key l) = sort_b (map key l).
Proof.
  induction l as [|x l IH]; [reflexivity|]. cbn [sort_on sort_b fold_right map].
  change (fold_right (insert_on key) [] l) with (sort_on key l). rewrite map_insert_on, IH. reflexivity.
Qed.
Lemma In_insert_on {A} (key : A -> bytes) x y l : In y (insert_on key x l) <-> y = x \/ In y l.
Proof.
  induction l as [|z r IH]; cbn [insert_on In]; [intuition|].
  destruct (bytes_leb (key x) (key z)); cbn [In]; [intuition|]. rewrite IH. intuition.
Qed.
Lemma In_sort_on {A} (key : A -> bytes) y l : In y (sort_on key l) <-> In y l.
Proof.
  induction l as [|x l IH]; [reflexivity|]. cbn [sort_on fold_right]. change (fold_right (insert_on key) [] l) with (sort_on key l).
  rewrite In_insert_on, IH. cbn [In]. intuition.
Qed.
Lemma Forall_sort_on {A} (P : A -> Prop) (key : A -> bytes) l : Forall P l -> Forall P (sort_on key l).
Proof. rewrite !Forall_forall. intros H x Hx. apply H, (In_sort_on key), Hx. Qed.
Lemma sort_on_id_key l : sort_on (fun x : bytes => x) l = sort_b l.
Proof. rewrite <- (map_id (sort_on _ l)). rewrite map_sort_on, map_id. reflexivity. Qed.
Lemma In_sort_b y l : In y (sort_b l) <-> In y l.
Proof. rewrite <- sort_on_id_key. apply In_sort_on. Qed.

(* INTEGER: decoding and encoding again is the identity on what checkInteger accepts *)
Lemma dec_int_snoc c b : c <> [] -> dec_int (c ++ [b]) = dec_int c * 256 + b.
Proof.
  destruct c as [|x r]; [congruence|]. intros _. cbn [app dec_int].
  rewrite be_dec_snoc, zlen_app. change (zlen [b]) with 1.
  rewrite Z.pow_add_r by (pose proof (zlen_nonneg r); lia). lia.
Qed.
Lemma sbyte_mod b : 0 <= b < 256 -> sbyte b mod 256 = b.
Proof. intros H. unfold sbyte. destruct (b >=? 128) eqn:E; lia. Qed.
Lemma sbyte_range b : 0 <= b < 256 -> -128 <= sbyte b <= 127.
Proof. intros H. unfold sbyte. destruct (b >=? 128) eqn:E; lia. Qed.

Lemma int_ok_front c b : c <> [] -> int_ok (c ++ [b]) = true -> int_ok c = true.
Proof. destruct c as [|x [|y r]]; [congruence|reflexivity|intros _ H; exact H]. Qed.

(* a minimal encoding of two or more octets denotes a value that does not fit into one *)
Lemma dec_int_long c : all_bytes c = true -> int_ok c = true -> (2 <= length c)%nat -> dec_int c > 127 \/ dec_int c < -128.
Proof.
  destruct c as [|b0 [|b1 r]]; cbn [length]; try lia. intros [Hb0 [Hb1 Hr]%all_bytes_cons]%all_bytes_cons Hok _.
  cbn [dec_int int_ok] in *. rewrite be_dec_cons, zlen_cons, Z.pow_add_r by (pose proof (zlen_nonneg r); lia).
  pose proof (be_dec_range r Hr). set (p := 256 ^ zlen r) in *. unfold sbyte. destruct (b0 >=? 128) eqn:E; nia.
Qed.

Lemma enc_dec_int_f c : c <> [] -> all_bytes c = true -> int_ok c = true ->
  forall fuel, (length c <= S fuel)%nat -> enc_int_f fuel (dec_int c) = c.
Proof.
  induction c as [|b c' IH] using rev_ind; [congruence|]. intros _ Hb Hok fuel Hlen.
  pose proof Hb as [Hc' [Hb0 _]%all_bytes_cons]%all_bytes_app_iff.
  destruct c' as [|x r].
  - (* single octet *)
    cbn [app dec_int]. change (zlen (@nil Z)) with 0. change (be_dec []) with 0.
    pose proof (sbyte_range b Hb0). pose proof (sbyte_mod b Hb0). replace (sbyte b * 256 ^ 0 + 0) with (sbyte b) by lia.
    destruct fuel; cbn [enc_int_f].
    + congruence.
    + replace ((sbyte b >? 127) || (sbyte b <? -128)) with false by lia. congruence.
  - (* the last octet is split off and the front, still minimal, comes from the induction hypothesis *)
    assert (Hne : x :: r <> []) by congruence.
    pose proof (dec_int_long _ Hb Hok) as Hbig. rewrite app_length in Hbig, Hlen. cbn [length] in Hbig, Hlen.
    rewrite dec_int_snoc in * by exact Hne. destruct fuel as [|f]; [lia|]. cbn [enc_int_f].
    replace ((dec_int (x :: r) * 256 + b >? 127) || (dec_int (x :: r) * 256 + b <? -128)) with true by lia.
    replace ((dec_int (x :: r) * 256 + b) / 256) with (dec_int (x :: r)) by lia.
    replace ((dec_int (x :: r) * 256 + b) mod 256) with b by lia.
    f_equal. apply IH; [exact Hne|exact Hc'|exact (int_ok_front _ b Hne Hok)|cbn [length]; lia].
Qed.
Lemma enc_dec_int c : all_bytes c = true -> int64_ok c = true -> enc_int (dec_int c) = c.
Proof.
  intros Hb H. unfold int64_ok in H. apply andb_true_iff in H as [Hok Hlen].
  assert (c <> []) by (destruct c; [discriminate|congruence]).
  apply enc_dec_int_f; [exact H|exact Hb|exact Hok|]. unfold zlen in Hlen. lia.
Qed.

Lemma enc_bits_id c : all_bytes c = true -> bits_ok c = true -> enc_bits c = c.
Proof.
  intros Hb H. destruct c as [|p d]; [discriminate|]. apply all_bytes_cons in Hb as [Hp _].
  unfold bits_ok in H. apply andb_true_iff in H as [H H3]. apply andb_true_iff in H as [H1 H2].
  unfold enc_bits. f_equal. pose proof (zlen_nonneg d).
  destruct (zlen d =? 0) eqn:E; cbn [andb negb] in H2; lia.
Qed.
