(* C16/Properties.v — the property theorems of the unit, and examples showing that their hypotheses can be met. *)
From Relic Require Import Base.Prelude Base.Enc Generated.C16_gen C16.Model C16.Tlv C16.Proofs C16.VModel C16.VProofs C16.Pss.

(* 1. Unmarshal, Marshal, Unmarshal: whatever pkcs7.Unmarshal accepts is emitted in a form it accepts again, with the same
      signed regions (encapsulated content info, certificates, tbsCertList of every CRL, every SignerInfo), and emitting
      once more reproduces the same bytes.  x ranges over ALL byte strings. *)
Theorem signed_regions_stable : forall x o,
  all_bytes x = true -> parse_cms x = Ok o -> zlen (emit_cms o) < 2 ^ 31 ->
  exists o', parse_cms (emit_cms o) = Ok o' /\ cms_regions o' = cms_regions o /\ emit_cms o' = emit_cms o.
Proof. exact C16.Proofs.signed_regions_stable. Qed.

(* 1b. every signed region the parser keeps is a contiguous sub-slice of the input (nothing is re-encoded into it) *)
Theorem regions_are_subslices : forall x o sd r,
  all_bytes x = true -> parse_cms x = Ok o -> o_sd o = Some sd -> In r (region_list sd) -> subslice r x.
Proof. exact C16.Proofs.regions_are_subslices. Qed.

(* 1c. refinement against the independent specification: on every input that is a strict DER SignedData in the sense of
       RFC 5652 (spec_regions defined), the regions of the model are the regions the RFC walker finds *)
Theorem model_agrees_with_spec : forall x o r,
  all_bytes x = true -> parse_cms x = Ok o -> spec_regions x = Some r -> cms_regions o = Some r.
Proof.
  intros x o r Hb H Hs. unfold spec_regions in Hs.
  destruct (one x) as [top|] eqn:Eone; [|discriminate]. apply one_ok in Eone as (Hx & Hvtop & Hrtop); [|exact Hb].
  destruct (t_tag top =? 48) eqn:Ettop; cbn [negb] in Hs; [|discriminate].
  destruct (children top) as [[|ct [|wrap [|]]]|] eqn:Ectop; try discriminate.
  destruct ((t_tag ct =? 6) && (t_tag wrap =? 160)) eqn:Etags; cbn [negb] in Hs; [|discriminate].
  apply andb_true_iff in Etags as [Etct Etw].
  destruct (children wrap) as [[|sdt [|]]|] eqn:Ecw; try discriminate.
  destruct (t_tag sdt =? 48) eqn:Etsd; cbn [negb] in Hs; [|discriminate].
  destruct (children sdt) as [[|ver [|dal [|eci rest]]]|] eqn:Ecsd; try discriminate.
  destruct ((t_tag ver =? 2) && (t_tag dal =? 49) && (t_tag eci =? 48)); cbn [negb] in Hs; [|discriminate].
  destruct (spec_split_optional 160 rest) as [certs rest1] eqn:E160.
  destruct (spec_split_optional 161 rest1) as [crls rest2] eqn:E161.
  destruct certs as [cl|]; [|discriminate]. destruct crls as [rl|]; [|discriminate].
  destruct rest2 as [|sis [|]]; try discriminate.
  destruct (t_tag sis =? 49); cbn [negb] in Hs; [|discriminate].
  destruct (children sis) as [sl|] eqn:Ecsis; [|discriminate].
  destruct (all_some (map spec_tbs rl)) as [tbs|] eqn:Etbs; [|discriminate].
  destruct (forallb (fun s => t_tag s =? 48) sl); [|discriminate]. inversion Hs; subst r; clear Hs.
  (* the model's reads *)
  destruct (parse_cms_inv x o Hb H) as (t & pad & Hl & Hvt & _ & Eb & _).
  pose proof (read_tlv_valid t pad Hvt) as R. rewrite <- Hl, Hrtop in R. injection R as <- <-.
  apply children_ok in Ectop; [|exact Hvtop]. apply read_all_ok in Ectop as (Hlt & Hvs); [|apply valid_body_bytes; exact Hvtop].
  inversion Hvs as [|? ? Hvct Hvs']; subst. inversion Hvs' as [|? ? Hvw _]; subst. cbn [map concat] in Hlt. rewrite app_nil_r in Hlt.
  apply children_ok in Ecw; [|exact Hvw]. apply read_all_ok in Ecw as (Hlw & Hvs2); [|apply valid_body_bytes; exact Hvw].
  inversion Hvs2 as [|? ? Hvsd _]; subst. cbn [map concat] in Hlw. rewrite app_nil_r in Hlw.
  rewrite Hlt, (parse_cms_body_wrapped ct wrap sdt) in Eb;
    [|assumption|apply Z.eqb_eq; exact Etct|assumption|rewrite OCT_explicit_v; apply Z.eqb_eq; exact Etw|assumption|apply Z.eqb_eq; exact Etsd|exact Hlw].
  destruct (oid_ok (t_body ct)); cbn [negb] in Eb; [|discriminate]. apply bind_ok in Eb as (sd & Esd & [= <-]).
  unfold cms_regions. cbn [o_sd option_map]. f_equal.
  apply children_ok in Ecsd; [|exact Hvsd].
  apply (sd_spec_agree (t_body sdt) sd ver dal eci rest cl rl sis sl tbs (valid_body_bytes _ Hvsd) Esd Ecsd);
    [rewrite E160, E161; auto|exact Ecsis|exact Etbs].
Qed.

(* 2. DER leaves no freedom in a header: an element that the reader accepted is exactly identifier ++ minimal length ++
      contents, so regenerating the header of a RawContent struct (what encoding/asn1 does on Marshal) changes nothing *)
Theorem header_is_canonical : forall l t rest,
  all_bytes l = true -> read_tlv l = Ok (t, rest) ->
  l = t_full t ++ rest /\ t_full t = enc_tlv (t_tag t) (t_body t) /\ emit_raw (t_tag t) (t_full t) = t_full t.
Proof.
  intros l t rest Hb H. destruct (C16.Tlv.read_tlv_ok l t rest Hb H) as (Hl & Hv & _).
  split; [exact Hl|]. split; [apply Hv|]. apply C16.Tlv.emit_raw_valid. exact Hv.
Qed.
(* ... and BER is refused: an indefinite length is an error whatever the identifier octet and whatever follows *)
Theorem indefinite_length_rejected : forall b rest, b mod 32 <> 31 -> read_tlv (b :: 128 :: rest) = Err E_INDEF.
Proof.
  intros b rest H. unfold read_tlv, read_hdr. replace (b mod 32 =? 31) with false by lia. reflexivity.
Qed.

(* ... and nothing but NUL padding may follow the structure (anything else would be dropped silently on re-emission) *)
Theorem accepted_input_is_one_element_plus_padding : forall x o,
  all_bytes x = true -> parse_cms x = Ok o ->
  exists t pad, x = t_full t ++ pad /\ valid t /\ t_tag t = T_SEQ /\ Forall (fun b => b = 0) pad.
Proof.
  intros x o Hb H. destruct (parse_cms_inv x o Hb H) as (t & pad & Hl & Hv & Ht & _ & Eg).
  exists t, pad. split; [exact Hl|]. split; [exact Hv|]. split; [exact Ht|].
  unfold unmarshal_trailing_garbage in Eg. apply negb_false_iff in Eg. apply Z.eqb_eq in Eg.
  unfold trim_right in Eg. unfold zlen in Eg. rewrite rev_length in Eg.
  assert (E0 : trim_right_rev (rev pad) [0] = []) by (destruct (trim_right_rev (rev pad) [0]); [reflexivity|cbn in Eg; lia]).
  apply trim_right_rev_nil in E0. apply Forall_rev in E0. rewrite rev_involutive in E0. exact E0.
Qed.

(* 3. writer/reader round trip for every identifier octet and every contents string below 2 GiB *)
Theorem read_write_roundtrip : forall tag body rest,
  tag_ok tag -> small body -> read_tlv (enc_tlv tag body ++ rest) = Ok (mkTlv tag body (enc_tlv tag body), rest).
Proof. exact C16.Tlv.read_tlv_enc. Qed.

(* 4. Go decodes INTEGERs and BIT STRINGs and encodes them again: on everything the decoder accepts this is the identity *)
Theorem integer_reencoding_is_identity : forall c, all_bytes c = true -> int64_ok c = true -> enc_int (dec_int c) = c.
Proof. exact C16.Tlv.enc_dec_int. Qed.
Theorem bitstring_reencoding_is_identity : forall c, all_bytes c = true -> bits_ok c = true -> enc_bits c = c.
Proof. exact C16.Tlv.enc_bits_id. Qed.

(* 5. SET OF sorting on Marshal is idempotent (so a second round trip is byte-identical) *)
Theorem set_sort_idempotent : forall l, sort_b (sort_b l) = sort_b l.
Proof. exact C16.Tlv.sort_b_idem. Qed.

(* 6. signed attributes of a PARSED SignerInfo: the bytes relic digests are the [0] field found in the input (and emitted
      again verbatim) with the first octet replaced by 0x31 — exactly the RFC 5652 section 5.4 preimage *)
Theorem attr_digest_parsed : forall t s l p,
  valid t -> t_tag t = T_SEQ -> parse_si t = Ok s -> si_auth s = Some l -> aab s = Ok p ->
  exists pre tl post, si_raw s = t_full t /\ emit_si s = t_full t /\
    t_body t = pre ++ (160 :: tl) ++ post /\ p = 49 :: tl /\ spec_signed_attrs_preimage (si_raw s) = Some p.
Proof. exact C16.Proofs.attr_digest_parsed. Qed.

(* 7. signed attributes of a SignerInfo BUILT by relic: the digested bytes are the emitted [0] field with first octet 0x31 *)
Theorem attr_digest_built : forall s l,
  si_raw s = [] -> si_auth s = Some l ->
  exists tl, auth_field s = 160 :: tl /\ aab s = Ok (49 :: tl) /\ subslice (auth_field s) (emit_si s).
Proof. exact C16.Proofs.attr_digest_built. Qed.

(* 8. the builder: with attributes present (none of them content-type / message-digest) Sign appends content-type and
      message-digest exactly once, each with exactly one value, namely the content type and the content digest; without
      attributes none is added and the signature is over the content digest *)
Theorem builder_attrs_once : forall b l0,
  b_attrs b = Some l0 -> has_oid OID_content_type l0 = false -> has_oid OID_message_digest l0 = false ->
  snd (sign_attrs b) = Some (l0 ++ [ct_attr b; md_attr b]).
Proof. exact C16.Proofs.builder_attrs_once. Qed.
Theorem builder_no_attrs : forall b, b_attrs b = None -> snd (sign_attrs b) = None /\ sign_preimage b = Ok (0, b_digest b).
Proof. exact C16.Proofs.builder_no_attrs. Qed.
Theorem builder_preimage : forall b l0,
  b_attrs b = Some l0 -> has_oid OID_content_type l0 = false -> has_oid OID_message_digest l0 = false ->
  exists tl, sign_preimage b = Ok (1, 49 :: tl) /\ auth_field (built_si b [] [] (mkAlg [] []) (mkAlg [] []) []) = 160 :: tl.
Proof.
  intros b l0 Ha H1 H2. unfold sign_preimage. rewrite (builder_attrs_once b l0 Ha H1 H2).
  change (sign_with_attrs true) with true. cbv iota.
  unfold attrs_bytes. rewrite attrs_set_v. change (octet 0 true 16) with 48. rewrite unsorted_set_seq. cbn [bind].
  eexists. split; [reflexivity|].
  unfold auth_field, built_si. cbn [si_auth]. rewrite (builder_attrs_once b l0 Ha H1 H2), auth_set_v, OCT_auth_v. reflexivity.
Qed.
(* the full-strength statement (for ALL builder histories) is false; witnesses: the caller supplies a content-type attribute
   itself, or calls Sign twice on one builder.  No code inside relic does either. *)
Theorem builder_attrs_once_refuted_presupplied :
  exists b l, b_attrs b = Some l /\ has_oid OID_content_type l = true /\
    exists a, snd (sign_attrs b) = Some (a :: [md_attr b]) /\ at_oid a = OID_content_type /\
              at_body a = [6; 2; 42; 3] ++ enc_tlv T_OID (b_ctype b).
Proof.
  exists (mkB [42; 134; 72; 134; 247; 13; 1; 7; 1] [1; 2; 3] (Some [mkAttr OID_content_type 49 [6; 2; 42; 3] []])).
  eexists. split; [reflexivity|]. split; [vm_compute; reflexivity|]. eexists. split; [vm_compute; reflexivity|]. split; vm_compute; reflexivity.
Qed.
Theorem builder_attrs_once_refuted_sign_twice :
  exists b l0, b_attrs b = Some l0 /\ has_oid OID_content_type l0 = false /\ has_oid OID_message_digest l0 = false /\
    exists a1 a2, snd (sign_attrs (fst (sign_attrs b))) = Some (l0 ++ [a1; a2]) /\
      at_body a2 = enc_tlv T_OCT (b_digest b) ++ enc_tlv T_OCT (b_digest b).
Proof.
  exists (mkB [42; 134; 72; 134; 247; 13; 1; 7; 1] [1; 2; 3] (Some [mkAttr [42; 3; 4] 49 [5; 0] []])).
  eexists. split; [reflexivity|]. split; [vm_compute; reflexivity|]. split; [vm_compute; reflexivity|].
  eexists. eexists. split; vm_compute; reflexivity.
Qed.

(* 9. embedding a timestamp token into a freshly built SignerInfo: the emitted SignerInfo contains Marshal(Unmarshal(token)),
      whose signed regions are the token's; signed attributes, signature value and digest preimage of the enclosing
      SignerInfo are untouched *)
Theorem embed_token_verbatim : forall au s x tok,
  all_bytes x = true -> parse_cms x = Ok tok -> zlen (emit_cms tok) < 2 ^ 31 ->
  si_raw s = [] -> si_unauth s = None ->
  let s' := add_stamp au s tok in
  subslice (emit_cms tok) (emit_si s') /\
  (exists tok', parse_cms (emit_cms tok) = Ok tok' /\ cms_regions tok' = cms_regions tok) /\
  si_auth s' = si_auth s /\ si_sig s' = si_sig s /\ aab s' = aab s.
Proof. exact C16.Proofs.embed_token_verbatim. Qed.
(* a PARSED SignerInfo is emitted from its raw bytes; fields changed afterwards are not emitted (hence relic only stamps
   structures it has just built) *)
Theorem parsed_signer_is_immutable : forall au s tok, si_raw s <> [] -> emit_si (add_stamp au s tok) = emit_si s.
Proof.
  intros au s tok H. unfold add_stamp. destruct (if au then stamp_spc_is_unauth_add else stamp_cms_is_unauth_add); [|reflexivity].
  unfold emit_si. cbn [si_raw]. destruct (si_raw s); [congruence|]. rewrite si_keeps_raw_v. reflexivity.
Qed.

(* 10. Detach removes the content and keeps signer infos, certificates, CRLs and the content type *)
Theorem detach_keeps_signers : forall o sd,
  o_sd o = Some sd ->
  exists sd', o_sd (detach o) = Some sd' /\ sd_sis sd' = sd_sis sd /\ sd_certs sd' = sd_certs sd /\ sd_crls sd' = sd_crls sd /\
              ci_ctype (sd_ci sd') = ci_ctype (sd_ci sd) /\ emit_ci (sd_ci sd') = enc_tlv T_SEQ (enc_tlv T_OID (ci_ctype (sd_ci sd))).
Proof.
  intros o sd H. unfold detach. rewrite H. change detach_clears_content with true. cbv iota. eexists. split; [reflexivity|]. cbn. tauto.
Qed.

(* non-vacuity: the hypotheses are satisfiable *)
(* a small SignedData: two digest algorithms (unsorted), content, two certificates, two signer infos (unsorted; one with
   signed attributes, one with an unsigned attribute) *)
Definition sample : bytes :=
  [48; 129; 207; 6; 9; 42; 134; 72; 134; 247; 13; 1; 7; 2; 160; 129; 193; 48; 129; 190; 2; 1; 1; 49; 18; 48; 7; 6; 
   3; 42; 3; 7; 5; 0; 48; 7; 6; 3; 42; 3; 1; 5; 0; 48; 18; 6; 9; 42; 134; 72; 134; 247; 13; 1; 7; 1; 160; 5; 4; 3; 
   97; 98; 99; 160; 10; 48; 3; 2; 1; 9; 48; 3; 2; 1; 3; 49; 129; 132; 48; 70; 2; 1; 1; 48; 17; 48; 12; 49; 10; 48; 
   8; 6; 3; 85; 4; 3; 12; 1; 120; 2; 1; 9; 48; 7; 6; 3; 42; 3; 1; 5; 0; 160; 24; 48; 10; 6; 3; 42; 4; 2; 49; 3; 4; 
   1; 170; 48; 10; 6; 3; 42; 4; 1; 49; 3; 6; 1; 42; 48; 7; 6; 3; 42; 3; 2; 5; 0; 4; 2; 190; 239; 48; 58; 2; 1; 1; 
   48; 17; 48; 12; 49; 10; 48; 8; 6; 3; 85; 4; 3; 12; 1; 120; 2; 1; 3; 48; 7; 6; 3; 42; 3; 1; 5; 0; 48; 7; 6; 3; 
   42; 3; 2; 5; 0; 4; 2; 190; 239; 161; 12; 48; 10; 6; 3; 42; 4; 9; 49; 3; 2; 1; 7].
Example sample_parses :
  match parse_cms sample with
  | Ok o => zlen (emit_cms o) < 2 ^ 31 /\ negb (bytes_eqb (emit_cms o) sample) = true /\
            (match o_sd o with Some sd => length (sd_sis sd) = 2%nat /\ length (opt_list (sd_certs sd)) = 2%nat | None => False end)
  | _ => False
  end.
Proof. vm_compute. repeat split; congruence. Qed.
Example sample_regions_agree_with_rfc5652_walker :
  match parse_cms sample with Ok o => cms_regions o = spec_regions sample /\ spec_regions sample <> None | _ => False end.
Proof. vm_compute. split; [reflexivity|discriminate]. Qed.
Example sample_attr_digest :
  match parse_cms sample with
  | Ok o => match o_sd o with
            | Some sd => let signed := filter (fun s => match si_auth s with Some _ => true | None => false end) (sd_sis sd) in
                         map (fun s => match aab s with Ok p => Some p | _ => None end) signed =
                         map (fun s => spec_signed_attrs_preimage (si_raw s)) signed /\
                         exists s l, In s (sd_sis sd) /\ si_auth s = Some l
            | None => False end
  | _ => False
  end.
Proof. vm_compute. split; [reflexivity|]. eexists. eexists. split; [left; reflexivity|reflexivity]. Qed.
Example builder_in_domain :
  let b := mkB [42;134;72;134;247;13;1;7;1] [1;2;3;4] (Some [mkAttr (enc_oid oid_attr_signing_time) 49 [23;1;48] []]) in
  has_oid OID_content_type [mkAttr (enc_oid oid_attr_signing_time) 49 [23;1;48] []] = false /\
  match sign_preimage b with Ok (1, p) => spec_attrs_ok (b_ctype b) (b_digest b) p = true | _ => False end.
Proof. vm_compute. split; reflexivity. Qed.
Example builder_sign_twice_violates_rfc5652 :
  let b := mkB [42;134;72;134;247;13;1;7;1] [1;2;3;4] (Some [mkAttr (enc_oid oid_attr_signing_time) 49 [23;1;48] []]) in
  match sign_preimage (fst (sign_attrs b)) with Ok (1, p) => spec_attrs_ok (b_ctype b) (b_digest b) p = false | _ => False end.
Proof. vm_compute. reflexivity. Qed.
Example ber_sample_rejected : parse_cms [48;128;6;9;42;134;72;134;247;13;1;7;2;160;128;0;0;0;0] = Err E_INDEF.
Proof. vm_compute. reflexivity. Qed.

(* ====================================================================================================================
   WHICH byte string is digested and checked against a signature (lib/pkcs7 SignerInfo.Verify, AuthenticatedAttributesBytes,
   AttributeList.Bytes; lib/pkcs9 Verify, finishVerify, MessageImprint.Verify).  The models are the INTERPRETATION of the
   statement-level translation of the Go bodies (Generated/C16_gen.v, the prog_ definitions); cryptography is a parameter C : crypto. *)

(* 11. the interpretation of each translated body is its reference function, for all primitives, hooks and inputs: the
       reference functions of VModel.v (Part 8) say what the source says NOW; a changed operator, operand, argument, branch,
       early return or an extra check in the Go code changes the generated term and these equalities must be re-proved *)
Theorem si_verify_follows_source : forall P K s content skip certs,
  run_si_verify P K s (Wby content) skip certs = ref_si_verify P K s content skip certs.
Proof. exact C16.VProofs.si_verify_eq. Qed.
Theorem has_empty_follows_source : forall P K s, run_has_empty P K s = ref_has_empty P s.
Proof. exact C16.VProofs.has_empty_eq. Qed.
Theorem ci_bytes_follows_source : forall P K c, run_ci_bytes P K c = ref_ci_bytes P c.
Proof. exact C16.VProofs.ci_bytes_eq. Qed.
Theorem sd_verify_follows_source : forall P K sd ext skip, run_sd_verify P K sd (ext_val ext) skip = ref_sd_verify P K sd ext skip.
Proof. exact C16.VProofs.sd_verify_eq. Qed.
Theorem aab_follows_source : forall P K s, run_aab P K s = ref_aab P K s.
Proof. exact C16.VProofs.aab_eq. Qed.
Theorem attrs_bytes_follows_source : forall P K o, run_attrs_bytes P K o = lift_bytes (p_marshal_attrs P o).
Proof. exact C16.VProofs.attrs_bytes_eq. Qed.
Theorem imprint_follows_source : forall P K a hashed data, run_imprint P K a hashed (Wby data) = ref_imprint P a hashed data.
Proof. exact C16.VProofs.imprint_eq. Qed.
Theorem ts_finish_follows_source : forall P K s blob certs h t certErr,
  run_finish P K s (blob_val blob) certs h (Wti t) certErr = ref_ts_finish P K s (blob_val blob) certs h (Wti t) certErr.
Proof. exact C16.VProofs.finish_eq. Qed.
Theorem ts_verify_follows_source : forall P K tok data certs, run_ts_verify P K tok (Wby data) certs = ref_ts_verify P K tok data certs.
Proof. exact C16.VProofs.ts_verify_eq. Qed.
(* the interpreted AuthenticatedAttributesBytes is the function theorems 6 and 7 are about *)
Theorem aab_interpreted_is_aab : forall C s b, aab_m C s = Ok b <-> aab s = Ok b.
Proof. exact C16.VProofs.aab_m_ok. Qed.

(* 12. exactly one digest is ever handed to a signature check: the primary check and, only when that answers
       rsa.ErrVerification, the same digest again without the DigestInfo wrapper *)
Theorem one_digest_decides : forall C c s d,
  signature_accepted C c s d <->
  c_pkix C (ce_pub c) (si_dalg s) (si_ealg s) d (si_sig s) = SigOk \/
  (c_pkix C (ce_pub c) (si_dalg s) (si_ealg s) d (si_sig s) = SigRsaErr /\ c_raw C (ce_pub c) 0 d (si_sig s) = SigOk).
Proof.
  intros C c s d.
  unfold signature_accepted, sig_decides. expose.
  destruct (c_pkix C (ce_pub c) (si_dalg s) (si_ealg s) d (si_sig s)); split; intro H.
  - left; reflexivity.
  - reflexivity.
  - right; split; [reflexivity|exact H].
  - destruct H as [H|[_ H]]; [discriminate|exact H].
  - discriminate.
  - destruct H as [H|[H _]]; discriminate.
Qed.

(* 13. PARSED SignerInfo with (non-empty) signed attributes, ALL inputs, ALL crypto: an accepting Verify has checked the
       signature against the digest of exactly the [0] field as it stands in the received SignerInfo — which Marshal emits
       again verbatim — with its first octet replaced by 0x31 (= the RFC 5652 5.4 preimage of the EMITTED bytes), and, unless
       digests are skipped, the message-digest attribute equals the digest of the content *)
Theorem verify_parsed_digests_emitted : forall C t s a l content skip certs c,
  valid t -> t_tag t = T_SEQ -> parse_si t = Ok s -> si_auth s = Some (a :: l) ->
  si_verify C s (Wby content) skip certs = VAccept c ->
  exists h pre tl post,
    c_hash_of C (si_dalg s) = Some h /\
    emit_si s = t_full t /\ t_body t = pre ++ (160 :: tl) ++ post /\
    spec_si_preimage (emit_si s) content = Some (true, 49 :: tl) /\
    find_cert certs (si_issuer s) (si_serial s) = Some c /\
    signature_accepted C c s (c_H C h (49 :: tl)) /\
    (skip = false -> get_one (a :: l) OID_message_digest = Ok (c_H C h content)).
Proof. exact C16.VProofs.verify_parsed_digests_emitted. Qed.

(* 14. no other encoding of the same attributes can make Verify accept: if the signature does not check against the digest
       of the RFC 5652 preimage of the EMITTED bytes, Verify rejects — whatever the signature primitives answer on any other
       digest (the sorted DER SET OF, a re-encoding of the parsed list, another order, the content digest) *)
Theorem other_encodings_cannot_help : forall C t s a l content skip certs h p,
  valid t -> t_tag t = T_SEQ -> parse_si t = Ok s -> si_auth s = Some (a :: l) ->
  spec_si_preimage (t_full t) content = Some (true, p) -> c_hash_of C (si_dalg s) = Some h ->
  (forall c, ~ signature_accepted C c s (c_H C h p)) ->
  forall c, si_verify C s (Wby content) skip certs <> VAccept c.
Proof. exact C16.VProofs.other_encodings_cannot_help. Qed.

(* 15. ... and a signature over the as-emitted bytes IS accepted (hash known, message-digest consistent, certificate there) *)
Theorem verify_accepts_as_emitted : forall C s content skip certs c h md ab,
  c_hash_of C (si_dalg s) = Some h -> opt_list (si_auth s) <> [] ->
  get_one (opt_list (si_auth s)) OID_message_digest = Ok md -> (skip = false -> md = c_H C h content) ->
  aab s = Ok ab -> find_cert certs (si_issuer s) (si_serial s) = Some c -> signature_accepted C c s (c_H C h ab) ->
  si_verify C s (Wby content) skip certs = VAccept c.
Proof.
  intros C s content skip certs c h md ab Hh Hne Hg Hmd Hab Hf Hs. rewrite si_verify_unfold. unfold ref_si_verify.
  expose. rewrite <- ?aab_m_def.
  rewrite Hh. replace (zlen (opt_list (si_auth s)) =? 0) with false
    by (destruct (opt_list (si_auth s)); [congruence|rewrite zlen_cons; pose proof (zlen_nonneg l); lia]).
  rewrite Hg.
  replace (match (if skip then None else Some (c_H C h content)) with Some d => negb (bytes_eqb md d) | None => false end) with false.
  2:{ destruct skip; [reflexivity|]. rewrite Hmd by reflexivity. symmetry. apply negb_false_iff. apply list_eqb_Z_eq. reflexivity. }
  rewrite (proj2 (aab_m_ok C s ab) Hab). unfold ref_finish. expose. rewrite Hf.
  unfold signature_accepted in Hs. rewrite Hs. reflexivity.
Qed.

(* 16. SignerInfo BUILT by relic (the self check of TimestampAndMarshal runs on it): the digest checked is that of the
       emitted [0] field with first octet 0x31 *)
Theorem verify_built_digests_emitted : forall C s a l content skip certs c,
  si_raw s = [] -> si_auth s = Some (a :: l) ->
  si_verify C s (Wby content) skip certs = VAccept c ->
  exists h tl, c_hash_of C (si_dalg s) = Some h /\ auth_field s = 160 :: tl /\ subslice (auth_field s) (emit_si s) /\
    find_cert certs (si_issuer s) (si_serial s) = Some c /\ signature_accepted C c s (c_H C h (49 :: tl)).
Proof.
  intros C s a l content skip certs c Hraw Hauth Hacc. apply si_verify_accept_inv in Hacc as (h & Hh & Hf & [[He _]|[_ (md & ab & Hg & Hmd & Hab & Hs)]]).
  - rewrite Hauth in He. discriminate.
  - destruct (attr_digest_built s (a :: l) Hraw Hauth) as (tl & Hfield & Haab & Hsub).
    rewrite Haab in Hab. inversion Hab; subst ab. exists h, tl. repeat split; assumption.
Qed.

(* 17. without signed attributes (field absent — or present but EMPTY, see 18) the signature is checked against the
       content digest *)
Theorem verify_without_attrs : forall C s content certs c,
  opt_list (si_auth s) = [] -> si_verify C s (Wby content) false certs = VAccept c ->
  exists h, c_hash_of C (si_dalg s) = Some h /\ signature_accepted C c s (c_H C h content).
Proof.
  intros C s content certs c He Hacc. apply si_verify_accept_inv in Hacc as (h & Hh & _ & [[_ [_ [Hs|Hs]]]|[Hne _]]).
  - discriminate.
  - eauto.
  - congruence.
Qed.

(* 18. the dichotomy (relic fixes daed528 and b8abb42 included), for EVERY accepted SignerInfo: an accepting Verify with digests
       checked means EITHER there is no [0] field and the signature is over the content digest, OR the field holds at least one
       attribute and the signature is over exactly the emitted field re-tagged; an EMPTY field is refused, whatever follows
       inside the SignerInfo *)
Theorem verify_accept_dichotomy : forall C t s content certs c,
  valid t -> t_tag t = T_SEQ -> parse_si t = Ok s ->
  si_verify C s (Wby content) false certs = VAccept c ->
  exists h, c_hash_of C (si_dalg s) = Some h /\
    ((si_auth s = None /\ spec_si_preimage (emit_si s) content = Some (false, content) /\ signature_accepted C c s (c_H C h content)) \/
     (exists a l tl, si_auth s = Some (a :: l) /\ spec_si_preimage (emit_si s) content = Some (true, 49 :: tl) /\
                     subslice (160 :: tl) (emit_si s) /\ signature_accepted C c s (c_H C h (49 :: tl)))).
Proof. exact C16.VProofs.verify_accept_dichotomy. Qed.
Theorem verify_empty_attrs_rejected : forall C t s content skip certs,
  valid t -> t_tag t = T_SEQ -> parse_si t = Ok s -> si_auth s = Some [] ->
  forall c, si_verify C s (Wby content) skip certs <> VAccept c.
Proof.
  intros C t s content skip certs Hv Ht Hp Hauth c. exact (empty_attrs_rejected C t s content skip certs c Hv Ht Hp Hauth).
Qed.
(* 18b. regression: the two inputs that refuted 18 before the fixes — A0 00 signed over the content digest, and the same with a
        truncated element (04 05 00) behind the signature value — are refused by the code as it is now *)
Theorem former_witnesses_are_refused :
  parse_si (tlv_of empty_attrs_si0) = Ok (si_of empty_attrs_si0) /\ si_auth (si_of empty_attrs_si0) = Some [] /\
  si_verify (witness_crypto witness_content) (si_of empty_attrs_si0) (Wby witness_content) false [cert_of empty_attrs_si0] = VReject EV_NEW /\
  parse_si (tlv_of empty_attrs_si) = Ok (si_of empty_attrs_si) /\ si_auth (si_of empty_attrs_si) = Some [] /\
  read_all (t_body (tlv_of empty_attrs_si)) = Err E_TRUNC /\
  si_verify (witness_crypto witness_content) (si_of empty_attrs_si) (Wby witness_content) false [cert_of empty_attrs_si] = VReject EV_NEW.
Proof.
  repeat apply conj; vm_compute; reflexivity.
Qed.

(* 19. pkcs9.Verify: an accepted timestamp token has exactly one SignerInfo, its imprint is the digest of the data, and THAT
       SignerInfo's Verify — digests NOT skipped — accepted over the eContent octets of the token (so 13 applies to it) *)
Theorem ts_verify_checks_the_token_signer : forall C tok data certs s c h t,
  ts_verify C tok (Wby data) certs = TsAccept s c h t ->
  exists sd ti blob certs',
    o_sd tok = Some sd /\ sd_sis sd = [s] /\ c_tstinfo C tok = Ok ti /\
    (exists hi, c_hash_of C (ti_alg ti) = Some hi /\ c_H C hi data = ti_hashed ti) /\
    ci_bytes (ci_raw (sd_ci sd)) = Ok blob /\
    si_verify C s (blob_val blob) false certs' = VAccept c.
Proof.
  intros C tok data certs s c h t.
  unfold ts_verify. rewrite ts_verify_eq. unfold ref_ts_verify. expose. rewrite <- ?imprint_verify_def, <- ?ts_finish_def, <- ?ci_bytes_m_def.
  destruct (o_sd tok) as [sd|] eqn:Hsd.
  2:{ change (negb (zlen (@nil sinfo) =? 1)) with true. cbv iota. discriminate. }
  destruct (zlen (sd_sis sd) =? 1) eqn:Hn; cbn [negb]; [|discriminate].
  destruct (nth_z (sd_sis sd) 0) as [s0|] eqn:Hs0; [|discriminate].
  destruct (c_tstinfo C tok) as [ti| |] eqn:Hti; [|discriminate|discriminate].
  destruct (imprint_verify C (ti_alg ti) (ti_hashed ti) (Wby data) =? 0) eqn:Hi; cbn [negb]; [|discriminate].
  destruct (ci_bytes_m C (sd_ci sd)) as [blob| |] eqn:Hb; [|discriminate|discriminate].
  apply -> ci_bytes_m_ok in Hb.
  intro H. change (match blob with Some b => Wby b | None => Wnil end) with (blob_val blob) in H.
  apply ts_finish_accept_inv in H as (-> & _ & _ & _ & Hv).
  exists sd, ti, blob. eexists.
  split; [first [reflexivity|eassumption]|]. split; [apply zlen_one; [lia|exact Hs0]|]. split; [first [reflexivity|eassumption]|].
  split; [apply imprint_ok_inv; lia|]. split; [first [reflexivity|eassumption]|exact Hv].
Qed.

(* 20. SignedData.Verify with EXTERNAL content supplied and digests checked: when it accepts, the SignedData either carries no
       content or carries exactly the external content, and EVERY SignerInfo was verified against the external content (by 13
       its message-digest attribute is then the digest of the EXTERNAL content); without external content, against the
       embedded content *)
Theorem sd_verify_external_content : forall C sd ext s c,
  sd_verify C sd (Wby ext) false = SdAccept s c ->
  (ci_bytes (ci_raw (sd_ci sd)) = Ok None \/ ci_bytes (ci_raw (sd_ci sd)) = Ok (Some ext)) /\
  In s (sd_sis sd) /\
  exists certs, Forall (fun s' => exists c', si_verify C s' (Wby ext) false certs = VAccept c') (sd_sis sd).
Proof. exact C16.VProofs.sd_verify_external_content. Qed.
Theorem sd_verify_embedded_content : forall C sd s c,
  sd_verify C sd Wnil false = SdAccept s c ->
  exists b certs, ci_bytes (ci_raw (sd_ci sd)) = Ok (Some b) /\
    Forall (fun s' => exists c', si_verify C s' (Wby b) false certs = VAccept c') (sd_sis sd).
Proof. exact C16.VProofs.sd_verify_embedded_content. Qed.

(* 21. ContentInfo.Bytes: the interpretation of the source is Model.ci_bytes, and for EVERY payload and every identifier
       octet of the inner element — also when the payload is itself a run of complete OCTET STRING elements — Bytes() of
       SEQUENCE { contentType, [0] { tag len payload } } is exactly payload, which is what the RFC 5652 reader finds *)
Theorem ci_bytes_interpreted_is_ci_bytes : forall C c o, ci_bytes_m C c = Ok o <-> ci_bytes (ci_raw c) = Ok o.
Proof. exact C16.VProofs.ci_bytes_m_ok. Qed.
Theorem ci_bytes_is_econtent : forall ctype tag payload,
  oid_ok ctype = true -> all_bytes ctype = true -> tag_ok tag -> all_bytes payload = true ->
  small (enc_tlv T_SEQ (enc_tlv T_OID ctype ++ enc_tlv 160 (enc_tlv tag payload))) ->
  let raw := enc_tlv T_SEQ (enc_tlv T_OID ctype ++ enc_tlv 160 (enc_tlv tag payload)) in
  ci_bytes raw = Ok (Some payload) /\ spec_econtent raw = Some (Some payload).
Proof. exact C16.VProofs.ci_bytes_is_econtent. Qed.

(* non-vacuity *)
(* a SignerInfo whose signed attributes (content-type, message-digest) stand in NON-DER order; sha256 / rsaEncryption *)
Definition vsample : bytes :=
  [48; 105; 2; 1; 1; 48; 17; 48; 12; 49; 10; 48; 8; 6; 3; 85; 4; 3; 12; 1; 120; 2; 1; 9; 48; 13; 6; 9; 96; 134; 72; 1; 101; 3; 4;
   2; 1; 5; 0; 160; 47; 48; 24; 6; 9; 42; 134; 72; 134; 247; 13; 1; 9; 3; 49; 11; 6; 9; 42; 134; 72; 134; 247; 13; 1; 7; 1; 48;
   19; 6; 9; 42; 134; 72; 134; 247; 13; 1; 9; 4; 49; 6; 4; 4; 200; 1; 2; 3; 48; 13; 6; 9; 42; 134; 72; 134; 247; 13; 1; 1; 1;
   5; 0; 4; 2; 190; 239].
Definition vsample_emitted : bytes :=
  [49; 47; 48; 24; 6; 9; 42; 134; 72; 134; 247; 13; 1; 9; 3; 49; 11; 6; 9; 42; 134; 72; 134; 247; 13; 1; 7; 1; 48; 19; 6; 9; 42;
   134; 72; 134; 247; 13; 1; 9; 4; 49; 6; 4; 4; 200; 1; 2; 3].
Definition vsample_sorted : bytes :=
  [49; 47; 48; 19; 6; 9; 42; 134; 72; 134; 247; 13; 1; 9; 4; 49; 6; 4; 4; 200; 1; 2; 3; 48; 24; 6; 9; 42; 134; 72; 134; 247; 13;
   1; 9; 3; 49; 11; 6; 9; 42; 134; 72; 134; 247; 13; 1; 7; 1].
(* a toy instance of the crypto parameters: H prefixes 200; the signature "verifies" on exactly one digest *)
Definition toy (good : bytes) : crypto :=
  mkCrypto (fun _ => Some 1) (fun _ b => 200 :: b)
           (fun _ _ _ d _ => if bytes_eqb d (200 :: good) then SigOk else SigRsaErr) (fun _ _ _ _ => SigRsaErr)
           (fun _ => ([], 0)) (fun _ => Err 1) (fun _ => 0).
Definition vsample_t : tlv := match read_tlv vsample with Ok (t, _) => t | _ => mkTlv 0 [] [] end.
Definition vsample_s : sinfo := match parse_si vsample_t with Ok s => s | _ => dummy_si end.
Definition vsample_cert : cert := mkCert (si_issuer vsample_s) (si_serial vsample_s) 7.
Example vsample_hypotheses_hold :
  valid vsample_t /\ t_tag vsample_t = T_SEQ /\ parse_si vsample_t = Ok vsample_s /\
  (exists a l, si_auth vsample_s = Some (a :: l)) /\
  spec_si_preimage (t_full vsample_t) [1; 2; 3] = Some (true, vsample_emitted) /\ vsample_emitted <> vsample_sorted.
Proof.
  split.
  { destruct (read_tlv vsample) as [[t r]| |] eqn:E; try (vm_compute in E; discriminate).
    assert (Hb : all_bytes vsample = true) by (vm_compute; reflexivity).
    destruct (C16.Tlv.read_tlv_ok vsample t r Hb E) as (_ & Hv & _).
    replace vsample_t with t; [exact Hv|]. unfold vsample_t. rewrite E. reflexivity. }
  split; [vm_compute; reflexivity|]. split; [vm_compute; reflexivity|].
  split; [vm_compute; eexists; eexists; reflexivity|]. split; [vm_compute; reflexivity|]. vm_compute. discriminate.
Qed.
(* signed over the bytes as emitted: accepted; signed over the sorted DER SET OF (or anything else): rejected *)
Example vsample_signed_as_emitted_is_accepted :
  si_verify (toy vsample_emitted) vsample_s (Wby [1; 2; 3]) false [vsample_cert] = VAccept vsample_cert.
Proof. vm_compute. reflexivity. Qed.
Example vsample_signed_over_sorted_set_is_rejected :
  si_verify (toy vsample_sorted) vsample_s (Wby [1; 2; 3]) false [vsample_cert] = VReject EV_RSA.
Proof. vm_compute. reflexivity. Qed.
Example vsample_wrong_message_digest_is_rejected :
  si_verify (toy vsample_emitted) vsample_s (Wby [9; 9]) false [vsample_cert] = VReject EV_NEW.
Proof. vm_compute. reflexivity. Qed.
Example vsample_interpreter_knows_every_construct :
  forall skip, match si_verify (toy vsample_emitted) vsample_s (Wby [1; 2; 3]) skip [] with VReject e => e = EV_CERT | _ => False end.
Proof. intros [|]; vm_compute; reflexivity. Qed.
(* a payload that is itself a complete primitive OCTET STRING element (04 03 61 62 63): Bytes() returns all five octets *)
Example segment_shaped_payload :
  ci_bytes (enc_tlv T_SEQ (enc_tlv T_OID [42;134;72;134;247;13;1;7;1] ++ enc_tlv 160 (enc_tlv 4 [4; 3; 97; 98; 99]))) = Ok (Some [4; 3; 97; 98; 99]).
Proof. vm_compute. reflexivity. Qed.
Example sd_verify_knows_every_construct :
  match parse_cms sample with
  | Ok o => match o_sd o with
            | Some sd => sd_verify (toy []) sd Wnil false = SdReject EV_NOATTR
            | None => False end
  | _ => False end.
Proof. vm_compute. reflexivity. Qed.

(* ---- RSA-PSS parameters in CMS (C16 / C05 reference-verifier acceptance): the saltLength written into the signature
        AlgorithmIdentifier is the salt length the signer uses, for every option value (auto / equals-hash / explicit),
        every hash length and every modulus size (the 8k+1-bit class was a finding, fixed by relic 4b12f85). *)
Theorem pss_declared_salt_is_used : forall saltOpt modBits hLen declared used,
  0 <= modBits ->
  pss_sign_run saltOpt modBits hLen = Some (declared, used) ->
  pss_call_sites_ok = true /\ spec_verifier_accepts declared used = true /\ used = spec_salt saltOpt modBits hLen.
Proof. exact C16.Pss.pss_declared_salt_is_used. Qed.

(* regression for the fixed finding: moduli of 2049 and 1025 bits with auto salt *)
Example pss_regression_modbits_1_mod_8 :
  pss_sign_run 0 2049 32 = Some (222, 222) /\ pss_sign_run 0 1025 32 = Some (94, 94).
Proof.
  split; reflexivity.
Qed.

(* non-vacuity: the three option kinds on RSA-2048 / SHA-256, SHA-384, SHA-512 *)
Example pss_auto_2048_sha256 : pss_sign_run 0 2048 32 = Some (222, 222). Proof. reflexivity. Qed.
Example pss_auto_2048_sha512 : pss_sign_run 0 2048 64 = Some (190, 190). Proof. reflexivity. Qed.
Example pss_eqhash_2048_sha384 : pss_sign_run (-1) 2048 48 = Some (48, 48). Proof. reflexivity. Qed.
Example pss_explicit20 : pss_sign_run 20 2048 32 = Some (20, 20). Proof. reflexivity. Qed.
Example pss_negative_refused : pss_sign_run (-2) 2048 32 = None. Proof. reflexivity. Qed.
