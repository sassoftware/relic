(* FmtJAR/ProofsA.v — writeAttribute: the index loop equals a character-level stream; the physical lines of a stream (at most 70
   bytes, continuation lines opened by one space); the two replacements of parseSection undo the wrapping. *)
From Relic Require Import Base.Prelude Base.Slice FmtJAR.Lib Generated.FmtJAR_gen FmtJAR.Model.

Lemma ztake_firstn {A} n (l : list A) : ztake (Z.of_nat n) l = firstn n l.
Proof. apply Slice.ztake_firstn. Qed.
Lemma zdrop_skipn {A} n (l : list A) : zdrop (Z.of_nat n) l = skipn n l.
Proof. apply Slice.zdrop_skipn. Qed.
(* a bound beyond the end of the list is as good as the end *)
Lemma ztake_clamp {A} n (l : list A) : ztake (Z.min n (zlen l)) l = ztake n l.
Proof. destruct (Z.min_spec n (zlen l)) as [[_ ->]|[? ->]]; [reflexivity|]. now rewrite !ztake_all by lia. Qed.
Lemma zdrop_clamp {A} n (l : list A) : zdrop (Z.min n (zlen l)) l = zdrop n l.
Proof. destruct (Z.min_spec n (zlen l)) as [[_ ->]|[? ->]]; [reflexivity|]. now rewrite !zdrop_all by lia. Qed.
Lemma zlen_cons_eqb0 {A} (x : A) l : (zlen (x :: l) =? 0) = false.
Proof. rewrite zlen_cons. pose proof (zlen_nonneg l). lia. Qed.

(* what writeAttribute writes for the line l when k more bytes fit on the physical line in progress *)
Fixpoint stream (k : nat) (l : bytes) : bytes :=
  match l with
  | [] => [13; 10]
  | c :: r => match k with
              | O => 13 :: 10 :: 32 :: c :: stream 68 r
              | S k' => c :: stream k' r
              end
  end.

Lemma stream_split g R :
  stream g R = firstn g R ++ [13; 10] ++ match skipn g R with [] => [] | r => 32 :: stream 69 r end.
Proof.
  revert g; induction R as [|c r IH]; intros g.
  - destruct g; reflexivity.
  - destruct g as [|g'].
    + reflexivity.
    + cbn [stream firstn skipn app]. rewrite IH. reflexivity.
Qed.

Lemma cslice_ok lo hi s : 0 <= lo -> lo <= hi -> hi <= zlen s -> cslice lo hi s = Ok (ztake (hi - lo) (zdrop lo s)).
Proof. intros. unfold cslice. replace ((lo <? 0) || (hi <? lo) || (zlen s <? hi)) with false by lia. reflexivity. Qed.

(* one iteration at index i: the next g bytes (all that are left, if fewer) go out as a line of their own; g is 70 on the first line
   and 69 behind the space that opens a continuation line *)
Lemma wa_loop_step f i line g : 0 <= i < zlen line -> g = (if i =? 0 then 70 else 69) ->
  wa_loop (S f) i line =
  rest <- wa_loop f (Z.min (i + g) (zlen line)) line ;;
  Ok ((if i =? 0 then [] else [32]) ++ ztake g (zdrop i line) ++ [13; 10] ++ rest).
Proof.
  intros Hi Hg. cbn [wa_loop]. unfold jar_wa_more, jar_wa_is_cont, jar_wa_goal0, jar_wa_j, jar_wa_clamp, jar_wa_clamped.
  replace (i <? zlen line) with true by lia.
  replace (if negb (i =? 0) && jar_wa_goal_dec then 70 - 1 else 70) with g by (subst g; now destruct (i =? 0)).
  replace (if i + g >? zlen line then zlen line else i + g) with (Z.min (i + g) (zlen line)) by (destruct (i + g >? zlen line) eqn:E; lia).
  assert (0 < g) by (subst g; destruct (i =? 0); lia).
  rewrite cslice_ok by lia. cbn [bind].
  replace (Z.min (i + g) (zlen line) - i) with (Z.min g (zlen (zdrop i line))) by (rewrite zlen_zdrop; lia).
  rewrite ztake_clamp. now destruct (i =? 0).
Qed.

Lemma wa_loop_stream fuel : forall line i,
  0 <= i <= zlen line -> (Z.to_nat (zlen line - i) < fuel)%nat ->
  wa_loop fuel i line =
  Ok (match zdrop i line with
      | [] => []
      | r => if i =? 0 then stream 70 r else 32 :: stream 69 r
      end).
Proof.
  induction fuel as [|f IH]; intros line i Hi Hf; [lia|].
  destruct (Z.eq_dec i (zlen line)) as [->|Hne].
  - rewrite zdrop_all by lia. cbn [wa_loop]. unfold jar_wa_more. now rewrite Z.ltb_irrefl.
  - set (g := if i =? 0 then 70 else 69). assert (0 < g) by (subst g; destruct (i =? 0); lia).
    rewrite (wa_loop_step f i line g) by (reflexivity || lia). rewrite IH by lia. cbn [bind].
    replace (Z.min (i + g) (zlen line) =? 0) with false by lia.
    rewrite zdrop_clamp, (Z.add_comm i g), <- zdrop_zdrop by lia.
    assert (HR : zlen (zdrop i line) = zlen line - i) by (apply zlen_zdrop; lia).
    destruct (zdrop i line) as [|c r] eqn:ER; [rewrite zlen_nil in HR; lia|]. rewrite <- ER. f_equal.
    subst g. destruct (i =? 0); rewrite (stream_split _ (zdrop i line)); reflexivity.
Qed.

Lemma attr_line_nonempty k v : attr_line k v <> [].
Proof. unfold attr_line. change jar_wa_sep with [58; 32]. destruct k; discriminate. Qed.

Theorem write_attr_stream k v : write_attr k v = Ok (stream 70 (attr_line k v)).
Proof.
  unfold write_attr. rewrite wa_loop_stream.
  - rewrite zdrop_0. destruct (attr_line k v) eqn:E; [exfalso; eapply attr_line_nonempty; eauto|]. reflexivity.
  - pose proof (zlen_nonneg (attr_line k v)). lia.
  - unfold zlen. lia.
Qed.

Definition render (ls : list bytes) : bytes := concat (map (fun l => l ++ [13; 10]) ls).
(* a stream is a sequence of CR LF terminated lines: the first has at most k bytes, no other more than 70, and each of those opens
   with the space *)
Lemma stream_lines l : forall k, (k <= 70)%nat -> exists first rest,
  stream k l = render (first :: rest) /\ (length first <= k)%nat /\
  Forall (fun p => (length p <= 70)%nat /\ exists q, p = 32 :: q) rest.
Proof.
  induction l as [|c r IH]; intros k Hk.
  - exists [], []. split; [reflexivity|]. split; [apply Nat.le_0_l|constructor].
  - destruct k as [|k']; cbn [stream].
    + destruct (IH 68%nat ltac:(lia)) as (f & rs & -> & Hf & Hrs). exists [], ((32 :: c :: f) :: rs).
      split; [reflexivity|]. split; [apply le_n|]. constructor; [split; [cbn [length]; lia|eauto]|exact Hrs].
    + destruct (IH k' ltac:(lia)) as (f & rs & -> & Hf & Hrs). exists (c :: f), rs.
      split; [reflexivity|]. split; [cbn [length]; lia|exact Hrs].
Qed.

Lemma jrepl2_skip a b new x t : x <> a -> jrepl2 a b new (x :: t) = x :: jrepl2 a b new t.
Proof.
  intros H. destruct t as [|y r]; [reflexivity|]. cbn [jrepl2]. replace (x =? a) with false by lia. reflexivity.
Qed.
Lemma jrepl2_hit a b new r : jrepl2 a b new (a :: b :: r) = new ++ jrepl2 a b new r.
Proof. cbn [jrepl2]. rewrite !Z.eqb_refl. reflexivity. Qed.
Lemma jrepl2_nohit a b new x y r : y <> b -> jrepl2 a b new (x :: y :: r) = x :: jrepl2 a b new (y :: r).
Proof. intros H. cbn [jrepl2]. replace (y =? b) with false by lia. rewrite andb_false_r. reflexivity. Qed.
Lemma jrepl2_single a b new x : jrepl2 a b new [x] = [x].
Proof. reflexivity. Qed.

Definition no_byte (c : Z) (l : bytes) : Prop := ~ In c l.
Lemma no_byte_cons c x l : no_byte c (x :: l) <-> x <> c /\ no_byte c l.
Proof. unfold no_byte. cbn. intuition. Qed.
Lemma no_byte_app c a b : no_byte c (a ++ b) <-> no_byte c a /\ no_byte c b.
Proof. unfold no_byte. rewrite in_app_iff. intuition. Qed.
(* for a list written out *)
Lemma no_byte_lit c l : forallb (fun x => negb (x =? c)) l = true -> no_byte c l.
Proof. unfold no_byte. intros H Hin. rewrite forallb_forall in H. apply H in Hin. now rewrite Z.eqb_refl in Hin. Qed.

(* the LF form of a stream: what the first ReplaceAll of parseSection makes of it *)
Fixpoint stream_lf (k : nat) (l : bytes) : bytes :=
  match l with
  | [] => [10]
  | c :: r => match k with
              | O => 10 :: 32 :: c :: stream_lf 68 r
              | S k' => c :: stream_lf k' r
              end
  end.
Lemma repl_crlf_stream k l rest : no_byte 13 l ->
  jrepl2 13 10 [10] (stream k l ++ rest) = stream_lf k l ++ jrepl2 13 10 [10] rest.
Proof.
  revert k; induction l as [|c r IH]; intros k Hl.
  - cbn [stream stream_lf app]. rewrite jrepl2_hit. reflexivity.
  - apply no_byte_cons in Hl as [Hc Hr]. destruct k as [|k'].
    + cbn [stream stream_lf app]. rewrite jrepl2_hit. cbn [app].
      rewrite jrepl2_skip by lia. rewrite jrepl2_skip by exact Hc. rewrite IH by exact Hr. reflexivity.
    + cbn [stream stream_lf app]. rewrite jrepl2_skip by exact Hc. rewrite IH by exact Hr. reflexivity.
Qed.
(* the second ReplaceAll removes LF SPACE: the line is back; what follows must not start with a space *)
Definition not_space_first (rest : bytes) : Prop := match rest with c :: _ => c <> 32 | [] => True end.
Lemma repl_lfsp_stream k l rest : no_byte 10 l -> not_space_first rest ->
  jrepl2 10 32 [] (stream_lf k l ++ rest) = l ++ 10 :: jrepl2 10 32 [] rest.
Proof.
  revert k; induction l as [|c r IH]; intros k Hl Hrest.
  - cbn [stream_lf app]. destruct rest as [|y rest']; [reflexivity|]. cbn in Hrest. rewrite jrepl2_nohit by exact Hrest. reflexivity.
  - apply no_byte_cons in Hl as [Hc Hr]. destruct k as [|k'].
    + cbn [stream_lf app]. rewrite jrepl2_hit. cbn [app]. rewrite jrepl2_skip by exact Hc. rewrite IH by assumption. reflexivity.
    + cbn [stream_lf app]. rewrite jrepl2_skip by exact Hc. rewrite IH by assumption. reflexivity.
Qed.
Lemma ps_unfold_stream k l rest : no_byte 13 l -> no_byte 10 l -> not_space_first (jrepl2 13 10 [10] rest) ->
  ps_unfold (stream k l ++ rest) = l ++ 10 :: ps_unfold rest.
Proof.
  intros H13 H10 Hrest. change ps_unfold with (fun s => jrepl2 10 32 [] (jrepl2 13 10 [10] s)). cbv beta.
  now rewrite repl_crlf_stream, repl_lfsp_stream.
Qed.
