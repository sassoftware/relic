(* FmtJAR/ProofsF.v — C11: the parsers of the text layer never panic (no slice out of range, no loop without progress), for all bytes.
   The splitManifest loop is read through its two step equations (sm_loop_nil, sm_loop_cons); FmtJAR/ProofsC.v uses them as well. *)
From Relic Require Import Base.Prelude Base.Slice FmtJAR.Lib Generated.FmtJAR_gen FmtJAR.Model FmtJAR.ProofsA.

Definition no_panic {A} (r : result A) : Prop := match r with Panic _ => False | _ => True end.
Lemma no_panic_bind {A B} (r : result A) (f : A -> result B) : no_panic r -> (forall a, r = Ok a -> no_panic (f a)) -> no_panic (bind r f).
Proof. destruct r; cbn; intros H Hf; auto. Qed.

Lemma jhas_prefix_len s p : jhas_prefix s p = true -> zlen p <= zlen s.
Proof.
  revert s; induction p as [|x p IH]; intros s H; [rewrite zlen_nil; apply zlen_nonneg|].
  destruct s as [|y s]; [discriminate|]. cbn [jhas_prefix] in H. apply andb_true_iff in H as [_ H]. apply IH in H. rewrite !zlen_cons. lia.
Qed.
Lemma jindex_bound s p : 0 <= jindex s p -> jindex s p + zlen p <= zlen s.
Proof.
  induction s as [|x s IH]; cbn [jindex].
  - destruct (jhas_prefix [] p) eqn:E; [intros _; apply jhas_prefix_len in E; lia|lia].
  - destruct (jhas_prefix (x :: s) p) eqn:E; [intros _; apply jhas_prefix_len in E; lia|].
    destruct (jindex s p <? 0) eqn:E2; [lia|]. intros _. rewrite zlen_cons. lia.
Qed.
Lemma jindex_byte_bound s c : 0 <= jindex_byte s c -> jindex_byte s c < zlen s.
Proof.
  induction s as [|x s IH]; cbn [jindex_byte]; [lia|]. rewrite zlen_cons. pose proof (zlen_nonneg s).
  destruct (x =? c); [lia|]. destruct (jindex_byte s c <? 0) eqn:E; lia.
Qed.

(* splitManifest: one iteration cuts the manifest at sm_cut, which lies inside it and past its first byte *)
Definition sm_cut (m : bytes) : Z := jar_sm_idx (jindex m jar_sm_sep1) (jindex m jar_sm_sep2) (zlen m).
Lemma sm_cut_range m : m <> [] -> 1 <= sm_cut m <= zlen m.
Proof.
  intros Hne. unfold sm_cut, jar_sm_idx.
  assert (1 <= zlen m) by (destruct m; [contradiction|rewrite zlen_cons; pose proof (zlen_nonneg m); lia]).
  destruct ((jindex m jar_sm_sep1 >=? 0) && ((jindex m jar_sm_sep2 <? 0) || (jindex m jar_sm_sep1 <? jindex m jar_sm_sep2))) eqn:E1.
  - pose proof (jindex_bound m jar_sm_sep1 ltac:(lia)) as Hb. change (zlen jar_sm_sep1) with 4 in Hb. lia.
  - destruct (jindex m jar_sm_sep2 >=? 0) eqn:E2.
    + pose proof (jindex_bound m jar_sm_sep2 ltac:(lia)) as Hb. change (zlen jar_sm_sep2) with 2 in Hb. lia.
    + lia.
Qed.
Lemma sm_loop_nil f mal : sm_loop (S f) [] mal = Ok ([], mal).
Proof. reflexivity. Qed.
Lemma sm_loop_cons f m mal : m <> [] ->
  sm_loop (S f) m mal =
  if jar_sm_empty (ztake (sm_cut m) m) then sm_loop f (zdrop (sm_cut m) m) true
  else r <- sm_loop f (zdrop (sm_cut m) m) (jar_sm_malformed_after (jindex m jar_sm_sep1) (jindex m jar_sm_sep2) mal) ;;
       Ok (ztake (sm_cut m) m :: fst r, snd r).
Proof.
  intros Hne. pose proof (sm_cut_range m Hne) as Hc. cbn [sm_loop]. fold (sm_cut m). unfold jar_sm_more.
  replace (negb (zlen m =? 0)) with true by lia. rewrite !cslice_ok by lia. cbn [bind].
  rewrite zdrop_0, Z.sub_0_r, (ztake_all (zlen m - sm_cut m)) by (rewrite zlen_zdrop; lia). reflexivity.
Qed.
Lemma sm_rest_shorter m : m <> [] -> (length (zdrop (sm_cut m) m) < length m)%nat.
Proof. intros Hne. pose proof (sm_cut_range m Hne) as Hc. unfold zdrop. rewrite skipn_length. unfold zlen in Hc. lia. Qed.

Lemma sm_loop_ok fuel : forall m mal, (length m < fuel)%nat -> exists r, sm_loop fuel m mal = Ok r.
Proof.
  induction fuel as [|f IH]; intros m mal Hf; [lia|].
  destruct (list_eq_dec Z.eq_dec m []) as [->|Hne]; [eexists; apply sm_loop_nil|].
  rewrite sm_loop_cons by exact Hne. pose proof (sm_rest_shorter m Hne) as Hrest.
  destruct (jar_sm_empty _); [apply IH; lia|].
  destruct (IH (zdrop (sm_cut m) m) (jar_sm_malformed_after (jindex m jar_sm_sep1) (jindex m jar_sm_sep2) mal)) as [r ->]; [lia|]. eexists. reflexivity.
Qed.
Theorem split_manifest_total b : exists r, split_manifest b = Ok r.
Proof. unfold split_manifest. apply sm_loop_ok. lia. Qed.

(* once `malformed` is set it stays set *)
Lemma sm_malformed_stays i1 i2 : jar_sm_malformed_after i1 i2 true = true.
Proof. unfold jar_sm_malformed_after. now destruct (_ && _), (i2 >=? 0). Qed.
Lemma sm_loop_mal_true fuel : forall m r, sm_loop fuel m true = Ok r -> snd r = true.
Proof.
  induction fuel as [|f IH]; intros m r Hr; [discriminate|].
  destruct (list_eq_dec Z.eq_dec m []) as [->|Hne]; [injection Hr as <-; reflexivity|].
  rewrite sm_loop_cons in Hr by exact Hne.
  rewrite sm_malformed_stays in Hr.
  destruct (jar_sm_empty _); [exact (IH _ _ Hr)|].
  destruct (sm_loop f _ true) as [r'| |] eqn:E; try discriminate. injection Hr as <-. exact (IH _ _ E).
Qed.
(* an empty section is skipped but marks the manifest malformed, so a result that is not malformed lost no byte *)
Lemma sm_loop_partition fuel : forall m mal secs, sm_loop fuel m mal = Ok (secs, false) -> concat secs = m.
Proof.
  induction fuel as [|f IH]; intros m mal secs Hr; [discriminate|].
  destruct (list_eq_dec Z.eq_dec m []) as [->|Hne]; [injection Hr as <- _; reflexivity|].
  rewrite sm_loop_cons in Hr by exact Hne. destruct (jar_sm_empty _).
  - apply sm_loop_mal_true in Hr. discriminate.
  - destruct (sm_loop f _ _) as [[s' mal']| |] eqn:E; try discriminate. injection Hr as <- ->.
    cbn [concat]. rewrite (IH _ _ _ E). apply ztake_zdrop.
Qed.

Lemma ps_line_no_panic h line : no_panic (ps_line h line).
Proof.
  unfold ps_line. destruct (jar_ps_skip_line (zlen line)); [exact I|]. unfold jar_ps_no_colon, jar_ps_key_hi, jar_ps_val_lo.
  destruct (jindex_byte line jar_ps_colon <? 0) eqn:E; [exact I|].
  pose proof (jindex_byte_bound line jar_ps_colon ltac:(lia)). rewrite !cslice_ok by lia. exact I.
Qed.
Lemma ps_lines_no_panic lines : forall h, no_panic (ps_lines h lines).
Proof.
  induction lines as [|l r IH]; intros h; [exact I|]. cbn [ps_lines]. apply no_panic_bind; [apply ps_line_no_panic|]. intros a _. apply IH.
Qed.
Theorem parse_section_no_panic s : no_panic (parse_section s).
Proof. unfold parse_section. apply ps_lines_no_panic. Qed.

Lemma pm_loop_no_panic secs : forall i m, no_panic (pm_loop i secs m).
Proof.
  induction secs as [|s r IH]; intros i m; [exact I|]. cbn [pm_loop]. destruct (jar_pm_skip i (zlen s)); [apply IH|].
  apply no_panic_bind; [apply parse_section_no_panic|]. intros h _. destruct (jar_pm_is_main i); [apply IH|].
  destruct (jar_pm_name_missing _); [exact I|apply IH].
Qed.
Theorem parse_manifest_m_no_panic b : no_panic (parse_manifest_m b).
Proof.
  unfold parse_manifest_m. destruct (split_manifest_total b) as [r ->]. cbn [bind]. destruct (jar_pm_no_sections _); [exact I|].
  apply no_panic_bind; [apply pm_loop_no_panic|]. intros; exact I.
Qed.
Theorem parse_manifest_no_panic b : no_panic (parse_manifest b).
Proof.
  unfold parse_manifest. apply no_panic_bind; [apply parse_manifest_m_no_panic|]. intros pm _. destruct (jar_PM_refuses _); exact I.
Qed.

Section WithHash.
  Variable H : Z -> bytes -> bytes.
  Variable avail : Z -> bool.
  Lemma hf_collect_no_panic suffix h : no_panic (hf_collect avail suffix h).
  Proof.
    induction h as [|[k v] r IH]; [exact I|]. cbn [hf_collect]. destruct (jar_hf_skip k suffix); [exact IH|].
    destruct (jar_hf_unknown _); [exact I|]. apply no_panic_bind; [exact IH|]. intros; exact I.
  Qed.
  Lemma hash_file_no_panic keys content suffix : no_panic (hash_file H avail keys content suffix).
  Proof.
    unfold hash_file. apply no_panic_bind; [apply hf_collect_no_panic|]. intros ds _. destruct (jar_hf_none _); [exact I|]. match goal with |- context [existsb ?f ds] => destruct (existsb f ds) end; exact I.
  Qed.
  Lemma vs_sections_no_panic secs : forall i main smap, no_panic (vs_sections H avail i secs main smap).
  Proof.
    induction secs as [|s r IH]; intros i main smap; [exact I|]. cbn [vs_sections]. destruct (jar_vs_is_main i).
    - apply no_panic_bind; [apply hash_file_no_panic|]. intros; apply IH.
    - apply no_panic_bind; [apply parse_section_no_panic|]. intros h _. destruct (jar_vs_name_missing _); [exact I|apply IH].
  Qed.
  Lemma vs_check_no_panic files smap : no_panic (vs_check H avail files smap).
  Proof.
    induction files as [|[n keys] r IH]; [exact I|]. cbn [vs_check]. destruct (hraw_get smap n).
    - change (jar_vs_section_missing true) with false. cbv iota. apply no_panic_bind; [apply hash_file_no_panic|]. intros; exact IH.
    - change (jar_vs_section_missing false) with true. exact I.
  Qed.
  (* takes the digest and the availability table like its neighbours, though it needs neither *)
  Lemma split_nonempty b r : b <> [] -> split_manifest b = Ok r -> fst r <> [] \/ snd r = true.
  Proof using H avail.
    intros Hne Hr. unfold split_manifest in Hr. rewrite sm_loop_cons in Hr by exact Hne. destruct (jar_sm_empty _).
    - right. eapply sm_loop_mal_true; exact Hr.
    - destruct (sm_loop _ _ _) as [r'| |]; try discriminate. injection Hr as <-. left. discriminate.
  Qed.
  Lemma write_attr_no_panic k v : no_panic (write_attr k v).
  Proof. rewrite write_attr_stream. exact I. Qed.
  Lemma dm_sections_no_panic alg hn secs : no_panic (dm_sections H alg hn secs).
  Proof.
    induction secs as [|s r IH]; [exact I|]. cbn [dm_sections]. apply no_panic_bind; [apply parse_section_no_panic|]. intros h _.
    destruct (jar_dm_name_missing _); [exact I|]. rewrite !write_attr_stream. cbn [bind]. apply no_panic_bind; [exact IH|]. intros; exact I.
  Qed.
End WithHash.
