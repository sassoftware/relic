(* FmtJAR/ProofsC.v — the shape of emitted text; splitManifest on emitted sections; writeSection / Dump as text. *)
From Relic Require Import Base.Prelude Base.Slice FmtJAR.Lib Generated.FmtJAR_gen FmtJAR.Model FmtJAR.ProofsA FmtJAR.ProofsB FmtJAR.ProofsF.

(* TrimSpace leaves a text that starts with a printable ASCII byte non-empty *)
Lemma printable_not_ws c : printable c -> ascii_space c = false /\ (forall b, ws2 c b = false) /\ (forall a b, ws3 c a b = false).
Proof. unfold printable, ascii_space, ws2, ws3. intros H. repeat split; intros; lia. Qed.
Lemma jltrim_printable c r : printable c -> jltrim (c :: r) = c :: r.
Proof.
  intros (Ha & H2 & H3)%printable_not_ws. unfold jltrim. cbn [jtrim_gen]. unfold ws_head. rewrite Ha.
  destruct r as [|b [|d r']]; rewrite ?H2, ?H3; reflexivity.
Qed.
Lemma rtrim_keeps_last c : printable c -> forall l skip, (skip <= length l)%nat -> jtrim_gen ws_head_rev skip (l ++ [c]) <> [].
Proof.
  intros (Ha & H2 & H3)%printable_not_ws. induction l as [|x l IH]; intros skip Hs.
  - assert (skip = 0)%nat as -> by (cbn in Hs; lia). cbn [app jtrim_gen]. unfold ws_head_rev. rewrite Ha. discriminate.
  - destruct skip as [|k]; cbn [app jtrim_gen]; [|apply IH; cbn in Hs; lia].
    destruct (ws_head_rev (x :: l ++ [c])) as [|n] eqn:E; [discriminate|]. apply IH.
    (* the rune found at the head does not reach the last byte *)
    unfold ws_head_rev in E. destruct (ascii_space x); [injection E as <-; lia|].
    destruct l as [|y [|z l'']]; cbn [app] in E; rewrite ?H2, ?H3 in E; [discriminate| |].
    + destruct (ws2 y x); [injection E as <-; cbn; lia|discriminate].
    + destruct (ws2 y x); [injection E as <-; cbn; lia|]. destruct (ws3 z y x); [injection E as <-; cbn; lia|discriminate].
Qed.
Lemma jtrim_nonempty c r : printable c -> jtrim (c :: r) <> [].
Proof.
  intros Hc. unfold jtrim. rewrite jltrim_printable by exact Hc. unfold jrtrim. intros E.
  apply (f_equal (@rev Z)) in E. rewrite rev_involutive in E. cbn [rev] in E.
  revert E. apply rtrim_keeps_last; [exact Hc|lia].
Qed.

Definition good_sec (a : list (bytes * bytes)) : Prop := Forall valid_attr a /\ a <> [].
Lemma stream_len_ge2 k l : 2 <= zlen (stream k l).
Proof.
  revert k; induction l as [|c r IH]; intros k; [cbn; lia|].
  destruct k as [|k']; cbn [stream]; rewrite !zlen_cons; [specialize (IH 68%nat)|specialize (IH k')]; lia.
Qed.
Lemma attrs_text_first attrs : Forall valid_attr attrs -> attrs <> [] ->
  exists c T, concat (map attr_text attrs) = c :: T /\ printable c /\ 2 <= zlen (c :: T).
Proof.
  intros H Hne. destruct H as [|[k v] r [Hk _] _]; [contradiction|]. cbn [fst] in Hk.
  destruct (valid_line_first k v Hk) as (c & t & E & Hc). pose proof (stream_len_ge2 70 (attr_line k v)) as Hl.
  cbn [map concat]. unfold attr_text at 1. cbn [fst snd]. rewrite E in *. cbn [stream app] in *.
  eexists c, _. split; [reflexivity|]. split; [exact Hc|]. rewrite zlen_cons, zlen_app in *. pose proof (zlen_nonneg (concat (map attr_text r))). lia.
Qed.
Lemma sec_text_first attrs : good_sec attrs -> exists c r, sec_text attrs = c :: r /\ printable c.
Proof. intros [H Hne]. unfold sec_text. destruct (attrs_text_first attrs H Hne) as (c & T & -> & Hc & _). now exists c, (T ++ [13; 10]). Qed.
Lemma sec_text_len attrs : good_sec attrs -> 4 <= zlen (sec_text attrs).
Proof. intros [H Hne]. unfold sec_text. destruct (attrs_text_first attrs H Hne) as (c & T & -> & _ & Hl). rewrite zlen_app. change (zlen [13; 10]) with 2. lia. Qed.

(* bytes.Index on emitted text.  Both separators splitManifest looks for are
   patterns that cannot begin at a byte other than CR / LF, nor at a line end that such a byte follows; searching for one runs through all
   the attribute lines of a section and arrives at the CR LF of the last one. *)
Definition shift (n j : Z) : Z := if j <? 0 then -1 else n + j.
Lemma shift_shift a b j : 0 <= b -> shift a (shift b j) = shift (a + b) j.
Proof. intros. unfold shift. destruct (j <? 0) eqn:E; [reflexivity|]. destruct (b + j <? 0) eqn:E2; lia. Qed.
Lemma jindex_ge s pat : -1 <= jindex s pat.
Proof.
  induction s as [|x s IH]; cbn [jindex]; destruct (jhas_prefix _ pat); try lia.
  destruct (jindex s pat <? 0) eqn:E; lia.
Qed.
Definition line_pattern (pat : bytes) : Prop :=
  (forall c s, c <> 10 -> c <> 13 -> jhas_prefix (c :: s) pat = false) /\
  (forall c s, c <> 10 -> c <> 13 -> jhas_prefix (13 :: 10 :: c :: s) pat = false) /\
  (forall c s, c <> 10 -> c <> 13 -> jhas_prefix (10 :: c :: s) pat = false).

Section Scan.
  Variable pat : bytes.
  Hypothesis Hpat : line_pattern pat.

  Lemma jindex_next x s : jhas_prefix (x :: s) pat = false -> jindex (x :: s) pat = shift 1 (jindex s pat).
  Proof. cbn [jindex]. now intros ->. Qed.
  Lemma jindex_plain c s : c <> 10 -> c <> 13 -> jindex (c :: s) pat = shift 1 (jindex s pat).
  Proof. intros. now apply jindex_next, Hpat. Qed.
  Lemma jindex_eol c s : c <> 10 -> c <> 13 -> jindex (13 :: 10 :: c :: s) pat = shift 2 (jindex (c :: s) pat).
  Proof. intros. rewrite 2 jindex_next by now apply Hpat. now rewrite shift_shift. Qed.

  Lemma jindex_stream k l rest : no_byte 10 l -> no_byte 13 l ->
    jindex (stream k l ++ rest) pat = shift (zlen (stream k l) - 2) (jindex (13 :: 10 :: rest) pat).
  Proof.
    revert k; induction l as [|c r IH]; intros k H10 H13.
    - cbn [stream app]. change (zlen [13; 10] - 2) with 0. unfold shift. pose proof (jindex_ge (13 :: 10 :: rest) pat). destruct (_ <? 0) eqn:E; lia.
    - apply no_byte_cons in H10 as [Hc10 Hr10], H13 as [Hc13 Hr13]. destruct k as [|k']; cbn [stream app]; rewrite !zlen_cons.
      + pose proof (stream_len_ge2 68 r). rewrite jindex_eol, 2 jindex_plain, IH, !shift_shift by (assumption || lia). f_equal. lia.
      + pose proof (stream_len_ge2 k' r). rewrite jindex_plain, IH, shift_shift by (assumption || lia). f_equal. lia.
  Qed.
  Lemma jindex_attrs attrs rest : Forall valid_attr attrs -> attrs <> [] ->
    jindex (concat (map attr_text attrs) ++ rest) pat = shift (zlen (concat (map attr_text attrs)) - 2) (jindex (13 :: 10 :: rest) pat).
  Proof.
    intros H Hne. induction H as [|[k v] r [Hk Hv] Hr IH]; [contradiction|]. cbn [fst snd] in Hk, Hv.
    cbn [map concat]. unfold attr_text at 1 3. cbn [fst snd]. rewrite <- app_assoc, zlen_app.
    rewrite jindex_stream by (now apply valid_line_10 || now apply valid_line_13). pose proof (stream_len_ge2 70 (attr_line k v)).
    destruct r as [|a2 r2]; [cbn [map concat app]; rewrite zlen_nil; f_equal; lia|]. specialize (IH ltac:(discriminate)).
    destruct (attrs_text_first (a2 :: r2) Hr ltac:(discriminate)) as (c & T & E & Hc & Hl). unfold printable in Hc.
    rewrite E in *. cbn [app] in *. rewrite jindex_eol, IH, !shift_shift by lia. f_equal. lia.
  Qed.
  Lemma jindex_sec attrs rest : good_sec attrs ->
    jindex (sec_text attrs ++ rest) pat = shift (zlen (sec_text attrs) - 4) (jindex (13 :: 10 :: 13 :: 10 :: rest) pat).
  Proof.
    intros [H Hne]. unfold sec_text. rewrite <- app_assoc, zlen_app. cbn [app]. rewrite jindex_attrs by assumption.
    f_equal. change (zlen [13; 10]) with 2. lia.
  Qed.
End Scan.

Definition PAT : bytes := [13; 10; 13; 10].
Definition LL : bytes := [10; 10].
Lemma line_pattern_PAT : line_pattern PAT.
Proof. repeat split; intros c s H10 H13; cbn [jhas_prefix PAT]; destruct (Z.eqb_spec 13 c); (lia || reflexivity). Qed.
Lemma line_pattern_LL : line_pattern LL.
Proof. repeat split; intros c s H10 H13; cbn [jhas_prefix LL]; destruct (Z.eqb_spec 10 c); (lia || reflexivity). Qed.
(* the first CR LF CR LF of a section that other text follows is the one that ends it *)
Lemma jindex_sec_PAT attrs rest : good_sec attrs -> jindex (sec_text attrs ++ rest) PAT = zlen (sec_text attrs) - 4.
Proof. intros H. rewrite (jindex_sec PAT line_pattern_PAT) by exact H. pose proof (sec_text_len attrs H). unfold shift. cbn. lia. Qed.
(* and there is no LF LF anywhere *)
Definition not_lf_first (rest : bytes) : Prop := match rest with c :: _ => c <> 10 | [] => True end.
Lemma jindex_blank_LL rest : not_lf_first rest -> jindex (13 :: 10 :: 13 :: 10 :: rest) LL = shift 4 (jindex rest LL).
Proof.
  destruct rest as [|y r]; [reflexivity|]. cbn [not_lf_first]. intros Hy. rewrite 3 (jindex_next LL) by reflexivity.
  rewrite (jindex_next LL) by (cbn [jhas_prefix LL]; destruct (Z.eqb_spec 10 y); (lia || reflexivity)). now rewrite !shift_shift.
Qed.
Lemma jindex_secs_LL secs : Forall good_sec secs -> jindex (concat (map sec_text secs)) LL = -1.
Proof.
  intros H. induction H as [|a r Ha Hr IH]; [reflexivity|]. cbn [map concat].
  rewrite (jindex_sec LL line_pattern_LL) by exact Ha. rewrite jindex_blank_LL, IH; [reflexivity|].
  destruct Hr as [|a2 r2 Ha2 _]; [exact I|]. cbn [map concat]. destruct (sec_text_first a2 Ha2) as (c & T & -> & Hc). unfold printable in Hc. cbn. lia.
Qed.

Lemma sm_empty_sec attrs : good_sec attrs -> jar_sm_empty (sec_text attrs) = false.
Proof.
  intros H. destruct (sec_text_first attrs H) as (c & r & E & Hc). unfold jar_sm_empty. rewrite E.
  pose proof (jtrim_nonempty c r Hc). destruct (jtrim (c :: r)) as [|t0 tl0] eqn:Et; [contradiction|]. rewrite zlen_cons. pose proof (zlen_nonneg tl0). lia.
Qed.

(* in front of further emitted sections, one iteration of splitManifest takes exactly the first section off *)
Lemma sm_loop_sec a rest f mal : good_sec a -> jindex (sec_text a ++ rest) LL = -1 ->
  sm_loop (S f) (sec_text a ++ rest) mal = r <- sm_loop f rest mal ;; Ok (sec_text a :: fst r, snd r).
Proof.
  intros Ha HLL. pose proof (sec_text_len a Ha) as Hlen. destruct (sec_text_first a Ha) as (c & t & E & _).
  rewrite sm_loop_cons by (rewrite E; discriminate). unfold sm_cut. change jar_sm_sep1 with PAT. change jar_sm_sep2 with LL.
  rewrite jindex_sec_PAT, HLL by exact Ha. unfold jar_sm_idx, jar_sm_malformed_after.
  replace (zlen (sec_text a) - 4 >=? 0) with true by lia. cbn [Z.ltb Z.compare orb andb].
  replace (zlen (sec_text a) - 4 + 4) with (zlen (sec_text a)) by lia.
  now rewrite ztake_app_exact, zdrop_app_exact, sm_empty_sec.
Qed.
Lemma sm_loop_secs secs : Forall good_sec secs -> forall fuel mal, (length (concat (map sec_text secs)) < fuel)%nat ->
  sm_loop fuel (concat (map sec_text secs)) mal = Ok (map sec_text secs, mal).
Proof.
  intros H. induction H as [|a r Ha Hr IH]; intros fuel mal Hf; (destruct fuel as [|f]; [lia|]); [reflexivity|].
  cbn [map concat] in *. rewrite app_length in Hf. pose proof (sec_text_len a Ha) as Hlen. unfold zlen in Hlen.
  rewrite sm_loop_sec by (exact Ha || apply (jindex_secs_LL (a :: r)); now constructor).
  now rewrite IH by lia.
Qed.
Theorem split_manifest_secs secs : Forall good_sec secs -> split_manifest (concat (map sec_text secs)) = Ok (map sec_text secs, false).
Proof. intros H. unfold split_manifest. apply sm_loop_secs; [exact H|lia]. Qed.

Definition MV : bytes := jar_dump_main_first.
Definition NAME : bytes := jar_dump_sec_first.
(* the attributes writeSection emits, in its order: the distinguished one first (if it has a value), the others sorted by key *)
Definition ws_attrs (h : hdr) (first : bytes) : list (bytes * bytes) :=
  (if jar_ws_first_present (hget h first) then [(first, hget h first)] else []) ++ ws_rest h first.
Lemma write_section_text h first : write_section h first = Ok (sec_text (ws_attrs h first)).
Proof.
  unfold write_section, ws_attrs, sec_text. rewrite write_attr_opt, write_attrs_text. cbn [bind]. change jar_ws_end with [13; 10].
  destruct (jar_ws_first_present (hget h first)); cbn [app map concat]; now rewrite <- ?app_assoc.
Qed.
Definition dump_attrs (m : fmap) : list (list (bytes * bytes)) :=
  ws_attrs (fm_main m) MV :: map (fun nh => ws_attrs (snd nh) NAME) (fm_files m).
Lemma files_get_in fs n h : NoDup (map fst fs) -> In (n, h) fs -> files_get fs n = Some h.
Proof.
  induction fs as [|[n' h'] r IH]; intros Hn Hin; [contradiction|]. cbn [files_get]. cbn [map fst] in Hn. inversion Hn as [|? ? Hnot Hn']; subst.
  destruct Hin as [E|Hin].
  - injection E as -> ->. rewrite bytes_eqb_refl. reflexivity.
  - destruct (bytes_eqb n' n) eqn:E; [|apply IH; assumption]. apply bytes_eqb_eq in E. subst. exfalso. apply Hnot. apply (in_map fst) in Hin. exact Hin.
Qed.
Lemma dump_sections_text fs0 fs : NoDup (map fst fs0) -> incl fs fs0 ->
  dump_sections fs0 (map fst fs) = Ok (concat (map (fun nh => sec_text (ws_attrs (snd nh) NAME)) fs)).
Proof.
  intros Hn. induction fs as [|[n h] r IH]; intros Hi; [reflexivity|].
  cbn [map dump_sections fst snd concat]. rewrite (files_get_in fs0 n h Hn) by (apply Hi; left; reflexivity).
  change (jar_dump_emit true) with true. cbv iota. fold NAME. rewrite write_section_text. cbn [bind].
  rewrite IH by (intros x Hx; apply Hi; right; exact Hx). reflexivity.
Qed.
Theorem dump_text m : NoDup (fm_order m) -> map fst (fm_files m) = fm_order m ->
  dump m = Ok (concat (map sec_text (dump_attrs m))).
Proof.
  intros Hn He. unfold dump, dump_attrs. fold MV. rewrite write_section_text. cbn [bind]. rewrite <- He.
  rewrite dump_sections_text; [|rewrite He; exact Hn|apply incl_refl]. cbn [bind map concat]. rewrite map_map. reflexivity.
Qed.
