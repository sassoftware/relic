(* FmtJAR/ProofsB.v — the attributes the theorems speak about, the text writeSection emits for them, and parseSection on that text. *)
From Relic Require Import Base.Prelude Base.Slice FmtJAR.Lib Generated.FmtJAR_gen FmtJAR.Model FmtJAR.ProofsA.

(* attribute names and values as parseSection returns them: no CR / LF, trimmed, the name in canonical MIME case and without a colon *)
Definition printable (c : Z) : Prop := 33 <= c <= 126.
Definition valid_key (k : bytes) : Prop :=
  (exists c r, k = c :: r /\ printable c) /\ no_byte 58 k /\ no_byte 10 k /\ no_byte 13 k /\ jtrim k = k /\ jcanon k = k.
Definition valid_val (v : bytes) : Prop := no_byte 10 v /\ no_byte 13 v /\ jtrim v = v.
Definition valid_attr (kv : bytes * bytes) : Prop := valid_key (fst kv) /\ valid_val (snd kv).
Definition valid_attrs (l : list (bytes * bytes)) : Prop := Forall valid_attr l /\ NoDup (map fst l).

Lemma valid_line_13 k v : valid_key k -> valid_val v -> no_byte 13 (attr_line k v).
Proof.
  intros (_ & _ & _ & Hk & _) (_ & Hv & _). unfold attr_line. rewrite !no_byte_app. repeat split; try assumption. now apply no_byte_lit.
Qed.
Lemma valid_line_10 k v : valid_key k -> valid_val v -> no_byte 10 (attr_line k v).
Proof.
  intros (_ & _ & Hk & _) (Hv & _). unfold attr_line. rewrite !no_byte_app. repeat split; try assumption. now apply no_byte_lit.
Qed.
Lemma valid_line_first k v : valid_key k -> exists c r, attr_line k v = c :: r /\ printable c.
Proof. intros ((c & r & -> & Hc) & _). exists c, (r ++ jar_wa_sep ++ v). split; [reflexivity|exact Hc]. Qed.

Definition attr_text (kv : bytes * bytes) : bytes := stream 70 (attr_line (fst kv) (snd kv)).
Definition sec_text (attrs : list (bytes * bytes)) : bytes := concat (map attr_text attrs) ++ [13; 10].

Lemma write_attrs_text l : write_attrs l = Ok (concat (map attr_text l)).
Proof.
  induction l as [|[k v] r IH]; [reflexivity|]. cbn [write_attrs map concat]. rewrite write_attr_stream. cbn [bind]. rewrite IH. reflexivity.
Qed.

Lemma write_attr_opt (b : bool) k v : (if b then write_attr k v else Ok []) = Ok (if b then attr_text (k, v) else []).
Proof. destruct b; [apply write_attr_stream|reflexivity]. Qed.

Lemma stream_first k c r : exists t, stream (S k) (c :: r) = c :: t.
Proof. eexists. reflexivity. Qed.
Lemma stream_lf_first k c r : exists t, stream_lf (S k) (c :: r) = c :: t.
Proof. eexists. reflexivity. Qed.

Lemma jsplit1_line c l rest : no_byte c l -> jsplit1 c (l ++ c :: rest) = l :: jsplit1 c rest.
Proof.
  induction l as [|x l IH]; intros H.
  - cbn [app jsplit1]. rewrite Z.eqb_refl. reflexivity.
  - apply no_byte_cons in H as [Hx Hl]. cbn [app jsplit1]. replace (x =? c) with false by lia. rewrite IH by exact Hl. reflexivity.
Qed.
(* parseSection's unfolding and splitting take one emitted attribute off the front of a text as one line, provided what follows
   does not come to begin with a space *)
Lemma lines_attr kv rest : valid_attr kv -> not_space_first (jrepl2 13 10 [10] rest) ->
  jsplit1 10 (ps_unfold (attr_text kv ++ rest)) = attr_line (fst kv) (snd kv) :: jsplit1 10 (ps_unfold rest).
Proof.
  intros [Hk Hv] Hrest. unfold attr_text. rewrite ps_unfold_stream by (now apply valid_line_13 || now apply valid_line_10 || exact Hrest).
  now apply jsplit1_line, valid_line_10.
Qed.

Lemma jindex_byte_app k c rest : no_byte c k -> jindex_byte (k ++ c :: rest) c = zlen k.
Proof.
  induction k as [|x k IH]; intros H.
  - cbn. rewrite Z.eqb_refl. reflexivity.
  - apply no_byte_cons in H as [Hx Hk]. cbn [app jindex_byte]. replace (x =? c) with false by lia. rewrite IH by exact Hk.
    rewrite zlen_cons. pose proof (zlen_nonneg k). replace (zlen k <? 0) with false by lia. reflexivity.
Qed.
(* where the colon of an emitted line is, and what lies on either side of it *)
Lemma attr_line_cut k v : no_byte 58 k ->
  jindex_byte (attr_line k v) 58 = zlen k /\ ztake (zlen k) (attr_line k v) = k /\ zdrop (zlen k + 1) (attr_line k v) = 32 :: v.
Proof.
  intros H58. unfold attr_line. change jar_wa_sep with [58; 32]. cbn [app].
  split; [now apply jindex_byte_app|]. split; [apply ztake_app_exact|].
  change (k ++ 58 :: 32 :: v) with (k ++ [58] ++ 32 :: v). rewrite app_assoc. apply zdrop_app_len. now rewrite zlen_app.
Qed.
Lemma ps_line_attr h k v : valid_key k -> valid_val v -> ps_line h (attr_line k v) = Ok (hset h k v).
Proof.
  intros (_ & H58 & _ & _ & Htk & _) (_ & _ & Htv). destruct (attr_line_cut k v H58) as (Ei & Ek & Ev).
  assert (Hlen : zlen (attr_line k v) = zlen k + 2 + zlen v) by (unfold attr_line; rewrite !zlen_app; change (zlen jar_wa_sep) with 2; lia).
  pose proof (zlen_nonneg k). pose proof (zlen_nonneg v).
  unfold ps_line, jar_ps_skip_line, jar_ps_no_colon, jar_ps_key_hi, jar_ps_val_lo. change jar_ps_colon with 58. rewrite Ei.
  replace (zlen (attr_line k v) =? 0) with false by lia. replace (zlen k <? 0) with false by lia.
  rewrite !cslice_ok by lia. cbn [bind]. rewrite zdrop_0, Z.sub_0_r, Ek, Ev, ztake_all by (rewrite zlen_cons; lia).
  change (jtrim (32 :: v)) with (jtrim v). now rewrite Htk, Htv.
Qed.
Definition hdr_of (attrs : list (bytes * bytes)) (h0 : hdr) : hdr := fold_left (fun h kv => hset h (fst kv) (snd kv)) attrs h0.
Theorem parse_section_text attrs : Forall valid_attr attrs -> parse_section (sec_text attrs) = Ok (hdr_of attrs []).
Proof.
  unfold parse_section, sec_text. change (hd 0 jar_ps_split_sep) with 10. generalize (@nil (bytes * bytes)) as h.
  intros h H. revert h. induction H as [|[k v] r [Hk Hv] Hr IH]; intros h; [reflexivity|].
  cbn [map concat]. rewrite <- app_assoc, lines_attr.
  - cbn [ps_lines fst snd]. rewrite ps_line_attr by assumption. apply IH.
  - now split.
  - (* what follows opens with a printable byte, or is the closing CR LF *)
    destruct Hr as [|[k2 v2] r2 [Hk2 _] _]; [cbn; lia|]. destruct (valid_line_first k2 v2 Hk2) as (c & t & E & Hc). unfold printable in Hc.
    cbn [map concat]. unfold attr_text at 1. cbn [fst snd]. rewrite E. cbn [stream app]. rewrite jrepl2_skip by lia. cbn. lia.
Qed.

(* distinct canonical keys: Set appends *)
Lemma hraw_get_none_set h k v : hraw_get h k = None -> hraw_set h k v = h ++ [(k, v)].
Proof.
  induction h as [|[k' v'] r IH]; intros H; [reflexivity|]. cbn [hraw_get] in H. cbn [hraw_set].
  destruct (bytes_eqb k' k); [discriminate|]. rewrite IH by exact H. reflexivity.
Qed.
Lemma hraw_get_notin h k : ~ In k (map fst h) -> hraw_get h k = None.
Proof.
  induction h as [|[k' v'] r IH]; intros H; [reflexivity|]. cbn [hraw_get]. cbn in H.
  destruct (bytes_eqb k' k) eqn:E; [apply bytes_eqb_eq in E; subst; tauto|]. apply IH. tauto.
Qed.
Lemma hdr_of_distinct attrs : forall h0, Forall valid_attr attrs -> NoDup (map fst (h0 ++ attrs)) -> hdr_of attrs h0 = h0 ++ attrs.
Proof.
  induction attrs as [|[k v] r IH]; intros h0 Hv Hn; [now rewrite app_nil_r|].
  inversion Hv as [|? ? [Hk _] Hr]; subst. unfold hdr_of. cbn [fold_left fst snd]. fold (hdr_of r (hset h0 k v)).
  cbn [fst] in Hk. destruct Hk as (_ & _ & _ & _ & _ & Hc). unfold hset. rewrite Hc.
  assert (Hnot : ~ In k (map fst h0)).
  { rewrite map_app in Hn. apply NoDup_remove_2 in Hn. rewrite in_app_iff in Hn. tauto. }
  rewrite hraw_get_none_set by (apply hraw_get_notin; exact Hnot).
  rewrite IH; [now rewrite <- app_assoc|exact Hr|]. rewrite <- app_assoc. exact Hn.
Qed.
Theorem parse_section_valid attrs : valid_attrs attrs -> parse_section (sec_text attrs) = Ok attrs.
Proof. intros [Hv Hn]. rewrite parse_section_text by exact Hv. f_equal. apply (hdr_of_distinct attrs [] Hv Hn). Qed.
