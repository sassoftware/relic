(* FmtJAR/ProofsG.v — keepFile (translated from the source) IS the JAR specification's list of signature-related members, for ALL names;
   the JDK's narrower reading of SIG-* names. *)
From Relic Require Import Base.Prelude Base.Slice FmtJAR.Lib Generated.FmtJAR_gen FmtJAR.Model FmtJAR.ProofsA FmtJAR.ProofsB FmtJAR.ProofsC.

Lemma no_byte_rev c l : no_byte c l -> no_byte c (rev l).
Proof. unfold no_byte. intros H Hin. apply H. apply in_rev. exact Hin. Qed.
Lemma upper_app a b : jto_upper (a ++ b) = jto_upper a ++ jto_upper b.
Proof. apply map_app. Qed.
Lemma upper_no47 b : no_byte 47 b -> no_byte 47 (jto_upper b).
Proof.
  unfold no_byte, jto_upper. intros H Hin. apply in_map_iff in Hin as (c & Ec & Hin). apply H.
  destruct ((97 <=? c) && (c <=? 122)) eqn:E; [lia|]. subst. exact Hin.
Qed.
Lemma jhas_prefix_app p x : jhas_prefix (p ++ x) p = true.
Proof. induction p as [|c p IH]; [reflexivity|]. cbn [app jhas_prefix]. rewrite Z.eqb_refl. exact IH. Qed.
Lemma jhas_suffix_app x e : jhas_suffix (x ++ e) e = true.
Proof. unfold jhas_suffix. rewrite rev_app_distr. apply jhas_prefix_app. Qed.
Lemma jhas_prefix_upper b p : jhas_prefix b p = true -> jhas_prefix (jto_upper b) (jto_upper p) = true.
Proof.
  revert b; induction p as [|x p IH]; intros b H; [reflexivity|]. destruct b as [|y b]; [discriminate|]. cbn [jhas_prefix] in H.
  apply andb_true_iff in H as [Hxy H]. apply Z.eqb_eq in Hxy. subst y. cbn [jto_upper map jhas_prefix]. rewrite Z.eqb_refl. apply IH. exact H.
Qed.
Lemma jindex_none s c : no_byte c s -> jindex s [c] = -1.
Proof.
  induction s as [|x s IH]; intros H; [reflexivity|]. apply no_byte_cons in H as [Hx Hs]. cbn [jindex jhas_prefix]. replace (c =? x) with false by lia. cbn [andb].
  rewrite IH by exact Hs. reflexivity.
Qed.
Lemma ext_rev_suffix rs : forall acc e, jpath_ext_rev acc rs = e -> e <> [] -> exists x, rev rs ++ acc = x ++ e.
Proof.
  induction rs as [|c r IH]; intros acc e E Hne; [cbn in E; subst; contradiction|]. cbn [jpath_ext_rev] in E. change SLASH with 47 in E. change DOT with 46 in E.
  destruct (c =? 47); [subst; contradiction|]. destruct (c =? 46).
  - subst e. exists (rev r). cbn [rev]. rewrite <- app_assoc. reflexivity.
  - destruct (IH (c :: acc) e E Hne) as [x Hx]. exists x. cbn [rev]. rewrite <- app_assoc. exact Hx.
Qed.
Lemma ext_suffix b e : jpath_ext b = e -> e <> [] -> exists x, b = x ++ e.
Proof. intros E Hne. unfold jpath_ext in E. destruct (ext_rev_suffix _ _ _ E Hne) as [x Hx]. rewrite rev_involutive, app_nil_r in Hx. eauto. Qed.

Lemma jhas_prefix_true l p : jhas_prefix l p = true -> exists r, l = p ++ r.
Proof.
  revert l; induction p as [|x p IH]; intros l H; [exists l; reflexivity|]. destruct l as [|y l]; [discriminate|]. cbn [jhas_prefix] in H.
  apply andb_true_iff in H as [E H]. apply Z.eqb_eq in E. subst y. destruct (IH l H) as [r ->]. exists r. reflexivity.
Qed.
Lemma jhas_suffix_true l s : jhas_suffix l s = true -> exists x, l = x ++ s.
Proof.
  unfold jhas_suffix. intros H. apply jhas_prefix_true in H as [r Hr]. exists (rev r).
  apply (f_equal (@rev Z)) in Hr. rewrite rev_involutive, rev_app_distr, rev_involutive in Hr. exact Hr.
Qed.
Lemma ext_rev_found e : no_byte 46 e -> no_byte 47 e -> forall acc rest, jpath_ext_rev acc (rev e ++ 46 :: rest) = 46 :: e ++ acc.
Proof.
  induction e as [|c e IH] using rev_ind; intros H46 H47 acc rest.
  - cbn. reflexivity.
  - apply no_byte_app in H46 as [H46 Hc46]. apply no_byte_app in H47 as [H47 Hc47]. apply no_byte_cons in Hc46 as [Hc46 _]. apply no_byte_cons in Hc47 as [Hc47 _].
    rewrite rev_app_distr. cbn [rev app jpath_ext_rev]. change SLASH with 47. change DOT with 46.
    replace (c =? 47) with false by lia. replace (c =? 46) with false by lia. rewrite IH by assumption. rewrite <- app_assoc. reflexivity.
Qed.
Lemma ext_of_suffix x e : no_byte 46 e -> no_byte 47 e -> jpath_ext (x ++ 46 :: e) = 46 :: e.
Proof.
  intros H46 H47. unfold jpath_ext. rewrite rev_app_distr. cbn [rev]. rewrite <- app_assoc. cbn [app].
  rewrite ext_rev_found by assumption. rewrite app_nil_r. reflexivity.
Qed.
Lemma no47_jcontains s : jcontains s [47] = false -> no_byte 47 s.
Proof.
  unfold jcontains. induction s as [|x s IH]; intros H; [intros []|]. cbn [jindex jhas_prefix] in H.
  destruct (47 =? x) eqn:E; [cbn in H; discriminate|]. cbn [andb] in H.
  destruct (jindex s [47] <? 0) eqn:E2.
  - apply no_byte_cons. split; [lia|]. apply IH. lia.
  - exfalso. pose proof (jindex_ge s [47]). lia.
Qed.
Definition spec_sigbase (u : bytes) : bool :=
  bytes_eqb u [77; 65; 78; 73; 70; 69; 83; 84; 46; 77; 70] || jhas_prefix u [83; 73; 71; 45]
  || jhas_suffix u [46; 83; 70] || jhas_suffix u [46; 68; 83; 65] || jhas_suffix u [46; 82; 83; 65] || jhas_suffix u [46; 69; 67].

Lemma ext_eq_suffix base e : no_byte 46 e -> no_byte 47 e -> bytes_eqb (jpath_ext base) (46 :: e) = jhas_suffix base (46 :: e).
Proof.
  intros H46 H47. destruct (jhas_suffix base (46 :: e)) eqn:Es.
  - apply jhas_suffix_true in Es as [x ->]. rewrite ext_of_suffix by assumption. apply bytes_eqb_refl.
  - apply bytes_eqb_neq. intros E. destruct (ext_suffix base _ E ltac:(discriminate)) as [x Hx]. rewrite Hx in Es. rewrite jhas_suffix_app in Es. discriminate.
Qed.
Lemma slice_after_prefix base : zslice (zlen jar_meta_inf) (zlen (jar_meta_inf ++ base)) (jar_meta_inf ++ base) = base.
Proof.
  unfold zslice. change (zdrop (zlen jar_meta_inf) (jar_meta_inf ++ base)) with base. apply ztake_all. rewrite zlen_app. lia.
Qed.

(* C03 / C08: for EVERY member name, keepFile removes exactly META-INF/ itself and what the JAR specification makes signature related
   (MANIFEST.MF, *.SF, *.DSA, *.RSA, *.EC, SIG-* directly in META-INF/, letter case ignored); nothing at any other depth, nothing else *)
Theorem keep_file_eq_spec n : jar_keep_file n = negb (bytes_eqb n jar_meta_inf || spec_sig_related n).
Proof.
  unfold jar_keep_file, spec_sig_related. change [77; 69; 84; 65; 45; 73; 78; 70; 47] with jar_meta_inf. change META_INF_SPEC with jar_meta_inf.
  destruct (bytes_eqb n jar_meta_inf); [reflexivity|]. cbn [orb].
  destruct (jhas_prefix (jto_upper n) jar_meta_inf) eqn:Ep; [|reflexivity].
  apply jhas_prefix_true in Ep as [base Hb]. rewrite Hb. rewrite slice_after_prefix. change (zdrop 9 (jar_meta_inf ++ base)) with base. cbn [negb orb andb].
  destruct (jcontains base [47]); [reflexivity|]. cbn [negb andb].
  rewrite (ext_eq_suffix base [83; 70]), (ext_eq_suffix base [82; 83; 65]), (ext_eq_suffix base [68; 83; 65]), (ext_eq_suffix base [69; 67]) by now apply no_byte_lit.
  destruct base as [|c b'].
  - reflexivity.
  - rewrite zlen_cons_eqb0. cbn [negb andb].
    (* a cascade of tests on one side, their disjunction on the other: decide them in the order in which both sides become closed *)
    destruct (jhas_prefix (c :: b') [83; 73; 71; 45]), (bytes_eqb (c :: b') [77; 65; 78; 73; 70; 69; 83; 84; 46; 77; 70]); try reflexivity.
    destruct (jhas_suffix (c :: b') [46; 83; 70]); [reflexivity|].
    destruct (jhas_suffix (c :: b') [46; 82; 83; 65]), (jhas_suffix (c :: b') [46; 68; 83; 65]), (jhas_suffix (c :: b') [46; 69; 67]); reflexivity.
Qed.
(* the JDK (SignatureFileVerifier.isSigningRelated) reads the list more narrowly for SIG-* names; everything it calls signature related is *)
Theorem jdk_related_is_spec n : jdk_sig_related n = true -> spec_sig_related n = true.
Proof.
  unfold jdk_sig_related, spec_sig_related. intros H. apply andb_true_iff in H as [Hp H]. rewrite Hp. cbn [andb].
  apply andb_true_iff in H as [Hc Ht]. rewrite Hc. cbn [andb].
  destruct (zdrop 9 (jto_upper n)) as [|c b'] eqn:Eb; [vm_compute in Ht; discriminate|].
  rewrite zlen_cons_eqb0. cbn [negb andb].
  destruct (bytes_eqb (c :: b') [77; 65; 78; 73; 70; 69; 83; 84; 46; 77; 70]); [reflexivity|].
  destruct (jhas_suffix (c :: b') [46; 83; 70]); [rewrite !orb_true_r; reflexivity|].
  destruct (jhas_suffix (c :: b') [46; 68; 83; 65]); [rewrite !orb_true_r; reflexivity|].
  destruct (jhas_suffix (c :: b') [46; 82; 83; 65]); [rewrite !orb_true_r; reflexivity|].
  destruct (jhas_suffix (c :: b') [46; 69; 67]); [rewrite !orb_true_r; reflexivity|].
  cbn [orb] in Ht. apply andb_true_iff in Ht as [Hs _]. rewrite Hs. reflexivity.
Qed.
