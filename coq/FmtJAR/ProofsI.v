(* FmtJAR/ProofsI.v — how hashFile resolves a digest attribute name, and the closed terms (stand-in digests, manifests, an archive)
   that the witnesses and examples of FmtJAR/Properties.v are about. *)
From Relic Require Import Base.Prelude Base.Slice FmtJAR.Lib Generated.FmtJAR_gen FmtJAR.Model FmtJAR.ProofsH.

Section Names.
  Variable H : Z -> bytes -> bytes.
  Definition all_avail (a : Z) : bool := (2 <=? a) && (a <=? 7).
  Definition known_alg (alg : Z) : Prop := In alg [2; 3; 4; 5; 6; 7].
  (* the algorithm hashFile reads out of the attribute name k, None when it skips or refuses the attribute *)
  Definition key_alg (avail : Z -> bool) (sfx k : bytes) : option Z :=
    let suffix := jar_hf_suffix sfx in
    if jar_hf_skip k suffix then None
    else let a := hash_by_name (jar_hf_hash_name k suffix) in if jar_hf_unknown (negb (a =? 0) && avail a) then None else Some a.
  Lemma hash_file_single avail sfx k alg c : key_alg avail sfx k = Some alg -> hash_file H avail [(k, H alg c)] c sfx = Ok tt.
  Proof.
    unfold key_alg, hash_file. cbn [hf_collect]. destruct (jar_hf_skip k (jar_hf_suffix sfx)); [discriminate|].
    destruct (jar_hf_unknown _); [discriminate|]. intros [= <-]. cbn [bind existsb fst snd]. unfold jar_hf_mismatch.
    now rewrite bytes_eqb_refl.
  Qed.
End Names.

Definition Hid (alg : Z) (x : bytes) : bytes := x.      (* an injective stand-in for the digest, good enough for counterexamples *)
Definition s (x : list Z) := x.

(* "M-V: 1\r\n\r\nName: a\r\nSHA-256-Digest: x\r\n\r\n" with the identity digest: member a has content x *)
Definition MAN1 : bytes := [77; 45; 86; 58; 32; 49; 13; 10; 13; 10; 78; 97; 109; 101; 58; 32; 97; 13; 10; 83; 72; 65; 45; 50; 53; 54; 45; 68; 105; 103; 101; 115; 116; 58; 32; 120; 13; 10; 13; 10].
(* "M-V: 1\r\n\r\nName: a\r\nMagic: m\r\n\r\n" *)
Definition MAN2 : bytes := [77; 45; 86; 58; 32; 49; 13; 10; 13; 10; 78; 97; 109; 101; 58; 32; 97; 13; 10; 77; 97; 103; 105; 99; 58; 32; 109; 13; 10; 13; 10].
(* non-vacuity of alias_ok *)
Example alias_ok_relic : alias_ok 1 [82; 69; 76; 73; 67] /\ alias_ok 2 [115; 101; 99; 111; 110; 100] /\ alias_ok 3 [120].
Proof. repeat apply conj; vm_compute; reflexivity. Qed.

(* a computable injective stand-in for the digest whose values are attribute values (two letters per byte), for closed examples that go
   through the text layer *)
Definition Hhex (alg : Z) (x : bytes) : bytes := flat_map (fun c => [65 + c / 16; 65 + c mod 16]) x.
Definition ex_members : members :=
  [(jar_manifest_name, [77; 97; 110; 105; 102; 101; 115; 116; 45; 86; 101; 114; 115; 105; 111; 110; 58; 32; 49; 46; 48; 13; 10; 13; 10]);   (* Manifest-Version: 1.0 *)
   ([104; 105; 46; 116; 120; 116], [104; 105]);                                                                                     (* hi.txt *)
   ([77; 69; 84; 65; 45; 73; 78; 70; 47; 79; 76; 68; 46; 83; 70], [120]);                                                              (* META-INF/OLD.SF *)
   ([77; 69; 84; 65; 45; 73; 78; 70; 47; 116; 47; 99; 97; 46; 82; 83; 65], [121])].                                                   (* META-INF/t/ca.RSA *)
Definition ex_signed (so : bool) : result members := jar_sign Hhex 5 1 [82; 69; 76; 73; 67] [114] so false [] (fun sf => [1]) ex_members.
(* the archive after one and after two rounds of signing, evaluated once and named: a witness written out in place is copied into the
   type of every conjunct that mentions it, and checking those copies costs more than the evaluations themselves *)
Definition ex_once := Eval vm_compute in match ex_signed false with Ok g => g | _ => [] end.
Definition ex_twice :=
  Eval vm_compute in match jar_sign Hhex 5 2 [120] [114] false false [] (fun sf => [2]) ex_once with Ok g => g | _ => [] end.
