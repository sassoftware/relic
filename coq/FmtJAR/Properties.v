(* FmtJAR/Properties.v — the JAR signing text layer (lib/signjar): the theorems; the lemmas they rest on are in FmtJAR/Proofs*.v.
   Model and specification side: FmtJAR/Model.v.  `H alg bytes` is the abstract digest (its base64 text).
   Classes used below (FmtJAR/ProofsB.v, ProofsD.v): valid_key / valid_val — attribute names and values as the JAR specification
   allows them and as parseSection returns them (no CR / LF, trimmed, canonical MIME case, no colon in the name);
   valid_fm m — every header of m, listed in Dump's order (ws_attrs), consists of such attributes with distinct names, the main
   section is not empty, every file section carries its Name, section names are distinct. *)
From Relic Require Import Base.Prelude Base.Slice FmtJAR.Lib Generated.FmtJAR_gen FmtJAR.Model.
From Relic Require Import FmtJAR.ProofsA FmtJAR.ProofsB FmtJAR.ProofsC FmtJAR.ProofsD FmtJAR.ProofsE FmtJAR.ProofsF FmtJAR.ProofsG FmtJAR.ProofsH FmtJAR.ProofsI.

(* C01: writeAttribute never fails (no slice out of range, the loop terminates) *)
Theorem jar_write_attr_total : forall k v, exists out, write_attr k v = Ok out.
Proof. intros k v. eexists. apply write_attr_stream. Qed.
(* C05: what it writes is a sequence of CR LF terminated lines, each at most 72 bytes long including the CR LF, and every line after
   the first starts with the single space that marks a continuation *)
Theorem jar_wrap_line_limit : forall k v, exists lines,
  write_attr k v = Ok (render lines) /\ lines <> [] /\ Forall (fun p => zlen p + 2 <= 72) lines /\ (forall p, In p (tl lines) -> exists q, p = 32 :: q).
Proof.
  intros k v. destruct (stream_lines (attr_line k v) 70 (le_n _)) as (f & rs & E & Hf & Hps). exists (f :: rs). rewrite Forall_forall in Hps.
  split; [now rewrite write_attr_stream, E|]. split; [discriminate|]. split; [|intros p Hp; now apply Hps].
  apply Forall_forall. intros p [<-|Hp]; [|apply Hps in Hp as [Hp _]]; rewrite zlen_length; lia.
Qed.
(* C05: unwrapping the emitted lines (relic's own way: CR LF -> LF, then LF SPACE removed) gives `name: value` back, for every
   name and value without CR / LF *)
Theorem jar_wrap_roundtrip : forall k v out, no_byte 13 (attr_line k v) -> no_byte 10 (attr_line k v) ->
  write_attr k v = Ok out -> ps_unfold out = attr_line k v ++ [10].
Proof.
  intros k v out H13 H10 Hw. rewrite write_attr_stream in Hw. injection Hw as <-.
  rewrite <- (app_nil_r (stream 70 (attr_line k v))). exact (ps_unfold_stream 70 _ [] H13 H10 I).
Qed.

(* C03: parsing what Dump wrote gives the structure back: the same section order and, per section, the same attributes (listed in
   the order Dump writes them: the distinguished attribute first, the others sorted by name); the manifest is not `malformed` *)
Theorem jar_parse_dump : forall m b, valid_fm m -> dump m = Ok b ->
  parse_manifest_m b = Ok (norm_fm m, false) /\ parse_manifest b = Ok (norm_fm m).
Proof. intros m b Hv Hd. split; [apply parse_dump|apply parse_dump_public]; assumption. Qed.
(* C03: Dump (ParseManifest b) = b on relic-emitted manifests: the parsed structure dumps to the very same bytes (attribute and section order kept) *)
Theorem jar_dump_parse_dump : forall m b, valid_fm m -> dump m = Ok b -> parse_manifest b = Ok (norm_fm m) /\ dump (norm_fm m) = Ok b.
Proof.
  intros m b Hv Hd. split; [now apply parse_dump_public|]. destruct Hv as [Hm Hmne Ho Hnd Hs].
  rewrite dump_text in Hd by assumption. rewrite <- Hd. rewrite dump_text.
  - f_equal. f_equal. f_equal. unfold dump_attrs, norm_fm, norm_sec. cbn [fm_main fm_files]. rewrite (ws_attrs_idem (fm_main m) MV) by reflexivity. f_equal.
    rewrite map_map. apply map_ext. intros nh. cbn [snd]. apply ws_attrs_idem. reflexivity.
  - exact Hnd.
  - unfold norm_fm, norm_sec. cbn [fm_files fm_order]. rewrite map_map. cbn [fst]. exact Ho.
Qed.
(* C05 / C03: an independent reader that follows the grammar of the JAR File Specification (physical lines ended by CR LF | LF | CR,
   continuation lines, `name: value`, sections separated by empty lines; nothing trimmed, nothing case-folded) reads relic's output to
   exactly the main / section attributes relic itself reads back *)
Theorem jar_spec_reader_agrees : forall m b, valid_fm m -> dump m = Ok b ->
  Forall (fun a => Forall (fun kv => spec_name_ok (fst kv) = true) a) (dump_attrs m) ->
  spec_read b = Some (fm_main (norm_fm m) :: map snd (fm_files (norm_fm m))) /\ parse_manifest b = Ok (norm_fm m).
Proof.
  intros m b Hv Hd Hn. split; [|apply parse_dump_public; assumption].
  pose proof Hv as [Hm Hmne Ho Hnd Hs]. rewrite dump_text in Hd by assumption. apply Ok_inj in Hd as <-.
  assert (E : fm_main (norm_fm m) :: map snd (fm_files (norm_fm m)) = dump_attrs m) by (unfold norm_fm, dump_attrs, norm_sec; cbn [fm_main fm_files]; rewrite map_map; reflexivity).
  rewrite E. apply spec_read_secs; [unfold dump_attrs; discriminate|].
  pose proof (valid_fm_good m Hv) as Hg.
  rewrite Forall_forall in *. intros a Ha. destruct (Hg a Ha) as [Hva Hne]. split; [|exact Hne].
  specialize (Hn a Ha). rewrite Forall_forall in *. intros kv Hkv. split; [apply Hva; exact Hkv|apply Hn; exact Hkv].
Qed.
(* C03: the sections splitManifest returns partition the manifest: every byte belongs to exactly one section (when it is not `malformed`) *)
Theorem jar_split_partition : forall b secs, split_manifest b = Ok (secs, false) -> concat secs = b.
Proof. intros b secs. apply sm_loop_partition. Qed.
(* mixed newlines (LF LF after the main section, CR LF CR LF later; formerly misread as one section): the sections are the specification's *)
Example jar_split_mixed_eol_regression :
  let b := [65; 58; 32; 49; 10; 10; 78; 97; 109; 101; 58; 32; 120; 13; 10; 66; 58; 32; 50; 13; 10; 13; 10] in
  split_manifest b = Ok (spec_sections b, false) /\ length (spec_sections b) = 2%nat.
Proof. split; vm_compute; reflexivity. Qed.

(* C05: for an emitted manifest (main section `main`, file sections `files`), DigestManifest writes exactly sf_text: Signature-Version,
   the digest attributes, Created-By, one section per manifest section ... *)
Theorem jar_sf_digest_is_emitted : forall H alg cb so apk main files,
  hash_name_of alg <> [] -> good_sec main -> Forall sf_file_ok files ->
  digest_manifest H alg cb so apk (concat (map sec_text (main :: files))) = Ok (sf_text H alg cb so apk main files).
Proof.
  intros H alg cb so apk main files Hhn Hmain Hfiles. unfold digest_manifest.
  assert (Hgood : Forall good_sec (main :: files)).
  { constructor; [exact Hmain|]. eapply Forall_impl; [|exact Hfiles]. intros a ([Hv _] & Hne & _). split; assumption. }
  rewrite split_manifest_secs by exact Hgood. cbn [bind fst snd map].
  change (jar_dm_refuses false) with false. cbv iota. unfold jar_dm_hash_unknown.
  rewrite (proj2 (bytes_eqb_neq _ []) Hhn).
  rewrite !write_attr_opt, !write_attr_stream. change (zdrop jar_dm_first_file_section (sec_text main :: map sec_text files)) with (map sec_text files).
  rewrite dm_sections_files by exact Hfiles. cbn [bind]. now destruct so.
Qed.
(* ... and every digest in it is the hash of EXACTLY the emitted bytes of the corresponding manifest part: the main-attributes digest of
   the main section as emitted, the manifest digest of the whole manifest, each section digest of that section as emitted *)
Theorem jar_sf_digest_preimages : forall H alg cb main files a, let T := concat (map sec_text (main :: files)) in
  KM H alg cb main T jar_dm_v1 = H alg (sec_text main) /\ KM H alg cb main T jar_dm_v2 = H alg T /\
  KF H alg a jar_dm_v6 = H alg (sec_text a) /\ KF H alg a jar_dm_v5 = hget a NAME.
Proof. intros H alg cb main files a T. repeat apply conj; reflexivity. Qed.
(* C01 / C05: the digest attribute names DigestManifest and updateManifest write are the ones hashFile looks for, cuts the algorithm name
   out of and resolves to the same algorithm, for every algorithm of x509tools.HashNames: such an attribute verifies against its content *)
Theorem jar_digest_attr_verifies : forall H alg c, known_alg alg -> let hn := hash_name_of alg in
  hash_file H all_avail [(jcanon (jar_dm_k2 (H alg) hn [] [] [] [] []), H alg c)] c jar_vs_suffix_whole = Ok tt /\
  hash_file H all_avail [(jcanon (jar_dm_k1 (H alg) hn [] [] [] [] []), H alg c)] c jar_vs_suffix_main = Ok tt /\
  hash_file H all_avail [(jcanon (jar_dm_k6 (H alg) hn [] [] [] [] []), H alg c)] c jar_vs_suffix_section = Ok tt /\
  hash_file H all_avail [(jcanon (hn ++ jar_um_digest_suffix), H alg c)] c [] = Ok tt /\
  hash_file H all_avail [(hn ++ jar_um_digest_suffix, H alg c)] c [] = Ok tt.
Proof.
  intros H alg c Hk. cbv zeta. unfold known_alg in Hk. cbn [In] in Hk.
  destruct Hk as [<-|[<-|[<-|[<-|[<-|[<-|[]]]]]]]; repeat apply conj; apply hash_file_single; vm_compute; reflexivity.
Qed.
(* C01: a manifest section for a file that is not in the archive: updateManifest succeeds, relic's own verifyManifest then refuses *)
Theorem jar_sign_then_verify_refuted : exists ms manifest', update_manifest Hid 5 [] ms = Ok manifest' /\ verify_manifest Hid all_avail manifest' ms = Err E_NOT_IN_JAR.
Proof.
  exists [(jar_manifest_name, [77; 45; 86; 58; 32; 49; 13; 10; 13; 10; 78; 97; 109; 101; 58; 32; 103; 13; 10; 88; 58; 32; 49; 13; 10; 13; 10]); ([97], [120])].
  eexists. split; [vm_compute; reflexivity|]. vm_compute. reflexivity.
Qed.

(* C03 / C08: for EVERY member name keepFile removes exactly META-INF/ itself (re-created) and the members the JAR specification makes signature
   related — MANIFEST.MF, *.SF, *.DSA, *.RSA, *.EC, SIG-* directly in META-INF/, letter case ignored; nothing below a sub-directory of
   META-INF/, no .SIG files, no path cleaning *)
Theorem jar_keepfile_eq_spec : forall n, jar_keep_file n = negb (bytes_eqb n jar_meta_inf || spec_sig_related n).
Proof. exact keep_file_eq_spec. Qed.
(* the JDK's isSigningRelated is narrower for SIG-* names (extension: none, or 1..3 letters / digits): whatever it calls signature related is
   removed, and the difference is exactly such names, e.g. META-INF/SIG-NOTES.text (removed by relic; replayed by the harness) *)
Theorem jar_jdk_related_is_removed : forall n, jdk_sig_related n = true -> jar_keep_file n = false.
Proof. intros n H. rewrite keep_file_eq_spec, (jdk_related_is_spec n H), orb_true_r. reflexivity. Qed.
Theorem jar_keepfile_sig_prefix_jdk_refuted : exists n, jar_keep_file n = false /\ spec_sig_related n = true /\ jdk_sig_related n = false.
Proof. exists [77; 69; 84; 65; 45; 73; 78; 70; 47; 83; 73; 71; 45; 78; 79; 84; 69; 83; 46; 116; 101; 120; 116]. repeat apply conj; vm_compute; reflexivity. Qed.
Example jar_keepfile_regressions :
  jar_keep_file [77; 69; 84; 65; 45; 73; 78; 70; 47; 78; 79; 84; 69; 83; 46; 83; 73; 71] = true /\        (* META-INF/NOTES.SIG *)
  jar_keep_file [77; 69; 84; 65; 45; 73; 78; 70; 47; 46; 47; 88; 46; 83; 70] = true /\                    (* META-INF/./X.SF *)
  jar_keep_file [77; 69; 84; 65; 45; 73; 78; 70; 47; 111; 108; 100; 46; 115; 102] = false /\              (* META-INF/old.sf *)
  jar_keep_file [77; 69; 84; 65; 45; 73; 78; 70; 47; 116; 114; 117; 115; 116; 47; 99; 97; 46; 82; 83; 65] = true.   (* META-INF/trust/ca.RSA *)
Proof. repeat apply conj; vm_compute; reflexivity. Qed.
(* C03 / C08: every member the specification classifies as payload is a member of the signed archive, with identical content, in the
   same order, and nothing else is payload there — after signing and, by iteration, after re-signing *)
Theorem jar_payload_kept : forall keytype alias ms manifest sf blob, alias_ok keytype alias ->
  filter (fun nc => spec_payload (fst nc)) (jar_embed keytype alias ms manifest sf blob) = filter (fun nc => spec_payload (fst nc)) ms.
Proof. exact payload_kept. Qed.
(* C08: of the old archive's members only those keepFile keeps are in the new one: old META-INF/*.SF|RSA|DSA|EC|SIG-* are dropped *)
Theorem jar_resign_drops_old_signature : forall keytype alias ms manifest sf blob n c,
  In (n, c) (skipn 4 (jar_embed keytype alias ms manifest sf blob)) -> In (n, c) ms /\ jar_keep_file n = true.
Proof.
  intros keytype alias ms manifest sf blob n c. unfold jar_embed. destruct (sig_names keytype alias) as [s p]. cbn [app skipn]. intros H. apply filter_In in H. exact H.
Qed.
(* C08: the member digests do not depend on the signature files already present *)
Theorem jar_digest_ignores_signature_files : forall H alg keytype alias ms manifest sf blob, alias_ok keytype alias ->
  df_digests H alg (jar_embed keytype alias ms manifest sf blob) [] = df_digests H alg ms [].
Proof.
  intros H alg keytype alias ms manifest sf blob Ha. unfold jar_embed, alias_ok in *. destruct (sig_names keytype alias) as [s p]. destruct Ha as (Hs & Hp & _).
  cbn [app df_digests].
  assert (E1 : hashed_name jar_meta_inf = false) by reflexivity.
  assert (E2 : hashed_name jar_manifest_name = false) by reflexivity.
  rewrite E1, E2, !dropped_not_hashed by assumption. apply df_digests_filter.
Qed.
(* C08: when every digested member already has its digest (and no directory section lacks one), updateManifest returns the manifest
   bytes unchanged: manifest sections stay stable under re-signing *)
Theorem jar_resign_manifest_stable : forall H alg order ms manifest m,
  df_manifest ms = Some manifest -> parse_manifest_m manifest = Ok (m, false) -> hash_name_of alg <> [] ->
  Forall (already_listed (hash_name_of alg ++ jar_um_digest_suffix) m) (reorder (df_digests H alg ms []) order) ->
  Forall (fun nh => jar_um_dir_needs (fst nh) (snd nh) (hash_name_of alg ++ jar_um_digest_suffix) = false) (fm_files m) ->
  update_manifest H alg order ms = Ok manifest.
Proof.
  intros H alg order ms manifest m Hman Hpm Hhn Hl Hd. unfold update_manifest. rewrite Hman. change (jar_um_no_manifest true) with false. cbv iota.
  rewrite Hpm. cbn [bind fst snd]. unfold jar_um_hash_unknown. rewrite (proj2 (bytes_eqb_neq _ []) Hhn).
  rewrite um_loop_noop by exact Hl. cbn [bind fst snd]. rewrite um_dirs_noop by exact Hd. reflexivity.
Qed.

(* C02: what an accepted signature binds *)
(* with the whole-manifest digest in the signature file, two manifests accepted under the same signature file are equal (collision
   freedom of the digest as an explicit premise) *)
Theorem jar_protect_manifest : forall H avail, (forall alg x y, H alg x = H alg y -> x = y) -> forall sf b1 b2 h1 h2 sfm,
  parse_manifest sf = Ok sfm -> hash_file H avail (fm_main sfm) b1 jar_vs_suffix_whole = Ok tt ->
  verify_sigfile H avail sf b1 = Ok h1 -> verify_sigfile H avail sf b2 = Ok h2 ->
  hash_file H avail (fm_main sfm) b2 jar_vs_suffix_whole <> Err E_NO_DIGESTS /\ b1 = b2.
Proof.
  intros H avail H_inj sf b1 b2 h1 h2 sfm Hp Hh1 _ Hv2. unfold verify_sigfile in Hv2. rewrite Hp in Hv2. cbn [bind] in Hv2.
  pose proof (hash_file_digests_found H avail _ b1 b2 _ Hh1) as Hne.
  split; [exact Hne|].
  destruct (hash_file H avail (fm_main sfm) b2 jar_vs_suffix_whole) as [[]|e|p] eqn:Hh2.
  - eapply hash_file_ok_binds; eassumption.
  - exfalso. unfold jar_vs_hard_error in Hv2. destruct (e =? 4) eqn:Ee; [apply Z.eqb_eq in Ee; subst; apply Hne; reflexivity|]. cbn [negb] in Hv2. discriminate.
  - discriminate.
Qed.
(* a manifest section without Magic binds the content of its member: two archives accepted under the same manifest have the same
   content for it, and the member exists *)
Theorem jar_protect_members : forall H avail, (forall alg x y, H alg x = H alg y -> x = y) -> forall files ms1 ms2 name keys,
  vm_files H avail files ms1 = Ok tt -> vm_files H avail files ms2 = Ok tt -> In (name, keys) files ->
  jar_vm_magic keys = false -> (jar_vm_is_dir name = false \/ mem_last ms1 name <> None /\ mem_last ms2 name <> None) ->
  mem_last ms1 name = mem_last ms2 name /\ mem_last ms1 name <> None.
Proof.
  intros H avail H_inj files ms1 ms2 name keys. induction files as [|[n k] r IH]; intros H1 H2 Hin Hm Hd; [contradiction|].
  apply vm_files_cons in H1 as [T1 F1], H2 as [T2 F2]. destruct Hin as [[= -> ->]|Hin]; [|now apply IH].
  specialize (F1 Hm). specialize (F2 Hm). destruct (mem_last ms1 name) as [c1|], (mem_last ms2 name) as [c2|]; [|destruct Hd as [Hd|[N1 N2]]; congruence..].
  rewrite (hash_file_ok_binds H avail H_inj keys c1 c2 [] F1 F2). split; [reflexivity|discriminate].
Qed.
(* what is NOT bound: members no section covers, members whose section carries Magic *)
Theorem jar_unlisted_member_refuted : exists ms1 ms2, verify_manifest Hid all_avail MAN1 ms1 = Ok tt /\ verify_manifest Hid all_avail MAN1 ms2 = Ok tt /\ mem_last ms1 [98] <> mem_last ms2 [98].
Proof. exists [([97], [120]); ([98], [1])], [([97], [120]); ([98], [2])]. repeat apply conj; vm_compute; (reflexivity || discriminate). Qed.
Theorem jar_magic_section_refuted : exists ms1 ms2, verify_manifest Hid all_avail MAN2 ms1 = Ok tt /\ verify_manifest Hid all_avail MAN2 ms2 = Ok tt /\ mem_last ms1 [97] <> mem_last ms2 [97].
Proof. exists [([97], [1])], [([97], [2])]. repeat apply conj; vm_compute; (reflexivity || discriminate). Qed.

(* without the whole-manifest digest (sections-only) a section appended to the manifest is covered by nothing *)
Theorem jar_sections_only_appended_refuted : exists sf b extra, extra <> [] /\
  verify_sigfile Hhex all_avail sf b = Ok (match parse_manifest sf with Ok m => fm_main m | _ => [] end) /\
  verify_sigfile Hhex all_avail sf (b ++ extra) = Ok (match parse_manifest sf with Ok m => fm_main m | _ => [] end).
Proof.
  set (b := [77; 45; 86; 58; 32; 49; 13; 10; 13; 10; 78; 97; 109; 101; 58; 32; 97; 13; 10; 88; 58; 32; 49; 13; 10; 13; 10]).
  exists (match digest_manifest Hhex 5 [114] true false b with Ok sf => sf | _ => [] end), b, [78; 97; 109; 101; 58; 32; 98; 13; 10; 88; 58; 32; 50; 13; 10; 13; 10].
  split; [discriminate|]. split; vm_compute; reflexivity.
Qed.

(* C11: no panic, for ALL byte strings *)
Theorem jar_split_total : forall b, exists r, split_manifest b = Ok r.
Proof. exact split_manifest_total. Qed.
Theorem jar_parse_section_no_panic : forall s, no_panic (parse_section s).
Proof. exact parse_section_no_panic. Qed.
Theorem jar_parse_no_panic : forall b, no_panic (parse_manifest_m b) /\ no_panic (parse_manifest b).
Proof. intros b. split; [apply parse_manifest_m_no_panic|apply parse_manifest_no_panic]. Qed.
Theorem jar_verify_sigfile_no_panic : forall H avail sf manifest, no_panic (verify_sigfile H avail sf manifest).
Proof.
  intros H avail sf manifest. unfold verify_sigfile. apply no_panic_bind; [apply parse_manifest_no_panic|]. intros sfm _.
  pose proof (hash_file_no_panic H avail (fm_main sfm) manifest jar_vs_suffix_whole) as Hh.
  destruct (hash_file H avail (fm_main sfm) manifest jar_vs_suffix_whole) as [u|e|p]; [exact I| |contradiction].
  destruct (jar_vs_hard_error e); [exact I|]. destruct (split_manifest_total manifest) as [r ->]. cbn [bind].
  destruct (jar_vs_refuses _); [exact I|]. apply no_panic_bind; [apply vs_sections_no_panic|]. intros smap _.
  apply no_panic_bind; [apply vs_check_no_panic|]. intros; exact I.
Qed.
Theorem jar_digest_manifest_no_panic : forall H alg cb so apk b, no_panic (digest_manifest H alg cb so apk b).
Proof.
  intros H alg cb so apk b. unfold digest_manifest. destruct (split_manifest_total b) as [r ->]. cbn [bind].
  destruct (jar_dm_refuses (snd r)); [exact I|]. unfold jar_dm_empty.
  destruct (fst r) as [|main rest]; [exact I|]. rewrite zlen_cons_eqb0.
  destruct (jar_dm_hash_unknown _); [exact I|]. rewrite !write_attr_opt, !write_attr_stream. cbn [bind].
  apply no_panic_bind; [apply dm_sections_no_panic|intros; exact I].
Qed.
(* the empty manifest (formerly an index panic) is an error *)
Example jar_digest_manifest_empty_regression : forall H, digest_manifest H 5 [] false false [] = Err E_EMPTY.
Proof. reflexivity. Qed.

(* the hypotheses are satisfiable *)
Definition ex_main : hdr := [(MV, [49; 46; 48]); ([67; 114; 101; 97; 116; 101; 100; 45; 66; 121], [120])].
Definition ex_sec : hdr := [(NAME, [97; 47; 98]); ([83; 104; 97; 45; 50; 53; 54; 45; 68; 105; 103; 101; 115; 116], [65; 66; 67; 61])].
Definition ex_fm : fmap := mkFmap ex_main [[97; 47; 98]] [([97; 47; 98], ex_sec)].
Example ex_dump : dump ex_fm = Ok ([77; 97; 110; 105; 102; 101; 115; 116; 45; 86; 101; 114; 115; 105; 111; 110; 58; 32; 49; 46; 48; 13; 10; 67; 114; 101; 97; 116; 101; 100; 45; 66; 121; 58; 32; 120; 13; 10; 13; 10]
  ++ [78; 97; 109; 101; 58; 32; 97; 47; 98; 13; 10; 83; 104; 97; 45; 50; 53; 54; 45; 68; 105; 103; 101; 115; 116; 58; 32; 65; 66; 67; 61; 13; 10; 13; 10]).
Proof. vm_compute. reflexivity. Qed.
(* C01 / C08 on a concrete archive (old META-INF/OLD.SF, nested META-INF/t/ca.RSA, one file): sign, verify, sign again with another key type and
   alias, verify; the old signature file is gone, the nested look-alike stays, the manifest bytes are the same after the second round *)
Example jar_sign_then_verify_example :
  (exists g, ex_signed false = Ok g /\ jar_verify Hhex all_avail (fun _ _ => true) false g = Ok tt /\
     map fst g = [jar_meta_inf; jar_manifest_name; jar_meta_inf ++ [82; 69; 76; 73; 67; 46; 83; 70]; jar_meta_inf ++ [82; 69; 76; 73; 67; 46; 82; 83; 65];
                  [104; 105; 46; 116; 120; 116]; [77; 69; 84; 65; 45; 73; 78; 70; 47; 116; 47; 99; 97; 46; 82; 83; 65]] /\
     exists g2, jar_sign Hhex 5 2 [120] [114] false false [] (fun sf => [2]) g = Ok g2 /\ jar_verify Hhex all_avail (fun _ _ => true) false g2 = Ok tt /\
       mem_last g2 jar_manifest_name = mem_last g jar_manifest_name /\ length g2 = length g).
Proof.
  exists ex_once. do 3 (apply conj; [vm_compute; reflexivity|]).
  exists ex_twice. repeat apply conj; vm_compute; reflexivity.
Qed.
Example alias_ok_inhabited : alias_ok 1 [82; 69; 76; 73; 67] /\ alias_ok 2 [115; 101; 99; 111; 110; 100] /\ alias_ok 3 [120].
Proof. exact alias_ok_relic. Qed.
Example nested_sig_like_name_is_kept : jar_keep_file [77; 69; 84; 65; 45; 73; 78; 70; 47; 116; 114; 117; 115; 116; 47; 99; 97; 46; 82; 83; 65] = true.
Proof. reflexivity. Qed.
