(* FmtJAR/ProofsE.v — the specification reader (JAR File Specification grammar) on what relic emits; DigestManifest's output. *)
From Relic Require Import Base.Prelude Base.Slice FmtJAR.Lib Generated.FmtJAR_gen FmtJAR.Model FmtJAR.ProofsA FmtJAR.ProofsB FmtJAR.ProofsC FmtJAR.ProofsD.

(* physical lines and their unfolding into logical lines, fused *)
Definition U (x : bytes) : bytes * list bytes * bool := spec_unfold (spec_lines x).
(* x read as the rest of a line that has already begun: (rest of that logical line, following logical lines, ok) *)
Definition FL (x : bytes) : bytes * list bytes * bool :=
  match spec_lines x with
  | h :: t => let '(p, done, ok) := spec_unfold t in (h ++ p, done, ok)
  | [] => ([], [], true)
  end.
Lemma spec_lines_cons x : exists h t, spec_lines x = h :: t.
Proof.
  induction x as [|c r IH]; [now eexists _, _|]. cbn [spec_lines]. destruct (c =? 10); [now eexists _, _|].
  destruct (c =? 13); [destruct r as [|d r']; [now eexists _, _|destruct (d =? 10); now eexists _, _]|].
  destruct IH as (h & t & ->). now eexists _, _.
Qed.
Lemma FL_plain c x : c <> 10 -> c <> 13 -> FL (c :: x) = let '(a, d, ok) := FL x in (c :: a, d, ok).
Proof.
  intros H10 H13. unfold FL. cbn [spec_lines]. replace (c =? 10) with false by lia. replace (c =? 13) with false by lia.
  destruct (spec_lines_cons x) as (h & t & ->).
  destruct (spec_unfold t) as [[p done] ok]. reflexivity.
Qed.
Lemma FL_wrap x : FL (13 :: 10 :: 32 :: x) = FL x.
Proof.
  unfold FL. change (spec_lines (13 :: 10 :: 32 :: x)) with ([] :: spec_lines (32 :: x)).
  cbn [spec_lines]. change (32 =? 10) with false. change (32 =? 13) with false. cbv iota.
  destruct (spec_lines_cons x) as (h & t & ->).
  cbn [spec_unfold]. destruct (spec_unfold t) as [[p done] ok]. change (32 =? 32) with true. cbv iota. reflexivity.
Qed.
Lemma FL_crlf x : FL (13 :: 10 :: x) = U x.
Proof.
  unfold FL, U. change (spec_lines (13 :: 10 :: x)) with ([] :: spec_lines x). cbv beta iota.
  destruct (spec_unfold (spec_lines x)) as [[p done] ok]. reflexivity.
Qed.
Lemma FL_stream k l rest : no_byte 10 l -> no_byte 13 l ->
  FL (stream k l ++ rest) = let '(a, d, ok) := U rest in (l ++ a, d, ok).
Proof.
  revert k; induction l as [|c r IH]; intros k H10 H13.
  - cbn [stream app]. rewrite FL_crlf. destruct (U rest) as [[a d] ok]. reflexivity.
  - apply no_byte_cons in H10 as [Hc10 Hr10]. apply no_byte_cons in H13 as [Hc13 Hr13]. destruct k as [|k'].
    + cbn [stream app]. rewrite FL_wrap. rewrite FL_plain by assumption. rewrite IH by assumption. destruct (U rest) as [[a d] ok]. reflexivity.
    + cbn [stream app]. rewrite FL_plain by assumption. rewrite IH by assumption. destruct (U rest) as [[a d] ok]. reflexivity.
Qed.
Lemma U_first c x : c <> 10 -> c <> 13 -> c <> 32 -> U (c :: x) = let '(a, d, ok) := FL (c :: x) in ([], a :: d, ok).
Proof.
  intros H10 H13 H32. unfold U, FL. cbn [spec_lines]. replace (c =? 10) with false by lia. replace (c =? 13) with false by lia.
  destruct (spec_lines_cons x) as (h & t & ->).
  cbn [spec_unfold]. destruct (spec_unfold t) as [[p done] ok]. replace (c =? 32) with false by lia. reflexivity.
Qed.
Lemma U_attr kv rest : valid_attr kv -> U (attr_text kv ++ rest) = let '(p, d, ok) := U rest in ([], (attr_line (fst kv) (snd kv) ++ p) :: d, ok).
Proof.
  intros [Hk Hv]. destruct (valid_line_first (fst kv) (snd kv) Hk) as (c & t & E & Hc). unfold printable in Hc.
  unfold attr_text. pose proof (valid_line_10 _ _ Hk Hv) as H10. pose proof (valid_line_13 _ _ Hk Hv) as H13.
  assert (Es : stream 70 (attr_line (fst kv) (snd kv)) ++ rest = c :: (stream 69 t ++ rest)) by (rewrite E; reflexivity).
  rewrite Es. rewrite U_first by lia. rewrite <- Es. rewrite FL_stream by assumption. destruct (U rest) as [[p d] ok]. reflexivity.
Qed.
Lemma U_blank rest : U (13 :: 10 :: rest) = let '(p, d, ok) := U rest in ([], [] :: d, ok && (zlen p =? 0)).
Proof.
  unfold U. change (spec_lines (13 :: 10 :: rest)) with ([] :: spec_lines rest). cbn [spec_unfold].
  destruct (spec_unfold (spec_lines rest)) as [[p d] ok]. reflexivity.
Qed.
Lemma U_nil : U [] = ([], [[]], true).
Proof. reflexivity. Qed.

Definition lines_of (a : list (bytes * bytes)) : list bytes := map (fun kv => attr_line (fst kv) (snd kv)) a.
Lemma U_attrs a rest : Forall valid_attr a -> forall d ok, U rest = ([], d, ok) ->
  U (concat (map attr_text a) ++ rest) = ([], lines_of a ++ d, ok).
Proof.
  intros H. induction H as [|kv r Hkv Hr IH]; intros d ok Hrest; [exact Hrest|].
  cbn [map concat lines_of]. rewrite <- app_assoc. rewrite U_attr by exact Hkv. rewrite (IH d ok Hrest). rewrite app_nil_r. reflexivity.
Qed.
Lemma U_secs secs : Forall good_sec secs ->
  U (concat (map sec_text secs)) = ([], concat (map (fun a => lines_of a ++ [[]]) secs) ++ [[]], true).
Proof.
  intros H. induction H as [|a r [Ha _] Hr IH]; [reflexivity|].
  cbn [map concat]. unfold sec_text at 1. rewrite <- !app_assoc. cbn [app].
  rewrite (U_attrs a _ Ha ([] :: concat (map (fun a0 => lines_of a0 ++ [[]]) r) ++ [[]]) true).
  - reflexivity.
  - rewrite U_blank, IH. reflexivity.
Qed.

Lemma spec_groups_sec a rest cur : (forall l, In l (lines_of a) -> l <> []) -> (cur <> [] \/ a <> []) ->
  spec_groups cur (lines_of a ++ [] :: rest) = (rev cur ++ lines_of a) :: spec_groups [] rest.
Proof.
  revert cur; induction a as [|kv r IH]; intros cur Hne Hc.
  - cbn [lines_of map app spec_groups]. destruct cur; [destruct Hc; contradiction|]. rewrite app_nil_r. reflexivity.
  - cbn [lines_of map app]. fold (lines_of r). destruct (attr_line (fst kv) (snd kv)) as [|c t] eqn:E.
    + exfalso. apply (Hne []); [left; exact E|reflexivity].
    + cbn [spec_groups]. rewrite IH.
      * cbn [rev]. rewrite <- app_assoc. reflexivity.
      * intros l Hl. apply Hne. right. exact Hl.
      * left. discriminate.
Qed.
Lemma spec_groups_secs secs : Forall good_sec secs ->
  spec_groups [] (concat (map (fun a => lines_of a ++ [[]]) secs) ++ [[]]) = map lines_of secs.
Proof.
  intros H. induction H as [|a r [Ha Hne] Hr IH]; [reflexivity|].
  cbn [map concat]. rewrite <- !app_assoc. cbn [app]. rewrite spec_groups_sec.
  - cbn [rev app]. rewrite IH. reflexivity.
  - intros l Hl. unfold lines_of in Hl. apply in_map_iff in Hl as (kv & <- & Hin). apply attr_line_nonempty.
  - right. exact Hne.
Qed.
Definition spec_attr_ok (kv : bytes * bytes) : Prop := valid_attr kv /\ spec_name_ok (fst kv) = true.
Lemma spec_header_line kv : spec_attr_ok kv -> spec_header (attr_line (fst kv) (snd kv)) = Some kv.
Proof.
  intros [[(_ & H58 & _) _] Hn]. destruct kv as [k v]. cbn [fst snd] in *. destruct (attr_line_cut k v H58) as (Ei & Ek & Ev).
  unfold spec_header. rewrite Ei, Ek, Ev. pose proof (zlen_nonneg k). replace (zlen k <? 0) with false by lia.
  now rewrite Hn.
Qed.
Lemma opt_all_some {A} (l : list A) : opt_all (map Some l) = Some l.
Proof. induction l as [|x r IH]; [reflexivity|]. cbn [map opt_all]. rewrite IH. reflexivity. Qed.
Lemma headers_sec a : Forall spec_attr_ok a -> opt_all (map spec_header (lines_of a)) = Some a.
Proof.
  intros H. unfold lines_of. rewrite map_map. transitivity (opt_all (map Some a)); [|apply opt_all_some]. f_equal.
  apply map_ext_in. intros kv Hin. apply spec_header_line. rewrite Forall_forall in H. apply H. exact Hin.
Qed.

(* C05 / C03: a reader that follows the JAR File Specification grammar reads, from the text relic emits for a list of sections,
   exactly the attributes that were emitted, in order *)
Theorem spec_read_secs secs : secs <> [] -> Forall (fun a => Forall spec_attr_ok a /\ a <> []) secs ->
  spec_read (concat (map sec_text secs)) = Some secs.
Proof.
  intros Hne H.
  assert (Hg : Forall good_sec secs).
  { eapply Forall_impl; [|exact H]. intros a [Ha Hn]. split; [|exact Hn]. eapply Forall_impl; [|exact Ha]. intros kv [Hv _]. exact Hv. }
  unfold spec_read.
  assert (Hend : ends_nl (concat (map sec_text secs)) = true).
  { destruct (exists_last Hne) as (front & lst & ->). rewrite map_app, concat_app. cbn [map concat]. rewrite app_nil_r.
    unfold sec_text. unfold ends_nl. rewrite !rev_app_distr. reflexivity. }
  rewrite Hend. cbn [negb]. fold (U (concat (map sec_text secs))). rewrite U_secs by exact Hg.
  change (zlen (@nil Z) =? 0) with true. cbn [negb orb]. rewrite spec_groups_secs by exact Hg. rewrite map_map.
  transitivity (opt_all (map Some secs)); [|apply opt_all_some]. f_equal. apply map_ext_in. intros a Hin.
  rewrite Forall_forall in H. destruct (H a Hin) as [Ha _]. apply headers_sec. exact Ha.
Qed.

(* DigestManifest on emitted manifests: the signature file, attribute by attribute *)
Section SF.
  Variable H : Z -> bytes -> bytes.
  Variable alg : Z.
  Variable cb : bytes.
  Let hn := hash_name_of alg.
  Definition sf_file_ok (a : list (bytes * bytes)) : Prop := valid_attrs a /\ a <> [] /\ hget a NAME <> [].
  (* the arguments DigestManifest passes to writeAttribute, as generated from its source *)
  Definition KM (main : list (bytes * bytes)) (T : bytes) (f : (bytes -> bytes) -> bytes -> bytes -> bytes -> bytes -> bytes -> bytes -> bytes) : bytes :=
    f (H alg) hn (sec_text main) T [] cb [].
  Definition KF (a : list (bytes * bytes)) (f : (bytes -> bytes) -> bytes -> bytes -> bytes -> bytes -> bytes -> bytes -> bytes) : bytes :=
    f (H alg) hn [] [] (sec_text a) [] (hget a NAME).
  Definition sf_file_text (a : list (bytes * bytes)) : bytes :=
    attr_text (KF a jar_dm_k5, KF a jar_dm_v5) ++ attr_text (KF a jar_dm_k6, KF a jar_dm_v6) ++ [13; 10].
  Definition sf_text (so apk : bool) (main : list (bytes * bytes)) (files : list (list (bytes * bytes))) : bytes :=
    let T := concat (map sec_text (main :: files)) in
    attr_text (KM main T jar_dm_k0, KM main T jar_dm_v0) ++ attr_text (KM main T jar_dm_k1, KM main T jar_dm_v1) ++
    (if so then [] else attr_text (KM main T jar_dm_k2, KM main T jar_dm_v2)) ++
    attr_text (KM main T jar_dm_k3, KM main T jar_dm_v3) ++
    (if apk then attr_text (KM main T jar_dm_k4, KM main T jar_dm_v4) else []) ++ [13; 10] ++
    concat (map sf_file_text files).

  Lemma dm_sections_files files : Forall sf_file_ok files ->
    dm_sections H alg hn (map sec_text files) = Ok (concat (map sf_file_text files)).
  Proof.
    intros Hf. induction Hf as [|a r (Hv & Hne & Hname) Hr IH]; [reflexivity|].
    cbn [map dm_sections]. rewrite parse_section_valid by exact Hv. cbn [bind].
    change jar_dm_name_key with NAME. unfold jar_dm_name_missing.
    rewrite (proj2 (bytes_eqb_neq _ []) Hname).
    rewrite !write_attr_stream. cbn [bind]. rewrite IH. cbn [bind concat]. change jar_dm_sec_end with [13; 10].
    unfold sf_file_text, KF, attr_text. cbn [fst snd]. rewrite <- !app_assoc. reflexivity.
  Qed.

End SF.
