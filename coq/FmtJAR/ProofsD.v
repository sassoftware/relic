(* FmtJAR/ProofsD.v — parseManifest (Dump m) gives the structure back; Dump (ParseManifest b) = b on relic-emitted manifests, because
   writeSection's attribute order is a normal form. *)
From Relic Require Import Base.Prelude Base.Lists Base.Slice FmtJAR.Lib Generated.FmtJAR_gen FmtJAR.Model FmtJAR.ProofsA FmtJAR.ProofsB FmtJAR.ProofsC.

(* the structures the round-trip theorems speak about *)
Definition sec_ok (nh : bytes * hdr) : Prop :=
  valid_attrs (ws_attrs (snd nh) NAME) /\ hget (snd nh) NAME = fst nh /\ fst nh <> [].
Record valid_fm (m : fmap) : Prop := {
  vf_main : valid_attrs (ws_attrs (fm_main m) MV);
  vf_main_ne : ws_attrs (fm_main m) MV <> [];
  vf_order : map fst (fm_files m) = fm_order m;
  vf_nodup : NoDup (fm_order m);
  vf_secs : Forall sec_ok (fm_files m) }.
(* what parsing gives back: the same attributes, each header listed in Dump's order *)
Definition norm_sec (nh : bytes * hdr) : bytes * hdr := (fst nh, ws_attrs (snd nh) NAME).
Definition norm_fm (m : fmap) : fmap := mkFmap (ws_attrs (fm_main m) MV) (fm_order m) (map norm_sec (fm_files m)).

Lemma ws_attrs_name h name : hget h NAME = name -> name <> [] -> exists rest, ws_attrs h NAME = (NAME, name) :: rest.
Proof.
  intros E Hne. unfold ws_attrs. rewrite E. unfold jar_ws_first_present.
  rewrite (proj2 (bytes_eqb_neq name []) Hne). cbn [negb app]. eexists. reflexivity.
Qed.
Lemma sec_ok_good nh : sec_ok nh -> good_sec (ws_attrs (snd nh) NAME).
Proof.
  intros ([Hv _] & Hn & Hne). split; [exact Hv|]. destruct (ws_attrs_name _ _ Hn Hne) as [rest E]. rewrite E. discriminate.
Qed.
Lemma valid_fm_good m : valid_fm m -> Forall good_sec (dump_attrs m).
Proof.
  intros [Hm Hmne _ _ Hs]. unfold dump_attrs. constructor; [split; [apply Hm|exact Hmne]|].
  rewrite Forall_map. eapply Forall_impl; [|exact Hs]. apply sec_ok_good.
Qed.
Lemma files_set_notin fs n h : ~ In n (map fst fs) -> files_set fs n h = fs ++ [(n, h)].
Proof.
  induction fs as [|[n' h'] r IH]; intros H; [reflexivity|]. cbn [files_set]. cbn in H.
  destruct (bytes_eqb n' n) eqn:E; [apply bytes_eqb_eq in E; subst; tauto|]. rewrite IH by tauto. reflexivity.
Qed.

Lemma pm_loop_files fs : Forall sec_ok fs -> forall i acc, 0 < i -> NoDup (map fst (fm_files acc) ++ map fst fs) ->
  pm_loop i (map (fun nh => sec_text (ws_attrs (snd nh) NAME)) fs) acc =
  Ok (mkFmap (fm_main acc) (fm_order acc ++ map fst fs) (fm_files acc ++ map norm_sec fs)).
Proof.
  intros H. induction H as [|[n h] r Hok Hr IH]; intros i acc Hi Hn.
  - cbn [map pm_loop]. rewrite !app_nil_r. destruct acc; reflexivity.
  - cbn [map pm_loop fst snd].
    pose proof (sec_ok_good _ Hok) as Hg. cbn [snd] in Hg. pose proof (sec_text_len _ Hg) as Hlen.
    unfold jar_pm_skip. replace (zlen (sec_text (ws_attrs h NAME)) =? 0) with false by lia. rewrite andb_false_r.
    destruct Hok as (Hv & Hname & Hne). cbn [fst snd] in Hv, Hname, Hne.
    rewrite parse_section_valid by exact Hv. cbn [bind]. unfold jar_pm_is_main. replace (i =? 0) with false by lia.
    destruct (ws_attrs_name h n Hname Hne) as [rest E].
    assert (Hget : hget (ws_attrs h NAME) jar_pm_name_key = n).
    { rewrite E. unfold hget. change (jcanon jar_pm_name_key) with NAME. cbn [hraw_get]. rewrite bytes_eqb_refl. reflexivity. }
    rewrite Hget. unfold jar_pm_name_missing. rewrite (proj2 (bytes_eqb_neq n []) Hne).
    cbn [map fst] in Hn.
    assert (Hnot : ~ In n (map fst (fm_files acc))).
    { apply NoDup_remove_2 in Hn. rewrite in_app_iff in Hn. tauto. }
    rewrite files_set_notin by exact Hnot.
    rewrite IH; [|lia|].
    + cbn [fm_main fm_order fm_files]. rewrite <- !app_assoc. reflexivity.
    + cbn [fm_files]. rewrite map_app. cbn [map fst]. rewrite <- app_assoc. cbn [app].
      (* move n from the middle to the accumulated side *)
      apply NoDup_remove in Hn as [Hn1 Hn2]. apply NoDup_Add with (a := n) (l := map fst (fm_files acc) ++ map fst r); [|split; assumption].
      apply Add_app.
Qed.

(* C03: parsing what Dump wrote gives the structure back: same section order, same attributes *)
Theorem parse_dump m b : valid_fm m -> dump m = Ok b -> parse_manifest_m b = Ok (norm_fm m, false).
Proof.
  intros Hv Hd. pose proof (valid_fm_good m Hv) as Hgood. destruct Hv as [Hm Hmne Ho Hnd Hs].
  rewrite dump_text in Hd by assumption. apply Ok_inj in Hd as <-.
  unfold parse_manifest_m. rewrite split_manifest_secs by exact Hgood. cbn [bind fst snd].
  unfold jar_pm_no_sections, dump_attrs. cbn [map]. rewrite zlen_cons_eqb0.
  cbn [pm_loop]. unfold jar_pm_skip. cbn [Z.gtb Z.compare andb]. rewrite parse_section_valid by exact Hm. cbn [bind].
  change (jar_pm_is_main 0) with true. cbv iota. rewrite map_map.
  rewrite (pm_loop_files (fm_files m) Hs); [|lia|cbn [fm_files app]; rewrite Ho; exact Hnd].
  cbn [bind fm_main fm_order fm_files app]. unfold norm_fm. rewrite Ho. reflexivity.
Qed.
Theorem parse_dump_public m b : valid_fm m -> dump m = Ok b -> parse_manifest b = Ok (norm_fm m).
Proof. intros Hv Hd. unfold parse_manifest. rewrite (parse_dump m b Hv Hd). reflexivity. Qed.

(* sort.Strings leaves a sorted list alone *)
Fixpoint sorted (l : list bytes) : bool :=
  match l with
  | x :: r => match r with y :: _ => bytes_leb x y && sorted r | [] => true end
  | [] => true
  end.
Lemma bytes_leb_total a : forall b, bytes_leb a b = false -> bytes_leb b a = true.
Proof.
  induction a as [|x a IH]; intros b H; [discriminate|]. destruct b as [|y b]; [reflexivity|]. cbn [bytes_leb] in *.
  destruct (x <? y) eqn:E1; [discriminate|]. destruct (y <? x) eqn:E2; [reflexivity|]. apply IH. exact H.
Qed.
Lemma sins_sorted k l : sorted l = true -> sorted (sins k l) = true.
Proof.
  induction l as [|x r IH]; intros H; [reflexivity|]. cbn [sins]. destruct (bytes_leb k x) eqn:E.
  - cbn [sorted]. rewrite E. exact H.
  - pose proof (bytes_leb_total k x E) as Hxk. cbn [sorted] in H. destruct r as [|y r'].
    + cbn [sins sorted]. rewrite Hxk. reflexivity.
    + apply andb_true_iff in H as [Hxy Hr]. specialize (IH Hr). cbn [sins] in IH |- *. destruct (bytes_leb k y) eqn:E2.
      * cbn [sorted] in IH |- *. rewrite Hxk. exact IH.
      * cbn [sorted] in IH |- *. rewrite Hxy. exact IH.
Qed.
Lemma jsort_sorted l : sorted (jsort l) = true.
Proof. induction l as [|x r IH]; [reflexivity|]. cbn [jsort fold_right]. apply sins_sorted. exact IH. Qed.
Lemma jsort_id l : sorted l = true -> jsort l = l.
Proof.
  induction l as [|x r IH]; intros H; [reflexivity|]. cbn [jsort fold_right]. fold (jsort r). cbn [sorted] in H. destruct r as [|y r'].
  - reflexivity.
  - apply andb_true_iff in H as [Hxy Hr]. rewrite IH by exact Hr. cbn [sins]. rewrite Hxy. reflexivity.
Qed.

Lemma hraw_get_map_lookup (f : bytes -> bytes) ks k :
  hraw_get (map (fun x => (x, f x)) ks) k = if existsb (fun x => bytes_eqb x k) ks then Some (f k) else None.
Proof.
  induction ks as [|x r IH]; [reflexivity|]. cbn [map hraw_get existsb]. destruct (bytes_eqb x k) eqn:E.
  - apply bytes_eqb_eq in E. subst. reflexivity.
  - cbn [orb]. exact IH.
Qed.
Lemma in_sins k x l : In x (sins k l) <-> k = x \/ In x l.
Proof. induction l as [|y r IH]; cbn [sins]; [reflexivity|]. destruct (bytes_leb k y); cbn [In]; [reflexivity|]. rewrite IH. tauto. Qed.
Lemma in_jsort x l : In x (jsort l) <-> In x l.
Proof. induction l as [|y r IH]; [reflexivity|]. cbn [jsort fold_right]. fold (jsort r). now rewrite in_sins, IH. Qed.
Lemma ws_keys_sorted h first : sorted (ws_keys h first) = true.
Proof. exact (jsort_sorted _). Qed.
Lemma ws_keys_not_first h first : ~ In first (ws_keys h first).
Proof.
  unfold ws_keys. change jar_ws_sorts with true. cbv iota. rewrite in_jsort. intros H. apply in_map_iff in H as ([k v] & E & Hin). cbn [fst] in E. subst k.
  apply filter_In in Hin as [_ Hf]. cbn [fst] in Hf. unfold jar_ws_skip_key in Hf. rewrite bytes_eqb_refl in Hf. discriminate.
Qed.
Lemma existsb_in ks k : In k ks -> existsb (fun x => bytes_eqb x k) ks = true.
Proof. intros H. apply existsb_exists. exists k. split; [exact H|apply bytes_eqb_refl]. Qed.
Lemma existsb_notin ks k : ~ In k ks -> existsb (fun x => bytes_eqb x k) ks = false.
Proof.
  intros H. destruct (existsb (fun x => bytes_eqb x k) ks) eqn:E; [|reflexivity]. apply existsb_exists in E as (x & Hin & Ex). apply bytes_eqb_eq in Ex. subst. contradiction.
Qed.

(* writeSection's order is a normal form: emitting the attributes in that order and reading them back changes nothing *)
Theorem ws_attrs_idem h first : jcanon first = first -> ws_attrs (ws_attrs h first) first = ws_attrs h first.
Proof.
  intros Hc. set (val := fun k => match hraw_get h k with Some v => v | None => [] end).
  set (ks := ws_keys h first).
  assert (Hrest : ws_rest h first = map (fun k => (k, val k)) ks) by reflexivity.
  assert (Hnf : ~ In first ks) by apply ws_keys_not_first.
  assert (Hshape : ws_attrs h first = (if jar_ws_first_present (hget h first) then [(first, hget h first)] else []) ++ map (fun k => (k, val k)) ks) by reflexivity.
  (* keys of the normal form other than `first`, and their values *)
  assert (Hkeys : ws_keys (ws_attrs h first) first = ks).
  { unfold ws_keys at 1. change jar_ws_sorts with true. cbv iota. rewrite Hshape, filter_app, map_app.
    rewrite (filter_all _ (map _ ks)), map_map, map_id.
    - destruct (jar_ws_first_present (hget h first)); [cbn [filter fst]; unfold jar_ws_skip_key at 1; rewrite bytes_eqb_refl|];
        cbn [negb filter map app]; apply jsort_id, ws_keys_sorted.
    - intros kv (k & <- & Hk)%in_map_iff. cbn [fst]. unfold jar_ws_skip_key. apply negb_true_iff, bytes_eqb_neq. intros ->. contradiction. }
  assert (Hval : forall k, In k ks -> match hraw_get (ws_attrs h first) k with Some v => v | None => [] end = val k).
  { intros k Hk. rewrite Hshape. assert (Hkf : bytes_eqb first k = false) by (apply bytes_eqb_neq; intros ->; contradiction).
    destruct (jar_ws_first_present (hget h first)); cbn [app hraw_get]; rewrite ?Hkf; rewrite hraw_get_map_lookup, existsb_in by exact Hk; reflexivity. }
  assert (Hfirst : hget (ws_attrs h first) first = hget h first).
  { unfold hget at 1. rewrite Hc. rewrite Hshape. destruct (jar_ws_first_present (hget h first)) eqn:Ep.
    - cbn [app hraw_get]. rewrite bytes_eqb_refl. reflexivity.
    - cbn [app]. rewrite hraw_get_map_lookup, existsb_notin by exact Hnf. unfold jar_ws_first_present in Ep. apply negb_false_iff in Ep. apply bytes_eqb_eq in Ep. symmetry. exact Ep. }
  unfold ws_attrs at 1. rewrite Hfirst. unfold ws_rest. rewrite Hkeys. rewrite Hshape. f_equal.
  apply map_ext_in. intros k Hk. f_equal. apply Hval. exact Hk.
Qed.

