(* FmtJAR/ProofsH.v — member level: payload members survive signing; the lemmas behind "digests ignore signature files", "re-signing
   leaves a complete manifest untouched" and, for C02, what an accepted digest binds. *)
From Relic Require Import Base.Prelude Base.Slice FmtJAR.Lib Generated.FmtJAR_gen FmtJAR.Model FmtJAR.ProofsA FmtJAR.ProofsB FmtJAR.ProofsC FmtJAR.ProofsG.

Definition spec_payload (n : bytes) : bool := negb (spec_sig_related n) && negb (bytes_eqb n jar_meta_inf).

(* C03: a member the specification classifies as payload is kept by keepFile — every name *)
Theorem payload_is_kept n : spec_payload n = true -> jar_keep_file n = true.
Proof.
  unfold spec_payload. intros H. apply andb_true_iff in H as [Hs Hm]. apply negb_true_iff in Hs, Hm. rewrite keep_file_eq_spec, Hs, Hm. reflexivity.
Qed.

Definition alias_ok (keytype : Z) (alias : bytes) : Prop :=
  let '(s, p) := sig_names keytype alias in
  jar_keep_file (jar_meta_inf ++ s) = false /\ jar_keep_file (jar_meta_inf ++ p) = false /\
  spec_sig_related (jar_meta_inf ++ s) = true /\ spec_sig_related (jar_meta_inf ++ p) = true.

Lemma filter_filter_payload (ms : members) :
  filter (fun nc => spec_payload (fst nc)) (filter (fun nc => jar_keep_file (fst nc)) ms) = filter (fun nc => spec_payload (fst nc)) ms.
Proof.
  induction ms as [|[n c] r IH]; [reflexivity|]. cbn [filter fst].
  destruct (spec_payload n) eqn:Ep.
  - rewrite (payload_is_kept n Ep). cbn [filter fst]. rewrite Ep. rewrite IH. reflexivity.
  - destruct (jar_keep_file n); [cbn [filter fst]; rewrite Ep|]; apply IH.
Qed.
(* C03 / C08: every payload member of the input is a member of the signed archive, with its content, in the same order;
   nothing else is payload there *)
Theorem payload_kept keytype alias ms manifest sf blob : alias_ok keytype alias ->
  filter (fun nc => spec_payload (fst nc)) (jar_embed keytype alias ms manifest sf blob) = filter (fun nc => spec_payload (fst nc)) ms.
Proof.
  intros Ha. unfold jar_embed, alias_ok in *. destruct (sig_names keytype alias) as [s p]. destruct Ha as (_ & _ & Hs & Hp).
  rewrite filter_app. rewrite filter_filter_payload.
  assert (E1 : spec_payload jar_meta_inf = false) by reflexivity.
  assert (E2 : spec_payload jar_manifest_name = false) by reflexivity.
  assert (E3 : spec_payload (jar_meta_inf ++ s) = false) by (unfold spec_payload; rewrite Hs; reflexivity).
  assert (E4 : spec_payload (jar_meta_inf ++ p) = false) by (unfold spec_payload; rewrite Hp; reflexivity).
  cbn [filter fst]. rewrite E1, E2, E3, E4. reflexivity.
Qed.
Section WithHash.
  Variable H : Z -> bytes -> bytes.
  Variable avail : Z -> bool.
  Lemma dropped_not_hashed n : jar_keep_file n = false -> hashed_name n = false.
  Proof. intros E. unfold hashed_name, jar_df_not_hashed. rewrite E. cbn [negb]. now rewrite orb_true_r, andb_false_r. Qed.
  Lemma df_digests_filter alg ms : forall acc, df_digests H alg (filter (fun nc => jar_keep_file (fst nc)) ms) acc = df_digests H alg ms acc.
  Proof.
    induction ms as [|[n c] r IH]; intros acc; [reflexivity|]. cbn [filter fst df_digests].
    destruct (jar_keep_file n) eqn:Ek; [cbn [df_digests]|rewrite (dropped_not_hashed n Ek)]; apply IH.
  Qed.
  (* re-signing: when every digested member already has its digest and no directory section lacks one, the manifest bytes stay *)
  Definition already_listed (hash_name : bytes) (m : fmap) (d : bytes * bytes) : Prop :=
    exists attrs, files_get (fm_files m) (fst d) = Some attrs /\
                  (jar_um_magic attrs = true \/ (jar_um_existing attrs hash_name <> [] /\ jar_um_existing attrs hash_name = snd d)).
  Lemma um_loop_noop hash_name digs m : Forall (already_listed hash_name m) digs -> forall changed,
    um_loop hash_name digs m changed = Ok (m, changed).
  Proof.
    intros Hd. induction Hd as [|[n c] r (attrs & Hg & Hc) Hr IH]; intros changed; [reflexivity|].
    cbn [um_loop fst snd] in *. rewrite Hg. change (jar_um_new_section true) with false. cbv iota.
    destruct Hc as [Hm|[Hne He]].
    - rewrite Hm. apply IH.
    - destruct (jar_um_magic attrs); [apply IH|]. unfold jar_um_has_existing, jar_um_mismatch.
      rewrite (proj2 (bytes_eqb_neq _ []) Hne). cbn [negb].
      rewrite He. rewrite bytes_eqb_refl. cbn [negb]. apply IH.
  Qed.
  Lemma um_dirs_noop alg hash_name fs : Forall (fun nh => jar_um_dir_needs (fst nh) (snd nh) hash_name = false) fs ->
    um_dirs H alg hash_name fs = (fs, false).
  Proof.
    intros Hf. induction Hf as [|[n a] r Hn Hr IH]; [reflexivity|]. cbn [um_dirs fst snd] in *. rewrite IH, Hn. reflexivity.
  Qed.
  (* what an accepted manifest says about its first section; the remaining sections are accepted too *)
  Lemma vm_files_cons name keys r ms : vm_files H avail ((name, keys) :: r) ms = Ok tt ->
    vm_files H avail r ms = Ok tt /\
    (jar_vm_magic keys = false ->
     match mem_last ms name with Some c => hash_file H avail keys c [] = Ok tt | None => jar_vm_is_dir name = true end).
  Proof.
    cbn [vm_files]. destruct (jar_vm_magic keys); [intros ->; split; [reflexivity|discriminate]|].
    change (jar_vm_missing false) with true. change (jar_vm_missing true) with false. cbv iota.
    destruct (mem_last ms name) as [c|].
    - destruct (hash_file H avail keys c []) as [[]| |]; cbn [bind]; try discriminate. auto.
    - destruct (jar_vm_is_dir name); [|discriminate].
      destruct (if has_digest keys then hash_file H avail keys [] [] else Ok tt) as [[]| |]; cbn [bind]; try discriminate. auto.
  Qed.
  (* whether hashFile finds a digest attribute at all depends on the attribute names alone *)
  Lemma hash_file_digests_found keys c1 c2 suffix : hash_file H avail keys c1 suffix = Ok tt -> hash_file H avail keys c2 suffix <> Err E_NO_DIGESTS.
  Proof.
    unfold hash_file. destruct (hf_collect avail (jar_hf_suffix suffix) keys) as [ds| |]; cbn [bind]; try discriminate.
    destruct (jar_hf_none (zlen ds)); [discriminate|]. intros _. match goal with |- context [existsb ?f ds] => destruct (existsb f ds) end; discriminate.
  Qed.
  Hypothesis H_inj : forall alg x y, H alg x = H alg y -> x = y.        (* collision freedom, as an explicit premise *)

  Lemma hash_file_ok_binds keys c1 c2 suffix : hash_file H avail keys c1 suffix = Ok tt -> hash_file H avail keys c2 suffix = Ok tt -> c1 = c2.
  Proof.
    unfold hash_file. destruct (hf_collect avail (jar_hf_suffix suffix) keys) as [ds| |]; cbn [bind]; try discriminate.
    destruct (jar_hf_none (zlen ds)) eqn:En; [discriminate|]. intros H1 H2.
    destruct ds as [|[[k v] alg] r]; [discriminate|]. cbn [existsb fst snd] in H1, H2. unfold jar_hf_mismatch in *.
    destruct (bytes_eqb (H alg c1) v) eqn:E1; cbn [negb orb] in H1; [|discriminate].
    destruct (bytes_eqb (H alg c2) v) eqn:E2; cbn [negb orb] in H2; [|discriminate].
    apply bytes_eqb_eq in E1, E2. apply (H_inj alg). congruence.
  Qed.
End WithHash.
