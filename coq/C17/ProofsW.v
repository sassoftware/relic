(* C17/ProofsW.v — archives written by relic's NewFile / AddFile / WriteDirectory are APPNOTE archives of class K,
   hence (C17/ProofsCD.v) read back identically. *)
From Relic Require Import Base.Prelude Base.Enc Generated.C17_gen C17.Model C17.Bytes C17.Proofs C17.ProofsCD Base.Slice.

Definition nf_ent (c : nfcall) (off : Z) : cdent :=
  mkEnt nf_creator (if c_desc c then nf_desc_reader else nf_reader0) (if c_desc c then nf_desc_flags else 0)
        (c_method c) (c_mtime c) (c_mdate c) (c_crc c) (zlen (c_cdata c)) (c_usize c) (c_name c) (c_extra c) [] 0 0 off [].

Lemma new_file_snd c :
  snd (new_file (c_name c) (c_extra c) (c_cdata c) (c_usize c) (c_crc c) (c_method c) (c_mtime c) (c_mdate c) (c_desc c)) = nf_ent c 0.
Proof. unfold new_file, nf_ent, nf_desc_branch. cbn [snd]. destruct (c_desc c); reflexivity. Qed.

Lemma new_file_local c : call_ok c ->
  fst (new_file (c_name c) (c_extra c) (c_cdata c) (c_usize c) (c_crc c) (c_method c) (c_mtime c) (c_mdate c) (c_desc c)) = sp_local (nf_member c).
Proof.
  intros (Hn & He & Hcrc & Hcs & Hus & _).
  pose proof (zlen_nonneg (c_name c)). pose proof (zlen_nonneg (c_extra c)). pose proof (zlen_nonneg (c_cdata c)).
  unfold new_file, sp_local. cbn [fst]. unfold sp_lfh, sp_lextra, sp_desc, sp_flags, has_desc, sp_csize, nf_member.
  cbn [m_desc m_lz64 m_lextra m_flags m_reader m_method m_mtime m_mdate m_crc m_data m_usize m_name].
  unfold new_file_lfh, nf_lfh, nf_desc_branch, nf_fill_lfh, nf_write_desc, nf_lfh_crc, nf_lfh_csize, nf_lfh_usize.
  rewrite (u16_small (zlen (c_name c))), (u16_small (zlen (c_extra c))) by lia.
  destruct (c_desc c); cbn [negb].
  - reflexivity.
  - cbn [set_field lfh_widths]. rewrite (u32_small (zlen (c_cdata c))), (u32_small (c_usize c)) by lia.
    cbn [desc_enc]. reflexivity.
Qed.

Lemma regen_nf c off : call_ok c -> 0 <= off < 4294967295 -> regen_header (nf_ent c off) = sp_central (nf_member c) off.
Proof.
  intros (Hn & He & Hcrc & Hcs & Hus & _) Ho.
  pose proof (zlen_nonneg (c_name c)). pose proof (zlen_nonneg (c_extra c)). pose proof (zlen_nonneg (c_cdata c)).
  unfold regen_header, nf_ent. cbn [e_csize e_usize e_offset e_creator e_reader e_flags e_method e_mtime e_mdate e_crc e_iattrs e_eattrs e_name e_extra e_comment].
  unfold gdh_promote. replace (zlen (c_cdata c) >=? 4294967295) with false by lia. replace (c_usize c >=? 4294967295) with false by lia.
  replace (off >=? 4294967295) with false by lia. cbn [orb]. cbv iota.
  unfold sp_central, sp_cdh, sp_cextra, sp_z64rec, sat, sp_csize, sp_flags, has_desc, nf_member, A_M32.
  cbn [m_satu m_satc m_sato m_usize m_data m_z64last m_cextra m_name m_comment m_creator m_reader m_flags m_desc m_method m_mtime m_mdate m_crc m_disk m_iattrs m_eattrs].
  replace (zlen (c_cdata c) >=? 4294967295) with false by lia. replace (c_usize c >=? 4294967295) with false by lia.
  replace (off >=? 4294967295) with false by lia. cbn [orb app]. change (zlen (@nil Z) =? 0) with true. cbv iota. cbn [app].
  unfold gdh_hdr. rewrite (u32_small (zlen (c_cdata c))), (u32_small (c_usize c)), (u32_small off) by lia.
  rewrite (u16_small (zlen (c_name c))), (u16_small (zlen (c_extra c))) by lia. change (zlen (@nil Z)) with 0. change (u16 0) with 0.
  destruct (c_desc c); reflexivity.
Qed.

Fixpoint nf_ents (cs : list nfcall) (s : Z) : list cdent :=
  match cs with [] => [] | c :: r => nf_ent c s :: nf_ents r (s + zlen (sp_local (nf_member c))) end.

Lemma fresh_fold : forall cs fs dl buf, Forall call_ok cs ->
  fold_left fresh_step cs (fs, dl, buf) =
  (fs ++ nf_ents cs dl, dl + zlen (locals (map nf_member cs)), buf ++ locals (map nf_member cs)).
Proof.
  induction cs as [|c cs IH]; intros fs dl buf Hok.
  - cbn. change (zlen (@nil Z)) with 0. now rewrite !app_nil_r, Z.add_0_r.
  - inversion Hok as [|? ? Hc Hcs]; subst. cbn [fold_left map nf_ents]. rewrite locals_cons.
    unfold fresh_step at 2. cbn [fst snd]. rewrite new_file_snd, (new_file_local c Hc).
    unfold add_file. cbn [fst snd]. unfold af_offset, af_advances_dirloc.
    rewrite IH by assumption. rewrite zlen_app, <- !app_assoc. cbn [app].
    assert (E : forall x : bool, mkEnt (e_creator (nf_ent c 0)) (e_reader (nf_ent c 0)) (e_flags (nf_ent c 0)) (e_method (nf_ent c 0)) (e_mtime (nf_ent c 0))
                 (e_mdate (nf_ent c 0)) (e_crc (nf_ent c 0)) (e_csize (nf_ent c 0)) (e_usize (nf_ent c 0)) (e_name (nf_ent c 0)) (e_extra (nf_ent c 0))
                 (e_comment (nf_ent c 0)) (e_iattrs (nf_ent c 0)) (e_eattrs (nf_ent c 0)) dl (if x then [] else e_raw (nf_ent c 0)) = nf_ent c dl)
      by (intros x; unfold nf_ent; cbn; destruct x; reflexivity).
    rewrite E. rewrite Z.add_assoc. reflexivity.
Qed.

Lemma nf_ents_cd : forall cs s, Forall call_ok cs -> 0 <= s ->
  s + zlen (locals (map nf_member cs)) < 4294967295 ->
  cd_bytes (nf_ents cs s) = centrals (combine (map nf_member cs) (sp_offsets s [] (map nf_member cs))).
Proof.
  induction cs as [|c cs IH]; intros s Hok Hs Hb; [reflexivity|].
  inversion Hok as [|? ? Hc Hcs]; subst. cbn [map] in *. rewrite locals_cons, zlen_app in Hb.
  pose proof (zlen_nonneg (sp_local (nf_member c))). pose proof (zlen_nonneg (locals (map nf_member cs))).
  rewrite sp_offsets_plain. cbn [nf_ents combine].
  unfold cd_bytes, centrals in *. cbn [map concat fst snd]. f_equal.
  - unfold dir_header. unfold nf_ent at 1. cbn [e_raw]. change (gdh_use_raw (zlen (@nil Z))) with false. cbv iota.
    apply regen_nf; [assumption|lia].
  - apply IH; [assumption|lia|lia].
Qed.

Lemma wd_min_version_nf : forall cs s mv, (mv = 20 \/ mv = 45) ->
  fold_left (fun mv f => if wd_version_raise (e_reader f) mv then e_reader f else mv) (nf_ents cs s) mv =
  if existsb c_desc cs then 45 else mv.
Proof.
  induction cs as [|c cs IH]; intros s mv Hmv; [reflexivity|].
  cbn [nf_ents fold_left existsb e_reader nf_ent]. unfold wd_version_raise, nf_desc_reader, nf_reader0. rewrite IH.
  - destruct (c_desc c), Hmv as [-> | ->]; cbn; now destruct (existsb c_desc cs).
  - destruct (c_desc c), Hmv as [-> | ->]; cbn; auto.
Qed.

Lemma nf_ents_len cs s : zlen (nf_ents cs s) = zlen cs.
Proof. unfold zlen. f_equal. revert s. induction cs as [|c cs IH]; intros s; cbn [nf_ents length]; [reflexivity|]. now rewrite IH. Qed.

(* the end records of WriteDirectory, as APPNOTE records *)
Lemma wd_tail_eq files dirloc force :
  let count := zlen files in
  let size := zlen (cd_bytes files) in
  let mv := if wd_need_zip64 count size dirloc force then 45 else wd_min_version files in
  wd_tail files dirloc force =
  if mv =? 45 then e64_of 45 mv count size dirloc ++ l64_of (dirloc + size) ++ eocd_of 65535 4294967295 4294967295
  else eocd_of (u16 count) (u32 size) (u32 dirloc).
Proof.
  cbv zeta. unfold wd_tail, wd_cdoff, wd_emit_zip64. change wd_forced_version with 45.
  destruct (_ =? 45); [|reflexivity]. unfold wd_write_order. now rewrite pick_order.
Qed.

(* an archive written from scratch by relic is exactly the APPNOTE archive of its members *)
Theorem fresh_archive_appnote : forall cs force,
  Forall call_ok cs -> zlen cs < 65535 ->
  zlen (locals (map nf_member cs)) + zlen (centrals (pairs (map nf_member cs))) < 4294967295 ->
  fresh_archive cs force = build (map nf_member cs) (plain_opts (fresh_mode cs force)).
Proof.
  intros cs force Hok Hcnt Hsmall. set (ms := map nf_member cs) in *.
  pose proof (zlen_nonneg (locals ms)) as HL0. pose proof (zlen_nonneg (centrals (pairs ms))) as HC0. pose proof (zlen_nonneg cs) as Hn0.
  rewrite build_plain. unfold fresh_archive. cbv zeta. pose proof (fresh_fold cs [] 0 [] Hok) as HF. unfold bytes in *. rewrite HF. clear HF. cbn [fst snd app]. fold ms.
  rewrite Z.add_0_l. f_equal.
  unfold write_directory. change (wd_separate false) with false. change (wd_weod_nil false) with false. cbv iota.
  assert (Hcd : cd_bytes (nf_ents cs 0) = centrals (pairs ms)).
  { unfold pairs, ms. apply nf_ents_cd; [assumption|lia|]. fold ms. lia. }
  assert (Hzm : zlen ms = zlen cs) by apply zlen_map.
  rewrite Hcd. f_equal.
  rewrite wd_tail_eq, sp_end_cases, Hcd, nf_ents_len, Hzm. unfold wd_need_zip64, wd_min_version, fresh_mode, A_M16, A_M32.
  rewrite wd_min_version_nf by (left; reflexivity).
  replace (zlen cs >=? 65535) with false by lia. replace (zlen (centrals (pairs ms)) >=? 4294967295) with false by lia.
  replace (zlen (locals ms) >=? 4294967295) with false by lia. cbn [orb].
  (* ZIP64 records exactly when forced or when some member has a descriptor (minVersion 45) *)
  destruct (force || existsb c_desc cs) eqn:E.
  - replace (if force then 45 else if existsb c_desc cs then 45 else wd_min_version0) with 45 by (destruct force; [|cbn in E; rewrite E]; reflexivity).
    reflexivity.
  - apply orb_false_iff in E as [-> ->]. change (wd_min_version0 =? 45) with false. change (0 =? 1) with false. cbn [orb negb Z.eqb]. cbv iota.
    now rewrite u16_small, !u32_small by lia.
Qed.

(* ... and it lies in class K: relic (and any reader that agrees with the specification view) reads it back identically *)
Lemma nf_local_ok c : call_ok c -> local_ok (nf_member c).
Proof.
  intros (Hn & He & Hcrc & Hcs & Hus & Hm & Hmt & Hmd). pose proof (zlen_nonneg (c_cdata c)).
  unfold local_ok, nf_member, sp_lextra, sp_csize. cbn [m_name m_lz64 m_lextra m_flags m_crc m_reader m_desc m_data m_usize].
  repeat split; try assumption; try lia; try (destruct (c_desc c); lia).
  destruct (c_desc c); cbn [desc_ok]; [|exact I].
  repeat split; try lia.
  destruct (Z.eq_dec (c_usize c) 0) as [E|E]; [right; lia|left; apply dd24_ok_small; lia].
Qed.
Lemma nf_central_ok c off : call_ok c -> 0 <= off < 4294967295 -> central_ok (nf_member c) off.
Proof.
  intros (Hn & He & Hcrc & Hcs & Hus & Hm & Hmt & Hmd) Ho. pose proof (zlen_nonneg (c_cdata c)).
  assert (Hsat : sat_u (nf_member c) = false /\ sat_c (nf_member c) = false /\ sat_o (nf_member c) off = false).
  { unfold sat_u, sat_c, sat_o, sat, sp_csize, nf_member, A_M32. cbn [m_satu m_satc m_sato m_usize m_data]. repeat split; lia. }
  destruct Hsat as (S1 & S2 & S3).
  assert (Hx : sp_cextra (nf_member c) off = c_extra c).
  { unfold sp_cextra, sp_z64rec. fold (sat_u (nf_member c)) (sat_c (nf_member c)) (sat_o (nf_member c) off). rewrite S1, S2, S3. reflexivity. }
  unfold central_ok. rewrite Hx, S1, S2, S3. unfold sp_csize, nf_member.
  cbn [m_creator m_reader m_flags m_method m_mtime m_mdate m_crc m_iattrs m_eattrs m_name m_comment m_usize m_data].
  change (zlen (@nil Z)) with 0.
  repeat split; try assumption; try lia; try (destruct (c_desc c); lia); try discriminate.
Qed.
Lemma nf_pairs_ok : forall cs s, Forall call_ok cs -> 0 <= s -> s + zlen (locals (map nf_member cs)) < 4294967295 ->
  Forall (fun p => central_ok (fst p) (snd p)) (combine (map nf_member cs) (sp_offsets s [] (map nf_member cs))).
Proof.
  induction cs as [|c cs IH]; intros s Hok Hs Hb; [constructor|].
  inversion Hok as [|? ? Hc Hcs]; subst. cbn [map] in *. rewrite locals_cons, zlen_app in Hb.
  pose proof (zlen_nonneg (sp_local (nf_member c))). pose proof (zlen_nonneg (locals (map nf_member cs))).
  rewrite sp_offsets_plain. cbn [combine]. constructor.
  - cbn [fst snd]. apply nf_central_ok; [assumption|lia].
  - apply IH; [assumption|lia|lia].
Qed.

Theorem fresh_archive_in_classK : forall cs force,
  Forall call_ok cs -> zlen cs < 65535 ->
  zlen (locals (map nf_member cs)) + zlen (centrals (pairs (map nf_member cs))) < 4294967295 - 98 ->
  classK (map nf_member cs) (fresh_mode cs force).
Proof.
  intros cs force Hok Hcnt Hsmall. set (ms := map nf_member cs) in *.
  pose proof (zlen_nonneg (locals ms)) as HL0. pose proof (zlen_nonneg (centrals (pairs ms))) as HC0.
  unfold classK. repeat split.
  - unfold ms. rewrite Forall_map. eapply Forall_impl; [|exact Hok]. intros c. apply nf_local_ok.
  - unfold pairs, ms. apply nf_pairs_ok; [assumption|lia|fold ms; lia].
  - unfold fresh_mode. destruct (force || existsb c_desc cs); auto.
  - rewrite build_plain, !zlen_app. fold ms.
    pose proof (sp_end_len (fresh_mode cs force) (zlen ms) (zlen (centrals (pairs ms))) (zlen (locals ms))). lia.
Qed.

Theorem writer_reread_thm : forall cs force,
  Forall call_ok cs -> zlen cs < 65535 ->
  zlen (locals (map nf_member cs)) + zlen (centrals (pairs (map nf_member cs))) < 4294967295 - 98 ->
  let z := fresh_archive cs force in
  let ms := map nf_member cs in
  exists d, read_zip (rd_bytes z) (zlen z) = Ok d
    /\ d_files d = parsed (pairs ms) /\ d_dirloc d = zlen (locals ms)
    /\ (forall md, total_sizes md (rd_bytes z) 0 (d_files d) = Ok (map sized_of ms))
    /\ views (d_files d) (map sized_of ms) = sp_view ms (plain_opts (fresh_mode cs force))
    /\ exists cd eod, get_original (rd_bytes z) d false = Ok (cd, eod) /\ cd ++ eod = zdrop (zlen (locals ms)) z.
Proof.
  intros cs force Hok Hcnt Hsmall z ms.
  assert (E : z = build ms (plain_opts (fresh_mode cs force))) by (apply fresh_archive_appnote; [assumption|assumption|lia]).
  clearbody z. subst z.
  apply parse_build_thm. now apply fresh_archive_in_classK.
Qed.
