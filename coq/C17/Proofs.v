(* C17/Proofs.v — GetTotalSize on APPNOTE-built local entries, over any reader that serves the entry, and FindDirectory on
   APPNOTE end records. *)
From Relic Require Import Base.Prelude Base.Enc Generated.C17_gen C17.Model C17.Bytes Base.Slice.

Lemma rd_bytes_slice z p n : 0 <= p -> 0 <= n -> p + n <= zlen z -> rd_bytes z p n = Ok (zslice p (p + n) z).
Proof. intros. unfold rd_bytes. replace ((p <? 0) || (n <? 0) || (zlen z <? p + n)) with false by lia. reflexivity. Qed.
(* the piece b of z = a ++ b ++ c; the equation is there so that z may be associated in any way *)
Lemma rd_bytes_part z a b c p n : z = a ++ b ++ c -> p = zlen a -> n = zlen b -> rd_bytes z p n = Ok b.
Proof.
  intros -> -> ->. pose proof (zlen_nonneg a). pose proof (zlen_nonneg b). pose proof (zlen_nonneg c).
  rewrite rd_bytes_slice by (rewrite ?zlen_app; lia). f_equal. now apply zslice_app_mid.
Qed.

Lemma rd_bytes_pre a z p n : zlen a <= p -> rd_bytes (a ++ z) p n = rd_bytes z (p - zlen a) n.
Proof.
  intros H. unfold rd_bytes. rewrite zlen_app. pose proof (zlen_nonneg a).
  replace ((p <? 0) || (n <? 0) || (zlen a + zlen z <? p + n)) with ((p - zlen a <? 0) || (n <? 0) || (zlen z <? p - zlen a + n)) by lia.
  destruct (_ || _); [reflexivity|]. rewrite zslice_app_r by lia. do 2 f_equal. lia.
Qed.

(* reader r serves the bytes X at position p: every piece of X is read from its place *)
Definition serves (r : reader) (p : Z) (X : bytes) : Prop :=
  forall a b c q n, X = a ++ b ++ c -> q = p + zlen a -> n = zlen b -> r q n = Ok b.
Lemma rd_bytes_serves pre X post : serves (rd_bytes (pre ++ X ++ post)) (zlen pre) X.
Proof.
  intros a b c q n -> -> ->. apply (rd_bytes_part _ (pre ++ a) b (c ++ post)); [now rewrite <- !app_assoc | now rewrite zlen_app | reflexivity].
Qed.

Lemma adv_le md pos q : pos <= q -> pos <= adv md pos q <= q.
Proof. destruct md; cbn [adv]; lia. Qed.
Lemma rd_at_ok m r pos p n b : r p n = Ok b -> pos <= p -> rd_at m r pos p n = Ok (b, adv m pos (p + n)).
Proof.
  intros H Hp. destruct m; cbn [rd_at adv]; [now rewrite H|].
  unfold sr_seek_back. replace (p <? pos) with false by lia. now rewrite H.
Qed.
Lemma rd_full_ok m r pos p b : r p (zlen b) = Ok b -> pos <= p ->
  exists pos', rd_full m r pos p (zlen b) = Ok (b, pos') /\ pos <= pos' <= p + zlen b.
Proof.
  intros H Hp. pose proof (zlen_nonneg b). unfold rd_full. destruct (Z.eqb_spec (zlen b) 0) as [E|E].
  - rewrite (zlen_0_nil b E). exists pos. split; [reflexivity|]. change (zlen (@nil Z)) with 0. lia.
  - rewrite (rd_at_ok m r pos p _ b H Hp). eexists. split; [reflexivity|]. apply adv_le. lia.
Qed.

Lemma to_i64_small n : 0 <= n < 2 ^ 63 -> to_i64 n = n.
Proof. intros H. unfold to_i64. replace (n >=? 2 ^ 63) with false by lia. reflexivity. Qed.

(* readLocalHeader when the reader serves a header with the right signature, then a name and an extra field of the
   lengths the header announces *)
Lemma read_lfh_ok md r pos f hdr name ex :
  let off := to_i64 (e_offset f) in
  pos <= off -> r off fileHeaderLen = Ok hdr ->
  fld lfh_off_Signature lfh_w_Signature hdr = fileHeaderSignature ->
  fld lfh_off_FilenameLen lfh_w_FilenameLen hdr = zlen name -> fld lfh_off_ExtraLen lfh_w_ExtraLen hdr = zlen ex ->
  r (off + fileHeaderLen) (zlen name) = Ok name -> r (off + fileHeaderLen + zlen name) (zlen ex) = Ok ex ->
  exists pos', read_lfh md r pos f = Ok (mkLfh hdr name ex, pos') /\ pos' <= off + fileHeaderLen + zlen name + zlen ex.
Proof.
  intros off Hpos Rh Hsig Hn He Rn Re. unfold read_lfh. fold off. change fileHeaderLen with 30 in *.
  rewrite (rd_at_ok md r pos off 30 hdr Rh Hpos). cbn [bind fst snd]. rewrite Hsig, Hn, He. cbv iota.
  pose proof (adv_le md pos (off + 30)).
  destruct (rd_full_ok md r (adv md pos (off + 30)) (off + 30) name Rn) as (p2 & -> & Hp2); [lia|]. cbn [bind fst snd].
  destruct (rd_full_ok md r p2 (off + 30 + zlen name) ex Re) as (p3 & -> & Hp3); [lia|]. cbn [bind fst snd].
  exists p3. split; [reflexivity|lia].
Qed.

Lemma zlen_desc_enc k crc cs us : zlen (desc_enc k crc cs us) = match k with DNone => 0 | D16 => 16 | D12 => 12 | D24 => 24 | D20 => 20 end.
Proof. destruct k; reflexivity. Qed.
(* the first 16 bytes of a 24-byte descriptor read as a 16-byte one: its "uncompressed size" is the high half of the
   compressed size *)
Lemma d24_first16 crc cs us :
  ztake 16 (desc_enc D24 crc cs us) = enc_struct [4; 4; 4; 4] [A_DD_SIG; crc; cs; cs / 4294967296].
Proof.
  unfold desc_enc. rewrite !enc_struct_cons, enc_struct_nil_l.
  change (Z.to_nat 8) with (4 + 4)%nat. rewrite (le_enc_split 4 4 cs). change (256 ^ Z.of_nat 4) with 4294967296.
  rewrite !app_nil_r. rewrite <- !app_assoc.
  rewrite (app_assoc (le_enc (Z.to_nat 4) A_DD_SIG)), (app_assoc (_ ++ le_enc (Z.to_nat 4) crc)), (app_assoc (_ ++ le_enc 4 cs)).
  apply ztake_app_len. rewrite !zlen_app, !le_enc_zlen. reflexivity.
Qed.

Lemma dd24_ok_small csize usize : 0 <= csize < 4294967296 -> 0 < usize -> dd24_ok csize usize = true.
Proof.
  intros Hc Hu. unfold dd24_ok. rewrite Z.div_small by lia. rewrite Z.mod_0_l by lia.
  destruct (Z_lt_ge_dec usize 4294967295).
  - rewrite Z.mod_small by lia. lia.
  - lia.
Qed.

(* readDataDesc when bit 3 of the local flags announces a descriptor at p, after the member data *)
Section ReadDD.
  Variables (md : mode) (r : reader) (pos : Z) (f : cdent) (l : lfhinfo) (crc p : Z).
  Hypothesis Hflag : Z.land (l_flags l) dd_flag_mask = 8.
  Hypothesis Hp : dd_pos (to_i64 (e_offset f)) (dd_lfh_size (zlen (l_name l)) (zlen (l_extra l))) (to_i64 (e_csize f)) = p.
  Hypothesis Hpos : pos <= p.
  Hypothesis Hcrc : 0 <= crc < 4294967296.
  Let version := fld lfh_off_ReaderVersion lfh_w_ReaderVersion (l_hdr l).

  (* 16 bytes: the sizes agree with the directory; an empty member must not claim version 45 *)
  Lemma read_dd_16 :
    r p dataDescriptorLen = Ok (desc_enc D16 crc (e_csize f) (e_usize f)) ->
    0 <= e_usize f < 4294967295 -> 0 <= e_csize f < 4294967296 -> (e_usize f = 0 -> version < 45) ->
    read_dd md r pos f l = Ok (desc_enc D16 crc (e_csize f) (e_usize f), crc, adv md pos (p + dataDescriptorLen)).
  Proof.
    intros R Hus Hcs Hamb. unfold read_dd. rewrite Hflag, Hp. change (dd_absent 8) with false. cbv iota.
    rewrite (rd_at_ok md r pos p _ _ R Hpos). cbn [bind fst snd].
    unfold desc_enc. erewrite !fld_at0 by reflexivity. cbn [nth].
    change (dd_sig_bad (A_DD_SIG mod 256 ^ 4)) with false. cbv iota. rewrite !Z.mod_small by lia.
    unfold dd_is_64, u32. rewrite !Z.mod_small by lia. replace (e_usize f >=? 4294967295) with false by lia.
    rewrite !Z.eqb_refl. cbn [negb orb]. unfold dd_ambiguous. fold version. cbn [negb andb].
    replace ((e_usize f =? 0) && (version >=? 45)) with false by lia. reflexivity.
  Qed.

  (* 24 bytes: either the 32-bit view already disagrees with the directory (dd24_ok), or the member is empty and the
     version says ZIP64 *)
  Lemma read_dd_24 :
    let D := desc_enc D24 crc (e_csize f) (e_usize f) in
    r p dataDescriptorLen = Ok (ztake 16 D) ->
    r (p + dataDescriptorLen) (dataDescriptor64Len - dataDescriptorLen) = Ok (zdrop 16 D) ->
    0 <= e_usize f < 2 ^ 64 -> 0 <= e_csize f < 2 ^ 64 ->
    dd24_ok (e_csize f) (e_usize f) = true \/ (e_usize f = 0 /\ 45 <= version) ->
    read_dd md r pos f l = Ok (D, crc, adv md (adv md pos (p + dataDescriptorLen)) (p + dataDescriptor64Len)).
  Proof.
    intros D Ra Rb Hus Hcs Hok. unfold read_dd. rewrite Hflag, Hp. change (dd_absent 8) with false. cbv iota.
    rewrite (rd_at_ok md r pos p _ _ Ra Hpos). cbn [bind fst snd].
    pose proof (adv_le md pos (p + dataDescriptorLen)). change dataDescriptorLen with 16 in *.
    rewrite (rd_at_ok md r _ _ _ _ Rb) by lia. cbn [fst snd is_ok]. rewrite ztake_zdrop.
    replace (p + 16 + (dataDescriptor64Len - 16)) with (p + dataDescriptor64Len) by (change dataDescriptor64Len with 24; lia).
    subst D. rewrite d24_first16. unfold desc_enc. erewrite !fld_at0 by reflexivity. cbn [nth].
    change (dd_sig_bad (A_DD_SIG mod 256 ^ 4)) with false. cbv iota.
    change (256 ^ 8) with (2 ^ 64). rewrite (Z.mod_small (e_usize f) (2 ^ 64)), (Z.mod_small (e_csize f) (2 ^ 64)), (Z.mod_small crc) by lia.
    unfold dd_64_valid. rewrite !Z.eqb_refl. cbn [andb].
    (* is64 is dd24_ok *)
    replace (dd_is_64 (e_usize f) (e_csize f) (e_csize f / 4294967296 mod 256 ^ 4) (e_csize f mod 256 ^ 4))
      with (dd24_ok (e_csize f) (e_usize f)) by (unfold dd_is_64, dd24_ok, u32; rewrite Z.eqb_refl; now rewrite orb_false_r).
    unfold dd_try_64, dd_ambiguous. fold version.
    destruct Hok as [-> | (-> & Hv)]; [reflexivity|]. replace (version >=? 45) with true by lia.
    now destruct (dd24_ok (e_csize f) 0).
  Qed.
End ReadDD.

Lemma total_size_ok md r pos f l p1 ddb crc p2 :
  read_lfh md r pos f = Ok (l, p1) -> read_dd md r p1 f l = Ok (ddb, crc, p2) ->
  total_size md r pos f =
  Ok (mkSized (total_size_expr (zlen (l_name l)) (zlen (l_extra l)) (zlen ddb) (to_i64 (e_csize f))) (zlen ddb) crc
              (fileHeaderLen + zlen (l_name l) + zlen (l_extra l)), p2).
Proof. intros H1 H2. unfold total_size. rewrite H1. cbn [bind fst snd]. rewrite H2. reflexivity. Qed.

Lemma sp_lfh_len m : zlen (sp_lfh m) = 30.
Proof. now apply zlen_enc_struct. Qed.
Lemma sp_local_len m : zlen (sp_local m) = 30 + zlen (m_name m) + zlen (sp_lextra m) + sp_csize m + zlen (sp_desc m).
Proof. unfold sp_local. rewrite !zlen_app, sp_lfh_len. unfold sp_csize. lia. Qed.
Lemma sp_lfh_fields m : zlen (m_name m) < 65536 -> zlen (sp_lextra m) < 65536 -> 0 <= m_reader m < 65536 ->
  fld lfh_off_Signature lfh_w_Signature (sp_lfh m) = fileHeaderSignature /\
  fld lfh_off_FilenameLen lfh_w_FilenameLen (sp_lfh m) = zlen (m_name m) /\
  fld lfh_off_ExtraLen lfh_w_ExtraLen (sp_lfh m) = zlen (sp_lextra m) /\
  fld lfh_off_ReaderVersion lfh_w_ReaderVersion (sp_lfh m) = m_reader m /\
  Z.land (fld lfh_off_Flags lfh_w_Flags (sp_lfh m)) 8 = if has_desc m then 8 else Z.land (m_flags m) 8.
Proof.
  intros Hn He Hr. pose proof (zlen_nonneg (m_name m)). pose proof (zlen_nonneg (sp_lextra m)).
  unfold sp_lfh. erewrite !fld_at0 by reflexivity. cbn [nth apn_lfh_widths].
  rewrite land8_mod16. repeat split; try (apply Z.mod_small; lia).
  unfold sp_flags. destruct (has_desc m); [apply land_lor_8|now rewrite Z.lor_0_r].
Qed.

(* readDataDesc on the descriptor of a spec-built member *)
Lemma read_dd_local md r m f l p1 p :
  Z.land (m_flags m) 8 = 0 -> 0 <= m_crc m < 4294967296 -> desc_ok (m_desc m) (m_reader m) (sp_csize m) (m_usize m) ->
  e_csize f = sp_csize m -> e_usize f = m_usize m -> e_crc f = m_crc m ->
  Z.land (l_flags l) dd_flag_mask = (if has_desc m then 8 else 0) ->
  fld lfh_off_ReaderVersion lfh_w_ReaderVersion (l_hdr l) = m_reader m ->
  dd_pos (to_i64 (e_offset f)) (dd_lfh_size (zlen (l_name l)) (zlen (l_extra l))) (to_i64 (e_csize f)) = p -> p1 <= p ->
  serves r p (sp_desc m) ->
  exists pos', read_dd md r p1 f l = Ok (sp_desc m, m_crc m, pos') /\ pos' <= p + zlen (sp_desc m).
Proof.
  intros Hfl Hcrc Hd Hcs Hus Hcr Hflag Hver Hp Hp1 Desc. pose proof (zlen_nonneg (m_data m)).
  unfold sp_desc, sp_csize, has_desc in *.
  destruct (m_desc m); cbn [desc_ok] in Hd; cbv iota in Hflag; try contradiction.
  - exists p1. split; [|cbn; lia]. unfold read_dd. rewrite Hflag, Hcr. reflexivity.
  - destruct Hd as (Hus1 & Hcs1 & Hamb). eexists. split.
    + rewrite <- Hcs, <- Hus. apply (read_dd_16 md r p1 f l (m_crc m) p); try assumption; rewrite ?Hcs, ?Hus, ?Hver; try assumption; try lia.
      apply (Desc [] _ []); [now rewrite app_nil_r | cbn; lia | reflexivity].
    + rewrite zlen_desc_enc. apply adv_le. change dataDescriptorLen with 16. lia.
  - destruct Hd as (Hus1 & Hcs1 & Hok). set (D := desc_enc D24 (m_crc m) (zlen (m_data m)) (m_usize m)) in *.
    assert (HD : zlen D = 24) by apply zlen_desc_enc. eexists. split.
    + unfold D. rewrite <- Hcs, <- Hus. apply (read_dd_24 md r p1 f l (m_crc m) p); try assumption; rewrite ?Hcs, ?Hus, ?Hver; try assumption; try lia; fold D.
      * apply (Desc [] _ (zdrop 16 D)); [cbn [app]; now rewrite ztake_zdrop | cbn; lia | now rewrite zlen_ztake by lia].
      * apply (Desc (ztake 16 D) _ []); [now rewrite app_nil_r, ztake_zdrop | now rewrite zlen_ztake by lia | now rewrite zlen_zdrop, HD by lia].
    + rewrite HD. change dataDescriptorLen with 16. change dataDescriptor64Len with 24.
      pose proof (adv_le md p1 (p + 16)). apply adv_le. lia.
Qed.

(* GetTotalSize over any reader that serves an APPNOTE-built local entry at the offset the directory gives *)
Lemma total_size_served md r m f pos o :
  local_ok m -> e_offset f = o -> e_csize f = sp_csize m -> e_usize f = m_usize m -> e_crc f = m_crc m ->
  serves r o (sp_local m) -> 0 <= o -> o + zlen (sp_local m) < 2 ^ 63 -> pos <= o ->
  exists pos', total_size md r pos f = Ok (sized_of m, pos') /\ pos' <= o + zlen (sp_local m).
Proof.
  intros (Hn & He & Hfl & Hcrc & Hrd & Hd) Hoff Hcs Hus Hcr S Ho Hbig Hpos.
  pose proof (zlen_nonneg (m_name m)). pose proof (zlen_nonneg (sp_lextra m)).
  pose proof (zlen_nonneg (m_data m)). pose proof (zlen_nonneg (sp_desc m)).
  destruct (sp_lfh_fields m Hn He Hrd) as (Fsig & Fn & Fe & Fver & Fflag).
  unfold sized_of. rewrite sp_local_len in *. assert (Hsz : sp_csize m = zlen (m_data m)) by reflexivity.
  unfold sp_local in S.
  assert (Eo : to_i64 (e_offset f) = o) by (rewrite Hoff; apply to_i64_small; lia).
  assert (Ec : to_i64 (e_csize f) = zlen (m_data m)) by (rewrite Hcs, Hsz; apply to_i64_small; lia).
  destruct (read_lfh_ok md r pos f (sp_lfh m) (m_name m) (sp_lextra m)) as (p1 & E1 & Hp1);
    rewrite ?Eo; try assumption; change fileHeaderLen with 30 in *.
  { eapply (S [] (sp_lfh m)); [reflexivity | cbn; lia | now rewrite sp_lfh_len]. }
  { eapply (S (sp_lfh m) (m_name m)); [reflexivity | rewrite sp_lfh_len; lia | reflexivity]. }
  { eapply (S (sp_lfh m ++ m_name m) (sp_lextra m)); [now rewrite <- !app_assoc | rewrite zlen_app, sp_lfh_len; lia | reflexivity]. }
  change fileHeaderLen with 30 in Hp1. rewrite Eo in Hp1.
  (* the descriptor, if any, starts behind the data *)
  set (l := mkLfh (sp_lfh m) (m_name m) (sp_lextra m)) in *.
  set (p := o + 30 + zlen (m_name m) + zlen (sp_lextra m) + zlen (m_data m)).
  destruct (read_dd_local md r m f l p1 p) as (p2 & E2 & Hp2); try assumption.
  { rewrite <- Hfl. exact Fflag. }
  { unfold dd_pos, dd_lfh_size, p, l. cbn [l_name l_extra]. lia. }
  { unfold p. lia. }
  { intros d1 d2 d3 q n E -> ->. apply (S (sp_lfh m ++ m_name m ++ sp_lextra m ++ m_data m ++ d1) d2 d3);
      [rewrite E; now rewrite <- !app_assoc | unfold p; rewrite !zlen_app, sp_lfh_len; lia | reflexivity]. }
  exists p2. split; [|unfold p in *; lia].
  rewrite (total_size_ok md r pos f l p1 _ _ p2 E1 E2). cbn [l_name l_extra l]. rewrite Ec.
  unfold total_size_expr. change fileHeaderLen with 30. do 2 f_equal. f_equal; lia.
Qed.
Lemma total_size_local : forall md m pre post f pos,
  local_ok m -> e_offset f = zlen pre -> e_csize f = sp_csize m -> e_usize f = m_usize m -> e_crc f = m_crc m ->
  zlen pre + zlen (sp_local m) < 2 ^ 63 -> pos <= zlen pre ->
  exists pos', total_size md (rd_bytes (pre ++ sp_local m ++ post)) pos f = Ok (sized_of m, pos')
               /\ pos' <= zlen pre + zlen (sp_local m).
Proof. intros. apply total_size_served; try assumption; [apply rd_bytes_serves | apply zlen_nonneg]. Qed.

Lemma locals_cons m ms : locals (m :: ms) = sp_local m ++ locals ms.
Proof. reflexivity. Qed.
Lemma total_sizes_locals : forall md ms fs pre post pos,
  Forall local_ok ms -> placed (zlen pre) ms fs -> zlen pre + zlen (locals ms) < 2 ^ 63 -> pos <= zlen pre ->
  total_sizes md (rd_bytes (pre ++ locals ms ++ post)) pos fs = Ok (map sized_of ms).
Proof.
  intros md ms. induction ms as [|m ms IH]; intros fs pre post pos Hok Hpl Hbig Hpos.
  - inversion Hpl; subst. reflexivity.
  - inversion Hpl as [|o m' ms' f fs' (Ho & Hc & Hu & Hcr) Hrest]; subst. inversion Hok as [|? ? Hm Hms]; subst.
    rewrite locals_cons in *. rewrite zlen_app in Hbig. pose proof (zlen_nonneg (locals ms)).
    cbn [total_sizes]. rewrite <- app_assoc.
    destruct (total_size_local md m pre (locals ms ++ post) f pos Hm Ho Hc Hu Hcr) as (pos' & E & Hp'); [lia|exact Hpos|].
    rewrite E. cbn [bind fst snd]. rewrite (app_assoc pre).
    rewrite (IH fs' (pre ++ sp_local m) post pos'); rewrite ?zlen_app; [reflexivity|assumption|exact Hrest|lia|lia].
Qed.

Definition eocd_of (count cdsize cdoff : Z) : bytes := enc_struct apn_eocd_widths [A_EOCD_SIG; 0; 0; count; count; cdsize; cdoff; 0].
Definition e64_of (creator reader count cdsize cdoff : Z) : bytes :=
  enc_struct apn_e64_widths [A_E64_SIG; 44; creator; reader; 0; 0; count; count; cdsize; cdoff].
Definition l64_of (off : Z) : bytes := enc_struct apn_l64_widths [A_L64_SIG; 0; off; 1].
Lemma eocd_len a b c : zlen (eocd_of a b c) = 22.
Proof. now apply zlen_enc_struct. Qed.
Lemma e64_len a b c d e : zlen (e64_of a b c d e) = 56.
Proof. now apply zlen_enc_struct. Qed.
Lemma l64_len a : zlen (l64_of a) = 20.
Proof. now apply zlen_enc_struct. Qed.

(* successive binary.Reads from one buffer: a struct is read from the bytes the structs before it have left *)
Lemma seq_take_here c r a b : zlen a = struct_size c -> seq_take (c :: r) c (a ++ b) = a.
Proof.
  intros H. pose proof (zlen_nonneg b). cbn [seq_take]. rewrite Z.eqb_refl, zlen_app.
  replace (zlen a + zlen b <? struct_size c) with false by lia. now apply ztake_app_len.
Qed.
Lemma seq_take_last c r a : zlen a = struct_size c -> seq_take (c :: r) c a = a.
Proof. rewrite <- (app_nil_r a) at 2. apply seq_take_here. Qed.
Lemma seq_take_next c r cls a b : c <> cls -> zlen a = struct_size c -> seq_take (c :: r) cls (a ++ b) = seq_take r cls b.
Proof.
  intros Hne H. pose proof (zlen_nonneg b). cbn [seq_take]. replace (c =? cls) with false by lia. rewrite zlen_app.
  replace (zlen a + zlen b <? struct_size c) with false by lia. now rewrite zdrop_app_len.
Qed.

(* the buffer FindDirectory starts from *)
Definition fd_buffer (r : reader) (size : Z) : result bytes :=
  let pos := fd_pos size in
  if fd_short pos size then b <- r 0 (directoryEndLen + directory64LocLen + pos) ;; Ok (zeros (- pos) ++ b)
  else r pos (directoryEndLen + directory64LocLen).
(* ... when it ends with an APPNOTE end record: the offset is there, or the 20 bytes in front are consulted *)
Lemma find_directory_end r size B c s o :
  fd_buffer r size = Ok (B ++ eocd_of c s o) -> zlen B = 20 ->
  0 <= c < 65536 -> 0 <= s < 4294967296 -> 0 <= o < 4294967296 ->
  find_directory r size =
  if fd_is_zip64 c s o then
    if fd_loc_sig_bad (fld l64_off_Signature l64_w_Signature B) then Err E_NOLOC else
    e64b <- r (to_i64 (fld l64_off_Offset l64_w_Offset B)) directory64EndLen ;;
    if fd_end64_sig_bad (fld e64_off_Signature e64_w_Signature e64b) then Err E_NOCD else
    Ok (to_i64 (fld e64_off_CDOffset e64_w_CDOffset e64b))
  else Ok o.
Proof.
  intros Hb HB Hc Hs Ho. unfold find_directory.
  unfold fd_buffer in Hb. unfold bytes in *. rewrite Hb. cbn [bind].
  unfold fd_read_order. cbn [firstn].
  rewrite (seq_take_here 1), (seq_take_next 1), (seq_take_last 2) by (exact HB || apply eocd_len || discriminate).
  unfold eocd_of. erewrite !fld_at0 by reflexivity. cbn [nth apn_eocd_widths].
  change (fd_end_sig_bad (A_EOCD_SIG mod 256 ^ 4)) with false. cbv iota. now rewrite !Z.mod_small by lia.
Qed.

Lemma fd_plain c s o : 0 <= c < 65535 -> 0 <= s < 4294967295 -> 0 <= o < 4294967295 -> fd_is_zip64 c s o = false.
Proof. intros. unfold fd_is_zip64. lia. Qed.

(* no ZIP64 records: the end record is the last 22 bytes and holds the directory offset *)
Lemma find_directory_plain : forall x count cdsize cdoff,
  20 <= zlen x -> 0 <= count < 65535 -> 0 <= cdsize < 4294967295 -> 0 <= cdoff < 4294967295 ->
  find_directory (rd_bytes (x ++ eocd_of count cdsize cdoff)) (zlen (x ++ eocd_of count cdsize cdoff)) = Ok cdoff.
Proof.
  intros x c s o Hx Hc Hs Ho. pose proof (eocd_len c s o) as HE.
  rewrite (find_directory_end _ _ (zdrop (zlen x - 20) x) c s o), fd_plain; try lia; [reflexivity| |rewrite zlen_zdrop; lia].
  unfold fd_buffer, fd_pos, fd_short. rewrite zlen_app, HE. replace (zlen x + 22 - 22 - 20 <? 0) with false by lia. cbn [andb].
  apply (rd_bytes_part _ (ztake (zlen x - 20) x) _ []).
  - now rewrite app_nil_r, app_assoc, ztake_zdrop.
  - rewrite zlen_ztake; lia.
  - rewrite zlen_app, zlen_zdrop, HE by lia. change (directoryEndLen + directory64LocLen) with 42. lia.
Qed.

(* archives shorter than 42 bytes (e.g. the empty archive): the whole file is read into the end of the buffer *)
Lemma find_directory_short : forall x count cdsize cdoff,
  zlen x < 20 -> 0 <= count < 65535 -> 0 <= cdsize < 4294967295 -> 0 <= cdoff < 4294967295 ->
  find_directory (rd_bytes (x ++ eocd_of count cdsize cdoff)) (zlen (x ++ eocd_of count cdsize cdoff)) = Ok cdoff.
Proof.
  intros x c s o Hx Hc Hs Ho. pose proof (eocd_len c s o) as HE. pose proof (zlen_nonneg x).
  rewrite (find_directory_end _ _ (zeros (20 - zlen x) ++ x) c s o), fd_plain; try lia; [reflexivity| |rewrite zlen_app, zlen_zeros; lia].
  unfold fd_buffer, fd_pos, fd_short. rewrite zlen_app, HE.
  replace (zlen x + 22 - 22 - 20 <? 0) with true by lia. replace (zlen x + 22 >=? 22) with true by lia. cbn [andb].
  rewrite (rd_bytes_part _ [] (x ++ eocd_of c s o) []);
    [|now rewrite app_nil_r|reflexivity|rewrite zlen_app, HE; change (directoryEndLen + directory64LocLen) with 42; lia].
  cbn [bind]. replace (- (zlen x + 22 - 22 - 20)) with (20 - zlen x) by lia. now rewrite app_assoc.
Qed.

(* ZIP64 end record + locator present: whatever mix of saturated / plain fields the end record holds *)
Lemma find_directory_zip64 : forall x cr rd count cdsize cdoff c16 s32 o32,
  zlen x = cdoff + cdsize -> 0 <= cdoff -> 0 <= cdsize -> cdoff + cdsize < 2 ^ 63 ->
  0 <= c16 < 65536 -> 0 <= s32 < 4294967296 -> 0 <= o32 < 4294967296 ->
  (fd_is_zip64 c16 s32 o32 = false -> o32 = cdoff) ->
  let z := x ++ e64_of cr rd count cdsize cdoff ++ l64_of (cdoff + cdsize) ++ eocd_of c16 s32 o32 in
  find_directory (rd_bytes z) (zlen z) = Ok cdoff.
Proof.
  intros x cr rd count cdsize cdoff c16 s32 o32 Hx Ho Hs Hbig Hc16 Hs32 Ho32 Hplain z.
  pose proof (e64_len cr rd count cdsize cdoff) as H64. pose proof (l64_len (cdoff + cdsize)) as HL. pose proof (eocd_len c16 s32 o32) as HE.
  assert (Hz : zlen z = zlen x + 98) by (unfold z; rewrite !zlen_app, H64, HL, HE; lia).
  rewrite (find_directory_end _ _ (l64_of (cdoff + cdsize)) c16 s32 o32); try assumption.
  - destruct (fd_is_zip64 c16 s32 o32); [|now rewrite Hplain].
    unfold l64_of. erewrite !fld_at0 by reflexivity. cbn [nth apn_l64_widths].
    change (fd_loc_sig_bad (A_L64_SIG mod 256 ^ 4)) with false. cbv iota.
    change (256 ^ 8) with (2 ^ 64). rewrite Z.mod_small, to_i64_small by lia.
    rewrite (rd_bytes_part z x (e64_of cr rd count cdsize cdoff) _ _ _ eq_refl) by (rewrite ?H64; auto). cbn [bind].
    unfold e64_of. erewrite !fld_at0 by reflexivity. cbn [nth apn_e64_widths].
    change (fd_end64_sig_bad (A_E64_SIG mod 256 ^ 4)) with false. cbv iota.
    change (256 ^ 8) with (2 ^ 64). now rewrite Z.mod_small, to_i64_small by lia.
  - unfold fd_buffer, fd_pos, fd_short. replace (zlen z - 22 - 20 <? 0) with false by lia. cbn [andb].
    apply (rd_bytes_part z (x ++ e64_of cr rd count cdsize cdoff) _ []).
    + unfold z. now rewrite app_nil_r, <- !app_assoc.
    + rewrite zlen_app, H64. lia.
    + rewrite zlen_app, HL, HE. reflexivity.
Qed.
