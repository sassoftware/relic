(* C17/Properties.v — the property theorems of unit C17: sizes and directory of what the reader parses, parse / build on the
   generator class, the writer (fresh archives, rewritten directories under two specification readers), Mangle, and the
   refuted stronger readings; the lemmas they rest on are in the C17/Proofs*.v files. *)
From Relic Require Import Base.Prelude Base.Enc Generated.C17_gen C17.Model C17.Bytes C17.Proofs C17.ProofsCD C17.ProofsW C17.Layout C17.ProofsL Base.Slice.

(* 0. the Go wire structs have the APPNOTE field layouts and the length constants match them *)
Theorem wire_layouts_are_appnote :
  lfh_widths = apn_lfh_widths /\ cdh_widths = apn_cdh_widths /\ e64_widths = apn_e64_widths /\
  l64_widths = apn_l64_widths /\ eocd_widths = apn_eocd_widths /\
  dd_widths = [4; 4; 4; 4] /\ dd64_widths = [4; 4; 8; 8] /\ z64x_widths = [2; 2; 8; 8; 8] /\
  cdh_size = directoryHeaderLen /\ lfh_size = fileHeaderLen /\ eocd_size = directoryEndLen /\
  l64_size = directory64LocLen /\ e64_size = directory64EndLen /\ dd_size = dataDescriptorLen /\ dd64_size = dataDescriptor64Len.
Proof. repeat split; reflexivity. Qed.

(* 1. GetTotalSize / readLocalHeader / readDataDesc on an APPNOTE-built local entry located anywhere in an archive, in
      random-access and in streaming mode: the whole-entry length, the descriptor width and the CRC are the true ones,
      and the streaming cursor never passes the end of the entry.  Domain local_ok: descriptor absent, 16 bytes with
      signature (not: empty member with version-needed >= 45), or 24 bytes with signature (empty member: version-needed >= 45). *)
Theorem member_size_correct : forall md m pre post f pos,
  local_ok m -> e_offset f = zlen pre -> e_csize f = sp_csize m -> e_usize f = m_usize m -> e_crc f = m_crc m ->
  zlen pre + zlen (sp_local m) < 2 ^ 63 -> pos <= zlen pre ->
  exists pos', total_size md (rd_bytes (pre ++ sp_local m ++ post)) pos f = Ok (sized_of m, pos')
               /\ pos' <= zlen pre + zlen (sp_local m).
Proof. exact C17.Proofs.total_size_local. Qed.

(* 2. a whole run of members, one pass, random access or streaming: no seek-back, every size right *)
Theorem all_member_sizes_correct : forall md ms fs pre post pos,
  Forall local_ok ms -> placed (zlen pre) ms fs -> zlen pre + zlen (locals ms) < 2 ^ 63 -> pos <= zlen pre ->
  total_sizes md (rd_bytes (pre ++ locals ms ++ post)) pos fs = Ok (map sized_of ms).
Proof. exact C17.Proofs.total_sizes_locals. Qed.

(* 3. the ZIP64 extra record of an APPNOTE-built central entry is decoded correctly for EVERY saturation mask *)
Theorem zip64_extra_decoded : forall m off,
  central_ok m off ->
  let u0 := if sat_u m then A_M32 else m_usize m in
  let c0 := if sat_c m then A_M32 else sp_csize m in
  let o0 := if sat_o m off then A_M32 else off in
  let st := z64_scan (length (sp_cextra m off)) (sp_cextra m off) (rwd_need_u u0) (mkZ u0 c0 o0 (rwd_need_c c0) (rwd_need_o o0)) in
  z_usize st = m_usize m /\ z_csize st = sp_csize m /\ z_offset st = off /\ z_need_c st = false /\ z_need_o st = false.
Proof. exact C17.ProofsCD.z64_scan_central. Qed.

(* 4. FindDirectory on APPNOTE end records: plain, shorter than 42 bytes (empty archive), and with ZIP64 records whatever
      mix of saturated and plain fields the end record holds *)
Theorem find_directory_plain : forall x count cdsize cdoff,
  20 <= zlen x -> 0 <= count < 65535 -> 0 <= cdsize < 4294967295 -> 0 <= cdoff < 4294967295 ->
  find_directory (rd_bytes (x ++ eocd_of count cdsize cdoff)) (zlen (x ++ eocd_of count cdsize cdoff)) = Ok cdoff.
Proof. exact C17.Proofs.find_directory_plain. Qed.
Theorem find_directory_short : forall x count cdsize cdoff,
  zlen x < 20 -> 0 <= count < 65535 -> 0 <= cdsize < 4294967295 -> 0 <= cdoff < 4294967295 ->
  find_directory (rd_bytes (x ++ eocd_of count cdsize cdoff)) (zlen (x ++ eocd_of count cdsize cdoff)) = Ok cdoff.
Proof. exact C17.Proofs.find_directory_short. Qed.
Theorem find_directory_zip64 : forall x cr rd count cdsize cdoff c16 s32 o32,
  zlen x = cdoff + cdsize -> 0 <= cdoff -> 0 <= cdsize -> cdoff + cdsize < 2 ^ 63 ->
  0 <= c16 < 65536 -> 0 <= s32 < 4294967296 -> 0 <= o32 < 4294967296 ->
  (fd_is_zip64 c16 s32 o32 = false -> o32 = cdoff) ->
  let z := x ++ e64_of cr rd count cdsize cdoff ++ l64_of (cdoff + cdsize) ++ eocd_of c16 s32 o32 in
  find_directory (rd_bytes z) (zlen z) = Ok cdoff.
Proof. exact C17.Proofs.find_directory_zip64. Qed.

(* 5. parse (build ms) = ms on class K, the re-emission identity, both access modes: for every member list in class K and
      every ZIP64-end style (0 only when needed, 1 always / all fields saturated, 2 always / plain fields), relic's Read of
      the APPNOTE-built archive yields exactly the members (names, offsets, sizes, CRCs, extra, comment, raw bytes),
      DirLoc is the end of the member data, GetTotalSize of every member is the true entry length in random-access AND in
      streaming mode, the combined view equals the specification's view, and GetOriginalDirectory(false) returns byte for
      byte the original directory and end records *)
Theorem parse_build : forall ms mode, classK ms mode ->
  let z := build ms (plain_opts mode) in
  exists d, read_zip (rd_bytes z) (zlen z) = Ok d
    /\ d_files d = parsed (pairs ms) /\ d_dirloc d = zlen (locals ms)
    /\ (forall md, total_sizes md (rd_bytes z) 0 (d_files d) = Ok (map sized_of ms))
    /\ views (d_files d) (map sized_of ms) = sp_view ms (plain_opts mode)
    /\ exists cd eod, get_original (rd_bytes z) d false = Ok (cd, eod) /\ cd ++ eod = zdrop (zlen (locals ms)) z.
Proof. exact C17.ProofsCD.parse_build_thm. Qed.

(* 6. the writer: an archive written from scratch by NewFile ... WriteDirectory(w, w, force) is byte for byte the APPNOTE
      archive of its members (24-byte descriptors / version 45 when useDesc, ZIP64 end records exactly when forced or when a
      descriptor member exists), lies in class K, and therefore is read back identically (5.) — including the empty member
      with a 24-byte descriptor that relic used to misread *)
Theorem writer_output_is_appnote : forall cs force,
  Forall call_ok cs -> zlen cs < 65535 ->
  zlen (locals (map nf_member cs)) + zlen (centrals (pairs (map nf_member cs))) < 4294967295 ->
  fresh_archive cs force = build (map nf_member cs) (plain_opts (fresh_mode cs force)).
Proof. exact C17.ProofsW.fresh_archive_appnote. Qed.
Theorem writer_output_in_classK : forall cs force,
  Forall call_ok cs -> zlen cs < 65535 ->
  zlen (locals (map nf_member cs)) + zlen (centrals (pairs (map nf_member cs))) < 4294967295 - 98 ->
  classK (map nf_member cs) (fresh_mode cs force).
Proof. exact C17.ProofsW.fresh_archive_in_classK. Qed.
Theorem writer_reread : forall cs force,
  Forall call_ok cs -> zlen cs < 65535 ->
  zlen (locals (map nf_member cs)) + zlen (centrals (pairs (map nf_member cs))) < 4294967295 - 98 ->
  let z := fresh_archive cs force in
  let ms := map nf_member cs in
  exists d, read_zip (rd_bytes z) (zlen z) = Ok d
    /\ d_files d = parsed (pairs ms) /\ d_dirloc d = zlen (locals ms)
    /\ (forall md, total_sizes md (rd_bytes z) 0 (d_files d) = Ok (map sized_of ms))
    /\ views (d_files d) (map sized_of ms) = sp_view ms (plain_opts (fresh_mode cs force))
    /\ exists cd eod, get_original (rd_bytes z) d false = Ok (cd, eod) /\ cd ++ eod = zdrop (zlen (locals ms)) z.
Proof. exact C17.ProofsW.writer_reread_thm. Qed.

(* 7. where the FULL statement of C17 fails for the code as it is: concrete valid archives (all replayed on the real code
      by checks/c17.py; each is a known finding).  sizes_of md z = Read + GetTotalSize of every member in mode md. *)
(* APPNOTE 4.3.9.3: the descriptor signature is optional *)
Theorem descriptor_without_signature_refuted :
  exists ms, sizes_of Random (build ms (plain_opts 0)) = Err E_DDSIG.
Proof. exists [wm 97 [1; 2] 2 D12 20]. vm_compute. reflexivity. Qed.
(* APPNOTE 4.3.16: the end record may carry a comment *)
Theorem archive_comment_refuted :
  exists ms c, let z := build ms (with_comment c) in read_zip (rd_bytes z) (zlen z) = Err E_NOCD.
Proof. exists [wm 97 [1; 2] 2 DNone 20], [33]. vm_compute. reflexivity. Qed.
(* data in front of the archive (self-extracting stubs): standard readers adjust, relic takes the offset as absolute *)
Theorem prefix_refuted :
  exists ms p, let z := build ms (with_prefix p) in read_zip (rd_bytes z) (zlen z) = Err E_NOEND.
Proof. exists [wm 97 [1; 2] 2 DNone 20], [88]. vm_compute. reflexivity. Qed.
(* WriteDirectory regenerates the end records: an unmodified directory is not reproduced byte for byte *)
Theorem writedirectory_end_records_refuted :
  exists ms mode d cd eod, let z := build ms (plain_opts mode) in
    read_zip (rd_bytes z) (zlen z) = Ok d /\ write_directory (d_files d) (d_dirloc d) false false false = Ok (cd, eod) /\
    cd ++ eod <> zdrop (d_dirloc d) z.
Proof.
  exists [wm 97 [1; 2] 2 DNone 20], 1. do 3 eexists. cbv zeta.
  split; [vm_compute; reflexivity|]. split; [vm_compute; reflexivity|]. vm_compute. discriminate.
Qed.
(* single pass: the directory order must be the physical order *)
Theorem stream_directory_order_refuted :
  exists ms ord, is_ok (sizes_of Random (build ms (with_order ord))) = true /\ sizes_of Stream (build ms (with_order ord)) = Err E_SEEK.
Proof. exists [wm 97 [1; 2] 2 DNone 20; wm 98 [3] 1 DNone 20], [1%nat; 0%nat]. vm_compute. split; reflexivity. Qed.
(* rewriting (AddFile) assumes members are contiguous from offset 0 in directory order *)
Theorem rewrite_contiguity_refuted :
  exists ms g d, let z := build ms (with_gap g) in
    read_zip (rd_bytes z) (zlen z) = Ok d /\
    exists f size, hd_error (d_files d) = Some f /\ sizes_of Random z = Ok [size] /\
      e_offset (hd f (fst (add_file [] 0 f (s_total size)))) <> e_offset f.
Proof.
  exists [wm 97 [1; 2] 2 DNone 20], [[0; 0; 0]]. eexists. cbv zeta. split; [vm_compute; reflexivity|].
  do 2 eexists. split; [reflexivity|]. split; [vm_compute; reflexivity|]. vm_compute. discriminate.
Qed.
(* residual of the width inference: empty member, 24-byte descriptor, version-needed below 45 *)
Theorem descriptor24_empty_version20_refuted :
  exists ms s, sizes_of Random (build ms (plain_opts 0)) = Ok [s] /\ s_ddlen s = 16 /\ zlen (sp_desc (hd (wm 0 [] 0 DNone 0) ms)) = 24.
Proof. exists [wm 97 [] 0 D24 20]. eexists. split; [vm_compute; reflexivity|]. split; reflexivity. Qed.
(* and of its repair in streaming mode: a real 16-byte descriptor of an empty member with version-needed >= 45 *)
Theorem stream_descriptor16_empty_version45_refuted :
  exists ms, sizes_of Random (build ms (plain_opts 0)) = Ok (map sized_of ms) /\ sizes_of Stream (build ms (plain_opts 0)) = Err E_SEEK.
Proof. exists [wm 97 [] 0 D16 45; wm 98 [3] 1 DNone 20]. vm_compute. split; reflexivity. Qed.

(* 8. THE WRITER WHEN MEMBERS ARE RE-INDEXED (C17/Layout.v).  The bodies of Directory.AddFile, File.GetDirectoryHeader and of the
      loop of WriteDirectory are whole-body translations generated from the Go source (af_step, gdh_step, wd_loop_step); they are
      exactly: raw dropped iff the offset changes / offset := DirLoc / DirLoc += size / member appended; cached raw entry or rebuilt
      entry (ONE new ZIP64 record with all three values followed by the old extra field without its ZIP64 records, fields
      saturated, version 45, f.Extra left as it was); minVersion / count / size *)
Theorem addfile_body_is_model : forall size raw off dl files f,
  af_step size raw off dl = (if negb (off =? dl) then [] else raw, dl, dl + size) /\
  af_step_skipped = [0; 1; 2] /\ add_file_l files dl f size = add_file files dl f size.
Proof. intros. split; [apply af_step_model | split; [apply af_step_statements | unfold add_file_l, add_file; now rewrite af_step_model]]. Qed.
Theorem getdirectoryheader_body_is_model : forall f, gdh_of f = (dir_header f, e_extra f).
Proof. exact C17.ProofsL.gdh_of_model. Qed.
Theorem writedirectory_loop_is_model : forall files dirloc force,
  write_directory_l files dirloc force = (cd_bytes files, wd_tail files dirloc force, map after_write files) /\
  write_directory files dirloc force false false = Ok (fst (write_directory_l files dirloc force)).
Proof. intros. split; [apply C17.ProofsL.write_directory_l_model | apply C17.ProofsL.write_directory_model]. Qed.

(* 9. For EVERY sequence of NewFile / AddFile calls on a new Directory — members of any size (lengths only, so 4 GiB and more),
      kept members that move up or down across 0xffffffff or stay, with or without a cached raw entry, with or without a ZIP64
      record in it — the directory and end records WriteDirectory emits are read by the APPNOTE reader (32-bit fields, 0xffffffff
      = take the value from the ZIP64 extra record; ZIP64 end record / locator when an end-record field is saturated) as exactly
      the intended members: name, the offset where the member's bytes physically start, sizes, CRC, in order; and DirLoc is the
      physical end of the member data.  Domain: Go field ranges, lengths that fit their 16-bit fields with room for one ZIP64
      record, archive below 2^63 bytes, cached raw entries that the APPNOTE reader reads as the File's fields (raw_ok). *)
Theorem rewrite_directory_spec_read : forall ops force,
  Forall op_ok ops ->
  snd (wrun ops) + zlen (cd_bytes (fst (wrun ops))) < 2 ^ 63 ->
  let w := write_directory_l (fst (wrun ops)) (snd (wrun ops)) force in
  sp_read_tail (snd (wrun ops)) (fst (fst w) ++ snd (fst w)) = Some (fst (intended ops))
  /\ snd (wrun ops) = snd (intended ops)
  /\ write_directory (fst (wrun ops)) (snd (wrun ops)) force false false = Ok (fst w).
Proof. exact C17.ProofsL.rewrite_directory_spec_read. Qed.
(* raw_ok holds for cached entries that relic wrote itself earlier *)
Theorem own_entries_are_raw_ok : forall g, ent_ok g -> 0 <= e_offset g < 2 ^ 64 ->
  forall x, raw_ok (mkEnt (e_creator g) (e_reader g) (e_flags g) (e_method g) (e_mtime g) (e_mdate g) (e_crc g) (e_csize g) (e_usize g)
                          (e_name g) x (e_comment g) (e_iattrs g) (e_eattrs g) (e_offset g) (regen_header g)).
Proof. intros g Hok Ho x. right. intros rest. cbn [e_raw]. now rewrite sp_entry_regen. Qed.

(* ... and for every entry relic parsed from an APPNOTE-built archive of class K (5.: d_files d = parsed (pairs ms)), whatever
   its saturation mask and wherever its ZIP64 record sits in the extra field: a member kept from such an archive satisfies the
   hypotheses of 9. *)
Theorem parsed_entries_are_raw_ok : forall m off, central_ok m off -> raw_ok (parsed_ent m off).
Proof. intros m off H. right. intros rest. cbn [e_raw parsed_ent]. now rewrite sp_entry_central. Qed.
Theorem kept_member_op_ok : forall m off size,
  central_ok m off -> zlen (sp_cextra m off) + 28 < 65536 -> 0 <= size ->
  op_ok (WAdd (with_crc (parsed_ent m off) (m_crc m)) size).
Proof.
  intros m off size H Hx Hs. split; [now apply parsed_ent_ok|]. split; [now apply parsed_entries_are_raw_ok | exact Hs].
Qed.

(* 10. Mangle on a source laid out back to back is the AddFile sequence of the kept members (so 9. applies to Mangle +
       Mangler.NewFile + MakePatch), reports exactly the deleted ranges, the offsets it assigns are the old offsets minus the bytes
       deleted in front (where the members are once the patch is applied), and it refuses any other source *)
Theorem mangle_is_addfile_sequence : forall src dirloc,
  contiguous src 0 -> src_total src = dirloc -> dirloc < 2 ^ 63 ->
  mangle_l src dirloc = Ok (fst (wrun (kept_ops src)), snd (wrun (kept_ops src)), src_cuts src).
Proof.
  intros src dirloc Hc Ht Hb. unfold mangle_l. rewrite mangle_walk_run by (try assumption; lia). cbn [bind snd fst].
  unfold mg_end_refuse. rewrite Z.add_0_l, Ht, Z.eqb_refl. reflexivity.
Qed.
Theorem mangle_offsets_physical : forall src,
  contiguous src 0 -> fst (intended (kept_ops src)) = kept_views src 0.
Proof. intros src H. exact (C17.ProofsL.mangle_offsets_physical src 0 0 [] H). Qed.
Theorem mangle_refuses_gap : forall m r pos out dl cuts,
  0 <= e_offset (ms_ent m) < 2 ^ 63 -> e_offset (ms_ent m) <> pos -> mangle_walk_l (m :: r) pos out dl cuts = Err E_NOTCONTIG.
Proof.
  intros m r pos out dl cuts Ho Hne. cbn [mangle_walk_l]. rewrite to_i64_small by lia. unfold cc_refuse.
  replace (e_offset (ms_ent m) =? pos) with false by lia. reflexivity.
Qed.

(* 11. a second WriteDirectory on the same Directory emits the same bytes as the first (lib/signappx digests the first output
       and writes the second): GetDirectoryHeader leaves f.Extra (declared as state of the generated body) as it was *)
Theorem getdirectoryheader_keeps_extra : forall f, snd (gdh_of f) = e_extra f.
Proof. intros f. now rewrite gdh_of_model. Qed.
Theorem second_write_same : forall files dirloc force,
  fst (write_directory_l (snd (write_directory_l files dirloc force)) dirloc force) = fst (write_directory_l files dirloc force).
Proof. exact C17.ProofsL.second_write_same. Qed.

(* 12. UNIQUENESS of the ZIP64 record and the zipfile-style reader.  A rebuilt entry that needs ZIP64 carries exactly one ZIP64
       record whatever records the old extra field had (withoutZip64Extra), one that does not need it carries the old extra
       field untouched.  Therefore a reader that, like CPython's zipfile, visits EVERY ZIP64 record and lets a later one
       overwrite a value that happens to equal 0xffffffff reads the same intended members as the APPNOTE reader (9.), for every
       sequence of calls.  Domain in addition to 9.: extra fields that such a reader can walk (records up to fewer than 4
       trailing bytes; it rejects anything else, before and after the rewrite) and cached raw entries it reads as the File's
       fields (raw_ok_py: proved for entries relic wrote itself and for class-K entries whose other extra data are records). *)
Theorem rebuilt_entry_has_one_zip64_record : forall f rest,
  ent_ok f -> tlv (e_extra f) ->
  if gdh_promote (e_csize f) (e_usize f) (e_offset f)
  then entry_extra (regen_header f ++ rest) = Some (new_extra f) /\ z64_count (S (length (new_extra f))) (new_extra f) = 1
  else entry_extra (regen_header f ++ rest) = Some (e_extra f).
Proof.
  intros f rest (Hcrc & Hcs & Hus & Hn & He & Hk) Ht.
  pose proof (zlen_nonneg (e_name f)). pose proof (zlen_nonneg (e_extra f)). pose proof (zlen_nonneg (e_comment f)).
  pose proof (new_extra_len f). rewrite regen_header_eq. destruct (gdh_promote (e_csize f) (e_usize f) (e_offset f)).
  - split; [apply entry_extra_shape; try reflexivity; cbn [nth prom_vals]; apply u16_mod; lia|].
    rewrite new_extra_record at 2. rewrite z64_count_record by (rewrite ?zlen_opt8s; lia).
    now rewrite z64_count_no1 by now apply without_zip64_extra_no1.
  - apply entry_extra_shape; try reflexivity; cbn [nth plain_vals]; apply u16_mod; lia.
Qed.
Theorem rewrite_directory_zipfile_read : forall ops force,
  Forall op_ok_py ops ->
  snd (wrun ops) + zlen (cd_bytes (fst (wrun ops))) < 2 ^ 63 ->
  let w := write_directory_l (fst (wrun ops)) (snd (wrun ops)) force in
  sp_read_tail_py (snd (wrun ops)) (fst (fst w) ++ snd (fst w)) = Some (fst (intended ops)).
Proof. exact C17.ProofsL.rewrite_directory_zipfile_read. Qed.
Theorem own_entries_are_raw_ok_py : forall g, ent_ok g -> tlv (e_extra g) -> 0 <= e_offset g < 2 ^ 64 ->
  forall x, raw_ok_py (mkEnt (e_creator g) (e_reader g) (e_flags g) (e_method g) (e_mtime g) (e_mdate g) (e_crc g) (e_csize g) (e_usize g)
                             (e_name g) x (e_comment g) (e_iattrs g) (e_eattrs g) (e_offset g) (regen_header g)).
Proof. intros g Hok Ht Ho x. right. intros rest. cbn [e_raw]. now rewrite sp_entry_py_regen. Qed.
Theorem parsed_entries_are_raw_ok_py : forall m off, central_ok m off -> wf_extra (m_cextra m) -> raw_ok_py (parsed_ent m off).
Proof. intros m off H W. right. intros rest. cbn [e_raw parsed_ent]. now rewrite sp_entry_py_central. Qed.
Theorem kept_member_op_ok_py : forall m off size,
  central_ok m off -> wf_extra (m_cextra m) -> zlen (sp_cextra m off) + 28 < 65536 -> 0 <= size ->
  op_ok_py (WAdd (with_crc (parsed_ent m off) (m_crc m)) size).
Proof.
  intros m off size H W Hx Hs. split; [now apply parsed_ent_ok|]. split; [now apply parsed_entries_are_raw_ok_py|].
  split; [exact Hs | now apply tlv_cextra].
Qed.

(* non-vacuity: class K is inhabited by archives with every supported feature, and the conclusions are computed on them *)
Definition ex_members : list smember :=
  [mkMem [97] [] [] [] 20 20 0 0 0 0 11 [1; 2; 3] 3 0 0 0 DNone false false false false false;         (* stored, no descriptor *)
   mkMem [98] [] [] [33] 20 20 2048 8 0 0 12 [9] 1 0 0 0 D16 false false false false false;            (* 16-byte descriptor, comment, UTF-8 flag *)
   mkMem [99] [] [] [] 45 45 0 0 0 0 13 [] 0 0 0 0 D24 false false false false false;                  (* empty member, 24-byte descriptor, version 45 *)
   mkMem [100] [] [202; 254; 0; 0] [] 45 45 0 0 0 0 14 [5; 6] 2 0 0 0 DNone true true false true true; (* ZIP64 extra: usize and offset only, after another record *)
   mkMem [100; 47] [] [] [] 20 20 0 0 0 0 0 [] 0 0 16 0 DNone false false false false false].          (* directory entry *)
Example classK_inhabited : classK ex_members 0 /\ classK ex_members 1 /\ classK ex_members 2 /\ classK [] 0.
Proof.
  assert (W : wf_extra [202; 254; 0; 0]) by (apply (wf_extra_rec 65226 [] []); [lia|lia|cbn; lia|constructor]).
  assert (L : Forall local_ok ex_members).
  { unfold ex_members.
    repeat (apply Forall_cons; [vm_compute; repeat split; intros; try reflexivity; try discriminate; auto; try (left; reflexivity); try (right; split; [reflexivity|discriminate])|]).
    apply Forall_nil. }
  assert (C : Forall (fun p => central_ok (fst p) (snd p)) (pairs ex_members)).
  { let v := eval vm_compute in (pairs ex_members) in change (pairs ex_members) with v.
    repeat (apply Forall_cons; [vm_compute; repeat split; intros; try reflexivity; try discriminate; first [exact W | apply wf_extra_nil]|]).
    apply Forall_nil. }
  unfold classK.
  repeat apply conj; try exact L; try exact C; try (apply Forall_nil); auto; vm_compute; reflexivity.
Qed.
Example parse_build_computed :
  let z := build ex_members (plain_opts 2) in
  match read_zip (rd_bytes z) (zlen z) with
  | Ok d => views (d_files d) (map sized_of ex_members) = sp_view ex_members (plain_opts 2)
            /\ total_sizes Stream (rd_bytes z) 0 (d_files d) = Ok (map sized_of ex_members)
  | _ => False
  end.
Proof. vm_compute. split; reflexivity. Qed.
Example writer_hypotheses_satisfiable :
  let cs := [mkCall [97] [] [] 0 0 0 0 0 true; mkCall [98] [254; 202; 0; 0] [1; 2] 2 7 0 0 0 false] in
  Forall call_ok cs /\ fresh_archive cs false = build (map nf_member cs) (plain_opts 1).
Proof. split; [repeat constructor; vm_compute; congruence|vm_compute; reflexivity]. Qed.

(* non-vacuity of 9.: a kept member with a cached plain entry at offset 16 is pushed ABOVE 0xffffffff by a prepended 4 GiB member
   (lengths only), another with a cached ZIP64 entry at 2^32+5 comes DOWN to offset 0; hypotheses hold, the conclusion is computed *)
Definition ex_g_low : cdent := mkEnt 20 20 0 0 0 0 77 5 5 [107] [] [] 0 0 16 [].
Definition ex_g_high : cdent := mkEnt 45 45 0 0 0 0 78 6 6 [104] [] [] 0 0 4294967301 [].
Definition ex_kept_low : cdent := mkEnt 20 20 0 0 0 0 77 5 5 [107] [] [] 0 0 16 (regen_header ex_g_low).
Definition ex_kept_high : cdent := mkEnt 45 45 0 0 0 0 78 6 6 [104] (z64rec ex_g_high) [] 0 0 4294967301 (regen_header ex_g_high).
Lemma ex_ent_ok : ent_ok ex_g_low /\ ent_ok ex_g_high /\ ent_ok ex_kept_low /\ ent_ok ex_kept_high.
Proof. repeat split; vm_compute; congruence. Qed.
Example rewrite_hypotheses_satisfiable_up :
  let ops := [WNew w_big; WAdd ex_kept_low 36] in
  Forall op_ok ops /\
  sp_read_tail (snd (wrun ops)) (fst (fst (write_directory_l (fst (wrun ops)) (snd (wrun ops)) false)) ++
                                 snd (fst (write_directory_l (fst (wrun ops)) (snd (wrun ops)) false)))
  = Some [mkSE [98] 0 4294967296 4294967296 7; mkSE [107] 4294967327 5 5 77].
Proof.
  split.
  - constructor; [vm_compute; repeat split; congruence|]. constructor; [|constructor].
    split; [apply ex_ent_ok|]. split; [|lia].
    apply (own_entries_are_raw_ok ex_g_low); [apply ex_ent_ok | vm_compute; split; congruence].
  - vm_compute. reflexivity.
Qed.
Example rewrite_hypotheses_satisfiable_down :
  let ops := [WAdd ex_kept_high 37; WNew w_small] in
  Forall op_ok ops /\
  sp_read_tail (snd (wrun ops)) (fst (fst (write_directory_l (fst (wrun ops)) (snd (wrun ops)) true)) ++
                                 snd (fst (write_directory_l (fst (wrun ops)) (snd (wrun ops)) true)))
  = Some [mkSE [104] 0 6 6 78; mkSE [115] 37 3 3 9].
Proof.
  split.
  - constructor.
    + split; [apply ex_ent_ok|]. split; [|lia].
      apply (own_entries_are_raw_ok ex_g_high); [apply ex_ent_ok | vm_compute; split; congruence].
    + constructor; [vm_compute; repeat split; congruence|constructor].
  - vm_compute. reflexivity.
Qed.

(* regression for relic 0526757 (finding C17:GetDirectoryHeader:stale-zip64-record-kept): a kept member whose cached entry and
   parsed extra field carry a ZIP64 record for its old offset 2^32+5 is re-indexed at EXACTLY 0xffffffff behind a member of
   that length; both readers read the new offset, the emitted entry has one ZIP64 record, a second write is identical *)
Definition w_exact : nfl := mkNfl [98] [] 4294967264 4294967264 7 0 0 0 false.
Example stale_zip64_record_regression :
  let ops := [WNew w_exact; WAdd ex_kept_high 37] in
  let w := write_directory_l (fst (wrun ops)) (snd (wrun ops)) false in
  snd (intended [WNew w_exact]) = 4294967295 /\
  sp_read_tail (snd (wrun ops)) (fst (fst w) ++ snd (fst w)) = Some [mkSE [98] 0 4294967264 4294967264 7; mkSE [104] 4294967295 6 6 78] /\
  sp_read_tail_py (snd (wrun ops)) (fst (fst w) ++ snd (fst w)) = Some [mkSE [98] 0 4294967264 4294967264 7; mkSE [104] 4294967295 6 6 78] /\
  fst (write_directory_l (snd w) (snd (wrun ops)) false) = fst w.
Proof. vm_compute. repeat split; reflexivity. Qed.
Example zipfile_hypotheses_satisfiable :
  Forall op_ok_py [WNew w_exact; WAdd ex_kept_high 37].
Proof.
  assert (T : tlv (z64rec ex_g_high)).
  { rewrite C17.ProofsL.z64rec_bytes.
    apply (tlv_rec 1 (le_enc 8 (e_usize ex_g_high) ++ le_enc 8 (e_csize ex_g_high) ++ le_enc 8 (e_offset ex_g_high)) []); [lia | vm_compute; reflexivity | apply tlv_end; vm_compute; reflexivity]. }
  constructor; [split; [vm_compute; repeat split; congruence | apply tlv_end; vm_compute; reflexivity]|].
  constructor; [|constructor].
  split; [apply ex_ent_ok|]. split; [|split; [lia | exact T]].
  apply (own_entries_are_raw_ok_py ex_g_high); [apply ex_ent_ok | apply tlv_end; vm_compute; reflexivity | vm_compute; split; congruence].
Qed.
