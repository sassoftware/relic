(* C17/Bytes.v — little-endian fields, encoded structs and extra-field records. *)
From Relic Require Import Base.Prelude Base.Enc Base.Slice Generated.C17_gen C17.Model.

Lemma zslice_app_l {A} p q (a b : list A) : 0 <= p -> q <= zlen a -> zslice p q (a ++ b) = zslice p q a.
Proof. apply Slice.zslice_app_l. Qed.
Lemma zlen_length {A} (l : list A) : Z.of_nat (length l) = zlen l.
Proof. reflexivity. Qed.
Lemma ztake_ztake_app {A} n (a b : list A) : 0 <= n <= zlen a -> ztake n (a ++ b) = ztake n a.
Proof. intros H. apply ztake_app_l. lia. Qed.

Lemma zlen_zeros n : 0 <= n -> zlen (zeros n) = n.
Proof. intros H. unfold zeros. rewrite zlen_repeat. lia. Qed.

Lemma le_dec_app a b : le_dec (a ++ b) = le_dec a + 256 ^ zlen a * le_dec b.
Proof. apply Enc.le_dec_app. Qed.
Lemma le_enc_split a b n : le_enc (a + b) n = le_enc a n ++ le_enc b (n / 256 ^ Z.of_nat a).
Proof.
  revert n. induction a as [|a IH]; intros n.
  - cbn. now rewrite Z.div_1_r.
  - cbn [Nat.add le_enc app]. f_equal. rewrite IH. f_equal. f_equal.
    rewrite Nat2Z.inj_succ, Z.pow_succ_r by lia. rewrite Z.div_div by (try lia; apply Z.pow_pos_nonneg; lia). reflexivity.
Qed.
Lemma le_dec_head w x R : 0 <= x < 256 ^ Z.of_nat w -> le_dec (zslice 0 (Z.of_nat w) (le_enc w x ++ R)) = x.
Proof. intros H. rewrite Slice.zslice_0, ztake_app_len by apply le_enc_zlen. now apply le_dec_enc. Qed.

Fixpoint off_of (i : nat) (ws : list Z) : Z :=
  match i, ws with
  | S k, w :: r => w + off_of k r
  | _, _ => 0
  end.
Fixpoint sumz (ws : list Z) : Z := match ws with [] => 0 | w :: r => w + sumz r end.
Definition widths_ok (ws : list Z) : bool := forallb (Z.leb 0) ws.

Lemma enc_struct_cons w v ws vs : enc_struct (w :: ws) (v :: vs) = le_enc (Z.to_nat w) v ++ enc_struct ws vs.
Proof. reflexivity. Qed.
Lemma enc_struct_nil_l vs : enc_struct [] vs = [].
Proof. reflexivity. Qed.
Lemma zlen_enc_struct ws vs : length ws = length vs -> widths_ok ws = true -> zlen (enc_struct ws vs) = sumz ws.
Proof.
  revert vs. induction ws as [|w ws IH]; intros [|v vs] Hl Hw; try discriminate; [reflexivity|].
  apply andb_true_iff in Hw as [Hw0 Hw]. rewrite enc_struct_cons, zlen_app, le_enc_zlen, IH by (auto; cbn in Hl; lia).
  cbn [sumz]. lia.
Qed.
Lemma off_of_nonneg ws : widths_ok ws = true -> forall i, 0 <= off_of i ws.
Proof.
  induction ws as [|w ws IH]; intros Hw [|i]; cbn [off_of]; try lia.
  apply andb_true_iff in Hw as [Hw0 Hw]. specialize (IH Hw i). lia.
Qed.

Lemma fld_enc_struct : forall ws vs rest i,
  length ws = length vs -> widths_ok ws = true -> (i < length ws)%nat ->
  fld (off_of i ws) (nth i ws 0) (enc_struct ws vs ++ rest) = nth i vs 0 mod 256 ^ nth i ws 0.
Proof.
  induction ws as [|w ws IH]; intros [|v vs] rest i Hl Hw Hi; try discriminate; [cbn in Hi; lia|].
  pose proof Hw as Hw'. apply andb_true_iff in Hw' as [Hw0 Hws].
  rewrite enc_struct_cons, <- app_assoc. unfold fld. destruct i as [|i]; cbn [off_of nth].
  - rewrite Z.add_0_l, Slice.zslice_0, ztake_app_len by (rewrite le_enc_zlen; lia).
    rewrite le_dec_enc_mod. now rewrite Z2Nat.id by lia.
  - pose proof (off_of_nonneg ws Hws i).
    rewrite zslice_app_r, le_enc_zlen, Z2Nat.id by (rewrite ?le_enc_zlen; lia).
    replace (w + off_of i ws - w) with (off_of i ws) by lia.
    replace (w + off_of i ws + nth i ws 0 - w) with (off_of i ws + nth i ws 0) by lia.
    apply (IH vs rest i); auto. cbn in Hi; lia.
Qed.

(* The readers name a field by its byte offset and width.  field_ix finds the index of that field, so that
   `erewrite !fld_at by reflexivity` replaces every field read of an encoded struct by the value written there. *)
Fixpoint field_ix (ws : list Z) (off w : Z) : option nat :=
  match ws with
  | [] => None
  | w0 :: r => if off =? 0 then (if w =? w0 then Some O else None) else option_map S (field_ix r (off - w0) w)
  end.
Lemma field_ix_spec : forall ws off w i, field_ix ws off w = Some i ->
  off = off_of i ws /\ w = nth i ws 0 /\ (i < length ws)%nat.
Proof.
  induction ws as [|w0 r IH]; intros off w i; cbn [field_ix]; [discriminate|].
  destruct (Z.eqb_spec off 0) as [->|_].
  - destruct (Z.eqb_spec w w0) as [->|_]; [|discriminate]. intros [= <-]. cbn. repeat split; lia.
  - destruct (field_ix r (off - w0) w) as [j|] eqn:E; [|discriminate]. intros [= <-].
    destruct (IH _ _ _ E) as (Ho & Hw & Hj). cbn [off_of nth length]. repeat split; lia.
Qed.
Lemma fld_at ws vs rest off w i :
  field_ix ws off w = Some i -> length ws = length vs -> widths_ok ws = true ->
  fld off w (enc_struct ws vs ++ rest) = nth i vs 0 mod 256 ^ nth i ws 0.
Proof. intros Hi Hl Hw. apply field_ix_spec in Hi as (-> & -> & Hi). now apply fld_enc_struct. Qed.
Lemma fld_at0 ws vs off w i :
  field_ix ws off w = Some i -> length ws = length vs -> widths_ok ws = true ->
  fld off w (enc_struct ws vs) = nth i vs 0 mod 256 ^ nth i ws 0.
Proof. rewrite <- (app_nil_r (enc_struct ws vs)). apply fld_at. Qed.

Lemma widths_ok_Forall ws : Forall (fun w => 0 <= w) ws -> widths_ok ws = true.
Proof. intros H. apply forallb_forall. rewrite Forall_forall in H. intros x Hx. apply H in Hx. lia. Qed.
Lemma ztake_enc_struct ws vs rest n :
  length ws = length vs -> Forall (fun w => 0 <= w) ws -> n = sumz ws -> ztake n (enc_struct ws vs ++ rest) = enc_struct ws vs.
Proof. intros Hl Hw ->. apply ztake_app_len, zlen_enc_struct; [exact Hl | now apply widths_ok_Forall]. Qed.
Lemma zdrop_enc_struct ws vs rest n :
  length ws = length vs -> Forall (fun w => 0 <= w) ws -> n = sumz ws -> zdrop n (enc_struct ws vs ++ rest) = rest.
Proof. intros Hl Hw ->. apply zdrop_app_len, zlen_enc_struct; [exact Hl | now apply widths_ok_Forall]. Qed.

(* header id, data size, data: what every walker of an extra field computes on a record in front of other data *)
Lemma record_head id body rest : 0 <= id < 65536 -> zlen body < 65536 ->
  let x := le_enc 2 id ++ le_enc 2 (zlen body) ++ body ++ rest in
  zlen x = 4 + zlen body + zlen rest /\ le_dec (zslice 0 2 x) = id /\ le_dec (zslice 2 4 x) = zlen body /\
  zslice 4 (4 + zlen body) x = body /\ ztake (4 + zlen body) x = le_enc 2 id ++ le_enc 2 (zlen body) ++ body /\
  zdrop (4 + zlen body) x = rest.
Proof.
  intros Hid Hb x. pose proof (zlen_nonneg body). unfold x. repeat split.
  - rewrite !zlen_app, !le_enc_zlen. lia.
  - apply (le_dec_head 2). lia.
  - rewrite zslice_app_r, le_enc_zlen by (rewrite le_enc_zlen; lia). apply (le_dec_head 2). lia.
  - rewrite (app_assoc (le_enc 2 id)). apply zslice_app_mid; rewrite ?zlen_app, ?le_enc_zlen; lia.
  - rewrite (app_assoc (le_enc 2 id)), (app_assoc (_ ++ _)), <- (app_assoc (le_enc 2 id)).
    apply ztake_app_len. rewrite !zlen_app, !le_enc_zlen. lia.
  - rewrite (app_assoc (le_enc 2 id)), (app_assoc (_ ++ _)). apply zdrop_app_len. rewrite !zlen_app, !le_enc_zlen. lia.
Qed.

(* a walker that steps over every record but the ZIP64 one gets past well-formed records with fuel to spare *)
Lemma skip_records {A} (W : nat -> bytes -> A) :
  (forall k id body rest, 0 <= id < 65536 -> id <> 1 -> zlen body < 65536 ->
     W (S k) (le_enc 2 id ++ le_enc 2 (zlen body) ++ body ++ rest) = W k rest) ->
  forall X, wf_extra X -> forall fuel Y, (length X < fuel)%nat -> exists k, W fuel (X ++ Y) = W (S k) Y.
Proof.
  intros Hrec. induction 1 as [|tag body rest Ht Ht1 Hb Hwf IH]; intros fuel Y Hf; (destruct fuel as [|k]; [lia|]).
  - exists k. reflexivity.
  - rewrite <- !app_assoc, Hrec by assumption. apply IH. rewrite !app_length, !le_enc_length in Hf. lia.
Qed.

Lemma u32_small x : 0 <= x < 4294967296 -> u32 x = x.
Proof. intros H. unfold u32. now apply Z.mod_small. Qed.
Lemma u16_small x : 0 <= x < 65536 -> u16 x = x.
Proof. intros H. unfold u16. now apply Z.mod_small. Qed.

(* bit 3 of the flags survives the 16-bit truncation *)
Lemma land8_mod16 v : Z.land (v mod 256 ^ 2) 8 = Z.land v 8.
Proof.
  change (256 ^ 2) with (2 ^ 16). rewrite <- Z.land_ones by lia. rewrite <- Z.land_assoc.
  f_equal.
Qed.
Lemma land_lor_8 a : Z.land (Z.lor a 8) 8 = 8.
Proof.
  apply Z.bits_inj'. intros n Hn. rewrite Z.land_spec, Z.lor_spec.
  destruct (Z.testbit 8 n) eqn:E; [rewrite orb_true_r; reflexivity | now rewrite andb_false_r].
Qed.
Lemma lor_0_r a : Z.lor a 0 = a.
Proof. apply Z.lor_0_r. Qed.
