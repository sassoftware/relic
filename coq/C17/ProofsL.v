(* C17/ProofsL.v — the layout-level writer (C17/Layout.v): the generated bodies are the model of C17/Model.v; the
   directory written after ANY sequence of NewFile / AddFile calls is read by the APPNOTE reader and by the zipfile-style
   reader as the intended members (one lemma, run_read, over the reader and the class of operations); a second
   WriteDirectory emits the same bytes; Mangle on a contiguous source is such a sequence. *)
From Relic Require Import Base.Prelude Base.Enc Generated.C17_gen C17.Model C17.Bytes C17.Proofs C17.ProofsCD C17.ProofsW C17.Layout Base.Slice.

Lemma g_set_field_eq : forall ws vs cur off v, g_set_field ws vs cur off v = set_field ws vs cur off v.
Proof. induction ws as [|w ws IH]; intros [|x vs] cur off v; cbn [g_set_field set_field]; try reflexivity; f_equal; apply IH. Qed.

(* AddFile: raw is dropped exactly when the member is re-indexed at another offset; the member gets the current DirLoc;
   DirLoc advances by the member's total size; the member is appended *)
Lemma af_step_model size raw off dl :
  af_step size raw off dl = (if negb (off =? dl) then [] else raw, dl, dl + size).
Proof. unfold af_step. destruct (off =? dl) eqn:E; cbn [negb]; try (apply Z.eqb_eq in E; subst); reflexivity. Qed.
Lemma af_step_statements : af_step_skipped = [0; 1; 2] /\ af_appends = true.
Proof. split; reflexivity. Qed.

(* GetDirectoryHeader: the bytes are Model.dir_header (rebuilt entries: one new ZIP64 record followed by the old extra field
   WITHOUT its ZIP64 records); f.Extra is left as it was *)
Lemma gdh_of_model f : gdh_of f = (dir_header f, e_extra f).
Proof.
  unfold gdh_of, gdh_step, dir_header, gdh_use_raw.
  destruct (zlen (e_raw f) >? 0); [reflexivity|].
  unfold regen_header, gdh_promote.
  destruct (((e_csize f >=? 4294967295) || (e_usize f >=? 4294967295)) || (e_offset f >=? 4294967295)).
  - rewrite !g_set_field_eq. cbn [app]. rewrite <- !app_assoc. reflexivity.
  - cbn [app]. rewrite <- !app_assoc. reflexivity.
Qed.
Lemma gdh_step_statements : gdh_step_skipped = [].
Proof. reflexivity. Qed.
(* the File after GetDirectoryHeader: the same fields *)
Definition after_write (f : cdent) : cdent := with_extra f (e_extra f).
Lemma header_st_model f : header_st f = (dir_header f, after_write f).
Proof. unfold header_st. now rewrite gdh_of_model. Qed.

Lemma wd_loop_step_model reader n mv c s :
  wd_loop_step reader n mv c s = (if wd_version_raise reader mv then reader else mv, c + 1, s + n).
Proof. reflexivity. Qed.
Lemma wd_loop_statements : wd_loop_step_skipped = [0; 1; 2].
Proof. reflexivity. Qed.
Lemma cd_bytes_cons f fs : cd_bytes (f :: fs) = dir_header f ++ cd_bytes fs.
Proof. reflexivity. Qed.
Lemma wd_loop_fold : forall files a,
  fold_left wd_iter files a =
  mkAcc (a_buf a ++ cd_bytes files)
        (fold_left (fun mv f => if wd_version_raise (e_reader f) mv then e_reader f else mv) files (a_mv a))
        (a_count a + zlen files) (a_size a + zlen (cd_bytes files))
        (a_files a ++ map after_write files).
Proof.
  induction files as [|f fs IH]; intros a.
  - cbn [fold_left map]. change (cd_bytes []) with (@nil Z). change (zlen (@nil cdent)) with 0. change (zlen (@nil Z)) with 0.
    rewrite !app_nil_r, !Z.add_0_r. now destruct a.
  - cbn [fold_left]. rewrite IH. unfold wd_iter at 1 2 3 4 5. rewrite header_st_model. cbn [fst snd].
    rewrite wd_loop_step_model. cbn [a_buf a_mv a_count a_size a_files fst snd map].
    rewrite cd_bytes_cons, zlen_cons, zlen_app, <- !app_assoc. cbn [app].
    f_equal; lia.
Qed.
Lemma wd_tail_of_model files dirloc force :
  wd_tail_of (wd_min_version files) (zlen files) (zlen (cd_bytes files)) dirloc force = wd_tail files dirloc force.
Proof. reflexivity. Qed.
Lemma write_directory_l_model files dirloc force :
  write_directory_l files dirloc force =
  (cd_bytes files, wd_tail files dirloc force, map after_write files).
Proof.
  unfold write_directory_l, wd_loop. rewrite wd_loop_fold. cbn [a_buf a_mv a_count a_size a_files app].
  rewrite !Z.add_0_l. reflexivity.
Qed.
Lemma write_directory_model files dirloc force :
  write_directory files dirloc force false false = Ok (fst (write_directory_l files dirloc force)).
Proof. rewrite write_directory_l_model. reflexivity. Qed.

(* the specification reads fields with its own copy of the model's fld *)
Lemma su_fld : su = fld.
Proof. reflexivity. Qed.

Lemma entry_parts (H name extra comment rest : bytes) : zlen H = 46 ->
  let X := H ++ name ++ extra ++ comment ++ rest in
  zlen X = 46 + zlen name + zlen extra + zlen comment + zlen rest /\
  zslice 46 (46 + zlen name) X = name /\ zslice (46 + zlen name) (46 + zlen name + zlen extra) X = extra /\
  zdrop (46 + zlen name + zlen extra + zlen comment) X = rest.
Proof.
  intros HH X. unfold X. repeat split.
  - rewrite !zlen_app. lia.
  - apply zslice_app_mid; lia.
  - rewrite (app_assoc H name). apply zslice_app_mid; rewrite zlen_app; lia.
  - rewrite (app_assoc H name), (app_assoc _ extra), (app_assoc _ comment). apply zdrop_app_len. rewrite !zlen_app. lia.
Qed.

Lemma sp_entry_with_shape (T : entry_tail) vs name extra comment rest :
  length vs = 17%nat -> nth 0 vs 0 mod 4294967296 = 33639248 ->
  nth 10 vs 0 mod 65536 = zlen name -> nth 11 vs 0 mod 65536 = zlen extra -> nth 12 vs 0 mod 65536 = zlen comment ->
  sp_entry_with T (enc_struct cdh_widths vs ++ name ++ extra ++ comment ++ rest) =
  T name extra rest (nth 7 vs 0 mod 4294967296) (nth 8 vs 0 mod 4294967296) (nth 9 vs 0 mod 4294967296)
    (nth 16 vs 0 mod 4294967296).
Proof.
  intros Hl Hsig Hn He Hk.
  destruct (entry_parts (enc_struct cdh_widths vs) name extra comment rest) as (HX & E1 & E2 & E3); [now apply zlen_enc_struct|].
  pose proof (zlen_nonneg name). pose proof (zlen_nonneg extra). pose proof (zlen_nonneg comment). pose proof (zlen_nonneg rest).
  unfold sp_entry_with. rewrite su_fld. erewrite !fld_at by (reflexivity || (symmetry; exact Hl)). cbn [nth cdh_widths].
  change (256 ^ 2) with 65536. change (256 ^ 4) with 4294967296. rewrite Hsig, Hn, He, Hk, HX, E1, E2, E3.
  change (33639248 =? 33639248) with true. cbn [negb].
  replace (_ <? 46) with false by lia. replace (_ <? _) with false by lia. reflexivity.
Qed.
Lemma entry_extra_shape vs name extra comment rest :
  length vs = 17%nat -> nth 10 vs 0 mod 65536 = zlen name -> nth 11 vs 0 mod 65536 = zlen extra ->
  entry_extra (enc_struct cdh_widths vs ++ name ++ extra ++ comment ++ rest) = Some extra.
Proof.
  intros Hl Hn He.
  destruct (entry_parts (enc_struct cdh_widths vs) name extra comment rest) as (HX & _ & E2 & _); [now apply zlen_enc_struct|].
  pose proof (zlen_nonneg name). pose proof (zlen_nonneg extra). pose proof (zlen_nonneg comment). pose proof (zlen_nonneg rest).
  unfold entry_extra. rewrite su_fld. erewrite !fld_at by (reflexivity || (symmetry; exact Hl)). cbn [nth cdh_widths].
  change (256 ^ 2) with 65536. rewrite Hn, He, HX, E2.
  replace (_ <? 46) with false by lia. now replace (_ <? _) with false by lia.
Qed.

(* the ZIP64 record of an entry: 8-byte values, each present only if its 32-bit field holds the marker *)
Lemma sp_take8_opt (b : bool) v0 v R : (b = true -> 0 <= v < 2 ^ 64) ->
  sp_take8 b v0 ((if b then le_enc 8 v else []) ++ R) = Some (if b then v else v0, R).
Proof.
  intros H. destruct b; [|reflexivity]. unfold sp_take8. pose proof (zlen_nonneg R). rewrite zlen_app, le_enc_zlen.
  replace (Z.of_nat 8 + zlen R <? 8) with false by lia. rewrite su_fld. unfold fld. now rewrite dec8_head, drop8_head by auto.
Qed.
(* header id and data size of a record, as the specification's walkers read them *)
Lemma su_id l : su 0 2 l = le_dec (zslice 0 2 l).
Proof. reflexivity. Qed.
Lemma su_size l : su 2 2 l = le_dec (zslice 2 4 l).
Proof. reflexivity. Qed.

(* the first-record reader (APPNOTE 4.5.3 read literally) *)
Lemma sp_find_z64_record k id body rest : 0 <= id < 65536 -> zlen body < 65536 ->
  sp_find_z64 (S k) (le_enc 2 id ++ le_enc 2 (zlen body) ++ body ++ rest) = if id =? 1 then Some body else sp_find_z64 k rest.
Proof.
  intros Hid Hb. destruct (record_head id body rest Hid Hb) as (Hl & Hi & Hs & He & _ & Hd).
  pose proof (zlen_nonneg body). pose proof (zlen_nonneg rest).
  cbn [sp_find_z64]. rewrite su_id, su_size, Hi, Hs, He, Hd, Hl.
  replace (_ <? 4) with false by lia. replace (_ <? _) with false by lia. reflexivity.
Qed.
Lemma sp_find_z64_skip X : wf_extra X -> forall fuel Y, (length X < fuel)%nat ->
  exists k, sp_find_z64 fuel (X ++ Y) = sp_find_z64 (S k) Y.
Proof.
  intros HX. apply skip_records; [|exact HX].
  intros k id body rest Hid Hne Hb. rewrite sp_find_z64_record by assumption. now replace (id =? 1) with false by lia.
Qed.

Lemma sp_tail_plain name extra rest crc c32 u32v o32 :
  c32 <> S_M32 -> u32v <> S_M32 -> o32 <> S_M32 ->
  ap_tail name extra rest crc c32 u32v o32 = Some (mkSE name o32 c32 u32v crc, rest).
Proof.
  intros Hc Hu Ho. unfold ap_tail.
  replace (u32v =? S_M32) with false by lia. replace (c32 =? S_M32) with false by lia. replace (o32 =? S_M32) with false by lia.
  reflexivity.
Qed.
(* a 32-bit field and the flag saying that its value is in the record instead *)
Definition marked (b : bool) (v : Z) : Z := if b then S_M32 else v.
Lemma marked_eqb b v : (b = false -> v < 4294967295) -> (marked b v =? S_M32) = b.
Proof. unfold marked, S_M32. destruct b; [reflexivity|]. intros H. specialize (H eq_refl). lia. Qed.
(* the ZIP64 record behind well-formed other records, holding the values whose fields are marked *)
Lemma ap_tail_z64 name X Y rest crc bu bc bo u c o :
  wf_extra X -> bu || bc || bo = true ->
  0 <= u < 2 ^ 64 -> 0 <= c < 2 ^ 64 -> 0 <= o < 2 ^ 64 ->
  (bu = false -> u < 4294967295) -> (bc = false -> c < 4294967295) -> (bo = false -> o < 4294967295) ->
  let body := opt8s bu bc bo u c o in
  ap_tail name (X ++ le_enc 2 1 ++ le_enc 2 (zlen body) ++ body ++ Y) rest crc (marked bc c) (marked bu u) (marked bo o)
  = Some (mkSE name o c u crc, rest).
Proof.
  intros HX Hany Hu Hc Ho Hu' Hc' Ho' body. unfold ap_tail. rewrite !marked_eqb, Hany by assumption.
  assert (Hb : zlen body < 65536) by (unfold body; rewrite zlen_opt8s; destruct bu, bc, bo; lia).
  destruct (sp_find_z64_skip X HX (S (length (X ++ le_enc 2 1 ++ le_enc 2 (zlen body) ++ body ++ Y)))
                             (le_enc 2 1 ++ le_enc 2 (zlen body) ++ body ++ Y)) as (k & ->); [rewrite app_length; lia|].
  rewrite sp_find_z64_record by lia. cbn [Z.eqb Pos.eqb]. cbv iota.
  unfold body, opt8s. rewrite !sp_take8_opt by (intros; assumption).
  rewrite <- (app_nil_r (if bo then _ else _)), sp_take8_opt by (intros; assumption). unfold marked. now destruct bu, bc, bo.
Qed.

(* extra fields without a ZIP64 record: records (4.5.1) up to fewer than 4 trailing bytes *)
Inductive tlv_no1 : bytes -> Prop :=
| no1_end r : zlen r < 4 -> tlv_no1 r
| no1_rec id body rest : 0 <= id < 65536 -> id <> 1 -> zlen body < 65536 -> tlv_no1 rest ->
    tlv_no1 (le_enc 2 id ++ le_enc 2 (zlen body) ++ body ++ rest).
Lemma wf_extra_no1 X : wf_extra X -> tlv_no1 X.
Proof.
  induction 1 as [|tag body rest Ht Ht1 Hb Hwf IH]; [apply no1_end; cbn; lia|]. now constructor.
Qed.

(* never longer than the input, whatever the bytes are *)
Lemma without_z64_len : forall fuel extra out, zlen (without_z64 fuel extra out) <= zlen out + zlen extra.
Proof.
  induction fuel as [|k IH]; intros extra out; cbn [without_z64]; [rewrite zlen_app; lia|].
  change wz_keeps_remainder with true. change wz_advances with true. change wz_copies_record with true. cbv iota.
  destruct (negb (wz_loop (zlen extra))); [rewrite zlen_app; lia|].
  destruct (wz_overrun _ _); [rewrite zlen_app; lia|].
  set (size := wz_size (le_dec (zslice 2 4 extra))).
  pose proof (f_equal zlen (ztake_zdrop size extra)) as Hs. rewrite zlen_app in Hs. pose proof (zlen_nonneg (ztake size extra)).
  destruct (wz_keep _ && true).
  - specialize (IH (zdrop size extra) (out ++ ztake size extra)). rewrite zlen_app in IH. lia.
  - specialize (IH (zdrop size extra) out). lia.
Qed.

Lemma without_zip64_extra_len x : zlen (without_zip64_extra x) <= zlen x.
Proof. unfold without_zip64_extra. pose proof (without_z64_len (S (length x)) x []). change (zlen (@nil Z)) with 0 in *. lia. Qed.

(* a record in front is copied unless it is the ZIP64 record *)
Lemma without_z64_record k id body rest out : 0 <= id < 65536 -> zlen body < 65536 ->
  without_z64 (S k) (le_enc 2 id ++ le_enc 2 (zlen body) ++ body ++ rest) out =
  without_z64 k rest (if id =? 1 then out else out ++ le_enc 2 id ++ le_enc 2 (zlen body) ++ body).
Proof.
  intros Hid Hb. destruct (record_head id body rest Hid Hb) as (Hl & Hi & Hs & _ & Ht & Hd).
  pose proof (zlen_nonneg body). pose proof (zlen_nonneg rest).
  cbn [without_z64]. rewrite Hi, Hs, Hl. unfold wz_loop, wz_size, wz_overrun, wz_keep.
  replace (_ >=? 4) with true by lia. replace (_ >? _) with false by lia.
  change wz_advances with true. change wz_copies_record with true. cbn [negb]. cbv iota. rewrite Ht, Hd.
  now destruct (id =? 1).
Qed.
(* on a walkable extra field: what is appended to out can be walked and holds no ZIP64 record *)
Lemma without_z64_no1 : forall x, tlv x -> forall fuel out, (length x < fuel)%nat ->
  exists y, without_z64 fuel x out = out ++ y /\ tlv_no1 y.
Proof.
  induction 1 as [r Hr | id body rest Hid Hb Hrest IH]; intros fuel out Hf; (destruct fuel as [|k]; [lia|]).
  - cbn [without_z64]. unfold wz_loop. replace (zlen r >=? 4) with false by lia. exists r. split; [reflexivity|now constructor].
  - rewrite without_z64_record by assumption. rewrite !app_length, !le_enc_length in Hf.
    destruct (IH k (if id =? 1 then out else out ++ le_enc 2 id ++ le_enc 2 (zlen body) ++ body)) as (y & -> & Hy); [lia|].
    destruct (Z.eqb_spec id 1) as [_|Hne]; [now exists y|].
    exists (le_enc 2 id ++ le_enc 2 (zlen body) ++ body ++ y). split; [now rewrite <- !app_assoc | now constructor].
Qed.
Lemma without_zip64_extra_no1 x : tlv x -> tlv_no1 (without_zip64_extra x).
Proof.
  intros H. unfold without_zip64_extra. destruct (without_z64_no1 x H (S (length x)) [] ltac:(lia)) as (y & -> & Hy). exact Hy.
Qed.

Lemma py_scan_record k id body rest u c o : 0 <= id < 65536 -> zlen body < 65536 ->
  py_scan (S k) (le_enc 2 id ++ le_enc 2 (zlen body) ++ body ++ rest) u c o =
  if id =? 1 then
    match sp_take8 ((u =? 18446744073709551615) || (u =? S_M32)) u body with
    | None => None
    | Some (u', d1) =>
        match sp_take8 (c =? S_M32) c d1 with
        | None => None
        | Some (c', d2) =>
            match sp_take8 (o =? S_M32) o d2 with
            | None => None
            | Some (o', _) => py_scan k rest u' c' o'
            end
        end
    end
  else py_scan k rest u c o.
Proof.
  intros Hid Hb. destruct (record_head id body rest Hid Hb) as (Hl & Hi & Hs & He & _ & Hd).
  pose proof (zlen_nonneg body). pose proof (zlen_nonneg rest).
  cbn [py_scan]. rewrite su_id, su_size, Hi, Hs, He, Hd, Hl.
  replace (_ <? 4) with false by lia. replace (_ <? _) with false by lia. reflexivity.
Qed.
(* scans that change nothing: no ZIP64 record, or no value that is a sentinel *)
Lemma py_scan_no1 : forall y, tlv_no1 y -> forall fuel u c o, py_scan fuel y u c o = Some (u, c, o).
Proof.
  induction 1 as [r Hr | id body rest Hid Hne Hb Hrest IH]; intros [|k] u c o; try reflexivity.
  - cbn [py_scan]. now replace (zlen r <? 4) with true by lia.
  - rewrite py_scan_record by assumption. replace (id =? 1) with false by lia. apply IH.
Qed.
Lemma py_scan_nosent : forall x, tlv x -> forall fuel u c o,
  u <> 18446744073709551615 -> u <> S_M32 -> c <> S_M32 -> o <> S_M32 -> py_scan fuel x u c o = Some (u, c, o).
Proof.
  induction 1 as [r Hr | id body rest Hid Hb Hrest IH]; intros [|k] u c o Hu1 Hu2 Hc Ho; try reflexivity.
  - cbn [py_scan]. now replace (zlen r <? 4) with true by lia.
  - rewrite py_scan_record by assumption.
    replace (u =? 18446744073709551615) with false by lia. replace (u =? S_M32) with false by lia.
    replace (c =? S_M32) with false by lia. replace (o =? S_M32) with false by lia. cbn [orb sp_take8].
    destruct (id =? 1); now apply IH.
Qed.
Lemma py_scan_skip X : wf_extra X -> forall fuel Y u c o, (length X < fuel)%nat ->
  exists k, py_scan fuel (X ++ Y) u c o = py_scan (S k) Y u c o.
Proof.
  intros HX fuel Y u c o. apply (skip_records (fun k x => py_scan k x u c o)); [|exact HX].
  intros k id body rest Hid Hne Hb. rewrite py_scan_record by assumption. now replace (id =? 1) with false by lia.
Qed.
(* the ZIP64 record behind well-formed other records and in front of records none of which is a ZIP64 record *)
Lemma py_tail_z64 name X Y rest crc bu bc bo u c o :
  wf_extra X -> tlv_no1 Y ->
  0 <= u < 2 ^ 64 -> 0 <= c < 2 ^ 64 -> 0 <= o < 2 ^ 64 ->
  (bu = false -> u < 4294967295) -> (bc = false -> c < 4294967295) -> (bo = false -> o < 4294967295) ->
  let body := opt8s bu bc bo u c o in
  py_tail name (X ++ le_enc 2 1 ++ le_enc 2 (zlen body) ++ body ++ Y) rest crc (marked bc c) (marked bu u) (marked bo o)
  = Some (mkSE name o c u crc, rest).
Proof.
  intros HX HY Hu Hc Ho Hu' Hc' Ho' body. unfold py_tail.
  assert (Hb : zlen body < 65536) by (unfold body; rewrite zlen_opt8s; destruct bu, bc, bo; lia).
  destruct (py_scan_skip X HX (S (length (X ++ le_enc 2 1 ++ le_enc 2 (zlen body) ++ body ++ Y)))
                         (le_enc 2 1 ++ le_enc 2 (zlen body) ++ body ++ Y) (marked bu u) (marked bc c) (marked bo o))
    as (k & ->); [rewrite app_length; lia|].
  rewrite py_scan_record by lia. cbn [Z.eqb Pos.eqb]. cbv iota.
  replace ((marked bu u =? 18446744073709551615) || (marked bu u =? S_M32)) with bu
    by (rewrite marked_eqb by assumption; unfold marked, S_M32; destruct bu; [reflexivity|specialize (Hu' eq_refl); lia]).
  rewrite !marked_eqb by assumption.
  unfold body, opt8s. rewrite !sp_take8_opt by (intros; assumption).
  rewrite <- (app_nil_r (if bo then _ else _)), sp_take8_opt by (intros; assumption).
  rewrite py_scan_no1 by exact HY. unfold marked. now destruct bu, bc, bo.
Qed.

Lemma z64_count_record k id body rest : 0 <= id < 65536 -> zlen body < 65536 ->
  z64_count (S k) (le_enc 2 id ++ le_enc 2 (zlen body) ++ body ++ rest) = (if id =? 1 then 1 else 0) + z64_count k rest.
Proof.
  intros Hid Hb. destruct (record_head id body rest Hid Hb) as (Hl & Hi & Hs & _ & _ & Hd).
  pose proof (zlen_nonneg body). pose proof (zlen_nonneg rest).
  cbn [z64_count]. rewrite su_id, su_size, Hi, Hs, Hd, Hl.
  replace (_ <? 4) with false by lia. replace (_ <? _) with false by lia. reflexivity.
Qed.
Lemma z64_count_no1 : forall y, tlv_no1 y -> forall fuel, z64_count fuel y = 0.
Proof.
  induction 1 as [r Hr | id body rest Hid Hne Hb Hrest IH]; intros [|k]; try reflexivity.
  - cbn [z64_count]. now replace (zlen r <? 4) with true by lia.
  - rewrite z64_count_record, IH by assumption. now replace (id =? 1) with false by lia.
Qed.

Definition z64rec (f : cdent) : bytes := enc_struct z64x_widths (gdh_z64extra (e_csize f) (e_usize f) (e_offset f)).
Lemma z64rec_bytes f :
  z64rec f = le_enc 2 1 ++ le_enc 2 24 ++ le_enc 8 (e_usize f) ++ le_enc 8 (e_csize f) ++ le_enc 8 (e_offset f).
Proof. unfold z64rec, z64x_widths, gdh_z64extra. rewrite !enc_struct_cons, enc_struct_nil_l, app_nil_r. reflexivity. Qed.
(* the extra field of a rebuilt entry that needs ZIP64 *)
Definition new_extra (f : cdent) : bytes := z64rec f ++ without_zip64_extra (e_extra f).
(* ... is the ZIP64 record with all three values in front of the old records *)
Lemma new_extra_record f :
  new_extra f = le_enc 2 1 ++ le_enc 2 (zlen (opt8s true true true (e_usize f) (e_csize f) (e_offset f))) ++
                opt8s true true true (e_usize f) (e_csize f) (e_offset f) ++ without_zip64_extra (e_extra f).
Proof. unfold new_extra, opt8s. rewrite z64rec_bytes, <- !app_assoc. reflexivity. Qed.
Lemma new_extra_len f : 28 <= zlen (new_extra f) <= 28 + zlen (e_extra f).
Proof.
  unfold new_extra. rewrite zlen_app, z64rec_bytes, !zlen_app, !le_enc_zlen.
  pose proof (without_zip64_extra_len (e_extra f)). pose proof (zlen_nonneg (without_zip64_extra (e_extra f))). lia.
Qed.

Definition prom_vals (f : cdent) (xl : Z) : list Z :=
  [33639248; e_creator f; 45; e_flags f; e_method f; e_mtime f; e_mdate f; e_crc f; 4294967295; 4294967295;
   u16 (zlen (e_name f)); u16 xl; u16 (zlen (e_comment f)); 0; e_iattrs f; e_eattrs f; 4294967295].
Definition plain_vals (f : cdent) : list Z :=
  [33639248; e_creator f; e_reader f; e_flags f; e_method f; e_mtime f; e_mdate f; e_crc f; u32 (e_csize f); u32 (e_usize f);
   u16 (zlen (e_name f)); u16 (zlen (e_extra f)); u16 (zlen (e_comment f)); 0; e_iattrs f; e_eattrs f; u32 (e_offset f)].
Lemma regen_header_eq f rest :
  regen_header f ++ rest =
  if gdh_promote (e_csize f) (e_usize f) (e_offset f)
  then enc_struct cdh_widths (prom_vals f (zlen (new_extra f))) ++ e_name f ++ new_extra f ++ e_comment f ++ rest
  else enc_struct cdh_widths (plain_vals f) ++ e_name f ++ e_extra f ++ e_comment f ++ rest.
Proof. unfold regen_header. destruct (gdh_promote _ _ _); rewrite <- !app_assoc; reflexivity. Qed.

Lemma u16_mod x : 0 <= x < 65536 -> u16 x mod 65536 = x.
Proof. intros H. unfold u16. rewrite Z.mod_mod by lia. now apply Z.mod_small. Qed.
Lemma u32_mod x : 0 <= x < 4294967296 -> u32 x mod 4294967296 = x.
Proof. intros H. unfold u32. rewrite Z.mod_mod by lia. now apply Z.mod_small. Qed.

(* both readers on a rebuilt entry, reduced to their tails *)
Lemma regen_tail (T : entry_tail) f rest :
  ent_ok f -> 0 <= e_offset f < 2 ^ 64 ->
  sp_entry_with T (regen_header f ++ rest) =
  if gdh_promote (e_csize f) (e_usize f) (e_offset f)
  then T (e_name f) (new_extra f) rest (e_crc f) S_M32 S_M32 S_M32
  else T (e_name f) (e_extra f) rest (e_crc f) (e_csize f) (e_usize f) (e_offset f).
Proof.
  intros (Hcrc & Hcs & Hus & Hn & He & Hk) Ho.
  pose proof (zlen_nonneg (e_name f)). pose proof (zlen_nonneg (e_extra f)). pose proof (zlen_nonneg (e_comment f)).
  pose proof (new_extra_len f). rewrite regen_header_eq. destruct (gdh_promote (e_csize f) (e_usize f) (e_offset f)) eqn:P.
  - rewrite sp_entry_with_shape by (try reflexivity; cbn [nth prom_vals]; apply u16_mod; lia).
    cbn [nth prom_vals]. now rewrite Z.mod_small by lia.
  - unfold gdh_promote in P.
    rewrite sp_entry_with_shape by (try reflexivity; cbn [nth plain_vals]; apply u16_mod; lia).
    cbn [nth plain_vals]. now rewrite !u32_mod, Z.mod_small by lia.
Qed.

Lemma sp_entry_regen f rest :
  ent_ok f -> 0 <= e_offset f < 2 ^ 64 ->
  sp_entry (regen_header f ++ rest) = Some (view_of f, rest).
Proof.
  intros Hok Ho. unfold sp_entry. rewrite (regen_tail ap_tail f rest Hok Ho).
  destruct Hok as (Hcrc & Hcs & Hus & Hn & He & Hk).
  destruct (gdh_promote (e_csize f) (e_usize f) (e_offset f)) eqn:P.
  - rewrite new_extra_record. apply (ap_tail_z64 _ [] _ _ _ true true true _ _ _ wf_extra_nil eq_refl); try assumption; discriminate.
  - unfold gdh_promote in P. apply sp_tail_plain; unfold S_M32; lia.
Qed.
(* the zipfile-style reader: needs an extra field it can walk; then the one new record decides and nothing after it is a ZIP64 record *)
Lemma sp_entry_py_regen f rest :
  ent_ok f -> tlv (e_extra f) -> 0 <= e_offset f < 2 ^ 64 ->
  sp_entry_py (regen_header f ++ rest) = Some (view_of f, rest).
Proof.
  intros Hok Ht Ho. unfold sp_entry_py. rewrite (regen_tail py_tail f rest Hok Ho).
  destruct Hok as (Hcrc & Hcs & Hus & Hn & He & Hk).
  destruct (gdh_promote (e_csize f) (e_usize f) (e_offset f)) eqn:P.
  - rewrite new_extra_record. apply (py_tail_z64 _ [] _ _ _ true true true _ _ _ wf_extra_nil (without_zip64_extra_no1 _ Ht)); try assumption; discriminate.
  - unfold gdh_promote in P. unfold py_tail. rewrite py_scan_nosent; [reflexivity | exact Ht | lia | unfold S_M32; lia ..].
Qed.

(* both readers on a spec-built entry, reduced to their tails *)
Lemma central_tail (T : entry_tail) m off rest : central_ok m off ->
  sp_entry_with T (sp_central m off ++ rest) =
  T (m_name m) (sp_cextra m off) rest (m_crc m)
    (marked (sat_c m) (sp_csize m)) (marked (sat_u m) (m_usize m)) (marked (sat_o m off) off).
Proof.
  intros (_ & _ & _ & _ & _ & _ & Hcrc & _ & _ & Hnl & Hxl & Hkl & Hus & Hcs & Hoff & _).
  pose proof (zlen_nonneg (m_data m)) as Hd0. pose proof (zlen_nonneg (m_name m)). pose proof (zlen_nonneg (sp_cextra m off)).
  pose proof (zlen_nonneg (m_comment m)).
  destruct (sat_field (m_satu m) (m_usize m)) as [Hu32 _]; [lia|].
  destruct (sat_field (m_satc m) (sp_csize m)) as [Hc32 _]; [exact Hd0|].
  destruct (sat_field (m_sato m) off) as [Ho32 _]; [lia|].
  rewrite sp_central_vals. change apn_cdh_widths with cdh_widths.
  rewrite sp_entry_with_shape by (try reflexivity; cbn [nth cdh_vals]; apply Z.mod_small; lia).
  cbn [nth cdh_vals]. now rewrite !Z.mod_small by (assumption || lia).
Qed.
Lemma central_values m off : central_ok m off ->
  0 <= m_usize m < 2 ^ 64 /\ 0 <= sp_csize m < 2 ^ 64 /\ 0 <= off < 2 ^ 64 /\
  (sat_u m = false -> m_usize m < 4294967295) /\ (sat_c m = false -> sp_csize m < 4294967295) /\ (sat_o m off = false -> off < 4294967295).
Proof.
  intros (_ & _ & _ & _ & _ & _ & _ & _ & _ & _ & _ & _ & Hus & Hcs & Hoff & _). pose proof (zlen_nonneg (m_data m)). unfold sp_csize in *.
  repeat split; try lia; apply sat_small.
Qed.

Lemma sp_entry_central m off rest : central_ok m off ->
  sp_entry (sp_central m off ++ rest) = Some (mkSE (m_name m) off (sp_csize m) (m_usize m) (m_crc m), rest).
Proof.
  intros H. unfold sp_entry. rewrite central_tail by exact H.
  destruct (central_values m off H) as (Hu & Hc & Ho & Hu' & Hc' & Ho').
  destruct H as (_ & _ & _ & _ & _ & _ & _ & _ & _ & _ & _ & _ & _ & _ & _ & Hwf).
  rewrite sp_cextra_eq. cbv zeta. destruct (sat_u m || sat_c m || sat_o m off) eqn:Eany.
  - (* a ZIP64 record is present: behind or in front of the other extra data *)
    destruct (m_z64last m).
    + rewrite <- (app_nil_r (z64_body m off)) at 2. now apply ap_tail_z64; try apply Hwf.
    + rewrite <- !app_assoc. now apply (ap_tail_z64 _ []); try constructor.
  - apply orb_false_iff in Eany as [Eany Eo]. apply orb_false_iff in Eany as [Eu Ec]. rewrite Eu, Ec, Eo in *.
    apply sp_tail_plain; unfold marked, S_M32; lia.
Qed.
(* the zipfile-style reader on the same entries; it walks the whole extra field, so the other extra data must be records *)
Lemma sp_entry_py_central m off rest : central_ok m off -> wf_extra (m_cextra m) ->
  sp_entry_py (sp_central m off ++ rest) = Some (mkSE (m_name m) off (sp_csize m) (m_usize m) (m_crc m), rest).
Proof.
  intros H W. unfold sp_entry_py. rewrite central_tail by exact H.
  destruct (central_values m off H) as (Hu & Hc & Ho & Hu' & Hc' & Ho').
  rewrite sp_cextra_eq. cbv zeta. destruct (sat_u m || sat_c m || sat_o m off) eqn:Eany.
  - destruct (m_z64last m).
    + rewrite <- (app_nil_r (z64_body m off)) at 2. apply py_tail_z64; try assumption. apply no1_end. cbn. lia.
    + rewrite <- !app_assoc. apply (py_tail_z64 _ []); try assumption; [constructor | now apply wf_extra_no1].
  - (* no field saturated: no record is consulted *)
    apply orb_false_iff in Eany as [Eany ->]. apply orb_false_iff in Eany as [-> ->].
    unfold py_tail. now rewrite py_scan_no1 by now apply wf_extra_no1.
Qed.
Lemma wf_extra_tlv_app X Y : wf_extra X -> tlv Y -> tlv (X ++ Y).
Proof.
  induction 1 as [|tag body rest Ht Ht1 Hb Hwf IH]; intros HY; [exact HY|].
  rewrite <- !app_assoc. constructor; [assumption|assumption|now apply IH].
Qed.
Lemma tlv_cextra m off : wf_extra (m_cextra m) -> tlv (sp_cextra m off).
Proof.
  intros W. assert (T0 : tlv []) by (apply tlv_end; cbn; lia).
  assert (TW : tlv (m_cextra m)) by (rewrite <- (app_nil_r (m_cextra m)); now apply wf_extra_tlv_app).
  rewrite sp_cextra_eq. cbv zeta. destruct (sat_u m || sat_c m || sat_o m off) eqn:Eany; [|exact TW].
  pose proof (z64_body_len m off Eany). destruct (m_z64last m).
  - apply wf_extra_tlv_app; [exact W|]. rewrite <- (app_nil_r (z64_body m off)) at 2. constructor; [lia|lia|exact T0].
  - rewrite <- !app_assoc. constructor; [lia|lia|exact TW].
Qed.

Lemma parsed_ent_ok m off : central_ok m off -> zlen (sp_cextra m off) + 28 < 65536 ->
  ent_ok (with_crc (parsed_ent m off) (m_crc m)).
Proof.
  intros (_ & _ & _ & _ & _ & _ & Hcrc & _ & _ & Hnl & _ & Hkl & Hus & Hcs & _) Hx. pose proof (zlen_nonneg (m_data m)).
  unfold ent_ok, with_crc, parsed_ent, sp_csize in *. cbn [e_crc e_csize e_usize e_name e_extra e_comment]. repeat split; lia.
Qed.

(* the File as AddFile leaves it *)
Definition added (f : cdent) (dl : Z) : cdent := with_raw_off f (if negb (e_offset f =? dl) then [] else e_raw f) dl.
(* reader E reads the entry emitted for f as v *)
Definition emitsE (E : bytes -> option (sp_ent * bytes)) (f : cdent) (v : sp_ent) : Prop :=
  forall rest, E (dir_header f ++ rest) = Some (v, rest).

(* the cached entry is kept only where the member stays at its offset; otherwise the entry is rebuilt *)
Lemma emits_added (E : bytes -> option (sp_ent * bytes)) f dl :
  (forall rest, E (regen_header (added f dl) ++ rest) = Some (view_of (added f dl), rest)) ->
  (e_raw f = [] \/ forall rest, E (e_raw f ++ rest) = Some (view_of f, rest)) ->
  emitsE E (added f dl) (mkSE (e_name f) dl (e_csize f) (e_usize f) (e_crc f)).
Proof.
  intros Hreg Hraw rest. unfold dir_header.
  destruct (gdh_use_raw (zlen (e_raw (added f dl)))) eqn:U.
  - unfold added in *. cbn [e_raw with_raw_off] in *. unfold gdh_use_raw in U.
    destruct (e_offset f =? dl) eqn:Eq; cbn [negb] in *.
    + apply Z.eqb_eq in Eq. destruct Hraw as [Hr | Hr].
      * rewrite Hr in U. change (zlen (@nil Z)) with 0 in U. lia.
      * rewrite Hr. unfold view_of. now rewrite Eq.
    + change (zlen (@nil Z)) with 0 in U. lia.
  - rewrite Hreg. reflexivity.
Qed.

Lemma sp_entries_emitted E : forall files vs rest, Forall2 (emitsE E) files vs ->
  sp_entries_with E (length files) (cd_bytes files ++ rest) = Some (vs, rest).
Proof.
  induction files as [|f fs IH]; intros vs rest H; inversion H as [|? v ? vs' Hf Hfs]; subst; [reflexivity|].
  rewrite cd_bytes_cons, <- app_assoc. cbn [length sp_entries_with]. rewrite Hf. rewrite (IH vs' rest Hfs). reflexivity.
Qed.
(* every emitted entry is at least a fixed header long, hence the count is bounded by the directory size *)
Lemma count_le_size T : forall files vs, Forall2 (emitsE (sp_entry_with T)) files vs -> zlen files <= zlen (cd_bytes files).
Proof.
  induction files as [|f fs IH]; intros vs H; inversion H as [|? v ? vs' Hf Hfs]; subst; [cbn; lia|].
  rewrite cd_bytes_cons, zlen_cons, zlen_app. specialize (IH vs' Hfs).
  specialize (Hf []). rewrite app_nil_r in Hf. unfold sp_entry_with in Hf.
  destruct (zlen (dir_header f) <? 46) eqn:Eq; [discriminate|lia].
Qed.

Lemma sp_end_plain cd c s o :
  zlen cd = s -> 0 <= c < 65535 -> 0 <= s < 4294967295 -> 0 <= o < 4294967295 ->
  sp_end o (cd ++ eocd_of c s o) = Some (c, s, o).
Proof.
  intros Hcd Hc Hs Ho. pose proof (eocd_len c s o) as HE.
  unfold sp_end. rewrite zlen_app, HE, Hcd. replace (s + 22 - 22) with s by lia. replace (s <? 0) with false by lia.
  rewrite zdrop_app_len by exact Hcd.
  rewrite su_fld. unfold eocd_of. erewrite !fld_at0 by reflexivity. cbn [nth apn_eocd_widths].
  change (A_EOCD_SIG mod 256 ^ 4 =? 101010256) with true. change (0 mod 256 ^ 2 =? 0) with true. cbn [negb].
  rewrite !Z.mod_small by lia. unfold S_M16, S_M32.
  replace (c =? 65535) with false by lia. replace (s =? 4294967295) with false by lia. now replace (o =? 4294967295) with false by lia.
Qed.
Lemma sp_end_zip64 cd cr rd c s o :
  zlen cd = s -> 0 <= c < 2 ^ 64 -> 0 <= s -> 0 <= o -> o + s < 2 ^ 64 ->
  sp_end o (cd ++ e64_of cr rd c s o ++ l64_of (o + s) ++ eocd_of 65535 4294967295 4294967295) = Some (c, s, o).
Proof.
  intros Hcd Hc Hs Ho Hb.
  set (R := e64_of cr rd c s o). set (L := l64_of (o + s)). set (E := eocd_of 65535 4294967295 4294967295).
  assert (HR : zlen R = 56) by apply e64_len. assert (HL : zlen L = 20) by apply l64_len. assert (HE : zlen E = 22) by apply eocd_len.
  assert (FE : fld 0 4 E = 101010256 /\ fld 20 2 E = 0 /\ fld 10 2 E = S_M16) by (repeat split).
  assert (FL : fld 0 4 L = 117853008 /\ fld 8 8 L = o + s).
  { unfold L, l64_of. erewrite !fld_at0 by reflexivity. cbn [nth apn_l64_widths]. split; [reflexivity|].
    change (256 ^ 8) with (2 ^ 64). apply Z.mod_small. lia. }
  assert (FR : fld 0 4 R = 101075792 /\ fld 32 8 R = c /\ fld 40 8 R = s /\ fld 48 8 R = o).
  { unfold R, e64_of. erewrite !fld_at0 by reflexivity. cbn [nth apn_e64_widths]. change (256 ^ 8) with (2 ^ 64).
    repeat split; try reflexivity; apply Z.mod_small; lia. }
  destruct FE as (E1 & E2 & E3). destruct FL as (L1 & L2). destruct FR as (R1 & R2 & R3 & R4).
  unfold sp_end. rewrite su_fld, !zlen_app, HR, HL, HE, Hcd. replace (s + (56 + (20 + 22)) - 22) with (s + 76) by lia.
  replace (s + 76 <? 0) with false by lia.
  rewrite (app_assoc cd R), (app_assoc (cd ++ R) L), zdrop_app_len by (rewrite !zlen_app; lia).
  rewrite E1, E2, E3. cbn [Z.eqb Pos.eqb negb orb]. unfold S_M16. cbn [Z.eqb Pos.eqb orb].
  replace (s + 76 - 20) with (s + 56) by lia. replace (s + 56 <? 0) with false by lia.
  rewrite <- (app_assoc (cd ++ R) L), (zslice_app_mid (s + 56) (s + 76) (cd ++ R) L E) by (rewrite ?zlen_app; lia).
  rewrite L1, L2. cbn [Z.eqb Pos.eqb negb].
  replace (o + s - o) with s by lia. replace (s <? 0) with false by lia. replace (s + 56 <? s + 56) with false by lia. cbn [orb].
  rewrite <- !app_assoc, (zslice_app_mid s (s + 56) cd R) by lia. now rewrite R1, R2, R3, R4.
Qed.
(* ... as WriteDirectory emits them *)
Lemma sp_end_wd files dl force :
  zlen files <= zlen (cd_bytes files) -> 0 <= dl -> dl + zlen (cd_bytes files) < 2 ^ 63 ->
  sp_end dl (cd_bytes files ++ wd_tail files dl force) = Some (zlen files, zlen (cd_bytes files), dl).
Proof.
  intros Hcnt Hdl Hb. pose proof (zlen_nonneg files). rewrite wd_tail_eq. cbv zeta.
  destruct (wd_need_zip64 _ _ _ _) eqn:N; [now apply sp_end_zip64; try lia|].
  destruct (_ =? 45); [now apply sp_end_zip64; try lia|].
  unfold wd_need_zip64 in N. rewrite u16_small, !u32_small by lia. apply sp_end_plain; lia.
Qed.

(* entries that a reader reads as vs, followed by the end records of WriteDirectory *)
Lemma spec_read_of_emits T files vs dl force :
  Forall2 (emitsE (sp_entry_with T)) files vs -> 0 <= dl -> dl + zlen (cd_bytes files) < 2 ^ 63 ->
  sp_read_tail_with (sp_entry_with T) dl (cd_bytes files ++ wd_tail files dl force) = Some vs.
Proof.
  intros Hem Hdl Hb.
  pose proof (zlen_nonneg (cd_bytes files)) as Hz.
  pose proof (count_le_size T files _ Hem) as Hcnt. pose proof (zlen_nonneg files) as Hf0.
  unfold sp_read_tail_with. rewrite sp_end_wd by lia.
  replace (dl - dl) with 0 by lia. rewrite zlen_app. pose proof (zlen_nonneg (wd_tail files dl force)).
  replace ((0 <? 0) || (_ <? _)) with false by lia.
  rewrite Z.add_0_l, zslice_0, ztake_app_exact.
  unfold zlen at 1. rewrite Nat2Z.id.
  rewrite <- (app_nil_r (cd_bytes files)). rewrite (sp_entries_emitted _ files _ [] Hem). reflexivity.
Qed.

(* the File and the size an operation passes to AddFile *)
Definition step_file (op : wop) : cdent := match op with WNew c => new_file_ent c | WAdd f _ => f end.
Definition step_size (op : wop) : Z := match op with WNew c => new_file_size c | WAdd _ s => s end.
Definition spec_size (op : wop) : Z := match op with WNew c => sp_new_size c | WAdd _ s => s end.
Definition step_view (op : wop) (dl : Z) : sp_ent :=
  mkSE (e_name (step_file op)) dl (e_csize (step_file op)) (e_usize (step_file op)) (e_crc (step_file op)).
Lemma wstep_eq files dl op : wstep (files, dl) op = (files ++ [added (step_file op) dl], dl + step_size op).
Proof. destruct op; cbn [wstep fst snd]; unfold new_file_l, add_file_l; rewrite ?af_step_model; reflexivity. Qed.
Lemma intended_step_eq vs dl op : intended_step (vs, dl) op = (vs ++ [step_view op dl], dl + spec_size op).
Proof. destruct op; reflexivity. Qed.

(* for a reader (given by its tail T) and a class P of operations whose emitted entry that reader reads correctly:
   the files and DirLoc after a run correspond to the intended members, and the written directory reads as them *)
Section Run.
  Variable T : entry_tail.
  Variable P : wop -> Prop.
  Hypothesis P_size : forall op, P op -> 0 <= step_size op /\ step_size op = spec_size op.
  Hypothesis P_emits : forall op dl, P op -> 0 <= dl < 2 ^ 64 -> emitsE (sp_entry_with T) (added (step_file op) dl) (step_view op dl).

  Lemma wrun_mono : forall ops files dl, Forall P ops -> dl <= snd (wrun_from (files, dl) ops).
  Proof.
    induction ops as [|op ops IH]; intros files dl Hok; [cbn; lia|].
    inversion Hok as [|? ? Ho Hos]; subst. unfold wrun_from in *. cbn [fold_left]. rewrite wstep_eq.
    pose proof (P_size op Ho) as (Hs & _).
    specialize (IH (files ++ [added (step_file op) dl]) (dl + step_size op) Hos). lia.
  Qed.
  Lemma wrun_inv : forall ops files dl vs,
    Forall P ops -> 0 <= dl -> snd (wrun_from (files, dl) ops) < 2 ^ 64 -> Forall2 (emitsE (sp_entry_with T)) files vs ->
    Forall2 (emitsE (sp_entry_with T)) (fst (wrun_from (files, dl) ops)) (fst (intended_from (vs, dl) ops)) /\
    snd (wrun_from (files, dl) ops) = snd (intended_from (vs, dl) ops).
  Proof.
    induction ops as [|op ops IH]; intros files dl vs Hok Hdl Hfin Hem; [split; [exact Hem|reflexivity]|].
    inversion Hok as [|? ? Ho Hos]; subst.
    unfold wrun_from, intended_from in *. cbn [fold_left] in *. rewrite wstep_eq in *. rewrite intended_step_eq.
    pose proof (P_size op Ho) as (Hs & Hsz).
    pose proof (wrun_mono ops (files ++ [added (step_file op) dl]) (dl + step_size op) Hos) as Hm. unfold wrun_from in Hm.
    rewrite <- Hsz. apply IH; [exact Hos | lia | exact Hfin |].
    apply Forall2_app; [exact Hem|]. constructor; [|constructor].
    apply P_emits; [exact Ho | lia].
  Qed.
  Lemma run_read ops force :
    Forall P ops -> snd (wrun ops) + zlen (cd_bytes (fst (wrun ops))) < 2 ^ 63 ->
    let w := write_directory_l (fst (wrun ops)) (snd (wrun ops)) force in
    sp_read_tail_with (sp_entry_with T) (snd (wrun ops)) (fst (fst w) ++ snd (fst w)) = Some (fst (intended ops))
    /\ snd (wrun ops) = snd (intended ops).
  Proof.
    intros Hok Hb w. pose proof (zlen_nonneg (cd_bytes (fst (wrun ops)))) as Hz. pose proof (wrun_mono ops [] 0 Hok) as Hm.
    destruct (wrun_inv ops [] 0 [] Hok ltac:(lia)) as [Hem Hdl]; [unfold wrun in *; lia | constructor |].
    split; [|exact Hdl]. unfold w. rewrite write_directory_l_model. cbn [fst snd].
    apply spec_read_of_emits; [exact Hem | exact Hm | exact Hb].
  Qed.
End Run.

(* NewFile's own entries and sizes are within the domain *)
Lemma new_file_ddb_len c : zlen (new_file_ddb c) = if n_desc c then 24 else 0.
Proof.
  unfold new_file_ddb, nf_write_desc. destruct (n_desc c); [|reflexivity].
  now apply zlen_enc_struct.
Qed.
Lemma step_ok op : op_ok op ->
  ent_ok (step_file op) /\ raw_ok (step_file op) /\ 0 <= step_size op /\ step_size op = spec_size op.
Proof.
  destruct op as [c | f size]; cbn [op_ok step_file step_size spec_size].
  - intros (Hcrc & Hcs & Hus & Hn & He).
    pose proof (zlen_nonneg (n_name c)). pose proof (zlen_nonneg (n_extra c)).
    assert (Hs : new_file_size c = sp_new_size c).
    { unfold new_file_size, sp_new_size, total_size_expr, nf_file_csize. rewrite new_file_ddb_len. destruct (n_desc c); lia. }
    repeat split; try (left; reflexivity); try assumption;
      try (unfold new_file_ent, nf_file_crc, nf_file_csize, nf_file_usize; cbn [e_crc e_csize e_usize e_name e_extra e_comment]; change (zlen (@nil Z)) with 0; lia).
    rewrite Hs. unfold sp_new_size. destruct (n_desc c); lia.
  - intros (Hok & Hraw & Hs). repeat split; try assumption; apply Hok.
Qed.
Lemma step_ok_py op : op_ok_py op -> ent_ok (step_file op) /\ raw_ok_py (step_file op) /\ tlv (e_extra (step_file op)) /\ 0 <= step_size op /\ step_size op = spec_size op.
Proof.
  destruct op as [c | f size]; cbn [op_ok_py step_file step_size spec_size].
  - intros (Hn & Ht). destruct (step_ok (WNew c) Hn) as (H1 & _ & H3 & H4). cbn [step_file step_size spec_size] in *.
    repeat split; try assumption; try apply H1. left. reflexivity.
  - intros (Hok & Hraw & Hs & Ht). repeat split; try assumption; apply Hok.
Qed.

Theorem rewrite_directory_spec_read : forall ops force,
  Forall op_ok ops ->
  snd (wrun ops) + zlen (cd_bytes (fst (wrun ops))) < 2 ^ 63 ->
  let w := write_directory_l (fst (wrun ops)) (snd (wrun ops)) force in
  sp_read_tail (snd (wrun ops)) (fst (fst w) ++ snd (fst w)) = Some (fst (intended ops))
  /\ snd (wrun ops) = snd (intended ops)
  /\ write_directory (fst (wrun ops)) (snd (wrun ops)) force false false = Ok (fst w).
Proof.
  intros ops force Hok Hb w.
  destruct (run_read ap_tail op_ok) with (ops := ops) (force := force) as [Hr Hdl]; try assumption.
  - intros op H. apply (step_ok op H).
  - intros op dl H Hdl. destruct (step_ok op H) as (H1 & H2 & _). apply emits_added; [|exact H2]. intros rest. now apply sp_entry_regen.
  - split; [exact Hr | split; [exact Hdl | apply write_directory_model]].
Qed.
(* the same for the zipfile-style reader, which consults every ZIP64 record: extra fields must be walkable (records up to
   fewer than 4 trailing bytes) and cached raw entries must be read by that reader as the File's fields *)
Theorem rewrite_directory_zipfile_read : forall ops force,
  Forall op_ok_py ops ->
  snd (wrun ops) + zlen (cd_bytes (fst (wrun ops))) < 2 ^ 63 ->
  let w := write_directory_l (fst (wrun ops)) (snd (wrun ops)) force in
  sp_read_tail_py (snd (wrun ops)) (fst (fst w) ++ snd (fst w)) = Some (fst (intended ops)).
Proof.
  intros ops force Hok Hb w.
  destruct (run_read py_tail op_ok_py) with (ops := ops) (force := force) as [Hr _]; try assumption.
  - intros op H. apply (step_ok_py op H).
  - intros op dl H Hdl. destruct (step_ok_py op H) as (H1 & H2 & H3 & _). apply emits_added; [|exact H2]. intros rest. now apply sp_entry_py_regen.
Qed.

(* GetDirectoryHeader leaves the File as it was (f.Extra in particular), so a second call emits the same bytes
   (lib/signappx digests the first output and writes the second) *)
Lemma dir_header_after f : dir_header (after_write f) = dir_header f.
Proof. reflexivity. Qed.
Lemma cd_bytes_after : forall files, cd_bytes (map after_write files) = cd_bytes files.
Proof. induction files as [|f fs IH]; [reflexivity|]. cbn [map]. now rewrite !cd_bytes_cons, IH, dir_header_after. Qed.
Lemma min_version_after : forall files mv,
  fold_left (fun mv f => if wd_version_raise (e_reader f) mv then e_reader f else mv) (map after_write files) mv =
  fold_left (fun mv f => if wd_version_raise (e_reader f) mv then e_reader f else mv) files mv.
Proof. induction files as [|f fs IH]; intros mv; [reflexivity|]. cbn [map fold_left]. apply IH. Qed.
Theorem second_write_same : forall files dirloc force,
  fst (write_directory_l (snd (write_directory_l files dirloc force)) dirloc force) = fst (write_directory_l files dirloc force).
Proof.
  intros files dirloc force. rewrite !write_directory_l_model. cbn [fst snd].
  rewrite cd_bytes_after. f_equal.
  rewrite <- !wd_tail_of_model. rewrite cd_bytes_after. unfold wd_min_version. rewrite min_version_after.
  unfold zlen. now rewrite map_length.
Qed.

Fixpoint src_total (src : list msrc) : Z := match src with [] => 0 | m :: r => ms_size m + src_total r end.
Definition src_cuts (src : list msrc) : list (Z * Z) :=
  map (fun m => (e_offset (ms_ent m), ms_size m)) (filter ms_del src).
Lemma src_total_nonneg : forall src pos, contiguous src pos -> 0 <= src_total src.
Proof. induction src as [|m r IH]; intros pos H; cbn in *; [lia|]. destruct H as (_ & Hs & Hr). specialize (IH _ Hr). lia. Qed.

Lemma mangle_walk_run : forall src pos out dl cuts,
  contiguous src pos -> 0 <= pos -> pos + src_total src < 2 ^ 63 ->
  mangle_walk_l src pos out dl cuts =
  Ok (fst (wrun_from (out, dl) (kept_ops src)), snd (wrun_from (out, dl) (kept_ops src)), cuts ++ src_cuts src, pos + src_total src).
Proof.
  induction src as [|m r IH]; intros pos out dl cuts Hc Hp Hb.
  - cbn. now rewrite app_nil_r, Z.add_0_r.
  - cbn [contiguous src_total] in Hc, Hb. destruct Hc as (Ho & Hs & Hr).
    pose proof (src_total_nonneg r _ Hr) as Ht.
    cbn [mangle_walk_l]. rewrite to_i64_small by lia. rewrite Ho.
    unfold cc_refuse. rewrite Z.eqb_refl. cbn [negb]. change cc_advances with true. cbv iota.
    unfold mg_delete_branch, kept_ops, src_cuts. cbn [filter map src_total].
    destruct (ms_del m); cbn [negb map].
    + rewrite IH by (try assumption; lia). rewrite <- app_assoc, Ho. cbn [app].
      replace (pos + (ms_size m + src_total r)) with (pos + ms_size m + src_total r) by lia. reflexivity.
    + rewrite IH by (try assumption; lia). unfold wrun_from. cbn [fold_left wstep fst snd].
      replace (pos + (ms_size m + src_total r)) with (pos + ms_size m + src_total r) by lia. reflexivity.
Qed.
(* the offsets AddFile assigns during Mangle are the physical positions after the deleted ranges are cut out *)
Lemma mangle_offsets_physical : forall src pos removed vs,
  contiguous src pos ->
  fst (intended_from (vs, pos - removed) (kept_ops src)) = vs ++ kept_views src removed.
Proof.
  induction src as [|m r IH]; intros pos removed vs Hc; [cbn; now rewrite app_nil_r|].
  cbn [contiguous] in Hc. destruct Hc as (Ho & Hs & Hr).
  unfold kept_ops in *. cbn [filter kept_views]. destruct (ms_del m); cbn [negb map].
  - replace (pos - removed) with (pos + ms_size m - (removed + ms_size m)) by lia. now apply IH.
  - unfold intended_from in *. cbn [fold_left intended_step fst snd].
    replace (pos - removed + ms_size m) with (pos + ms_size m - removed) by lia.
    rewrite (IH _ removed _ Hr). rewrite <- app_assoc. cbn [app]. now rewrite Ho.
Qed.

(* NewFile calls of the examples in C17/Properties.v: a 4 GiB member (only its length is given), a small one with a descriptor *)
Definition w_big : nfl := mkNfl [98] [] 4294967296 4294967296 7 0 0 0 false.
Definition w_small : nfl := mkNfl [115] [] 3 3 9 0 0 0 true.
