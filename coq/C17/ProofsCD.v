(* C17/ProofsCD.v — ReadWithDirectory on APPNOTE-built central directories (incl. the ZIP64 extra scan),
   re-emission, and the whole-archive round trip. *)
From Relic Require Import Base.Prelude Base.Enc Generated.C17_gen C17.Model C17.Bytes C17.Proofs Base.Slice.

Lemma z64_scan_noneed : forall fuel extra st, z_need_c st = false -> z_need_o st = false ->
  z64_scan fuel extra false st = st.
Proof.
  induction fuel as [|k IH]; intros extra st Hc Ho; cbn [z64_scan]; [reflexivity|].
  destruct (negb (rwd_extra_loop (zlen extra))); [reflexivity|].
  destruct (rwd_rec_overrun _ _); [reflexivity|].
  destruct (rwd_is_zip64_tag _).
  - unfold rwd_seq_u, rwd_seq_c, rwd_seq_o, rwd_take_u, rwd_take_c, rwd_take_o. rewrite Hc, Ho. cbn [andb].
    destruct st; cbn in Hc, Ho; subst. destruct (rwd_exact_rec _ _); reflexivity.
  - now apply IH.
Qed.

(* what the data e of a ZIP64 record does to the scan state: the two decodings of ReadWithDirectory *)
Definition z64_apply (e : bytes) (need_u : bool) (st : z64st) : z64st :=
  let size := zlen e in
  let needed := (if need_u then 1 else 0) + (if z_need_c st then 1 else 0) + (if z_need_o st then 1 else 0) in
  if rwd_exact_rec size needed then
    let u := if rwd_seq_u need_u then le_dec (zslice 0 8 e) else z_usize st in
    let e1 := if rwd_seq_u need_u then zdrop 8 e else e in
    let c := if rwd_seq_c (z_need_c st) then le_dec (zslice 0 8 e1) else z_csize st in
    let nc := if rwd_seq_c (z_need_c st) then rwd_need_c_after else z_need_c st in
    let e2 := if rwd_seq_c (z_need_c st) then zdrop 8 e1 else e1 in
    let o := if rwd_seq_o (z_need_o st) then le_dec (zslice 0 8 e2) else z_offset st in
    let no := if rwd_seq_o (z_need_o st) then rwd_need_o_after else z_need_o st in
    mkZ u c o nc no
  else
    mkZ (if rwd_take_u need_u size then le_dec (zslice 0 8 e) else z_usize st)
        (if rwd_take_c (z_need_c st) size then le_dec (zslice 8 16 e) else z_csize st)
        (if rwd_take_o (z_need_o st) size then le_dec (zslice 16 24 e) else z_offset st)
        (if rwd_take_c (z_need_c st) size then rwd_need_c_after else z_need_c st)
        (if rwd_take_o (z_need_o st) size then rwd_need_o_after else z_need_o st).
(* a record in front: the ZIP64 record ends the scan, any other is stepped over *)
Lemma z64_scan_record k id body rest need_u st : 0 <= id < 65536 -> zlen body < 65536 ->
  z64_scan (S k) (le_enc 2 id ++ le_enc 2 (zlen body) ++ body ++ rest) need_u st =
  if id =? 1 then z64_apply body need_u st else z64_scan k rest need_u st.
Proof.
  intros Hid Hb. destruct (record_head id body rest Hid Hb) as (Hl & Hi & Hs & He & _ & Hd).
  pose proof (zlen_nonneg body). pose proof (zlen_nonneg rest).
  cbn [z64_scan]. rewrite Hi, Hs, He, Hd, Hl. unfold rwd_extra_loop, rwd_rec_overrun, rwd_is_zip64_tag.
  replace (4 + zlen body + zlen rest >=? 4) with true by lia. replace (zlen body >? 4 + zlen body + zlen rest - 4) with false by lia.
  reflexivity.
Qed.
Lemma z64_scan_skip X : wf_extra X -> forall fuel Z need_u st, (length X < fuel)%nat ->
  exists k, z64_scan fuel (X ++ Z) need_u st = z64_scan (S k) Z need_u st.
Proof.
  intros HX fuel Z need_u st. apply (skip_records (fun k x => z64_scan k x need_u st)); [|exact HX].
  intros k id body rest Hid Hne Hb. rewrite z64_scan_record by assumption. now replace (id =? 1) with false by lia.
Qed.

(* 8-byte values, each present only if its flag is set: what the ZIP64 record of an entry holds (APPNOTE 4.5.3) *)
Definition opt8s (bu bc bo : bool) (u c o : Z) : bytes :=
  (if bu then le_enc 8 u else []) ++ (if bc then le_enc 8 c else []) ++ (if bo then le_enc 8 o else []).
Lemma zlen_opt8s bu bc bo u c o : zlen (opt8s bu bc bo u c o) = (if bu then 8 else 0) + (if bc then 8 else 0) + (if bo then 8 else 0).
Proof. unfold opt8s. rewrite !zlen_app. destruct bu, bc, bo; reflexivity. Qed.
Lemma dec8_head x R : 0 <= x < 2 ^ 64 -> le_dec (zslice 0 8 (le_enc 8 x ++ R)) = x.
Proof. apply (le_dec_head 8). Qed.
Lemma dec8_all x : 0 <= x < 2 ^ 64 -> le_dec (zslice 0 8 (le_enc 8 x)) = x.
Proof. rewrite <- (app_nil_r (le_enc 8 x)). apply dec8_head. Qed.
Lemma drop8_head x R : zdrop 8 (le_enc 8 x ++ R) = R.
Proof. apply zdrop_app_len, le_enc_zlen. Qed.
(* the record holds exactly the values the state still needs: each is taken, in order *)
Lemma z64_apply_exact bu bc bo u c o st :
  0 <= u < 2 ^ 64 -> 0 <= c < 2 ^ 64 -> 0 <= o < 2 ^ 64 -> z_need_c st = bc -> z_need_o st = bo ->
  z64_apply (opt8s bu bc bo u c o) bu st =
  mkZ (if bu then u else z_usize st) (if bc then c else z_csize st) (if bo then o else z_offset st) false false.
Proof.
  intros Hu Hc Ho <- <-. unfold z64_apply. rewrite zlen_opt8s. unfold opt8s, rwd_exact_rec, rwd_seq_u, rwd_seq_c, rwd_seq_o.
  destruct bu, (z_need_c st), (z_need_o st); cbn [app Z.add Z.mul Z.eqb Pos.eqb Pos.add Pos.mul orb]; cbv iota;
    rewrite ?app_nil_r, ?drop8_head, ?dec8_head, ?dec8_all by assumption; reflexivity.
Qed.

Lemma sat_small (forced : bool) v : sat forced v = false -> v < 4294967295.
Proof. unfold sat, A_M32. intros H. apply orb_false_iff in H as [_ H]. lia. Qed.
(* the 32-bit field is the marker exactly when the value is in the ZIP64 record *)
Lemma sat_field forced v : 0 <= v ->
  0 <= (if sat forced v then A_M32 else v) < 4294967296 /\ ((if sat forced v then A_M32 else v) =? 4294967295) = sat forced v.
Proof. intros Hv. destruct (sat forced v) eqn:E; [split; [unfold A_M32; lia|reflexivity]|]. apply sat_small in E. lia. Qed.

(* the extra field of a central entry: the other extra data, with the ZIP64 record (if any field is saturated) on one side *)
Definition z64_body (m : smember) (off : Z) : bytes := opt8s (sat_u m) (sat_c m) (sat_o m off) (m_usize m) (sp_csize m) off.
Lemma sp_z64rec_eq m off :
  sp_z64rec m off =
  if sat_u m || sat_c m || sat_o m off then le_enc 2 1 ++ le_enc 2 (zlen (z64_body m off)) ++ z64_body m off else [].
Proof.
  change (sp_z64rec m off)
    with (if zlen (z64_body m off) =? 0 then [] else le_enc 2 1 ++ le_enc 2 (zlen (z64_body m off)) ++ z64_body m off).
  unfold z64_body at 1. rewrite zlen_opt8s. now destruct (sat_u m), (sat_c m), (sat_o m off).
Qed.
Lemma sp_cextra_eq m off :
  sp_cextra m off =
  if sat_u m || sat_c m || sat_o m off then
    let rec := le_enc 2 1 ++ le_enc 2 (zlen (z64_body m off)) ++ z64_body m off in
    if m_z64last m then m_cextra m ++ rec else rec ++ m_cextra m
  else m_cextra m.
Proof.
  unfold sp_cextra. rewrite sp_z64rec_eq.
  destruct (sat_u m || sat_c m || sat_o m off), (m_z64last m); rewrite ?app_nil_r; reflexivity.
Qed.
Lemma z64_body_len m off : sat_u m || sat_c m || sat_o m off = true -> 0 < zlen (z64_body m off) < 65536.
Proof. intros H. unfold z64_body. rewrite zlen_opt8s. destruct (sat_u m), (sat_c m), (sat_o m off); try discriminate; lia. Qed.

(* the scan on the central extra field of a spec-built entry restores the 64-bit values, for every saturation mask *)
Lemma z64_scan_central : forall m off,
  central_ok m off ->
  let u0 := if sat_u m then A_M32 else m_usize m in
  let c0 := if sat_c m then A_M32 else sp_csize m in
  let o0 := if sat_o m off then A_M32 else off in
  let st := z64_scan (length (sp_cextra m off)) (sp_cextra m off) (rwd_need_u u0) (mkZ u0 c0 o0 (rwd_need_c c0) (rwd_need_o o0)) in
  z_usize st = m_usize m /\ z_csize st = sp_csize m /\ z_offset st = off /\ z_need_c st = false /\ z_need_o st = false.
Proof.
  intros m off H. destruct H as (_ & _ & _ & _ & _ & _ & _ & _ & _ & _ & _ & _ & Hus & Hcs & Hoff & Hwf).
  pose proof (zlen_nonneg (m_data m)) as Hd0. cbv zeta. unfold rwd_need_u, rwd_need_c, rwd_need_o, sat_u, sat_c, sat_o.
  destruct (sat_field (m_satu m) (m_usize m)) as [_ ->]; [lia|].
  destruct (sat_field (m_satc m) (sp_csize m)) as [_ ->]; [exact Hd0|].
  destruct (sat_field (m_sato m) off) as [_ ->]; [lia|].
  fold (sat_u m) (sat_c m) (sat_o m off). rewrite sp_cextra_eq. cbv zeta.
  destruct (sat_u m || sat_c m || sat_o m off) eqn:Eany.
  2:{ (* nothing saturated: whatever the other extra data is, the scan leaves the fields alone *)
    apply orb_false_iff in Eany as [Eany ->]. apply orb_false_iff in Eany as [-> ->].
    rewrite z64_scan_noneed by reflexivity. cbn. auto. }
  pose proof (z64_body_len m off Eany) as Hb.
  set (st0 := mkZ _ _ _ _ _). set (rec := le_enc 2 1 ++ le_enc 2 (zlen (z64_body m off)) ++ z64_body m off).
  (* reach the record behind well-formed other data, then read it *)
  assert (Hscan : forall fuel X Y, wf_extra X -> (length X < fuel)%nat ->
            z64_scan fuel (X ++ rec ++ Y) (sat_u m) st0 = mkZ (m_usize m) (sp_csize m) off false false).
  { intros fuel X Y HX Hf. destruct (z64_scan_skip X HX fuel (rec ++ Y) (sat_u m) st0 Hf) as (k & ->).
    unfold rec. rewrite <- !app_assoc, z64_scan_record by lia. cbn [Z.eqb Pos.eqb]. cbv iota. unfold z64_body.
    rewrite z64_apply_exact by (try reflexivity; unfold sp_csize in *; lia). unfold st0. cbn [z_usize z_csize z_offset].
    now destruct (sat_u m), (sat_c m), (sat_o m off). }
  destruct (m_z64last m).
  - rewrite <- (app_nil_r rec), Hscan; [cbn; auto | now apply Hwf | unfold rec; rewrite !app_length, !le_enc_length; lia].
  - rewrite <- (app_nil_l (rec ++ _)), Hscan; [cbn; auto | constructor | unfold rec; rewrite !app_length, !le_enc_length; cbn; lia].
Qed.

Lemma lor8_range a : 0 <= a < 65536 -> 0 <= Z.lor a 8 < 65536.
Proof.
  intros H. split; [apply Z.lor_nonneg; lia|].
  assert (0 < Z.lor a 8).
  { assert (0 <= Z.lor a 8) by (apply Z.lor_nonneg; lia). assert (Z.lor a 8 <> 0) by (rewrite Z.lor_eq_0_iff; lia). lia. }
  change 65536 with (2 ^ 16). apply Z.log2_lt_pow2; [assumption|].
  rewrite Z.log2_lor by lia. change (Z.log2 8) with 3.
  destruct (Z.eq_dec a 0) as [->|Ha]; [cbn; lia|].
  assert (Z.log2 a < 16) by (apply Z.log2_lt_pow2; lia). lia.
Qed.
Lemma sp_flags_range m : 0 <= m_flags m < 65536 -> 0 <= sp_flags m < 65536.
Proof. intros H. unfold sp_flags. destruct (has_desc m); [now apply lor8_range|now rewrite Z.lor_0_r]. Qed.

Lemma sp_cdh_len m off : zlen (sp_cdh m off) = 46.
Proof. now apply zlen_enc_struct. Qed.
Lemma sp_central_len m off : zlen (sp_central m off) = 46 + zlen (m_name m) + zlen (sp_cextra m off) + zlen (m_comment m).
Proof. unfold sp_central. rewrite !zlen_app, sp_cdh_len. lia. Qed.

Definition cdh_vals (m : smember) (off : Z) : list Z :=
  [A_CDH_SIG; m_creator m; m_reader m; sp_flags m; m_method m; m_mtime m; m_mdate m; m_crc m;
   (if sat_c m then A_M32 else sp_csize m); (if sat_u m then A_M32 else m_usize m);
   zlen (m_name m); zlen (sp_cextra m off); zlen (m_comment m); m_disk m; m_iattrs m; m_eattrs m;
   (if sat_o m off then A_M32 else off)].
Lemma sp_central_vals m off R :
  sp_central m off ++ R = enc_struct apn_cdh_widths (cdh_vals m off) ++ m_name m ++ sp_cextra m off ++ m_comment m ++ R.
Proof. unfold sp_central. now rewrite <- !app_assoc. Qed.

(* the first four bytes of a record, as relic looks at them, are its signature field *)
Lemma sig4_fld l : le_dec (ztake 4 l) = fld 0 4 l.
Proof. reflexivity. Qed.

Lemma read_entries_step : forall k m off R, central_ok m off ->
  read_entries (S k) (sp_central m off ++ R) = (rest <- read_entries k R ;; Ok (parsed_ent m off :: fst rest, snd rest)).
Proof.
  intros k m off R H. pose proof (z64_scan_central m off H) as (S1 & S2 & S3 & S4 & S5).
  destruct H as (Hcr & Hrd & Hfl & Hme & Hmt & Hmd & Hcrc & Hia & Hea & Hnl & Hxl & Hcl & Hus & Hcs & Hoff & Hwf).
  pose proof (zlen_nonneg (m_name m)). pose proof (zlen_nonneg (sp_cextra m off)). pose proof (zlen_nonneg (m_comment m)).
  pose proof (zlen_nonneg R). pose proof (zlen_nonneg (m_data m)) as Hd0. pose proof (sp_flags_range m Hfl).
  destruct (sat_field (m_satu m) (m_usize m)) as [Hu32 _]; [lia|].
  destruct (sat_field (m_satc m) (sp_csize m)) as [Hc32 _]; [exact Hd0|].
  destruct (sat_field (m_sato m) off) as [Ho32 _]; [lia|].
  fold (sat_u m) in Hu32. fold (sat_c m) in Hc32. fold (sat_o m off) in Ho32.
  set (cd := sp_central m off ++ R).
  assert (Hlen : zlen cd = 46 + zlen (m_name m) + zlen (sp_cextra m off) + zlen (m_comment m) + zlen R)
    by (unfold cd; rewrite zlen_app, sp_central_len; lia).
  assert (F : forall o w i, field_ix apn_cdh_widths o w = Some i ->
                            fld o w cd = nth i (cdh_vals m off) 0 mod 256 ^ nth i apn_cdh_widths 0)
    by (intros o w i Hi; unfold cd; rewrite sp_central_vals; now apply fld_at).
  cbn [read_entries]. fold cd. unfold rwd_cd_short, rwd_hdr_short, rwd_ent_short, cdf. rewrite sig4_fld.
  erewrite !F by reflexivity. cbn [nth cdh_vals apn_cdh_widths].
  change (rwd_not_cd_sig (A_CDH_SIG mod 256 ^ 4)) with false. cbv iota.
  change (256 ^ 2) with 65536. change (256 ^ 4) with 4294967296. rewrite !Z.mod_small by (assumption || lia).
  change directoryHeaderLen with 46. rewrite Hlen.
  replace (_ <? 4) with false by lia. replace (_ <? 46) with false by lia. replace (_ <? _) with false by lia.
  assert (D : zdrop 46 cd = m_name m ++ sp_cextra m off ++ m_comment m ++ R)
    by (unfold cd; rewrite sp_central_vals; now apply zdrop_app_len, zlen_enc_struct).
  rewrite D, !zdrop_app_exact, !ztake_app_exact, S1, S2, S3, S4, S5. change (rwd_missing_z64 false false) with false. cbv iota.
  unfold cd. rewrite ztake_app_len by (rewrite sp_central_len; lia). reflexivity.
Qed.

Definition centrals (ps : list (smember * Z)) : bytes := concat (map (fun p => sp_central (fst p) (snd p)) ps).
Definition parsed (ps : list (smember * Z)) : list cdent := map (fun p => parsed_ent (fst p) (snd p)) ps.

Lemma read_entries_centrals : forall ps tail fuel,
  Forall (fun p => central_ok (fst p) (snd p)) ps -> 4 <= zlen tail -> rwd_not_cd_sig (le_dec (ztake 4 tail)) = true ->
  (length ps < fuel)%nat -> read_entries fuel (centrals ps ++ tail) = Ok (parsed ps, tail).
Proof.
  induction ps as [|[m off] ps IH]; intros tail fuel Hok Ht Hsig Hf.
  - destruct fuel as [|k]; [cbn in Hf; lia|]. cbn [centrals map concat app read_entries]. unfold rwd_cd_short.
    replace (zlen tail <? 4) with false by lia. rewrite Hsig. reflexivity.
  - destruct fuel as [|k]; [cbn in Hf; lia|]. inversion Hok as [|? ? H1 H2]; subst.
    unfold centrals. cbn [map concat fst snd]. rewrite <- app_assoc.
    rewrite read_entries_step by exact H1. fold (centrals ps).
    rewrite IH by (auto; cbn in Hf; lia). reflexivity.
Qed.
Lemma centrals_long ps : (length ps <= length (centrals ps))%nat.
Proof.
  induction ps as [|[m off] ps IH]; [cbn; lia|]. unfold centrals in *. cbn [map concat fst snd length]. rewrite app_length.
  pose proof (sp_central_len m off) as H. unfold zlen in H.
  pose proof (zlen_nonneg (m_name m)). pose proof (zlen_nonneg (sp_cextra m off)). pose proof (zlen_nonneg (m_comment m)).
  unfold zlen in *. lia.
Qed.

Lemma eocd_sig a b c : fld eocd_off_Signature eocd_w_Signature (eocd_of a b c) = A_EOCD_SIG.
Proof. unfold eocd_of. now erewrite fld_at0 by reflexivity. Qed.
Lemma e64_sig a b c d e : fld e64_off_Signature e64_w_Signature (e64_of a b c d e) = A_E64_SIG.
Proof. unfold e64_of. now erewrite fld_at0 by reflexivity. Qed.
Lemma l64_sig a : fld l64_off_Signature l64_w_Signature (l64_of a) = A_L64_SIG.
Proof. unfold l64_of. now erewrite fld_at0 by reflexivity. Qed.

(* ReadWithDirectory on the directory followed by a plain end record, or by ZIP64 end record + locator + end record *)
Lemma rwd_plain : forall ps size a b c,
  Forall (fun p => central_ok (fst p) (snd p)) ps ->
  read_with_directory size (centrals ps ++ eocd_of a b c) =
  Ok (mkDir (parsed ps) size (size - zlen (centrals ps ++ eocd_of a b c)) (zeros e64_size) (zeros l64_size) (eocd_of a b c)).
Proof.
  intros ps size a b c Hok. unfold read_with_directory. pose proof (eocd_len a b c) as HE.
  assert (Hs : le_dec (ztake 4 (eocd_of a b c)) = A_EOCD_SIG) by exact (eocd_sig a b c).
  rewrite read_entries_centrals; [|assumption|lia|now rewrite Hs|].
  2:{ pose proof (centrals_long ps). rewrite app_length. lia. }
  cbn [bind fst snd]. rewrite Hs.
  change (A_EOCD_SIG =? directory64EndSignature) with false. change (A_EOCD_SIG =? directoryEndSignature) with true. cbv iota.
  unfold rwd_dirloc. now rewrite (seq_take_last 2) by exact HE.
Qed.
Lemma rwd_zip64 : forall ps size cr rd n s o c16 s32 o32 lo,
  Forall (fun p => central_ok (fst p) (snd p)) ps ->
  let E64 := e64_of cr rd n s o in let L := l64_of lo in let E := eocd_of c16 s32 o32 in
  read_with_directory size (centrals ps ++ E64 ++ L ++ E) =
  Ok (mkDir (parsed ps) size (size - zlen (centrals ps ++ E64 ++ L ++ E)) E64 L E).
Proof.
  intros ps size cr rd n s o c16 s32 o32 lo Hok E64 L E. unfold read_with_directory.
  pose proof (eocd_len c16 s32 o32) as HE. pose proof (e64_len cr rd n s o) as H64. pose proof (l64_len lo) as HL.
  fold E in HE. fold E64 in H64. fold L in HL.
  assert (Hs : le_dec (ztake 4 (E64 ++ L ++ E)) = A_E64_SIG) by (rewrite ztake_app_l by lia; exact (e64_sig cr rd n s o)).
  rewrite read_entries_centrals; [|assumption|rewrite !zlen_app; lia|now rewrite Hs|].
  2:{ pose proof (centrals_long ps). rewrite app_length. lia. }
  cbn [bind fst snd]. rewrite Hs.
  change (A_E64_SIG =? directory64EndSignature) with true. cbv iota.
  unfold rwd_dirloc, rwd_read_order. cbn [skipn].
  rewrite (seq_take_here 3), !(seq_take_next 3), (seq_take_here 1), (seq_take_next 1), (seq_take_last 2) by (assumption || discriminate).
  reflexivity.
Qed.

Lemma sp_locals_plain ms : sp_locals [] ms = locals ms.
Proof. induction ms as [|m ms IH]; [reflexivity|]. cbn [sp_locals hd tl app]. rewrite IH. reflexivity. Qed.
Lemma sp_offsets_plain s m ms : sp_offsets s [] (m :: ms) = s :: sp_offsets (s + zlen (sp_local m)) [] ms.
Proof. cbn [sp_offsets hd tl]. change (zlen (@nil Z)) with 0. now rewrite Z.add_0_r. Qed.
Lemma sp_offsets_len s g ms : length (sp_offsets s g ms) = length ms.
Proof. revert s g. induction ms as [|m ms IH]; intros; cbn [sp_offsets length]; [reflexivity|]. now rewrite IH. Qed.
Lemma build_plain ms mode :
  build ms (plain_opts mode) =
  locals ms ++ centrals (pairs ms) ++ sp_end (plain_opts mode) (zlen ms) (zlen (centrals (pairs ms))) (zlen (locals ms)).
Proof.
  unfold build, plain_opts. cbn [o_gaps o_gapcd o_cdorder o_prefix app]. rewrite sp_locals_plain, app_nil_r.
  unfold sp_centrals, centrals, pairs. reflexivity.
Qed.

Lemma placed_parsed : forall ms s, placed s ms (parsed (combine ms (sp_offsets s [] ms))).
Proof.
  induction ms as [|m ms IH]; intros s; [constructor|].
  rewrite sp_offsets_plain. cbn [combine parsed map]. constructor.
  - repeat split.
  - apply IH.
Qed.

Lemma sp_end_cases mode count cdsize cdoff :
  let need := (count >=? A_M16) || (cdsize >=? A_M32) || (cdoff >=? A_M32) in
  let all := mode =? 1 in
  let f16 := fun v => if all || (v >=? A_M16) then A_M16 else v in
  let f32 := fun v => if all || (v >=? A_M32) then A_M32 else v in
  sp_end (plain_opts mode) count cdsize cdoff =
  if need || negb (mode =? 0)
  then e64_of 45 45 count cdsize cdoff ++ l64_of (cdoff + cdsize) ++ eocd_of (f16 count) (f32 cdsize) (f32 cdoff)
  else eocd_of (f16 count) (f32 cdsize) (f32 cdoff).
Proof.
  cbv zeta. unfold sp_end, plain_opts. cbn [o_zip64end o_e64creator o_e64reader o_comment]. change (zlen (@nil Z)) with 0.
  rewrite !app_nil_r. destruct ((count >=? A_M16) || (cdsize >=? A_M32) || (cdoff >=? A_M32) || negb (mode =? 0)).
  - rewrite <- app_assoc. reflexivity.
  - reflexivity.
Qed.

Lemma sp_end_len mode count cdsize cdoff : 22 <= zlen (sp_end (plain_opts mode) count cdsize cdoff) <= 98.
Proof. rewrite sp_end_cases. cbv zeta. destruct (_ || _); rewrite ?zlen_app, ?e64_len, ?l64_len, eocd_len; lia. Qed.

(* a field of the end record holds the marker when that is forced or the value does not fit *)
Lemma end_field_range (all : bool) M v : 0 <= v -> 0 <= M -> 0 <= (if all || (v >=? M) then M else v) <= M.
Proof. intros Hv HM. destruct all, (v >=? M) eqn:E; cbn [orb]; lia. Qed.

(* FindDirectory on the end records of build, behind data that ends where the directory they describe ends *)
Lemma find_directory_sp_end x mode count cdsize cdoff :
  zlen x = cdoff + cdsize -> 0 <= count -> 0 <= cdsize -> 0 <= cdoff ->
  let z := x ++ sp_end (plain_opts mode) count cdsize cdoff in
  zlen z < 2 ^ 63 -> find_directory (rd_bytes z) (zlen z) = Ok cdoff.
Proof.
  intros Hx Hc Hs Ho z Hbig. pose proof (sp_end_len mode count cdsize cdoff) as HT.
  unfold z in *. rewrite zlen_app in Hbig. rewrite sp_end_cases. cbv zeta.
  pose proof (end_field_range (mode =? 1) A_M16 count Hc) as Hc16.
  pose proof (end_field_range (mode =? 1) A_M32 cdsize Hs) as Hs32.
  pose proof (end_field_range (mode =? 1) A_M32 cdoff Ho) as Ho32.
  unfold A_M16, A_M32 in *. destruct (_ || negb (mode =? 0)) eqn:Ez64.
  - apply find_directory_zip64; try lia.
    unfold fd_is_zip64. intros Hf. apply orb_false_iff in Hf as [_ Hf].
    destruct ((mode =? 1) || (cdoff >=? 4294967295)); [lia|reflexivity].
  - (* no ZIP64 records: every field holds its value *)
    apply orb_false_iff in Ez64 as [Eneed Emode]. apply orb_false_iff in Eneed as [Eneed E3]. apply orb_false_iff in Eneed as [E1 E2].
    replace (mode =? 1) with false by lia. rewrite E1, E2, E3. cbn [orb].
    destruct (Z_lt_ge_dec (zlen x) 20); [apply find_directory_short | apply find_directory_plain]; lia.
Qed.

(* ReadWithDirectory on a directory followed by the end records of build keeps the records as they are *)
Lemma rwd_sp_end ps size mode count cdsize cdoff :
  Forall (fun p => central_ok (fst p) (snd p)) ps ->
  let T := sp_end (plain_opts mode) count cdsize cdoff in
  exists E64 L64 E,
    read_with_directory size (centrals ps ++ T) = Ok (mkDir (parsed ps) size (size - zlen (centrals ps ++ T)) E64 L64 E) /\
    fld eocd_off_Signature eocd_w_Signature E <> 0 /\
    (if god_emit_end64 (fld e64_off_Signature e64_w_Signature E64) then E64 else []) ++
    (if god_emit_loc64 (fld l64_off_Signature l64_w_Signature L64) then L64 else []) ++ E = T.
Proof.
  intros Hok T. unfold T. rewrite sp_end_cases. cbv zeta.
  assert (Esig : forall a b c, fld eocd_off_Signature eocd_w_Signature (eocd_of a b c) <> 0)
    by (intros; rewrite eocd_sig; discriminate).
  destruct (_ || negb (mode =? 0)).
  - rewrite rwd_zip64 by exact Hok. do 3 eexists. split; [reflexivity|]. split; [apply Esig|].
    now rewrite e64_sig, l64_sig.
  - rewrite rwd_plain by exact Hok. do 3 eexists. split; [reflexivity|]. split; [apply Esig|]. reflexivity.
Qed.

(* the three end-of-directory records in the order relic writes them: ZIP64 end record (3), locator (1), end record (2) *)
Lemma pick_order a b c : concat (map (pick [(3, a); (1, b); (2, c)]) [3; 1; 2]) = a ++ b ++ c.
Proof. cbn. now rewrite app_nil_r. Qed.

Lemma cd_bytes_parsed ps : cd_bytes (parsed ps) = centrals ps.
Proof.
  unfold cd_bytes, parsed, centrals. rewrite map_map. apply f_equal. apply map_ext. intros [m off]. cbn [fst snd].
  unfold dir_header, parsed_ent. cbn [e_raw]. unfold gdh_use_raw.
  pose proof (sp_central_len m off). pose proof (zlen_nonneg (m_name m)). pose proof (zlen_nonneg (sp_cextra m off)).
  pose proof (zlen_nonneg (m_comment m)). replace (zlen (sp_central m off) >? 0) with true by lia. reflexivity.
Qed.

(* GetOriginalDirectory(false) of a directory that was read: the entries as WriteDirectory emits them, and the end records
   that were present *)
Lemma get_original_untrimmed r d : fld eocd_off_Signature eocd_w_Signature (d_end d) <> 0 ->
  get_original r d false =
  Ok (cd_bytes (d_files d),
      (if god_emit_end64 (fld e64_off_Signature e64_w_Signature (d_end64 d)) then d_end64 d else []) ++
      (if god_emit_loc64 (fld l64_off_Signature l64_w_Signature (d_loc64 d)) then d_loc64 d else []) ++ d_end d).
Proof.
  intros Hs. unfold get_original, god_is_new. replace (_ =? 0) with false by lia.
  unfold write_directory. change (wd_separate true) with true. change (list_eqb Z.eqb god_wd_weod_arg [0]) with false. cbv iota.
  cbn [bind fst]. unfold god_records. now rewrite (pick_order _ _ (d_end d)).
Qed.

Lemma views_parsed : forall ms s mode,
  views (parsed (combine ms (sp_offsets s [] ms))) (map sized_of ms) =
  map (fun p => sp_view1 (plain_opts mode) (fst p) (snd p)) (combine ms (sp_offsets s [] ms)).
Proof.
  induction ms as [|m ms IH]; intros s mode; [reflexivity|].
  rewrite sp_offsets_plain.
  unfold views, parsed in *. cbn [combine map fst snd]. f_equal; try reflexivity. apply IH.
Qed.

(* Read, once FindDirectory has found the directory at the end of the member data *)
Lemma read_zip_tail L T : 0 < zlen T -> find_directory (rd_bytes (L ++ T)) (zlen (L ++ T)) = Ok (zlen L) ->
  read_zip (rd_bytes (L ++ T)) (zlen (L ++ T)) = read_with_directory (zlen (L ++ T)) T.
Proof.
  intros HT Hfd. pose proof (zlen_nonneg L). unfold read_zip. rewrite Hfd. cbn [bind]. unfold rz_oob. rewrite zlen_app.
  replace ((zlen L <? 0) || (zlen L >? zlen L + zlen T)) with false by lia. replace (zlen L + zlen T - zlen L =? 0) with false by lia.
  rewrite (rd_bytes_part _ L T []) by (rewrite ?app_nil_r; auto; lia). reflexivity.
Qed.

(* Read of a built archive returns the parsed entries, the end of the member data, and the end records as they are *)
Lemma read_zip_build ms mode :
  let z := build ms (plain_opts mode) in
  Forall (fun p => central_ok (fst p) (snd p)) (pairs ms) -> zlen z < 2 ^ 63 ->
  exists E64 L64 E,
    read_zip (rd_bytes z) (zlen z) = Ok (mkDir (parsed (pairs ms)) (zlen z) (zlen (locals ms)) E64 L64 E) /\
    fld eocd_off_Signature eocd_w_Signature E <> 0 /\
    centrals (pairs ms) ++ (if god_emit_end64 (fld e64_off_Signature e64_w_Signature E64) then E64 else []) ++
                           (if god_emit_loc64 (fld l64_off_Signature l64_w_Signature L64) then L64 else []) ++ E
    = zdrop (zlen (locals ms)) z.
Proof.
  intros z Hcen Hbig. unfold z in *. rewrite build_plain in *.
  set (L := locals ms) in *. set (C := centrals (pairs ms)) in *. set (T := sp_end (plain_opts mode) (zlen ms) (zlen C) (zlen L)) in *.
  pose proof (zlen_nonneg L). pose proof (zlen_nonneg C). pose proof (zlen_nonneg ms).
  pose proof (sp_end_len mode (zlen ms) (zlen C) (zlen L)) as HT. fold T in HT.
  destruct (rwd_sp_end (pairs ms) (zlen (L ++ C ++ T)) mode (zlen ms) (zlen C) (zlen L) Hcen) as (E64 & L64 & E & Hrd & Hsig & Hrec).
  fold C T in Hrd, Hrec. exists E64, L64, E. split; [|split; [exact Hsig|]].
  - replace (zlen (L ++ C ++ T) - zlen (C ++ T)) with (zlen L) in Hrd by (rewrite !zlen_app; lia). rewrite <- Hrd.
    apply read_zip_tail; [rewrite zlen_app; lia|]. rewrite (app_assoc L C) in *.
    apply find_directory_sp_end; [apply zlen_app|lia|lia|lia|exact Hbig].
  - now rewrite Hrec, zdrop_app_exact.
Qed.

Theorem parse_build_thm : forall ms mode, classK ms mode ->
  let z := build ms (plain_opts mode) in
  exists d, read_zip (rd_bytes z) (zlen z) = Ok d
    /\ d_files d = parsed (pairs ms) /\ d_dirloc d = zlen (locals ms)
    /\ (forall md, total_sizes md (rd_bytes z) 0 (d_files d) = Ok (map sized_of ms))
    /\ views (d_files d) (map sized_of ms) = sp_view ms (plain_opts mode)
    /\ exists cd eod, get_original (rd_bytes z) d false = Ok (cd, eod) /\ cd ++ eod = zdrop (zlen (locals ms)) z.
Proof.
  intros ms mode (Hloc & Hcen & Hmode & Hbig) z. fold z in Hbig.
  destruct (read_zip_build ms mode Hcen Hbig) as (E64 & L64 & E & Hrd & Hsig & Hrec). fold z in Hrd, Hrec.
  eexists. split; [exact Hrd|]. cbn [d_files d_dirloc]. repeat split.
  - intros md. unfold z. rewrite build_plain, <- (app_nil_l (locals ms ++ _)).
    apply total_sizes_locals; [assumption|apply placed_parsed| |reflexivity].
    change (zlen (@nil Z)) with 0. unfold z in Hbig. rewrite build_plain, !zlen_app in Hbig.
    pose proof (zlen_nonneg (centrals (pairs ms))). pose proof (zlen_nonneg (sp_end (plain_opts mode) (zlen ms) (zlen (centrals (pairs ms))) (zlen (locals ms)))). lia.
  - unfold sp_view, pairs. cbn [plain_opts o_cdorder o_gaps]. apply views_parsed.
  - do 2 eexists. split; [now apply get_original_untrimmed|]. cbn [d_files d_end64 d_loc64 d_end].
    now rewrite cd_bytes_parsed.
Qed.

(* members and options of the archives on which the full statement fails (C17/Properties.v, 7.) *)
Definition wm (name : Z) (data : bytes) (usize : Z) (desc : desc_kind) (reader : Z) : smember :=
  mkMem [name] [] [] [] 20 reader 0 0 0 0 7 data usize 0 0 0 desc false false false false false.
Definition with_comment (c : bytes) : sopts := mkOpts [] c 0 45 45 [] [] [].
Definition with_prefix (p : bytes) : sopts := mkOpts p [] 0 45 45 [] [] [].
Definition with_order (ord : list nat) : sopts := mkOpts [] [] 0 45 45 [] [] ord.
Definition with_gap (g : list bytes) : sopts := mkOpts [] [] 0 45 45 g [] [].
Definition sizes_of (md : mode) (z : bytes) : result (list sized) :=
  d <- read_zip (rd_bytes z) (zlen z) ;; total_sizes md (rd_bytes z) 0 (d_files d).

