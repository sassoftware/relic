(* C06/Proofs.v — the effect trace of one signing request: what is published to the audit sinks, in any order of the
   sinks, before the response; totals over sequences of requests. *)
From Relic Require Import Base.Prelude Generated.C06_gen C06.Model.
From Coq Require Import Permutation.

Definition nb (b : bool) : nat := if b then 1%nat else 0%nat.

(* PublishAudit for an arbitrary order [pc] of sink attempts (0 = AMQP, anything else = the audit file).
   sink_fails: sink c is configured and its delivery fails *)
Definition sink_fails (c : Z) (s : sinks) : bool :=
  if c =? 0 then amqp_configured s && negb (amqp_ok s) else file_configured s && negb (file_ok s).

(* one sink of the order: is it configured, does its delivery succeed, the effect it leaves *)
Definition used (c : Z) (s : sinks) : bool := if c =? 0 then amqp_configured s else file_configured s.
Definition works (c : Z) (s : sinks) : bool := if c =? 0 then amqp_ok s else file_ok s.
Definition eff (c : Z) (s : sinks) : effect := if c =? 0 then EAmqp (amqp_ok s) else EAppend (file_ok s).

Lemma publish_step c r s :
  publish (c :: r) s =
  if used c s then if works c s then (eff c s :: fst (publish r s), snd (publish r s)) else ([eff c s], false) else publish r s.
Proof. cbn [publish]. unfold used, works, eff, publish_uses_amqp, publish_uses_file. destruct (c =? 0), (publish r s); reflexivity. Qed.

Lemma sink_fails_step c s : sink_fails c s = used c s && negb (works c s).
Proof. unfold sink_fails, used, works. destruct (c =? 0); reflexivity. Qed.
Lemma eff_kind c s : is_200 (eff c s) = false /\ is_failed_sink (eff c s) = negb (works c s).
Proof. unfold eff, works. destruct (c =? 0), (amqp_ok s), (file_ok s); split; reflexivity. Qed.

(* whatever the order: PublishAudit succeeds exactly when no sink in it is configured and failing *)
Lemma publish_snd pc s : snd (publish pc s) = forallb (fun c => negb (sink_fails c s)) pc.
Proof.
  induction pc as [|c r IH]; [reflexivity|]. rewrite publish_step. cbn [forallb]. rewrite <- IH, sink_fails_step.
  destruct (used c s), (works c s); reflexivity.
Qed.
Lemma publish_fail pc s : (exists c, In c pc /\ sink_fails c s = true) -> snd (publish pc s) = false.
Proof.
  intros (c & Hin & Hf). rewrite publish_snd. apply not_true_is_false. intro E.
  rewrite forallb_forall in E. specialize (E c Hin). rewrite Hf in E. discriminate E.
Qed.
Lemma publish_ok pc s : (forall c, In c pc -> sink_fails c s = false) -> snd (publish pc s) = true.
Proof. intro H. rewrite publish_snd. apply forallb_forall. intros c Hin. rewrite (H c Hin). reflexivity. Qed.

Lemma publish_no_respond pc s : existsb is_200 (fst (publish pc s)) = false.
Proof.
  induction pc as [|c r IH]; [reflexivity|]. rewrite publish_step.
  destruct (used c s); [|exact IH].
  destruct (works c s); cbn [fst existsb]; rewrite (proj1 (eff_kind c s)); [exact IH|reflexivity].
Qed.

(* serveSign with PublishAudit trying the sinks in an arbitrary order *)
Lemma serve_p_unfold pc i g s :
  serve_p pc serve_calls i g s =
  if i then
    if g then ESign true :: fst (publish pc s) ++ [ERespond (if snd (publish pc s) then 200 else 500)]
    else [ESign false; ERespond 500]
  else [ERespond 500].
Proof. destruct i, g; try reflexivity. unfold serve_calls. cbn [serve_p Z.eqb]. destruct (publish pc s) as [e [|]]; reflexivity. Qed.

Lemma sink_failure_blocks_any_order pc i g s :
  (exists c, In c pc /\ sink_fails c s = true) -> responds_200 (serve_p pc serve_calls i g s) = false.
Proof.
  intro H. rewrite serve_p_unfold. destruct i, g; try reflexivity.
  rewrite (publish_fail pc s H). unfold responds_200. cbn [existsb is_200 orb].
  rewrite existsb_app, publish_no_respond. reflexivity.
Qed.

(* every subset of failing sinks, every order in which both sinks are tried *)
Lemma sink_failure_blocks_every_order pc i g s :
  In 0 pc -> In 1 pc ->
  (amqp_configured s = true /\ amqp_ok s = false) \/ (file_configured s = true /\ file_ok s = false) ->
  responds_200 (serve_p pc serve_calls i g s) = false.
Proof.
  intros H0 H1 [[Hc Hk]|[Hc Hk]]; apply sink_failure_blocks_any_order.
  - exists 0. split; [exact H0|]. unfold sink_fails. cbn. rewrite Hc, Hk. reflexivity.
  - exists 1. split; [exact H1|]. unfold sink_fails. cbn. rewrite Hc, Hk. reflexivity.
Qed.

(* a 200 needs every attempted sink to have succeeded, in any order *)
Lemma response_needs_all_sinks pc i g s :
  responds_200 (serve_p pc serve_calls i g s) = true ->
  i = true /\ g = true /\ forall c, In c pc -> sink_fails c s = false.
Proof.
  intro H. destruct i; [|discriminate]. destruct g; [|discriminate]. repeat split.
  intros c Hin. destruct (sink_fails c s) eqn:E; [|reflexivity].
  rewrite sink_failure_blocks_any_order in H; [discriminate|]. exists c. auto.
Qed.

(* both orders: a 200 is preceded by exactly one delivered record per configured sink *)
Lemma audit_before_response_every_order pc init_ok sign_ok s :
  Permutation [0; 1] pc ->
  responds_200 (serve_p pc serve_calls init_ok sign_ok s) = true ->
  let pre := before_200 (serve_p pc serve_calls init_ok sign_ok s) in
  count_ok_amqp pre = nb (amqp_configured s) /\ count_ok_append pre = nb (file_configured s) /\
  In (ESign true) pre /\ init_ok = true /\ sign_ok = true.
Proof.
  intros P. destruct (Permutation_length_2_inv P) as [-> | ->]; destruct s as [ac fc ao fo];
    destruct init_ok, sign_ok, ac, fc, ao, fo; vm_compute; intro H; try discriminate; repeat split; auto.
Qed.

(* the code's own order is the generated table publish_calls, one of the two.
   server: a 200 response is preceded by exactly one successful record per configured sink, after the signature *)
Lemma audit_before_response init_ok sign_ok s :
  responds_200 (serve_sign init_ok sign_ok s) = true ->
  let pre := before_200 (serve_sign init_ok sign_ok s) in
  count_ok_amqp pre = nb (amqp_configured s) /\ count_ok_append pre = nb (file_configured s) /\
  In (ESign true) pre /\ init_ok = true /\ sign_ok = true.
Proof. exact (audit_before_response_every_order publish_calls init_ok sign_ok s (Permutation_refl _)). Qed.

(* any configured sink failing => the signature is not returned *)
Lemma sink_failure_blocks init_ok sign_ok s :
  (amqp_configured s = true /\ amqp_ok s = false) \/ (file_configured s = true /\ file_ok s = false) ->
  responds_200 (serve_sign init_ok sign_ok s) = false.
Proof. apply (sink_failure_blocks_every_order publish_calls); [left|right; left]; reflexivity. Qed.

Lemma count_app p a b : count p (a ++ b) = (count p a + count p b)%nat.
Proof. unfold count. rewrite filter_app, app_length. reflexivity. Qed.

Lemma req_totals ac fc r :
  let t := serve_req ac fc r in
  (nb ac * count_200 t <= count_ok_amqp t)%nat /\ (nb fc * count_200 t <= count_ok_append t)%nat /\
  (healthy r = true -> count_ok_amqp t = nb ac * count_200 t /\ count_ok_append t = nb fc * count_200 t)%nat.
Proof.
  destruct r as [i g ao fo]; destruct ac, fc, i, g, ao, fo; vm_compute; repeat split; auto; discriminate.
Qed.

(* the same three facts for a sequence of requests: the counts add up request by request *)
Lemma serve_all_totals ac fc rs :
  let t := serve_all ac fc rs in
  (nb ac * count_200 t <= count_ok_amqp t)%nat /\ (nb fc * count_200 t <= count_ok_append t)%nat /\
  (forallb healthy rs = true -> count_ok_amqp t = nb ac * count_200 t /\ count_ok_append t = nb fc * count_200 t)%nat.
Proof.
  induction rs as [|r rs IH]; [destruct ac, fc; vm_compute; auto|].
  cbv zeta in *. change (serve_all ac fc (r :: rs)) with (serve_req ac fc r ++ serve_all ac fc rs).
  destruct (req_totals ac fc r) as (A & B & C). destruct IH as (IA & IB & IC).
  unfold count_200, count_ok_amqp, count_ok_append in *. rewrite !count_app. cbn [forallb].
  split; [|split; [|intros [Hr Hrs]%andb_true_iff; destruct (C Hr), (IC Hrs); split]];
    destruct ac, fc; cbn [nb] in *; lia.
Qed.

(* the log written by any serialisation of whole-record appends splits back into exactly those records *)
Lemma lines_acc_record r cur rest :
  no_nl r = true -> lines_acc (r ++ nl :: rest) cur = rev (rev r ++ cur) :: lines_acc rest [].
Proof.
  revert cur. induction r as [|b r IH]; intros cur H; cbn [app lines_acc rev].
  - unfold nl at 1. change (10 =? nl) with true. cbv iota. reflexivity.
  - cbn [no_nl forallb] in H. apply andb_true_iff in H as [Hb Hr].
    destruct (b =? nl) eqn:E; [discriminate|]. rewrite IH by exact Hr.
    rewrite <- app_assoc. reflexivity.
Qed.
Lemma log_wellformed order :
  Forall (fun r => no_nl r = true) order -> lines (log_of order) = order.
Proof.
  unfold lines, log_of. induction 1 as [|r rs Hr _ IH]; [reflexivity|].
  cbn [map concat]. rewrite <- app_assoc. cbn [app]. rewrite lines_acc_record by exact Hr.
  rewrite app_nil_r, rev_involutive. f_equal. exact IH.
Qed.
