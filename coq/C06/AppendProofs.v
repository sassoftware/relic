(* C06/AppendProofs.v — proofs about the system-call model of AppendTo (C06/Append.v):
   1. what the generated program append_prog does for EVERY record length and every fault;
   2. what a buffered writer does to the same bytes, for every record length and buffer size;
   3. for any number of appenders, any record lengths and ANY interleaving of their write(2) calls: the file is one
      record per line iff every record reaches the file in a single non-empty write. *)
From Relic Require Import Base.Prelude Base.Slice Generated.C06_gen C06.Model C06.Append.
From Coq Require Import Permutation.

Lemma take_z_all n l : zlen l <= n -> take_z n l = l.
Proof.
  revert n. induction l as [|x l IH]; intros n H; [reflexivity|].
  rewrite zlen_cons in H. pose proof (zlen_nonneg l). cbn [take_z].
  destruct (n <=? 0) eqn:E; [lia|]. rewrite IH by lia. reflexivity.
Qed.
Lemma drop_z_all n l : zlen l <= n -> drop_z n l = [].
Proof.
  revert n. induction l as [|x l IH]; intros n H; [reflexivity|].
  rewrite zlen_cons in H. pose proof (zlen_nonneg l). cbn [drop_z].
  destruct (n <=? 0) eqn:E; [lia|]. apply IH. lia.
Qed.
Lemma take_drop_z n l : take_z n l ++ drop_z n l = l.
Proof.
  revert n. induction l as [|x l IH]; intros n; [reflexivity|]. cbn [take_z drop_z].
  destruct (n <=? 0); [reflexivity|]. cbn [app]. rewrite IH. reflexivity.
Qed.

Lemma fd_write_small fails short p sys : zlen p <= os_max_rw -> short (length sys) = None ->
  fd_write fails short p sys = (sys ++ [(p, negb (fails (length sys)))], negb (fails (length sys))).
Proof. intros H N. unfold fd_write. rewrite N. destruct (zlen p <=? os_max_rw) eqn:E; [reflexivity|lia]. Qed.

Lemma append_outcome E r : zlen r + 1 <= os_max_rw -> e_short E 0%nat = None ->
  let s := run_append E r in
  s_bad s = false /\
  s_ret s = Some (e_open_ok E && e_marshal_ok E && negb (e_fail E 0)) /\
  s_sys s = if e_open_ok E && e_marshal_ok E then [(r ++ [nl], negb (e_fail E 0))] else [].
Proof.
  intros H N. unfold run_append, run_prog, append_prog, exec. cbn [fold_left].
  destruct E as [o m f sh]. cbn [e_short] in N.
  destruct o, m; cbn -[fd_write os_max_rw]; try (repeat split; reflexivity).
  rewrite ?app_nil_r. rewrite fd_write_small by (try exact N; rewrite zlen_app; cbn; lia).
  cbn. destruct (f 0%nat); cbn; repeat split; reflexivity.
Qed.

(* success is reported exactly when the complete line reached the file in one successful write(2); a refused call leaves
   no part of a line behind *)
Lemma appendto_success_iff E r : zlen r + 1 <= os_max_rw -> e_short E 0%nat = None ->
  let s := run_append E r in
  (s_ret s = Some true <-> e_open_ok E = true /\ e_marshal_ok E = true /\ e_fail E 0%nat = false) /\
  (s_ret s = Some true -> s_sys s = [(r ++ [nl], true)] /\ written s = r ++ [nl]) /\
  (s_ret s <> Some true -> s_ret s = Some false /\ written s = []) /\
  s_bad s = false.
Proof.
  intros H N. destruct (append_outcome E r H N) as [B [R S]]. cbv zeta. rewrite R, B. unfold written. rewrite S.
  destruct (e_open_ok E), (e_marshal_ok E), (e_fail E 0%nat);
    cbn [andb negb filter snd map fst concat app]; rewrite ?app_nil_r; intuition congruence.
Qed.

Lemma os_max_rw_pos : 1 <= os_max_rw.
Proof. apply Z.leb_le. vm_compute. reflexivity. Qed.

Lemma two_writes_emit r : zlen r <= os_max_rw -> emit_of prog_two_writes r = [r; [nl]].
Proof.
  intro H. unfold emit_of, run_prog, prog_two_writes, exec, healthy_env. cbn [fold_left].
  cbn -[fd_write os_max_rw]. rewrite app_nil_r. rewrite fd_write_small by (try exact H; reflexivity).
  cbn -[fd_write os_max_rw]. rewrite fd_write_small by (try reflexivity; pose proof os_max_rw_pos; cbn; lia). reflexivity.
Qed.

(* the same bytes through a buffered writer (the class of change the unit has to decide) *)
Definition eff_size (size : Z) : Z := if size <=? 0 then bufio_default_size else size.
Lemma eff_size_pos size : 0 < eff_size size.
Proof. unfold eff_size. destruct (size <=? 0) eqn:E; [reflexivity|lia]. Qed.

Definition huw : uwrite := file_uw healthy_env true.
Lemma huw_small p sys : zlen p <= os_max_rw -> huw p sys = (sys ++ [(p, true)], true).
Proof. intro H. unfold huw, file_uw, healthy_env. cbn [e_fail e_short]. rewrite fd_write_small by (try exact H; reflexivity). reflexivity. Qed.

(* bufio.Writer on a healthy file, case by case *)
Lemma bw_write_bypass id B p sys :
  B < zlen p -> zlen p <= os_max_rw ->
  bw_write huw (mkBw id B [] false) p sys = (mkBw id B [] false, sys ++ [(p, true)], true).
Proof.
  intros H1 H2. unfold bw_write, bw_avail. cbn [ bw_size bw_buf bw_err negb andb]. change (zlen (@nil Z)) with 0.
  rewrite Z.sub_0_r. destruct (zlen p >? B) eqn:E; [|lia]. cbn [andb]. change (0 =? 0) with true. cbv iota.
  rewrite huw_small by exact H2. reflexivity.
Qed.
Lemma bw_write_fits id B buf p sys :
  zlen p <= B - zlen buf ->
  bw_write huw (mkBw id B buf false) p sys = (mkBw id B (buf ++ p) false, sys, true).
Proof.
  intros H. unfold bw_write, bw_avail. cbn [ bw_size bw_buf bw_err negb andb].
  destruct (zlen p >? B - zlen buf) eqn:E; [lia|]. reflexivity.
Qed.
Lemma bw_byte_room id B buf c sys :
  0 < B - zlen buf -> bw_write_byte huw (mkBw id B buf false) c sys = (mkBw id B (buf ++ [c]) false, sys, true).
Proof.
  intros H. unfold bw_write_byte, bw_avail. cbn [ bw_size bw_buf bw_err].
  destruct (B - zlen buf <=? 0) eqn:E; [lia|]. reflexivity.
Qed.
Lemma bw_flush_some id B buf sys :
  0 < zlen buf -> zlen buf <= os_max_rw ->
  bw_flush huw (mkBw id B buf false) sys = (mkBw id B [] false, sys ++ [(buf, true)], true).
Proof.
  intros H1 H2. unfold bw_flush. cbn [bw_buf bw_err]. destruct (zlen buf =? 0) eqn:E; [lia|].
  rewrite huw_small by exact H2. reflexivity.
Qed.
Lemma bw_byte_full id B buf c sys :
  B - zlen buf <= 0 -> 0 < zlen buf -> zlen buf <= os_max_rw ->
  bw_write_byte huw (mkBw id B buf false) c sys = (mkBw id B [c] false, sys ++ [(buf, true)], true).
Proof.
  intros H H1 H2. unfold bw_write_byte, bw_avail. cbn [ bw_size bw_buf bw_err].
  destruct (B - zlen buf <=? 0) eqn:E; [|lia]. rewrite bw_flush_some by assumption. reflexivity.
Qed.

(* the state of prog_bufio from its fourth statement on: the file is open, the one buffered writer is healthy.  A call on
   the writer that succeeds leaves a state of the same form (an error check other than the inverted one lets it pass) *)
Definition sb (blob : bytes) (B : Z) (buf : bytes) (sys : list syscall) : st := mkSt blob true [mkBw 1 B buf false] sys None false.
Lemma with_bw_sb blob B buf sys f chk B' buf' sys' :
  (chk =? 2) = false -> f (mkBw 1 B buf false) = (mkBw 1 B' buf' false, sys', true) ->
  with_bw (sb blob B buf sys) 1 f chk = sb blob B' buf' sys'.
Proof.
  intros C E. unfold with_bw, sb, after_chk. cbn [s_ws find_bw bw_id]. change (1 =? 1) with true. cbv iota.
  rewrite E, C. destruct (chk =? 1), (chk =? 3); reflexivity.
Qed.
Lemma step_write r B buf sys chk B' buf' sys' :
  (chk =? 2) = false -> bw_write huw (mkBw 1 B buf false) r sys = (mkBw 1 B' buf' false, sys', true) ->
  exec_op healthy_env r (AWrite 1 [PBlob] chk) (sb r B buf sys) = sb r B' buf' sys'.
Proof.
  intros C E. unfold sb at 1. cbn [exec_op s_ret s_blob payload_bytes flat_map]. rewrite app_nil_r.
  change (1 =? 0) with false. cbv iota. exact (with_bw_sb r B buf sys _ chk B' buf' sys' C E).
Qed.
Lemma step_byte r blob B buf sys c chk B' buf' sys' :
  (chk =? 2) = false -> bw_write_byte huw (mkBw 1 B buf false) c sys = (mkBw 1 B' buf' false, sys', true) ->
  exec_op healthy_env r (AWriteByte 1 c chk) (sb blob B buf sys) = sb blob B' buf' sys'.
Proof. intros C E. exact (with_bw_sb blob B buf sys _ chk B' buf' sys' C E). Qed.
Lemma step_flush r blob B buf sys chk B' buf' sys' :
  (chk =? 2) = false -> bw_flush huw (mkBw 1 B buf false) sys = (mkBw 1 B' buf' false, sys', true) ->
  exec_op healthy_env r (AFlush 1 chk) (sb blob B buf sys) = sb blob B' buf' sys'.
Proof. intros C E. exact (with_bw_sb blob B buf sys _ chk B' buf' sys' C E). Qed.

Lemma bufio_emit size r :
  zlen r <= os_max_rw -> eff_size size <= os_max_rw ->
  emit_of (prog_bufio size) r = if zlen r <? eff_size size then [r ++ [nl]] else [r; [nl]].
Proof.
  intros Hr HB. pose proof (eff_size_pos size) as HB0. pose proof (zlen_nonneg r) as Hr0.
  unfold emit_of, run_prog, prog_bufio, exec. cbn [fold_left].
  change (exec_op healthy_env r (ANewWriter 1 0 size) (exec_op healthy_env r (AMarshal 1) (exec_op healthy_env r (AOpen 1) st0)))
    with (sb r (eff_size size) [] []).
  set (B := eff_size size) in *.
  destruct (Z.ltb_spec (zlen r) B) as [Hlt|Hge]; [|destruct (Z.eq_dec (zlen r) B) as [Heq|Hne]].
  - (* fits with its terminator *)
    erewrite step_write; [|reflexivity|apply bw_write_fits; change (zlen (@nil Z)) with 0; lia].
    erewrite step_byte; [|reflexivity|apply bw_byte_room; cbn [app]; lia].
    erewrite step_flush; [|reflexivity|apply bw_flush_some; rewrite zlen_app; change (zlen [10]) with 1; cbn [app]; lia].
    reflexivity.
  - (* exactly fills the buffer: WriteByte has to flush first *)
    erewrite step_write; [|reflexivity|apply bw_write_fits; change (zlen (@nil Z)) with 0; lia].
    erewrite step_byte; [|reflexivity|apply bw_byte_full; cbn [app]; lia].
    erewrite step_flush; [|reflexivity|apply bw_flush_some; change (zlen [10]) with 1; lia].
    reflexivity.
  - (* larger than the buffer: Write hands it to the file directly *)
    erewrite step_write; [|reflexivity|apply bw_write_bypass; lia].
    erewrite step_byte; [|reflexivity|apply bw_byte_room; change (zlen (@nil Z)) with 0; lia].
    erewrite step_flush; [|reflexivity|apply bw_flush_some; cbn [app]; change (zlen [10]) with 1; lia].
    reflexivity.
Qed.

Lemma nonempty_line r : nonempty [r ++ [nl]] = [r ++ [nl]].
Proof. destruct r; reflexivity. Qed.

Lemma bufio_concat size r : zlen r <= os_max_rw -> eff_size size <= os_max_rw ->
  concat (emit_of (prog_bufio size) r) = r ++ [nl].
Proof.
  intros H1 H2. rewrite bufio_emit by assumption.
  destruct (zlen r <? eff_size size); cbn [concat app]; rewrite ?app_nil_r; reflexivity.
Qed.
Lemma bufio_atomic_iff size r : zlen r <= os_max_rw -> eff_size size <= os_max_rw ->
  (nonempty (emit_of (prog_bufio size) r) = [r ++ [nl]] <-> zlen r < eff_size size).
Proof.
  intros H1 H2. rewrite bufio_emit by assumption. destruct (Z.ltb_spec (zlen r) (eff_size size)) as [L|G].
  - split; [intros _; exact L|intros _]. apply nonempty_line.
  - split; [|lia]. intro H. exfalso. unfold nonempty in H. cbn [filter] in H.
    destruct r as [|b r]; cbn [is_nil negb] in H.
    + pose proof (eff_size_pos size). change (zlen (@nil Z)) with 0 in G. lia.
    + discriminate.
Qed.

Lemma no_nl_repeat n : no_nl (repeat 120 n) = true.
Proof. induction n as [|n IH]; [reflexivity|]. cbn [repeat no_nl forallb]. exact IH. Qed.

Lemma interleave_perm ws evs : interleave ws evs -> Permutation (map snd evs) (concat ws).
Proof.
  induction 1 as [ws H|pre c rest post evs _ IH].
  - rewrite (proj2 (concat_nil_Forall ws) H). constructor.
  - cbn [map snd]. rewrite concat_app in *. cbn [concat] in *. cbn [app].
    apply Permutation_cons_app. exact IH.
Qed.

Lemma apply_events_append evs file offs : apply_events true evs file offs = file ++ concat (map snd evs).
Proof.
  revert file. induction evs as [|[i c] evs IH]; intro file; cbn [apply_events map snd concat].
  - rewrite app_nil_r. reflexivity.
  - rewrite IH, <- app_assoc. reflexivity.
Qed.
Lemma file_after_append evs : file_after true evs = concat (map snd evs).
Proof. unfold file_after. rewrite apply_events_append. reflexivity. Qed.

Lemma concat_nonempty (l : list bytes) : concat (nonempty l) = concat l.
Proof.
  induction l as [|c l IH]; [reflexivity|]. unfold nonempty in *. cbn [filter concat].
  destruct c; cbn [is_nil negb]; cbn [concat app]; rewrite IH; reflexivity.
Qed.
Lemma nonempty_concat_map (f : bytes -> list bytes) rs : nonempty (concat (map f rs)) = concat (map (fun r => nonempty (f r)) rs).
Proof. unfold nonempty. rewrite <- concat_filter_map, map_map. reflexivity. Qed.
Lemma nonempty_perm a b : Permutation a b -> Permutation (nonempty a) (nonempty b).
Proof.
  induction 1; unfold nonempty in *; cbn [filter].
  - constructor.
  - destruct (negb (is_nil x)); [constructor|]; assumption.
  - destruct (negb (is_nil x)), (negb (is_nil y)); try constructor; apply Permutation_refl.
  - eapply Permutation_trans; eassumption.
Qed.

Lemma spec_lines_line r rest :
  no_nl r = true -> spec_lines (r ++ nl :: rest) = (r :: fst (spec_lines rest), snd (spec_lines rest)).
Proof.
  induction r as [|b r IH]; intro H.
  - cbn [app spec_lines]. destruct (spec_lines rest) as [ls tl]. unfold nl. change (10 =? 10) with true. reflexivity.
  - cbn [no_nl forallb] in H. apply andb_true_iff in H as [Hb Hr]. specialize (IH Hr).
    cbn [app spec_lines]. rewrite IH. unfold nl in Hb. destruct (b =? 10); [discriminate|]. reflexivity.
Qed.
Lemma spec_lines_log order : Forall (fun r => no_nl r = true) order -> spec_lines (log_of order) = (order, []).
Proof.
  unfold log_of. induction 1 as [|r rs Hr _ IH]; [reflexivity|].
  cbn [map concat]. rewrite <- app_assoc. cbn [app]. rewrite spec_lines_line by exact Hr. rewrite IH. reflexivity.
Qed.

Lemma concat_map_single (rs : list bytes) : concat (map (fun r => [r ++ [nl]]) rs) = map (fun r => r ++ [nl]) rs.
Proof. induction rs as [|r rs IH]; [reflexivity|]. cbn [map concat app]. rewrite IH. reflexivity. Qed.

(* whatever the split into empty and non-empty chunks: if the non-empty chunks of every record are the one whole line,
   every interleaving leaves a well-formed file *)
Lemma atomic_wellformed (emit : bytes -> list bytes) records evs :
  Forall (fun r => no_nl r = true) records ->
  Forall (fun r => nonempty (emit r) = [r ++ [nl]]) records ->
  interleave (map emit records) evs -> spec_ok records (file_after true evs).
Proof.
  intros Hn Ha Hi. rewrite file_after_append.
  apply interleave_perm in Hi. apply nonempty_perm in Hi. rewrite nonempty_concat_map in Hi.
  assert (E : concat (map (fun r => nonempty (emit r)) records) = map (fun r => r ++ [nl]) records).
  { rewrite <- concat_map_single. f_equal. apply map_ext_in. intros r Hr. rewrite Forall_forall in Ha. apply Ha, Hr. }
  rewrite E in Hi. apply Permutation_map_inv in Hi as [order [Ho Hp]].
  rewrite <- concat_nonempty, Ho. exists order. split.
  - apply (spec_lines_log order). exact (Permutation_Forall Hp Hn).
  - apply Permutation_sym. exact Hp.
Qed.

Lemma nonempty_none l : concat l = [] -> nonempty l = [].
Proof. intros E%concat_nil_Forall. induction E as [|x l -> _ IH]; [reflexivity|exact IH]. Qed.

(* the converse: a record that reaches the file in two or more non-empty writes can be torn.  Its calls fall into two
   runs, each of which writes something *)
Lemma two_writes_split (l : list bytes) :
  concat l <> [] -> nonempty l <> [concat l] -> exists l1 l2, l = l1 ++ l2 /\ concat l1 <> [] /\ concat l2 <> [].
Proof.
  induction l as [|c l IH]; intros Hc Hn; [destruct (Hc eq_refl)|].
  destruct c as [|b c].
  - destruct (IH Hc Hn) as (l1 & l2 & -> & H1 & H2). exists ([] :: l1), l2. repeat split; assumption.
  - exists [b :: c], l. repeat split; [discriminate|]. intro E. apply Hn.
    (* nothing is written after the first non-empty chunk: that chunk is the whole *)
    unfold nonempty. cbn [filter is_nil negb concat]. rewrite E, app_nil_r. f_equal. exact (nonempty_none l E).
Qed.

Fixpoint seq_events (k : nat) (ws : list (list bytes)) : list (nat * bytes) :=
  match ws with [] => [] | w :: r => map (pair k) w ++ seq_events (S k) r end.

Lemma il_at pre a post l evs :
  interleave (pre ++ a :: post) evs -> interleave (pre ++ (l ++ a) :: post) (map (pair (length pre)) l ++ evs).
Proof. intro H. induction l as [|c l IH]; [exact H|]. cbn [map app]. apply il_cons. exact IH. Qed.
Lemma il_at0 pre post l evs :
  interleave (pre ++ [] :: post) evs -> interleave (pre ++ l :: post) (map (pair (length pre)) l ++ evs).
Proof. intro H. apply (il_at pre [] post l) in H. rewrite app_nil_r in H. exact H. Qed.

Lemma il_seq ws : forall pre, Forall (fun w => w = []) pre -> interleave (pre ++ ws) (seq_events (length pre) ws).
Proof.
  induction ws as [|w ws IH]; intros pre Hp.
  - rewrite app_nil_r. apply il_nil. exact Hp.
  - cbn [seq_events]. apply il_at0.
    replace (pre ++ [] :: ws) with ((pre ++ [[]]) ++ ws) by (rewrite <- app_assoc; reflexivity).
    replace (S (length pre)) with (length (pre ++ [[]])) by (rewrite app_length; cbn; lia).
    apply IH. apply Forall_app. split; [exact Hp|repeat constructor].
Qed.

Lemma map_snd_pair {A} (k : nat) (l : list A) : map snd (map (pair k) l) = l.
Proof. rewrite map_map. apply map_id. Qed.
Lemma map_snd_seq k ws : map snd (seq_events k ws) = concat ws.
Proof.
  revert k. induction ws as [|w ws IH]; intro k; [reflexivity|].
  cbn [seq_events concat]. rewrite map_app, map_snd_pair, IH. reflexivity.
Qed.

Lemma app_snoc_split {A} (a t r : list A) x : a ++ t = r ++ [x] -> t <> [] -> exists r2, r = a ++ r2 /\ t = r2 ++ [x].
Proof.
  intros H Ht. destruct (exists_last Ht) as [t' [y ->]]. rewrite app_assoc in H.
  apply app_inj_tail in H as [<- ->]. exists t'. split; reflexivity.
Qed.
Lemma no_nl_app a b : no_nl (a ++ b) = no_nl a && no_nl b.
Proof. unfold no_nl. apply forallb_app. Qed.

Lemma concat_map_lines (emit : bytes -> list bytes) os :
  Forall (fun o => concat (emit o) = o ++ [nl]) os -> concat (concat (map emit os)) = log_of os.
Proof.
  unfold log_of. induction 1 as [|o os Ho _ IH]; [reflexivity|].
  cbn [map concat]. rewrite concat_app, Ho, IH. reflexivity.
Qed.

Lemma split_write_breaks (emit : bytes -> list bytes) r others :
  no_nl r = true -> Forall (fun o => no_nl o = true) others ->
  concat (emit r) = r ++ [nl] -> Forall (fun o => concat (emit o) = o ++ [nl]) others ->
  nonempty (emit r) <> [r ++ [nl]] ->
  exists evs, interleave (map emit (r :: r :: others)) evs /\ ~ spec_ok (r :: r :: others) (file_after true evs).
Proof.
  intros Hr Ho Cr Co Hsplit.
  destruct (two_writes_split (emit r)) as (l1 & l2 & El & Hc1 & Hc2).
  { rewrite Cr. destruct r; discriminate. }
  { rewrite Cr. exact Hsplit. }
  set (c1 := concat l1) in *.
  assert (C1 : c1 ++ concat l2 = r ++ [nl]) by (rewrite <- Cr, El; symmetry; apply concat_app).
  destruct (app_snoc_split _ _ _ _ C1 Hc2) as [r2 [Er Et]].
  set (W := map emit others).
  (* the schedule: the first run l1 of the first appender's calls, then the whole of the second copy of r, then the rest l2
     of the first, then the others one after the other; the file begins with the line c1 ++ r, which is no record *)
  exists (map (pair 0%nat) l1 ++ map (pair 1%nat) (emit r) ++ map (pair 0%nat) l2 ++ seq_events 2 W).
  split.
  - cbn [map]. fold W. rewrite El at 1.
    apply (il_at [] l2 (emit r :: W) l1). cbn [app].
    apply (il_at0 [l2] W (emit r)).
    apply (il_at0 [] ([] :: W) l2). cbn [app].
    apply (il_seq W [[]; []]). repeat constructor.
  - rewrite file_after_append, !map_app, !map_snd_pair, map_snd_seq, !concat_app. fold c1.
    rewrite Cr, Et. unfold W. rewrite concat_map_lines by exact Co.
    assert (Nr : no_nl (c1 ++ r) = true /\ no_nl r2 = true).
    { rewrite Er in Hr. rewrite no_nl_app in Hr. apply andb_true_iff in Hr as [H1 H2].
      rewrite Er. rewrite !no_nl_app, H1, H2. split; reflexivity. }
    destruct Nr as [N1 N2].
    assert (F : c1 ++ (r ++ [nl]) ++ (r2 ++ [nl]) ++ log_of others = log_of ((c1 ++ r) :: r2 :: others)).
    { unfold log_of. cbn [map concat]. rewrite <- !app_assoc. reflexivity. }
    rewrite F. intros [ls [Hl Hp]].
    rewrite spec_lines_log in Hl by (repeat constructor; assumption).
    injection Hl as <-.
    change ((c1 ++ r) :: r2 :: others) with ([c1 ++ r; r2] ++ others) in Hp.
    change (r :: r :: others) with ([r; r] ++ others) in Hp.
    apply Permutation_app_inv_r in Hp.
    assert (Hin : In (c1 ++ r) [r; r]) by (eapply Permutation_in; [exact Hp|left; reflexivity]).
    assert (E : c1 ++ r = r) by (destruct Hin as [H|[H|[]]]; symmetry; exact H).
    apply (f_equal (@length Z)) in E. rewrite app_length in E. destruct c1; [contradiction|cbn in E; lia].
Qed.

Definition wellformed_always (dom : bytes -> Prop) (emit : bytes -> list bytes) : Prop :=
  forall records evs, Forall dom records -> interleave (map emit records) evs -> spec_ok records (file_after true evs).

Lemma one_write_iff_wellformed (dom : bytes -> Prop) (emit : bytes -> list bytes) :
  (forall r, dom r -> no_nl r = true) ->
  (forall r, dom r -> concat (emit r) = r ++ [nl]) ->
  (wellformed_always dom emit <-> forall r, dom r -> nonempty (emit r) = [r ++ [nl]]).
Proof.
  intros Dn Dc. split.
  - intros W r Hr.
    destruct (list_eq_dec (list_eq_dec Z.eq_dec) (nonempty (emit r)) [r ++ [nl]]) as [E|N]; [exact E|exfalso].
    destruct (split_write_breaks emit r [] (Dn r Hr) (Forall_nil _) (Dc r Hr) (Forall_nil _) N) as [evs [Hi Hb]].
    apply Hb. apply W; [|exact Hi]. repeat constructor; exact Hr.
  - intros A records evs Hd Hi. apply (atomic_wellformed emit records evs); [| |exact Hi].
    + eapply Forall_impl; [|exact Hd]. intros r Hr. apply Dn, Hr.
    + eapply Forall_impl; [|exact Hd]. intros r Hr. apply A, Hr.
Qed.

Lemma nth_pop_split i : forall ws c ws', nth_pop i ws = Some (c, ws') ->
  exists pre rest post, ws = pre ++ (c :: rest) :: post /\ ws' = pre ++ rest :: post /\ length pre = i.
Proof.
  induction i as [|i IH]; intros [|w ws] c ws' H; try discriminate.
  - cbn [nth_pop] in H. destruct w as [|c0 w]; [discriminate|]. injection H as <- <-. exists [], w, ws. auto.
  - cbn [nth_pop] in H. destruct (nth_pop i ws) as [[c0 r']|] eqn:E; [|discriminate]. injection H as <- <-.
    destruct (IH _ _ _ E) as [pre [rest [post [-> [-> Hl]]]]]. exists (w :: pre), rest, post. cbn [app length]. auto.
Qed.

(* the records the theorems speak about: encoding/json never emits a raw line feed; one write(2) carries at most os_max_rw bytes *)
Definition in_domain (r : bytes) : Prop := no_nl r = true /\ zlen r + 1 <= os_max_rw.
