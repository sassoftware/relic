(* C06/Properties.v — the property theorems of C06: the order of effects of a signing operation, the audit file under
   concurrent appenders, the content of the audit record. *)
From Relic Require Import Base.Prelude Base.Slice Generated.C06_gen C06.Model C06.Proofs C06.Append C06.AppendProofs.
From Relic Require Import Generated.C06rec_gen C06.Record C06.RecordProofs.
From Coq Require Import Permutation.

(* server: a response carrying a signature is preceded by exactly one delivered record per configured sink,
   made after the signature was computed, for every combination of sink configuration and sink faults *)
Theorem audit_before_response : forall init_ok sign_ok s,
  responds_200 (serve_sign init_ok sign_ok s) = true ->
  let pre := before_200 (serve_sign init_ok sign_ok s) in
  count_ok_amqp pre = nb (amqp_configured s) /\ count_ok_append pre = nb (file_configured s) /\
  In (ESign true) pre /\ init_ok = true /\ sign_ok = true.
Proof. exact C06.Proofs.audit_before_response. Qed.

(* if any configured sink fails, the signature is not returned *)
Theorem sink_failure_blocks : forall init_ok sign_ok s,
  (amqp_configured s = true /\ amqp_ok s = false) \/ (file_configured s = true /\ file_ok s = false) ->
  responds_200 (serve_sign init_ok sign_ok s) = false.
Proof. exact C06.Proofs.sink_failure_blocks. Qed.

Theorem all_ok_responds : forall s,
  (amqp_configured s = true -> amqp_ok s = true) -> (file_configured s = true -> file_ok s = true) ->
  responds_200 (serve_sign true true s) = true.
Proof.
  intros [[|] [|] ao fo]; cbn [amqp_configured amqp_ok file_configured file_ok]; intros H1 H2;
    rewrite ?H1, ?H2 by reflexivity; reflexivity.
Qed.

(* standalone: successful completion has produced exactly one record per configured sink *)
Theorem standalone_success_audited : forall init_ok sign_ok apply_ok s e,
  sign_cmd init_ok sign_ok apply_ok s = (e, true) ->
  count_ok_amqp e = nb (amqp_configured s) /\ count_ok_append e = nb (file_configured s) /\ In (ESign true) e.
Proof.
  intros init_ok sign_ok apply_ok [ac fc ao fo] e; destruct init_ok, sign_ok, apply_ok, ac, fc, ao, fo; vm_compute; intro H;
    try discriminate; injection H as <-; repeat split; auto.
Qed.

(* the same for EVERY order in which PublishAudit might try the two sinks, and every subset of failing sinks:
   a later successful sink can never make up for an earlier failure, nor an earlier success for a later failure *)
Theorem sink_failure_blocks_every_order : forall pc init_ok sign_ok s,
  In 0 pc -> In 1 pc ->
  (amqp_configured s = true /\ amqp_ok s = false) \/ (file_configured s = true /\ file_ok s = false) ->
  responds_200 (serve_p pc serve_calls init_ok sign_ok s) = false.
Proof. exact C06.Proofs.sink_failure_blocks_every_order. Qed.

Theorem audit_before_response_every_order : forall pc init_ok sign_ok s,
  Permutation [0; 1] pc ->
  responds_200 (serve_p pc serve_calls init_ok sign_ok s) = true ->
  let pre := before_200 (serve_p pc serve_calls init_ok sign_ok s) in
  count_ok_amqp pre = nb (amqp_configured s) /\ count_ok_append pre = nb (file_configured s) /\
  In (ESign true) pre /\ init_ok = true /\ sign_ok = true.
Proof. exact C06.Proofs.audit_before_response_every_order. Qed.

(* PublishAudit, any order: it fails iff an attempted delivery failed, and nothing is attempted after a failure
   (so which sinks hold a record of a refused request is determined by the order srcgen reads from the source) *)
Theorem publish_result : forall pc s, snd (publish pc s) = negb (existsb is_failed_sink (fst (publish pc s))).
Proof.
  intros pc s. induction pc as [|c r IH]; [reflexivity|]. rewrite publish_step.
  destruct (used c s); [|exact IH].
  destruct (works c s) eqn:W; cbn [fst snd existsb]; rewrite (proj2 (eff_kind c s)), W; [exact IH|reflexivity].
Qed.
Theorem publish_stops : forall pc s, stops_at_failure (fst (publish pc s)) = true.
Proof.
  intros pc s. induction pc as [|c r IH]; [reflexivity|]. rewrite publish_step.
  destruct (used c s); [|exact IH].
  destruct (works c s) eqn:W; cbn [fst stops_at_failure]; rewrite (proj2 (eff_kind c s)), W; [exact IH|reflexivity].
Qed.

(* no duplicates: one request yields at most one record per sink, one connection to the broker, one response *)
Theorem at_most_one_record : forall init_ok sign_ok s,
  let t := serve_sign init_ok sign_ok s in
  (count_ok_amqp t <= 1)%nat /\ (count_ok_append t <= 1)%nat /\ (count_200 t <= 1)%nat /\
  (attempts_amqp t <= 1)%nat /\ (attempts_append t <= 1)%nat.
Proof.
  intros init_ok sign_ok [ac fc ao fo]; destruct init_ok, sign_ok, ac, fc, ao, fo; vm_compute; repeat split; auto.
Qed.

(* over any sequence of requests (each with its own faults): every returned signature is covered by a record in each
   configured sink; and while the sinks are healthy  #file records = #broker messages = #signatures returned *)
Theorem responses_covered_by_records : forall ac fc rs,
  let t := serve_all ac fc rs in
  (nb ac * count_200 t <= count_ok_amqp t)%nat /\ (nb fc * count_200 t <= count_ok_append t)%nat.
Proof. intros ac fc rs. destruct (serve_all_totals ac fc rs) as (A & B & _). exact (conj A B). Qed.
Theorem records_equal_responses : forall ac fc rs,
  forallb healthy rs = true ->
  let t := serve_all ac fc rs in
  count_ok_amqp t = (nb ac * count_200 t)%nat /\ count_ok_append t = (nb fc * count_200 t)%nat.
Proof. intros ac fc rs. exact (proj2 (proj2 (serve_all_totals ac fc rs))). Qed.

(* standalone: a failing sink makes the command fail (the artefact is already written: EApply precedes, see Example) *)
Theorem standalone_sink_failure_fails : forall init_ok sign_ok apply_ok s,
  (amqp_configured s = true /\ amqp_ok s = false) \/ (file_configured s = true /\ file_ok s = false) ->
  snd (sign_cmd init_ok sign_ok apply_ok s) = false.
Proof.
  intros init_ok sign_ok apply_ok [ac fc ao fo]. cbn [amqp_configured amqp_ok file_configured file_ok].
  intros [[-> ->]|[-> ->]]; destruct init_ok, sign_ok, apply_ok; try destruct ac; try destruct fc; try destruct ao;
    try destruct fo; reflexivity.
Qed.

(* one write system call per record (generated call table of AppendTo) *)
Theorem single_write_per_record : append_writes = 1.
Proof. reflexivity. Qed.

(* under any interleaving of concurrent writers the audit file is exactly one complete record per line *)
Theorem log_interleaving : forall records order,
  Permutation order records -> Forall (fun r => no_nl r = true) records ->
  Permutation (lines (log_of order)) records.
Proof.
  intros records order P F. rewrite log_wellformed; [exact P|].
  exact (Permutation_Forall (Permutation_sym P) F).
Qed.

Example both_sinks_file_fails :
  serve_sign true true (mkSinks true true true false) = [ESign true; EAmqp true; EAppend false; ERespond 500] /\
  serve_sign true true (mkSinks false true true true) = [ESign true; EAppend true; ERespond 200].
Proof. split; reflexivity. Qed.

(* the code's order is AMQP first: with the file failing and a healthy broker the broker HOLDS a record of the refused
   request (a record without a signature is allowed; a signature without a record is not), and with the broker failing
   the file is not even tried *)
Example record_without_signature :
  let t := serve_sign true true (mkSinks true true true false) in
  responds_200 t = false /\ count_ok_amqp t = 1%nat /\ count_ok_append t = 0%nat /\ attempts_append t = 1%nat.
Proof. repeat split; reflexivity. Qed.
Example broker_failure_skips_file :
  let t := serve_sign true true (mkSinks true true false true) in
  responds_200 t = false /\ attempts_amqp t = 1%nat /\ attempts_append t = 0%nat.
Proof. repeat split; reflexivity. Qed.
Example standalone_sink_failure_after_apply :
  sign_cmd true true true (mkSinks true true true false) = ([ESign true; EApply; EAmqp true; EAppend false], false).
Proof. reflexivity. Qed.
Example healthy_batch :
  let t := serve_all true true [mkReq true true true true; mkReq true false true true; mkReq true true true true] in
  count_200 t = 2%nat /\ count_ok_amqp t = 2%nat /\ count_ok_append t = 2%nat.
Proof. repeat split; reflexivity. Qed.

(* "Under concurrent requests the audit file remains exactly one complete JSON object per line."
   System-call level (C06/Append.v): append_prog is lib/audit Info.AppendTo translated statement by statement. *)

(* whatever the length of the record (up to the runtime's cap on one write(2), os_max_rw = 2^30), the generated program
   hands the record and its line feed to write(2) in exactly ONE call *)
Theorem appendto_one_write : forall r, zlen r + 1 <= os_max_rw -> emit_prog r = [r ++ [nl]].
Proof.
  intros r H. unfold emit_prog, emit_of. fold (run_append healthy_env r).
  destruct (append_outcome healthy_env r H eq_refl) as [_ [_ S]]. rewrite S. reflexivity.
Qed.

(* the descriptor is opened O_APPEND (every write(2) lands at the end of the file) and never truncated *)
Theorem appendto_open_flags :
  append_open_append = true /\ append_open_trunc = false /\ append_open_create = true /\ append_open_writable = true.
Proof. repeat split; reflexivity. Qed.

(* the model-independent fact, for EVERY way of emitting a line (any split into write(2) calls, empty ones included), any
   number of concurrent records of every length in [dom], and EVERY interleaving of the calls:
   the file is always one record per line  <->  every record reaches the file in a single non-empty write *)
Theorem one_write_iff_wellformed : forall (dom : bytes -> Prop) (emit : bytes -> list bytes),
  (forall r, dom r -> no_nl r = true) ->
  (forall r, dom r -> concat (emit r) = r ++ [nl]) ->
  (wellformed_always dom emit <-> forall r, dom r -> nonempty (emit r) = [r ++ [nl]]).
Proof. exact C06.AppendProofs.one_write_iff_wellformed. Qed.

(* one direction spelled out: a record written in pieces can be torn in the company of ANY other records *)
Theorem split_write_breaks : forall (emit : bytes -> list bytes) r others,
  no_nl r = true -> Forall (fun o => no_nl o = true) others ->
  concat (emit r) = r ++ [nl] -> Forall (fun o => concat (emit o) = o ++ [nl]) others ->
  nonempty (emit r) <> [r ++ [nl]] ->
  exists evs, interleave (map emit (r :: r :: others)) evs /\ ~ spec_ok (r :: r :: others) (file_after true evs).
Proof. exact C06.AppendProofs.split_write_breaks. Qed.

(* hence for the code as it is: any number of appenders (goroutines or processes), records of every length, every
   interleaving of their system calls — the file is exactly the appended records, one per line, nothing torn *)
Theorem audit_file_one_record_per_line : forall records evs,
  Forall in_domain records -> interleave (map emit_prog records) evs ->
  spec_ok records (file_after append_open_append evs).
Proof.
  intros records evs Hd Hi. destruct appendto_open_flags as [-> _].
  apply (atomic_wellformed emit_prog records evs); [| |exact Hi].
  - eapply Forall_impl; [|exact Hd]. intros r [H _]. exact H.
  - eapply Forall_impl; [|exact Hd]. intros r [_ H]. rewrite appendto_one_write by exact H. apply nonempty_line.
Qed.

(* AppendTo reports success exactly when open, marshal and the write succeeded; then the complete line is in the file by
   one successful write(2); otherwise it returns an error and no part of a line is left behind — PROVIDED the write(2) is
   not short (domain: e_short E 0 = None). With a short write the statement fails: see the witness below. *)
Theorem appendto_success_iff : forall E r, zlen r + 1 <= os_max_rw -> e_short E 0%nat = None ->
  let s := run_append E r in
  (s_ret s = Some true <-> e_open_ok E = true /\ e_marshal_ok E = true /\ e_fail E 0%nat = false) /\
  (s_ret s = Some true -> s_sys s = [(r ++ [nl], true)] /\ written s = r ++ [nl]) /\
  (s_ret s <> Some true -> s_ret s = Some false /\ written s = []) /\
  s_bad s = false.
Proof. exact C06.AppendProofs.appendto_success_iff. Qed.

(* FINDING (unchanged code): a write(2) that takes only part of the line and is followed by a failing one (disk filling up,
   RLIMIT_FSIZE) makes AppendTo return an error, correctly, but leaves the piece in the file; the next successful record
   is appended to it and the line is not a JSON object. Replayed on the real code by the check (mode fsize). *)
Theorem appendto_short_write_refuted :
  exists E r, zlen r + 1 <= os_max_rw /\
    s_ret (run_append E r) = Some false /\ written (run_append E r) = [123; 34] /\
    spec_lines (written (run_append E r) ++ written (run_append healthy_env r)) = ([[123; 34; 123; 34; 97; 34; 58; 49; 125]], []).
Proof.
  exists (mkEnv true true (fun k => Nat.eqb k 1) (fun k => if Nat.eqb k 0 then Some 2 else None)), [123; 34; 97; 34; 58; 49; 125].
  split; [apply Z.leb_le; vm_compute; reflexivity|].
  repeat apply conj; vm_compute; reflexivity.
Qed.

(* the class of change this part of the unit decides: the same bytes through bufio.Writer (Write, WriteByte, Flush), any
   buffer size: one write(2) below the buffer size, two from the buffer size on (Write bypasses an empty buffer for
   large data; a full buffer is flushed before the line feed goes in) — so such appenders CAN tear the file *)
Theorem bufio_emit : forall size r, zlen r <= os_max_rw -> eff_size size <= os_max_rw ->
  emit_of (prog_bufio size) r = if zlen r <? eff_size size then [r ++ [nl]] else [r; [nl]].
Proof. exact C06.AppendProofs.bufio_emit. Qed.
Theorem bufio_can_tear : forall size, eff_size size + 1 <= os_max_rw -> ~ wellformed_always in_domain (emit_of (prog_bufio size)).
Proof.
  intros size HB W. pose proof (eff_size_pos size) as HB0.
  pose proof (proj1 (one_write_iff_wellformed in_domain (emit_of (prog_bufio size))
    (fun r H => proj1 H) (fun r H => bufio_concat size r ltac:(destruct H; lia) ltac:(lia))) W) as A.
  set (r := repeat 120 (Z.to_nat (eff_size size))).
  assert (D : in_domain r) by (split; [apply no_nl_repeat|unfold r; rewrite zlen_repeat; lia]).
  specialize (A r D). apply bufio_atomic_iff in A; [|destruct D; lia|lia].
  unfold r in A. rewrite zlen_repeat in A. lia.
Qed.

(* the executable schedules used for the comparison with strace are interleavings in the sense above *)
Theorem sched_run_interleave : forall sched ws evs, sched_run ws sched = Some evs -> interleave ws evs.
Proof.
  induction sched as [|i t IH]; intros ws evs H; cbn [sched_run] in H.
  - destruct (forallb is_nil ws) eqn:E; [|discriminate]. injection H as <-. apply il_nil.
    apply Forall_forall. intros w Hw. rewrite forallb_forall in E. specialize (E w Hw). destruct w; [reflexivity|discriminate].
  - destruct (nth_pop i ws) as [[c ws']|] eqn:E; [|discriminate].
    destruct (sched_run ws' t) as [e|] eqn:E2; [|discriminate]. injection H as <-.
    destruct (nth_pop_split _ _ _ _ E) as [pre [rest [post [-> [-> <-]]]]]. apply il_cons. apply IH. exact E2.
Qed.

(* ---- non-vacuity *)
Example in_domain_inhabited : in_domain [123; 34; 97; 34; 58; 49; 125].
Proof. split; [reflexivity|]. apply Z.leb_le. vm_compute. reflexivity. Qed.
Example append_prog_like_single : emit_prog [123; 125] = emit_of prog_single [123; 125] /\ emit_prog [123; 125] = [[123; 125; 10]].
Proof. split; reflexivity. Qed.
Example interleaving_exists :
  interleave (map emit_prog [[1; 2]; [3]]) [(1%nat, [3; 10]); (0%nat, [1; 2; 10])] /\
  file_after append_open_append [(1%nat, [3; 10]); (0%nat, [1; 2; 10])] = [3; 10; 1; 2; 10] /\
  spec_lines [3; 10; 1; 2; 10] = ([[3]; [1; 2]], []).
Proof.
  split; [|split; reflexivity].
  apply (sched_run_interleave [1%nat; 0%nat]). reflexivity.
Qed.
(* the default buffer is 4096 bytes: 4095 go out with their line feed, 4096 do not *)
Example bufio_boundary :
  map (fun c => zlen c) (emit_of (prog_bufio 0) (repeat 120 4095)) = [4096] /\
  map (fun c => zlen c) (emit_of (prog_bufio 0) (repeat 120 4096)) = [4096; 1] /\
  map (fun c => zlen c) (emit_of (prog_bufio 0) (repeat 120 4097)) = [4097; 1].
Proof. split; [vm_refl | split; vm_refl]. Qed.
(* a torn file, concretely: two 4-byte records through a 4-byte buffer, second appender between the two calls of the first *)
Example torn_file :
  let ws := map (emit_of (prog_bufio 4)) [[1; 2; 3; 4]; [5; 6; 7; 8]] in
  option_map (fun evs => spec_lines (file_after true evs)) (sched_run ws [0; 1; 1; 0]%nat)
  = Some ([[1; 2; 3; 4; 5; 6; 7; 8]; []], []).
Proof. vm_compute. reflexivity. Qed.
(* without O_APPEND every descriptor writes from offset 0: the second record lands on top of the first *)
Example without_o_append_records_clobber :
  file_after false [(0%nat, [1; 2; 3; 10]); (1%nat, [7; 10])] = [7; 10; 3; 10].
Proof. reflexivity. Qed.
(* a failing write(2) is reported; with a buffered writer whose Flush is checked too, but not by a program that ignores it *)
Example failing_write_reported :
  s_ret (run_append (mkEnv true true (fun k => Nat.eqb k 0) (fun _ => None)) [1; 2]) = Some false /\
  s_ret (run_prog [AOpen 1; AMarshal 1; AAppend [10]; AWrite 0 [PBlob] 0; AReturn true] (mkEnv true true (fun k => Nat.eqb k 0) (fun _ => None)) [1; 2]) = Some true.
Proof. split; reflexivity. Qed.

(* "... exactly one audit record ... naming the key, signature type, digest, certificate, client identity and file name
   ACTUALLY USED."  The CONTENT of the record (C06/Record.v): lib/audit, signinit.Init / PublishAudit, the AuditContext
   methods, SignOpts.SetBinPatch / SetPkcs7 and the two callers are translated statement by statement
   (Generated/C06rec_gen.v) and run by an interpreter whose only memory between requests is the package-level variables. *)

(* one request, any process state g, any key / names / certificates / client / file name / digest / signer outcome / sink
   configuration and faults: what it shows is a function of the request alone (serve_spec, or nothing when Init refuses),
   and no package-level variable changes *)
Theorem serve_summary : forall g r,
  summary (handle g r) = (if init_succeeds r then serve_spec r (init_slots r) else silent) /\ o_glob (handle g r) = g.
Proof. exact C06.RecordProofs.serve_summary. Qed.

(* a body written to the client is the signer's blob; the signer was given the bundle InitKey loaded for THIS request;
   before the body, every configured sink took exactly one record, whose identity attributes are the specification's:
   the key section used, the signer module, the digest, subject / issuer / SHA-1 fingerprint of the leaf of that same bundle,
   fingerprint and user id of its PGP certificate, the client's address, name (DN / subject / issuer / decision) and file name *)
Theorem record_names_what_was_used : forall g r b,
  In b (responded (handle g r)) ->
  let o := handle g r in
  b = blob_out r /\ signed_with o = [VRef a_bundle] /\ o_glob o = g /\ order_ok false (o_ev o) = true /\
  (if c_file r then exists rc, file_records o = [(rc, true)] /\ identity_of rc = spec_server r /\ late_no_bad rc = true else file_records o = []) /\
  (if c_amqp r then exists rc, amqp_records o = [(rc, true)] /\ identity_of rc = spec_server r /\ late_no_bad rc = true else amqp_records o = []).
Proof. exact C06.RecordProofs.record_names_what_was_used. Qed.

(* HISTORY INDEPENDENCE: any sequence of requests in one process, from any initial values of the package-level variables:
   every request shows exactly what it shows as the only request of a fresh process (no memo between requests) *)
Theorem record_history_independent : forall rs g,
  map summary (handle_all rec_funcs g rs) = map (fun r => summary (handle [] r)) rs.
Proof. exact C06.RecordProofs.record_history_independent. Qed.
Theorem serve_state_untouched : forall g r, o_glob (handle g r) = g.
Proof. exact C06.RecordProofs.serve_state_untouched. Qed.

(* signinit.Init alone (lib/audit inlined by its calls): the state it leaves, for every request it accepts *)
Theorem init_state : forall r g fr,
  init_succeeds r = true ->
  stage_init (world_of r) rec_funcs (init_args r) (mkState (heap0 r) 100 g fr [])
  = Done (VTuple [VRef a_bundle; VRef 102; VNil]) (after_init r (init_slots r) (ts_val r) g fr).
Proof. exact C06.RecordProofs.init_state. Qed.
Theorem init_identity : forall r, sig_identity (init_slots r) = spec_signature r.
Proof. exact C06.RecordProofs.init_identity. Qed.

(* the standalone command *)
Theorem cmd_summary : forall r,
  summary (cmd r) = (if init_succeeds r then cmd_spec r (init_slots r) else silent) /\ o_glob (cmd r) = cmd_globals r.
Proof.
  intros r. destruct (init_succeeds r) eqn:HI; [|apply pair_equal_spec; exact (f_equal snd (init_fails [] r HI))].
  unfold cmd, cmd_with, run_staged. rewrite parts_cmd. cbv beta iota zeta.
  rewrite args_cmd. cbv beta iota.
  rewrite (init_state r (cmd_globals r) _ HI). cbv beta iota.
  rewrite bind_cmd. cbv beta iota.
  exact (tail_cmd r _ _ _ _ _ _ _ _ _ _ (ts_val r)).
Qed.
Theorem cmd_record_names_what_was_used : forall r,
  sm_ok (summary (cmd r)) = true -> signed_with (cmd r) <> [] ->
  let o := cmd r in
  signed_with o = [VRef a_bundle] /\
  (if c_file r then exists rc, file_records o = [(rc, true)] /\ identity_of rc = spec_cmd r /\ late_no_bad rc = true else file_records o = []) /\
  (if c_amqp r then exists rc, amqp_records o = [(rc, true)] /\ identity_of rc = spec_cmd r /\ late_no_bad rc = true else amqp_records o = []).
Proof.
  intros r Hok Hsg o. subst o.
  destruct (cmd_summary r) as [Hs _].
  destruct (summary_fields (cmd r)) as (_ & Hsig & _ & Hf & Ha).
  rewrite Hs in Hok, Hsig, Hf, Ha. rewrite Hsig in Hsg.
  destruct (init_succeeds r); [|discriminate Hok].
  unfold cmd_spec, silent in *. cbv zeta in *.
  destruct (r_stdin r && negb (m_stdin r)); [discriminate Hok|].
  destruct (a_ifunsigned r && r_stdin r); [discriminate Hok|].
  destruct (a_ifunsigned r && r_signed r); [destruct (Hsg eq_refl)|].
  destruct (negb (r_sign_ok r)); [discriminate Hok|].
  destruct (c_amqp r && negb (r_amqp_ok r)); [discriminate Hok|].
  destruct (c_file r && negb (r_file_ok r)); [discriminate Hok|].
  cbn [sm_signed sm_file sm_amqp] in *.
  assert (E : sig_identity (init_slots r) ++ cmd_client_spec r = spec_cmd r) by (rewrite init_identity; reflexivity).
  repeat apply conj; try assumption; [exact (one_record _ _ _ _ _ E Hf) | exact (one_record _ _ _ _ _ E Ha)].
Qed.

(* what srcgen reads off the source is what was reviewed: package-level variables of lib/audit (none), internal/signinit,
   internal/authmodel; the call sites of audit.New / SetX509Cert / SetPgpCert / PublishAudit and their first arguments; the
   writers of identity attributes (no signer module among them; every key a literal); the origin of keyName, filename, hash,
   mod, tok, flags, userInfo; nothing left untranslated *)
Theorem state_inventory_reviewed : rec_pkg_vars = map zs2 reviewed_pkg_vars.
Proof. exact C06.RecordProofs.state_inventory_reviewed. Qed.
Theorem setter_calls_reviewed : setter_calls = map zs4 reviewed_setter_calls.
Proof. vm_compute. reflexivity. Qed.
Theorem identity_writers_reviewed :
  identity_writers = map zs3 reviewed_identity_writers /\ forallb (fun w => negb (bytes_eqb (snd w) q_mark)) attr_writes = true.
Proof. split; vm_compute; reflexivity. Qed.
Theorem preludes_reviewed : servesign_prelude = reviewed_servesign_prelude /\ signcmd_prelude = reviewed_signcmd_prelude.
Proof. split; vm_compute; reflexivity. Qed.
Theorem everything_translated : rec_untranslated = [].
Proof. reflexivity. Qed.
Theorem hash_names_are_the_registered_ones : forall h, hash_name_of h hash_names = spec_hash_name h.
Proof. reflexivity. Qed.

(* ---- non-vacuity *)
Example server_request_answered :
  responded (handle [] req_a) = [VStr blob_a] /\ init_succeeds req_a = true /\
  map (fun p => identity_of (fst p)) (file_records (handle [] req_a)) = [spec_server req_a].
Proof. exact C06.RecordProofs.server_request_answered. Qed.
Example staged_is_mono :
  summary (handle [] req_b) = summary (run_mono rec_funcs n_serve req_b [] (serve_frame req_b)) /\
  summary (cmd req_b) = summary (run_mono rec_funcs n_cmd req_b (cmd_globals req_b) (cmd_frame req_b)).
Proof. exact C06.RecordProofs.staged_is_mono. Qed.
(* the class of change this decides: the three strings of SetX509Cert memoised per public key *)
Example memo_names_the_first_certificate :
  let os := handle_all memo_funcs [] [req_a; req_b; req_a] in
  map x509_named os = [[spec_x509 cert_a]; [spec_x509 cert_a]; [spec_x509 cert_a]]
  /\ map responded os = [[VStr blob_a]; [VStr blob_a]; [VStr blob_a]]
  /\ map x509_named (handle_all rec_funcs [] [req_a; req_b; req_a]) = [[spec_x509 cert_a]; [spec_x509 cert_b]; [spec_x509 cert_a]]
  /\ (forall o, In o os -> o_glob o <> []).
Proof. exact C06.RecordProofs.memo_names_the_first_certificate. Qed.
