(* C06/RecordProofs.v — proofs about the content of the audit record (C06/Record.v over Generated/C06rec_gen.v).
   Method: the generated program is run by the interpreter on a request whose byte strings, numbers and certificates are
   VARIABLES; only what the code branches on is taken apart.  Stage 1 (signinit.Init, with lib/audit inlined by its calls)
   leaves a state that is written down in closed form; stage 2 (the rest of serveSign / signCmd) is run from that state
   with Init's ten attribute slots generalised.  No axioms. *)
From Coq Require Strings.String Strings.Ascii.
From Relic Require Import Base.Prelude Generated.C06rec_gen C06.Record.
Import String.StringSyntax.
Local Open Scope string_scope.
Local Notation "'B' s" := (ltac:(let v := eval vm_compute in (zs s) in exact v)) (at level 0, s at level 0, only parsing).

Definition ctx_val : value := VSym (B "context") [].
Definition tok_val : value := VStruct (B "token") [].
Definition init_args (r : request) : list value := [ctx_val; mod_val r; tok_val; VStr (q_key r); VInt (q_hash r); flags_val r].

Definition nilb (b : bytes) : bool := match b with [] => true | _ => false end.
Definition ts_active (r : request) : bool := (k_ts r || negb (nilb (k_tsname r))) && negb (q_no_ts r).
Definition init_succeeds (r : request) : bool :=
  k_ok r
  && (match k_leaf r with Some _ => true | None => negb (m_x509 r) end)
  && (match k_pgp r with Some _ => true | None => negb (m_pgp r) end)
  && (negb (ts_active r) || r_gts_ok r).

(* the ten slots Init fills, in the order of init_keys *)
Definition init_slots (r : request) : list (bool * value) :=
  [(true, VStr (q_sigtype r)); (true, VStr (k_section r)); (true, VSym (B "x509tools.HashNames[]") [VInt (q_hash r)]); (true, VTime (r_now r));
   (match r_host r with [] => (false, VNil) | _ => (true, VStr (r_host r)) end);
   (match k_leaf r with Some c => (true, VSym (B "x509tools.FormatPkixName") [VStr (c_subject c); VInt 1]) | None => (false, VNil) end);
   (match k_leaf r with Some c => (true, VSym (B "x509tools.FormatPkixName") [VStr (c_issuer c); VInt 1]) | None => (false, VNil) end);
   (match k_leaf r with Some c => (true, VSym (B "hex") [VSym (B "digest") [VInt 3; VTuple [VStr (c_raw c)]]]) | None => (false, VNil) end);
   (match k_pgp r with Some e => (true, VSym (B "hex") [VStr (e_fpr e)]) | None => (false, VNil) end);
   (match k_pgp r with Some e => (true, VSym (B "pgptools.EntityName") [entity_val e]) | None => (false, VNil) end)].

Definition slots_with (sv : list (bool * value)) : list (bytes * (bool * value)) :=
  map (fun k => (k, match alookup k (combine init_keys sv) with Some bv => bv | None => (false, VNil) end)) attr_universe.

Definition bundle_with (r : request) (t : value) : value :=
  VStruct (B "certloader.Certificate")
    [(B "Leaf", match k_leaf r with Some _ => VRef a_leaf | None => VNil end);
     (B "PgpKey", match k_pgp r with Some _ => VRef a_pgp | None => VNil end);
     (B "Timestamper", t); (B "KeyName", VStr (q_key r))].
Definition ts_val (r : request) : value :=
  if ts_active r then VStruct (B "signinit.namedTimestamper") [(B "client", VStruct (B "tsclient") []); (B "name", VStr (k_tsname r))] else VNil.

(* the state a successful Init leaves: three new cells (the attribute map, the Info, the options) and the bundle's timestamper *)
Definition after_init (r : request) (sv : list (bool * value)) (t : value) (g fr : list (bytes * value)) : state :=
  mkState
    ((102, VStruct (B "signers.SignOpts") [(B "Hash", VInt (q_hash r)); (B "Time", VTime (r_now r)); (B "Audit", VRef 101); (B "Flags", flags_val r); (B "ctx", ctx_val)])
     :: (101, VStruct (B "audit.Info") [(B "Attributes", VRef 100); (B "StartTime", VTime (r_now r))])
     :: (100, VAttrs (slots_with sv))
     :: (a_bundle, bundle_with r t) :: tl (heap0 r))
    103 g fr [].

(* close  l = r  by evaluating both sides once, when the proof is checked.  r should be a value or nearly one: a checker
   without the virtual machine compares the two sides lazily, and two large unevaluated terms can keep it busy for hours
   (staged_is_mono below is therefore normalised first). *)
Ltac vm_refl := match goal with |- ?l = ?r => vm_cast_no_check (@eq_refl _ r) end.

(* take a request apart, one variable per field *)
Ltac fields r :=
  destruct r as [key st h fn rem u nots kok sec leaf pgp kts ktsn mx mp mfl mstd mfix ca cf af ao aiu now host gts sok kind blob sz aok fok stdin sgn].

(* The run is evaluated once per path through the code, and a field of the request is taken apart only where the code
   branches on it, in the order the code does: a field no branch has looked at yet stays a variable, so a path that ends
   early is not multiplied by the cases of what would have come after it. *)
Lemma init_state : forall r g fr,
  init_succeeds r = true ->
  stage_init (world_of r) rec_funcs (init_args r) (mkState (heap0 r) 100 g fr [])
  = Done (VTuple [VRef a_bundle; VRef 102; VNil]) (after_init r (init_slots r) (ts_val r) g fr).
Proof.
  intros r. fields r. intros g fr.
  unfold init_succeeds, ts_active. cbn [k_ok k_leaf k_pgp m_x509 m_pgp k_ts k_tsname q_no_ts r_gts_ok].
  intros H.
  destruct kok; [|discriminate H].
  destruct host as [|h0 host].
  (* the certificate types the module requires (mx: X.509, mp: PGP) are looked at only where that certificate is missing *)
  all: destruct leaf as [c|], pgp as [e|]; [ | destruct mx, mp | destruct mx, mp | destruct mx, mp]; try discriminate H.
  all: destruct kts; [|destruct ktsn as [|t0 ktsn]; [vm_refl|]].
  all: destruct nots; [vm_refl|].
  all: destruct gts; [vm_refl | discriminate H].
Qed.

(* Init fails: nothing is signed, published or answered, and no package-level variable changes *)
Definition silent : summ := mkSumm false [] [] [] [] [] [] true.
Lemma init_fails : forall g r, init_succeeds r = false ->
  let o := handle g r in let oc := cmd r in
  (summary o, o_glob o, (summary oc, o_glob oc)) = (silent, g, (silent, cmd_globals r)).
Proof.
  intros g r. fields r. intros H o oc.
  unfold init_succeeds, ts_active in H. cbn [k_ok k_leaf k_pgp m_x509 m_pgp k_ts k_tsname q_no_ts r_gts_ok] in H.
  destruct kok; [|vm_refl].
  destruct host as [|h0 host].
  all: destruct leaf as [c|], pgp as [e|];
    [ | destruct mx, mp; [vm_refl | | vm_refl | ] | destruct mx, mp; [vm_refl | vm_refl | | ] | destruct mx, mp; [vm_refl | vm_refl | vm_refl | ]].
  all: destruct kts; [|destruct ktsn as [|t0 ktsn]; [discriminate H|]].
  all: destruct nots; [discriminate H|].
  all: destruct gts; [discriminate H | vm_refl].
Qed.

(* stage 2 for serveSign: the parts of its window *)
Definition parts_s := Eval vm_compute in window_parts rec_funcs n_serve.
Definition lhs_s : list rx := match parts_s with Some (l, _, _) => l | None => [] end.
Definition args_s : list rx := match parts_s with Some (_, a, _) => a | None => [] end.
Definition tail_s : list rs := match parts_s with Some (_, _, t) => t | None => [] end.
Lemma parts_serve : window_parts rec_funcs n_serve = Some (lhs_s, args_s, tail_s).
Proof. vm_compute. reflexivity. Qed.

Definition bound_frame (fr : list (bytes * value)) : list (bytes * value) :=
  aset (B "err") VNil (aset (B "opts") (VRef 102) (aset (B "cert") (VRef a_bundle) fr)).

Lemma args_serve : forall r g,
  stage_args (world_of r) rec_funcs args_s (mkState (heap0 r) 100 g (serve_frame r) [])
  = Done (init_args r) (mkState (heap0 r) 100 g (serve_frame r) []).
Proof. intros r g. vm_refl. Qed.

Lemma bind_serve : forall r sv t g,
  stage_bind (world_of r) rec_funcs lhs_s (VTuple [VRef a_bundle; VRef 102; VNil]) (after_init r sv t g (serve_frame r))
  = Done tt (after_init r sv t g (bound_frame (serve_frame r))).
Proof. intros r sv t g. vm_refl. Qed.

Definition client_spec (r : request) : list (bytes * value) :=
  [(B "client.ip", VSym (B "zhttp.StripPort") [VStr (q_remote r)]); (B "client.filename", VStr (q_filename r))] ++ spec_user (q_user r).
Definition blob_out (r : request) : value :=
  match r_kind r with
  | KBinPatch => VSym (B ".Dump") [VStruct (B "binpatch.PatchSet") [(B "blob", VStr (r_blob r))]]
  | _ => VStr (r_blob r)
  end.
Definition ctype_of (r : request) : value :=
  VStr (match r_kind r with KPlain => B "application/octet-stream" | KBinPatch => B "application/x-binary-patch" | KPkcs7 _ => B "application/pkcs7-mime" end).

(* what a request that got through Init shows, in the order the code decides it *)
Definition serve_spec (r : request) (sv : list (bool * value)) : summ :=
  let view ok : rec_view := (sv, client_spec r, true, ok) in
  if negb (r_sign_ok r) then mkSumm false [] [] [] [VRef a_bundle] [] [] true
  else if c_amqp r && negb (r_amqp_ok r) then mkSumm false [] [] [] [VRef a_bundle] [view false] [] true
  else let am := if c_amqp r then [view true] else [] in
       if c_file r && negb (r_file_ok r) then mkSumm false [] [] [] [VRef a_bundle] am [view false] true
       else mkSumm true [blob_out r] [(VStr (B "Content-Type"), ctype_of r)] [] [VRef a_bundle] am (if c_file r then [view true] else []) true.

Lemma tail_serve : forall r p1 p2 p3 p4 p5 p6 p7 p8 p9 p10 t g,
  let sv := [p1; p2; p3; p4; p5; p6; p7; p8; p9; p10] in
  let o := finish g (stage_tail (world_of r) rec_funcs tail_s (after_init r sv t g (bound_frame (serve_frame r)))) in
  summary o = serve_spec r sv /\ o_glob o = g.
Proof.
  intros r. fields r. intros p1 p2 p3 p4 p5 p6 p7 p8 p9 p10 t g sv o.
  apply pair_equal_spec.
  destruct u as [nm [|d0 dn]|sub [iss|] [|e0 dec]].
  all: destruct sok; [|vm_refl].
  all: destruct kind as [| |[[[tc tt] th]|]].
  all: destruct ca; [destruct aok; [|vm_refl]|].
  all: destruct cf; [destruct fok; [|vm_refl]|].
  all: destruct mfl; vm_refl.
Qed.

Theorem serve_summary : forall g r,
  summary (handle g r) = (if init_succeeds r then serve_spec r (init_slots r) else silent) /\ o_glob (handle g r) = g.
Proof.
  intros g r. destruct (init_succeeds r) eqn:HI; [|apply pair_equal_spec; exact (f_equal fst (init_fails g r HI))].
  unfold handle, handle_with, run_staged. rewrite parts_serve. cbv beta iota zeta.
  rewrite args_serve. cbv beta iota.
  rewrite (init_state r g _ HI). cbv beta iota.
  rewrite bind_serve. cbv beta iota.
  exact (tail_serve r _ _ _ _ _ _ _ _ _ _ (ts_val r) g).
Qed.

Lemma init_identity : forall r, sig_identity (init_slots r) = spec_signature r.
Proof. intros r. fields r. destruct leaf as [c|], pgp as [e|]; reflexivity. Qed.

(* the sink was given one record, it took it, and the record names what the specification names; or the sink is not configured *)
Lemma one_record : forall (l : list (value * bool)) (c : bool) sv cl spec,
  sig_identity sv ++ cl = spec ->
  map view_of l = (if c then [(sv, cl, true, true)] else []) ->
  if c then exists rc, l = [(rc, true)] /\ identity_of rc = spec /\ late_no_bad rc = true else l = [].
Proof.
  intros l [|] sv cl spec E H; [|exact (map_eq_nil _ _ H)].
  destruct l as [|[rc k] [|x l]]; try discriminate H.
  injection H as <- <- Hn ->. exists rc. repeat split; [exact E | exact Hn].
Qed.

Lemma summary_fields : forall o,
  responded o = sm_resp (summary o) /\ signed_with o = sm_signed (summary o) /\ order_ok false (o_ev o) = sm_order (summary o) /\
  map view_of (file_records o) = sm_file (summary o) /\ map view_of (amqp_records o) = sm_amqp (summary o).
Proof. intros o. repeat split. Qed.

Theorem record_names_what_was_used : forall g r b,
  In b (responded (handle g r)) ->
  let o := handle g r in
  b = blob_out r /\ signed_with o = [VRef a_bundle] /\ o_glob o = g /\ order_ok false (o_ev o) = true /\
  (if c_file r then exists rc, file_records o = [(rc, true)] /\ identity_of rc = spec_server r /\ late_no_bad rc = true else file_records o = []) /\
  (if c_amqp r then exists rc, amqp_records o = [(rc, true)] /\ identity_of rc = spec_server r /\ late_no_bad rc = true else amqp_records o = []).
Proof.
  intros g r b Hb o. subst o.
  destruct (serve_summary g r) as [Hs Hg].
  destruct (summary_fields (handle g r)) as (Hresp & Hsig & Hord & Hf & Ha).
  rewrite Hs in Hresp, Hsig, Hord, Hf, Ha. rewrite Hresp in Hb.
  (* a body went out: Init, the signer and every configured sink succeeded *)
  destruct (init_succeeds r); [|destruct Hb].
  unfold serve_spec in *. cbv zeta in *.
  destruct (negb (r_sign_ok r)); [destruct Hb|].
  destruct (c_amqp r && negb (r_amqp_ok r)); [destruct Hb|].
  destruct (c_file r && negb (r_file_ok r)); [destruct Hb|].
  cbn [sm_resp sm_signed sm_order sm_file sm_amqp] in *. destruct Hb as [<-|[]].
  assert (E : sig_identity (init_slots r) ++ client_spec r = spec_server r) by (rewrite init_identity; reflexivity).
  repeat apply conj; try assumption; [reflexivity | exact (one_record _ _ _ _ _ E Hf) | exact (one_record _ _ _ _ _ E Ha)].
Qed.

(* no response: no signature leaves; and whatever happened, the package-level variables are as before *)
Theorem serve_state_untouched : forall g r, o_glob (handle g r) = g.
Proof. intros. exact (proj2 (serve_summary g r)). Qed.
Theorem serve_does_not_read_state : forall g g' r, summary (handle g r) = summary (handle g' r).
Proof. intros. rewrite (proj1 (serve_summary g r)), (proj1 (serve_summary g' r)). reflexivity. Qed.

(* HISTORY INDEPENDENCE: in a process that serves any sequence of requests, starting from any values of the package-level
   variables, every request shows exactly what it shows as the first request of a fresh process *)
Theorem record_history_independent : forall rs g,
  map summary (handle_all rec_funcs g rs) = map (fun r => summary (handle [] r)) rs.
Proof.
  induction rs as [|r rs IH]; intros g; [reflexivity|].
  cbn [handle_all map].
  assert (E : handle_with rec_funcs g r = handle g r) by (unfold handle; reflexivity).
  rewrite E, (serve_state_untouched g r), IH, (serve_does_not_read_state g [] r). reflexivity.
Qed.

(* stage 2 for the standalone command *)
Definition parts_c := Eval vm_compute in window_parts rec_funcs n_cmd.
Definition lhs_c : list rx := match parts_c with Some (l, _, _) => l | None => [] end.
Definition args_c : list rx := match parts_c with Some (_, a, _) => a | None => [] end.
Definition tail_c : list rs := match parts_c with Some (_, _, t) => t | None => [] end.
Lemma parts_cmd : window_parts rec_funcs n_cmd = Some (lhs_c, args_c, tail_c).
Proof. vm_compute. reflexivity. Qed.

Lemma args_cmd : forall r,
  stage_args (world_of r) rec_funcs args_c (mkState (heap0 r) 100 (cmd_globals r) (cmd_frame r) [])
  = Done (init_args r) (mkState (heap0 r) 100 (cmd_globals r) (cmd_frame r) []).
Proof. intros r. vm_refl. Qed.

Lemma bind_cmd : forall r sv t,
  stage_bind (world_of r) rec_funcs lhs_c (VTuple [VRef a_bundle; VRef 102; VNil]) (after_init r sv t (cmd_globals r) (cmd_frame r))
  = Done tt (after_init r sv t (cmd_globals r) (bound_frame (cmd_frame r))).
Proof. intros r sv t. vm_refl. Qed.

Definition cmd_client_spec (r : request) : list (bytes * value) := [(B "client.filename", VSym (B "filepath.Base") [VStr (a_file r)])].
(* the standalone command after a successful Init, in the order the code decides *)
Definition cmd_spec (r : request) (sv : list (bool * value)) : summ :=
  let view ok : rec_view := (sv, cmd_client_spec r, true, ok) in
  let app := [(VStr (a_output r), ctype_of r)] in
  if r_stdin r && negb (m_stdin r) then silent
  else if a_ifunsigned r && r_stdin r then silent
  else if a_ifunsigned r && r_signed r then mkSumm true [] [] [] [] [] [] true       (* already signed: nothing to do, nothing signed *)
  else if negb (r_sign_ok r) then mkSumm false [] [] [] [VRef a_bundle] [] [] true
  else if c_amqp r && negb (r_amqp_ok r) then mkSumm false [] [] app [VRef a_bundle] [view false] [] true
  else let am := if c_amqp r then [view true] else [] in
       if c_file r && negb (r_file_ok r) then mkSumm false [] [] app [VRef a_bundle] am [view false] true
       else mkSumm true [] [] app [VRef a_bundle] am (if c_file r then [view true] else []) true.

Lemma tail_cmd : forall r p1 p2 p3 p4 p5 p6 p7 p8 p9 p10 t,
  let sv := [p1; p2; p3; p4; p5; p6; p7; p8; p9; p10] in
  let o := finish (cmd_globals r) (stage_tail (world_of r) rec_funcs tail_c (after_init r sv t (cmd_globals r) (bound_frame (cmd_frame r)))) in
  summary o = cmd_spec r sv /\ o_glob o = cmd_globals r.
Proof.
  intros r. fields r. intros p1 p2 p3 p4 p5 p6 p7 p8 p9 p10 t sv o.
  apply pair_equal_spec.
  destruct stdin; [destruct mstd; [destruct aiu; [vm_refl|] | vm_refl] | destruct aiu; [destruct sgn; [vm_refl|] | ]].
  all: destruct sok; [|vm_refl].
  all: destruct kind as [| |[[[tc tt] th]|]], mfix.
  all: destruct ca; [destruct aok; [|vm_refl]|].
  all: destruct cf; [destruct fok|].
  all: vm_refl.
Qed.

(* Reviewed inventories.  What srcgen reads off the source must be exactly what was reviewed.  A new package-level
   variable in lib/audit, internal/signinit or internal/authmodel, a new writer of an identity attribute, a new call of SetX509Cert / SetPgpCert /
   audit.New / PublishAudit, a change in where keyName / filename / hash come from: each changes a generated list and the
   corresponding theorem (state_inventory_reviewed here, the others in Properties.v) no longer holds. *)
Definition zs2 (p : String.string * String.string) : bytes * bytes := (zs (fst p), zs (snd p)).
Definition zs3 (p : String.string * String.string * String.string) : bytes * bytes * bytes := (zs (fst (fst p)), zs (snd (fst p)), zs (snd p)).
Definition zs4 (p : String.string * String.string * String.string * String.string) : bytes * bytes * bytes * bytes :=
  (zs (fst (fst (fst p))), zs (snd (fst (fst p))), zs (snd (fst p)), zs (snd p)).

(* lib/audit has NO package-level variable; signinit has the timestamp client singleton and its mutex (neither holds a
   key, a certificate or anything of a request); authmodel has a context key and a constant table of messages *)
Definition reviewed_pkg_vars : list (String.string * String.string) :=
  [("internal/signinit.mu", "sync.Mutex"); ("internal/signinit.ts", "pkcs9.Timestamper");
   ("internal/authmodel.ctxKeyUserInfo", "ctxKey"); ("internal/authmodel.should401", "= map[string]bool")].
Lemma state_inventory_reviewed : rec_pkg_vars = map zs2 reviewed_pkg_vars.
Proof. vm_compute. reflexivity. Qed.

(* the identity setters are called in exactly one place each, on the certificate / key of the bundle Init just loaded, and
   the record that is published is the one of the options Init returned *)
Definition reviewed_setter_calls : list (String.string * String.string * String.string * String.string) :=
  [("cmdline/token/signcmd.go", "signCmd", "PublishAudit", "opts.Audit");
   ("internal/signinit/signinit.go", "Init", "audit.New", "kconf.Name()");
   ("internal/signinit/signinit.go", "Init", "SetX509Cert", "cert.Leaf");
   ("internal/signinit/signinit.go", "Init", "SetPgpCert", "cert.PgpKey");
   ("server/view_sign.go", "Server.serveSign", "PublishAudit", "opts.Audit")].
(* who writes an attribute that names key, type, digest, certificate, client or file: nobody but these; in particular no
   signer module touches them (their attributes are listed in attr_writes under other keys), and every key is a literal *)
Definition q_mark : bytes := zs "?".
Definition identity_writers : list (bytes * bytes * bytes) :=
  filter (fun w => existsb (bytes_eqb (snd w)) identity_keys) attr_writes.
Definition reviewed_identity_writers : list (String.string * String.string * String.string) :=
  [("cmdline/token/signcmd.go", "signCmd", "client.filename");
   ("internal/authmodel/certificate.go", "CertificateInfo.AuditContext", "client.name");
   ("internal/authmodel/certificate.go", "CertificateInfo.AuditContext", "client.dn");
   ("internal/authmodel/opa.go", "PolicyInfo.AuditContext", "client.sub");
   ("internal/authmodel/opa.go", "PolicyInfo.AuditContext", "client.iss");
   ("internal/authmodel/opa.go", "PolicyInfo.AuditContext", "client.decision_id");
   ("lib/audit/audit.go", "New", "sig.type"); ("lib/audit/audit.go", "New", "sig.keyname"); ("lib/audit/audit.go", "New", "sig.hash");
   ("lib/audit/audit.go", "Info.SetPgpCert", "sig.pgp.fingerprint"); ("lib/audit/audit.go", "Info.SetPgpCert", "sig.pgp.entity");
   ("lib/audit/audit.go", "Info.SetX509Cert", "sig.x509.subject"); ("lib/audit/audit.go", "Info.SetX509Cert", "sig.x509.issuer");
   ("lib/audit/audit.go", "Info.SetX509Cert", "sig.x509.fingerprint");
   ("server/view_sign.go", "Server.serveSign", "client.ip"); ("server/view_sign.go", "Server.serveSign", "client.filename")].
(* where the variables of the two windows come from (the statements before the call of signinit.Init) *)
Definition S (s : String.string) : bytes := zs s.
Definition reviewed_servesign_prelude : list (bytes * list rx) :=
  [(S "query", [XMeth (XSel (XVar (S "request")) (S "URL")) (S "Query") []]);
   (S "keyName", [XMeth (XVar (S "query")) (S "Get") [XStr (S "key")]]);
   (S "filename", [XMeth (XVar (S "query")) (S "Get") [XStr (S "filename")]]);
   (S "sigType", [XMeth (XVar (S "query")) (S "Get") [XStr (S "sigtype")]]);
   (S "userInfo", [XCall (S "authmodel.RequestInfo") [XVar (S "request")]]);
   (S "keyConf,err", [XMeth (XSel (XVar (S "s")) (S "Config")) (S "GetKey") [XVar (S "keyName")]]);
   (S "mod", [XCall (S "signers.ByName") [XVar (S "sigType")]]);
   (S "hash", [XExt (S "crypto.SHA256") false]);
   (S "digest", [XMeth (XMeth (XSel (XVar (S "request")) (S "URL")) (S "Query") []) (S "Get") [XStr (S "digest")]]);
   (S "hash", [XCall (S "x509tools.HashByName") [XVar (S "digest")]]);
   (S "flags,err", [XMeth (XVar (S "mod")) (S "FlagsFromQuery") [XVar (S "query")]]);
   (S "tok", [XIndex (XSel (XVar (S "s")) (S "tokens")) (XSel (XVar (S "keyConf")) (S "Token"))])].
Definition reviewed_signcmd_prelude : list (bytes * list rx) :=
  [(S "argOutput", [XGlobal (S "token.argFile")]);
   (S "mod,err", [XCall (S "signers.ByFile") [XGlobal (S "token.argFile"); XGlobal (S "token.argSigType")]]);
   (S "flags,err", [XMeth (XVar (S "mod")) (S "FlagsFromCmdline") [XMeth (XVar (S "cmd")) (S "Flags") []]]);
   (S "hash,err", [XCall (S "shared.GetDigest") []]);
   (S "token,err", [XCall (S "token.openTokenByKey") [XGlobal (S "token.argKeyName")]])].
Definition cert_a : cert := mkCert (zs "DER of certificate A") (zs "subject A") (zs "issuer A") (zs "the public key") (zs "tbs A").
Definition cert_b : cert := mkCert (zs "DER of certificate B") (zs "subject B") (zs "issuer B") (zs "the public key") (zs "tbs B").
Definition ent_a : entity := mkEntity (zs "fpr A") (zs "kid A") (zs "ids A").
Definition blob_a : bytes := zs "pkcs7 blob".
Definition req_with (keyname section : String.string) (c : cert) : request :=
  mkRequest (zs keyname) (zs "cat") 5 (zs "hyperv.cat") (zs "198.51.100.23:5151") (UCert (zs "alice") [])
        false true (zs section) (Some c) (Some ent_a) false [] true false false false false false true [] [] false
        1759212000 (zs "signer01") true true (KPkcs7 None) blob_a 13580 true true false false.
Definition req_a := req_with "release" "release" cert_a.
Definition req_b := req_with "rel-alias" "release-ev" cert_b.

Example server_request_answered :
  responded (handle [] req_a) = [VStr blob_a] /\ init_succeeds req_a = true /\
  map (fun p => identity_of (fst p)) (file_records (handle [] req_a)) = [spec_server req_a].
Proof. split; [vm_refl | split; vm_refl]. Qed.

(* the staged reading of a window agrees with running it in one go *)
Example staged_is_mono :
  summary (handle [] req_b) = summary (run_mono rec_funcs n_serve req_b [] (serve_frame req_b)) /\
  summary (cmd req_b) = summary (run_mono rec_funcs n_cmd req_b (cmd_globals req_b) (cmd_frame req_b)).
Proof. split; vm_compute; reflexivity. Qed.

(* SetX509Cert with its three strings memoised per public key (lib/audit with a package-level sync.Map), as srcgen
   translates it: the interpreter runs it faithfully, and the second certificate over the same key is recorded under the
   name of the first.  With such a source tree init_state above does not compute (XGlobal meets the unknown g) and
   state_inventory_reviewed fails; here the model shows the concrete history. *)
Definition memo_setx509 : list rfun :=
  [mkFun (S "audit.Info.SetX509Cert") true true [S "info"; S "cert"]
     [SAssign [XVar (S "attrs")] [XCall (S "audit.formatX509Attrs") [XVar (S "cert")]] true;
      SAssign [XIndex (XSel (XVar (S "info")) (S "Attributes")) (XStr (S "sig.x509.subject"))] [XSel (XVar (S "attrs")) (S "subject")] false;
      SAssign [XIndex (XSel (XVar (S "info")) (S "Attributes")) (XStr (S "sig.x509.issuer"))] [XSel (XVar (S "attrs")) (S "issuer")] false;
      SAssign [XIndex (XSel (XVar (S "info")) (S "Attributes")) (XStr (S "sig.x509.fingerprint"))] [XSel (XVar (S "attrs")) (S "fingerprint")] false];
   mkFun (S "audit.formatX509Attrs") false false [S "cert"]
     [SAssign [XVar (S "cacheKey")] [XCall (S "conv:string") [XSel (XVar (S "cert")) (S "RawSubjectPublicKeyInfo")]] true;
      SIf [SAssign [XVar (S "cached"); XVar (S "ok")] [XMeth (XGlobal (S "audit.x509AttrCache")) (S "Load") [XVar (S "cacheKey")]] true] (XVar (S "ok"))
        [SReturn [XAssert (XVar (S "cached")) (S "x509Attrs")]] [];
      SAssign [XVar (S "d")] [XMeth (XExt (S "crypto.SHA1") false) (S "New") []] true;
      SExpr (XMeth (XVar (S "d")) (S "Write") [XSel (XVar (S "cert")) (S "Raw")]);
      SAssign [XVar (S "attrs")] [XLit (S "audit.x509Attrs") false
         [(S "subject", XCall (S "x509tools.FormatSubject") [XVar (S "cert")]); (S "issuer", XCall (S "x509tools.FormatIssuer") [XVar (S "cert")]);
          (S "fingerprint", XCall (S "fmt.Sprintf") [XStr (S "%x"); XMeth (XVar (S "d")) (S "Sum") [XNil]])]] true;
      SExpr (XMeth (XGlobal (S "audit.x509AttrCache")) (S "Store") [XVar (S "cacheKey"); XVar (S "attrs")]);
      SReturn [XVar (S "attrs")]]].
Definition memo_funcs : list rfun := memo_setx509 ++ filter (fun f => negb (bytes_eqb (f_name f) (S "audit.Info.SetX509Cert"))) rec_funcs.
Definition x509_named (o : outcome) : list (list (bytes * value)) :=
  map (fun p => filter (fun kv => bytes_prefix (S "sig.x509.") (fst kv)) (identity_of (fst p))) (file_records o).

Example memo_names_the_first_certificate :
  let os := handle_all memo_funcs [] [req_a; req_b; req_a] in
  map x509_named os = [[spec_x509 cert_a]; [spec_x509 cert_a]; [spec_x509 cert_a]]         (* the record of B's signature names A *)
  /\ map responded os = [[VStr blob_a]; [VStr blob_a]; [VStr blob_a]]
  /\ map x509_named (handle_all rec_funcs [] [req_a; req_b; req_a]) = [[spec_x509 cert_a]; [spec_x509 cert_b]; [spec_x509 cert_a]]
  /\ (forall o, In o os -> o_glob o <> []).
Proof.
  intros os. split; [vm_refl | split; [vm_refl | split; [vm_refl|]]].
  assert (G : forallb (fun o => match o_glob o with [] => false | _ => true end) os = true) by vm_refl.
  intros o Ho E. rewrite forallb_forall in G. specialize (G o Ho). rewrite E in G. discriminate G.
Qed.
