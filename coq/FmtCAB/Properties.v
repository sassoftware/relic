(* FmtCAB/Properties.v — property theorems only, for the two formats of this module:
   cab_  Microsoft Cabinet Authenticode signatures (lib/cabfile Digest / Parse / MakePatch, lib/authenticode VerifyCab, signers/cab),
   xap_  Silverlight XAP signature trailer (signers/xap transformer, lib/signxap TrailerSize / DigestXapTar / removeSignature /
         Sign / Verify, lib/zipslicer FindDirectory / ZipToTarTrailer).
   The proofs rest on FmtCAB/Proofs.v and FmtCAB/ProofsB.v (CAB: parser, cab_dom, signing step cab_step) and FmtCAB/ProofsXap.v
   (XAP: xap_parts, signing step xap_step).  Grouped by the property served (C01 C08 C03 C02 C05); checks/fmtcab.py
   ASPECT_THEOREMS lists the same names.  Where the faithful model violates a
   statement at full strength the theorem `*_refuted` exhibits a concrete witness (replayed on the real code by
   checks/fmtcab.py) and the theorem itself is stated on the decidable domain cab_wf / xap_wf (FmtCAB/Model.v). *)
From Relic Require Import Base.Prelude Base.Enc Base.Slice Generated.FmtCAB_gen FmtCAB.Model FmtCAB.Lib FmtCAB.Proofs FmtCAB.ProofsB FmtCAB.ProofsXap Laws.Pipeline.

(* cab_format = (cab_hashin, cab_embed_wf, cab_extract, cab_payload); cab_embed_wf f b = cab_embed f b when
   cab_wf f && blob_wf b && |b| mod 8 = 0, Err E_DOMAIN otherwise.
   cab_wf (Model.v): bytes; cabfile.Digest accepts the file; cbCabinet and every folder's coffCabStart stay inside 32 bits
   after the header has grown to the signed layout (theorem cab_wf_exact).
   blob_wf: bytes, not empty, shorter than 4 GiB - 8. *)

(* ---- C01 *)
(* Laws.law_extract: the verifier's parser finds the blob, zero padded to the 8-byte boundary MakePatch pads to; the blob
   itself when its length is a multiple of 8.  Full statement (any blob): cab_law_extract_refuted *)
Theorem cab_law_extract : forall f b g, cab_wf f = true -> blob_wf b = true -> cab_embed f b = Ok g ->
  cab_extract g = Ok (Some (cab_pad8 b)) /\ (zlen b mod 8 = 0 -> cab_extract g = Ok (Some b)).
Proof.
  intros f b g Hw Hb He. pose proof (cab_embed_extract f b g Hw Hb He) as E. split; [exact E|]. intros Ha. now rewrite pad8_aligned in E.
Qed.
Theorem cab_law_extract_refuted : exists g,
  cab_wf w_cab = true /\ blob_wf [1] = true /\ cab_embed w_cab [1] = Ok g /\ cab_extract g = Ok (Some [1; 0; 0; 0; 0; 0; 0; 0]).
Proof. exists (match cab_embed w_cab [1] with Ok g => g | _ => [] end). vm_compute. repeat split; reflexivity. Qed.
(* since relic commit 6b49488 every byte string cabfile.Digest accepts has the layout MakePatch relies on: header area (header,
   reserve, folder table) ends exactly at coffFiles, coffFiles <= cbCabinet, file = header area ++ data ++ signature area.
   (Before it relic signed files without that layout and rejected its own output.) *)
Theorem cab_accepted_layout : forall f p, all_bytes f = true -> cab_parse f = Ok p ->
  f = p_hd p ++ c_data p ++ c_sig p /\ zlen (p_hd p) = u32at 16 f /\ u32at 16 f <= u32at 8 f /\ zlen (p_hd p) + zlen (c_data p) = u32at 8 f.
Proof.
  intros f p Hb Hp. destruct (cab_parse_sound f p Hb Hp) as [Hok ->]. destruct (ok_nums_of p Hok) as [NP NOT _ ND _ _].
  destruct (write_reads p Hok) as (_ & -> & -> & _). repeat split; try lia. apply cab_write_hd.
Qed.
(* so the domain of the laws is exactly: bytes, accepted by cabfile.Digest, 32-bit headroom for the grown header (cabp_wf) *)
Theorem cab_wf_exact : forall f, cab_wf f = true <-> all_bytes f = true /\ exists p, cab_parse f = Ok p /\ cabp_wf p = true.
Proof.
  intros f. unfold cab_wf. split.
  - intros H. apply andb_true_iff in H as [Hb H]. split; [exact Hb|]. destruct (cab_parse f) as [p| |]; try discriminate. now exists p.
  - intros (Hb & p & -> & Hw). now rewrite Hb, Hw.
Qed.
(* ... and whatever relic signs, relic's parser finds the signature in, digests as before, with the same payload *)
Theorem cab_signed_verifies : forall f p b g, all_bytes f = true -> cab_parse f = Ok p -> cabp_wf p = true -> blob_wf b = true ->
  cab_embed f b = Ok g -> cab_extract g = Ok (Some (cab_pad8 b)) /\ cab_hashin g = cab_hashin f /\ cab_payload g = cab_payload f.
Proof.
  intros f p b g Hb Hp Hw Hbl He. assert (W : cab_wf f = true) by (apply cab_wf_exact; split; [exact Hb|now exists p]).
  split; [exact (cab_embed_extract f b g W Hbl He)|]. split; [exact (cab_embed_hashin f b g W Hbl He)|exact (cab_embed_payload f b g W Hbl He)].
Qed.
(* regression inputs of the repaired defect: refused cleanly, never signed *)
Theorem cab_bad_layout_refused :
  all_bytes w_overlap = true /\ cab_hashin w_overlap = Err E_LAYOUT /\ cab_embed w_overlap [1; 2; 3; 4; 5; 6; 7; 8] = Err E_LAYOUT /\
  all_bytes w_regress = true /\ zlen w_regress = 36 /\ cab_hashin w_regress = Err E_LAYOUT /\ cab_embed w_regress [1; 2; 3; 4; 5; 6; 7; 8] = Err E_LAYOUT /\
  cab_extract w_regress = Err E_LAYOUT.
Proof. vm_compute. repeat split; reflexivity. Qed.
(* C01 + C08: Laws.law_hashin: the digest input ignores the signature just written (header rewritten to the signed layout,
   folder offsets shifted, reserve area and signature skipped) *)
Theorem cab_law_hashin : forall f b g, cab_wf f = true -> blob_wf b = true -> cab_embed f b = Ok g -> cab_hashin g = cab_hashin f.
Proof. exact cab_embed_hashin. Qed.
(* the three laws of Laws/Pipeline.v for cab_format *)
Theorem cab_format_laws : law_extract cabview cab_format /\ law_hashin cabview cab_format /\ law_payload cabview cab_format.
Proof. exact (conj cab_format_extract (conj cab_format_hashin cab_format_payload)). Qed.
(* inside the domain signing always succeeds: unsigned cabinets, cabinets with a zeroed reserve of any size, signed cabinets *)
Theorem cab_embed_defined : forall f b, cab_wf f = true -> blob_wf b = true -> exists g, cab_embed f b = Ok g.
Proof. exact FmtCAB.ProofsB.cab_embed_defined. Qed.
(* refusals: what the digest refuses is not signed; nothing panics, on any input; the digest accepts exactly the byte strings
   that are the serialisation of a parse result satisfying cabp_ok (Proofs.v: magic, flags in {0, RESERVE_PRESENT}, reserve
   header {20 + pad, 0, 0} with pad zero bytes and CabinetSize 0, or pad = 0 and CabinetSize = cbCabinet, NumFolders folder
   headers ending at coffFiles <= cbCabinet, cbCabinet - coffFiles bytes, SignatureSize bytes, nothing else) *)
Theorem cab_refuses_clean :
  (forall f b, is_ok (cab_hashin f) = false -> is_ok (cab_embed f b) = false) /\
  (forall f b q, cab_hashin f <> Panic q /\ cab_extract f <> Panic q /\ cab_embed f b <> Panic q) /\
  (forall f, all_bytes f = true -> (is_ok (cab_hashin f) = true <-> exists p, cabp_ok p /\ f = cab_write p)).
Proof.
  split; [|split].
  - intros f b. unfold cab_hashin, cab_embed. destruct (cab_parse f); cbn [bind is_ok]; congruence.
  - intros f b q. pose proof (np_parse f) as N. unfold cab_hashin, cab_extract, cab_embed.
    destruct (cab_parse f) as [p| |e]; cbn [bind]; repeat split; try discriminate; try (exfalso; exact (N e eq_refl)).
    apply np_rewrite_from.
  - intros f Hb. unfold cab_hashin. split.
    + destruct (cab_parse f) as [p| |] eqn:E; cbn [bind is_ok]; try discriminate. intros _. exists p. now apply cab_parse_sound.
    + intros (p & Hp & ->). now rewrite cab_parse_complete.
Qed.

(* ---- C08 *)
(* "signed" for the verifier (anything but NotSignedError) is the specification's: Authenticode reserve layout with a
   non-zero cbSignature *)
Theorem cab_is_signed_spec : forall f, cab_wf f = true -> (cab_extract f = Ok None <-> cab_spec_signed f = false).
Proof.
  intros f Hw. destruct (cab_wf_dom f Hw) as (p & D). rewrite (dom_extract _ _ D). destruct D as [_ _ Hok _ ->].
  destruct (layout_reads p Hok) as [EL ER]. unfold cab_spec_signed. rewrite EL. pose proof (ok_sig _ Hok) as Hs.
  destruct (cab_has_sig p).
  - destruct (ER eq_refl) as [_ E48]. rewrite E48, <- Hs. cbn [andb]. destruct (zlen (c_sig p) =? 0); cbn [negb]; split; congruence.
  - rewrite Hs. cbn. split; reflexivity.
Qed.
(* the signed cabinet is again in the domain: signing can be repeated *)
Theorem cab_wf_preserved : forall f b g, cab_wf f = true -> blob_wf b = true -> cab_embed f b = Ok g -> cab_wf g = true.
Proof. exact cab_embed_keeps_wf. Qed.

(* ---- C03 *)
(* Laws.law_payload: the [MS-CAB] reader's view (reserved fields, version, counts, flags without RESERVE_PRESENT, set id,
   cabinet index, per folder {offset relative to coffFiles, block count, compression}, every byte from coffFiles to cbCabinet) *)
Theorem cab_law_payload : forall f b g, cab_wf f = true -> blob_wf b = true -> cab_embed f b = Ok g -> cab_payload g = cab_payload f.
Proof. exact cab_embed_payload. Qed.
(* only the header area (up to coffFiles) and the signature area (behind cbCabinet) differ; the new header area has the size of
   the signed layout; the new signature area is the padded blob *)
Theorem cab_only_these_ranges_differ : forall f b g, cab_wf f = true -> blob_wf b = true -> cab_embed f b = Ok g ->
  exists hd hd' data sig, f = hd ++ data ++ sig /\ g = hd' ++ data ++ cab_pad8 b /\
    zlen hd = u32at 16 f /\ zlen hd + zlen data = u32at 8 f /\ zlen hd' = 60 + 8 * u16at 26 f /\
    cab_extract f = Ok (if zlen sig =? 0 then None else Some sig) /\ cab_payload g = cab_payload f.
Proof.
  intros f b g Hw Hb He. pose proof (cab_embed_payload f b g Hw Hb He) as Hp.
  destruct (cab_step f b g Hw Hb He) as (p & D & D'). pose proof (dom_extract _ _ D) as Ex.
  destruct D as [_ _ Hok _ ->]. destruct D' as [_ _ Hok' _ ->].
  destruct (ok_nums_of p Hok) as [NP NOT _ ND _ _]. destruct (ok_nums_of _ Hok') as [NP' _ _ _ _ NOd'].
  destruct (write_reads p Hok) as (_ & -> & -> & -> & _).
  exists (p_hd p), (p_hd (cab_signed_p p b)), (c_data p), (c_sig p). repeat split; try assumption; try lia; try apply cab_write_hd.
  rewrite NP'. change (cab_add_offset (cab_signed_p p b)) with 0 in NOd'. rewrite Z.add_0_r in NOd'. rewrite NOd'. apply f_equal, f_equal, zlen_map.
Qed.

(* ---- C02 *)
(* two cabinets of the domain in the Authenticode layout with equal digest input and equal blob agree on every protected byte:
   everything except reserved1 [4,8), iCabinet [34,36) and the two unknown words of the signature header [40,44), [52,56) *)
Theorem cab_protect : forall g1 g2, cab_wf g1 = true -> cab_wf g2 = true ->
  cab_spec_signed_layout g1 = true -> cab_spec_signed_layout g2 = true ->
  cab_hashin g1 = cab_hashin g2 -> cab_extract g1 = cab_extract g2 -> cab_protected g1 = cab_protected g2.
Proof. exact FmtCAB.ProofsB.cab_protect. Qed.
(* ... and no more: witness, two signed cabinets differing exactly in those four fields (the real verifier accepts both) *)
Theorem cab_exempt_fields_unprotected :
  cab_wf w_g1 = true /\ cab_wf w_g2 = true /\ w_g1 <> w_g2 /\ cab_spec_signed w_g1 = true /\ cab_spec_signed w_g2 = true /\
  cab_hashin w_g1 = cab_hashin w_g2 /\ cab_extract w_g1 = cab_extract w_g2 /\ cab_extract w_g1 = Ok (Some [7; 0; 0; 0; 0; 0; 0; 1]) /\
  cab_protected w_g1 = cab_protected w_g2.
Proof. vm_compute. repeat split; try reflexivity. discriminate. Qed.

(* ---- C05 *)
(* relic's digest input is the Authenticode digest input of the specification side (header of the signed layout without
   reserved1 and iCabinet, the last word of the signature reserve, folder entries of the signed layout, coffFiles..cbCabinet) *)
Theorem cab_hashin_eq_spec : forall f, cab_wf f = true -> cab_hashin f = cab_spec_hashin f.
Proof. exact FmtCAB.ProofsB.cab_hashin_eq_spec. Qed.

(* xap_format = (xap_hashin, xap_embed_wf, xap_extract, xap_payload); xap_embed_wf f b = xap_embed f b when
   xap_wf f && xap_blob_wf b.  xap_wf (Model.v): bytes; the signer's digest (transformer + DigestXapTar) accepts the file; the
   central directory offset (and a ZIP64 end record, if the end record asks for one) lies inside the zip part; the
   specification's trailer split is defined.  Unsigned zips AND files that already carry a signature block are in the domain.
   xap_blob_wf: bytes, shorter than 4 GiB - 8. *)

(* ---- C01 *)
Theorem xap_law_extract : forall f b g, xap_wf f = true -> xap_blob_wf b = true -> xap_embed f b = Ok g -> xap_extract g = Ok (Some b).
Proof. intros f b g Hw Hb He. apply (xap_format_extract f b g). cbn [f_embed xap_format]. now rewrite xap_embed_wf_eq. Qed.
(* C01 + C08: the signer's digest input ignores the signature block (fix 956170e: also when there is one already) *)
Theorem xap_law_hashin : forall f b g, xap_wf f = true -> xap_blob_wf b = true -> xap_embed f b = Ok g -> xap_hashin g = xap_hashin f.
Proof. intros f b g Hw Hb He. apply (xap_format_hashin f b g). cbn [f_embed xap_format]. now rewrite xap_embed_wf_eq. Qed.
(* full statement (any file the signer accepts): fails when the end record's directory offset points into an existing signature
   block — relic signs, keeps the old block inside the signed content, and refuses the result when asked to sign it again *)
Theorem xap_law_hashin_refuted : exists g,
  xap_wf w_out = false /\ xap_embed w_out [9] = Ok g /\ xap_extract g = Ok (Some [9]) /\
  xap_hashin w_out = Ok w_out /\ xap_hashin g = Err E_NODIR /\ xap_payload w_out = Ok w_zip_out /\ xap_payload g = Ok w_out.
Proof. exists (w_out ++ xap_sigblock [9]). vm_compute. repeat split; reflexivity. Qed.
Theorem xap_format_laws : law_extract bytes xap_format /\ law_hashin bytes xap_format /\ law_payload bytes xap_format.
Proof. exact (conj xap_format_extract (conj xap_format_hashin xap_format_payload)). Qed.
Theorem xap_embed_defined : forall f b, xap_wf f = true -> xap_blob_wf b = true -> exists g, xap_embed f b = Ok g.
Proof. intros f b Hw Hb. destruct (xap_embed_wf_defined f b Hw Hb) as (g & _ & E). now exists g. Qed.
(* refusals: what the digest refuses is not signed; neither digest nor signing panics on any byte string (holds since relic
   commit f898997; before it a directory offset inside the last ten bytes made removeSignature slice with a negative bound);
   an accepted file has the end-of-directory signature 22 bytes in front of the end of its zip part and a directory offset
   inside the file *)
Theorem xap_refuses_clean :
  (forall f b, is_ok (xap_hashin f) = false -> is_ok (xap_embed f b) = false) /\
  (forall f b p, all_bytes f = true -> xap_hashin f <> Panic p /\ xap_embed f b <> Panic p) /\
  (forall f pre, all_bytes f = true -> xap_hashin f = Ok pre ->
     let zs := zlen f - xap_trailer_size f in
     22 <= zs /\ u32at (zs - 22) f = 101010256 /\ exists d, zip_find_dir f zs = Ok d /\ 0 <= d <= zlen f).
Proof.
  split; [|split].
  - intros f b. unfold xap_hashin, xap_embed. destruct (xap_digest f); cbn [bind is_ok]; congruence.
  - intros f b p Hb. pose proof (np_digest f Hb) as N. unfold xap_hashin, xap_embed.
    destruct (xap_digest f) as [dg| |q]; cbn [bind]; [|split; discriminate|exfalso; exact (N q eq_refl)].
    split; [discriminate|]. apply np_rewrite_from.
  - intros f pre Hb H zs. unfold xap_hashin in H. rewrite xap_digest_eq in H by exact Hb. fold zs in H.
    destruct (zip_find_dir f zs) as [d| |] eqn:Ed; cbn [bind] in H; try discriminate.
    destruct (d <? 0) eqn:E0; [discriminate|]. destruct (zlen f - d <? 0) eqn:E1; [discriminate|].
    pose proof (trailer_size_range f Hb) as R.
    destruct (find_dir_eocd f zs d ltac:(unfold zs; lia) Ed) as [A B].
    split; [exact A|]. split; [|exists d; split; [reflexivity|lia]].
    unfold u32at. replace (zs - 22 + 4) with (zs - 18) by lia. exact B.
Qed.
(* the verifier digests its own way (the bytes in front of the block); on a signed file of the domain that is the signer's
   digest input *)
Theorem xap_verifier_digest_eq : forall f, xap_wf f = true -> xap_spec_signed f = true -> xap_vhashin f = xap_hashin f.
Proof. exact FmtCAB.ProofsXap.xap_verifier_digest_eq. Qed.

(* ---- C08 *)
Theorem xap_is_signed_spec : forall f, xap_wf f = true -> (xap_extract f = Ok None <-> xap_spec_signed f = false).
Proof.
  intros f Hw. destruct (xap_wf_parts f Hw) as (z & old & o & P). unfold xap_spec_signed.
  rewrite (pt_extract _ _ _ _ P), (pt_spec _ _ _ _ P). destruct o; split; intros H; congruence.
Qed.
Theorem xap_wf_preserved : forall f b g, xap_wf f = true -> xap_blob_wf b = true -> xap_embed f b = Ok g -> xap_wf g = true.
Proof.
  intros f b g Hw Hb He. rewrite <- xap_embed_wf_eq in He by assumption.
  destruct (xap_step f b g He) as (z & old & o & _ & P). exact (xap_parts_wf _ _ _ _ P).
Qed.
(* a signed XAP can be signed again (fix 956170e; before it: "zip central directory not found"): the old block is replaced,
   payload and digest input are those of the original *)
Theorem xap_signed_resignable : forall f b g b', xap_embed_wf f b = Ok g -> xap_blob_wf b' = true ->
  exists g', xap_embed_wf g b' = Ok g' /\ xap_extract g' = Ok (Some b') /\ xap_payload g' = xap_payload f /\
             xap_hashin g' = xap_hashin f /\ zlen g' - zlen b' = zlen g - zlen b.
Proof.
  intros f b g b' H Hb'. destruct (xap_step f b g H) as (z & old & o & P & Pg).
  destruct (xap_embed_wf_inv _ _ _ H) as (_ & Hb & _).
  destruct (xap_embed_wf_defined g b' (xap_parts_wf _ _ _ _ Pg) Hb') as (g' & H' & _).
  destruct (xap_step g b' g' H') as (z' & old' & o' & Pg2 & Pg').
  assert (z' = z) by (pose proof (parts_hashin _ _ _ _ Pg); pose proof (parts_hashin _ _ _ _ Pg2); congruence). subst z'.
  exists g'. split; [exact H'|]. split; [exact (pt_extract _ _ _ _ Pg')|].
  rewrite (parts_payload _ _ _ _ Pg'), (parts_payload _ _ _ _ P), (parts_hashin _ _ _ _ Pg'), (parts_hashin _ _ _ _ P).
  repeat split. rewrite (pt_split _ _ _ _ Pg), (pt_split _ _ _ _ Pg'). fold (xap_signed z b). fold (xap_signed z b').
  rewrite !zlen_xap_signed by (destruct (xap_blob_wf_inv _ Hb); destruct (xap_blob_wf_inv _ Hb'); lia). lia.
Qed.

(* ---- C03 *)
(* Laws.law_payload: the zip part as the specification splits the file *)
Theorem xap_law_payload : forall f b g, xap_wf f = true -> xap_blob_wf b = true -> xap_embed f b = Ok g -> xap_payload g = xap_payload f.
Proof. intros f b g Hw Hb He. apply (xap_format_payload f b g). cbn [f_embed xap_format]. now rewrite xap_embed_wf_eq. Qed.
Theorem xap_only_these_ranges_differ : forall f b g, xap_embed_wf f b = Ok g -> exists z old,
  xap_payload f = Ok z /\ f = z ++ old /\ g = z ++ xap_sigblock b /\
  (old = [] \/ exists h b0 tl, old = h ++ b0 ++ tl /\ zlen h = 8 /\ zlen tl = 10 /\ xap_extract f = Ok (Some b0)).
Proof.
  intros f b g H. destruct (xap_step f b g H) as (z & old & o & P & P'). exists z, old.
  split; [exact (parts_payload _ _ _ _ P)|]. split; [exact (pt_split _ _ _ _ P)|]. split; [exact (pt_split _ _ _ _ P')|].
  destruct (pt_block _ _ _ _ P) as [[-> _]|(h & b0 & tl & Eo & S & Eq)]; [left; reflexivity|right].
  exists h, b0, tl. repeat split; [exact Eo|exact (sh_h _ _ _ S)|exact (sh_tl _ _ _ S)|]. rewrite <- Eq. exact (pt_extract _ _ _ _ P).
Qed.

(* ---- C02 *)
(* protected: everything except the two unknown words of the block header and the unknown word of the trailer *)
Theorem xap_protect : forall g1 g2, xap_wf g1 = true -> xap_wf g2 = true -> xap_spec_signed g1 = true -> xap_spec_signed g2 = true ->
  xap_hashin g1 = xap_hashin g2 -> xap_extract g1 = xap_extract g2 -> xap_protected g1 = xap_protected g2.
Proof. exact FmtCAB.ProofsXap.xap_protect. Qed.
Theorem xap_exempt_fields_unprotected :
  xap_wf w_x1 = true /\ xap_wf w_x2 = true /\ w_x1 <> w_x2 /\ xap_hashin w_x1 = xap_hashin w_x2 /\
  xap_extract w_x1 = xap_extract w_x2 /\ xap_extract w_x1 = Ok (Some [7]) /\ xap_vhashin w_x2 = Ok w_zip /\
  xap_protected w_x1 = xap_protected w_x2.
Proof. vm_compute. repeat split; try reflexivity. discriminate. Qed.

(* ---- C05 *)
Theorem xap_hashin_eq_spec : forall f, xap_wf f = true -> xap_hashin f = xap_spec_hashin f.
Proof. exact FmtCAB.ProofsXap.xap_hashin_eq_spec. Qed.

(* C01 / C08: Laws.Pipeline.sign_then_verify and resign_history for both formats; cryptography symbolic *)
Section Crypto.
  Variables key pubk sigv : Type.
  Variable H : Z -> bytes -> bytes.
  Variable pub : key -> pubk.
  Variable sign : key -> bytes -> sigv.
  Variable vrfy : pubk -> bytes -> sigv -> bool.
  Hypothesis sign_correct : forall k m, vrfy (pub k) m (sign k m) = true.
  Variable tbs : Z -> bytes -> bytes.
  Variable ser : sigblob pubk sigv -> bytes.
  Variable deser : bytes -> option (sigblob pubk sigv).
  Hypothesis deser_ser : forall b, deser (ser b) = Some b.
  (* cabinets: pkcs7.Unmarshal ignores the zero padding MakePatch adds to the SignedData *)
  Hypothesis deser_padded : forall b, deser (cab_pad8 (ser b)) = Some b.

  Theorem cab_sign_then_verify : forall k a f g,
    sign_file key pubk sigv H pub sign tbs (fun b => cab_pad8 (ser b)) cabview cab_format k a f = Ok g ->
    verify_file pubk sigv H vrfy tbs deser cabview cab_format g = Accept pubk (pub k) a.
  Proof.
    apply (sign_then_verify key pubk sigv H pub sign vrfy sign_correct tbs (fun b => cab_pad8 (ser b)) deser deser_padded cabview cab_format).
    - exact cab_format_extract.
    - exact cab_format_hashin.
  Qed.
  (* ... and the file sign_file produces is the one MakePatch produces for the unpadded SignedData *)
  Theorem cab_sign_file_is_makepatch : forall k a f g pre,
    cab_hashin f = Ok pre ->
    sign_file key pubk sigv H pub sign tbs (fun b => cab_pad8 (ser b)) cabview cab_format k a f = Ok g ->
    cab_embed f (ser (mksig key pubk sigv pub sign tbs k a (H a pre))) = Ok g.
  Proof.
    intros k a f g pre Hp Hs. unfold sign_file, cab_format in Hs. cbn [f_hashin f_embed] in Hs. rewrite Hp in Hs. cbn [bind] in Hs.
    destruct (cab_embed_wf_inv _ _ _ Hs) as (_ & _ & _ & He). now rewrite cab_embed_pad8 in He.
  Qed.
  Theorem cab_resign_history : forall hist f g k a,
    resign key pubk sigv H pub sign tbs (fun b => cab_pad8 (ser b)) cabview cab_format (hist ++ [(k, a)]) f = Ok g ->
    verify_file pubk sigv H vrfy tbs deser cabview cab_format g = Accept pubk (pub k) a
    /\ is_signed cabview cab_format g = true /\ cab_payload g = cab_payload f /\ cab_hashin g = cab_hashin f.
  Proof.
    apply (resign_history key pubk sigv H pub sign vrfy sign_correct tbs (fun b => cab_pad8 (ser b)) deser deser_padded cabview cab_format).
    - exact cab_format_extract.
    - exact cab_format_hashin.
    - exact cab_format_payload.
  Qed.

  Theorem xap_sign_then_verify : forall k a f g,
    sign_file key pubk sigv H pub sign tbs ser bytes xap_format k a f = Ok g ->
    verify_file pubk sigv H vrfy tbs deser bytes xap_format g = Accept pubk (pub k) a.
  Proof.
    apply (sign_then_verify key pubk sigv H pub sign vrfy sign_correct tbs ser deser deser_ser bytes xap_format).
    - exact xap_format_extract.
    - exact xap_format_hashin.
  Qed.
  Theorem xap_resign_history : forall hist f g k a,
    resign key pubk sigv H pub sign tbs ser bytes xap_format (hist ++ [(k, a)]) f = Ok g ->
    verify_file pubk sigv H vrfy tbs deser bytes xap_format g = Accept pubk (pub k) a
    /\ is_signed bytes xap_format g = true /\ xap_payload g = xap_payload f /\ xap_hashin g = xap_hashin f.
  Proof.
    apply (resign_history key pubk sigv H pub sign vrfy sign_correct tbs ser deser deser_ser bytes xap_format).
    - exact xap_format_extract.
    - exact xap_format_hashin.
    - exact xap_format_payload.
  Qed.
End Crypto.

(* a cabinet with one folder (8-byte entry, 5 data bytes), the same with a zeroed 24-byte reserve, and the signed form of the
   first are in the domain; signing computes, and the laws hold on the results *)
Definition ex_cab : bytes :=
  enc_struct cabh_widths [1178817357; 305419896; 49; 7; 44; 9; 259; 1; 0; 0; 4660; 3] ++ enc_struct cabfh_widths [44; 1; 0] ++ [104; 101; 108; 108; 111].
Definition ex_cab_reserve : bytes :=
  enc_struct cabh_widths [1178817357; 0; 77; 0; 72; 0; 259; 1; 0; 4; 4660; 0] ++ enc_struct cabrh_widths [24; 0; 0] ++ repeat 0 24
  ++ enc_struct cabfh_widths [72; 1; 0] ++ [104; 101; 108; 108; 111].
Definition ex_blob : bytes := [48; 3; 2; 1; 0; 0; 0; 0].
Example cab_wf_inhabited :
  cab_wf w_cab = true /\ cab_wf ex_cab = true /\ cab_wf ex_cab_reserve = true /\ cab_wf w_overlap = false /\ blob_wf ex_blob = true.
Proof. vm_compute. repeat split; reflexivity. Qed.
Example cab_laws_computed :
  match cab_embed_wf ex_cab ex_blob with
  | Ok g => cab_extract g = Ok (Some ex_blob) /\ cab_hashin g = cab_hashin ex_cab /\ cab_payload g = cab_payload ex_cab /\ cab_wf g = true /\
            cab_spec_signed g = true /\ cab_hashin g = cab_spec_hashin g /\
            match cab_embed_wf g [9; 9; 9; 9; 9; 9; 9; 9; 1; 2; 3; 4; 5; 6; 7; 8] with
            | Ok g2 => cab_extract g2 = Ok (Some [9; 9; 9; 9; 9; 9; 9; 9; 1; 2; 3; 4; 5; 6; 7; 8]) /\ zlen g2 = zlen g + 8 /\ cab_hashin g2 = cab_hashin ex_cab
            | _ => False
            end
  | _ => False
  end /\
  match cab_embed_wf ex_cab_reserve ex_blob with
  | Ok g => cab_extract g = Ok (Some ex_blob) /\ cab_payload g = cab_payload ex_cab_reserve /\ zlen g = zlen ex_cab_reserve - 4 + 8
  | _ => False
  end.
Proof. vm_compute. repeat split; reflexivity. Qed.

(* an empty zip, a zip with 20 bytes in front of the end record, and a signed file are in the domain *)
Definition ex_zip : bytes := repeat 7 20 ++ [80; 75; 5; 6] ++ repeat 0 12 ++ [20; 0; 0; 0; 0; 0].
Example xap_wf_inhabited :
  xap_wf w_zip = true /\ xap_wf ex_zip = true /\ xap_wf w_x1 = true /\ xap_wf w_out = false /\ xap_blob_wf ex_blob = true /\ xap_blob_wf [] = true.
Proof. vm_compute. repeat split; reflexivity. Qed.
Example xap_laws_computed :
  match xap_embed_wf ex_zip ex_blob with
  | Ok g => xap_extract g = Ok (Some ex_blob) /\ xap_hashin g = Ok ex_zip /\ xap_payload g = Ok ex_zip /\ xap_wf g = true /\ xap_vhashin g = Ok ex_zip /\
            match xap_embed_wf g [1; 2; 3] with
            | Ok g2 => xap_extract g2 = Ok (Some [1; 2; 3]) /\ zlen g2 = zlen g - 5 /\ xap_hashin g2 = Ok ex_zip /\ xap_payload g2 = Ok ex_zip
            | _ => False
            end
  | _ => False
  end.
Proof. vm_compute. repeat split; reflexivity. Qed.

(* the symbolic cryptography of the pipeline theorems has a model: a toy scheme with unit keys, for which deser_ser holds
   (toy_deser_ser) and signing a cabinet and a zip succeeds.  Its encoding ends in a non-zero byte, so a deserialiser that
   strips trailing zeros would satisfy deser_padded too; toy_deser does not strip, and deser_padded is not instantiated here *)
Definition toy_ser (b : sigblob unit unit) : bytes := sb_alg unit unit b :: sb_digest unit unit b.
Definition toy_deser (l : bytes) : option (sigblob unit unit) := match l with a :: d => Some (mkBlob unit unit a d tt tt) | [] => None end.
Example toy_deser_ser : forall b, toy_deser (toy_ser b) = Some b.
Proof. intros [a d [] []]. reflexivity. Qed.
Example sign_hypothesis_satisfiable :
  is_ok (sign_file unit unit unit (fun a m => [a; zlen m mod 256; 1; 2; 3; 4; 5]) (fun _ => tt) (fun _ _ => tt) (fun _ d => d)
           (fun b => cab_pad8 (toy_ser b)) cabview cab_format tt 4 ex_cab) = true /\
  is_ok (sign_file unit unit unit (fun a m => [a; zlen m mod 256]) (fun _ => tt) (fun _ _ => tt) (fun _ d => d) toy_ser bytes xap_format tt 4 ex_zip) = true.
Proof. vm_compute. split; reflexivity. Qed.
