(* FmtCAB/ProofsXap.v — XAP: a file of the domain is z ++ old, the zip part and nothing or one consistent signature block
   (xap_parts); signing replaces old by the block for the new blob (xap_step).  Signer, verifier and specification are each
   computed on a file of that form (sig_shape for the signed, Section Unsigned for the bare zip), and the laws read off. *)
From Relic Require Import Base.Prelude Base.Enc Base.Slice Generated.FmtCAB_gen FmtCAB.Model FmtCAB.Lib Laws.Pipeline.
From Relic Require C12.Model.

Definition xap_hdr (b : bytes) : bytes := enc_struct xaphd_widths (xap_hdr_vals (zlen b)).
Definition xap_trl (b : bytes) : bytes := enc_struct xaptr_widths (xap_tr_vals (zlen b)).
Lemma xap_sigblock_eq b : xap_sigblock b = xap_hdr b ++ b ++ xap_trl b.
Proof. unfold xap_sigblock, xap_write_order. cbn [assemble Z.eqb Pos.eqb]. now rewrite app_nil_r. Qed.
Lemma xap_sigblock_bytes b : all_bytes b = true -> all_bytes (xap_sigblock b) = true.
Proof. intros H. rewrite xap_sigblock_eq, !all_bytes_app, H. unfold xap_hdr, xap_trl. now rewrite !enc_struct_bytes. Qed.

Definition XM := 1399873880.     (* "XapS" *)
Lemma xap_hdr_dec b : zlen b + 8 < 2 ^ 32 -> zlen (xap_hdr b) = 8 /\ dec_struct xaphd_widths (xap_hdr b) = [1; 1; zlen b].
Proof.
  intros H. pose proof (zlen_nonneg b). unfold xap_hdr, xap_hdr_vals, xap_hdr_sigsize. rewrite wrap32_small by lia.
  assert (R : in_range xaphd_widths [1; 1; zlen b]) by (repeat constructor; lia).
  split; [exact (enc_struct_zlen _ _ R)|exact (dec_enc_struct0 _ _ R)].
Qed.
Lemma xap_trl_dec b : zlen b + 8 < 2 ^ 32 -> zlen (xap_trl b) = 10 /\ dec_struct xaptr_widths (xap_trl b) = [XM; 1; zlen b + 8].
Proof.
  intros H. pose proof (zlen_nonneg b). unfold xap_trl, xap_tr_vals, xap_tr_size. rewrite wrap32_small by lia.
  assert (R : in_range xaptr_widths [XM; 1; zlen b + 8]) by (repeat constructor; unfold XM; lia).
  split; [exact (enc_struct_zlen _ _ R)|exact (dec_enc_struct0 _ _ R)].
Qed.

(* a signed file as relic writes it *)
Definition xap_signed (z b : bytes) : bytes := z ++ xap_sigblock b.
Lemma xap_signed_assoc z b : xap_signed z b = z ++ xap_hdr b ++ b ++ xap_trl b.
Proof. unfold xap_signed. now rewrite xap_sigblock_eq. Qed.
Lemma zlen_xap_signed z b : zlen b + 8 < 2 ^ 32 -> zlen (xap_signed z b) = zlen z + zlen b + 18.
Proof.
  intros H. destruct (xap_hdr_dec b H) as [Lh _]. destruct (xap_trl_dec b H) as [Lt _]. rewrite xap_signed_assoc, !zlen_app. lia.
Qed.

(* zipslicer.FindDirectory reads only the first `size` bytes *)
Lemma zip_window_agree f g zs : 0 <= zs -> zs <= zlen f -> zs <= zlen g -> ztake zs f = ztake zs g ->
  zip_window f zs = zip_window g zs.
Proof.
  intros H0 Hf Hg E. unfold zip_window, zip_find_pos, zip_find_short, zip_find_short_skip, zip_find_short_pos,
    zip_directory64LocLen, zip_directoryEndLen.
  destruct ((zs - 22 - 20 <? 0) && (zs >=? 22)) eqn:Es.
  - replace (zlen f - 0 <? 20 + 22 - - (zs - 22 - 20)) with false by lia.
    replace (zlen g - 0 <? 20 + 22 - - (zs - 22 - 20)) with false by lia.
    replace (0 + (20 + 22 - - (zs - 22 - 20))) with zs by lia. now rewrite !zslice_0, E.
  - destruct (zs - 22 - 20 <? 0) eqn:Ep; [reflexivity|].
    replace (zlen f - (zs - 22 - 20) <? 20 + 22) with false by lia.
    replace (zlen g - (zs - 22 - 20) <? 20 + 22) with false by lia.
    rewrite <- (zslice_ztake _ _ zs f), <- (zslice_ztake _ _ zs g) by lia. now rewrite E.
Qed.
Lemma zip64_inside_agree f g zs : 0 <= zs -> zs <= zlen f -> zs <= zlen g -> ztake zs f = ztake zs g ->
  zip64_inside_at f zs = zip64_inside_at g zs.
Proof. intros. unfold zip64_inside_at. now rewrite (zip_window_agree f g zs). Qed.
Lemma zip_find_dir_agree f g zs : 0 <= zs -> zs <= zlen f -> zs <= zlen g -> ztake zs f = ztake zs g ->
  zip64_inside_at f zs = true -> zip_find_dir f zs = zip_find_dir g zs.
Proof.
  intros H0 Hf Hg E Hin. unfold zip_find_dir. unfold zip64_inside_at in Hin.
  rewrite <- (zip_window_agree f g zs) by assumption.
  destruct (zip_window f zs) as [w| |]; cbn [bind]; try reflexivity.
  destruct (zip_no_end_record _); [reflexivity|].
  destruct (zip_needs_zip64 _ _ _); [|reflexivity].
  destruct (zip_no_locator _); [reflexivity|].
  set (off := to_i64 (fld ziploc_ix_Offset (dec_struct ziploc_widths (ztake ziploc_size w)))) in *.
  unfold zip_directory64EndLen in *.
  destruct (off <? 0) eqn:Eo; cbn [orb]; [reflexivity|].
  replace (zlen f <? off + 56) with false by lia. replace (zlen g <? off + 56) with false by lia.
  rewrite <- (zslice_ztake off (off + 56) zs f), <- (zslice_ztake off (off + 56) zs g) by lia.
  now rewrite E.
Qed.
(* what an accepted end record looks like *)
Lemma find_dir_eocd f zs d : 0 <= zs -> zip_find_dir f zs = Ok d ->
  22 <= zs /\ le_dec (zslice (zs - 22) (zs - 18) f) = 101010256.
Proof.
  intros H0 H. unfold zip_find_dir in H. destruct (zip_window f zs) as [w| |] eqn:Ew; cbn [bind] in H; try discriminate.
  destruct (zip_no_end_record _) eqn:En; [discriminate|]. clear H.
  unfold zip_no_end_record in En. apply negb_false_iff, Z.eqb_eq in En.
  rewrite (fld_dec zipend_widths zipend_ix_Signature _ eq_refl) in En.
  cbn [firstn zipend_ix_Signature wsum fold_right nth zipend_widths] in En. unfold ziploc_size in En.
  rewrite zslice_zdrop in En by lia. change (20 + 0) with 20 in En. change (20 + (0 + 4)) with 24 in En.
  unfold zip_window, zip_find_pos, zip_find_short, zip_find_short_skip, zip_find_short_pos, zip_directory64LocLen, zip_directoryEndLen in Ew.
  destruct ((zs - 22 - 20 <? 0) && (zs >=? 22)) eqn:Es.
  - destruct (zlen f - 0 <? _) eqn:El; [discriminate|]. apply Ok_inj in Ew; subst w. split; [lia|].
    rewrite <- En. f_equal. rewrite zslice_app_r by (rewrite zlen_repeat; lia). rewrite zlen_repeat.
    replace (0 + (20 + 22 - - (zs - 22 - 20))) with zs by lia. rewrite zslice_0, zslice_ztake by lia. f_equal; lia.
  - destruct (zs - 22 - 20 <? 0) eqn:Ep; [discriminate|]. destruct (zlen f - _ <? _) eqn:El; [discriminate|].
    apply Ok_inj in Ew; subst w. split; [lia|]. rewrite <- En. f_equal. rewrite zslice_zslice by lia. f_equal; lia.
Qed.
Lemma np_find_dir f zs : np (zip_find_dir f zs).
Proof.
  unfold zip_find_dir. apply np_bind.
  - unfold zip_window. destruct (zip_find_short _ _); [destruct (_ <? _)|destruct (_ <? _); [|destruct (_ <? _)]]; apply np_err || apply np_ok.
  - intros w. destruct (zip_no_end_record _); [apply np_err|]. destruct (zip_needs_zip64 _ _ _); [|apply np_ok].
    destruct (zip_no_locator _); [apply np_err|]. destruct (_ || _); [apply np_err|]. destruct (zip_no_end64 _); [apply np_err|apply np_ok].
Qed.

(* the last ten bytes of a file, read as a trailer *)
Definition f_trl (f : bytes) : list Z := dec_struct xaptr_widths (zslice (zlen f - 10) (zlen f) f).
Definition t_magic (f : bytes) : Z := fld xaptr_ix_Magic (f_trl f).
Definition t_size (f : bytes) : Z := fld xaptr_ix_TrailerSize (f_trl f).

Lemma trl_fields tl : zlen tl = 10 ->
  fld xaptr_ix_Magic (dec_struct xaptr_widths tl) = le_dec (ztake 4 tl) /\
  fld xaptr_ix_TrailerSize (dec_struct xaptr_widths tl) = le_dec (zdrop 6 tl).
Proof.
  intros Hl. rewrite !(fld_dec xaptr_widths _ tl eq_refl). split; [now rewrite <- zslice_0|].
  cbn [firstn xaptr_ix_TrailerSize wsum fold_right nth xaptr_widths]. change (4 + (2 + 0) + 4) with 10. now rewrite <- Hl, zslice_to_end.
Qed.
Lemma hdr_field h : fld xaphd_ix_SignatureSize (dec_struct xaphd_widths h) = le_dec (zslice 4 8 h).
Proof. now rewrite (fld_dec xaphd_widths xaphd_ix_SignatureSize h eq_refl). Qed.
(* ... and as the specification reads them: the magic as four bytes, the size as the last four *)
Lemma tail_reads f : 10 <= zlen f -> let tl := zslice (zlen f - 10) (zlen f) f in
  zlen tl = 10 /\ zslice (zlen f - 10) (zlen f - 6) f = ztake 4 tl /\ zdrop (zlen f - 4) f = zdrop 6 tl /\
  t_magic f = le_dec (ztake 4 tl) /\ t_size f = le_dec (zdrop 6 tl).
Proof.
  intros Hn tl. assert (Ltl : zlen tl = 10) by (unfold tl; rewrite zlen_zslice; lia).
  split; [exact Ltl|]. split; [|split].
  - unfold tl, zslice. rewrite ztake_ztake. f_equal. lia.
  - unfold tl. rewrite zslice_to_end, zdrop_zdrop by lia. f_equal. lia.
  - exact (trl_fields tl Ltl).
Qed.
Lemma magic_bytes x : all_bytes x = true -> zlen x = 4 -> bytes_eqb x [88; 97; 112; 83] = (le_dec x =? XM).
Proof.
  intros Hb Hl. apply Bool.eq_true_iff_eq. rewrite bytes_eqb_eq, Z.eqb_eq. split; [intros ->; reflexivity|].
  intros E. rewrite <- (le_enc_dec x Hb). replace (length x) with 4%nat by (unfold zlen in Hl; lia). now rewrite E.
Qed.
Lemma t_size_nonneg f : all_bytes f = true -> 0 <= t_size f.
Proof. intros H. apply in_range_fld with (ws := xaptr_widths). apply dec_struct_range; [reflexivity|now apply all_bytes_zslice]. Qed.

(* signxap.TrailerSize, removeSignature and the specification's split, in these terms *)
Lemma trailer_size_eq f : xap_trailer_size f =
  if zlen f <? 10 then 0 else if negb (t_magic f =? XM) || (t_size f + 10 >? zlen f) then 0 else t_size f + 10.
Proof.
  unfold xap_trailer_size, xap_ts_too_short, xap_ts_trailer_off, xap_ts_trailer_len, xaptr_size, xap_ts_no_trailer, xap_ts_returns.
  destruct (zlen f <? 10) eqn:E; [reflexivity|].
  replace ((zlen f - 10 <? 0) || (zlen f - (zlen f - 10) <? 10) || (10 <? 10)) with false by lia.
  replace (zlen f - 10 + 10) with (zlen f) by lia. fold (f_trl f). fold (t_magic f). fold (t_size f). unfold XM.
  destruct (negb (t_magic f =? 1399873880) || (t_size f + 10 >? zlen f)); reflexivity.
Qed.
Lemma trailer_size_range f : all_bytes f = true -> 0 <= xap_trailer_size f <= zlen f.
Proof.
  intros H. rewrite trailer_size_eq. pose proof (t_size_nonneg f H). pose proof (zlen_nonneg f).
  destruct (zlen f <? 10); [lia|]. destruct (negb (t_magic f =? XM) || (t_size f + 10 >? zlen f)) eqn:E; lia.
Qed.
Lemma remove_sig_eq cd : xap_remove_signature cd = Ok (
  if zlen cd <? 10 then cd else
  if (t_magic cd =? XM) && (t_size cd + 10 <=? zlen cd) then ztake (zlen cd - (t_size cd + 10)) cd else cd).
Proof.
  unfold xap_remove_signature, xap_rm_too_short, xap_rm_trailer_start, xap_rm_has_trailer, xap_rm_new_size.
  destruct (zlen cd <? 10) eqn:E; [reflexivity|].
  replace (zlen cd - 10 <? 0) with false by lia. fold (f_trl cd). fold (t_magic cd). fold (t_size cd). unfold XM.
  destruct ((t_magic cd =? 1399873880) && (t_size cd + 10 <=? zlen cd)) eqn:E2; [|reflexivity].
  replace (zlen cd - (t_size cd + 10) <? 0) with false by lia. reflexivity.
Qed.
Lemma spec_split_eq f : all_bytes f = true -> xap_spec_split f =
  if (zlen f <? 10) || negb (t_magic f =? XM) then Ok (f, None) else
  let start := zlen f - 10 - t_size f in
  if (t_size f <? 8) || (start <? 0) then Err 30 else
  let ssz := le_dec (zslice (start + 4) (start + 8) f) in
  if negb (ssz =? t_size f - 8) then Err 31 else Ok (ztake start f, Some (zslice (start + 8) (start + 8 + ssz) f)).
Proof.
  intros Hb. unfold xap_spec_split. destruct (zlen f <? 10) eqn:E; [reflexivity|]. cbn [orb].
  destruct (tail_reads f ltac:(lia)) as (Ltl & -> & -> & -> & ->).
  now rewrite magic_bytes by (try apply zlen_ztake; try apply all_bytes_ztake, all_bytes_zslice; lia || assumption).
Qed.

Lemma xap_tar_eq f : all_bytes f = true -> xap_tar f =
  d <- zip_find_dir f (zlen f - xap_trailer_size f) ;;
  if d <? 0 then Err E_OFFSET else if zlen f - d <? 0 then Err E_TAR else Ok (zdrop d f, zlen f).
Proof.
  intros Hb. pose proof (trailer_size_range f Hb) as R.
  unfold xap_tar, xap_find_dir. change (xap_tf_trailer f) with (xap_trailer_size f). unfold zip_tar_bad_trailer, zip_tar_find_size.
  replace ((xap_trailer_size f <? 0) || (xap_trailer_size f >? zlen f)) with false by lia.
  destruct (zip_find_dir f (zlen f - xap_trailer_size f)) as [d| |]; cbn [bind]; try reflexivity.
  unfold zip_tar_cd_from, zip_tar_cd_size, zip_tar_cd_len, zip_tar_zip_len, zip_tar_zip_size, zip_tar_zip_from.
  destruct (d <? 0) eqn:Ed; [reflexivity|]. destruct (zlen f - d <? 0) eqn:Es; [reflexivity|].
  replace ((zlen f - d <? zlen f - d) || (zlen f <? zlen f) || (zlen f <? 0 + zlen f) || negb (0 =? 0)) with false by lia.
  replace (d + (zlen f - d)) with (zlen f) by lia. now rewrite zslice_to_end.
Qed.
Lemma xap_digest_eq f : all_bytes f = true -> xap_digest f =
  d <- zip_find_dir f (zlen f - xap_trailer_size f) ;;
  if d <? 0 then Err E_OFFSET else if zlen f - d <? 0 then Err E_TAR else
  cd' <- xap_remove_signature (zdrop d f) ;;
  Ok (mkXapd (ztake d f ++ cd') (d + zlen cd') (zlen f - (d + zlen cd'))).
Proof.
  intros Hb. unfold xap_digest. rewrite xap_tar_eq by exact Hb.
  destruct (zip_find_dir f (zlen f - xap_trailer_size f)) as [d| |]; cbn [bind]; try reflexivity.
  destruct (d <? 0) eqn:Ed; [reflexivity|]. destruct (zlen f - d <? 0) eqn:Es; [reflexivity|]. cbn [bind fst snd].
  unfold xap_body_size, xap_zip_size, xap_patch_start, xap_patch_len.
  rewrite zlen_zdrop by lia. replace (zlen f - (zlen f - d)) with d by lia. reflexivity.
Qed.
(* C01 / C11: the signer's digest never panics (since relic commit f898997; before it a directory offset in the last ten
   bytes of the file made removeSignature slice with a negative bound) *)
Lemma np_digest f : all_bytes f = true -> np (xap_digest f).
Proof.
  intros Hb. rewrite xap_digest_eq by exact Hb. apply np_bind; [apply np_find_dir|]. intros d.
  destruct (d <? 0); [apply np_err|]. destruct (_ <? 0); [apply np_err|]. rewrite remove_sig_eq. apply np_ok.
Qed.

(* g = z ++ h ++ b0 ++ tl : header h (8 bytes) announcing |b0|, trailer tl (10 bytes) with the magic and |b0| + 8; the
   unknown fields are arbitrary *)
Record sig_shape (h b0 tl : bytes) : Prop := mkShape {
  sh_h : zlen h = 8;
  sh_tl : zlen tl = 10;
  sh_magic : fld xaptr_ix_Magic (dec_struct xaptr_widths tl) = XM;
  sh_tsz : fld xaptr_ix_TrailerSize (dec_struct xaptr_widths tl) = zlen b0 + 8;
  sh_ssz : fld xaphd_ix_SignatureSize (dec_struct xaphd_widths h) = zlen b0 }.
(* the block relic writes has the shape *)
Lemma sigblock_shape b : zlen b + 8 < 2 ^ 32 -> sig_shape (xap_hdr b) b (xap_trl b).
Proof. intros H. destruct (xap_hdr_dec b H) as [Lh Dh]. destruct (xap_trl_dec b H) as [Lt Dt]. constructor; rewrite ?Dh, ?Dt; auto. Qed.

Section Shape.
  Variables z h b0 tl : bytes.
  Hypothesis S : sig_shape h b0 tl.
  Let g := z ++ h ++ b0 ++ tl.
  Lemma shape_len : zlen g = zlen z + zlen b0 + 18.
  Proof. unfold g. rewrite !zlen_app, (sh_h _ _ _ S), (sh_tl _ _ _ S). lia. Qed.
  Lemma shape_take : ztake (zlen z) g = z.
  Proof. apply ztake_app_exact. Qed.
  Lemma shape_from a b : 0 <= a -> zslice (zlen z + a) (zlen z + b) g = zslice a b (h ++ b0 ++ tl).
  Proof. intros Ha. unfold g. rewrite zslice_app_r by lia. f_equal; lia. Qed.
  Lemma shape_hdr : zslice (zlen z) (zlen z + 8) g = h.
  Proof. apply zslice_app_mid; [reflexivity|]. rewrite (sh_h _ _ _ S). lia. Qed.
  Lemma shape_blob : zslice (zlen z + 8) (zlen z + (8 + zlen b0)) g = b0.
  Proof. rewrite shape_from by lia. apply zslice_app_mid; [exact (sh_h _ _ _ S)|]. rewrite (sh_h _ _ _ S). lia. Qed.
  Lemma shape_tail : zslice (zlen g - 10) (zlen g) g = tl.
  Proof. unfold g. rewrite 2!app_assoc. apply zslice_last. exact (sh_tl _ _ _ S). Qed.
  Lemma shape_t_magic : t_magic g = XM.
  Proof. unfold t_magic, f_trl. rewrite shape_tail. exact (sh_magic _ _ _ S). Qed.
  Lemma shape_t_size : t_size g = zlen b0 + 8.
  Proof. unfold t_size, f_trl. rewrite shape_tail. exact (sh_tsz _ _ _ S). Qed.
  Lemma shape_trailer_size : xap_trailer_size g = zlen b0 + 18.
  Proof.
    pose proof (zlen_nonneg b0). pose proof (zlen_nonneg z). rewrite trailer_size_eq, shape_t_magic, shape_t_size, shape_len.
    replace (zlen z + zlen b0 + 18 <? 10) with false by lia. rewrite Z.eqb_refl. cbn [negb orb].
    replace (zlen b0 + 8 + 10 >? zlen z + zlen b0 + 18) with false by lia. lia.
  Qed.
  Lemma shape_vparse : xap_vparse g = Ok (Some (zlen z, b0)).
  Proof.
    pose proof (zlen_nonneg b0) as Hb. pose proof (zlen_nonneg z) as Hz. pose proof shape_len as Lg.
    unfold xap_vparse, xap_v_trailer_off, xap_v_trailer_len.
    replace (zlen g - 10 + 10) with (zlen g) by lia. replace (zlen g - 10 <? 0) with false by lia.
    fold (f_trl g). fold (t_magic g). fold (t_size g). rewrite shape_t_magic, shape_t_size.
    unfold xap_v_no_trailer, XM. cbn [Z.eqb Pos.eqb negb].
    unfold xap_v_body_size. replace (zlen g - (zlen b0 + 8 + 10)) with (zlen z) by lia. replace (zlen z <? 0) with false by lia.
    unfold xap_v_hdr_len. rewrite shape_hdr, (sh_ssz _ _ _ S).
    unfold xap_v_size_mismatch. replace (zlen b0 =? zlen b0 + 8 - 8) with true by lia. cbn [negb].
    unfold xap_v_blob_off. replace (zlen g - (zlen z + 8) <? zlen b0) with false by lia.
    replace (zlen z + 8 + zlen b0) with (zlen z + (8 + zlen b0)) by lia. now rewrite shape_blob.
  Qed.
  Lemma shape_extract : xap_extract g = Ok (Some b0).
  Proof. unfold xap_extract. now rewrite shape_vparse. Qed.
  Lemma shape_vhashin : xap_vhashin g = Ok z.
  Proof.
    unfold xap_vhashin. rewrite shape_vparse. cbn [bind]. f_equal.
    unfold xap_v_digest_from, xap_v_digest_len. cbn [Z.add]. rewrite zslice_0. exact shape_take.
  Qed.
  Lemma shape_spec_split : all_bytes g = true -> xap_spec_split g = Ok (z, Some b0).
  Proof.
    intros Hg. pose proof (zlen_nonneg b0) as Hb. pose proof (zlen_nonneg z) as Hz. pose proof shape_len as Lg. pose proof (sh_h _ _ _ S) as Lh.
    rewrite spec_split_eq, shape_t_magic, shape_t_size by exact Hg.
    replace (zlen g <? 10) with false by lia. rewrite Z.eqb_refl. cbn [negb orb]. replace (zlen g - 10 - (zlen b0 + 8)) with (zlen z) by lia.
    cbv zeta. replace ((zlen b0 + 8 <? 8) || (zlen z <? 0)) with false by lia.
    rewrite (shape_from 4 8), (zslice_app_l 4 8 h), <- hdr_field, (sh_ssz _ _ _ S) by lia.
    replace (zlen b0 =? zlen b0 + 8 - 8) with true by lia. cbn [negb].
    rewrite shape_take. replace (zlen z + 8 + zlen b0) with (zlen z + (8 + zlen b0)) by lia. now rewrite shape_blob.
  Qed.
  Lemma shape_remove : xap_remove_signature g = Ok z.
  Proof.
    pose proof (zlen_nonneg b0). pose proof (zlen_nonneg z). rewrite remove_sig_eq, shape_t_magic, shape_t_size, shape_len, Z.eqb_refl.
    replace (zlen z + zlen b0 + 18 <? 10) with false by lia. replace (zlen b0 + 8 + 10 <=? zlen z + zlen b0 + 18) with true by lia.
    cbn [andb]. replace (zlen z + zlen b0 + 18 - (zlen b0 + 8 + 10)) with (zlen z) by lia. now rewrite shape_take.
  Qed.
  Lemma shape_protected : xap_protected g = z ++ zdrop 4 h ++ b0 ++ ztake 4 tl ++ zdrop 6 tl.
  Proof.
    pose proof (zlen_nonneg b0) as Hb. pose proof (zlen_nonneg z) as Hz. pose proof shape_len as Lg.
    pose proof (sh_tl _ _ _ S) as Ltl. pose proof (sh_h _ _ _ S) as Lh.
    destruct (tail_reads g ltac:(lia)) as (_ & _ & Es & _ & Fs). rewrite shape_tail in Es, Fs. rewrite shape_t_size in Fs.
    unfold xap_protected. rewrite Es, <- Fs. replace (zlen g - 10 - (zlen b0 + 8)) with (zlen z) by lia.
    replace (zlen z <? 0) with false by lia. rewrite shape_take. f_equal.
    replace (zlen g - 6) with (zlen z + (8 + zlen b0 + 4)) by lia. rewrite shape_from by lia.
    rewrite (zslice_split 4 8 (8 + zlen b0 + 4)) by lia.
    rewrite (zslice_app_l 4 8 h) by lia. replace (zslice 4 8 h) with (zdrop 4 h) by (now rewrite <- Lh, zslice_to_end).
    rewrite <- app_assoc. f_equal.
    rewrite zslice_app_r by lia. rewrite Lh. replace (8 - 8) with 0 by lia. replace (8 + zlen b0 + 4 - 8) with (zlen b0 + 4) by lia.
    rewrite zslice_0. rewrite ztake_app_r by lia. replace (zlen b0 + 4 - zlen b0) with 4 by lia. now rewrite <- app_assoc.
  Qed.
End Shape.

(* the signer's digest strips the block: what follows the directory offset d is again a file of the shape *)
Lemma shape_digest z h b0 tl d : sig_shape h b0 tl -> let g := z ++ h ++ b0 ++ tl in
  all_bytes g = true -> zip_find_dir g (zlen z) = Ok d -> 0 <= d <= zlen z -> xap_digest g = Ok (mkXapd z (zlen z) (zlen b0 + 18)).
Proof.
  intros S g Hg Hd Rd. pose proof (zlen_nonneg b0) as Hb.
  pose proof (shape_len z h b0 tl S) as Lg. pose proof (shape_trailer_size z h b0 tl S) as Ts. fold g in Lg, Ts.
  rewrite xap_digest_eq, Ts by exact Hg.
  replace (zlen g - (zlen b0 + 18)) with (zlen z) by lia. rewrite Hd. cbn [bind].
  replace (d <? 0) with false by lia. replace (zlen g - d <? 0) with false by lia.
  subst g. rewrite zdrop_app_l, ztake_app_l by lia. rewrite (shape_remove (zdrop d z) h b0 tl S). cbn [bind].
  rewrite ztake_zdrop, zlen_zdrop by lia. do 2 f_equal; lia.
Qed.

Lemma xap_extract_signed z b : zlen b + 8 < 2 ^ 32 -> xap_extract (xap_signed z b) = Ok (Some b).
Proof. intros H. rewrite xap_signed_assoc. exact (shape_extract z _ b _ (sigblock_shape b H)). Qed.
Lemma xap_vhashin_signed z b : zlen b + 8 < 2 ^ 32 -> xap_vhashin (xap_signed z b) = Ok z.
Proof. intros H. rewrite xap_signed_assoc. exact (shape_vhashin z _ b _ (sigblock_shape b H)). Qed.

(* conversely, a file with the trailer magic that the specification splits ends in a block of the shape *)
Lemma spec_split_shape f : all_bytes f = true -> 10 <= zlen f -> t_magic f = XM -> is_ok (xap_spec_split f) = true ->
  exists z h b0 tl, f = z ++ h ++ b0 ++ tl /\ sig_shape h b0 tl.
Proof.
  intros Hb Hge Em Hs. pose proof (t_size_nonneg f Hb) as Hts. rewrite spec_split_eq, Em, Z.eqb_refl in Hs by exact Hb.
  replace (zlen f <? 10) with false in Hs by lia. cbn [negb orb] in Hs. cbv zeta in Hs.
  set (start := zlen f - 10 - t_size f) in *.
  destruct ((t_size f <? 8) || (start <? 0)) eqn:E1; [discriminate|].
  destruct (negb (le_dec (zslice (start + 4) (start + 8) f) =? t_size f - 8)) eqn:E2; [discriminate|]. clear Hs.
  apply negb_false_iff, Z.eqb_eq in E2.
  exists (ztake start f), (zslice start (start + 8) f), (zslice (start + 8) (zlen f - 10) f), (zslice (zlen f - 10) (zlen f) f). split.
  - rewrite <- (zslice_split (start + 8) (zlen f - 10) (zlen f)) by lia.
    rewrite <- (zslice_split start (start + 8) (zlen f)) by lia. rewrite zslice_to_end. symmetry. apply ztake_zdrop.
  - constructor; rewrite ?zlen_zslice by lia; try lia.
    + exact Em.
    + change (t_size f = zlen f - 10 - (start + 8) + 8). lia.
    + rewrite hdr_field, zslice_zslice, E2 by lia. lia.
Qed.

(* a file without trailer magic *)
Section Unsigned.
  Variable f : bytes.
  Hypothesis Hb : all_bytes f = true.
  Hypothesis U : (zlen f <? 10) || negb (t_magic f =? XM) = true.
  Lemma uns_trailer_size : xap_trailer_size f = 0.
  Proof. rewrite trailer_size_eq. destruct (zlen f <? 10); [reflexivity|]. cbn [orb] in U. now rewrite U. Qed.
  Lemma uns_spec_split : xap_spec_split f = Ok (f, None).
  Proof. now rewrite spec_split_eq, U. Qed.
  Lemma uns_remove d : 0 <= d <= zlen f -> xap_remove_signature (zdrop d f) = Ok (zdrop d f).
  Proof.
    intros Rd. rewrite remove_sig_eq. f_equal. rewrite zlen_zdrop by lia.
    destruct (zlen f - d <? 10) eqn:E; [reflexivity|]. replace (zlen f <? 10) with false in U by lia. cbn [orb] in U.
    replace (t_magic (zdrop d f)) with (t_magic f).
    - apply negb_true_iff in U. now rewrite U.
    - unfold t_magic, f_trl. rewrite zlen_zdrop by lia. rewrite zslice_zdrop by lia. do 3 f_equal; lia.
  Qed.
  Lemma uns_digest d : zip_find_dir f (zlen f) = Ok d -> 0 <= d <= zlen f -> xap_digest f = Ok (mkXapd f (zlen f) 0).
  Proof.
    intros Hd Rd. rewrite xap_digest_eq by exact Hb. rewrite uns_trailer_size, Z.sub_0_r, Hd. cbn [bind].
    replace (d <? 0) with false by lia. replace (zlen f - d <? 0) with false by lia.
    rewrite uns_remove by exact Rd. cbn [bind]. rewrite ztake_zdrop, zlen_zdrop by lia. do 2 f_equal; lia.
  Qed.
  Lemma uns_extract d : zip_find_dir f (zlen f) = Ok d -> xap_extract f = Ok None.
  Proof.
    intros Hd. destruct (find_dir_eocd f (zlen f) d (zlen_nonneg f) Hd) as [Hn He].
    replace (zlen f <? 10) with false in U by lia. cbn [orb] in U.
    unfold xap_extract, xap_vparse, xap_v_trailer_off, xap_v_trailer_len.
    replace (zlen f - 10 <? 0) with false by lia. replace (zlen f - 10 + 10) with (zlen f) by lia.
    fold (f_trl f). fold (t_magic f). unfold xap_v_no_trailer. fold XM. rewrite U.
    unfold xap_v_zipmagic_off, xap_v_zipmagic_len, xap_v_is_zip. replace (zlen f - 22 <? 0) with false by lia.
    replace (zlen f - 22 + 4) with (zlen f - 18) by lia. rewrite He. reflexivity.
  Qed.
End Unsigned.

Definition is_block (old : bytes) (o : option bytes) : Prop :=
  (old = [] /\ o = None) \/ (exists h b0 tl, old = h ++ b0 ++ tl /\ sig_shape h b0 tl /\ o = Some b0).
Record xap_parts (f z old : bytes) (o : option bytes) : Prop := mkParts {
  pt_split : f = z ++ old;
  pt_bytes : all_bytes f = true;
  pt_digest : xap_digest f = Ok (mkXapd z (zlen z) (zlen old));
  pt_spec : xap_spec_split f = Ok (z, o);
  pt_extract : xap_extract f = Ok o;
  pt_trailer : xap_trailer_size f = zlen old;
  pt_dir : exists d, zip_find_dir f (zlen z) = Ok d /\ 0 <= d <= zlen z;
  pt_zip64 : zip64_inside_at f (zlen z) = true;
  pt_block : is_block old o }.

Lemma parts_unsigned f d : all_bytes f = true -> (zlen f <? 10) || negb (t_magic f =? XM) = true -> zip_find_dir f (zlen f) = Ok d ->
  0 <= d <= zlen f -> zip64_inside_at f (zlen f) = true -> xap_parts f f [] None.
Proof.
  intros Hb U Hd Rd Hz. constructor; try assumption.
  - now rewrite app_nil_r.
  - exact (uns_digest f Hb U d Hd Rd).
  - exact (uns_spec_split f Hb U).
  - exact (uns_extract f U d Hd).
  - exact (uns_trailer_size f U).
  - exists d. auto.
  - left. auto.
Qed.
Lemma parts_signed z h b0 tl d : let g := z ++ h ++ b0 ++ tl in
  all_bytes g = true -> sig_shape h b0 tl -> zip_find_dir g (zlen z) = Ok d -> 0 <= d <= zlen z ->
  zip64_inside_at g (zlen z) = true -> xap_parts g z (h ++ b0 ++ tl) (Some b0).
Proof.
  intros g Hb S Hd Rd Hz.
  assert (Lo : zlen (h ++ b0 ++ tl) = zlen b0 + 18) by (rewrite !zlen_app, (sh_h _ _ _ S), (sh_tl _ _ _ S); lia).
  constructor; try assumption; try rewrite Lo.
  - reflexivity.
  - exact (shape_digest z h b0 tl d S Hb Hd Rd).
  - exact (shape_spec_split z h b0 tl S Hb).
  - exact (shape_extract z h b0 tl S).
  - exact (shape_trailer_size z h b0 tl S).
  - exists d. auto.
  - right. exists h, b0, tl. auto.
Qed.

Lemma xap_wf_parts f : xap_wf f = true -> exists z old o, xap_parts f z old o.
Proof.
  unfold xap_wf. intros H. apply andb_true_iff in H as [H Hs]. apply andb_true_iff in H as [H Hi]. apply andb_true_iff in H as [H Hz].
  apply andb_true_iff in H as [Hb Hd].
  unfold xap_zip64_inside, xap_dir_inside, xap_find_dir, zip_tar_find_size in *. change (xap_tf_trailer f) with (xap_trailer_size f) in *.
  rewrite xap_digest_eq in Hd by exact Hb.
  destruct (zip_find_dir f (zlen f - xap_trailer_size f)) as [d| |] eqn:Ed; try discriminate. cbn [bind] in Hd.
  destruct (d <? 0) eqn:Ed0; [discriminate|]. clear Hd.
  destruct ((zlen f <? 10) || negb (t_magic f =? XM)) eqn:U.
  { rewrite (uns_trailer_size f U), Z.sub_0_r in *. exists f, [], None. apply (parts_unsigned f d); auto; lia. }
  apply orb_false_iff in U as [Hge Em]. apply negb_false_iff, Z.eqb_eq in Em.
  destruct (spec_split_shape f Hb ltac:(lia) Em Hs) as (z & h & b0 & tl & -> & S).
  rewrite (shape_trailer_size z h b0 tl S), (shape_len z h b0 tl S) in *.
  replace (zlen z + zlen b0 + 18 - (zlen b0 + 18)) with (zlen z) in * by lia.
  exists z, (h ++ b0 ++ tl), (Some b0). apply (parts_signed z h b0 tl d); auto; lia.
Qed.

Lemma xap_parts_wf f z old o : xap_parts f z old o -> xap_wf f = true.
Proof.
  intros P. destruct P as [Ef Hb Hd Hs He Ht [d [Hf Rd]] Hz _].
  assert (Ezs : zlen f - xap_trailer_size f = zlen z) by (rewrite Ht, Ef, zlen_app; lia).
  unfold xap_wf. rewrite Hb, Hd, Hs. cbn [is_ok andb].
  unfold xap_zip64_inside, xap_dir_inside, xap_find_dir, zip_tar_find_size. change (xap_tf_trailer f) with (xap_trailer_size f).
  rewrite Ezs, Hz, Hf. cbn [andb]. lia.
Qed.

Lemma parts_hashin f z old o : xap_parts f z old o -> xap_hashin f = Ok z.
Proof. intros P. unfold xap_hashin. now rewrite (pt_digest _ _ _ _ P). Qed.
Lemma parts_payload f z old o : xap_parts f z old o -> xap_payload f = Ok z.
Proof. intros P. unfold xap_payload. now rewrite (pt_spec _ _ _ _ P). Qed.
Lemma parts_signed_block f z old o : xap_parts f z old o -> xap_spec_signed f = true ->
  exists h b0 tl, f = z ++ h ++ b0 ++ tl /\ sig_shape h b0 tl /\ o = Some b0 /\ all_bytes h = true /\ all_bytes tl = true.
Proof.
  intros P Hs. unfold xap_spec_signed in Hs. rewrite (pt_spec _ _ _ _ P) in Hs.
  destruct (pt_block _ _ _ _ P) as [[_ ->]|(h & b0 & tl & Eo & S & ->)]; [discriminate|].
  exists h, b0, tl. pose proof (pt_bytes _ _ _ _ P) as Hb. rewrite (pt_split _ _ _ _ P), Eo in Hb |- *.
  rewrite !all_bytes_app in Hb. repeat (apply andb_true_iff in Hb as [? Hb]). auto.
Qed.

Lemma xap_embed_eq f b z old o : xap_parts f z old o -> xap_embed f b = Ok (z ++ xap_sigblock b).
Proof.
  intros P. destruct P as [Ef Hb Hd _ _ _ _ _ _]. unfold xap_embed. rewrite Hd. cbn [bind].
  unfold xap_patchset. cbn [x_start x_len]. unfold xap_patch_off, xap_patch_old.
  pose proof (zlen_nonneg z) as Hz. pose proof (zlen_nonneg old) as Ho.
  rewrite (rewrite_calls [C12.Model.mkCall (zlen z) (zlen old) (xap_sigblock b)]).
  2:{ cbn [map C12.Model.call_patch C12.Model.asc_disjoint C12.Model.c_off C12.Model.c_old C12.Model.c_blob C12.Model.p_off C12.Model.p_old].
      rewrite Ef, zlen_app. lia. }
  rewrite Ef. f_equal. now apply replace1_end.
Qed.

Lemma xap_blob_wf_inv b : xap_blob_wf b = true -> all_bytes b = true /\ zlen b + 8 < 2 ^ 32.
Proof. unfold xap_blob_wf. intros H. apply andb_true_iff in H as [H1 H2]. split; [exact H1|lia]. Qed.

Lemma parts_resign f z old o b : xap_parts f z old o -> xap_blob_wf b = true ->
  xap_parts (z ++ xap_sigblock b) z (xap_sigblock b) (Some b).
Proof.
  intros P Hbw. destruct (xap_blob_wf_inv b Hbw) as [Hbb Hbl]. destruct P as [Ef Hb _ _ _ _ [d [Hf Rd]] Hz _].
  pose proof (zlen_nonneg z) as Lz0. pose proof (zlen_nonneg old) as Lo0.
  assert (Lf : zlen f = zlen z + zlen old) by (rewrite Ef; apply zlen_app).
  assert (Hbz : all_bytes z = true) by (rewrite Ef, all_bytes_app in Hb; now apply andb_true_iff in Hb).
  rewrite xap_sigblock_eq. set (g := z ++ xap_hdr b ++ b ++ xap_trl b).
  assert (Et : ztake (zlen z) f = ztake (zlen z) g) by (rewrite Ef; unfold g; now rewrite !ztake_app_exact).
  assert (Lg : zlen z <= zlen g) by (unfold g; rewrite zlen_app; pose proof (zlen_nonneg (xap_hdr b ++ b ++ xap_trl b)); lia).
  apply (parts_signed z (xap_hdr b) b (xap_trl b) d).
  - fold g. unfold g. rewrite <- xap_sigblock_eq, all_bytes_app, Hbz. now apply xap_sigblock_bytes.
  - now apply sigblock_shape.
  - fold g. rewrite <- (zip_find_dir_agree f g (zlen z)); auto; lia.
  - exact Rd.
  - fold g. rewrite <- (zip64_inside_agree f g (zlen z)); auto; lia.
Qed.

Definition xap_format : format bytes := mkFormat bytes xap_hashin xap_embed_wf xap_extract xap_payload.

Lemma xap_embed_wf_inv f b g : xap_embed_wf f b = Ok g -> xap_wf f = true /\ xap_blob_wf b = true /\ xap_embed f b = Ok g.
Proof.
  unfold xap_embed_wf. destruct (xap_wf f); [|discriminate]. destruct (xap_blob_wf b); [|discriminate]. cbn [andb]. auto.
Qed.
Lemma xap_embed_wf_eq f b : xap_wf f = true -> xap_blob_wf b = true -> xap_embed_wf f b = xap_embed f b.
Proof. intros Hw Hb. unfold xap_embed_wf. now rewrite Hw, Hb. Qed.
(* one signing step: the signed file is in the domain again, with the same zip part and the block for b *)
Lemma xap_step f b g : xap_embed_wf f b = Ok g -> exists z old o,
  xap_parts f z old o /\ xap_parts g z (xap_sigblock b) (Some b).
Proof.
  intros H. destruct (xap_embed_wf_inv _ _ _ H) as (Hw & Hb & He).
  destruct (xap_wf_parts f Hw) as (z & old & o & P). exists z, old, o.
  rewrite (xap_embed_eq f b z old o P) in He. apply Ok_inj in He. subst g. split; [exact P|exact (parts_resign f z old o b P Hb)].
Qed.
Theorem xap_format_extract : law_extract bytes xap_format.
Proof.
  unfold law_extract, xap_format. cbn [f_embed f_extract]. intros f b g H.
  destruct (xap_step f b g H) as (z & old & o & _ & P). exact (pt_extract _ _ _ _ P).
Qed.
Theorem xap_format_hashin : law_hashin bytes xap_format.
Proof.
  unfold law_hashin, xap_format. cbn [f_embed f_hashin]. intros f b g H.
  destruct (xap_step f b g H) as (z & old & o & P & P'). now rewrite (parts_hashin _ _ _ _ P), (parts_hashin _ _ _ _ P').
Qed.
Theorem xap_format_payload : law_payload bytes xap_format.
Proof.
  unfold law_payload, xap_format. cbn [f_embed f_payload]. intros f b g H.
  destruct (xap_step f b g H) as (z & old & o & P & P'). now rewrite (parts_payload _ _ _ _ P), (parts_payload _ _ _ _ P').
Qed.

(* C01: inside the domain signing always succeeds — for unsigned zips and for files that already carry a signature *)
Theorem xap_embed_wf_defined f b : xap_wf f = true -> xap_blob_wf b = true -> exists g, xap_embed_wf f b = Ok g /\ xap_embed f b = Ok g.
Proof.
  intros Hw Hb. destruct (xap_wf_parts f Hw) as (z & old & o & P). exists (z ++ xap_sigblock b).
  rewrite xap_embed_wf_eq by assumption. split; exact (xap_embed_eq f b z old o P).
Qed.
(* C05: the signer's digest input is the specification's: the zip part of the file *)
Theorem xap_hashin_eq_spec f : xap_wf f = true -> xap_hashin f = xap_spec_hashin f.
Proof.
  intros Hw. destruct (xap_wf_parts f Hw) as (z & old & o & P). rewrite (parts_hashin _ _ _ _ P).
  unfold xap_spec_hashin. now rewrite (pt_spec _ _ _ _ P).
Qed.
(* C01 / C05: on a signed file the verifier digests the same bytes as the signer would *)
Theorem xap_verifier_digest_eq f : xap_wf f = true -> xap_spec_signed f = true -> xap_vhashin f = xap_hashin f.
Proof.
  intros Hw Hs. destruct (xap_wf_parts f Hw) as (z & old & o & P). rewrite (parts_hashin _ _ _ _ P).
  destruct (parts_signed_block _ _ _ _ P Hs) as (h & b0 & tl & -> & S & _). exact (shape_vhashin z h b0 tl S).
Qed.
(* the verifier of the pipeline theorems uses the signer's digest function; on the signed file it is the verifier's own *)
Theorem xap_verify_uses_verifier_digest : forall f b g, xap_embed_wf f b = Ok g -> xap_vhashin g = xap_hashin g.
Proof.
  intros f b g Hg. destruct (xap_step f b g Hg) as (z & old & o & _ & P).
  apply xap_verifier_digest_eq; [exact (xap_parts_wf _ _ _ _ P)|]. unfold xap_spec_signed. now rewrite (pt_spec _ _ _ _ P).
Qed.

Lemma le4_canon x v : all_bytes x = true -> zlen x = 4 -> le_dec x = v -> x = le_enc 4 v.
Proof. intros Hb Hl <-. rewrite <- (le_enc_dec x Hb) at 1. f_equal. unfold zlen in Hl. lia. Qed.
Lemma shape_protected_canon z h b0 tl : sig_shape h b0 tl -> all_bytes h = true -> all_bytes tl = true ->
  xap_protected (z ++ h ++ b0 ++ tl) = z ++ le_enc 4 (zlen b0) ++ b0 ++ le_enc 4 XM ++ le_enc 4 (zlen b0 + 8).
Proof.
  intros S Hh Ht. rewrite (shape_protected z h b0 tl S).
  pose proof (sh_h _ _ _ S) as Lh. pose proof (sh_tl _ _ _ S) as Lt. destruct (trl_fields tl Lt) as [Fm Fs].
  rewrite (sh_magic _ _ _ S) in Fm. rewrite (sh_tsz _ _ _ S) in Fs.
  rewrite (le4_canon (zdrop 4 h) (zlen b0)); [|now apply all_bytes_zdrop|rewrite zlen_zdrop by lia; lia|].
  2:{ now rewrite <- (sh_ssz _ _ _ S), hdr_field, <- Lh, zslice_to_end. }
  rewrite (le4_canon (ztake 4 tl) XM); [|now apply all_bytes_ztake|apply zlen_ztake; lia|now symmetry].
  rewrite (le4_canon (zdrop 6 tl) (zlen b0 + 8)); [reflexivity|now apply all_bytes_zdrop|rewrite zlen_zdrop by lia; lia|now symmetry].
Qed.
(* two signed files of the domain with the same digest input and the same blob agree on every byte the format protects:
   everything except the two unknown words of the block header and the unknown word of the trailer *)
Theorem xap_protect g1 g2 : xap_wf g1 = true -> xap_wf g2 = true -> xap_spec_signed g1 = true -> xap_spec_signed g2 = true ->
  xap_hashin g1 = xap_hashin g2 -> xap_extract g1 = xap_extract g2 -> xap_protected g1 = xap_protected g2.
Proof.
  intros W1 W2 S1 S2 Hh He.
  destruct (xap_wf_parts g1 W1) as (z1 & old1 & o1 & P1). destruct (xap_wf_parts g2 W2) as (z2 & old2 & o2 & P2).
  rewrite (parts_hashin _ _ _ _ P1), (parts_hashin _ _ _ _ P2) in Hh. apply Ok_inj in Hh. subst z2.
  rewrite (pt_extract _ _ _ _ P1), (pt_extract _ _ _ _ P2) in He. apply Ok_inj in He. subst o2.
  destruct (parts_signed_block _ _ _ _ P1 S1) as (h1 & b1 & t1 & E1 & Sh1 & Eo1 & Hh1 & Ht1).
  destruct (parts_signed_block _ _ _ _ P2 S2) as (h2 & b2 & t2 & E2 & Sh2 & Eo2 & Hh2 & Ht2).
  assert (b2 = b1) by congruence. subst b2.
  rewrite E1, E2. now rewrite !shape_protected_canon.
Qed.

(* C02: the unknown words are covered by neither digest nor blob (replayed on the real verifier) *)
Definition w_zip : bytes := [80; 75; 5; 6] ++ repeat 0 18.
Definition w_x1 : bytes := w_zip ++ xap_sigblock [7].
Definition w_x2 : bytes := w_zip ++ [2; 0; 3; 0; 1; 0; 0; 0] ++ [7] ++ [88; 97; 112; 83; 9; 0; 9; 0; 0; 0].
(* outside the domain: an end record whose directory offset points behind the zip part, into an existing signature block.
   relic keeps the old block inside the signed content and appends a second one; the result cannot be signed again and the
   independent reader's payload has changed *)
Definition w_zip_out : bytes := [80; 75; 5; 6] ++ repeat 0 12 ++ [23; 0; 0; 0; 0; 0].
Definition w_out : bytes := w_zip_out ++ xap_sigblock [].
