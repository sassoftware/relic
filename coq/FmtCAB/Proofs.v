(* FmtCAB/Proofs.v — CAB: the parser of cabfile.Digest.  The byte strings it accepts are exactly the serialisations
   (cab_write) of the parse results that satisfy cabp_ok; it never panics.  What signing does to such a file is in
   FmtCAB/ProofsB.v. *)
From Relic Require Import Base.Prelude Base.Enc Base.Slice Generated.FmtCAB_gen FmtCAB.Model FmtCAB.Lib.

Definition res_bytes (res : option (list Z * list Z * Z)) : bytes :=
  match res with
  | None => []
  | Some (rv, sv, pad) => enc_struct cabrh_widths rv ++ enc_struct cabsh_widths sv ++ repeat 0 (Z.to_nat pad)
  end.
(* the file a parse result stands for *)
Definition cab_write (p : cabp) : bytes :=
  enc_struct cabh_widths (c_hv p) ++ res_bytes (c_res p) ++ enc_folders (c_folders p) ++ c_data p ++ c_sig p.

Definition res_ok (hv : list Z) (res : option (list Z * list Z * Z)) : Prop :=
  match res with
  | None => fld cabh_ix_Flags hv = 0
  | Some (rv, sv, pad) =>
      fld cabh_ix_Flags hv = 4 /\ rv = [20 + pad; 0; 0] /\ 0 <= pad < 65516 /\ in_range cabsh_widths sv /\
      (if pad >? 0 then fld cabsh_ix_CabinetSize sv = 0 else fld cabsh_ix_CabinetSize sv = fld cabh_ix_TotalSize hv)
  end.
Record cabp_ok (p : cabp) : Prop := mkOk {
  ok_hv : in_range cabh_widths (c_hv p);
  ok_magic : fld cabh_ix_Magic (c_hv p) = cab_Magic;
  ok_res : res_ok (c_hv p) (c_res p);
  ok_folders : Forall (in_range cabfh_widths) (c_folders p);
  ok_nfolders : zlen (c_folders p) = fld cabh_ix_NumFolders (c_hv p);
  ok_data : zlen (c_data p) = fc_wrap32 (fld cabh_ix_TotalSize (c_hv p) - fld cabh_ix_OffsetFiles (c_hv p));
  ok_sig : if cab_has_sig p then zlen (c_sig p) = fld cabsh_ix_SignatureSize (res_sv (c_res p)) else c_sig p = [];
  (* since relic commit 6b49488: the folder table ends at coffFiles, and coffFiles <= cbCabinet *)
  ok_layout : fld cabh_ix_OffsetFiles (c_hv p) = cab_P p /\ fld cabh_ix_OffsetFiles (c_hv p) <= fld cabh_ix_TotalSize (c_hv p) }.

Lemma zlen_enc_h hv : in_range cabh_widths hv -> zlen (enc_struct cabh_widths hv) = 36.
Proof. apply enc_struct_zlen. Qed.
Lemma zlen_enc_rh rv : in_range cabrh_widths rv -> zlen (enc_struct cabrh_widths rv) = 4.
Proof. apply enc_struct_zlen. Qed.
Lemma zlen_enc_sh sv : in_range cabsh_widths sv -> zlen (enc_struct cabsh_widths sv) = 20.
Proof. apply enc_struct_zlen. Qed.
Lemma zlen_enc_fh fv : in_range cabfh_widths fv -> zlen (enc_struct cabfh_widths fv) = 8.
Proof. apply enc_struct_zlen. Qed.

Lemma hv_fields_range hv : in_range cabh_widths hv ->
  0 <= fld cabh_ix_TotalSize hv < 2 ^ 32 /\ 0 <= fld cabh_ix_OffsetFiles hv < 2 ^ 32 /\
  0 <= fld cabh_ix_NumFolders hv < 65536 /\ 0 <= fld cabh_ix_Flags hv < 65536.
Proof. intros R. repeat split; apply (in_range_fld _ _ R). Qed.
Lemma rv_range pad : 0 <= pad < 65516 -> in_range cabrh_widths [20 + pad; 0; 0].
Proof. intros H. repeat constructor; lia. Qed.

Lemma enc_folders_cons fv fs : enc_folders (fv :: fs) = enc_struct cabfh_widths fv ++ enc_folders fs.
Proof. reflexivity. Qed.
Lemma enc_folders_zlen fs : Forall (in_range cabfh_widths) fs -> zlen (enc_folders fs) = 8 * zlen fs.
Proof. induction 1 as [|fv fs Hf _ IH]; [reflexivity|]. rewrite enc_folders_cons, zlen_app, zlen_cons, IH, zlen_enc_fh by exact Hf. lia. Qed.
Lemma enc_folders_bytes fs : all_bytes (enc_folders fs) = true.
Proof. induction fs as [|fv fs IH]; [reflexivity|]. now rewrite enc_folders_cons, all_bytes_app, enc_struct_bytes, IH. Qed.
Lemma res_bytes_bytes res : all_bytes (res_bytes res) = true.
Proof.
  destruct res as [[[rv sv] pad]|]; cbn [res_bytes]; [|reflexivity].
  now rewrite !all_bytes_app, !enc_struct_bytes, all_bytes_repeat.
Qed.

(* Flags &^ FlagReservePresent = 0 leaves 0 and 4: the word is at most 4, and 1, 2, 3 have other bits *)
Lemma flags_cases x : cab_unsupported_flags x = false -> if cab_has_reserve x then x = 4 else x = 0.
Proof.
  unfold cab_unsupported_flags. intros H%negb_false_iff%Z.eqb_eq. pose proof (Z.ldiff_le x 4 ltac:(lia) H).
  assert (x = 0 \/ x = 1 \/ x = 2 \/ x = 3 \/ x = 4) as [->|[->|[->|[->| ->]]]] by lia; try discriminate H; reflexivity.
Qed.
Lemma flags_of_res hv res : res_ok hv res -> fld cabh_ix_Flags hv = 4 \/ fld cabh_ix_Flags hv = 0.
Proof. destruct res as [[[rv sv] pad]|]; cbn [res_ok]; [left; tauto|right; assumption]. Qed.

Lemma existsb_nonzero_repeat l : existsb cab_pad_nonzero l = false -> l = repeat 0 (length l).
Proof.
  induction l as [|x l IH]; cbn; [reflexivity|]. intros H. apply orb_false_iff in H as [H1 H2].
  unfold cab_pad_nonzero in H1. f_equal; [lia|now apply IH].
Qed.
Lemma existsb_nonzero_repeat0 n : existsb cab_pad_nonzero (repeat 0 n) = false.
Proof. induction n; cbn; [reflexivity|exact IHn]. Qed.

Lemma parse_reserve_sound hv s res s1 : all_bytes s = true -> cab_unsupported_flags (fld cabh_ix_Flags hv) = false ->
  cab_parse_reserve hv s = Ok (res, s1) -> res_ok hv res /\ s = res_bytes res ++ s1 /\ all_bytes s1 = true.
Proof.
  intros Hb Fc%flags_cases H. unfold cab_parse_reserve in H. destruct (cab_has_reserve _).
  2:{ injection H as <- <-. auto. }
  apply bind_ok in H as ([rb s'] & E1 & H). cbn [fst snd] in H.
  destruct (take_struct cabrh_widths _ _ _ eq_refl Hb E1) as (Rr & -> & Hb'). set (rv := dec_struct cabrh_widths rb) in *. clearbody rv.
  destruct (cab_bad_reserve _ _ _) eqn:Ebr; [discriminate|].
  apply bind_ok in H as ([sb s''] & E2 & H). cbn [fst snd] in H.
  destruct (take_struct cabsh_widths _ _ _ eq_refl Hb' E2) as (Rs & -> & Hb''). set (sv := dec_struct cabsh_widths sb) in *. clearbody sv.
  (* the reserve header is {20 + padding, 0, 0} *)
  unfold cab_padding, cab_bad_reserve, cabrh_ix_HeaderSize, cabrh_ix_FolderSize, cabrh_ix_DataSize in *. set (pad := fld 0 rv - 20) in *.
  pose proof (in_range_fld _ _ Rr 0) as R0. cbn [nth cabrh_widths] in R0.
  assert (Erv : rv = [20 + pad; 0; 0]) by (rewrite (in_range_eta _ _ Rr); cbn [length cabrh_widths seq map]; repeat f_equal; lia).
  assert (Rp : 0 <= pad < 65516) by lia. clearbody pad. unfold cab_padding_present in H. destruct (pad >? 0) eqn:Epp.
  - destruct (cab_padded_with_size _) eqn:Eps; [discriminate|]. unfold cab_padded_with_size in Eps.
    apply bind_ok in H as ([pb s3] & [L3 [= -> ->]]%take_n_inv & H). cbn [fst snd] in H.
    destruct (existsb _ _) eqn:Enz; [discriminate|]. injection H as <- <-. subst rv. apply existsb_nonzero_repeat in Enz.
    assert (Lp : zlen (ztake pad s'') = pad) by (apply zlen_ztake; lia).
    unfold res_ok, res_bytes. rewrite Epp. repeat split; try assumption; try lia; [|now apply all_bytes_zdrop].
    rewrite <- !app_assoc, <- (ztake_zdrop pad s'') at 1. rewrite Enz at 1. do 4 f_equal. unfold zlen in Lp. lia.
  - destruct (cab_size_mismatch _ _) eqn:Esm; [discriminate|]. unfold cab_size_mismatch in Esm. injection H as <- <-. subst rv.
    unfold res_ok, res_bytes. rewrite Epp. replace (Z.to_nat pad) with 0%nat by lia. repeat split; try assumption; try lia. cbn [repeat]. now rewrite app_nil_r, <- app_assoc.
Qed.
Lemma parse_reserve_complete hv res rest : res_ok hv res ->
  cab_parse_reserve hv (res_bytes res ++ rest) = Ok (res, rest).
Proof.
  intros H. unfold cab_parse_reserve. destruct res as [[[rv sv] pad]|]; cbn [res_ok] in H; [|now rewrite H].
  destruct H as (-> & -> & Hp & Rs & Hc). change (cab_has_reserve 4) with true. cbv iota.
  pose proof (rv_range pad Hp) as Rr. cbn [res_bytes]. rewrite <- !app_assoc.
  rewrite take_n_app by now apply zlen_enc_rh. cbn [bind fst snd]. rewrite dec_enc_struct0 by exact Rr.
  cbn [fld nth cabrh_ix_HeaderSize cabrh_ix_FolderSize cabrh_ix_DataSize]. unfold cab_bad_reserve.
  replace ((20 + pad <? 20) || negb (0 =? 0) || negb (0 =? 0)) with false by lia.
  rewrite take_n_app by now apply zlen_enc_sh. cbn [bind fst snd]. rewrite dec_enc_struct0 by exact Rs.
  unfold cab_padding, cab_padding_present. replace (20 + pad - 20) with pad by lia.
  destruct (pad >? 0) eqn:Ep.
  - unfold cab_padded_with_size. rewrite Hc. cbn [Z.eqb negb].
    rewrite take_n_app by (rewrite zlen_repeat; lia). cbn [bind fst snd]. now rewrite existsb_nonzero_repeat0.
  - replace pad with 0 by lia. unfold cab_size_mismatch. now rewrite Hc, Z.eqb_refl.
Qed.

(* Digest's hdrEnd is the position behind the folder table, cab_P *)
Lemma hdr_end_eq hv res n : res_ok hv res ->
  (if cab_hdr_end_has_reserve (fld cabh_ix_Flags hv)
   then cab_hdr_end_reserve (cab_hdr_end n) match res with Some (rv, _, _) => fld cabrh_ix_HeaderSize rv | None => 0 end
   else cab_hdr_end n)
  = cabh_size + match res with Some (_, _, pad) => cabrh_size + cabsh_size + pad | None => 0 end + cabfh_size * n.
Proof.
  unfold cab_hdr_end_reserve, cab_hdr_end, cabh_size, cabrh_size, cabsh_size, cabfh_size.
  destruct res as [[[rv sv] pad]|]; cbn [res_ok].
  - intros (-> & -> & _). change (cab_hdr_end_has_reserve 4) with true. cbn [fld nth cabrh_ix_HeaderSize]. lia.
  - intros ->. change (cab_hdr_end_has_reserve 0) with false. lia.
Qed.

Lemma read_folders_sound fuel : forall i n s fs r, all_bytes s = true -> read_folders fuel i n s = Ok (fs, r) ->
  s = enc_folders fs ++ r /\ all_bytes r = true /\ Forall (in_range cabfh_widths) fs /\
  (n - i < Z.of_nat fuel -> zlen fs = Z.max 0 (n - i)).
Proof.
  induction fuel as [|fuel IH]; intros i n s fs r Hb H; cbn [read_folders] in H.
  { injection H as <- <-. repeat split; [assumption|constructor|intros; rewrite zlen_nil; lia]. }
  unfold cab_more_folders in H. destruct (i <? n) eqn:E.
  2:{ injection H as <- <-. repeat split; [assumption|constructor|intros; rewrite zlen_nil; lia]. }
  apply bind_ok in H as ([fb s'] & E1 & H). cbn [fst snd] in H.
  destruct (take_struct cabfh_widths _ _ _ eq_refl Hb E1) as (Rf & -> & Hb').
  apply bind_ok in H as ([fs' r'] & E2 & H). cbn [fst snd] in H. injection H as <- <-.
  destruct (IH _ _ _ _ _ Hb' E2) as (-> & Hr & F2 & Z2).
  rewrite enc_folders_cons, <- app_assoc. repeat split; [assumption|now constructor|]. rewrite zlen_cons. lia.
Qed.
Lemma read_folders_complete fs : forall fuel i n r, Forall (in_range cabfh_widths) fs -> zlen fs = n - i -> (length fs < fuel)%nat ->
  read_folders fuel i n (enc_folders fs ++ r) = Ok (fs, r).
Proof.
  induction fs as [|fv fs IH]; intros fuel i n r F L Hf; (destruct fuel as [|fuel]; [lia|]); cbn [read_folders]; unfold cab_more_folders.
  - rewrite zlen_nil in L. replace (i <? n) with false by lia. reflexivity.
  - rewrite zlen_cons in L. pose proof (zlen_nonneg fs). replace (i <? n) with true by lia.
    inversion F as [|? ? F1 F2]; subst. rewrite enc_folders_cons, <- app_assoc.
    rewrite take_n_app by now apply zlen_enc_fh. cbn [bind fst snd].
    rewrite IH by (try assumption; cbn [length] in Hf; lia). cbn [bind fst snd].
    now rewrite dec_enc_struct0.
Qed.

Lemma cab_parse_sound f p : all_bytes f = true -> cab_parse f = Ok p -> cabp_ok p /\ f = cab_write p.
Proof.
  intros Hb H. unfold cab_parse in H.
  apply bind_ok in H as ([hb s0] & E0 & H). cbn [fst snd] in H.
  destruct (take_struct cabh_widths _ _ _ eq_refl Hb E0) as (Rh & -> & Hb0). set (hv := dec_struct cabh_widths hb) in *. clearbody hv.
  destruct (hv_fields_range hv Rh) as (RT & RO & RN & RF).
  destruct (cab_bad_magic _) eqn:Em; [discriminate|].
  apply bind_ok in H as ([res s1] & E1 & H). cbn [fst snd] in H.
  destruct (cab_multipart _); [discriminate|]. destruct (cab_unsupported_flags _) eqn:Efl; [discriminate|].
  destruct (parse_reserve_sound _ _ _ _ Hb0 Efl E1) as (Hr & -> & Hb1).
  destruct (cab_bad_layout _ _ _) eqn:Ely; [discriminate|].
  apply bind_ok in H as ([fs s2] & E2 & H). cbn [fst snd] in H.
  destruct (read_folders_sound _ _ _ _ _ _ Hb1 E2) as (-> & Hb2 & F2 & Z2).
  rewrite Z.max_r in Z2 by lia. specialize (Z2 ltac:(unfold folder_fuel; lia)).
  unfold cab_data_len in H. set (D := fc_wrap32 _) in H. pose proof (wrap32_range (fld cabh_ix_TotalSize hv - fld cabh_ix_OffsetFiles hv)) as RD. fold D in RD.
  apply bind_ok in H as ([data s3] & [L3 [= -> ->]]%take_n_inv & H). cbn [fst snd] in H.
  apply bind_ok in H as ([sig s4] & E4 & H). cbn [fst snd] in H. destruct s4; [|discriminate]. injection H as <-.
  (* the signature area is the rest of the file *)
  assert (Sg : zdrop D s2 = sig /\ if res_has_sig res then zlen sig = fld cabsh_ix_SignatureSize (res_sv res) else sig = []).
  { destruct (res_has_sig res) eqn:Es; [|injection E4 as <- E4; auto].
    apply take_n_inv in E4 as [L4 [= -> E4]].
    assert (0 <= fld cabsh_ix_SignatureSize (res_sv res)).
    { destruct res as [[[rv sv] pad]|]; [|discriminate]. destruct Hr as (_ & _ & _ & Rs & _). apply (in_range_fld _ _ Rs). }
    split; [|apply zlen_ztake; lia]. rewrite <- (ztake_zdrop (fld cabsh_ix_SignatureSize (res_sv res)) (zdrop D s2)) at 1.
    rewrite <- E4. apply app_nil_r. }
  destruct Sg as [Sg1 Sg2]. split.
  - constructor; cbn [c_hv c_res c_folders c_data c_sig]; try assumption.
    + unfold cab_bad_magic in Em. unfold cab_Magic. lia.
    + lia.
    + apply zlen_ztake. lia.
    + rewrite (hdr_end_eq _ _ _ Hr) in Ely. unfold cab_bad_layout in Ely. unfold cab_P. cbn [c_res c_folders]. rewrite Z2. lia.
  - unfold cab_write. cbn [c_hv c_res c_folders c_data c_sig]. now rewrite <- Sg1, ztake_zdrop.
Qed.

Lemma cab_parse_complete p : cabp_ok p -> cab_parse (cab_write p) = Ok p.
Proof.
  intros [Rh Hm Hr Rf Hn Hd Hs [HlP HlT]]. destruct p as [hv res fs data sig]. cbn [c_hv c_res c_folders c_data c_sig] in *.
  destruct (hv_fields_range hv Rh) as (RT & RO & RN & RF).
  unfold cab_parse, cab_write. cbn [c_hv c_res c_folders c_data c_sig].
  rewrite take_n_app by now apply zlen_enc_h. cbn [bind fst snd]. rewrite dec_enc_struct0 by exact Rh.
  unfold cab_bad_magic. rewrite Hm. unfold cab_Magic. cbn [Z.eqb Pos.eqb negb].
  rewrite parse_reserve_complete by exact Hr. cbn [bind fst snd].
  pose proof (flags_of_res _ _ Hr) as Hfl.
  replace (cab_multipart (fld cabh_ix_Flags hv)) with false by (destruct Hfl as [-> | ->]; reflexivity).
  replace (cab_unsupported_flags (fld cabh_ix_Flags hv)) with false by (destruct Hfl as [-> | ->]; reflexivity).
  unfold cab_P in HlP. cbn [c_res c_folders] in HlP. rewrite (hdr_end_eq _ _ _ Hr), <- Hn, <- HlP.
  unfold cab_bad_layout. rewrite Z.eqb_refl. replace (fld cabh_ix_TotalSize hv <? fld cabh_ix_OffsetFiles hv) with false by lia. cbn [negb orb].
  rewrite read_folders_complete; [|exact Rf|lia|unfold folder_fuel, zlen in *; lia]. cbn [bind fst snd].
  unfold cab_data_len. rewrite take_n_app by exact Hd. cbn [bind fst snd].
  unfold cab_has_sig in Hs. cbn [c_res c_sig] in Hs. destruct (res_has_sig res).
  - rewrite <- (app_nil_r sig) at 1. rewrite take_n_app by exact Hs. reflexivity.
  - subst sig. reflexivity.
Qed.

Lemma np_read_folders fuel : forall i n s, np (read_folders fuel i n s).
Proof.
  induction fuel as [|fuel IH]; intros i n s; cbn [read_folders]; [apply np_ok|].
  destruct (cab_more_folders i n); [|apply np_ok]. apply np_bind; [apply np_take|]. intros a. apply np_bind; [apply IH|]. intros c. apply np_ok.
Qed.
Lemma np_parse_reserve hv s : np (cab_parse_reserve hv s).
Proof.
  unfold cab_parse_reserve. destruct (cab_has_reserve _); [|apply np_ok]. apply np_bind; [apply np_take|]. intros p1.
  destruct (cab_bad_reserve _ _ _); [apply np_err|]. apply np_bind; [apply np_take|]. intros p2.
  destruct (cab_padding_present _).
  - destruct (cab_padded_with_size _); [apply np_err|]. apply np_bind; [apply np_take|]. intros p3. destruct (existsb _ _); [apply np_err|apply np_ok].
  - destruct (cab_size_mismatch _ _); [apply np_err|apply np_ok].
Qed.
Lemma np_parse f : np (cab_parse f).
Proof.
  unfold cab_parse. apply np_bind; [apply np_take|]. intros p0. destruct (cab_bad_magic _); [apply np_err|].
  apply np_bind; [apply np_parse_reserve|]. intros p1. destruct (cab_multipart _); [apply np_err|]. destruct (cab_unsupported_flags _); [apply np_err|].
  destruct (cab_bad_layout _ _ _); [apply np_err|].
  apply np_bind; [apply np_read_folders|]. intros p2. apply np_bind; [apply np_take|]. intros p3.
  apply np_bind; [destruct (res_has_sig _); [apply np_take|apply np_ok]|]. intros p4. destruct (snd p4); [apply np_ok|apply np_err].
Qed.
