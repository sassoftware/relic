(* FmtCAB/Lib.v — what belongs to neither format: results that never panic, fixed-layout structs (enc_struct, dec_struct, fld,
   set_fld) and the sequential reader, and the one way both signers apply their patch set.  The CAB proofs (Proofs.v, ProofsB.v)
   and the XAP proofs (ProofsXap.v) build on it. *)
From Relic Require Import Base.Prelude Base.Enc Base.Slice Generated.FmtCAB_gen FmtCAB.Model.
From Relic Require C12.Model C12.Proofs.

Lemma zlen_ztake_exact {A} n (l : list A) : 0 <= n <= zlen l -> zlen (ztake n l) = n.
Proof. apply zlen_ztake. Qed.
Lemma zslice_full {A} (l : list A) : zslice 0 (zlen l) l = l.
Proof. apply Base.Slice.zslice_full. Qed.
Lemma zslice_last {A} (X Y : list A) n : zlen Y = n -> zslice (zlen (X ++ Y) - n) (zlen (X ++ Y)) (X ++ Y) = Y.
Proof. intros <-. rewrite zslice_to_end, zlen_app, Z.add_simpl_r. apply zdrop_app_exact. Qed.
Lemma app_inj_len {A} (a b c d : list A) : a ++ b = c ++ d -> zlen a = zlen c -> a = c /\ b = d.
Proof. apply app_inv_len. Qed.

(* a computation that returns a value or an ordinary error: no Go panic *)
Definition np {A} (r : result A) : Prop := forall q, r <> Panic q.
Lemma np_ok {A} (a : A) : np (Ok a).
Proof. intros q. discriminate. Qed.
Lemma np_err {A} e : np (@Err A e).
Proof. intros q. discriminate. Qed.
Lemma np_bind {A B} (r : result A) (k : A -> result B) : np r -> (forall a, np (k a)) -> np (bind r k).
Proof. intros Hr Hk q. apply bind_no_panic; [apply Hr | intros a _; apply Hk]. Qed.
Lemma np_take n s : np (take_n n s).
Proof. unfold take_n. destruct (zlen s <? n); [apply np_err|apply np_ok]. Qed.
(* binpatch's write-then-rename application *)
Lemma np_rewrite_from ps : forall pos f, np (C12.Model.rewrite_from pos ps f).
Proof.
  induction ps as [|q ps IH]; intros pos f; cbn [C12.Model.rewrite_from]; [apply np_ok|].
  destruct (C12_gen.rewrite_out_of_order _); [apply np_err|]. destruct (_ && _); [apply np_err|].
  apply np_bind; [apply IH|]. intros a. apply np_ok.
Qed.

(* a boolean test, so that for a concrete width table the proof is eq_refl *)
Definition nonneg_ws (ws : list Z) : Prop := forallb (Z.leb 0) ws = true.
Definition in_range (ws vs : list Z) : Prop := Forall2 (fun w v => 0 <= w /\ 0 <= v < 256 ^ w) ws vs.
Definition wsum (ws : list Z) : Z := fold_right Z.add 0 ws.

Lemma nonneg_ws_cons w ws : nonneg_ws (w :: ws) -> 0 <= w /\ nonneg_ws ws.
Proof. unfold nonneg_ws. cbn [forallb]. intros [H ?]%andb_true_iff. split; [lia|assumption]. Qed.
Lemma wsum_firstn_nonneg ws : nonneg_ws ws -> forall i, 0 <= wsum (firstn i ws).
Proof.
  induction ws as [|w ws IH]; intros Hn [|i]; cbn [firstn wsum fold_right]; try lia.
  apply nonneg_ws_cons in Hn as [Hw Hn]. specialize (IH Hn i). unfold wsum in IH. lia.
Qed.
Lemma wsum_nonneg ws : nonneg_ws ws -> 0 <= wsum ws.
Proof. intros Hn. rewrite <- (firstn_all ws). now apply wsum_firstn_nonneg. Qed.

Lemma in_range_length ws vs : in_range ws vs -> length vs = length ws.
Proof. intros H. induction H; cbn; [reflexivity|now rewrite IHForall2]. Qed.
Lemma in_range_fld ws vs : in_range ws vs -> forall i, 0 <= fld i vs < 256 ^ nth i ws 0.
Proof.
  unfold fld. induction 1 as [|w v ws' vs' [_ Hv] _ IH]; intros [|i]; cbn [nth]; lia || apply IH.
Qed.
(* a value list of the right length is the list of its fields; for a concrete ws the right-hand side computes to
   [fld 0 vs; fld 1 vs; ...], which is how the proofs below take a struct apart *)
Lemma in_range_eta ws vs : in_range ws vs -> vs = map (fun i => fld i vs) (seq 0 (length ws)).
Proof.
  intros H. rewrite <- (in_range_length _ _ H). clear H. unfold fld. induction vs as [|v vs IH]; [reflexivity|].
  cbn [length seq map nth]. f_equal. now rewrite <- seq_shift, map_map.
Qed.
Lemma in_range_set ws vs i v : in_range ws vs -> 0 <= v < 256 ^ nth i ws 0 -> in_range ws (set_fld i v vs).
Proof.
  intros R. revert i. induction R as [|w x ws' vs' [Hw Hx] R' IH]; intros [|i] Hv; cbn [set_fld nth] in *; constructor; auto. now apply IH.
Qed.
Lemma fld_set_same i v vs : (i < length vs)%nat -> fld i (set_fld i v vs) = v.
Proof. unfold fld. revert i. induction vs as [|x vs IH]; intros [|i] H; cbn [length] in H; try lia; cbn [set_fld nth]; [reflexivity|]. apply IH. lia. Qed.
Lemma fld_set_other i j v vs : i <> j -> fld j (set_fld i v vs) = fld j vs.
Proof.
  unfold fld. revert i j. induction vs as [|x vs IH]; intros [|i] [|j] H; cbn [set_fld nth]; try reflexivity; try congruence.
  apply IH. congruence.
Qed.
Lemma set_fld_same i vs : set_fld i (fld i vs) vs = vs.
Proof. unfold fld. revert i. induction vs as [|x vs IH]; intros [|i]; cbn [set_fld nth]; [reflexivity..|]. now rewrite IH. Qed.

Lemma le_enc_zlen' w v : 0 <= w -> zlen (le_enc (Z.to_nat w) v) = w.
Proof. intros H. rewrite le_enc_zlen. lia. Qed.

Lemma dec_enc_struct ws : forall vs r, in_range ws vs -> dec_struct ws (enc_struct ws vs ++ r) = vs.
Proof.
  induction ws as [|w ws IH]; intros vs r H; inversion H as [|? v ? vs' [Hw Hv] Hr]; subst; cbn [enc_struct dec_struct]; [reflexivity|].
  rewrite <- app_assoc.
  rewrite ztake_app_len by (apply le_enc_zlen'; lia).
  rewrite zdrop_app_len by (apply le_enc_zlen'; lia).
  rewrite le_dec_enc by (rewrite Z2Nat.id by lia; lia). f_equal. now apply IH.
Qed.
Lemma dec_enc_struct0 ws vs : in_range ws vs -> dec_struct ws (enc_struct ws vs) = vs.
Proof. intros H. rewrite <- (app_nil_r (enc_struct ws vs)). now apply dec_enc_struct. Qed.
Lemma enc_struct_zlen ws : forall vs, in_range ws vs -> zlen (enc_struct ws vs) = wsum ws.
Proof.
  induction ws as [|w ws IH]; intros vs H; inversion H as [|? v ? vs' [Hw Hv] Hr]; subst; cbn [enc_struct wsum fold_right]; [reflexivity|].
  rewrite zlen_app, le_enc_zlen' by lia. fold (wsum ws). now rewrite IH.
Qed.
Lemma enc_struct_bytes ws : forall vs, all_bytes (enc_struct ws vs) = true.
Proof.
  induction ws as [|w ws IH]; intros [|v vs]; cbn [enc_struct]; try reflexivity.
  now rewrite all_bytes_app, le_enc_bytes, IH.
Qed.
Lemma dec_struct_range ws : forall c, nonneg_ws ws -> all_bytes c = true -> in_range ws (dec_struct ws c).
Proof.
  induction ws as [|w ws IH]; intros c Hn Hb; cbn [dec_struct]; [constructor|].
  apply nonneg_ws_cons in Hn as [Hw Hn]. constructor.
  - split; [exact Hw|]. pose proof (le_dec_range (ztake w c) (all_bytes_ztake w c Hb)) as R.
    pose proof (zlen_nonneg (ztake w c)). pose proof (zlen_ztake_min w c Hw).
    assert (256 ^ zlen (ztake w c) <= 256 ^ w) by (apply Z.pow_le_mono_r; lia). lia.
  - apply IH; [exact Hn|]. now apply all_bytes_zdrop.
Qed.
Lemma enc_dec_struct ws : forall c, nonneg_ws ws -> all_bytes c = true -> zlen c = wsum ws -> enc_struct ws (dec_struct ws c) = c.
Proof.
  induction ws as [|w ws IH]; intros c Hn Hb Hl; cbn [dec_struct enc_struct].
  - symmetry. now apply zlen_0_nil.
  - apply nonneg_ws_cons in Hn as [Hw Hn]. cbn [wsum fold_right] in Hl. fold (wsum ws) in Hl. pose proof (wsum_nonneg ws Hn).
    assert (Ht : zlen (ztake w c) = w) by (apply zlen_ztake; lia).
    replace (Z.to_nat w) with (length (ztake w c)) by (unfold zlen in Ht; lia).
    rewrite le_enc_dec by now apply all_bytes_ztake.
    rewrite IH; [apply ztake_zdrop|exact Hn|now apply all_bytes_zdrop|rewrite zlen_zdrop by lia; lia].
Qed.

(* field i of a decoded struct is the little-endian integer at the field's offset *)
Lemma fld_dec ws : forall i c, nonneg_ws ws ->
  fld i (dec_struct ws c) = le_dec (zslice (wsum (firstn i ws)) (wsum (firstn i ws) + nth i ws 0) c).
Proof.
  induction ws as [|w ws IH]; intros i c Hn; [now destruct i|].
  apply nonneg_ws_cons in Hn as [Hw Hn]. destruct i as [|i]; cbn [dec_struct fld nth firstn wsum fold_right].
  - unfold zslice. rewrite zdrop_0. do 2 f_equal. lia.
  - fold (wsum (firstn i ws)). unfold fld in IH. rewrite IH by exact Hn.
    pose proof (wsum_firstn_nonneg ws Hn i). rewrite zslice_zdrop by lia. do 2 f_equal. lia.
Qed.
(* ... hence a field of a struct that lies somewhere in a file, read at its absolute offset *)
Lemma struct_read_at ws pre vs rest i a b : nonneg_ws ws -> in_range ws vs ->
  a = zlen pre + wsum (firstn i ws) -> b = a + nth i ws 0 ->
  le_dec (zslice a b (pre ++ enc_struct ws vs ++ rest)) = fld i vs.
Proof.
  intros Hn Hr -> ->. pose proof (wsum_firstn_nonneg ws Hn i).
  transitivity (fld i (dec_struct ws (enc_struct ws vs ++ rest))); [|now rewrite dec_enc_struct].
  rewrite fld_dec, zslice_app_r by (assumption || lia). do 2 f_equal; lia.
Qed.

Lemma take_n_inv n s x : take_n n s = Ok x -> n <= zlen s /\ x = (ztake n s, zdrop n s).
Proof. unfold take_n. destruct (zlen s <? n) eqn:E; [discriminate|]. intros [= <-]. split; [lia|reflexivity]. Qed.
Lemma take_n_app n a r : zlen a = n -> take_n n (a ++ r) = Ok (a, r).
Proof.
  intros H. unfold take_n. rewrite zlen_app. pose proof (zlen_nonneg r).
  destruct (zlen a + zlen r <? n) eqn:E; [lia|]. now rewrite ztake_app_len, zdrop_app_len.
Qed.
Lemma take_n_err n s e : take_n n s = Err e -> zlen s < n.
Proof. unfold take_n. destruct (zlen s <? n) eqn:E; [lia|discriminate]. Qed.
(* binary.Read of a struct: the bytes read are the encoding of the values decoded from them *)
Lemma take_struct ws s b r : nonneg_ws ws -> all_bytes s = true -> take_n (wsum ws) s = Ok (b, r) ->
  in_range ws (dec_struct ws b) /\ s = enc_struct ws (dec_struct ws b) ++ r /\ all_bytes r = true.
Proof.
  intros Hn Hb [L [= -> ->]]%take_n_inv. pose proof (wsum_nonneg ws Hn). pose proof (all_bytes_ztake (wsum ws) s Hb).
  split; [now apply dec_struct_range|]. split; [|now apply all_bytes_zdrop].
  rewrite enc_dec_struct; [symmetry; apply ztake_zdrop|assumption..|apply zlen_ztake; lia].
Qed.

Lemma wrap32_small x : 0 <= x < 2 ^ 32 -> fc_wrap32 x = x.
Proof. intros H. unfold fc_wrap32. apply Z.mod_small. lia. Qed.
Lemma wrap32_range x : 0 <= fc_wrap32 x < 2 ^ 32.
Proof. unfold fc_wrap32. pose proof (Z.mod_pos_bound x 4294967296). lia. Qed.

Lemma replace1_mid (X Y Y' Z : bytes) a n : zlen X = a -> zlen Y = n ->
  C12.Model.replace1 a n Y' (X ++ Y ++ Z) = X ++ Y' ++ Z.
Proof.
  intros Ha Hn. unfold C12.Model.replace1. rewrite ztake_app_len by exact Ha. do 2 f_equal.
  rewrite app_assoc. apply zdrop_app_len. rewrite zlen_app. lia.
Qed.
Lemma replace1_end (X Y Y' : bytes) a n : zlen X = a -> zlen Y = n -> C12.Model.replace1 a n Y' (X ++ Y) = X ++ Y'.
Proof. intros Ha Hn. rewrite <- (app_nil_r Y), (replace1_mid X Y Y' [] a n Ha Hn). now rewrite app_nil_r. Qed.
Lemma replace1_start (Y Y' Z : bytes) n : zlen Y = n -> C12.Model.replace1 0 n Y' (Y ++ Z) = Y' ++ Z.
Proof. exact (replace1_mid [] Y Y' Z 0 n eq_refl). Qed.
(* PatchSet.Add call by call, Dump's sort, then the write-then-rename application: for calls that come in file order and do
   not overlap this is the splice of the calls *)
Lemma rewrite_calls cs f : C12.Model.asc_disjoint 0 (map C12.Model.call_patch cs) (zlen f) = true ->
  C12.Model.rewrite (C12.Model.isort (C12.Model.add_all cs)) f = Ok (C12.Model.splice (map C12.Model.call_patch cs) f).
Proof.
  intros H. destruct (C12.Proofs.add_fileorder_sound cs f H) as [A S].
  rewrite (C12.Proofs.isort_id _ (C12.Proofs.asc_nondecreasing _ _ _ A)), (C12.Proofs.rewrite_sorted _ _ A). now rewrite S.
Qed.
