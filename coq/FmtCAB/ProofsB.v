(* FmtCAB/ProofsB.v — CAB: signing.  A cabinet of the domain is cab_write p for a parse result p (cab_dom; FmtCAB/Proofs.v);
   signing it gives cab_write (cab_signed_p p b), again in the domain (cab_step).  Everything else — the laws, the specification
   reader's view, the digest input, the protected bytes — is computed on these two closed forms, through dom_hashin, dom_extract
   and dom_payload. *)
From Relic Require Import Base.Prelude Base.Enc Base.Slice Generated.FmtCAB_gen FmtCAB.Model FmtCAB.Lib FmtCAB.Proofs Laws.Pipeline.
From Relic Require C12.Model.

Lemma pad8_bounds b : zlen b <= zlen (cab_pad8 b) < zlen b + 8 /\ zlen (cab_pad8 b) mod 8 = 0.
Proof.
  pose proof (zlen_nonneg b). unfold cab_pad8, cab_padded_len. rewrite Z.quot_div_nonneg, zlen_app, zlen_repeat by lia. lia.
Qed.
Lemma pad8_aligned b : zlen b mod 8 = 0 -> cab_pad8 b = b.
Proof.
  intros H. pose proof (zlen_nonneg b). unfold cab_pad8, cab_padded_len. rewrite Z.quot_div_nonneg by lia.
  replace ((zlen b + 7) / 8 * 8 - zlen b) with 0 by lia. apply app_nil_r.
Qed.
Lemma pad8_bytes b : all_bytes b = true -> all_bytes (cab_pad8 b) = true.
Proof. intros H. unfold cab_pad8. now rewrite all_bytes_app, H, all_bytes_repeat. Qed.
Lemma blob_wf_inv b : blob_wf b = true -> all_bytes b = true /\ 0 < zlen b /\ zlen (cab_pad8 b) < 2 ^ 32.
Proof.
  unfold blob_wf. intros H. repeat (apply andb_true_iff in H as [H ?]). pose proof (pad8_bounds b). repeat split; [assumption|lia|lia].
Qed.

Definition p_O (p : cabp) : Z := fld cabh_ix_OffsetFiles (c_hv p).
Definition p_T (p : cabp) : Z := fld cabh_ix_TotalSize (c_hv p).
Definition p_hd (p : cabp) : bytes := enc_struct cabh_widths (c_hv p) ++ res_bytes (c_res p) ++ enc_folders (c_folders p).
Lemma cab_write_hd p : cab_write p = p_hd p ++ c_data p ++ c_sig p.
Proof. unfold cab_write, p_hd. now rewrite <- !app_assoc. Qed.

Lemma zlen_res_bytes hv res : res_ok hv res ->
  zlen (res_bytes res) = match res with Some (_, _, pad) => 24 + pad | None => 0 end.
Proof.
  destruct res as [[[rv sv] pad]|]; cbn [res_ok res_bytes]; [|reflexivity]. intros (_ & -> & Hp & Rs & _).
  rewrite !zlen_app, zlen_enc_rh, zlen_enc_sh, zlen_repeat by (assumption || now apply rv_range). lia.
Qed.
Lemma zlen_p_hd p : cabp_ok p -> zlen (p_hd p) = cab_P p.
Proof.
  intros [Rh _ Hr Rf _ _ _ _]. unfold p_hd, cab_P. rewrite !zlen_app, zlen_enc_h, (zlen_res_bytes _ _ Hr), enc_folders_zlen by assumption.
  unfold cabh_size, cabrh_size, cabsh_size, cabfh_size. destruct (c_res p) as [[[rv sv] pad]|]; lia.
Qed.

(* what cabp_ok says about the sizes and offsets, in the shape lia uses *)
Record ok_nums (p : cabp) : Prop := mkOkNums {
  on_hd : zlen (p_hd p) = p_O p;
  on_OT : 0 <= p_O p <= p_T p;
  on_T32 : p_T p < 2 ^ 32;
  on_data : zlen (c_data p) = p_T p - p_O p;
  on_len : zlen (cab_write p) = p_T p + zlen (c_sig p);
  on_Od : p_O p + cab_add_offset p = 60 + 8 * zlen (c_folders p) }.
Lemma ok_nums_of p : cabp_ok p -> ok_nums p.
Proof.
  intros Hok. pose proof (zlen_p_hd p Hok) as LP. destruct Hok as [Rh _ Hr _ _ Hd _ [HlP HlT]].
  destruct (hv_fields_range _ Rh) as (RT & RO & _ & _). fold (p_O p) in *. fold (p_T p) in *.
  assert (ND : zlen (c_data p) = p_T p - p_O p) by (rewrite Hd; apply wrap32_small; lia).
  constructor; try lia.
  - rewrite cab_write_hd, !zlen_app. lia.
  - pose proof (zlen_nonneg (c_folders p)).
    unfold cab_add_offset, cab_P, cabh_size, cabrh_size, cabsh_size, cabfh_size, cab_offset_remove_padding, cab_offset_add_reserve, cab_padding_present in *.
    destruct (c_res p) as [[[rv sv] pad]|]; [destruct (pad >? 0) eqn:Ep|]; try lia.
    cbn [res_ok] in Hr. lia.
Qed.
(* ... and cabp_wf: the 32-bit headroom for the header grown to the signed layout *)
Record wf_nums (p : cabp) : Prop := mkNums {
  wn_ok : ok_nums p;
  wn_T : 0 <= p_T p + cab_add_offset p < 2 ^ 32;
  wn_fold : Forall (fun fv => 0 <= fld cabfh_ix_Offset fv + cab_add_offset p < 2 ^ 32) (c_folders p) }.
Lemma wf_nums_of p : cabp_ok p -> cabp_wf p = true -> wf_nums p.
Proof.
  intros Hok Hwf. pose proof (ok_nums_of p Hok) as N. pose proof (on_OT _ N). pose proof (on_Od _ N).
  unfold cabp_wf in Hwf. apply andb_true_iff in Hwf as [HT HF]. fold (p_T p) in HT. pose proof (zlen_nonneg (c_folders p)).
  constructor; [exact N|lia|].
  rewrite forallb_forall in HF. apply Forall_forall. intros fv Hin. specialize (HF fv Hin). lia.
Qed.

Lemma out_hv_range p : cabp_ok p -> in_range cabh_widths (cab_out_hv p).
Proof.
  intros Hok. pose proof (flags_of_res _ _ (ok_res _ Hok)) as Hf. unfold cab_out_hv, cab_out_header_is_copy, cab_add32.
  repeat apply in_range_set; [exact (ok_hv _ Hok)|apply wrap32_range..|]. destruct Hf as [-> | ->]; cbn; lia.
Qed.
(* ... field by field: cbCabinet and coffFiles moved, RESERVE_PRESENT set *)
Lemma out_hv_eq p : cabp_ok p -> cabp_wf p = true ->
  cab_out_hv p = [fld 0 (c_hv p); fld 1 (c_hv p); p_T p + cab_add_offset p; fld 3 (c_hv p); p_O p + cab_add_offset p; fld 5 (c_hv p);
                  fld 6 (c_hv p); fld 7 (c_hv p); fld 8 (c_hv p); 4; fld 10 (c_hv p); fld 11 (c_hv p)].
Proof.
  intros Hok Hwf. destruct (wf_nums_of p Hok Hwf) as [[_ NOT _ _ _ NOd] NT _]. pose proof (zlen_nonneg (c_folders p)).
  assert (Hf : Z.lor (fld cabh_ix_Flags (c_hv p)) 4 = 4) by (destruct (flags_of_res _ _ (ok_res _ Hok)) as [-> | ->]; reflexivity).
  unfold cab_out_hv, cab_out_header_is_copy, cab_out_flags, cab_add32. rewrite Hf. fold (p_T p) (p_O p). rewrite !wrap32_small by lia.
  unfold p_T, p_O. rewrite (in_range_eta _ _ (ok_hv _ Hok)). reflexivity.
Qed.
Lemma out_sv_eq p : cab_out_sv p =
  match c_res p with
  | Some (_, sv, pad) => if cab_padding_present pad then [1048576; fld cabh_ix_TotalSize (cab_out_hv p); 0; 0; 0]
                         else [fld 0 sv; fld cabh_ix_TotalSize (cab_out_hv p); 0; fld 3 sv; fld 4 sv]
  | None => [1048576; fld cabh_ix_TotalSize (cab_out_hv p); 0; 0; 0]
  end.
Proof.
  unfold cab_out_sv, cab_has_sig, res_has_sig, res_sv. destruct (c_res p) as [[[rv sv] pad]|]; [|reflexivity].
  destruct (cab_padding_present pad); reflexivity.
Qed.
Lemma out_sv_u3 p : fld cabsh_ix_Unknown3 (cab_out_sv p) = if cab_has_sig p then fld cabsh_ix_Unknown3 (res_sv (c_res p)) else 0.
Proof.
  rewrite out_sv_eq. unfold cab_has_sig, res_has_sig, res_sv. destruct (c_res p) as [[[rv sv] pad]|]; [|reflexivity].
  destruct (cab_padding_present pad); reflexivity.
Qed.
Lemma out_sv_range p : cabp_ok p -> in_range cabsh_widths (cab_out_sv p) /\
  fld cabsh_ix_CabinetSize (cab_out_sv p) = fld cabh_ix_TotalSize (cab_out_hv p).
Proof.
  intros Hok. pose proof (in_range_fld _ _ (out_hv_range p Hok) cabh_ix_TotalSize) as RT. cbn [nth cabh_widths cabh_ix_TotalSize] in RT.
  pose proof (ok_res _ Hok) as Hr. rewrite out_sv_eq.
  destruct (c_res p) as [[[rv sv] pad]|]; [destruct (cab_padding_present pad)|]; (split; [|reflexivity]); repeat constructor; try lia.
  all: destruct Hr as (_ & _ & _ & Rs & _); apply (in_range_fld _ _ Rs).
Qed.

Lemma out_folders_range p : cabp_ok p -> Forall (in_range cabfh_widths) (cab_out_folders p).
Proof.
  intros Hok. unfold cab_out_folders. apply Forall_map. eapply Forall_impl; [|exact (ok_folders _ Hok)]. intros fv R.
  apply in_range_set; [exact R|]. apply wrap32_range.
Qed.
(* nothing moves when the header does not grow *)
Lemma out_folders_fix p : cab_add_offset p = 0 -> Forall (in_range cabfh_widths) (c_folders p) -> cab_out_folders p = c_folders p.
Proof.
  intros Ed Rf. unfold cab_out_folders. rewrite <- (map_id (c_folders p)) at 2. apply map_ext_in. intros fv Hin.
  rewrite Forall_forall in Rf. unfold cab_add32. rewrite Ed, Z.add_0_r, wrap32_small by apply (in_range_fld _ _ (Rf fv Hin)).
  apply set_fld_same.
Qed.

(* the parse result of the signed file *)
Definition cab_signed_sv (p : cabp) (b : bytes) : list Z := set_fld cabsh_ix_SignatureSize (zlen (cab_pad8 b)) (cab_out_sv p).
Definition cab_signed_p (p : cabp) (b : bytes) : cabp :=
  mkCabp (cab_out_hv p) (Some ([20; 0; 0], cab_signed_sv p b, 0)) (cab_out_folders p) (c_data p) (cab_pad8 b).

(* MakePatch writes the padded length over the SignatureSize field of the header area Digest prepared *)
Lemma new_header_eq p b : cabp_ok p -> zlen (cab_pad8 b) < 2 ^ 32 ->
  cab_new_header p b = enc_struct cabh_widths (cab_out_hv p) ++ enc_struct cabrh_widths [20; 0; 0]
                       ++ enc_struct cabsh_widths (cab_signed_sv p b) ++ enc_folders (cab_out_folders p).
Proof.
  intros Hok Hl. pose proof (zlen_nonneg (cab_pad8 b)) as H0. destruct (out_sv_range p Hok) as (Rs & _).
  unfold cab_new_header, cab_patched, cab_signed_sv, cab_sigsize_patch_offset, cab_sigsize_patch_value.
  rewrite wrap32_small by lia. change cab_out_rv with [20; 0; 0].
  pose proof (zlen_enc_h _ (out_hv_range p Hok)) as Lh. set (EH := enc_struct cabh_widths (cab_out_hv p)) in *.
  assert (Lr : zlen (enc_struct cabrh_widths [20; 0; 0]) = 4) by reflexivity. set (ER := enc_struct cabrh_widths [20; 0; 0]) in *.
  rewrite (in_range_eta _ _ Rs). cbn [length cabsh_widths seq map set_fld cabsh_ix_SignatureSize enc_struct]. change (Z.to_nat 4) with 4%nat.
  rewrite !app_nil_r, <- !app_assoc.
  rewrite 2!(app_assoc EH), 2!(app_assoc (_ ++ _)).
  etransitivity; [apply (replace1_mid _ (le_enc 4 _) _ _ 48 4); [|apply le_enc_zlen]|now rewrite <- !app_assoc].
  rewrite !zlen_app, Lh, Lr, !le_enc_zlen. reflexivity.
Qed.

(* signing a cabinet of the domain: the two patches (header area, signature area) applied *)
Lemma cab_embed_closed p b : cabp_ok p -> blob_wf b = true ->
  cab_embed (cab_write p) b = Ok (cab_write (cab_signed_p p b)).
Proof.
  intros Hok Hb. destruct (blob_wf_inv b Hb) as (_ & _ & Hl). destruct (ok_nums_of p Hok) as [NP NOT _ ND _ _].
  unfold cab_embed. rewrite cab_parse_complete by exact Hok. cbn [bind].
  assert (Eos : cab_old_sig_size p = zlen (c_sig p)).
  { pose proof (ok_sig _ Hok) as Hs. unfold cab_old_sig_size, cab_sig_size. destruct (cab_has_sig p); cbn [negb]; [now symmetry|now rewrite Hs]. }
  unfold cab_patchset. rewrite Eos.
  unfold cab_patch1_off, cab_patch1_old, cab_patch2_off, cab_patch2_old. fold (p_O p) (p_T p).
  rewrite cab_write_hd. pose proof (zlen_nonneg (c_sig p)) as Hs0.
  rewrite (rewrite_calls [C12.Model.mkCall 0 (p_O p) (cab_new_header p b); C12.Model.mkCall (p_T p) (zlen (c_sig p)) (cab_pad8 b)]).
  2:{ cbn [map C12.Model.call_patch C12.Model.asc_disjoint C12.Model.c_off C12.Model.c_old C12.Model.c_blob C12.Model.p_off C12.Model.p_old].
      rewrite !zlen_app. lia. }
  f_equal. cbn [map C12.Model.call_patch C12.Model.splice fold_right C12.Model.c_off C12.Model.c_old C12.Model.c_blob C12.Model.p_off C12.Model.p_old C12.Model.p_blob].
  rewrite app_assoc, (replace1_end _ (c_sig p)), <- app_assoc, replace1_start by (rewrite ?zlen_app; lia).
  rewrite new_header_eq by assumption. unfold cab_write, cab_signed_p. cbn [c_hv c_res c_folders c_data c_sig res_bytes].
  cbn [Z.to_nat repeat]. now rewrite app_nil_r, <- !app_assoc.
Qed.

Lemma set_fld_len i v vs : length (set_fld i v vs) = length vs.
Proof. revert i. induction vs as [|x vs IH]; intros [|i]; cbn [set_fld length]; auto. Qed.

Lemma signed_sv_facts p b : cabp_ok p -> zlen (cab_pad8 b) < 2 ^ 32 ->
  in_range cabsh_widths (cab_signed_sv p b) /\
  fld cabsh_ix_CabinetSize (cab_signed_sv p b) = fld cabh_ix_TotalSize (cab_out_hv p) /\
  fld cabsh_ix_SignatureSize (cab_signed_sv p b) = zlen (cab_pad8 b) /\
  fld cabsh_ix_Unknown3 (cab_signed_sv p b) = fld cabsh_ix_Unknown3 (cab_out_sv p).
Proof.
  intros Hok Hl. destruct (out_sv_range p Hok) as (Rs & Ec). pose proof (zlen_nonneg (cab_pad8 b)).
  unfold cab_signed_sv. repeat split.
  - apply in_range_set; [exact Rs|]. cbn [nth cabsh_widths cabsh_ix_SignatureSize]. lia.
  - rewrite fld_set_other by discriminate. exact Ec.
  - apply fld_set_same. rewrite (in_range_length _ _ Rs). cbv. lia.
  - now apply fld_set_other.
Qed.

Lemma signed_ok p b : cabp_ok p -> cabp_wf p = true -> blob_wf b = true ->
  cabp_ok (cab_signed_p p b) /\ cabp_wf (cab_signed_p p b) = true.
Proof.
  intros Hok Hwf Hb. destruct (blob_wf_inv b Hb) as (_ & Hb0 & Hl).
  pose proof (out_hv_range p Hok) as Ro. pose proof (out_hv_eq p Hok Hwf) as Eo. pose proof (out_folders_range p Hok) as Rf'.
  destruct (signed_sv_facts p b Hok Hl) as (Rss & Ecs & Ess & _).
  destruct (wf_nums_of p Hok Hwf) as [[NP NOT NT32 ND _ NOd] NT NF].
  pose proof (zlen_nonneg (c_folders p)) as Hn0. pose proof (ok_nfolders _ Hok) as Hn.
  assert (Ln : zlen (cab_out_folders p) = zlen (c_folders p)) by apply zlen_map.
  split.
  - constructor; cbn [cab_signed_p c_hv c_res c_folders c_data c_sig]; try assumption.
    + rewrite Eo. exact (ok_magic _ Hok).
    + cbn [res_ok]. rewrite Eo at 1. repeat split; try lia; assumption.
    + rewrite Ln, Eo. exact Hn.
    + rewrite Eo. cbn [fld nth cabh_ix_TotalSize cabh_ix_OffsetFiles]. rewrite wrap32_small by lia. lia.
    + now symmetry.
    + unfold cab_P. cbn [cab_signed_p c_res c_folders]. rewrite Ln, Eo.
      cbn [fld nth cabh_ix_TotalSize cabh_ix_OffsetFiles]. unfold cabh_size, cabrh_size, cabsh_size, cabfh_size. lia.
  - unfold cabp_wf. cbn [cab_signed_p c_hv c_res c_folders]. change (cab_add_offset (cab_signed_p p b)) with 0.
    rewrite Eo. cbn [fld nth cabh_ix_TotalSize].
    replace (p_T p + cab_add_offset p + 0 <? 2 ^ 32) with true by lia. cbn [andb].
    apply forallb_forall. intros fv' Hin. rewrite Forall_forall in Rf'.
    pose proof (in_range_fld _ _ (Rf' fv' Hin) cabfh_ix_Offset) as R0. cbn [nth cabfh_widths cabfh_ix_Offset] in R0. lia.
Qed.

(* Digest, run on the signed cabinet, sets each header field and folder offset to the value it has *)
Lemma signed_out_hv p b : cabp_ok p -> cabp_wf p = true -> cab_out_hv (cab_signed_p p b) = cab_out_hv p.
Proof.
  intros Hok Hwf. pose proof (out_hv_range p Hok) as Ro.
  unfold cab_out_hv at 1, cab_out_header_is_copy, cab_add32, cab_out_flags. cbn [cab_signed_p c_hv]. change (cab_add_offset (cab_signed_p p b)) with 0.
  rewrite !Z.add_0_r, !wrap32_small by apply (in_range_fld _ _ Ro).
  replace (Z.lor (fld cabh_ix_Flags (cab_out_hv p)) 4) with (fld cabh_ix_Flags (cab_out_hv p)) by now rewrite out_hv_eq.
  now rewrite !set_fld_same.
Qed.
Lemma signed_out_folders p b : cabp_ok p -> cab_out_folders (cab_signed_p p b) = cab_out_folders p.
Proof. intros Hok. exact (out_folders_fix (cab_signed_p p b) eq_refl (out_folders_range p Hok)). Qed.
Lemma sigblob_map hv sv : map (sigblob_field hv sv) cab_sigblob_src =
  [fld 0 hv; fld 2 hv; fld 3 hv; fld 4 hv; fld 5 hv; fld 6 hv; fld 7 hv; fld 8 hv; fld 9 hv; fld 10 hv; fld 4 sv].
Proof. reflexivity. Qed.
Lemma signed_pre p b : cabp_ok p -> cabp_wf p = true -> zlen (cab_pad8 b) < 2 ^ 32 ->
  cab_pre (cab_signed_p p b) = cab_pre p.
Proof.
  intros Hok Hwf Hl. destruct (signed_sv_facts p b Hok Hl) as (_ & _ & _ & E3).
  unfold cab_pre, cab_sigblob. rewrite signed_out_hv, signed_out_folders, !sigblob_map by assumption.
  (* of the signature header only Unknown3 is digested, and Digest preserves it *)
  rewrite (out_sv_eq (cab_signed_p p b)). cbn [cab_signed_p c_res]. change (cab_padding_present 0) with false. cbv iota.
  unfold cabsh_ix_Unknown3 in E3. cbn [fld nth]. now rewrite E3.
Qed.

(* what the specification's reader returns on cab_write p *)
Definition view_of (p : cabp) : cabview :=
  let hv := c_hv p in
  mkView [fld 1 hv; fld 3 hv; fld 5 hv; fld 6 hv; fld 7 hv; fld 8 hv; Z.ldiff (fld 9 hv) 4; fld 10 hv; fld 11 hv]
         (map (fun fv => (fld 0 fv - p_O p, fld 1 fv, fld 2 fv)) (c_folders p)) (c_data p).

(* binary.Read of the header decodes the integers the specification reads at the offsets of [MS-CAB] *)
Lemma cabh_reads f : dec_struct cabh_widths f =
  [u32at 0 f; u32at 4 f; u32at 8 f; u32at 12 f; u32at 16 f; u32at 20 f; u16at 24 f; u16at 26 f; u16at 28 f; u16at 30 f; u16at 32 f; u16at 34 f].
Proof. unfold u32at, u16at, zslice. cbn [dec_struct cabh_widths]. rewrite !zdrop_zdrop by lia. reflexivity. Qed.
Lemma hv_reads p f : cabp_ok p -> f = cab_write p ->
  c_hv p = [u32at 0 f; u32at 4 f; u32at 8 f; u32at 12 f; u32at 16 f; u32at 20 f; u16at 24 f; u16at 26 f; u16at 28 f; u16at 30 f; u16at 32 f; u16at 34 f].
Proof. intros Hok ->. rewrite <- cabh_reads. unfold cab_write. now rewrite dec_enc_struct by apply Hok. Qed.
Lemma write_reads p : cabp_ok p ->
  u32at 0 (cab_write p) = cab_Magic /\ u32at 8 (cab_write p) = p_T p /\ u32at 16 (cab_write p) = p_O p /\
  u16at 26 (cab_write p) = zlen (c_folders p) /\ u16at 30 (cab_write p) = fld cabh_ix_Flags (c_hv p).
Proof.
  intros Hok. unfold p_T, p_O. rewrite (ok_nfolders _ Hok), <- (ok_magic _ Hok), (hv_reads p _ Hok eq_refl).
  repeat apply conj; reflexivity.
Qed.

Lemma spec_folders_read fs : forall pre rest, Forall (in_range cabfh_widths) fs ->
  spec_folders (length fs) (zlen pre) 8 (pre ++ enc_folders fs ++ rest) = map (fun fv => (fld 0 fv, fld 1 fv, fld 2 fv)) fs.
Proof.
  induction fs as [|fv fs IH]; intros pre rest F; [reflexivity|].
  inversion F as [|? ? Rfv F']; subst. rewrite enc_folders_cons, <- app_assoc. cbn [length spec_folders map]. f_equal.
  - unfold u32at, u16at. f_equal; [f_equal|].
    + apply (struct_read_at cabfh_widths pre fv _ 0); [reflexivity|exact Rfv|cbn; lia|cbn; lia].
    + apply (struct_read_at cabfh_widths pre fv _ 1); [reflexivity|exact Rfv|cbn; lia|cbn; lia].
    + apply (struct_read_at cabfh_widths pre fv _ 2); [reflexivity|exact Rfv|cbn; lia|cbn; lia].
  - replace (zlen pre + 8) with (zlen (pre ++ enc_struct cabfh_widths fv)) by (rewrite zlen_app, zlen_enc_fh by exact Rfv; lia).
    rewrite app_assoc. now apply IH.
Qed.

Lemma res_reads p rv sv pad : cabp_ok p -> c_res p = Some (rv, sv, pad) -> let f := cab_write p in
  u16at 36 f = fld 0 rv /\ u8at 38 f = fld 1 rv /\ u32at 48 f = fld cabsh_ix_SignatureSize sv /\ u32at 56 f = fld cabsh_ix_Unknown3 sv.
Proof.
  intros Hok Er f. pose proof (ok_res _ Hok) as Hr. rewrite Er in Hr. destruct Hr as (_ & Erv & Hp & Rs & _).
  pose proof (rv_range pad Hp) as Rr. rewrite <- Erv in Rr. clear Erv.
  pose proof (zlen_enc_h _ (ok_hv _ Hok)) as Lh. pose proof (zlen_enc_rh _ Rr) as Lr.
  unfold f, cab_write. rewrite Er. cbn [res_bytes]. rewrite <- !app_assoc. unfold u16at, u8at, u32at. repeat split.
  - apply (struct_read_at cabrh_widths _ rv _ 0); [reflexivity|assumption|rewrite Lh; reflexivity|reflexivity].
  - apply (struct_read_at cabrh_widths _ rv _ 1); [reflexivity|assumption|rewrite Lh; reflexivity|reflexivity].
  - rewrite app_assoc. apply (struct_read_at cabsh_widths _ sv _ cabsh_ix_SignatureSize); [reflexivity|assumption|rewrite zlen_app, Lh, Lr; reflexivity|reflexivity].
  - rewrite app_assoc. apply (struct_read_at cabsh_widths _ sv _ cabsh_ix_Unknown3); [reflexivity|assumption|rewrite zlen_app, Lh, Lr; reflexivity|reflexivity].
Qed.

Lemma spec_view_write p : cabp_ok p -> cab_spec_view (cab_write p) = Ok (view_of p).
Proof.
  intros Hok. destruct (ok_nums_of p Hok) as [NP NOT _ ND Lf _]. destruct (write_reads p Hok) as (E0 & E8 & E16 & E26 & E30).
  pose proof (ok_hv _ Hok) as Rh. pose proof (ok_res _ Hok) as Hr. pose proof (ok_folders _ Hok) as Rf.
  pose proof (zlen_nonneg (c_folders p)) as Hn0. pose proof (zlen_nonneg (c_sig p)) as Hs0.
  set (f := cab_write p) in *.
  (* where the folder table starts, as the specification computes it *)
  set (pre := enc_struct cabh_widths (c_hv p) ++ res_bytes (c_res p)).
  assert (Ef : f = pre ++ enc_folders (c_folders p) ++ (c_data p ++ c_sig p)) by (unfold f, cab_write, pre; now rewrite <- !app_assoc).
  assert (Lpre : zlen pre = p_O p - 8 * zlen (c_folders p)).
  { rewrite <- NP. unfold p_hd. rewrite app_assoc, zlen_app. fold pre. rewrite (enc_folders_zlen _ Rf). lia. }
  assert (Lpre' : zlen pre = 36 + zlen (res_bytes (c_res p))) by (unfold pre; now rewrite zlen_app, zlen_enc_h).
  pose proof (zlen_nonneg (res_bytes (c_res p))) as Hrb0. pose proof (zlen_res_bytes _ _ Hr) as Lrb.
  assert (Ehe : negb (Z.land (u16at 30 f) 3 =? 0) = false /\
                (if negb (Z.land (u16at 30 f) 4 =? 0) then 40 + u16at 36 f else 36) = zlen pre /\
                (if negb (Z.land (u16at 30 f) 4 =? 0) then 8 + u8at 38 f else 8) = 8 /\
                (negb (Z.land (u16at 30 f) 4 =? 0) && (zlen f <? 40)) = false).
  { rewrite E30. destruct (c_res p) as [[[rv sv] pad]|] eqn:Er; cbn [res_ok] in Hr.
    - destruct (res_reads p _ _ _ Hok Er) as (A & B & _). fold f in A, B. destruct Hr as (-> & -> & Hp & _).
      rewrite A, B. change (negb (Z.land 4 4 =? 0)) with true. cbn [fld nth andb]. repeat split; try reflexivity; lia.
    - rewrite Hr. change (negb (Z.land 0 4 =? 0)) with false. cbv iota. repeat split. lia. }
  destruct Ehe as (Ef3 & Ehe & Een & Esh).
  unfold cab_spec_view. fold f. replace (zlen f <? 36) with false by lia.
  rewrite E0, Ef3, Esh, Ehe, Een. unfold cab_Magic. cbn [Z.eqb Pos.eqb negb].
  replace (negb ((zlen pre + u16at 26 f * 8 <=? u32at 16 f) && (u32at 16 f <=? u32at 8 f) && (u32at 8 f <=? zlen f))) with false by lia.
  unfold view_of. rewrite (hv_reads p f Hok eq_refl). cbn [fld nth]. f_equal. f_equal.
  - rewrite E26. replace (Z.to_nat (zlen (c_folders p))) with (length (c_folders p)) by (symmetry; apply Nat2Z.id).
    rewrite Ef at 1. rewrite spec_folders_read by exact Rf. rewrite map_map. apply map_ext. intros fv. now rewrite E16.
  - rewrite E8, E16. unfold f. rewrite cab_write_hd. apply zslice_app_mid; lia.
Qed.

Lemma flags_ldiff p : cabp_ok p -> Z.ldiff (fld 9 (c_hv p)) 4 = 0.
Proof. intros Hok. destruct (flags_of_res _ _ (ok_res _ Hok)) as [H | H]; unfold cabh_ix_Flags in H; now rewrite H. Qed.
(* C03: the specification reader's view is unchanged by signing *)
Lemma view_signed p b : cabp_ok p -> cabp_wf p = true -> view_of (cab_signed_p p b) = view_of p.
Proof.
  intros Hok Hwf. destruct (wf_nums_of p Hok Hwf) as [_ _ NF].
  unfold view_of, p_O. cbn [cab_signed_p c_hv c_folders c_data]. rewrite (out_hv_eq p Hok Hwf). cbn [fld nth cabh_ix_OffsetFiles].
  rewrite (flags_ldiff p Hok). f_equal.
  unfold cab_out_folders. rewrite map_map. apply map_ext_in. intros fv Hin.
  rewrite Forall_forall in NF. specialize (NF fv Hin). pose proof (ok_folders _ Hok) as Rf. rewrite Forall_forall in Rf.
  rewrite fld_set_same by (rewrite (in_range_length _ _ (Rf fv Hin)); cbv; lia).
  rewrite !fld_set_other by discriminate. unfold cab_add32. rewrite wrap32_small by exact NF.
  unfold cabfh_ix_Offset. f_equal. f_equal. fold (p_O p). lia.
Qed.

Lemma layout_reads p : cabp_ok p ->
  cab_spec_signed_layout (cab_write p) = cab_has_sig p /\
  (cab_has_sig p = true -> u32at 56 (cab_write p) = fld cabsh_ix_Unknown3 (res_sv (c_res p)) /\
                           u32at 48 (cab_write p) = fld cabsh_ix_SignatureSize (res_sv (c_res p))).
Proof.
  intros Hok. destruct (ok_nums_of p Hok) as [NP NOT _ _ Lf _]. destruct (write_reads p Hok) as (_ & _ & _ & _ & E30).
  pose proof (ok_res _ Hok) as Hr. pose proof (zlen_p_hd p Hok) as LP.
  pose proof (zlen_nonneg (c_folders p)) as Hn0. pose proof (zlen_nonneg (c_sig p)) as Hs0.
  unfold cab_spec_signed_layout, cab_has_sig. rewrite E30.
  destruct (c_res p) as [[[rv sv] pad]|] eqn:Er; cbn [res_ok res_has_sig res_sv] in *.
  - destruct (res_reads p _ _ _ Hok Er) as (A & _ & C & D). destruct Hr as (Hfl & -> & Hp & _). rewrite Hfl, A. cbn [fld nth].
    unfold cab_P, cabh_size, cabrh_size, cabsh_size, cabfh_size in LP. rewrite Er in LP. unfold cab_padding_present.
    split; [|intros _; split; assumption].
    replace (36 + 24 <=? zlen (cab_write p)) with true by lia. change (negb (Z.land 4 4 =? 0)) with true. cbn [andb]. lia.
  - rewrite Hr. change (negb (Z.land 0 4 =? 0)) with false. rewrite andb_false_r. split; [reflexivity|discriminate].
Qed.

(* C05: relic's digest input is the specification's *)
Lemma spec_hashin_write p : cabp_ok p -> cabp_wf p = true -> cab_spec_hashin (cab_write p) = Ok (cab_pre p).
Proof.
  intros Hok Hwf. destruct (wf_nums_of p Hok Hwf) as [[_ _ _ ND _ NOd] _ NF].
  destruct (layout_reads p Hok) as [EL ER]. pose proof (out_sv_u3 p) as EU.
  pose proof (ok_magic _ Hok) as Hm. pose proof (ok_nfolders _ Hok) as Hn. unfold cabh_ix_Magic, cabh_ix_NumFolders, cab_Magic in *.
  unfold cab_spec_hashin. rewrite spec_view_write by exact Hok. cbn [bind]. f_equal.
  unfold view_of. cbn [v_scalars v_folders v_data nth]. rewrite zlen_map, (flags_ldiff p Hok), EL.
  replace (if cab_has_sig p then u32at 56 (cab_write p) else 0) with (fld cabsh_ix_Unknown3 (cab_out_sv p)).
  2:{ rewrite EU. destruct (cab_has_sig p); [|reflexivity]. symmetry. now apply ER. }
  unfold cab_pre, cab_sigblob. rewrite sigblob_map, (out_hv_eq p Hok Hwf). cbn [fld nth].
  unfold cabsb_widths. cbn [enc_struct]. change (Z.to_nat 4) with 4%nat. change (Z.to_nat 2) with 2%nat.
  unfold le32, le16. rewrite <- !app_assoc. cbn [app]. rewrite Hm, <- Hn. change (Z.lor 0 4) with 4.
  replace (60 + 8 * zlen (c_folders p) + zlen (c_data p)) with (p_T p + cab_add_offset p) by lia.
  replace (60 + 8 * zlen (c_folders p)) with (p_O p + cab_add_offset p) by lia.
  do 11 f_equal. f_equal.
  unfold enc_folders, cab_out_folders. rewrite !map_map. f_equal. apply map_ext_in. intros fv Hin.
  rewrite Forall_forall in NF. specialize (NF fv Hin). pose proof (ok_folders _ Hok) as Rf. rewrite Forall_forall in Rf.
  unfold cab_add32. rewrite wrap32_small by exact NF. rewrite (in_range_eta _ _ (Rf fv Hin)).
  cbn [length cabfh_widths seq map fld nth set_fld cabfh_ix_Offset enc_struct]. change (Z.to_nat 4) with 4%nat. change (Z.to_nat 2) with 2%nat.
  rewrite app_nil_r. do 2 f_equal. lia.
Qed.

Lemma write_bytes p : all_bytes (cab_write p) = all_bytes (c_data p) && all_bytes (c_sig p).
Proof. unfold cab_write. now rewrite !all_bytes_app, enc_struct_bytes, res_bytes_bytes, enc_folders_bytes. Qed.
(* a cabinet of the domain and its parse result *)
Record cab_dom (f : bytes) (p : cabp) : Prop := mkDom {
  cd_bytes : all_bytes f = true;
  cd_parse : cab_parse f = Ok p;
  cd_ok : cabp_ok p;
  cd_wf : cabp_wf p = true;
  cd_write : f = cab_write p }.
Lemma cab_wf_dom f : cab_wf f = true -> exists p, cab_dom f p.
Proof.
  unfold cab_wf. intros [Hb H]%andb_true_iff. destruct (cab_parse f) as [p| |] eqn:E; try discriminate.
  exists p. destruct (cab_parse_sound f p Hb E). now constructor.
Qed.
Lemma cab_dom_wf f p : cab_dom f p -> cab_wf f = true.
Proof. intros D. unfold cab_wf. now rewrite (cd_bytes _ _ D), (cd_parse _ _ D), (cd_wf _ _ D). Qed.
Lemma dom_hashin f p : cab_dom f p -> cab_hashin f = Ok (cab_pre p).
Proof. intros D. unfold cab_hashin. now rewrite (cd_parse _ _ D). Qed.
Lemma dom_extract f p : cab_dom f p -> cab_extract f = Ok (if zlen (c_sig p) =? 0 then None else Some (c_sig p)).
Proof. intros D. unfold cab_extract. now rewrite (cd_parse _ _ D). Qed.
Lemma dom_payload f p : cab_dom f p -> cab_payload f = Ok (view_of p).
Proof. intros D. rewrite (cd_write _ _ D). exact (spec_view_write p (cd_ok _ _ D)). Qed.

(* one signing step: the signed file is in the domain again, with parse result cab_signed_p *)
Lemma cab_step f b g : cab_wf f = true -> blob_wf b = true -> cab_embed f b = Ok g ->
  exists p, cab_dom f p /\ cab_dom g (cab_signed_p p b).
Proof.
  intros Hw Hb He. destruct (cab_wf_dom f Hw) as (p & D). exists p. split; [exact D|]. destruct D as [Hbf _ Hok Hwf ->].
  destruct (signed_ok p b Hok Hwf Hb) as [Hok' Hwf']. destruct (blob_wf_inv b Hb) as (Hbb & _ & _).
  rewrite cab_embed_closed in He by assumption. apply Ok_inj in He. subst g.
  rewrite write_bytes in Hbf. apply andb_true_iff in Hbf as [Hd _].
  constructor; [|now apply cab_parse_complete|assumption..|reflexivity].
  rewrite write_bytes. cbn [cab_signed_p c_data c_sig]. now rewrite Hd, pad8_bytes.
Qed.

(* C01 *)
Theorem cab_embed_defined f b : cab_wf f = true -> blob_wf b = true -> exists g, cab_embed f b = Ok g.
Proof.
  intros Hw Hb. destruct (cab_wf_dom f Hw) as (p & D). rewrite (cd_write _ _ D). eexists. exact (cab_embed_closed p b (cd_ok _ _ D) Hb).
Qed.
Theorem cab_embed_extract f b g : cab_wf f = true -> blob_wf b = true -> cab_embed f b = Ok g ->
  cab_extract g = Ok (Some (cab_pad8 b)).
Proof.
  intros Hw Hb He. destruct (cab_step f b g Hw Hb He) as (p & _ & D'). rewrite (dom_extract _ _ D'). cbn [cab_signed_p c_sig].
  destruct (blob_wf_inv b Hb) as (_ & H0 & _). pose proof (pad8_bounds b). now replace (zlen (cab_pad8 b) =? 0) with false by lia.
Qed.
Theorem cab_embed_hashin f b g : cab_wf f = true -> blob_wf b = true -> cab_embed f b = Ok g -> cab_hashin g = cab_hashin f.
Proof.
  intros Hw Hb He. destruct (cab_step f b g Hw Hb He) as (p & D & D'). rewrite (dom_hashin _ _ D), (dom_hashin _ _ D'). f_equal.
  apply signed_pre; [exact (cd_ok _ _ D)|exact (cd_wf _ _ D)|]. now destruct (blob_wf_inv b Hb) as (_ & _ & ?).
Qed.
(* C08 *)
Theorem cab_embed_keeps_wf f b g : cab_wf f = true -> blob_wf b = true -> cab_embed f b = Ok g -> cab_wf g = true.
Proof. intros Hw Hb He. destruct (cab_step f b g Hw Hb He) as (p & _ & D'). exact (cab_dom_wf _ _ D'). Qed.
(* C03 *)
Theorem cab_embed_payload f b g : cab_wf f = true -> blob_wf b = true -> cab_embed f b = Ok g -> cab_payload g = cab_payload f.
Proof.
  intros Hw Hb He. destruct (cab_step f b g Hw Hb He) as (p & D & D'). rewrite (dom_payload _ _ D), (dom_payload _ _ D'). f_equal.
  exact (view_signed p b (cd_ok _ _ D) (cd_wf _ _ D)).
Qed.
(* C05 *)
Theorem cab_hashin_eq_spec f : cab_wf f = true -> cab_hashin f = cab_spec_hashin f.
Proof.
  intros Hw. destruct (cab_wf_dom f Hw) as (p & D). rewrite (dom_hashin _ _ D), (cd_write _ _ D).
  symmetry. exact (spec_hashin_write p (cd_ok _ _ D) (cd_wf _ _ D)).
Qed.

Lemma has_sig_inv p : cabp_ok p -> cab_has_sig p = true ->
  exists sv, c_res p = Some ([20; 0; 0], sv, 0) /\ in_range cabsh_widths sv /\ cab_add_offset p = 0 /\
    fld cabsh_ix_CabinetSize sv = p_T p /\ fld cabsh_ix_SignatureSize sv = zlen (c_sig p) /\ fld cabh_ix_Flags (c_hv p) = 4.
Proof.
  intros Hok Hs. pose proof (ok_res _ Hok) as Hr. pose proof (ok_sig _ Hok) as Hg. rewrite Hs in Hg.
  unfold cab_has_sig, cab_add_offset in *. destruct (c_res p) as [[[rv sv] pad]|]; cbn [res_has_sig res_ok res_sv] in *; [|discriminate].
  destruct Hr as (Hf & -> & Hp & Rs & Hc). unfold cab_padding_present in *. assert (pad = 0) by lia. subst pad.
  change (0 >? 0) with false in *. cbv iota in Hc. exists sv. repeat split; try assumption. now symmetry.
Qed.

(* the protected bytes of a cabinet in the Authenticode layout are a function of its digest input and its signature area *)
Definition cab_protected_of (pre sig : bytes) : bytes :=
  ztake 30 pre ++ [20; 0; 0; 0] ++ zslice 4 8 pre ++ le_enc 4 (zlen sig) ++ zdrop 30 pre ++ sig.
Lemma protected_write p : cabp_ok p -> cabp_wf p = true -> cab_has_sig p = true ->
  cab_protected (cab_write p) = cab_protected_of (cab_pre p) (c_sig p).
Proof.
  intros Hok Hwf Hs. destruct (has_sig_inv p Hok Hs) as (sv & Er & Rs & Ed & Ec & Ess & Hf).
  pose proof (out_hv_eq p Hok Hwf) as Eo. rewrite Ed, !Z.add_0_r in Eo.
  pose proof (out_folders_fix p Ed (ok_folders _ Hok)) as Efo.
  pose proof (out_sv_u3 p) as EU. rewrite Hs, Er in EU. cbn [res_sv] in EU. unfold cabsh_ix_Unknown3 in EU.
  unfold cab_pre, cab_sigblob, cab_write. rewrite sigblob_map, Eo, Efo, Er, (app_assoc (enc_folders _)). cbn [fld nth res_bytes]. rewrite EU.
  generalize (enc_folders (c_folders p) ++ c_data p). intros FD.
  rewrite (in_range_eta _ _ (ok_hv _ Hok)), (in_range_eta _ _ Rs).
  unfold cabh_ix_Flags, cabsh_ix_CabinetSize, cabsh_ix_SignatureSize in *.
  cbn [length seq map fld nth cabh_widths cabsh_widths]. rewrite Hf, Ec, Ess.
  (* both sides are now sixty explicit bytes in front of FD: cab_protected and cab_protected_of cut at fixed offsets *)
  reflexivity.
Qed.

Theorem cab_protect g1 g2 : cab_wf g1 = true -> cab_wf g2 = true ->
  cab_spec_signed_layout g1 = true -> cab_spec_signed_layout g2 = true ->
  cab_hashin g1 = cab_hashin g2 -> cab_extract g1 = cab_extract g2 -> cab_protected g1 = cab_protected g2.
Proof.
  intros W1 W2 S1 S2 Hh He. destruct (cab_wf_dom g1 W1) as (p1 & D1). destruct (cab_wf_dom g2 W2) as (p2 & D2).
  rewrite (dom_hashin _ _ D1), (dom_hashin _ _ D2) in Hh. apply Ok_inj in Hh.
  rewrite (dom_extract _ _ D1), (dom_extract _ _ D2) in He. apply Ok_inj in He.
  assert (Es : c_sig p1 = c_sig p2).
  { destruct (zlen (c_sig p1) =? 0) eqn:Z1; destruct (zlen (c_sig p2) =? 0) eqn:Z2; try discriminate.
    - rewrite (zlen_0_nil (c_sig p1)), (zlen_0_nil (c_sig p2)) by lia. reflexivity.
    - congruence. }
  destruct D1 as [_ _ Ok1 Wf1 ->]. destruct D2 as [_ _ Ok2 Wf2 ->].
  destruct (layout_reads p1 Ok1) as [L1 _]. destruct (layout_reads p2 Ok2) as [L2 _]. rewrite L1 in S1. rewrite L2 in S2.
  rewrite !protected_write by assumption. now rewrite Hh, Es.
Qed.

(* MakePatch pads the blob itself: handing it the padded blob gives the same file *)
Lemma cab_embed_pad8 f b : cab_embed f (cab_pad8 b) = cab_embed f b.
Proof. unfold cab_embed, cab_patchset, cab_new_header. now rewrite (pad8_aligned (cab_pad8 b)) by apply pad8_bounds. Qed.

Definition cab_format : format cabview := mkFormat cabview cab_hashin cab_embed_wf cab_extract cab_payload.
Lemma cab_embed_wf_inv f b g : cab_embed_wf f b = Ok g ->
  cab_wf f = true /\ blob_wf b = true /\ zlen b mod 8 = 0 /\ cab_embed f b = Ok g.
Proof.
  unfold cab_embed_wf, blob_aligned. destruct (cab_wf f); [|discriminate]. destruct (blob_wf b); [|discriminate].
  destruct (zlen b mod 8 =? 0) eqn:E; [|discriminate]. cbn [andb]. intros H. repeat split; try assumption. lia.
Qed.
Lemma cab_embed_wf_eq f b : cab_wf f = true -> blob_wf b = true -> zlen b mod 8 = 0 -> cab_embed_wf f b = cab_embed f b.
Proof. intros Hw Hb Ha. unfold cab_embed_wf, blob_aligned. rewrite Hw, Hb. now replace (zlen b mod 8 =? 0) with true by lia. Qed.
Theorem cab_format_extract : law_extract cabview cab_format.
Proof.
  unfold law_extract, cab_format. cbn [f_embed f_extract]. intros f b g H. destruct (cab_embed_wf_inv _ _ _ H) as (Hw & Hb & Ha & He).
  rewrite (cab_embed_extract f b g Hw Hb He). now rewrite pad8_aligned.
Qed.
Theorem cab_format_hashin : law_hashin cabview cab_format.
Proof.
  unfold law_hashin, cab_format. cbn [f_embed f_hashin]. intros f b g H. destruct (cab_embed_wf_inv _ _ _ H) as (Hw & Hb & _ & He).
  exact (cab_embed_hashin f b g Hw Hb He).
Qed.
Theorem cab_format_payload : law_payload cabview cab_format.
Proof.
  unfold law_payload, cab_format. cbn [f_embed f_payload]. intros f b g H. destruct (cab_embed_wf_inv _ _ _ H) as (Hw & Hb & _ & He).
  exact (cab_embed_payload f b g Hw Hb He).
Qed.
Theorem cab_wf_preserved f b g : cab_embed_wf f b = Ok g -> cab_wf g = true.
Proof. intros H. destruct (cab_embed_wf_inv _ _ _ H) as (Hw & Hb & _ & He). exact (cab_embed_keeps_wf f b g Hw Hb He). Qed.
Theorem cab_embed_wf_defined f b : cab_wf f = true -> blob_wf b = true -> zlen b mod 8 = 0 -> exists g, cab_embed_wf f b = Ok g.
Proof. intros Hw Hb Ha. rewrite cab_embed_wf_eq by assumption. now apply cab_embed_defined. Qed.

(* a 36-byte cabinet without folders and files *)
Definition w_cab : bytes := enc_struct cabh_widths [1178817357; 0; 36; 0; 36; 0; 259; 0; 0; 0; 4660; 0].
(* C01 (relic commit 6b49488; before it relic signed these and rejected its own output as "trailing garbage"): a header whose
   coffFiles (20) and cbCabinet (24) point into the 36-byte header, and the 36-byte cabinet with coffFiles = cbCabinet = 35
   found by the check *)
Definition w_overlap : bytes := enc_struct cabh_widths [1178817357; 0; 24; 0; 20; 0; 259; 0; 0; 0; 4660; 0] ++ [208; 209; 210; 211].
Definition w_regress : bytes := [77; 83; 67; 70; 132; 59; 133; 197; 35; 0; 0; 0; 92; 158; 213; 58; 35; 0; 0; 0; 114; 170; 143; 40; 3; 1; 0; 0; 0; 0; 0; 0; 155; 53; 1; 0].
(* C02: a signed cabinet, and the same with reserved1, iCabinet and the two unknown words of the signature header changed *)
Definition w_g1 : bytes := match cab_embed w_cab [7; 0; 0; 0; 0; 0; 0; 1] with Ok g => g | _ => [] end.
Fixpoint upd (i : nat) (v : Z) (l : bytes) : bytes :=
  match i, l with O, _ :: r => v :: r | S k, x :: r => x :: upd k v r | _, [] => [] end.
Definition w_g2 : bytes := upd 4 9 (upd 34 8 (upd 40 7 (upd 52 6 w_g1))).
