(* C02/Proofs.v — lemmas for C02/Properties.v.  The error-flow analysis is sound for every program of the statement language and
   every oracle (acheck_sound, errflow_sound).  The functions of the verify command (verifyOne, verifyCmd, loadCerts, the RPM
   glue), run under the oracle built from an environment, do what the SPEC of Model.v says (file_run_spec, cmd_exit_fold,
   load_certs_run, rpm_loop).  The generated signer programs pass the analysis and the option-flow checks; ByMagic and ByFileName
   return a registered module that matches. *)
From Relic Require Import Base.Prelude C02.IR Generated.C02_gen C02.Model.
Local Open Scope nat_scope.

Lemma nth_upd_same {A} (d : A) l i x : nth i (upd d l i x) d = x.
Proof. revert l; induction i as [|i IH]; intros [|h t]; cbn; auto. Qed.
Lemma nth_upd_other {A} (d : A) l i j x : i <> j -> nth j (upd d l i x) d = nth j l d.
Proof.
  revert l j; induction i as [|i IH]; intros [|h t] [|j] H; cbn; try congruence; auto.
  - destruct j; reflexivity.
  - rewrite IH by congruence. destruct j; reflexivity.
Qed.

Lemma nth_nil {A} i (d : A) : nth i [] d = d.
Proof. destruct i; reflexivity. Qed.

Lemma In_opt_list {A} (v : option A) x : In x (opt_list v) <-> v = Some x.
Proof.
  destruct v as [y|]; cbn; [|split; [intros []|discriminate]].
  split; [intros [->|[]]; reflexivity|intros [= ->]; left; reflexivity].
Qed.

(* the abstract state a covers the environment env *)
Definition R (env : list errval) (a : list aval) : Prop := forall v, in_gamma (eget env v) (aget a v).

Lemma R_nil : R [] [].
Proof. intros v. unfold eget. rewrite nth_nil. exact I. Qed.

(* the abstract value of variable i is replaced; the concrete environment may change at i as well *)
Lemma R_upd env env' a i x :
  R env a -> (forall j, i <> j -> eget env' j = eget env j) -> in_gamma (eget env' i) x -> R env' (upd AN a i x).
Proof.
  intros HR He Hx j. unfold aget. destruct (Nat.eq_dec i j) as [<-|Hne].
  - rewrite nth_upd_same. exact Hx.
  - rewrite nth_upd_other, He by exact Hne. apply HR.
Qed.
Lemma R_store env a i v x : R env a -> in_gamma v x -> R (upd None env i v) (upd AN a i x).
Proof.
  intros HR Hv. apply (R_upd env); [exact HR| |]; unfold eget.
  - intros j Hne. apply nth_upd_other. exact Hne.
  - rewrite nth_upd_same. exact Hv.
Qed.

Lemma in_gamma_nil a : in_gamma None a.
Proof. exact I. Qed.

Lemma exempt_all_kinds ex s k :
  existsb (fun e => Nat.eqb (fst e) s && Nat.eqb (snd e) 0) ex = true -> exempt ex (OSite s, k) = true.
Proof.
  intros H. cbn. apply existsb_exists in H as [e [Hin He]]. apply existsb_exists. exists e. split; [exact Hin|].
  apply andb_true_iff in He as [H1 H2]. rewrite H1, H2. reflexivity.
Qed.

Lemma in_gamma_exempt ex x a : in_gamma (Some x) a -> aval_exempt ex a = true -> exempt ex x = true.
Proof.
  destruct x as [o k]. destruct a as [|os ks]; cbn [in_gamma]; [tauto|]. intros [Ho Hk] H.
  cbn [aval_exempt] in H. rewrite forallb_forall in H. specialize (H o Ho). destruct ks as [l|].
  - rewrite forallb_forall in H. apply H. exact Hk.
  - destruct o as [s|t]; [|discriminate]. apply exempt_all_kinds. exact H.
Qed.

Lemma in_gamma_join v a b : in_gamma v a \/ in_gamma v b -> in_gamma v (ajoin a b).
Proof.
  destruct v as [[o k]|]; [|intros; exact I]. destruct a as [|o1 k1], b as [|o2 k2]; cbn; try tauto.
  intros [[H1 H2]|[H1 H2]]; (split; [apply in_or_app; auto|]); destruct k1, k2; auto; apply in_or_app; auto.
Qed.

Lemma aget_ejoin a b v : aget (ejoin a b) v = ajoin (aget a v) (aget b v).
Proof.
  unfold aget. revert b v; induction a as [|x a IH]; intros [|y b] v; cbn [ejoin]; rewrite ?nth_nil.
  - reflexivity.
  - reflexivity.
  - destruct (nth v (x :: a) AN); reflexivity.
  - destruct v; cbn [nth]; [reflexivity|apply IH].
Qed.

Lemma R_ejoin env a b : R env a \/ R env b -> R env (ejoin a b).
Proof. intros H v. rewrite aget_ejoin. apply in_gamma_join. destruct H as [H|H]; [left|right]; apply H. Qed.

Lemma origin_eqb_eq a b : origin_eqb a b = true -> a = b.
Proof. destruct a, b; cbn; intros H; try discriminate; apply Nat.eqb_eq in H; congruence. Qed.

Lemma subset_in {A} (eqb : A -> A -> bool) (Heq : forall x y, eqb x y = true -> x = y) a b x :
  subset eqb a b = true -> In x a -> In x b.
Proof.
  unfold subset. rewrite forallb_forall. intros H Hin. specialize (H x Hin). apply existsb_exists in H as [y [Hy He]].
  apply Heq in He. subst. exact Hy.
Qed.

Lemma aleq_sound v a b : aleq a b = true -> in_gamma v a -> in_gamma v b.
Proof.
  destruct v as [[o k]|]; [|intros; exact I]. destruct a as [|o1 k1]; cbn [in_gamma]; [tauto|]. destruct b as [|o2 k2]; cbn [aleq]; [discriminate|].
  intros H [Ho Hk]. apply andb_true_iff in H as [H1 H2]. split.
  - eapply subset_in; [exact origin_eqb_eq|exact H1|exact Ho].
  - destruct k2 as [l2|]; [|exact I]. destruct k1 as [l1|]; [|discriminate].
    eapply subset_in; [intros x y E; apply Nat.eqb_eq; exact E|exact H2|exact Hk].
Qed.

Lemma eleq_aget a b v : eleq a b = true -> aleq (aget a v) (aget b v) = true.
Proof.
  unfold aget. revert b v; induction a as [|x a IH]; intros b v H.
  - rewrite nth_nil. reflexivity.
  - cbn [eleq] in H. apply andb_true_iff in H as [H1 H2]. destruct v.
    + cbn [nth]. destruct b; exact H1.
    + specialize (IH (tl b) v H2). destruct b as [|y b]; cbn [tl] in IH; cbn [nth]; [rewrite nth_nil in *|]; exact IH.
Qed.

Lemma eleq_sound env a b : eleq a b = true -> R env a -> R env b.
Proof. intros H HR v. eapply aleq_sound; [apply eleq_aget; exact H|apply HR]. Qed.

Lemma refine_sound o path s c : forall bv a, ceval o path s c = bv -> R (s_err s) a -> R (s_err s) (refine c bv a).
Proof.
  induction c as [v|v|v k|op x y|f|f|k|c IH|c1 IH1 c2 IH2|c1 IH1 c2 IH2]; intros bv a Hc HR; cbn [refine ceval] in *; try exact HR.
  - destruct bv; [|exact HR]. apply (R_upd (s_err s)); auto. destruct (eget (s_err s) v); [discriminate|exact I].
  - destruct bv; [exact HR|]. apply (R_upd (s_err s)); auto. destruct (eget (s_err s) v); [discriminate|exact I].
  - destruct bv; [|exact HR]. pose proof (HR v) as Hv. destruct (aget a v) as [|os ks]; [exact HR|]. apply (R_upd (s_err s)); auto.
    destruct (eget (s_err s) v) as [[og k']|]; [|exact I]. apply Nat.eqb_eq in Hc as ->. split; [apply Hv|left; reflexivity].
  - apply IH; [|exact HR]. rewrite <- Hc. symmetry. apply negb_involutive.
  - destruct bv; [|exact HR]. apply andb_true_iff in Hc as [H1 H2]. apply IH2; [exact H2|]. apply IH1; [exact H1|exact HR].
  - destruct bv; [exact HR|]. apply orb_false_iff in Hc as [H1 H2]. apply IH2; [exact H2|]. apply IH1; [exact H1|exact HR].
Qed.

(* what is alive in the variables outside keep is what `others` collects *)
Lemma others_from_in i env keep x : In x (others_from i env keep) <-> exists j, mem (i + j) keep = false /\ nth j env None = Some x.
Proof.
  revert i; induction env as [|v t IH]; intros i; cbn [others_from].
  - split; [intros []|]. intros [j [_ H]]. destruct j; discriminate.
  - rewrite in_app_iff, IH. split.
    + intros [H|[j [H1 H2]]].
      * exists 0. rewrite Nat.add_0_r. destruct (mem i keep); [destruct H|]. split; [reflexivity|apply In_opt_list; exact H].
      * exists (S j). rewrite <- plus_n_Sm. split; assumption.
    + intros [[|j] [H1 H2]].
      * left. rewrite Nat.add_0_r in H1. rewrite H1. apply In_opt_list. exact H2.
      * right. exists j. rewrite <- plus_n_Sm in H1. split; assumption.
Qed.
Lemma others_in env keep x : In x (others env keep) <-> exists j, mem j keep = false /\ eget env j = Some x.
Proof. unfold others. rewrite others_from_in. reflexivity. Qed.

Lemma all_exempt_from_nth ex i a keep j : all_exempt_from ex i a keep = true -> mem (i + j) keep = false -> aval_exempt ex (nth j a AN) = true.
Proof.
  revert i j; induction a as [|x t IH]; intros i j H Hk.
  - destruct j; reflexivity.
  - cbn [all_exempt_from] in H. apply andb_true_iff in H as [H1 H2]. destruct j.
    + rewrite Nat.add_0_r in Hk. rewrite Hk in H1. exact H1.
    + cbn [nth]. apply (IH (S i) j H2). rewrite <- plus_n_Sm in Hk. exact Hk.
Qed.

Lemma others_exempt ex env a keep : all_exempt ex a keep = true -> R env a -> forall x, In x (others env keep) -> exempt ex x = true.
Proof.
  intros H HR x Hin. apply others_in in Hin as [j [Hk Hj]]. pose proof (HR j) as Hg. rewrite Hj in Hg.
  eapply in_gamma_exempt; [exact Hg|]. apply (all_exempt_from_nth ex 0 a keep j H Hk).
Qed.

(* The errors of the calls that failed are accounted for: whatever was destroyed so far is exempt, and the error of every call
   that failed has been destroyed, handed to a tail call, or is held. *)
Definition accounted (ex : exemptions) (held : origin * nat -> Prop) (s : st) : Prop :=
  (forall x, In x (s_lost s) -> exempt ex x = true) /\
  (forall x, In x (failed_calls s) -> In x (s_lost s) \/ In x (s_passed s) \/ held x).
Definition held_in (env : list errval) (x : origin * nat) : Prop := exists v, eget env v = Some x.
(* the invariant of a run: held by a variable; at a return: held by the value returned *)
Definition Inv (ex : exemptions) (s : st) : Prop := accounted ex (held_in (s_err s)) s.
Definition Fin (ex : exemptions) (v : errval) (s : st) : Prop := accounted ex (fun x => v = Some x) s.

Lemma accounted_held ex (held held' : origin * nat -> Prop) s :
  (forall x, held x -> held' x) -> accounted ex held s -> accounted ex held' s.
Proof. intros Hh [H1 H2]. split; [exact H1|]. intros x Hx. destruct (H2 x Hx) as [H|[H|H]]; auto. Qed.

Lemma failed_calls_log_call s site path k : failed_calls (log_call s site path k) = failed_calls s ++ opt_list (mkerr site k).
Proof. unfold failed_calls, log_call. cbn [s_calls]. rewrite flat_map_app. destruct k; cbn; rewrite ?app_nil_r; reflexivity. Qed.

Lemma accounted_call ex held s site path k :
  accounted ex held s -> accounted ex (fun x => held x \/ mkerr site k = Some x) (log_call s site path k).
Proof.
  intros [H1 H2]. split; [exact H1|]. intros x Hx. rewrite failed_calls_log_call in Hx. apply in_app_or in Hx as [Hx|Hx].
  - destruct (H2 x Hx) as [H|[H|H]]; auto.
  - apply In_opt_list in Hx. auto.
Qed.
(* what is about to be destroyed, or handed to a tail call, counts as held until then *)
Lemma accounted_lost ex held s l :
  (forall x, In x l -> exempt ex x = true) -> accounted ex (fun x => In x l \/ held x) s -> accounted ex held (add_lost s l).
Proof.
  intros Hl [H1 H2]. split; intros x Hx; cbn [add_lost s_lost s_passed].
  - cbn [add_lost s_lost] in Hx. apply in_app_or in Hx as [Hx|Hx]; auto.
  - rewrite in_app_iff. destruct (H2 x Hx) as [H|[H|[H|H]]]; auto.
Qed.
Lemma accounted_passed ex held s l : accounted ex (fun x => In x l \/ held x) s -> accounted ex held (add_passed s l).
Proof.
  intros [H1 H2]. split; [exact H1|]. intros x Hx. cbn [add_passed s_lost s_passed]. rewrite in_app_iff.
  destruct (H2 x Hx) as [H|[H|[H|H]]]; auto.
Qed.
Lemma Inv_set_err ex s x v : accounted ex (held_in (upd None (s_err s) x v)) s -> Inv ex (set_err s x v).
Proof. intros H. exact H. Qed.

(* a variable is overwritten: what was held is still held, unless it was held by that variable *)
Lemma held_in_upd env i v x : held_in env x -> In x (opt_list (eget env i)) \/ held_in (upd None env i v) x.
Proof.
  intros [w Hw]. destruct (Nat.eq_dec i w) as [->|Hne]; [left; apply In_opt_list; exact Hw|right].
  exists w. unfold eget. rewrite nth_upd_other by exact Hne. exact Hw.
Qed.
Lemma held_in_upd_same env i x : held_in (upd None env i (Some x)) x.
Proof. exists i. apply nth_upd_same. Qed.
Lemma overwritten_exempt ex env a i :
  R env a -> aval_exempt ex (aget a i) = true -> forall x, In x (opt_list (eget env i)) -> exempt ex x = true.
Proof. intros HR Ha x Hx. apply In_opt_list in Hx. eapply in_gamma_exempt; [|exact Ha]. rewrite <- Hx. apply HR. Qed.

(* abstract exits: y admits every environment x admits (None = the exit is not reachable) *)
Definition covers (x y : option (list aval)) : Prop :=
  forall a' env, x = Some a' -> R env a' -> exists a'', y = Some a'' /\ R env a''.
Lemma covers_refl x : covers x x.
Proof. intros a' env H HR. exists a'. split; assumption. Qed.
Lemma covers_ojoin_l x y : covers x (ojoin x y).
Proof.
  intros a' env -> HR. destruct y as [b|]; cbn.
  - exists (ejoin a' b). split; [reflexivity|apply R_ejoin; left; exact HR].
  - exists a'. split; [reflexivity|exact HR].
Qed.
Lemma covers_ojoin_r x y : covers y (ojoin x y).
Proof.
  intros a' env -> HR. destruct x as [b|]; cbn.
  - exists (ejoin b a'). split; [reflexivity|apply R_ejoin; right; exact HR].
  - exists a'. split; [reflexivity|exact HR].
Qed.
Lemma covers_trans x y z : covers x y -> covers y z -> covers x z.
Proof. intros H1 H2 a' env Hx HR. destruct (H1 a' env Hx HR) as [a'' [Hy HR']]. exact (H2 a'' env Hy HR'). Qed.

(* control reaches a point in state s, where the analysis has the abstract state x *)
Definition reach (ex : exemptions) (s : st) (x : option (list aval)) : Prop := exists a, x = Some a /\ R (s_err s) a /\ Inv ex s.
Lemma reach_weaken ex s x y : reach ex s x -> covers x y -> reach ex s y.
Proof. intros [a [E [HR HI]]] Hc. destruct (Hc a _ E HR) as [a' [E' HR']]. exists a'. auto. Qed.

Definition post (ex : exemptions) (r : compl * st) (n c b : option (list aval)) : Prop :=
  match fst r with
  | KNorm => reach ex (snd r) n
  | KCont => reach ex (snd r) c
  | KBrk => reach ex (snd r) b
  | KRet v => Fin ex v (snd r)
  | KExit _ => True
  | KStuck => False
  end.

Lemma post_weaken ex r n c b n' c' b' : post ex r n c b -> covers n n' -> covers c c' -> covers b b' -> post ex r n' c' b'.
Proof. unfold post. destruct (fst r); eauto using reach_weaken. Qed.
(* when a statement does not complete normally, what the analysis says of normal completion does not matter *)
Lemma post_abrupt ex r n c b n' : fst r <> KNorm -> post ex r n c b -> post ex r n' c b.
Proof. unfold post. destruct (fst r); [congruence|auto..]. Qed.

Lemma post_norm ex s a c b : R (s_err s) a -> Inv ex s -> post ex (KNorm, s) (Some a) c b.
Proof. intros HR HI. exists a. auto. Qed.
Lemma post_ret ex v s n c b : Fin ex v s -> post ex (KRet v, s) n c b.
Proof. intros H. exact H. Qed.

Lemma aeval_sound env a e : R env a -> in_gamma (eval_e env e) (aeval a e).
Proof.
  intros HR. destruct e as [|v|t|v t]; cbn [eval_e aeval].
  - exact I.
  - apply HR.
  - cbn. split; left; reflexivity.
  - (* the result is what v holds, or the fresh error when v is nil; the analysis puts that origin and kind 0 in front of v's *)
    pose proof (HR v) as Hv. destruct (eget env v) as [[o k]|], (aget a v) as [|os [ks|]]; cbn in *; intuition.
Qed.

(* an expression that reads a variable holding an error has that error as its value *)
Lemma eval_e_read env e w x : mem w (reads e) = true -> eget env w = Some x -> eval_e env e = Some x.
Proof.
  intros Hm Hw. destruct e as [|v|t|v t]; cbn [reads mem existsb] in Hm; try discriminate;
    rewrite orb_false_r in Hm; apply Nat.eqb_eq in Hm as ->; cbn [eval_e]; rewrite Hw; reflexivity.
Qed.

Section Sound.
  Variable o : oracle.
  Variable ex : exemptions.

  Lemma iter_sound body a n c b :
    (forall path s, R (s_err s) a -> Inv ex s -> post ex (exec o body path s) n c b) ->
    oleq n a = true -> oleq c a = true ->
    forall k path i s, R (s_err s) a -> Inv ex s -> post ex (iter (exec o body) path k i s) (ojoin (Some a) b) None None.
  Proof.
    intros Hbody Hn Hc. induction k as [|k IH]; intros path i s HR HI; cbn [iter].
    - apply reach_weaken with (x := Some a); [exists a; auto|apply covers_ojoin_l].
    - pose proof (Hbody (i :: path) s HR HI) as Hp. destruct (exec o body (i :: path) s) as [k0 s'].
      unfold post in Hp. cbn [fst snd] in Hp. destruct k0; try exact Hp.
      + destruct Hp as [a' [-> [HR' HI']]]. apply IH; [|exact HI']. eapply eleq_sound; [exact Hn|exact HR'].
      + destruct Hp as [a' [-> [HR' HI']]]. apply IH; [|exact HI']. eapply eleq_sound; [exact Hc|exact HR'].
      + apply (reach_weaken _ _ _ _ Hp), covers_ojoin_r.
  Qed.

  Theorem acheck_sound p : forall a n c b path s,
    acheck ex p a = Some (n, c, b) -> R (s_err s) a -> Inv ex s -> post ex (exec o p path s) n c b.
  Proof.
    induction p as [|p1 IH1 p2 IH2|site dst args|x e|x e|tag|cnd th IHt el IHe|l body IHb| | |e|site args|e|h];
      intros a n c b path s Hchk HR HI; cbn [acheck] in Hchk; cbn [exec].
    - (* SSkip *) injection Hchk as <- <- <-. apply post_norm; assumption.
    - (* SSeq *)
      destruct (acheck ex p1 a) as [[[n1 c1] b1]|] eqn:E1; [|discriminate].
      pose proof (IH1 a n1 c1 b1 path s E1 HR HI) as P1. destruct (exec o p1 path s) as [k1 s1].
      destruct n1 as [a1|].
      + destruct (acheck ex p2 a1) as [[[n2 c2] b2]|] eqn:E2; [|discriminate]. injection Hchk as <- <- <-.
        destruct k1;
          [|eapply post_abrupt, post_weaken; [discriminate|exact P1|apply covers_refl|apply covers_ojoin_l|apply covers_ojoin_l]..].
        destruct P1 as [a' [[= <-] [HR1 HI1]]].
        eapply post_weaken; [exact (IH2 a1 n2 c2 b2 path s1 E2 HR1 HI1)|apply covers_refl|apply covers_ojoin_r|apply covers_ojoin_r].
      + injection Hchk as <- <- <-. destruct k1; try exact P1. destruct P1 as [a' [[=] _]].
    - (* SCall *)
      destruct dst as [x| |].
      + destruct (aval_exempt ex (aget a x)) eqn:Eo; [|discriminate]. injection Hchk as <- <- <-. apply post_norm.
        * apply R_store; [exact HR|]. unfold mkerr. destruct (o_call o site path); [exact I|]. split; [left; reflexivity|exact I].
        * (* the old value of x is destroyed, the error of the call is held by x *)
          apply Inv_set_err, accounted_lost; [exact (overwritten_exempt ex _ a x HR Eo)|].
          eapply accounted_held; [|apply accounted_call; exact HI].
          intros y [Hy|Hy]; [apply held_in_upd; exact Hy|right; rewrite Hy; apply held_in_upd_same].
      + destruct (existsb (fun e => Nat.eqb (fst e) site && Nat.eqb (snd e) 0) ex) eqn:Eo; [|discriminate]. injection Hchk as <- <- <-.
        apply post_norm; [exact HR|]. apply accounted_lost.
        * intros y Hy. apply In_opt_list in Hy. unfold mkerr in Hy. destruct (o_call o site path); [discriminate|].
          injection Hy as <-. apply exempt_all_kinds. exact Eo.
        * eapply accounted_held; [|apply accounted_call; exact HI].
          intros y [Hy|Hy]; [right; exact Hy|left; apply In_opt_list; exact Hy].
      + injection Hchk as <- <- <-. apply post_norm; [exact HR|]. eapply accounted_held; [|apply accounted_call; exact HI].
        intros y [Hy|Hy]; [exact Hy|discriminate Hy].
    - (* SSet *)
      destruct (mem x (reads e) || aval_exempt ex (aget a x)) eqn:Eo; [|discriminate]. injection Hchk as <- <- <-.
      apply post_norm; [apply R_store; [exact HR|apply aeval_sound; exact HR]|]. apply Inv_set_err, accounted_lost.
      + destruct (mem x (reads e)); [intros y []|exact (overwritten_exempt ex _ a x HR Eo)].
      + (* what x held is destroyed, unless the expression reads x: then x holds it again *)
        eapply accounted_held; [|exact HI]. intros y Hy.
        destruct (held_in_upd _ x (eval_e (s_err s) e) y Hy) as [H|H]; [|right; exact H].
        destruct (mem x (reads e)) eqn:Em; [right|left; exact H].
        apply In_opt_list in H. rewrite (eval_e_read _ _ x y Em H). apply held_in_upd_same.
    - (* SSetI *) injection Hchk as <- <- <-. apply post_norm; [exact HR|exact HI].
    - (* SEffect *) injection Hchk as <- <- <-. apply post_norm; [exact HR|exact HI].
    - (* SIf *)
      destruct (acheck ex th (refine cnd true a)) as [[[n1 c1] b1]|] eqn:E1; [|discriminate].
      destruct (acheck ex el (refine cnd false a)) as [[[n2 c2] b2]|] eqn:E2; [|discriminate]. injection Hchk as <- <- <-.
      destruct (ceval o path s cnd) eqn:Ec.
      + eapply post_weaken; [apply (IHt _ _ _ _ path s E1); [eapply refine_sound; [exact Ec|exact HR]|exact HI]| | |]; apply covers_ojoin_l.
      + eapply post_weaken; [apply (IHe _ _ _ _ path s E2); [eapply refine_sound; [exact Ec|exact HR]|exact HI]| | |]; apply covers_ojoin_r.
    - (* SLoop *)
      destruct (acheck ex body a) as [[[n1 c1] b1]|] eqn:E1; [|discriminate].
      destruct (oleq n1 a && oleq c1 a) eqn:El; [|discriminate]. injection Hchk as <- <- <-. apply andb_true_iff in El as [Ln Lc].
      eapply iter_sound; [|exact Ln|exact Lc|exact HR|exact HI]. intros path' s' HR' HI'. apply (IHb a n1 c1 b1 path' s' E1 HR' HI').
    - (* SContinue *) injection Hchk as <- <- <-. exists a. auto.
    - (* SBreak *) injection Hchk as <- <- <-. exists a. auto.
    - (* SReturn *)
      destruct (all_exempt ex a (reads e)) eqn:Ea; [|discriminate]. injection Hchk as <- <- <-.
      apply post_ret, accounted_lost; [exact (others_exempt ex _ a _ Ea HR)|].
      (* a variable the returned expression reads holds the returned value; the others are destroyed *)
      eapply accounted_held; [|exact HI]. intros y [w Hw]. destruct (mem w (reads e)) eqn:Em.
      + right. apply (eval_e_read _ _ w); assumption.
      + left. apply others_in. exists w. split; assumption.
    - (* SReturnCall *)
      destruct (all_exempt ex a (arg_errs args)) eqn:Ea; [|discriminate]. injection Hchk as <- <- <-.
      apply post_ret, accounted_passed, accounted_lost; [exact (others_exempt ex _ a _ Ea HR)|].
      (* a variable among the arguments is handed on, the others are destroyed; the error of the call is returned *)
      eapply accounted_held; [|apply accounted_call; exact HI]. intros y [[w Hw]|Hy]; [|right; right; exact Hy].
      destruct (mem w (arg_errs args)) eqn:Em.
      + right. left. apply in_flat_map. exists w. split; [|rewrite Hw; left; reflexivity].
        apply existsb_exists in Em as [z [Hz Ez]]. apply Nat.eqb_eq in Ez as ->. exact Hz.
      + left. apply others_in. exists w. split; assumption.
    - (* SExit *) injection Hchk as <- <- <-. exact I.
    - (* SUnknown *) discriminate.
  Qed.
End Sound.

Lemma Inv_init ex p : Inv ex (init_st p).
Proof. split; intros x []. Qed.
Lemma R_init p : R (s_err (init_st p)) [].
Proof. intros v. unfold init_st, eget. cbn [s_err]. rewrite nth_repeat. exact I. Qed.

(* A function accepted by the analysis, run under any oracle, returns nil only if every call that failed was exempt or handed
   to a tail call.  Falling off the end of the body is `return nil`: run_fn o p runs `p; return nil`, which is what errflow_ok checks. *)
Theorem errflow_sound ex p o :
  errflow_ok ex p = true ->
  match run_fn o p with
  | (KRet v, s) => forall x, In x (failed_calls s) -> exempt ex x = true \/ In x (s_passed s) \/ v = Some x
  | (KExit _, _) => True
  | _ => False
  end.
Proof.
  intros H. assert (E : acheck ex (SSeq p (SReturn ENil)) [] = Some (None, None, None)).
  { unfold errflow_ok in H. cbn [acheck reads]. destruct (acheck ex p []) as [[[n c] b]|]; [|discriminate].
    apply andb_true_iff in H as [H Hb]. apply andb_true_iff in H as [Hn Hc]. destruct c; [discriminate|]. destruct b; [discriminate|].
    destruct n as [a|]; [rewrite Hn|]; reflexivity. }
  pose proof (acheck_sound o ex _ _ _ _ _ [] (init_st p) E (R_init p) (Inv_init ex p)) as P.
  change (exec o (SSeq p (SReturn ENil)) [] (init_st p)) with (run_fn o p) in P.
  unfold post in P. destruct (run_fn o p) as [[| | |v| |] s]; cbn [fst snd] in P; try exact P; try (destruct P as [a [[=] _]]).
  destruct P as [H1 H2]. intros x Hx. destruct (H2 x Hx) as [Hl|[Hp|Hv]]; auto.
Qed.

Corollary errflow_nil ex p o s :
  errflow_ok ex p = true -> run_fn o p = (KRet None, s) ->
  forall x, In x (failed_calls s) -> exempt ex x = true \/ In x (s_passed s).
Proof.
  intros H E x Hx. pose proof (errflow_sound ex p o H) as P. rewrite E in P. destruct (P x Hx) as [A|[A|A]]; [left; exact A|right; exact A|discriminate].
Qed.

(* cbn is to show a state as a literal record, not as a tower of setters: re-checking a cbn step, the kernel would compare two
   such towers field by field, each field through the whole tower again, which takes minutes on the generated programs *)
Arguments log_call _ _ _ _ /.
Arguments add_lost _ _ /.
Arguments add_passed _ _ /.
Arguments set_err _ _ _ /.
Arguments set_int _ _ _ /.
Arguments add_out _ _ _ /.

(* Every function of the command has one outermost loop, and how often it runs is not known.  To run such a function the loop
   is cut out: with a variable statement in its place, of which only what the loop's own lemma says is known, the rest of the
   function evaluates. *)
Fixpoint loop_body (p : stmt) : stmt :=
  match p with
  | SSeq a b | SIf _ a b => match loop_body a with SSkip => loop_body b | l => l end
  | SLoop _ body => body
  | _ => SSkip
  end.
Fixpoint cut_loop (lp p : stmt) : stmt :=
  match p with
  | SSeq a b => SSeq (cut_loop lp a) (cut_loop lp b)
  | SIf c a b => SIf c (cut_loop lp a) (cut_loop lp b)
  | SLoop _ _ => lp
  | _ => p
  end.
(* the goal runs the function f, whose loop is lp; L says what `exec _ lp` does *)
Ltac abstract_loop f lp L :=
  let s0 := eval cbv in (init_st (f_prog f)) in change (init_st (f_prog f)) with s0;
  change (f_prog f) with (cut_loop lp (f_prog f)); revert L; generalize lp as loop; intros loop L.

Definition ok_count (out : list (nat * list nat)) : nat := List.length (filter (fun x => ok_tag (fst x)) out).
Lemma ok_count_app a b : ok_count (a ++ b) = ok_count a + ok_count b.
Proof. unfold ok_count. rewrite filter_app, app_length. reflexivity. Qed.

Lemma skipn_nth_sig l i : i < List.length l -> skipn i l = nth_sig l i :: skipn (S i) l.
Proof.
  revert i; induction l as [|x t IH]; intros i H; cbn in H; [lia|]. destruct i; [reflexivity|].
  cbn [skipn]. unfold nth_sig. cbn [nth]. apply IH. lia.
Qed.

Definition vo_body : stmt := Eval cbv in loop_body (f_prog p_verify_one).
(* the four error variables of verifyOne, all nil: so they are whenever control is at the head of the signature loop *)
Definition N4 : list errval := [None; None; None; None].

Definition sig_lines (g : sigenv) : nat := if sg_x509 g && sg_countersig g then 2 else 1.

(* one signature: the body completes when the signature passes and returns an error otherwise *)
Lemma vo_body_step fl e i s : s_err s = N4 ->
  let g := nth_sig (fe_sigs e) i in
  exists s', exec (oracle_of_file fl e) vo_body [i] s =
               (if sig_ok fl g then KNorm else KRet (Some (OSite 11, if sg_unknown_auth g then 3 else 0)), s') /\
             (sig_ok fl g = true -> s_err s' = N4) /\
             ok_count (s_out s') = ok_count (s_out s) + (if sig_ok fl g then sig_lines g else 0).
Proof.
  intros H. destruct s as [err int lost passed calls out]. cbn [s_err] in H. subst err.
  unfold vo_body, N4, sig_ok, sig_lines. cbn -[nth_sig ok_count]. destruct (nth_sig (fe_sigs e) i) as [x c u t]. destruct fl as [ni nc sy sh].
  cbn [sg_x509 sg_chain_ok sg_unknown_auth sg_countersig fl_no_chain fl_show fl_no_integrity fl_system].
  (* the cases in the order the body asks: an X.509 signature? is the chain checked, does it validate, why not? *)
  (destruct x; [destruct nc; [destruct t, sh|destruct c; [destruct t, sh|destruct u, sh]]|]);
    cbn -[ok_count]; eexists; (split; [reflexivity|]); cbn [s_err s_out]; rewrite ?ok_count_app; cbn; (split; [reflexivity || discriminate|lia]).
Qed.

Lemma vo_iter fl e : forall k i s, s_err s = N4 -> i + k = List.length (fe_sigs e) ->
  let rest := skipn i (fe_sigs e) in
  exists x s', iter (exec (oracle_of_file fl e) vo_body) [] k i s = (if forallb (sig_ok fl) rest then KNorm else KRet (Some x), s') /\
               ok_count (s_out s') = ok_count (s_out s) + spec_ok_lines fl rest.
Proof.
  induction k as [|k IH]; intros i s Hs Hlen; cbv zeta.
  - rewrite skipn_all2 by lia. exists (OFresh 0, 0), s. cbn. auto.
  - rewrite skipn_nth_sig by lia. cbn [iter forallb spec_ok_lines]. destruct (vo_body_step fl e i s Hs) as [s1 [-> [Hs1 Hc]]].
    destruct (sig_ok fl (nth_sig (fe_sigs e) i)); cbn [andb].
    + destruct (IH (S i) s1 (Hs1 eq_refl) ltac:(lia)) as [x' [s' [-> Hc']]]. exists x', s'. split; [reflexivity|].
      rewrite Hc', Hc. unfold sig_lines. lia.
    + eexists _, s1. split; [reflexivity|lia].
Qed.

(* the signature loop of verifyOne: it falls through when every signature passes, and returns an error otherwise *)
Lemma vo_loop fl e s : s_err s = N4 ->
  exists x s', exec (oracle_of_file fl e) (SLoop 0 vo_body) [] s = (if forallb (sig_ok fl) (fe_sigs e) then KNorm else KRet (Some x), s') /\
               ok_count (s_out s') = ok_count (s_out s) + spec_ok_lines fl (fe_sigs e).
Proof. intros Hs. exact (vo_iter fl e (List.length (fe_sigs e)) 0 s Hs eq_refl). Qed.

(* an outcome that makes verifyOne return before the signature loop: nothing else is asked, no OK line is printed *)
Ltac returned := simpl; eexists _, _; split; [reflexivity|split; [split; discriminate|reflexivity]].

Theorem file_run_spec fl e :
  exists v s, file_run fl e = (KRet v, s) /\ (v = None <-> file_ok fl e = true) /\ ok_count (s_out s) = fst (spec_lines fl e).
Proof.
  pose proof (vo_loop fl e) as L. unfold file_run, run_fn. abstract_loop p_verify_one (SLoop 0 vo_body) L.
  unfold spec_lines, file_ok, pre_ok. cbn [fst].
  destruct e as [op sk mg nm stv cp dc vr sigs]. cbn [fe_open fe_seek fe_magic fe_name fe_stream fe_compressed fe_decomp fe_verify fe_sigs] in *.
  (* the outcomes in the order verifyOne asks for them: open, rewind, a module by content or else by name, the wrapper
     (decompressed for a stream verifier, refused otherwise), the module's verdict *)
  destruct op; [|returned]. destruct sk; [|returned]. (destruct mg; [|destruct nm; [|returned]]);
    (destruct stv, cp; [destruct dc; [|returned]| |returned|]); (destruct vr; [|returned|returned]); simpl;
    match goal with |- context [exec _ loop [] ?s] => destruct (L s eq_refl) as [x [s' [-> Hc]]] end;
    destruct (forallb (sig_ok fl) sigs); simpl; eexists _, _; (split; [reflexivity|split; [|exact Hc]]); split; (reflexivity || discriminate).
Qed.

Theorem verify_one_accepts_iff_ok fl e : file_accepts fl e = file_ok fl e.
Proof.
  unfold file_accepts, ret_of. destruct (file_run_spec fl e) as [v [s [-> [Hv _]]]]. destruct v as [x|].
  - destruct (file_ok fl e); [|reflexivity]. destruct Hv as [_ H]. specialize (H eq_refl). discriminate.
  - symmetry. apply Hv. reflexivity.
Qed.

Definition vc_body : stmt := Eval cbv in loop_body (f_prog p_verify_cmd).

Lemma error_lines_app a b : error_lines_of (a ++ b) = error_lines_of a ++ error_lines_of b.
Proof. unfold error_lines_of. apply flat_map_app. Qed.

Lemma vc_body_step acc certs n i s x z : s_err s = [None; x] -> s_int s = [z] ->
  exists x' s', exec (oracle_of_cmd acc certs n) vc_body [i] s = (KNorm, s') /\
                s_err s' = [None; x'] /\ s_int s' = [if acc i then z else 1%Z] /\
                error_lines_of (s_out s') = error_lines_of (s_out s) ++ (if acc i then [] else [i]).
Proof.
  intros He Hi. destruct s as [err int lost passed calls out]. cbn [s_err s_int] in He, Hi. subst err int.
  unfold vc_body. cbn -[error_lines_of]. destruct (acc i); cbn -[error_lines_of]; eexists _, _; (split; [reflexivity|]);
    cbn [s_err s_int s_out]; rewrite ?error_lines_app; cbn; rewrite ?app_nil_r; auto.
Qed.

Lemma vc_iter acc certs n : forall k i s x z, s_err s = [None; x] -> s_int s = [z] ->
  exists x' s', iter (exec (oracle_of_cmd acc certs n) vc_body) [] k i s = (KNorm, s') /\
                s_err s' = [None; x'] /\ s_int s' = [if forallb acc (seq i k) then z else 1%Z] /\
                error_lines_of (s_out s') = error_lines_of (s_out s) ++ filter (fun j => negb (acc j)) (seq i k).
Proof.
  induction k as [|k IH]; intros i s x z He Hi.
  - exists x, s. cbn. rewrite app_nil_r. auto.
  - cbn [iter seq forallb filter]. destruct (vc_body_step acc certs n i s x z He Hi) as [x1 [s1 [-> [He1 [Hi1 Ho1]]]]].
    destruct (IH (S i) s1 x1 _ He1 Hi1) as [x' [s' [-> [He' [Hi' Ho']]]]]. exists x', s'. split; [reflexivity|]. split; [exact He'|].
    rewrite Hi', Ho', Ho1, <- app_assoc. destruct (acc i); cbn [andb negb app]; [auto|]. destruct (forallb acc (seq (S i) k)); auto.
Qed.

(* the loop of verifyCmd: the status variable becomes 1 at the first file that is not accepted, each such file gets an ERROR line *)
Lemma vc_loop acc certs n s x z : s_err s = [None; x] -> s_int s = [z] ->
  exists x' s', exec (oracle_of_cmd acc certs n) (SLoop 0 vc_body) [] s = (KNorm, s') /\
                s_err s' = [None; x'] /\ s_int s' = [if forallb acc (seq 0 n) then z else 1%Z] /\
                error_lines_of (s_out s') = error_lines_of (s_out s) ++ filter (fun j => negb (acc j)) (seq 0 n).
Proof. exact (vc_iter acc certs n n 0 s x z). Qed.

Lemma main_exit_nil : main_exit None = 0%Z.
Proof. vm_compute. reflexivity. Qed.
Lemma main_exit_err x : main_exit (Some x) = 1%Z.
Proof. vm_compute. reflexivity. Qed.

(* the command is a fold: status 0 iff the anchors loaded, a file was named and verifyOne returned nil for every file *)
Theorem cmd_exit_fold acc certs n :
  cmd_exit acc certs n = (if certs && negb (Nat.eqb n 0) && forallb acc (seq 0 n) then 0 else 1)%Z /\
  (certs = true -> error_lines_of (s_out (snd (cmd_run acc certs n))) = filter (fun j => negb (acc j)) (seq 0 n)).
Proof.
  pose proof (vc_loop acc certs n) as L. unfold cmd_exit, cmd_run. abstract_loop p_verify_cmd (SLoop 0 vc_body) L.
  destruct certs, n as [|m]; cbn -[main_exit seq]; rewrite ?main_exit_err; try (split; [reflexivity|intros; try discriminate; reflexivity]).
  match goal with |- context [exec _ loop [] ?s] =>
    destruct (L s None 0%Z eq_refl eq_refl) as [x' [[err int lost passed calls out] [-> [He [Hi Ho]]]]] end.
  cbn [s_err s_int s_out] in He, Hi, Ho. subst err int.
  destruct (forallb acc (seq 0 (S m))); cbn; (split; [reflexivity|intros _]); rewrite ?error_lines_app; cbn; rewrite ?app_nil_r; exact Ho.
Qed.

Lemma forallb_accepts fl files : forallb (accepts_nth fl files) (seq 0 (List.length files)) = forallb (file_ok fl) files.
Proof.
  assert (H : forall pre l, forallb (accepts_nth fl (pre ++ l)) (seq (List.length pre) (List.length l)) = forallb (file_ok fl) l).
  { intros pre l; revert pre; induction l as [|x t IH]; intros pre; [reflexivity|]. cbn [List.length seq forallb]. f_equal.
    - unfold accepts_nth. rewrite nth_error_app2 by lia. rewrite Nat.sub_diag. apply verify_one_accepts_iff_ok.
    - specialize (IH (pre ++ [x])). rewrite <- app_assoc in IH. cbn [app] in IH. rewrite app_length in IH. cbn [List.length] in IH.
      rewrite Nat.add_1_r in IH. exact IH. }
  apply (H [] files).
Qed.

Theorem process_exit_spec fl certs files : process_exit fl certs files = spec_exit fl certs files.
Proof. unfold process_exit, spec_exit. rewrite (proj1 (cmd_exit_fold _ _ _)), forallb_accepts. reflexivity. Qed.

Theorem exit_zero_iff_all_ok fl certs files :
  process_exit fl certs files = 0%Z <-> certs = true /\ files <> [] /\ forall e, In e files -> file_ok fl e = true.
Proof.
  rewrite process_exit_spec. unfold spec_exit.
  rewrite <- forallb_forall, <- (length_zero_iff_nil files), <- Nat.eqb_neq, <- negb_true_iff, <- !andb_true_iff, andb_assoc.
  destruct (_ && _ && _); split; (discriminate || reflexivity).
Qed.

Definition calls_at (site : nat) (s : st) : nat := List.length (filter (fun c => Nat.eqb (fst (fst c)) site) (s_calls s)).

(* a loop that only makes a call and drops its result: nothing printed, one call per iteration *)
Lemma loop_dropped_call o l site args path s :
  exists s', exec o (SLoop l (SCall site DDrop args)) path s = (KNorm, s') /\
             s_out s' = s_out s /\ calls_at site s' = calls_at site s + o_loop o l path.
Proof.
  cbn [exec]. generalize (o_loop o l path) as k, 0 as i. intros k. revert s. induction k as [|k IH]; intros s i.
  - exists s. rewrite Nat.add_0_r. auto.
  - cbn [iter exec]. edestruct IH as [s' [E [Ho Hc]]]. exists s'. split; [exact E|]. split; [exact Ho|].
    rewrite Hc. unfold calls_at. cbn [add_lost log_call s_calls]. rewrite filter_app, app_length. cbn [filter fst]. rewrite Nat.eqb_refl.
    cbn [List.length]. lia.
Qed.

(* loadCerts with X.509 anchors given and a readable system pool where one is asked for *)
Lemma load_certs_run system sys_ok n : system && negb sys_ok = false ->
  exists s, run_fn (oracle_of_load true true system sys_ok n) (f_prog p_load_certs) = (KRet None, s) /\
            pool_effects (s_out s) = (if system then [3] else [4]) /\ addcert_calls s = n.
Proof.
  intros Hsys. pose proof (loop_dropped_call (oracle_of_load true true system sys_ok n) 0 3 [AOther]) as L.
  unfold run_fn. abstract_loop p_load_certs (SLoop 0 (SCall 3 DDrop [AOther])) L.
  destruct system, sys_ok; try discriminate Hsys; cbn;
    match goal with |- context [exec _ loop [] ?s] => destruct (L [] s) as [s' [-> [Ho Hc]]] end;
    (eexists; split; [reflexivity|]); cbn [s_out]; rewrite Ho; (split; [reflexivity|exact Hc]).
Qed.

Definition rpm_body : stmt := Eval cbv in loop_body (f_prog p_rpm_verify).

Lemma rpm_body_step no_chain n seen nosigner i s :
  exec (oracle_of_rpm no_chain n seen nosigner) rpm_body [i] s =
  if seen i then (KCont, s)
  else if nosigner i then (if no_chain then (KNorm, s) else (KRet (Some (OFresh 1, 0)), add_lost s (others (s_err s) [])))
  else (KNorm, s).
Proof. unfold rpm_body. cbn. destruct (seen i), (nosigner i), no_chain; reflexivity. Qed.

Lemma rpm_iter no_chain n seen nosigner : forall k i s,
  exists x s', iter (exec (oracle_of_rpm no_chain n seen nosigner) rpm_body) [] k i s =
               (if forallb (rpm_sig_ok no_chain seen nosigner) (seq i k) then KNorm else KRet (Some x), s').
Proof.
  induction k as [|k IH]; intros i s; [exists (OFresh 0, 0), s; reflexivity|].
  cbn [iter seq forallb]. rewrite rpm_body_step. unfold rpm_sig_ok at 1.
  destruct (seen i); cbn [orb andb negb]; [apply IH|].
  destruct (nosigner i); cbn [orb andb negb]; [|apply IH].
  destruct no_chain; cbn [orb andb negb]; [apply IH|]. eexists _, _. reflexivity.
Qed.
(* the loop of the RPM glue: an unknown signer is an error unless --no-trust-chain *)
Lemma rpm_loop no_chain n seen nosigner s :
  exists x s', exec (oracle_of_rpm no_chain n seen nosigner) (SLoop 0 rpm_body) [] s =
               (if forallb (rpm_sig_ok no_chain seen nosigner) (seq 0 n) then KNorm else KRet (Some x), s').
Proof. exact (rpm_iter no_chain n seen nosigner n 0 s). Qed.

Theorem signers_errors_propagate f o s :
  In f signer_progs -> run_fn o (f_prog f) = (KRet None, s) ->
  forall x, In x (failed_calls s) -> exempt (exempt_of f) x = true \/ In x (s_passed s).
Proof.
  intros Hf E x Hin. assert (Hall : all_signers_errflow_ok = true) by (vm_compute; reflexivity).
  unfold all_signers_errflow_ok in Hall. rewrite forallb_forall in Hall. eapply errflow_nil; [apply Hall; exact Hf|exact E|exact Hin].
Qed.

(* syntactic form: the skip-digests argument is exactly opts.NoDigests or the literal false *)
Definition digest_args_syntactic (f : fprog) : bool :=
  forallb (fun c => match assoc (fst c) digest_flag_pos with
                    | Some pos => match nth pos (snd c) AOther with AOpt k => Nat.eqb k (fld "NoDigests") | ABool false => true | _ => false end
                    | None => true
                    end) (named_calls f).

Lemma digest_syntactic_false optv f : optv (fld "NoDigests") = false -> digest_args_syntactic f = true -> digest_args_false optv f = true.
Proof.
  intros H. unfold digest_args_syntactic, digest_args_false. rewrite !forallb_forall. intros Hs c Hc. specialize (Hs c Hc).
  destruct (assoc (fst c) digest_flag_pos) as [pos|]; [|reflexivity]. destruct (nth pos (snd c) AOther) as [|k|k|[]| | |]; try discriminate.
  - apply Nat.eqb_eq in Hs. subst k. cbn [arg_bool]. rewrite H. reflexivity.
  - reflexivity.
Qed.

Theorem digests_checked_unless_flag optv :
  optv (fld "NoDigests") = false -> forallb (digest_args_false optv) signer_progs = true.
Proof.
  intros H. apply forallb_forall. intros f Hf. apply digest_syntactic_false; [exact H|].
  assert (Hall : forallb digest_args_syntactic signer_progs = true) by (vm_compute; reflexivity). rewrite forallb_forall in Hall. apply Hall. exact Hf.
Qed.

Theorem by_magic_sound regs m r : by_magic regs m = Some r -> In r regs /\ r_magic r = m /\ m <> file_type_unknown.
Proof.
  unfold by_magic, by_magic_refuses, by_magic_match. destruct (Z.eqb_spec m file_type_unknown) as [|Hne]; [discriminate|].
  destruct by_magic_returns_match; [|discriminate]. intros H. apply find_some in H as [Hin He]. apply Z.eqb_eq in He. auto.
Qed.
Theorem by_file_name_sound regs matches r : by_file_name regs matches = Some r -> In r regs /\ r_testpath r = true /\ matches r = true.
Proof.
  unfold by_file_name, by_name_match. destruct by_name_returns_match; [|discriminate]. intros H. apply find_some in H as [Hin He].
  apply andb_true_iff in He as [H1 H2]. auto.
Qed.
Lemma nodup_fixed_NoDup {A} (dec : forall x y : A, {x = y} + {x <> y}) l : nodup dec l = l -> NoDup l.
Proof. intros <-. apply NoDup_nodup. Qed.
Theorem registered_reviewed :
  forallb (fun r => negb (selectable r) || has_verifier r) registered_signers = true /\
  NoDup (filter (fun m => negb (m =? file_type_unknown)%Z) (map r_magic registered_signers)) /\
  List.length registered_signers = 21.
Proof.
  split; [vm_compute; reflexivity|]. split; [|vm_compute; reflexivity].
  apply (nodup_fixed_NoDup Z.eq_dec). vm_compute. reflexivity.
Qed.
Lemma dispatch_sound regs m matches r : dispatch regs m matches = Some r -> In r regs /\ selectable r = true.
Proof.
  unfold dispatch, selectable. destruct (by_magic regs m) as [r'|] eqn:E.
  - intros [= <-]. apply by_magic_sound in E as [Hin [-> Hne]]. split; [exact Hin|]. apply Z.eqb_neq in Hne. rewrite Hne. reflexivity.
  - intros H. apply by_file_name_sound in H as [Hin [-> _]]. split; [exact Hin|apply orb_true_r].
Qed.
(* whatever the content type and the name tests say, the module the command ends up with has a verifier (no nil function is called) *)
Theorem dispatch_selects_verifier m matches r : dispatch registered_signers m matches = Some r -> has_verifier r = true.
Proof.
  intros H. apply dispatch_sound in H as [Hin Hsel]. pose proof (proj1 registered_reviewed) as Hall. rewrite forallb_forall in Hall.
  specialize (Hall r Hin). rewrite Hsel in Hall. exact Hall.
Qed.
Lemma dispatch_unknown_content regs matches r : dispatch regs file_type_unknown matches = Some r -> r_testpath r = true /\ matches r = true.
Proof.
  unfold dispatch. destruct (by_magic regs file_type_unknown) as [r'|] eqn:E.
  - apply by_magic_sound in E as [_ [_ Hne]]. congruence.
  - intros H. apply by_file_name_sound in H as [_ H]. exact H.
Qed.
