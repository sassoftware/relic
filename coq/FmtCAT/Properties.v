(* FmtCAT/Properties.v — the small signers: catalogs (signers/cat), PKCS#7 over arbitrary content (pkcs7 builder + signers/pkcs),
   cosign, RPM, and the magic.Detect clauses in front of them.  The machinery is in FmtCAT/ProofsCms.v, ProofsCodec.v, ProofsRpm.v.
   The CMS layer is C16's model; cryptography is symbolic (C16's `crypto` record, a signing function `sgn`, Laws.Pipeline's section). *)
From Relic Require Import Base.Prelude Base.Enc Base.Slice Generated.C16_gen C16.Model C16.Tlv C16.Proofs C16.VModel C16.VProofs Generated.FmtCAT_gen FmtCAT.Model.
From Relic Require Import Laws.Pipeline.
From Relic Require Import FmtCAT.ProofsRpm FmtCAT.ProofsCodec FmtCAT.ProofsCms.

Local Open Scope Z_scope.

(* C03 C08 — re-signing a catalog keeps the encapsulated content info (content type + CTL) byte for byte: it is a contiguous slice of
   the input and of the output; pkcs7.Unmarshal reads the output back as { version 1, one digest algorithm, THAT content info, the
   configured chain, no CRLs, ONE signer info: the new one }; and the independent RFC 5652 walker ACCEPTS the output (it is strict DER) and
   finds exactly those regions.  x ranges over all byte strings. *)
Theorem cat_content_preserved : forall C sgn S x y, all_bytes x = true -> signer_wf S -> (forall k d, all_bytes (sgn k d) = true) ->
  cat_sign C sgn S x = Ok y -> small y ->
  exists o sd b sig,
    parse_cms x = Ok o /\ o_sd o = Some sd /\ ci_bytes (ci_raw (sd_ci sd)) = Ok (Some b) /\ sig = sgn (sg_key S) (c_H C (sg_hash S) b) /\
    parse_cms y = Ok (mkCms OID_sd (Some (parsed_sd S (sd_ci sd) sig))) /\
    subslice (ci_raw (sd_ci sd)) x /\ subslice (ci_raw (sd_ci sd)) y /\
    spec_regions y = Some (mkReg (ci_raw (sd_ci sd)) (sort_b (sg_chain S)) [] [enc_tlv T_SEQ (si_body S sig)]).
Proof.
  intros C sgn S x y Hb Hw Hsg H Hsm.
  destruct (cat_sign_inv C sgn S x y Hb Hw Hsg H Hsm) as (o & sd & b & Ho & Hsd & _ & Hci & Hcb & Hy & Hrep & Hby & Hsi & _).
  exists o, sd, b, (sgn (sg_key S) (c_H C (sg_hash S) b)). do 5 (split; [assumption || reflexivity|]).
  split. { apply (regions_are_subslices x o sd _ Hb Ho Hsd). left. reflexivity. }
  split. { apply (regions_are_subslices y _ _ _ Hby Hrep eq_refl). left. reflexivity. }
  rewrite Hy, (emit_built_parsed S _ _ Hw (Hsg _ _) Hsi) in Hsm |- *. now apply spec_regions_parsed.
Qed.

(* C05 — WHICH octets are digested: the content octets of the element inside [0] of the encapsulated content info, identifier and
   length octets excluded (RFC 5652 5.4 for content types other than id-data): the octets the RFC reader calls eContent whenever it
   accepts the element, and `payload` when the element is SEQUENCE { type, [0] { tag len payload } } *)
Theorem cat_digest_is_econtent_octets : forall C sgn S x y, all_bytes x = true -> signer_wf S -> (forall k d, all_bytes (sgn k d) = true) ->
  cat_sign C sgn S x = Ok y -> small y ->
  exists o sd b, parse_cms x = Ok o /\ o_sd o = Some sd /\ cat_hashin x = Ok b /\
    parse_cms y = Ok (mkCms OID_sd (Some (parsed_sd S (sd_ci sd) (sgn (sg_key S) (c_H C (sg_hash S) b))))) /\
    (forall b', spec_econtent (ci_raw (sd_ci sd)) = Some (Some b') -> b' = b) /\
    (forall ctype tag payload, ci_raw (sd_ci sd) = enc_tlv T_SEQ (enc_tlv T_OID ctype ++ enc_tlv 160 (enc_tlv tag payload)) ->
       small (ci_raw (sd_ci sd)) -> oid_ok ctype = true -> all_bytes ctype = true -> tag_ok tag -> all_bytes payload = true -> b = payload).
Proof.
  intros C sgn S x y Hb Hw Hsg H Hsm.
  destruct (cat_sign_inv C sgn S x y Hb Hw Hsg H Hsm) as (o & sd & b & Ho & Hsd & _ & Hci & Hcb & _ & Hrep & _).
  exists o, sd, b. split; [exact Ho|]. split; [exact Hsd|]. split; [exact (cat_hashin_of x o sd b Ho Hsd Hcb)|]. split; [exact Hrep|].
  split.
  - intros b' Hs. exact (ci_bytes_spec_agree _ _ _ (wf_ci_bytes _ Hci) Hcb Hs).
  - intros ctype tag payload Er Hsr Ho1 Ho2 Ht Hp. rewrite Er in Hcb, Hsr.
    destruct (ci_bytes_is_econtent ctype tag payload Ho1 Ho2 Ht Hp Hsr) as [E _]. cbv zeta in E. rewrite E in Hcb. now injection Hcb.
Qed.
(* C05 — the recorded deviation (known finding C05:spec:cat:pkcs7-signedattrs-absent-for-non-data-content), as a theorem about the code
   as it is: the signer info of every catalog relic signs has no signed attributes although the content type is not id-data *)
Theorem cat_no_signed_attributes : forall C sgn S x y, all_bytes x = true -> signer_wf S -> (forall k d, all_bytes (sgn k d) = true) ->
  cat_sign C sgn S x = Ok y -> small y ->
  exists o' sd' s, parse_cms y = Ok o' /\ o_sd o' = Some sd' /\ sd_sis sd' = [s] /\ si_auth s = None /\
    ci_ctype (sd_ci sd') = OID_ctl /\ OID_ctl <> OID_data /\ spec_signed_attrs_preimage (si_raw s) = None.
Proof.
  intros C sgn S x y Hb Hw Hsg H Hsm.
  destruct (cat_sign_inv C sgn S x y Hb Hw Hsg H Hsm) as (o & sd & b & _ & _ & Hct & _ & _ & _ & Hrep & _ & Hsi & _).
  set (sig := sgn (sg_key S) (c_H C (sg_hash S) b)) in *.
  exists (mkCms OID_sd (Some (parsed_sd S (sd_ci sd) sig))), (parsed_sd S (sd_ci sd) sig), (parsed_si S sig).
  split; [exact Hrep|]. do 3 (split; [reflexivity|]). split; [exact Hct|]. split; [vm_compute; discriminate|].
  destruct (si_reparse S sig Hw (Hsg _ _) Hsi) as (Hv & Ht & Hp & t1 & t2 & t3 & t4 & t5 & Hall & T4).
  unfold spec_signed_attrs_preimage. cbn [parsed_si si_raw]. change (enc_tlv T_SEQ (si_body S sig)) with (t_full (si_tlv S sig)).
  rewrite (one_valid _ Hv).
  unfold children. cbn [si_tlv t_body]. rewrite Hall, T4. reflexivity.
Qed.

(* C01 — relic's verifier (signers/pkcs.Verify, the catalog module's verifier), run on the BYTES relic wrote, accepts them: under the
   certificate of the configured chain matching the signer's issuer and serial, the signature checked over the digest of the eContent *)
Theorem cat_sign_then_verify : forall C sgn S x y cf, all_bytes x = true -> signer_wf S -> (forall k d, all_bytes (sgn k d) = true) ->
  cat_sign C sgn S x = Ok y -> small y ->
  exists b c h, cat_hashin x = Ok b /\
    pkcs_verify C y false [] cf = Ok (SdAccept (parsed_si S (sgn (sg_key S) (c_H C (sg_hash S) b))) c) /\
    find_cert (fst (c_parse_certs C (Some (sg_chain S)))) (sg_issuer S) (sg_serial S) = Some c /\
    c_hash_of C (sg_dalg S) = Some h /\
    signature_accepted C c (new_si S (sgn (sg_key S) (c_H C (sg_hash S) b))) (c_H C h b).
Proof. exact FmtCAT.ProofsCms.sign_then_verify. Qed.
(* C01 — what is not signed is refused with an explicit error *)
Theorem cat_refuses_clean : forall C sgn S x,
  (forall e, parse_cms x = Err e -> cat_sign C sgn S x = Err e) /\
  (forall o, parse_cms x = Ok o -> ci_ctype (sd_ci (sd_of o)) <> OID_ctl -> cat_sign C sgn S x = Err E_NOT_CATALOG) /\
  (forall o, parse_cms x = Ok o -> ci_ctype (sd_ci (sd_of o)) = OID_ctl -> ci_bytes (ci_raw (sd_ci (sd_of o))) = Ok None ->
     sg_chain S <> [] -> sg_samekey S = true -> cat_sign C sgn S x = Err E_SELFCHECK).
Proof.
  intros C sgn S x. unfold cat_sign, cat_refuses. rewrite cat_layout_ok_true. cbn [negb]. split; [|split].
  - intros e ->. reflexivity.
  - intros o -> Hn%bytes_eqb_neq. cbn [bind]. now rewrite Hn.
  - intros o -> Hc Hb Hch Hsk. cbn [bind]. rewrite Hc, bytes_eqb_refl. cbn [negb].
    unfold set_content_info. rewrite builder_layout_ok_true, Hb. cbn [negb bind fst snd].
    rewrite builder_sign_noattrs, (proj2 (chain_and_key S) (conj Hch Hsk)). cbn [bind].
    unfold ts_and_marshal, sd_of. rewrite tsm_layout_ok_true. cbn [negb o_sd].
    now rewrite (sd_verify_built C S _ _ None None None Hb eq_refl : sd_verify C _ Wnil false = _).
Qed.

(* C08 — the digest preimage does not depend on the signature a catalog carries; signing the output again (other key, other digest)
   keeps the content and the preimage and leaves exactly the last signer; the is-signed probe answers true for every output and
   `signer infos present` in general *)
Theorem cat_hashin_ignores_signature : forall C sgn S x y, all_bytes x = true -> signer_wf S -> (forall k d, all_bytes (sgn k d) = true) ->
  cat_sign C sgn S x = Ok y -> small y -> cat_hashin y = cat_hashin x /\ cms_is_signed y = Ok true /\ all_bytes y = true.
Proof.
  intros C sgn S x y Hb Hw Hsg H Hsm.
  destruct (cat_sign_inv C sgn S x y Hb Hw Hsg H Hsm) as (o & sd & b & Ho & Hsd & _ & _ & Hcb & _ & Hrep & Hby & _).
  split; [|split; [|exact Hby]].
  - now rewrite (cat_hashin_of x o sd b Ho Hsd Hcb), (cat_hashin_of y _ _ b Hrep eq_refl Hcb).
  - unfold cms_is_signed. now rewrite Hrep.
Qed.
Theorem cat_resign_replaces : forall C sgn S1 S2 x y1 y2, all_bytes x = true -> signer_wf S1 -> signer_wf S2 -> (forall k d, all_bytes (sgn k d) = true) ->
  cat_sign C sgn S1 x = Ok y1 -> small y1 -> cat_sign C sgn S2 y1 = Ok y2 -> small y2 ->
  exists o sd b, parse_cms x = Ok o /\ o_sd o = Some sd /\ cat_hashin x = Ok b /\ cat_hashin y2 = Ok b /\
    parse_cms y2 = Ok (mkCms OID_sd (Some (parsed_sd S2 (sd_ci sd) (sgn (sg_key S2) (c_H C (sg_hash S2) b))))).
Proof.
  intros C sgn S1 S2 x y1 y2 Hb Hw1 Hw2 Hsg H1 Hs1 H2 Hs2.
  destruct (cat_sign_inv C sgn S1 x y1 Hb Hw1 Hsg H1 Hs1) as (o & sd & b & Ho & Hsd & _ & _ & Hcb & _ & Hrep & Hb1 & _).
  destruct (cat_sign_inv C sgn S2 y1 y2 Hb1 Hw2 Hsg H2 Hs2) as (o1 & sd1 & b1 & Ho1 & Hsd1 & _ & _ & Hcb1 & _ & Hrep2 & _).
  (* the second run reads what the first one wrote: the same content info *)
  rewrite Hrep in Ho1. apply Ok_inj in Ho1 as <-. cbn [o_sd] in Hsd1. injection Hsd1 as <-. cbn [parsed_sd sd_ci] in Hcb1, Hrep2.
  rewrite Hcb in Hcb1. injection Hcb1 as <-.
  exists o, sd, b. split; [exact Ho|]. split; [exact Hsd|]. split; [exact (cat_hashin_of x o sd b Ho Hsd Hcb)|].
  split; [exact (cat_hashin_of y2 _ _ b Hrep2 eq_refl Hcb)|exact Hrep2].
Qed.
Theorem cms_is_signed_spec : forall x o, parse_cms x = Ok o -> cms_is_signed x = Ok (negb (zlen (sd_sis (sd_of o)) =? 0)).
Proof. exact FmtCAT.ProofsCms.is_signed_spec. Qed.

(* C05 — SetContentData: the data goes into [0] as an OCTET STRING, the digest is taken over exactly the data *)
Theorem pkcs_digest_is_content : forall C h data, all_bytes data = true -> small (ci_raw (ci_att data)) ->
  set_content_data C h data = Ok (ci_att data, c_H C h data) /\ spec_econtent (ci_raw (ci_att data)) = Some (Some data) /\ ci_ctype (ci_att data) = OID_data.
Proof.
  intros C h data Hb Hs. destruct (ci_att_facts data Hb Hs) as (_ & Hcb & Hsp).
  unfold set_content_data, set_content_info. fold (ci_att data). rewrite builder_layout_ok_true, Hcb. now repeat split.
Qed.
(* C01 C02 — attached: verifies without --content and with --content naming the same bytes; any other --content is refused *)
Theorem pkcs_attached_verify_roundtrip : forall C sgn S content, all_bytes content = true -> signer_wf S -> (forall k d, all_bytes (sgn k d) = true) ->
  forall y, pkcs_sign C sgn S content false None = Ok y -> small y -> small (ci_raw (ci_att content)) ->
  exists c, (forall cf, pkcs_verify C y false [] cf = Ok (SdAccept (parsed_si S (sgn (sg_key S) (c_H C (sg_hash S) content))) c)) /\
            (forall path, pkcs_verify C y false path content = Ok (SdAccept (parsed_si S (sgn (sg_key S) (c_H C (sg_hash S) content))) c)) /\
            (forall path other, path <> [] -> other <> content -> pkcs_verify C y false path other = Ok (SdReject EV_NEW)).
Proof.
  intros C sgn S content Hb Hw Hsg y H Hsm Hs.
  destruct (pkcs_sign_inv C sgn S content false y Hb Hw Hsg H Hsm Hs) as ((c & Hst) & Hrep & Hsi).
  destruct (ci_att_facts content Hb Hs) as (_ & Hcb & _). set (sig := sgn (sg_key S) (c_H C (sg_hash S) content)) in *.
  assert (V : forall ext r, chosen (Some content) ext = r ->
    sd_verify C (parsed_sd S (ci_att content) sig) (ext_val ext) false = match r with Some b => verdict (parsed_si S sig) (si_step C S sig b) | None => SdReject EV_NEW end).
  { intros ext r Hr. exact (sd_verify_parsed C S (ci_att content) sig ext (Some content) r Hw (Hsg _ _) Hsi Hcb Hr). }
  assert (A : forall cf, pkcs_verify C y false [] cf = Ok (SdAccept (parsed_si S sig) c)).
  { intros cf. rewrite (pkcs_verify_parsed C y _ false [] cf Hrep), cblob_none, (V None (Some content) eq_refl), Hst. reflexivity. }
  exists c. split; [exact A|split].
  - intros [|p path]; [apply A|].
    rewrite (pkcs_verify_parsed C y _ false _ content Hrep), cblob_some, (V _ _ (chosen_same content)), Hst by discriminate. reflexivity.
  - intros path other Hp Ho. now rewrite (pkcs_verify_parsed C y _ false path other Hrep), (cblob_some path other Hp), (V _ _ (chosen_other _ _ Ho)).
Qed.
(* C01 C02 — detached: verifies with --content naming the signed bytes; refused without --content; refused with other bytes as soon as
   the signature does not verify over THEIR digest (the symbolic idealisation: a signature is good for one digest); with integrity
   checks switched off no content is read at all *)
Theorem pkcs_detached_verify_roundtrip : forall C sgn S content, all_bytes content = true -> signer_wf S -> (forall k d, all_bytes (sgn k d) = true) ->
  forall y, pkcs_sign C sgn S content true None = Ok y -> small y -> small (ci_raw (ci_att content)) ->
  exists c, (forall path, path <> [] -> pkcs_verify C y false path content = Ok (SdAccept (parsed_si S (sgn (sg_key S) (c_H C (sg_hash S) content))) c)) /\
            (forall cf, pkcs_verify C y false [] cf = Ok (SdReject EV_NEW)) /\
            (forall path other h, path <> [] -> c_hash_of C (sg_dalg S) = Some h ->
               (forall c', ~ signature_accepted C c' (new_si S (sgn (sg_key S) (c_H C (sg_hash S) content))) (c_H C h other)) ->
               exists e, pkcs_verify C y false path other = Ok (SdReject e)) /\
            (forall path cf, pkcs_verify C y true path cf = Ok (sd_verify C (parsed_sd S ci_det_p (sgn (sg_key S) (c_H C (sg_hash S) content))) Wnil true)).
Proof.
  intros C sgn S content Hb Hw Hsg y H Hsm Hs.
  destruct (pkcs_sign_inv C sgn S content true y Hb Hw Hsg H Hsm Hs) as ((c & Hst) & Hrep & Hsi).
  destruct ci_det_p_facts as (_ & Hcb & _). set (sig := sgn (sg_key S) (c_H C (sg_hash S) content)) in *.
  assert (V : forall ext, sd_verify C (parsed_sd S ci_det_p sig) (ext_val ext) false =
                          match ext with Some b => verdict (parsed_si S sig) (si_step C S sig b) | None => SdReject EV_NEW end).
  { intros ext. exact (sd_verify_parsed C S ci_det_p sig ext None ext Hw (Hsg _ _) Hsi Hcb eq_refl). }
  exists c. split; [|split; [|split]].
  - intros path Hp. now rewrite (pkcs_verify_parsed C y _ false path content Hrep), (cblob_some path content Hp), V, Hst.
  - intros cf. now rewrite (pkcs_verify_parsed C y _ false [] cf Hrep), cblob_none, V.
  - intros path other h Hp Hh Hno. destruct (si_step_reject C S sig other h Hh Hno) as [e He]. exists e.
    now rewrite (pkcs_verify_parsed C y _ false path other Hrep), (cblob_some path other Hp), V, He.
  - intros path cf. now rewrite (pkcs_verify_parsed C y _ true path cf Hrep).
Qed.
(* C01 — the builder's refusals: no certificate, a first certificate that does not match the key, a detached digest of the wrong size *)
Theorem pkcs_builder_refuses : forall C sgn S ci digest attrs hsize ctype,
  (sg_chain S = [] -> builder_sign C sgn S ci digest attrs = Err E_BUILDER) /\
  (sg_samekey S = false -> builder_sign C sgn S ci digest attrs = Err E_BUILDER) /\
  (zlen digest <> hsize -> set_detached_content hsize ctype digest = Err E_BUILDER) /\
  (zlen digest = hsize -> set_detached_content hsize ctype digest = Ok (mkCi [] ctype, digest)).
Proof.
  intros C sgn S ci digest attrs hsize ctype.
  unfold builder_sign, set_detached_content, b_sign_bad_cert, b_detached_size_mismatch. rewrite builder_layout_ok_true.
  change (b_sign_no_content false) with false. cbn [negb]. repeat split.
  - intros ->. reflexivity.
  - intros ->. now rewrite orb_true_r.
  - intros Hn. now replace (zlen digest =? hsize) with false by lia.
  - intros He. now replace (zlen digest =? hsize) with true by lia.
Qed.

(* C01 C11 — Detect is a total function of the first 256 bytes: three prefixes, then two markers *)
Theorem magic_detect_spec : forall f,
  detect f = if has_prefix P_rpm f then Some magic_FileTypeRPM else if has_prefix P_deb f then Some magic_FileTypeDEB
             else if has_prefix P_pgp f then Some magic_FileTypePGP
             else if contains_b P_ctl (ztake 256 f) then Some magic_FileTypeCAT
             else if contains_b P_sd (ztake 256 f) then Some magic_FileTypePKCS7 else None.
Proof. exact FmtCAT.ProofsCms.detect_spec. Qed.
Theorem magic_routes_catalog : forall r, contains_b P_ctl (ztake 256 (48 :: r)) = true -> detect (48 :: r) = Some magic_FileTypeCAT.
Proof. intros r H. rewrite detect_spec. cbn [has_prefix P_rpm P_deb P_pgp Z.eqb andb]. now rewrite H. Qed.
(* ... but NOT every well-formed catalog is routed to the catalog signer: with enough digest algorithm identifiers in front (here
   seventeen), the content type lies beyond byte 256 and the file is classified as plain PKCS#7, for which relic has no signer *)
Definition ex_far_catalog : bytes :=
  enc_tlv 48 (enc_tlv 6 OID_sd ++ enc_tlv 160 (enc_tlv 48 (enc_tlv 2 [1] ++ enc_tlv 49 (concat (repeat ex_alg 17)) ++
              enc_tlv 48 (enc_tlv 6 OID_ctl ++ enc_tlv 160 (enc_tlv 48 [4; 1; 7])) ++ enc_tlv 49 []))).
Theorem magic_routes_every_catalog_refuted :
  exists x o, parse_cms x = Ok o /\ ci_ctype (sd_ci (sd_of o)) = OID_ctl /\ spec_econtent (ci_raw (sd_ci (sd_of o))) = Some (Some [4; 1; 7]) /\
              detect x = Some magic_FileTypePKCS7.
Proof.
  exists ex_far_catalog. eexists. split; [vm_compute; reflexivity|]. split; [vm_compute; reflexivity|]. split; vm_compute; reflexivity.
Qed.

(* C05 — codecs against their specification readers, for all inputs *)
Theorem hex_roundtrip : forall l, all_bytes l = true -> spec_hex_dec (hex_enc l) = Some l.
Proof. exact FmtCAT.ProofsCodec.hex_roundtrip. Qed.
Theorem cosign_base64_roundtrip : forall l, all_bytes l = true -> spec_b64_dec (b64_enc l) = Some l.
Proof. exact FmtCAT.ProofsCodec.b64_roundtrip. Qed.
Theorem json_roundtrip : forall v, json_safe v = true -> spec_json_parse (json_ser v) = Some v.
Proof. exact FmtCAT.ProofsCodec.json_roundtrip. Qed.
Theorem cosign_digest_wellformed : forall name raw,
  In name [A_sha256; A_sha384; A_sha512] -> all_bytes raw = true ->
  zlen raw = (if bytes_eqb name A_sha256 then 32 else if bytes_eqb name A_sha384 then 48 else 64) ->
  spec_digest_parse (digest_str name raw) = Some (name, raw).
Proof. exact FmtCAT.ProofsCodec.digest_wellformed. Qed.
(* C05 — the simple-signing document relic writes, read by an RFC 8259 reader: critical.image.docker-manifest-digest is the digest
   string, critical.type the cosign constant, optional.creator the user agent; members in that order; NO critical.identity *)
Theorem cosign_payload_spec : forall d p, cosign_payload d = Ok p ->
  exists j, spec_json_parse p = Some j /\
    json_get [K_critical; K_image; K_dmd] j = Some (JStr d) /\
    json_get [K_critical; K_type] j = Some (JStr V_type) /\
    json_get [K_optional; K_creator] j = Some (JStr relic_user_agent) /\
    json_keys j = [K_critical; K_optional] /\
    option_map json_keys (json_get [K_critical] j) = Some [K_image; K_type] /\
    json_get [K_critical; K_identity] j = None.
Proof. exact FmtCAT.ProofsCodec.payload_spec. Qed.
(* C01 C05 — the signature is over the digest of exactly the payload bytes stored in the layer; descriptors describe payload and manifest;
   the annotation decodes to the signature; the payload names the manifest digest, a registered digest of the manifest *)
Theorem cosign_signature_over_payload : forall Hf sgn key h manifest jok mt o,
  (forall a m, all_bytes (Hf a m) = true) -> (forall k m, all_bytes (sgn k m) = true) ->
  (forall m, zlen (Hf h m) = (if h =? 5 then 32 else if h =? 6 then 48 else 64)) ->
  cosign_sign Hf sgn key h manifest jok mt = Ok o ->
  co_sig o = sgn key (Hf h (co_payload o)) /\ co_layer_data o = co_payload o /\
  co_layer_size o = zlen (co_payload o) /\ co_subject_size o = zlen manifest /\ co_subject_type o = mt /\
  spec_b64_dec (co_sig_b64 o) = Some (co_sig o) /\
  (exists name, spec_digest_parse (co_subject_digest o) = Some (name, Hf h manifest) /\ spec_digest_parse (co_layer_digest o) = Some (name, Hf h (co_payload o))) /\
  exists j, spec_json_parse (co_payload o) = Some j /\ json_get [K_critical; K_image; K_dmd] j = Some (JStr (co_subject_digest o)) /\
            json_get [K_critical; K_type] j = Some (JStr V_type).
Proof.
  intros Hf sgn key h manifest jok mt o HH Hsg Hlen H. unfold cosign_sign in H.
  apply bind_ok in H as (name & (_ & Ha & _)%cosign_check_ok & H). apply bind_ok in H as (p & Ep & <-%Ok_inj).
  destruct (cosign_alg_inv _ _ Ha) as [Hin Hw].
  cbn [co_sig co_payload co_layer_data co_layer_size co_subject_size co_subject_type co_sig_b64 co_subject_digest co_layer_digest].
  repeat split; try reflexivity.
  - apply b64_roundtrip, Hsg.
  - exists name. split; (apply digest_wellformed; [exact Hin|apply HH|now rewrite Hlen]).
  - destruct (payload_spec _ _ Ep) as (j & Hj & H1 & H2 & _). exists j. auto.
Qed.
(* C01 — the refusals (explicit errors) and their complement *)
Theorem cosign_refuses_clean : forall Hf sgn key h manifest jok mt,
  (cosign_max_size < zlen manifest -> cosign_sign Hf sgn key h manifest jok mt = Err E_COSIGN_BIG) /\
  (zlen manifest <= cosign_max_size -> ~ In h [5; 6; 7] -> cosign_sign Hf sgn key h manifest jok mt = Err E_COSIGN_ALG) /\
  (zlen manifest <= cosign_max_size -> In h [5; 6; 7] -> jok = false -> cosign_sign Hf sgn key h manifest jok mt = Err E_COSIGN_JSON) /\
  (zlen manifest <= cosign_max_size -> In h [5; 6; 7] -> jok = true -> mt = [] -> cosign_sign Hf sgn key h manifest jok mt = Err E_COSIGN_NOTYPE) /\
  (zlen manifest <= cosign_max_size -> In h [5; 6; 7] -> jok = true -> mt <> [] -> existsb (bytes_eqb mt) cosign_allowed_types = false ->
   cosign_sign Hf sgn key h manifest jok mt = Err E_COSIGN_TYPE).
Proof.
  intros Hf sgn key h manifest jok mt. unfold cosign_sign. rewrite cosign_check_spec, cosign_alg_spec.
  destruct (Z.ltb_spec cosign_max_size (zlen manifest)) as [Hbig|Hok]; [split; [reflexivity|repeat split; intros; lia]|].
  split; [intros; lia|]. split; [|split; [|split]]; intros _ Hi.
  - cbn [In] in Hi. replace (h =? 5) with false by lia. replace (h =? 6) with false by lia. now replace (h =? 7) with false by lia.
  - intros ->. now destruct Hi as [<-|[<-|[<-|[]]]].
  - intros -> ->. now destruct Hi as [<-|[<-|[<-|[]]]].
  - intros -> Hm%bytes_eqb_neq He. rewrite Hm, He. now destruct Hi as [<-|[<-|[<-|[]]]].
Qed.
Theorem cosign_signs_signable : forall Hf sgn key h manifest mt,
  (forall a m, all_bytes (Hf a m) = true) ->
  zlen manifest <= cosign_max_size -> In h [5; 6; 7] -> existsb (bytes_eqb mt) cosign_allowed_types = true ->
  exists o, cosign_sign Hf sgn key h manifest true mt = Ok o.
Proof.
  intros Hf sgn key h manifest mt HH Hs Hi He. unfold cosign_sign.
  assert (exists n, cosign_alg h = Some n) as [n Hn] by (destruct Hi as [<-|[<-|[<-|[]]]]; eexists; reflexivity).
  rewrite (proj2 (cosign_check_ok _ _ _ _ n)) by (repeat split; auto; intros ->; discriminate He). cbn [bind].
  destruct (payload_safe (digest_str n (Hf h manifest))) as [p ->]; [|eexists; reflexivity].
  apply digest_str_safe; [apply (cosign_alg_inv _ _ Hn)|apply HH].
Qed.
(* C11 — the decisions never panic *)
Theorem cosign_no_panic : forall Hf sgn key h manifest jok mt e, cosign_sign Hf sgn key h manifest jok mt <> Panic e.
Proof.
  intros Hf sgn key h manifest jok mt e. unfold cosign_sign. rewrite cosign_check_spec.
  destruct (_ <? _); [discriminate|]. destruct (cosign_alg h); [|discriminate]. destruct (negb jok); [discriminate|].
  destruct (bytes_eqb mt []); [discriminate|]. destruct (existsb _ _); [|discriminate]. cbn [bind].
  unfold cosign_payload. destruct (json_safe _); discriminate.
Qed.

(* go-rpmutils is third party: header sizes, which tag covers what and the rebuilt signature header are modelled AS OBSERVED (constants and
   size expressions tied to the module source); relic's own part is the patch over [0, OriginalSignatureHeaderSize) and the verify report.
   rpm_embed_b f blob is relic's patch applied, for a blob that is a lead + signature header occupying it exactly and holding a signature tag. *)
(* C01 C08 — the laws *)
Theorem rpm_law_extract : forall f b g, rpm_embed_b f b = Ok g -> rpm_extract g = Ok (Some b).
Proof. exact FmtCAT.ProofsRpm.rpm_law_extract. Qed.
Theorem rpm_law_hashin : forall f b g, rpm_embed_b f b = Ok g -> rpm_hashin_all g = rpm_hashin_all f /\ rpm_hashin_hdr g = rpm_hashin_hdr f.
Proof. exact FmtCAT.ProofsRpm.rpm_law_hashin. Qed.
(* C03 — everything after lead + signature header (header structure and payload) is untouched; only the signature area differs *)
Theorem rpm_law_payload : forall f b g, rpm_embed_b f b = Ok g -> rpm_rest g = rpm_rest f.
Proof. exact FmtCAT.ProofsRpm.rpm_law_payload. Qed.
Theorem rpm_only_signature_header_differs : forall f b g, rpm_embed_b f b = Ok g ->
  exists n, rpm_sig_span f = Ok n /\ rpm_sig_span g = Ok (zlen b) /\ f = ztake n f ++ zdrop n f /\ g = b ++ zdrop n f.
Proof.
  intros f b g (n & _ & Hn & Hs & _ & ->)%embed_b_inv. exists n.
  split; [exact Hn|]. split; [now apply sig_span_app|]. split; [symmetry; apply ztake_zdrop|reflexivity].
Qed.
(* C05 (rpm_header_digest_spec) — on every byte string the RPM format reader takes apart, what is handed to the PGP signer for the
   header-only signature (tag 268) is the header structure from its magic to the end of its store, and for the header+payload signature
   (tag 1002) the header followed by the payload; the model's signature area is the reader's lead + padded signature header *)
Theorem rpm_header_digest_spec : forall f p, all_bytes f = true -> spec_rpm_split f = Some p ->
  rpm_hashin_hdr f = Ok (rp_hdr p) /\ rpm_hashin_all f = Ok (rp_hdr p ++ rp_payload p) /\
  rpm_sig_span f = Ok (zlen (rp_lead p ++ rp_sig p)) /\ f = rp_lead p ++ rp_sig p ++ rp_hdr p ++ rp_payload p.
Proof.
  intros f p Hb H. unfold spec_rpm_split in H.
  destruct (spec_lead_ok f) eqn:El; [|discriminate]. cbn [negb] in H. apply spec_lead_ok_inv in El as [H96 El].
  set (r := zdrop 96 f) in *. assert (Hbr : all_bytes r = true) by now apply all_bytes_zdrop.
  destruct (spec_hdr_len r) as [n|] eqn:En; [|discriminate].
  destruct (zlen r <? spec_pad8 n) eqn:E1; [discriminate|].
  set (r2 := zdrop (spec_pad8 n) r) in *. assert (Hbr2 : all_bytes r2 = true) by now apply all_bytes_zdrop.
  destruct (spec_hdr_len r2) as [m|] eqn:Em; [|discriminate].
  destruct (zlen r2 <? m) eqn:E2; [discriminate|]. injection H as <-. cbn [rp_lead rp_sig rp_hdr rp_payload].
  destruct (hdr_span_spec true r n _ Hbr En eq_refl ltac:(lia)) as [Hspan Hn0].
  destruct (hdr_span_spec false r2 m _ Hbr2 Em eq_refl ltac:(lia)) as [Hspan2 _].
  assert (Hss : rpm_sig_span f = Ok (spec_pad8 n + 96)).
  { apply sig_span_ok. fold r. rewrite Z.add_simpl_r. now repeat split. }
  assert (Hrest : rpm_rest f = Ok r2).
  { unfold rpm_rest. rewrite Hss. cbn [bind]. rewrite <- zdrop_zdrop by lia. reflexivity. }
  rewrite hashin_hdr_rest, hashin_all_rest, Hrest, Hss. cbn [bind]. rewrite Hspan2. cbn [bind].
  split; [reflexivity|]. split; [now rewrite ztake_zdrop|]. split.
  - f_equal. rewrite zlen_app, !zlen_ztake by lia. apply Z.add_comm.
  - rewrite (ztake_zdrop m r2). unfold r2. rewrite (ztake_zdrop (spec_pad8 n) r). unfold r. symmetry. apply ztake_zdrop.
Qed.
(* C02 — the header+payload preimage and the signature area determine the whole file *)
Theorem rpm_protect : forall g1 g2 p b, rpm_hashin_all g1 = Ok p -> rpm_hashin_all g2 = Ok p ->
  rpm_extract g1 = Ok (Some b) -> rpm_extract g2 = Ok (Some b) -> g1 = g2.
Proof. exact FmtCAT.ProofsRpm.protect. Qed.
(* C01 C11 — refusals; the spans, the patch and the probes never panic in the model (crashes inside go-rpmutils are C11's recorded findings) *)
Theorem rpm_refuses_clean : forall f b,
  (zlen f < 96 -> rpm_embed_b f b = Err E_RPM_SHORT \/ rpm_embed_b f b = Err E_RPM_BLOB) /\
  (96 <= zlen f -> rpmu_bad_lead_magic (be32 f 0) = true -> all_bytes b = true -> rpm_embed_b f b = Err E_RPM_MAGIC) /\
  (forall e, rpm_embed_b f b <> Panic e) /\ (forall e, rpm_extract f <> Panic e) /\ (forall e, rpm_hashin_all f <> Panic e) /\ (forall e, rpm_hashin_hdr f <> Panic e).
Proof.
  intros f b. split; [|split; [|split; [|split; [|split]]]].
  - intros H. unfold rpm_embed_b, rpm_embed. rewrite (sig_span_short f H). destruct (all_bytes b); [left|right]; reflexivity.
  - intros H Hm Hb. unfold rpm_embed_b, rpm_embed. now rewrite Hb, (sig_span_bad_magic f H Hm).
  - intros e. unfold rpm_embed_b, rpm_embed. destruct (all_bytes b); [|discriminate]. destruct (negb _); [discriminate|].
    apply bind_no_panic; [apply sig_span_no_panic|]. intros n _. destruct (negb _); discriminate.
  - intros e. apply bind_no_panic; [apply sig_span_no_panic|]. intros n _. destruct (rpm_not_signed _); discriminate.
  - intros e. rewrite hashin_all_rest. apply bind_no_panic; [apply rest_no_panic|]. intros r _.
    apply bind_no_panic; [apply hdr_span_no_panic|discriminate].
  - intros e. rewrite hashin_hdr_rest. apply bind_no_panic; [apply rest_no_panic|]. intros r _.
    apply bind_no_panic; [apply hdr_span_no_panic|discriminate].
Qed.
(* C08 — is-signed *)
Theorem rpm_is_signed_spec : forall f b g n,
  (rpm_embed_b f b = Ok g -> rpm_extract g = Ok (Some b)) /\
  (rpm_sig_span f = Ok n -> rpm_nsigs f = 0 -> rpm_extract f = Ok None) /\
  (rpm_sig_span f = Ok n -> 0 < rpm_nsigs f -> rpm_extract f = Ok (Some (ztake n f))).
Proof. exact FmtCAT.ProofsRpm.is_signed_spec. Qed.

Section Crypto.
  Variables key pubk sigv : Type.
  Variable H : Z -> bytes -> bytes.
  Variable pub : key -> pubk.
  Variable sign : key -> bytes -> sigv.
  Variable vrfy : pubk -> bytes -> sigv -> bool.
  Hypothesis sign_correct : forall k m, vrfy (pub k) m (sign k m) = true.
  Variable tbs : Z -> bytes -> bytes.
  Variable ser : sigblob pubk sigv -> bytes.
  Variable deser : bytes -> option (sigblob pubk sigv).
  Hypothesis deser_ser : forall b, deser (ser b) = Some b.
  (* C01 (Laws.Pipeline.sign_then_verify instantiated) *)
  Theorem rpm_sign_then_verify : forall k a f g,
    sign_file key pubk sigv H pub sign tbs ser bytes rpm_format k a f = Ok g ->
    verify_file pubk sigv H vrfy tbs deser bytes rpm_format g = Accept pubk (pub k) a.
  Proof. exact (Pipeline.sign_then_verify key pubk sigv H pub sign vrfy sign_correct tbs ser deser deser_ser bytes rpm_format L1 L2). Qed.
  (* C08 (Laws.Pipeline.resign_history instantiated) *)
  Theorem rpm_resign_history : forall hist f g k a,
    resign key pubk sigv H pub sign tbs ser bytes rpm_format (hist ++ [(k, a)]) f = Ok g ->
    verify_file pubk sigv H vrfy tbs deser bytes rpm_format g = Accept pubk (pub k) a /\
    is_signed bytes rpm_format g = true /\ rpm_rest g = rpm_rest f /\ rpm_hashin_all g = rpm_hashin_all f.
  Proof. exact (Pipeline.resign_history key pubk sigv H pub sign vrfy sign_correct tbs ser deser deser_ser bytes rpm_format L1 L2 L3). Qed.
End Crypto.

(* C11 — relic's own code around go-rpmutils: the verify report is total; nevra() never panics (fix 1e87259: the error of GetNEVRA is
   checked before the result is used; the former witness, a header without NAME tag, now yields the empty name) and is the printed name
   without its ".rpm" *)
Theorem rpm_verify_report_total : forall sigs nochain e, rpm_verify_report sigs nochain <> Panic e.
Proof.
  intros sigs nochain e. unfold rpm_verify_report. destruct (rpm_not_signed _); [discriminate|].
  apply bind_no_panic; [apply dedupe_no_panic|discriminate].
Qed.
Theorem rpm_nevra_no_panic : forall n, (forall e, rpm_nevra n <> Panic e) /\ rpm_nevra None = Ok [] /\ (forall p, rpm_nevra (Some p) = Ok p).
Proof.
  assert (K : forall p, rpm_nevra (Some p) = Ok p).
  { intros p. unfold rpm_nevra, rpm_nevra_cut. change (rpm_nevra_gives_up false) with false. change rpmu_nevra_ends_in_dot_rpm with true. cbv iota.
    rewrite zlen_app, Z.add_simpl_r. pose proof (zlen_nonneg p). replace (zlen p <? 0) with false by lia. now rewrite ztake_app_exact. }
  intros n. split; [|split; [reflexivity|exact K]].
  intros e. destruct n as [p|]; [rewrite K|]; discriminate.
Qed.
(* C11 C01 — the server's /sign endpoint (fix 57ef5f6): a signature type whose module is missing or can only verify (pkcs7: Sign is nil) is
   refused with an error, the nil function is never called; every other module is served *)
Theorem srv_sign_dispatch_spec : forall module_exists can_sign,
  (forall e, srv_sign_dispatch module_exists can_sign <> Panic e) /\ srv_sign_dispatch module_exists can_sign = Ok (module_exists && can_sign).
Proof. intros [] []; split; try discriminate; reflexivity. Qed.
Example srv_pkcs7_refused : srv_sign_dispatch true (negb (pkcs_sign_fn =? 0)) = Ok false.
Proof. reflexivity. Qed.

(* non-vacuity: a signer, a catalog, a manifest and an RPM on which the signers succeed *)
Definition ex_toy (S : signer) : crypto :=
  mkCrypto (fun _ => Some 5) (fun _ m => repeat 7 32) (fun _ _ _ _ _ => SigOk) (fun _ _ _ _ => SigOk)
           (fun _ => ([mkCert (sg_issuer S) (sg_serial S) 0], 0)) (fun _ => Err 0) (fun _ => 0).
Definition ex_signer : signer :=
  mkSigner 1 [48; 2; 49; 0] [9] [[48; 3; 2; 1; 5]] (mkAlg [96; 134; 72; 1; 101; 3; 4; 2; 1] [5; 0]) (mkAlg [42; 134; 72; 134; 247; 13; 1; 1; 1] [5; 0]) 5 true.
Definition ex_catalog : bytes :=
  enc_tlv 48 (enc_tlv 6 OID_sd ++ enc_tlv 160 (enc_tlv 48 (enc_tlv 2 [1] ++ enc_tlv 49 ex_alg ++
              enc_tlv 48 (enc_tlv 6 OID_ctl ++ enc_tlv 160 (enc_tlv 48 [4; 1; 7])) ++ enc_tlv 49 []))).
Example ex_signer_wf : signer_wf ex_signer.
Proof.
  unfold signer_wf, ex_signer. cbn [sg_issuer sg_serial sg_dalg sg_ealg sg_chain sg_samekey].
  assert (V : forall tag body, tag_ok tag -> zlen body < 100 -> all_bytes body = true -> valid (mkTlv tag body (enc_tlv tag body))).
  { intros. apply valid_enc; [assumption|unfold small; lia|assumption]. }
  split. { exists (mkTlv 48 [49; 0] [48; 2; 49; 0]). split; [apply (V 48 [49; 0]); [tagok|cbn; lia|reflexivity]|reflexivity]. }
  split; [reflexivity|]. split; [reflexivity|]. split; [unfold small; cbn; lia|].
  assert (W : forall o, oid_ok o = true -> all_bytes o = true -> zlen o < 100 -> wf_alg (mkAlg o [5; 0])).
  { intros o H1 H2 H3. unfold wf_alg. cbn [a_oid a_params]. split; [exact H1|]. split; [exact H2|]. split; [unfold small; lia|].
    right. exists (mkTlv 5 [] [5; 0]). split; [apply (V 5 []); [tagok|cbn; lia|reflexivity]|reflexivity]. }
  split; [apply W; [reflexivity|reflexivity|cbn; lia]|]. split; [apply W; [reflexivity|reflexivity|cbn; lia]|].
  split. { constructor; [|constructor]. exists (mkTlv 48 [2; 1; 5] [48; 3; 2; 1; 5]). split; [apply (V 48 [2; 1; 5]); [tagok|cbn; lia|reflexivity]|reflexivity]. }
  split; [discriminate|reflexivity].
Qed.
Example ex_cat_signs : match cat_sign (ex_toy ex_signer) (fun _ d => d) ex_signer ex_catalog with
                       | Ok y => zlen y < 2 ^ 31 /\ cat_hashin ex_catalog = Ok [4; 1; 7] /\ detect ex_catalog = Some magic_FileTypeCAT /\
                                 is_ok (cat_sign (ex_toy ex_signer) (fun _ d => d) ex_signer y) = true
                       | _ => False
                       end.
Proof. vm_compute. repeat split; congruence. Qed.
Example ex_pkcs_signs :
  is_ok (pkcs_sign (ex_toy ex_signer) (fun _ d => d) ex_signer [104; 105] false None) = true /\
  is_ok (pkcs_sign (ex_toy ex_signer) (fun _ d => d) ex_signer [104; 105] true None) = true.
Proof. vm_compute. split; reflexivity. Qed.
Example ex_cosign_signs :
  match cosign_sign (fun _ _ => repeat 171 32) (fun _ d => d) 1 5 [123; 125] true (nth 0 cosign_allowed_types []) with
  | Ok o => co_layer_size o = zlen (co_payload o) /\ spec_b64_dec (co_sig_b64 o) = Some (co_sig o)
  | _ => False
  end.
Proof. vm_compute. split; reflexivity. Qed.
(* a small RPM: lead, signature header with one (SHA1) tag, header without entries, three payload bytes; and a signed signature header *)
Definition ex_lead : bytes := [237; 171; 238; 219] ++ repeat 0 92.
Definition ex_hdr (tag typ cnt : Z) (store : bytes) : bytes :=
  [142; 173; 232; 1; 0; 0; 0; 0; 0; 0; 0; 1] ++ be_enc 4 (zlen store) ++ be_enc 4 tag ++ be_enc 4 typ ++ [0; 0; 0; 0] ++ be_enc 4 cnt ++ store.
Definition ex_rpm : bytes := ex_lead ++ ex_hdr 269 6 1 [97; 98; 0; 0; 0; 0; 0; 0] ++ [142; 173; 232; 1; 0; 0; 0; 0; 0; 0; 0; 0; 0; 0; 0; 0] ++ [1; 2; 3].
Definition ex_blob : bytes := ex_lead ++ ex_hdr 268 7 8 [1; 2; 3; 4; 5; 6; 7; 8].
Example ex_rpm_signs :
  rpm_embed_b ex_rpm ex_blob = Ok (ex_blob ++ [142; 173; 232; 1; 0; 0; 0; 0; 0; 0; 0; 0; 0; 0; 0; 0] ++ [1; 2; 3]) /\
  rpm_extract ex_rpm = Ok None /\ rpm_hashin_all ex_rpm = Ok ([142; 173; 232; 1; 0; 0; 0; 0; 0; 0; 0; 0; 0; 0; 0; 0] ++ [1; 2; 3]) /\
  option_map rp_payload (spec_rpm_split ex_rpm) = Some [1; 2; 3].
Proof. vm_compute. repeat split; reflexivity. Qed.
