(* FmtCAT/ProofsCodec.v — the text codecs (hex, base64, the JSON subset) against their specification readers, and the cosign
   payload / signature manifest decisions. *)
From Relic Require Import Base.Prelude Base.Enc Base.Slice C16.Tlv Generated.FmtCAT_gen FmtCAT.Model.

Local Open Scope Z_scope.

Lemma hex_enc_cons b l : hex_enc (b :: l) = hexd (b / 16) :: hexd (b mod 16) :: hex_enc l.
Proof. reflexivity. Qed.
Lemma hexd_dec n : 0 <= n < 16 -> spec_hexv (hexd n) = Some n.
Proof.
  intros H. unfold hexd, spec_hexv. destruct (n <? 10) eqn:E.
  - replace ((48 <=? 48 + n) && (48 + n <=? 57)) with true by lia. f_equal. lia.
  - replace ((48 <=? 87 + n) && (87 + n <=? 57)) with false by lia.
    replace ((97 <=? 87 + n) && (87 + n <=? 102)) with true by lia. f_equal. lia.
Qed.
Theorem hex_roundtrip l : all_bytes l = true -> spec_hex_dec (hex_enc l) = Some l.
Proof.
  induction l as [|b l IH]; intros Hb; [reflexivity|].
  apply all_bytes_cons in Hb as [Hr Hb]. rewrite hex_enc_cons. cbn [spec_hex_dec].
  rewrite !hexd_dec, (IH Hb) by lia. do 2 f_equal. lia.
Qed.
Lemma hex_enc_len l : zlen (hex_enc l) = 2 * zlen l.
Proof. induction l as [|b l IH]; [reflexivity|]. rewrite hex_enc_cons, !zlen_cons, IH. lia. Qed.

(* the digest string go-digest builds is read back by the OCI reader: algorithm, and the raw digest *)
Lemma split_colon_app a r : ~ In 58 a -> split_colon (a ++ 58 :: r) = Some (a, r).
Proof.
  induction a as [|c a IH]; intros H; [reflexivity|]. cbn [app split_colon].
  destruct (c =? 58) eqn:E; [exfalso; apply H; left; lia|]. rewrite IH; [reflexivity|]. intro Hi. apply H. right. exact Hi.
Qed.
Theorem digest_wellformed name raw :
  In name [A_sha256; A_sha384; A_sha512] -> all_bytes raw = true ->
  zlen raw = (if bytes_eqb name A_sha256 then 32 else if bytes_eqb name A_sha384 then 48 else 64) ->
  spec_digest_parse (digest_str name raw) = Some (name, raw).
Proof.
  intros Hin Hb Hl. unfold spec_digest_parse, digest_str. cbn [app].
  destruct Hin as [<-|[<-|[<-|[]]]]; rewrite split_colon_app, (hex_roundtrip raw Hb), Hl by (cbn [In A_sha256 A_sha384 A_sha512]; lia); reflexivity.
Qed.

(* the alphabet is a table of 64 entries: each is checked *)
Lemma b64v_c n : 0 <= n < 64 -> spec_b64v (b64c n) = Some n /\ b64c n <> 61.
Proof.
  intros H.
  assert (T : forallb (fun k => match spec_b64v (b64c k) with Some m => (m =? k) && negb (b64c k =? 61) | None => false end)
                      (map Z.of_nat (seq 0 64)) = true) by reflexivity.
  assert (I : In n (map Z.of_nat (seq 0 64))) by (apply in_map_iff; exists (Z.to_nat n); split; [lia|apply in_seq; lia]).
  apply (proj1 (forallb_forall _ _) T) in I. destruct (spec_b64v (b64c n)) as [m|]; [|discriminate]. split; [f_equal|]; lia.
Qed.
Lemma div_mod_pack q r n : 0 <= r < n -> (q * n + r) / n = q /\ (q * n + r) mod n = r.
Proof.
  intros H. split.
  - rewrite Z.div_add_l, Z.div_small by lia. apply Z.add_0_r.
  - rewrite Z.add_comm, Z.mod_add, Z.mod_small by lia. reflexivity.
Qed.
Lemma div_mod_split x n : 0 < n -> x = x / n * n + x mod n /\ 0 <= x mod n < n.
Proof. intros H. split; [rewrite Z.mul_comm; apply Z.div_mod; lia|apply Z.mod_pos_bound, H]. Qed.
(* how three octets are spread over four sextets and gathered again; the shorter tails are the cases c = 0 and b = c = 0 *)
Lemma sextets a b c : 0 <= a < 256 -> 0 <= b < 256 -> 0 <= c < 256 ->
  (0 <= a / 4 < 64 /\ 0 <= a mod 4 * 16 + b / 16 < 64 /\ 0 <= b mod 16 * 4 + c / 64 < 64 /\ 0 <= c mod 64 < 64) /\
  a / 4 * 4 + (a mod 4 * 16 + b / 16) / 16 = a /\
  (a mod 4 * 16 + b / 16) mod 16 * 16 + (b mod 16 * 4 + c / 64) / 4 = b /\
  (b mod 16 * 4 + c / 64) mod 4 * 64 + c mod 64 = c.
Proof.
  intros Ha Hb Hc.
  destruct (div_mod_split a 4 eq_refl) as [Ea Ma], (div_mod_split b 16 eq_refl) as [Eb Mb], (div_mod_split c 64 eq_refl) as [Ec Mc].
  (* with quotients and remainders as variables what is left is linear, and lia need not take / and mod apart *)
  revert Ea Ma Eb Mb Ec Mc. generalize (a / 4), (a mod 4), (b / 16), (b mod 16), (c / 64), (c mod 64).
  intros a1 a0 b1 b0 c1 c0 Ea Ma Eb Mb Ec Mc.
  destruct (div_mod_pack a0 b1 16) as [-> ->]; [lia|]. destruct (div_mod_pack b0 c1 4) as [-> ->]; [lia|]. lia.
Qed.
Lemma list_ind3 {A} (P : list A -> Prop) : P [] -> (forall a, P [a]) -> (forall a b, P [a; b]) ->
  (forall a b c r, P r -> P (a :: b :: c :: r)) -> forall l, P l.
Proof. intros H0 H1 H2 H3. fix IH 1. intros [|a [|b [|c r]]]; [exact H0|apply H1|apply H2|apply H3, IH]. Qed.
Lemma b64_dec_nil fuel : spec_b64_dec_f fuel [] = Some [].
Proof. destruct fuel; reflexivity. Qed.
(* every group of four characters costs the reader one unit of fuel *)
Lemma b64_rt l : all_bytes l = true -> forall fuel, (length (b64_enc l) <= 4 * fuel)%nat ->
  spec_b64_dec_f fuel (b64_enc l) = Some l.
Proof.
  induction l as [|a|a b|a b c r IH] using list_ind3; intros Hb fuel Hf; [apply b64_dec_nil|..];
    (destruct fuel as [|f]; [cbn [b64_enc length] in Hf; lia|]).
  - apply all_bytes_cons in Hb as [Ha _].
    destruct (sextets a 0 0 Ha) as ((R1 & R2 & _) & Ea & _); [lia..|]. rewrite Z.add_0_r in *.
    cbn [b64_enc spec_b64_dec_f]. rewrite (proj1 (b64v_c _ R1)), (proj1 (b64v_c _ R2)), Ea, Z_mod_mult. reflexivity.
  - apply all_bytes_cons in Hb as [Ha Hb]. apply all_bytes_cons in Hb as [Hb' _].
    destruct (sextets a b 0 Ha Hb') as ((R1 & R2 & R3 & _) & Ea & Eb & _); [lia|]. rewrite Z.add_0_r in *.
    cbn [b64_enc spec_b64_dec_f]. destruct (b64v_c _ R3) as [E3 N3].
    rewrite (proj1 (b64v_c _ R1)), (proj1 (b64v_c _ R2)), (proj2 (Z.eqb_neq _ _) N3), E3, Ea, Eb, Z_mod_mult. reflexivity.
  - assert (Hr : (length (b64_enc r) <= 4 * f)%nat) by (cbn [b64_enc length] in Hf; lia).
    apply all_bytes_cons in Hb as [Ha Hb]. apply all_bytes_cons in Hb as [Hb' Hb]. apply all_bytes_cons in Hb as [Hc Hb].
    destruct (sextets a b c Ha Hb' Hc) as ((R1 & R2 & R3 & R4) & Ea & Eb & Ec).
    cbn [b64_enc spec_b64_dec_f]. destruct (b64v_c _ R3) as [E3 N3]. destruct (b64v_c _ R4) as [E4 N4].
    rewrite (proj1 (b64v_c _ R1)), (proj1 (b64v_c _ R2)), (proj2 (Z.eqb_neq _ _) N3), E3, (proj2 (Z.eqb_neq _ _) N4), E4.
    cbn [andb]. rewrite (IH Hb _ Hr), Ea, Eb, Ec. reflexivity.
Qed.
Theorem b64_roundtrip l : all_bytes l = true -> spec_b64_dec (b64_enc l) = Some l.
Proof. intros Hb. apply (b64_rt l Hb). lia. Qed.

(* the local fixes of json_ser and json_safe as functions of their own *)
Fixpoint ser_members (m : list (bytes * json)) : bytes :=
  match m with
  | [] => []
  | [(k, x)] => json_quote k ++ [58] ++ json_ser x
  | (k, x) :: r => json_quote k ++ [58] ++ json_ser x ++ [44] ++ ser_members r
  end.
Fixpoint safe_members (m : list (bytes * json)) : bool :=
  match m with [] => true | (k, x) :: r => json_safe_str k && json_safe x && safe_members r end.
Lemma json_ser_obj m : json_ser (JObj m) = [123] ++ ser_members m ++ [125].
Proof. reflexivity. Qed.
Lemma json_safe_obj m : json_safe (JObj m) = safe_members m.
Proof. reflexivity. Qed.
Lemma json_ind' (P : json -> Prop) : (forall s, P (JStr s)) -> (forall m, Forall (fun e => P (snd e)) m -> P (JObj m)) -> forall v, P v.
Proof.
  intros Hs Ho. fix IH 1. intros [s|m]; [apply Hs|apply Ho].
  induction m as [|[k x] r IHr]; constructor; [apply IH|exact IHr].
Qed.

Lemma chars_rt s rest : json_safe_str s = true -> spec_json_chars (s ++ 34 :: rest) = Some (s, rest).
Proof.
  induction s as [|c s IH]; intros H; [reflexivity|].
  cbn [json_safe_str forallb] in H. apply andb_true_iff in H as [Hc Hs]. unfold json_safe_char in Hc.
  cbn [app spec_json_chars]. replace (c =? 34) with false by lia. replace ((c =? 92) || (c <? 32)) with false by lia.
  now rewrite (IH Hs).
Qed.
Lemma quote_app k r : json_quote k ++ r = 34 :: k ++ 34 :: r.
Proof. unfold json_quote. cbn [app]. now rewrite <- app_assoc. Qed.
Lemma ser_members_cons k x p r : ser_members ((k, x) :: p :: r) = json_quote k ++ [58] ++ json_ser x ++ [44] ++ ser_members (p :: r).
Proof. reflexivity. Qed.

(* the reader's fuel: a value needs as much as it has characters, a member list one more *)
Definition value_reads (x : json) : Prop := json_safe x = true -> forall rest fuel, (length (json_ser x) <= fuel)%nat ->
  spec_json_value fuel (json_ser x ++ rest) = Some (x, rest).
Lemma members_rt m : Forall (fun e => value_reads (snd e)) m -> m <> [] -> safe_members m = true ->
  forall rest g, (length (ser_members m) < g)%nat -> spec_json_members g (ser_members m ++ 125 :: rest) = Some (m, rest).
Proof.
  induction 1 as [|[k x] r Hx _ IH]; [congruence|]. intros _ Hs rest g Hg. unfold value_reads in Hx. cbn [snd] in Hx.
  cbn [safe_members] in Hs. apply andb_true_iff in Hs as [Hs Hr]. apply andb_true_iff in Hs as [Hk Hxs].
  destruct g as [|g]; [lia|]. destruct r as [|p r].
  - cbn [ser_members] in *. rewrite !app_length in Hg. cbn [length] in Hg.
    rewrite quote_app. cbn [spec_json_members app]. repeat (rewrite <- app_assoc; cbn [app]).
    rewrite (chars_rt _ _ Hk), (Hx Hxs) by lia. reflexivity.
  - rewrite ser_members_cons in *. rewrite !app_length in Hg. cbn [length] in Hg.
    rewrite quote_app. cbn [spec_json_members app]. repeat (rewrite <- app_assoc; cbn [app]).
    rewrite (chars_rt _ _ Hk), (Hx Hxs), IH by (discriminate || assumption || lia). reflexivity.
Qed.
Lemma value_rt v : value_reads v.
Proof.
  induction v as [s|m IH] using json_ind'; intros Hs rest fuel Hf.
  - destruct fuel as [|f]; [cbn in Hf; lia|]. cbn [json_ser]. rewrite quote_app. cbn [spec_json_value]. now rewrite (chars_rt _ _ Hs).
  - rewrite json_ser_obj in *. rewrite json_safe_obj in Hs. rewrite !app_length in Hf. cbn [length] in Hf. destruct fuel as [|f]; [lia|].
    destruct m as [|e r]; [reflexivity|]. cbn [app]. rewrite <- app_assoc. cbn [app].
    assert (E : exists t, ser_members (e :: r) ++ 125 :: rest = 34 :: t).
    { destruct e as [k x], r; [cbn [ser_members]|rewrite ser_members_cons]; rewrite quote_app; eexists; reflexivity. }
    destruct E as [t E]. cbn [spec_json_value]. rewrite E, <- E.
    rewrite (members_rt _ IH); [reflexivity|discriminate|exact Hs|lia].
Qed.
Theorem json_roundtrip v : json_safe v = true -> spec_json_parse (json_ser v) = Some v.
Proof.
  intros H. unfold spec_json_parse. rewrite <- (app_nil_r (json_ser v)) at 2. rewrite (value_rt v H); [reflexivity|]. lia.
Qed.

Lemma cosign_layout_ok_true : cosign_layout_ok = true. Proof. vm_compute. reflexivity. Qed.
Definition K_critical : bytes := [99; 114; 105; 116; 105; 99; 97; 108].
Definition K_image : bytes := [105; 109; 97; 103; 101].
Definition K_dmd : bytes := [100; 111; 99; 107; 101; 114; 45; 109; 97; 110; 105; 102; 101; 115; 116; 45; 100; 105; 103; 101; 115; 116].
Definition K_type : bytes := [116; 121; 112; 101].
Definition K_optional : bytes := [111; 112; 116; 105; 111; 110; 97; 108].
Definition K_creator : bytes := [99; 114; 101; 97; 116; 111; 114].
Definition K_identity : bytes := [105; 100; 101; 110; 116; 105; 116; 121].
Definition V_type : bytes := (* "cosign container image signature" *)
  [99; 111; 115; 105; 103; 110; 32; 99; 111; 110; 116; 97; 105; 110; 101; 114; 32; 105; 109; 97; 103; 101; 32; 115; 105; 103; 110; 97; 116; 117; 114; 101].

Theorem payload_spec d p : cosign_payload d = Ok p ->
  exists j, spec_json_parse p = Some j /\
    json_get [K_critical; K_image; K_dmd] j = Some (JStr d) /\
    json_get [K_critical; K_type] j = Some (JStr V_type) /\
    json_get [K_optional; K_creator] j = Some (JStr relic_user_agent) /\
    json_keys j = [K_critical; K_optional] /\
    option_map json_keys (json_get [K_critical] j) = Some [K_image; K_type] /\
    json_get [K_critical; K_identity] j = None.
Proof.
  unfold cosign_payload. destruct (json_safe (cosign_payload_value d)) eqn:Hs; [|discriminate]. intros <-%Ok_inj.
  exists (cosign_payload_value d). split; [exact (json_roundtrip _ Hs)|]. repeat split; reflexivity.
Qed.
Lemma payload_safe d : json_safe_str d = true -> exists p, cosign_payload d = Ok p.
Proof.
  intros H. unfold cosign_payload.
  replace (json_safe (cosign_payload_value d)) with true; [eexists; reflexivity|].
  unfold cosign_payload_value. cbn [json_safe]. now rewrite H.
Qed.
Lemma hexd_safe n : 0 <= n < 16 -> json_safe_char (hexd n) = true.
Proof. intros H. unfold hexd, json_safe_char. destruct (n <? 10) eqn:E; lia. Qed.
Lemma hex_safe l : all_bytes l = true -> json_safe_str (hex_enc l) = true.
Proof.
  induction l as [|b l IH]; intros Hb; [reflexivity|]. apply all_bytes_cons in Hb as [Hr Hb].
  rewrite hex_enc_cons. cbn [json_safe_str forallb]. rewrite !hexd_safe by lia. exact (IH Hb).
Qed.
Lemma digest_str_safe name raw : In name [A_sha256; A_sha384; A_sha512] -> all_bytes raw = true -> json_safe_str (digest_str name raw) = true.
Proof.
  intros Hin Hb. unfold digest_str, json_safe_str. rewrite !forallb_app. fold (json_safe_str (hex_enc raw)). rewrite (hex_safe raw Hb).
  destruct Hin as [<-|[<-|[<-|[]]]]; reflexivity.
Qed.

Lemma cosign_alg_spec h : cosign_alg h =
  if h =? 5 then Some A_sha256 else if h =? 6 then Some A_sha384 else if h =? 7 then Some A_sha512 else None.
Proof. unfold cosign_alg, cosign_algorithms. cbn [assoc_z]. now rewrite (Z.eqb_sym 5), (Z.eqb_sym 6), (Z.eqb_sym 7). Qed.
Lemma cosign_alg_inv h name : cosign_alg h = Some name ->
  In name [A_sha256; A_sha384; A_sha512] /\
  (if h =? 5 then 32 else if h =? 6 then 48 else 64) = (if bytes_eqb name A_sha256 then 32 else if bytes_eqb name A_sha384 then 48 else 64).
Proof.
  rewrite cosign_alg_spec. destruct (h =? 5); [intros [= <-]; split; [left|]; reflexivity|].
  destruct (h =? 6); [intros [= <-]; split; [right; left|]; reflexivity|].
  destruct (h =? 7); [intros [= <-]; split; [right; right; left|]; reflexivity|discriminate].
Qed.
(* sign's size limit, then the guards of digestManifest, in source order *)
Lemma cosign_check_spec mlen h jok mt : cosign_check mlen h jok mt =
  if cosign_max_size <? mlen then Err E_COSIGN_BIG else
  match cosign_alg h with
  | None => Err E_COSIGN_ALG
  | Some name => if negb jok then Err E_COSIGN_JSON else if bytes_eqb mt [] then Err E_COSIGN_NOTYPE
                 else if existsb (bytes_eqb mt) cosign_allowed_types then Ok name else Err E_COSIGN_TYPE
  end.
Proof.
  unfold cosign_check, cosign_too_big, cosign_read_limit, cosign_dm_no_media_type, cosign_dm_type_refused.
  rewrite cosign_layout_ok_true. change (cosign_dm_alg_refused false) with true. change (cosign_dm_alg_refused true) with false. cbv iota.
  destruct (cosign_max_size <? mlen) eqn:E; [now replace (Z.min mlen (cosign_max_size + 1) >? cosign_max_size) with true by lia|].
  replace (Z.min mlen (cosign_max_size + 1) >? cosign_max_size) with false by lia. cbv iota.
  destruct (cosign_alg h); [|reflexivity]. now destruct (existsb _ _).
Qed.
Lemma cosign_check_ok mlen h jok mt name : cosign_check mlen h jok mt = Ok name <->
  mlen <= cosign_max_size /\ cosign_alg h = Some name /\ jok = true /\ mt <> [] /\ existsb (bytes_eqb mt) cosign_allowed_types = true.
Proof.
  rewrite cosign_check_spec, <- (bytes_eqb_neq mt []), <- Z.ltb_ge.
  destruct (cosign_max_size <? mlen); [split; [discriminate|intros [[=] _]]|].
  destruct (cosign_alg h) as [n|]; [|split; [discriminate|intros (_ & [=] & _)]].
  destruct jok; cbn [negb]; [|split; [discriminate|intros (_ & _ & [=] & _)]].
  destruct (bytes_eqb mt []); [split; [discriminate|intros (_ & _ & _ & [=] & _)]|].
  destruct (existsb _ _); [|split; [discriminate|intros (_ & _ & _ & _ & [=])]].
  split; [intros ->%Ok_inj; auto|intros (_ & [= ->] & _); reflexivity].
Qed.
