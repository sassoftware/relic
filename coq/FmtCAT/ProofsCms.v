(* FmtCAT/ProofsCms.v — magic.Detect; signers/cat.sign, the PKCS#7 sign / verify round trips over C16's CMS model. *)
From Relic Require Import Base.Prelude Base.Enc Base.Slice Generated.C16_gen C16.Model C16.Tlv C16.Proofs C16.VModel C16.VProofs Generated.FmtCAT_gen FmtCAT.Model.

Local Open Scope Z_scope.

Lemma has_prefix_len p : forall l, has_prefix p l = true -> zlen p <= zlen l.
Proof.
  induction p as [|a p IH]; intros l H; [rewrite zlen_nil; apply zlen_nonneg|].
  destruct l as [|b l]; [discriminate|]. cbn [has_prefix] in H. apply andb_true_iff in H as [_ H]. rewrite !zlen_cons. specialize (IH _ H). lia.
Qed.
Lemma contains_len p : forall l, contains_b p l = true -> zlen p <= zlen l.
Proof.
  induction l as [|b l IH]; intros H; cbn [contains_b] in H.
  - rewrite orb_false_r in H. apply has_prefix_len. exact H.
  - apply orb_true_iff in H as [H|H]; [apply has_prefix_len; exact H|]. specialize (IH H). rewrite zlen_cons. lia.
Qed.
Lemma ztake_len_le {A} n (l : list A) : zlen (ztake n l) <= zlen l /\ (0 <= n <= zlen l -> zlen (ztake n l) = n).
Proof. split; [apply zlen_ztake_le|apply zlen_ztake]. Qed.
Lemma test_prefix t p f : magic_test (0, t, p, 0) f = has_prefix p f.
Proof.
  unfold magic_test. change (0 =? 0) with true. cbv iota. unfold magic_at_short.
  destruct (has_prefix p f) eqn:E; [|apply andb_false_r].
  apply has_prefix_len in E. pose proof (zlen_nonneg p). rewrite zlen_ztake by lia. replace (zlen p <? zlen p) with false by lia. reflexivity.
Qed.
Lemma test_contains t p w f : magic_test (1, t, p, w) f = contains_b p (ztake w f).
Proof.
  unfold magic_test. change (1 =? 0) with false. cbv iota.
  destruct (contains_b p (ztake w f)) eqn:E; [|apply andb_false_r].
  apply contains_len in E. replace (zlen (ztake w f) <? zlen p) with false by lia. reflexivity.
Qed.
Definition P_rpm : bytes := [237; 171; 238; 219].
Definition P_deb : bytes := [33; 60; 97; 114; 99; 104; 62; 10; 100; 101; 98; 105; 97; 110].
Definition P_pgp : bytes := [45; 45; 45; 45; 45; 66; 69; 71; 73; 78; 32; 80; 71; 80].
Definition P_ctl : bytes := 6 :: 9 :: OID_ctl.
Definition P_sd : bytes := 6 :: 9 :: enc_oid oid_signed_data.
(* the clauses, in order: what magic.Detect answers is decided by three prefixes and two markers in the first 256 bytes *)
Theorem detect_spec f :
  detect f = if has_prefix P_rpm f then Some magic_FileTypeRPM else if has_prefix P_deb f then Some magic_FileTypeDEB
             else if has_prefix P_pgp f then Some magic_FileTypePGP
             else if contains_b P_ctl (ztake 256 f) then Some magic_FileTypeCAT
             else if contains_b P_sd (ztake 256 f) then Some magic_FileTypePKCS7 else None.
Proof.
  unfold detect. change magic_helpers_ok with true. cbv iota. unfold magic_table. cbn [detect_in magic_type].
  rewrite !test_prefix, !test_contains. reflexivity.
Qed.
Theorem routes_pkcs7 r : contains_b P_ctl (ztake 256 (48 :: r)) = false -> contains_b P_sd (ztake 256 (48 :: r)) = true ->
  detect (48 :: r) = Some magic_FileTypePKCS7.
Proof. intros H1 H2. rewrite detect_spec. cbn [has_prefix P_rpm P_deb P_pgp Z.eqb andb]. rewrite H1, H2. reflexivity. Qed.

Definition signer_wf (S : signer) : Prop :=
  (exists ti, valid ti /\ sg_issuer S = t_full ti) /\
  all_bytes (sg_serial S) = true /\ int_ok (sg_serial S) = true /\ small (sg_serial S) /\
  wf_alg (sg_dalg S) /\ wf_alg (sg_ealg S) /\ wf_raws (sg_chain S) /\ sg_chain S <> [] /\ sg_samekey S = true.

(* the SignerInfo relic builds when there are no attributes, and its parsed form *)
Definition new_si (S : signer) (sig : bytes) : sinfo :=
  mkSi [] sign_si_Version (sg_issuer S) (sg_serial S) (sg_dalg S) None (sg_ealg S) sig None.
Definition si_body (S : signer) (sig : bytes) : bytes :=
  enc_tlv T_INT (enc_int sign_si_Version) ++ enc_tlv T_SEQ (sg_issuer S ++ enc_tlv T_INT (sg_serial S)) ++
  emit_algid (sg_dalg S) ++ emit_algid (sg_ealg S) ++ enc_tlv T_OCT sig.
Definition si_tlv (S : signer) (sig : bytes) : tlv := mkTlv T_SEQ (si_body S sig) (enc_tlv T_SEQ (si_body S sig)).
Definition parsed_si (S : signer) (sig : bytes) : sinfo :=
  mkSi (enc_tlv T_SEQ (si_body S sig)) sign_si_Version (sg_issuer S) (sg_serial S) (sg_dalg S) None (sg_ealg S) sig None.

Lemma emit_new_si S sig : emit_si (new_si S sig) = enc_tlv T_SEQ (si_body S sig).
Proof.
  unfold emit_si, new_si. cbn [si_raw]. unfold emit_si_fields. cbn [si_version si_issuer si_serial si_dalg si_auth si_ealg si_sig si_unauth emit_opt_attrs].
  unfold si_body. rewrite !app_nil_r. cbn [app]. reflexivity.
Qed.

Lemma one_valid t : valid t -> one (t_full t) = Some t.
Proof. intros Hv. unfold one. now rewrite (read_all_one t Hv). Qed.
Lemma children_of tag body ts : tag_ok tag -> Forall valid ts -> body = concat (map t_full ts) ->
  children (mkTlv tag body (enc_tlv tag body)) = Some ts.
Proof. intros _ Hv ->. unfold children. cbn [t_body]. rewrite read_all_concat by exact Hv. reflexivity. Qed.
(* one level of a DER tree: the element whose content is a run of elements.  If they are valid, it is valid and the RFC reader
   finds exactly them; sizes pass downwards *)
Definition node (tag : Z) (ts : list tlv) : tlv := mkTlv tag (concat (map t_full ts)) (enc_tlv tag (concat (map t_full ts))).
Lemma level tag ts : tag_ok tag -> Forall valid ts -> small (t_full (node tag ts)) ->
  valid (node tag ts) /\ children (node tag ts) = Some ts.
Proof.
  intros Ht Hv Hs. split; [|now apply children_of].
  apply valid_enc; [exact Ht|exact (small_enc_tlv _ _ Hs)|now apply all_bytes_concat_valid].
Qed.
Lemma node_small tag ts : small (t_full (node tag ts)) -> Forall small (map t_full ts).
Proof. intros Hs. exact (small_concat _ (small_enc_tlv _ _ Hs)). Qed.

(* a list of elements written out, each valid by a hypothesis *)
Ltac all_valid := repeat (apply Forall_cons; [assumption|]); apply Forall_nil.

Lemma si_reparse S sig : signer_wf S -> all_bytes sig = true -> small (enc_tlv T_SEQ (si_body S sig)) ->
  valid (si_tlv S sig) /\ t_tag (si_tlv S sig) = T_SEQ /\ parse_si (si_tlv S sig) = Ok (parsed_si S sig) /\
  exists t1 t2 t3 t4 t5, read_all (si_body S sig) = Ok [t1; t2; t3; t4; t5] /\ t_tag t4 = T_SEQ.
Proof.
  intros ((ti & Hvi & Hi) & Hsb & Hsi & Hss & Hd & He & _) Hsig Hsm.
  (* SEQUENCE { version, SEQUENCE { issuer, serial }, digest algorithm, signature algorithm, signature } *)
  set (t1 := mkTlv T_INT [1] (enc_tlv T_INT [1])).
  set (tser := mkTlv T_INT (sg_serial S) (enc_tlv T_INT (sg_serial S))).
  set (t2 := node T_SEQ [ti; tser]).
  set (t3 := mk_alg (sg_dalg S)). set (t4 := mk_alg (sg_ealg S)). set (t5 := mkTlv T_OCT sig (enc_tlv T_OCT sig)).
  assert (Ebody : si_body S sig = concat (map t_full [t1; t2; t3; t4; t5])).
  { unfold si_body. rewrite Hi. cbn [map concat t_full node t1 t2 tser t3 t4 t5 mk_alg]. now rewrite !app_nil_r. }
  unfold si_tlv, parsed_si. rewrite Ebody in *.
  pose proof (node_small T_SEQ [t1; t2; t3; t4; t5] Hsm) as Sel. cbn [map] in Sel.
  apply Forall_cons_iff in Sel as [_ Sel]. apply Forall_cons_iff in Sel as [S2 Sel]. apply Forall_cons_iff in Sel as [S3 Sel].
  apply Forall_cons_iff in Sel as [S4 Sel]. apply Forall_cons_iff in Sel as [S5 _].
  assert (V1 : valid t1) by (apply valid_enc; [tagok|unfold small; cbn; lia|reflexivity]).
  assert (Vser : valid tser) by (apply valid_enc; [tagok|exact Hss|exact Hsb]).
  destruct (level T_SEQ [ti; tser]) as [V2 _]; [tagok|all_valid|exact S2|].
  destruct (algid_reparse _ Hd S3) as (V3 & T3 & P3). destruct (algid_reparse _ He S4) as (V4 & T4 & P4). fold t3 in V3, T3, P3. fold t4 in V4, T4, P4.
  assert (V5 : valid t5) by (apply valid_enc; [tagok|exact (small_enc_tlv _ _ S5)|exact Hsig]).
  assert (Vall : Forall valid [t1; t2; t3; t4; t5]) by all_valid.
  destruct (level T_SEQ [t1; t2; t3; t4; t5]) as [Vt _]; [tagok|exact Vall|exact Hsm|].
  split; [exact Vt|]. split; [reflexivity|]. split; [|exists t1, t2, t3, t4, t5; split; [now apply read_all_concat|exact T4]].
  (* the reader goes through the five elements; inside the second it finds the issuer and the serial number *)
  unfold parse_si. cbn [t_body t_full map concat].
  rewrite (read_expect_valid T_INT t1) by (exact V1 || reflexivity). cbn [bind fst snd t1 t_body]. change (int64_ok [1]) with true. cbn [negb].
  rewrite (read_expect_valid T_SEQ t2) by (exact V2 || reflexivity). cbn [bind fst snd t2 node t_body map concat].
  rewrite (read_tlv_valid ti) by exact Hvi. cbn [bind fst snd].
  rewrite (read_expect_valid T_INT tser) by (exact Vser || reflexivity). cbn [bind fst snd tser t_body]. rewrite Hsi. cbn [negb].
  rewrite (read_expect_valid T_SEQ t3) by (exact V3 || exact T3). cbn [bind fst snd]. rewrite P3. cbn [bind].
  rewrite auth_opt_v, read_optional_absent by (exact V4 || (rewrite T4, OCT_auth_v; discriminate)). cbn [bind fst snd opt_attrs].
  rewrite (read_expect_valid T_SEQ t4) by (exact V4 || exact T4). cbn [bind fst snd]. rewrite P4. cbn [bind].
  rewrite (read_expect_valid T_OCT t5) by (exact V5 || reflexivity). cbn [bind fst snd t5 t_body].
  rewrite unauth_opt_v, read_optional_absent_nil. cbn [bind fst snd opt_attrs]. now rewrite <- Hi.
Qed.

Definition OID_sd : bytes := enc_oid oid_signed_data.
Definition built_sd (S : signer) (ci : cinfo) (sig : bytes) : sdata :=
  mkSd sign_sd_Version [sg_dalg S] ci (Some (sg_chain S)) None [new_si S sig].
Definition parsed_sd (S : signer) (ci : cinfo) (sig : bytes) : sdata :=
  mkSd sign_sd_Version [sg_dalg S] ci (Some (sg_chain S)) None [parsed_si S sig].

Lemma emit_parsed_si S sig : signer_wf S -> all_bytes sig = true -> small (enc_tlv T_SEQ (si_body S sig)) ->
  emit_si (parsed_si S sig) = enc_tlv T_SEQ (si_body S sig) /\ wf_si (parsed_si S sig).
Proof.
  intros Hw Hs Hsm. destruct (si_reparse S sig Hw Hs Hsm) as (Hv & Ht & Hp & _).
  assert (W : wf_si (parsed_si S sig)) by (exists (si_tlv S sig); auto).
  split; [|exact W]. rewrite (emit_si_wf _ W). reflexivity.
Qed.
Lemma small_sis_inner S ci sig : small (emit_cms (mkCms OID_sd (Some (built_sd S ci sig)))) -> small (enc_tlv T_SEQ (si_body S sig)).
Proof.
  unfold emit_cms. cbn [o_ctype o_sd]. intros H. apply small_enc_tlv in H. apply small_app in H as [_ H].
  apply small_enc_tlv in H. apply small_enc_tlv in H. unfold emit_sd_body, built_sd in H.
  cbn [sd_version sd_dalgs sd_ci sd_certs sd_crls sd_sis map] in H.
  repeat (apply small_app in H as [_ H]). apply small_enc_tlv in H. rewrite sis_set_v in H. cbn [maybe_sort sort_b fold_right insert_b concat] in H.
  rewrite app_nil_r in H. rewrite emit_new_si in H. exact H.
Qed.
Lemma wf_OID_sd : oid_ok OID_sd = true /\ all_bytes OID_sd = true /\ small OID_sd.
Proof. split; [vm_compute; reflexivity|]. split; [vm_compute; reflexivity|]. unfold small. vm_compute. reflexivity. Qed.

Lemma wf_parsed S ci sig : signer_wf S -> all_bytes sig = true -> wf_ci ci -> small (enc_tlv T_SEQ (si_body S sig)) ->
  wf_cms (mkCms OID_sd (Some (parsed_sd S ci sig))).
Proof.
  intros Hw Hs Hci Hsi. destruct wf_OID_sd as (H1 & H2 & H3). unfold wf_cms. cbn [o_ctype o_sd].
  split; [exact H1|]. split; [exact H2|]. split; [exact H3|]. unfold wf_sd.
  split. { exists [1]. split; [reflexivity|]. split; [reflexivity|]. split; [unfold small; cbn; lia|reflexivity]. }
  split. { cbn [parsed_sd sd_dalgs]. constructor; [|constructor]. apply Hw. }
  split. { exact Hci. }
  split. { cbn [parsed_sd sd_certs opt_list]. apply Hw. }
  split. { cbn [parsed_sd sd_crls opt_list]. constructor. }
  cbn [parsed_sd sd_sis]. constructor; [|constructor]. apply (emit_parsed_si S sig Hw Hs Hsi).
Qed.
Lemma emit_built_parsed S ci sig : signer_wf S -> all_bytes sig = true -> small (enc_tlv T_SEQ (si_body S sig)) ->
  emit_cms (mkCms OID_sd (Some (built_sd S ci sig))) = emit_cms (mkCms OID_sd (Some (parsed_sd S ci sig))).
Proof.
  intros Hw Hs Hsi. unfold emit_cms, emit_sd_body, built_sd, parsed_sd. cbn [o_ctype o_sd sd_version sd_dalgs sd_ci sd_certs sd_crls sd_sis map].
  now rewrite emit_new_si, (proj1 (emit_parsed_si S sig Hw Hs Hsi)).
Qed.
Lemma enc_tlv_bytes tag body : tag_ok tag -> small body -> all_bytes body = true -> all_bytes (enc_tlv tag body) = true.
Proof. intros Ht Hs Hb. exact (valid_full_bytes _ (valid_enc tag body Ht Hs Hb)). Qed.
Lemma emit_cms_bytes o sd : wf_cms o -> o_sd o = Some sd -> small (emit_cms o) -> all_bytes (emit_cms o) = true.
Proof.
  intros (_ & H2 & H3 & Hwsd) Hsd Hsm. rewrite Hsd in Hwsd. unfold emit_cms in *. rewrite Hsd in *.
  pose proof (small_enc_tlv _ _ Hsm) as S1. destruct (small_app _ _ S1) as [_ S2].
  pose proof (small_enc_tlv _ _ S2) as S3. pose proof (small_enc_tlv _ _ S3) as S4.
  apply enc_tlv_bytes; [tagok|exact S1|]. apply all_bytes_app_iff. split; [apply enc_tlv_bytes; [tagok|exact H3|exact H2]|].
  apply enc_tlv_bytes; [tagok|exact S3|]. apply enc_tlv_bytes; [tagok|exact S4|]. exact (emit_sd_body_bytes _ Hwsd S4).
Qed.

(* what pkcs7.Unmarshal makes of the bytes relic writes: the signer info now carries its encoding *)
Theorem built_reparse S ci sig : signer_wf S -> all_bytes sig = true -> wf_ci ci ->
  small (emit_cms (mkCms OID_sd (Some (built_sd S ci sig)))) ->
  parse_cms (emit_cms (mkCms OID_sd (Some (built_sd S ci sig)))) = Ok (mkCms OID_sd (Some (parsed_sd S ci sig))) /\
  all_bytes (emit_cms (mkCms OID_sd (Some (built_sd S ci sig)))) = true /\ small (enc_tlv T_SEQ (si_body S sig)).
Proof.
  intros Hw Hs Hci Hsm. pose proof (small_sis_inner _ _ _ Hsm) as Hsi.
  rewrite (emit_built_parsed S ci sig Hw Hs Hsi) in Hsm |- *.
  pose proof (wf_parsed S ci sig Hw Hs Hci Hsi) as Hwf.
  split; [|split; [apply (emit_cms_bytes _ _ Hwf eq_refl Hsm)|exact Hsi]].
  rewrite cms_reparse; [|exact Hwf|exact Hsm].
  unfold norm_cms, norm_sd, parsed_sd. cbn [o_ctype o_sd option_map sd_version sd_dalgs sd_ci sd_certs sd_crls sd_sis sort_on fold_right insert_on]. reflexivity.
Qed.

(* the RFC 5652 walker accepts every catalog relic writes and finds: the input's encapsulated content info, the configured chain, no CRL,
   the one new signer info *)
Lemma spec_regions_parsed S ci sig : signer_wf S -> all_bytes sig = true -> wf_ci ci ->
  small (emit_cms (mkCms OID_sd (Some (parsed_sd S ci sig)))) -> small (enc_tlv T_SEQ (si_body S sig)) ->
  spec_regions (emit_cms (mkCms OID_sd (Some (parsed_sd S ci sig)))) =
  Some (mkReg (ci_raw ci) (sort_b (sg_chain S)) [] [enc_tlv T_SEQ (si_body S sig)]).
Proof.
  intros Hw Hs Hci Hsm Hsi.
  destruct (si_reparse S sig Hw Hs Hsi) as (Vsi & Tsi & _).
  destruct (emit_parsed_si S sig Hw Hs Hsi) as [Esi _].
  destruct (wf_ci_mk _ Hci) as (Veci & Teci & _). pose proof (emit_ci_wf _ Hci) as Eci.
  destruct Hw as (_ & _ & _ & _ & Hd & _ & Hch & _).
  destruct (wf_raws_read _ Hch) as (cts & Vcts & Ech).
  destruct wf_OID_sd as (_ & O2 & O3).
  (* the tree that was written: SEQUENCE { OID, [0] { SEQUENCE { version, SET { algorithm }, content info, [0] { chain }, SET { signer info } } } } *)
  set (tver := mkTlv T_INT [1] (enc_tlv T_INT [1])).
  set (tdal := node OCT_dalgs [mk_alg (sg_dalg S)]).
  set (teci := mk_raw (ci_raw ci)) in *.
  set (tcerts := node OCT_certs cts).
  set (tsis := node OCT_sis [si_tlv S sig]).
  set (sdt := node T_SEQ [tver; tdal; teci; tcerts; tsis]).
  set (wrap := node OCT_explicit [sdt]).
  set (ct := mkTlv T_OID OID_sd (enc_tlv T_OID OID_sd)).
  set (top := node T_SEQ [ct; wrap]).
  assert (Etop : emit_cms (mkCms OID_sd (Some (parsed_sd S ci sig))) = t_full top).
  { unfold emit_cms, emit_sd_body, parsed_sd. cbn [o_ctype o_sd sd_version sd_dalgs sd_ci sd_certs sd_crls sd_sis map option_map emit_opt_list].
    rewrite dalgs_set_v, sis_set_v, certs_set_v, Eci, Esi, Ech. cbn [maybe_sort sort_b fold_right insert_b].
    cbn [top wrap sdt tsis tcerts teci tdal tver ct node mk_raw mk_alg si_tlv t_full map concat]. rewrite !app_nil_r. reflexivity. }
  rewrite Etop in Hsm |- *.
  (* sizes from the top down, validity and children from the leaves up *)
  pose proof (node_small _ _ Hsm) as Stop. cbn [map] in Stop.
  apply Forall_cons_iff in Stop as [_ Stop]. apply Forall_cons_iff in Stop as [Swrap _].
  pose proof (node_small _ _ Swrap) as Ssdt. cbn [map] in Ssdt. apply Forall_cons_iff in Ssdt as [Ssdt _].
  pose proof (node_small _ _ Ssdt) as Sel. cbn [map] in Sel.
  apply Forall_cons_iff in Sel as [_ Sel]. apply Forall_cons_iff in Sel as [Sdal Sel]. apply Forall_cons_iff in Sel as [_ Sel].
  apply Forall_cons_iff in Sel as [Scerts Sel]. apply Forall_cons_iff in Sel as [Ssis _].
  assert (Vver : valid tver) by (apply valid_enc; [tagok|unfold small; cbn; lia|reflexivity]).
  assert (Valg : valid (mk_alg (sg_dalg S))).
  { apply algid_reparse; [exact Hd|]. apply node_small, Forall_cons_iff in Sdal as [Sdal _]. exact Sdal. }
  destruct (level OCT_dalgs [mk_alg (sg_dalg S)]) as [Vdal _]; [rewrite OCT_dalgs_v; tagok|all_valid|exact Sdal|].
  destruct (level OCT_certs cts) as [Vcerts Ccerts]; [rewrite OCT_certs_v; tagok|exact Vcts|exact Scerts|].
  destruct (level OCT_sis [si_tlv S sig]) as [Vsis Csis]; [rewrite OCT_sis_v; tagok|all_valid|exact Ssis|].
  destruct (level T_SEQ [tver; tdal; teci; tcerts; tsis]) as [Vsdt Csdt]; [tagok|all_valid|exact Ssdt|].
  destruct (level OCT_explicit [sdt]) as [Vwrap Cwrap]; [rewrite OCT_explicit_v; tagok|all_valid|exact Swrap|].
  assert (Vct : valid ct) by (apply valid_enc; [tagok|exact O3|exact O2]).
  destruct (level T_SEQ [ct; wrap]) as [Vtop Ctop]; [tagok|all_valid|exact Hsm|].
  (* the walk *)
  fold top in Ctop. fold wrap in Cwrap. fold sdt in Csdt. fold tcerts in Ccerts. fold tsis in Csis.
  unfold spec_regions. rewrite (one_valid top Vtop), Ctop, Cwrap, Csdt. unfold spec_split_optional.
  cbn [t_tag node top ct wrap sdt tver tdal tcerts]. rewrite OCT_explicit_v, OCT_dalgs_v, OCT_certs_v, Teci.
  cbn [negb andb Z.eqb Pos.eqb T_SEQ T_OID T_INT t_tag node tsis]. rewrite OCT_sis_v, Ccerts. cbn [negb Z.eqb Pos.eqb]. rewrite Csis.
  cbn [map all_some forallb]. rewrite Tsi. cbn [t_full teci mk_raw si_tlv sort_b fold_right insert_b]. now rewrite <- Ech.
Qed.

Lemma has_empty_new C S sig : has_empty_m C (new_si S sig) = false.
Proof. unfold has_empty_m. rewrite has_empty_eq. reflexivity. Qed.
Lemma has_empty_parsed_si C S sig : signer_wf S -> all_bytes sig = true -> small (enc_tlv T_SEQ (si_body S sig)) ->
  has_empty_m C (parsed_si S sig) = false.
Proof.
  intros Hw Hs Hsm. destruct (si_reparse S sig Hw Hs Hsm) as (Hv & Ht & Hp & t1 & t2 & t3 & t4 & t5 & Hall & _).
  rewrite (has_empty_parsed C _ _ _ Hv Ht Hp Hall). reflexivity.
Qed.
(* Verify of a signer info without attributes depends on its fields only (not on whether it was built or parsed) *)
Lemma si_verify_fields C s content certs : si_auth s = None -> has_empty_m C s = false ->
  si_verify C s (Wby content) false certs =
  match c_hash_of C (si_dalg s) with
  | None => VReject EV_HASH
  | Some h => ref_finish (real_prims C) s certs (Some (c_H C h content))
  end.
Proof.
  intros Ha He. rewrite si_verify_unfold. unfold ref_si_verify. expose. rewrite Ha. cbn [opt_list]. change (zlen (@nil attr) =? 0) with true. cbv iota.
  rewrite <- has_empty_m_def, He. reflexivity.
Qed.

(* the step SignedData.Verify takes on relic's signer info, over the configured chain, for a given content *)
Definition si_step (C : crypto) (S : signer) (sig content : bytes) : vres :=
  ref_sd_step (hooks3 (real_prims C)) (Wby content) false (fst (c_parse_certs C (Some (sg_chain S))))
              (if snd (c_parse_certs C (Some (sg_chain S))) =? 0 then 0 else EV_PARSE) (new_si S sig).
Lemma step_parsed_eq C S sig content : signer_wf S -> all_bytes sig = true -> small (enc_tlv T_SEQ (si_body S sig)) ->
  ref_sd_step (hooks3 (real_prims C)) (Wby content) false (fst (c_parse_certs C (Some (sg_chain S))))
              (if snd (c_parse_certs C (Some (sg_chain S))) =? 0 then 0 else EV_PARSE) (parsed_si S sig) = si_step C S sig content.
Proof.
  intros Hw Hs Hsm. unfold si_step, ref_sd_step. rewrite hk_verify3, <- si_verify_def.
  set (certs := fst (c_parse_certs C (Some (sg_chain S)))).
  rewrite (si_verify_fields C (parsed_si S sig) content certs eq_refl (has_empty_parsed_si C S sig Hw Hs Hsm)).
  rewrite (si_verify_fields C (new_si S sig) content certs eq_refl (has_empty_new C S sig)). reflexivity.
Qed.
Lemma si_step_accept C S sig content c : si_step C S sig content = VAccept c ->
  exists h, c_hash_of C (sg_dalg S) = Some h /\
    find_cert (fst (c_parse_certs C (Some (sg_chain S)))) (sg_issuer S) (sg_serial S) = Some c /\
    signature_accepted C c (new_si S sig) (c_H C h content).
Proof.
  unfold si_step. intros H. apply (ref_sd_step_accept (hooks3 (real_prims C)) (Wby content) false _ _ (new_si S sig) c) in H.
  rewrite hk_verify3, <- si_verify_def in H.
  destruct (si_verify_accept_inv _ _ _ _ _ _ H) as (h & Hh & Hf & [(_ & _ & [Hk|Hk])|(Hne & _)]); [discriminate|eauto|destruct Hne; reflexivity].
Qed.
Lemma si_step_reject C S sig content h : c_hash_of C (sg_dalg S) = Some h ->
  (forall c, ~ signature_accepted C c (new_si S sig) (c_H C h content)) -> exists e, si_step C S sig content = VReject e.
Proof.
  intros Hh Hno. unfold si_step, ref_sd_step. rewrite hk_verify3, <- si_verify_def.
  set (certs := fst (c_parse_certs C (Some (sg_chain S)))).
  rewrite (si_verify_fields C (new_si S sig) content certs eq_refl (has_empty_new C S sig)). cbn [new_si si_dalg]. rewrite Hh.
  unfold ref_finish. expose. fold (new_si S sig).
  destruct (find_cert _ _ _) as [c|]; [|cbn [Z.eqb]; destruct (_ && _); eexists; reflexivity].
  specialize (Hno c). unfold signature_accepted in Hno.
  destruct (sig_decides (real_prims C) c (new_si S sig) (c_H C h content)); [destruct Hno; reflexivity|..]; cbn [sig_err];
    destruct (_ && _); eexists; reflexivity.
Qed.

(* which bytes the signer infos are checked against: the content the structure carries (o), the external content (ext) *)
Definition chosen (o ext : option bytes) : option bytes :=
  match o, ext with
  | Some b, None => Some b
  | Some b, Some e => if bytes_eqb e b then Some b else None
  | None, _ => ext
  end.
Lemma chosen_alone o : chosen o None = o.
Proof. now destruct o. Qed.
Lemma chosen_same b : chosen (Some b) (Some b) = Some b.
Proof. cbn [chosen]. now rewrite bytes_eqb_refl. Qed.
Lemma chosen_other b e : e <> b -> chosen (Some b) (Some e) = None.
Proof. intros H%bytes_eqb_neq. cbn [chosen]. now rewrite H. Qed.
Definition verdict (s : sinfo) (v : vres) : sdres := match v with VAccept c => SdAccept s c | VReject e => SdReject e end.
Lemma sd_verify_one C sd s ext o (step : bytes -> vres) : sd_sis sd = [s] -> ci_bytes (ci_raw (sd_ci sd)) = Ok o ->
  (forall content, ref_sd_step (hooks3 (real_prims C)) (Wby content) false (fst (c_parse_certs C (sd_certs sd)))
                               (if snd (c_parse_certs C (sd_certs sd)) =? 0 then 0 else EV_PARSE) s = step content) ->
  sd_verify C sd (ext_val ext) false =
  match chosen o ext with Some content => verdict s (step content) | None => SdReject EV_NEW end.
Proof.
  intros Hs Ho Hstep. rewrite sd_verify_def, sd_verify_eq. unfold ref_sd_verify, ref_sd_select. expose.
  rewrite <- ci_bytes_m_def, (proj2 (ci_bytes_m_ok C (sd_ci sd) o) Ho), Hs. change (zlen [s] =? 0) with false. cbv iota.
  destruct o as [b|], ext as [e|]; cbn [chosen]; try destruct (bytes_eqb e b); try reflexivity;
    cbn [ref_sd_loop]; rewrite Hstep; unfold verdict; now destruct (step _).
Qed.
(* hence Verify answers the same on the built structure and on what Unmarshal makes of its bytes; the accepted signer info
   differs only in carrying its encoding.  (r is a parameter so that users hand over the content already chosen: were it left
   to conversion, the kernel would unfold si_step into the interpreter.) *)
Lemma sd_verify_built C S ci sig ext o r : ci_bytes (ci_raw ci) = Ok o -> chosen o ext = r ->
  sd_verify C (built_sd S ci sig) (ext_val ext) false =
  match r with Some content => verdict (new_si S sig) (si_step C S sig content) | None => SdReject EV_NEW end.
Proof.
  intros Ho <-. apply (sd_verify_one C (built_sd S ci sig) (new_si S sig) ext o (si_step C S sig) eq_refl Ho).
  intros content. unfold si_step. cbn [built_sd sd_certs]. reflexivity.
Qed.
Lemma sd_verify_parsed C S ci sig ext o r : signer_wf S -> all_bytes sig = true -> small (enc_tlv T_SEQ (si_body S sig)) ->
  ci_bytes (ci_raw ci) = Ok o -> chosen o ext = r ->
  sd_verify C (parsed_sd S ci sig) (ext_val ext) false =
  match r with Some content => verdict (parsed_si S sig) (si_step C S sig content) | None => SdReject EV_NEW end.
Proof.
  intros Hw Hs Hsm Ho <-. apply (sd_verify_one C (parsed_sd S ci sig) (parsed_si S sig) ext o (si_step C S sig) eq_refl Ho).
  intros content. exact (step_parsed_eq C S sig content Hw Hs Hsm).
Qed.
Lemma verdict_accept s s' v c : verdict s v = SdAccept s' c -> v = VAccept c.
Proof. destruct v; [now intros [= _ ->]|discriminate]. Qed.

Lemma cat_layout_ok_true : cat_layout_ok = true. Proof. vm_compute. reflexivity. Qed.
Lemma builder_layout_ok_true : builder_layout_ok = true. Proof. vm_compute. reflexivity. Qed.
Lemma tsm_layout_ok_true : tsm_layout_ok = true. Proof. vm_compute. reflexivity. Qed.
Lemma pkcs_layout_ok_true : pkcs_layout_ok = true. Proof. vm_compute. reflexivity. Qed.

Lemma built_cms_noattrs ctype digest ci S sig :
  built_cms (mkB ctype digest None) ci (sg_chain S) (sg_issuer S) (sg_serial S) (sg_dalg S) (sg_ealg S) sig = mkCms OID_sd (Some (built_sd S ci sig)).
Proof.
  unfold built_cms, built_si, built_sd, new_si, OID_sd. destruct (builder_no_attrs (mkB ctype digest None) eq_refl) as [E _]. rewrite E. reflexivity.
Qed.
Lemma builder_sign_noattrs C sgn S ci digest : builder_sign C sgn S ci digest None =
  if (zlen (sg_chain S) <? 1) || negb (sg_samekey S) then Err E_BUILDER
  else Ok (mkCms OID_sd (Some (built_sd S ci (sgn (sg_key S) digest)))).
Proof.
  unfold builder_sign, b_sign_bad_cert. change (b_sign_no_content false) with false. cbv iota.
  destruct (_ || _); [reflexivity|].
  destruct (builder_no_attrs (mkB (ci_ctype ci) digest None) eq_refl) as [_ Ep]. rewrite Ep. cbn [bind fst snd].
  change (0 =? 0) with true. cbv iota. now rewrite built_cms_noattrs.
Qed.
Lemma chain_and_key S : (zlen (sg_chain S) <? 1) || negb (sg_samekey S) = false <-> sg_chain S <> [] /\ sg_samekey S = true.
Proof.
  split.
  - intros [H1 H2]%orb_false_iff. split; [intros E; now rewrite E in H1|now destruct (sg_samekey S)].
  - intros [Hc ->]. destruct (sg_chain S) as [|c l]; [congruence|]. rewrite zlen_cons, orb_false_r. pose proof (zlen_nonneg l). lia.
Qed.
Lemma ts_and_marshal_inv C o y : ts_and_marshal C o = Ok y -> y = emit_cms o /\ exists s c, sd_verify C (sd_of o) Wnil false = SdAccept s c.
Proof.
  unfold ts_and_marshal. rewrite tsm_layout_ok_true. cbn [negb]. destruct (sd_verify C (sd_of o) Wnil false) as [s c|e] eqn:E; [|discriminate].
  intros H. injection H as <-. split; [reflexivity|eauto].
Qed.
Lemma set_content_info_inv C h ci sc : set_content_info C h ci = Ok sc ->
  exists o, ci_bytes (ci_raw ci) = Ok o /\ sc = (ci, c_H C h (match o with Some b => b | None => [] end)).
Proof.
  unfold set_content_info. rewrite builder_layout_ok_true. cbn [negb]. intros (o & Ho & <-%Ok_inj)%bind_ok. now exists o.
Qed.
(* TimestampAndMarshal of what Sign built: the self check wants content in the structure, and accepts the new signer info's step over it *)
Lemma marshal_built_inv C S ci sig o y : ci_bytes (ci_raw ci) = Ok o -> ts_and_marshal C (mkCms OID_sd (Some (built_sd S ci sig))) = Ok y ->
  y = emit_cms (mkCms OID_sd (Some (built_sd S ci sig))) /\ exists b c, o = Some b /\ si_step C S sig b = VAccept c.
Proof.
  intros Ho (-> & s & c & Hv)%ts_and_marshal_inv. split; [reflexivity|]. unfold sd_of in Hv. cbn [o_sd] in Hv.
  rewrite (sd_verify_built C S ci sig None o o Ho (chosen_alone o) : sd_verify C _ Wnil false = _) in Hv.
  destruct o as [b|]; [|discriminate Hv]. exists b, c. split; [reflexivity|]. exact (verdict_accept _ _ _ _ Hv).
Qed.

Lemma cat_hashin_of x o sd b : parse_cms x = Ok o -> o_sd o = Some sd -> ci_bytes (ci_raw (sd_ci sd)) = Ok (Some b) -> cat_hashin x = Ok b.
Proof. intros Ho Hsd Hb. unfold cat_hashin, sd_of. rewrite Ho. cbn [bind]. now rewrite Hsd, Hb. Qed.
Lemma wf_ci_bytes c : wf_ci c -> all_bytes (ci_raw c) = true.
Proof. intros (t & Hv & _ & Hp). rewrite (parse_ci_raw t c Hp). now apply valid_full_bytes. Qed.
Lemma parse_cms_wf_ci x o sd : all_bytes x = true -> parse_cms x = Ok o -> o_sd o = Some sd -> wf_ci (sd_ci sd).
Proof.
  intros Hb Hp Hs. pose proof (parse_cms_wf x o Hb Hp) as (_ & _ & _ & Hw). rewrite Hs in Hw. apply Hw.
Qed.

(* everything the theorems about signers/cat.sign start from: the input is a SignedData over a certificate trust list with content b;
   the output is the emitted structure with the one new signer info, whose step the self check accepted, and reads back *)
Lemma cat_sign_inv C sgn S x y : all_bytes x = true -> signer_wf S -> (forall k d, all_bytes (sgn k d) = true) ->
  cat_sign C sgn S x = Ok y -> small y ->
  exists o sd b,
    parse_cms x = Ok o /\ o_sd o = Some sd /\ ci_ctype (sd_ci sd) = OID_ctl /\ wf_ci (sd_ci sd) /\
    ci_bytes (ci_raw (sd_ci sd)) = Ok (Some b) /\
    y = emit_cms (mkCms OID_sd (Some (built_sd S (sd_ci sd) (sgn (sg_key S) (c_H C (sg_hash S) b))))) /\
    parse_cms y = Ok (mkCms OID_sd (Some (parsed_sd S (sd_ci sd) (sgn (sg_key S) (c_H C (sg_hash S) b))))) /\
    all_bytes y = true /\ small (enc_tlv T_SEQ (si_body S (sgn (sg_key S) (c_H C (sg_hash S) b)))) /\
    exists c, si_step C S (sgn (sg_key S) (c_H C (sg_hash S) b)) b = VAccept c.
Proof.
  intros Hx Hw Hsg. unfold cat_sign, cat_refuses. rewrite cat_layout_ok_true. cbn [negb].
  (* unfolded in the goal, not in the hypothesis: read the other way round, this conversion makes the kernel run set_content_info *)
  intros (o & Ho & H)%bind_ok Hsm.
  destruct (bytes_eqb (ci_ctype (sd_ci (sd_of o))) OID_ctl) eqn:Ec; cbn [negb] in H; [|discriminate]. apply bytes_eqb_eq in Ec.
  destruct (o_sd o) as [sd|] eqn:Esd; unfold sd_of in *; rewrite Esd in *; [|discriminate Ec].
  apply bind_ok in H as (sc & (o' & Hcb & ->)%set_content_info_inv & H). cbn [fst snd] in H.
  apply bind_ok in H as (n & Hn & H). rewrite builder_sign_noattrs in Hn. destruct (_ || _); [discriminate Hn|]. apply Ok_inj in Hn as <-.
  apply (marshal_built_inv C S _ _ _ y Hcb) in H as (-> & b & c & -> & Hst).
  pose proof (parse_cms_wf_ci x o sd Hx Ho Esd) as Hci.
  destruct (built_reparse S (sd_ci sd) _ Hw (Hsg _ _) Hci Hsm) as (Hrep & Hby & Hsi).
  exists o, sd, b. do 9 (split; [assumption || reflexivity|]). now exists c.
Qed.

Lemma pkcs_verify_parsed C y sd nodigests path cf : parse_cms y = Ok (mkCms OID_sd (Some sd)) ->
  pkcs_verify C y nodigests path cf = Ok (sd_verify C sd (ext_val (pkcs_cblob nodigests path cf)) nodigests).
Proof. intros H. unfold pkcs_verify. rewrite pkcs_layout_ok_true, H. reflexivity. Qed.
Lemma cblob_none nod cf : pkcs_cblob nod [] cf = None.
Proof. unfold pkcs_cblob, pkcs_reads_content. cbn [bytes_eqb list_eqb negb]. rewrite andb_false_r. reflexivity. Qed.
Lemma cblob_some path cf : path <> [] -> pkcs_cblob false path cf = Some cf.
Proof. intros H. unfold pkcs_cblob, pkcs_reads_content. destruct path; [congruence|reflexivity]. Qed.

(* C01 (cat_sign_then_verify): relic's verifier, run on the bytes it wrote, accepts them under the certificate of the configured
   chain that matches the signer's issuer and serial number, checking the signature over the digest of the eContent octets *)
Theorem sign_then_verify C sgn S x y cf : all_bytes x = true -> signer_wf S -> (forall k d, all_bytes (sgn k d) = true) ->
  cat_sign C sgn S x = Ok y -> small y ->
  exists b c h, cat_hashin x = Ok b /\
    pkcs_verify C y false [] cf = Ok (SdAccept (parsed_si S (sgn (sg_key S) (c_H C (sg_hash S) b))) c) /\
    find_cert (fst (c_parse_certs C (Some (sg_chain S)))) (sg_issuer S) (sg_serial S) = Some c /\
    c_hash_of C (sg_dalg S) = Some h /\
    signature_accepted C c (new_si S (sgn (sg_key S) (c_H C (sg_hash S) b))) (c_H C h b).
Proof.
  intros Hb Hw Hsg H Hsm.
  destruct (cat_sign_inv C sgn S x y Hb Hw Hsg H Hsm) as (o & sd & b & Ho & Hsd & _ & _ & Hcb & _ & Hrep & _ & Hsi & c & Hst).
  destruct (si_step_accept _ _ _ _ _ Hst) as (h & Hh & Hf & Hk).
  exists b, c, h. split; [exact (cat_hashin_of x o sd b Ho Hsd Hcb)|]. split; [|auto].
  rewrite (pkcs_verify_parsed C y _ false [] cf Hrep), cblob_none, (sd_verify_parsed C S _ _ None _ (Some b) Hw (Hsg _ _) Hsi Hcb eq_refl).
  now rewrite Hst.
Qed.
Theorem is_signed_spec x o : parse_cms x = Ok o -> cms_is_signed x = Ok (negb (zlen (sd_sis (sd_of o)) =? 0)).
Proof. intros H. unfold cms_is_signed. rewrite H. reflexivity. Qed.

(* what ContentInfo.Bytes returns is what the RFC 5652 reader calls the eContent octets, whenever that reader accepts the element *)
Lemma ci_bytes_spec_agree raw b b' : all_bytes raw = true -> ci_bytes raw = Ok (Some b) -> spec_econtent raw = Some (Some b') -> b' = b.
Proof.
  intros Hb Hc Hs. unfold spec_econtent, one in Hs.
  destruct (read_all raw) as [[|eci [|]]| |] eqn:Er; try discriminate.
  apply read_all_cons in Er as (_ & Hve & _ & Hre & _); [|exact Hb]. cbn [map concat] in Hre.
  destruct (children eci) as [[|ot [|wrap [|]]]|] eqn:Ec; try discriminate.
  apply children_ok in Ec; [|exact Hve].
  apply read_all_cons in Ec as (_ & Hvo & Hvw & Hro & Hrw); [|apply valid_body_bytes; exact Hve]. cbn [map concat] in Hro, Hrw.
  assert (Hvw' : valid wrap) by (inversion Hvw; assumption).
  apply read_all_cons in Hrw as (_ & _ & _ & Hrw & _); [|rewrite app_nil_r; apply valid_full_bytes; exact Hvw']. cbn [map concat] in Hrw.
  destruct (t_tag wrap =? 160); [|discriminate].
  destruct (children wrap) as [[|e [|]]|] eqn:Ew; try discriminate.
  apply children_ok in Ew; [|exact Hvw'].
  apply read_all_cons in Ew as (_ & _ & _ & Hrb & _); [|apply valid_body_bytes; exact Hvw']. injection Hs as <-.
  unfold ci_bytes, read_expect in Hc. rewrite Hre in Hc. cbn [bind fst] in Hc.
  destruct (t_tag eci =? T_SEQ); [|discriminate]. rewrite Hro in Hc. cbn [bind fst snd] in Hc.
  destruct (t_tag ot =? T_OID); [|discriminate]. destruct (negb (oid_ok (t_body ot))); [discriminate|].
  rewrite Hrw in Hc. rewrite Hrb in Hc. injection Hc as <-. reflexivity.
Qed.

Definition ci_att (content : bytes) : cinfo := new_ci OID_data (Some (enc_tlv T_OCT content)).
Definition ci_det : cinfo := mkCi [] OID_data.
Definition ci_det_p : cinfo := mkCi (enc_tlv T_SEQ (enc_tlv T_OID OID_data)) OID_data.

Lemma wf_OID_data : oid_ok OID_data = true /\ all_bytes OID_data = true /\ small OID_data.
Proof. split; [vm_compute; reflexivity|]. split; [vm_compute; reflexivity|]. unfold small. vm_compute. reflexivity. Qed.
(* SetContentData stores the data as an OCTET STRING inside [0]; ContentInfo.Bytes and the RFC reader both find exactly the data *)
Lemma ci_att_facts content : all_bytes content = true -> small (ci_raw (ci_att content)) ->
  wf_ci (ci_att content) /\ ci_bytes (ci_raw (ci_att content)) = Ok (Some content) /\ spec_econtent (ci_raw (ci_att content)) = Some (Some content).
Proof.
  intros Hb Hs. destruct wf_OID_data as (H1 & H2 & H3).
  change (ci_raw (ci_att content)) with (enc_tlv T_SEQ (enc_tlv T_OID OID_data ++ enc_tlv 160 (enc_tlv T_OCT content))) in *.
  split; [|exact (ci_bytes_is_econtent OID_data T_OCT content H1 H2 ltac:(tagok) Hb Hs)].
  set (body := enc_tlv T_OID OID_data ++ enc_tlv 160 (enc_tlv T_OCT content)) in *.
  pose proof (small_enc_tlv _ _ Hs) as Sb. destruct (small_app _ _ Sb) as [_ Sw].
  pose proof (small_enc_tlv _ _ Sw) as Si. pose proof (small_enc_tlv _ _ Si) as Sc.
  exists (mkTlv T_SEQ body (enc_tlv T_SEQ body)). split; [|split; [reflexivity|]].
  - apply valid_enc; [tagok|exact Sb|]. apply all_bytes_app_iff. split; [apply enc_tlv_bytes; [tagok|exact H3|exact H2]|].
    apply enc_tlv_bytes; [tagok|exact Si|]. apply enc_tlv_bytes; [tagok|exact Sc|exact Hb].
  - unfold parse_ci. cbn [t_body t_full]. unfold body. rewrite read_expect_enc by (try tagok; exact H3). cbn [bind fst t_body]. now rewrite H1.
Qed.
Lemma ci_det_p_facts : wf_ci ci_det_p /\ ci_bytes (ci_raw ci_det_p) = Ok None /\ emit_ci ci_det = ci_raw ci_det_p.
Proof.
  split; [|split; [vm_compute; reflexivity|reflexivity]].
  exists (mkTlv T_SEQ (enc_tlv T_OID OID_data) (enc_tlv T_SEQ (enc_tlv T_OID OID_data))).
  split; [apply valid_enc; [tagok|unfold small; vm_compute; reflexivity|vm_compute; reflexivity]|]. split; [reflexivity|vm_compute; reflexivity].
Qed.
Lemma emit_det S sig : emit_cms (mkCms OID_sd (Some (built_sd S ci_det sig))) = emit_cms (mkCms OID_sd (Some (built_sd S ci_det_p sig))).
Proof.
  unfold emit_cms, emit_sd_body, built_sd. cbn [o_ctype o_sd sd_version sd_dalgs sd_ci sd_certs sd_crls sd_sis].
  destruct ci_det_p_facts as (Hw & _ & E). rewrite E. rewrite (emit_ci_wf _ Hw). reflexivity.
Qed.

(* everything the theorems about the sign-attached / sign-detached pattern start from: the self check (always on the attached form)
   accepted the new signer info's step over the content, and the bytes written read back as the one-signer structure, with the content
   attached or, detached, with the bare content type *)
Lemma pkcs_sign_inv C sgn S content detached y : all_bytes content = true -> signer_wf S -> (forall k d, all_bytes (sgn k d) = true) ->
  pkcs_sign C sgn S content detached None = Ok y -> small y -> small (ci_raw (ci_att content)) ->
  (exists c, si_step C S (sgn (sg_key S) (c_H C (sg_hash S) content)) content = VAccept c) /\
  parse_cms y = Ok (mkCms OID_sd (Some (parsed_sd S (if detached then ci_det_p else ci_att content) (sgn (sg_key S) (c_H C (sg_hash S) content))))) /\
  small (enc_tlv T_SEQ (si_body S (sgn (sg_key S) (c_H C (sg_hash S) content)))).
Proof.
  intros Hb Hw Hsg. unfold pkcs_sign, set_content_data. fold (ci_att content).
  intros (sc & (o & Ho & ->)%set_content_info_inv & H)%bind_ok Hsm Hs. destruct (ci_att_facts content Hb Hs) as (Hci & Hcb & _).
  cbn [fst snd] in H. rewrite Hcb in Ho. apply Ok_inj in Ho as <-.
  apply bind_ok in H as (n & Hn & H). rewrite builder_sign_noattrs in Hn. destruct (_ || _); [discriminate Hn|]. apply Ok_inj in Hn as <-.
  apply bind_ok in H as (att & (-> & b & c & [= <-] & Hst)%(marshal_built_inv C S _ _ _ _ Hcb) & H). split; [now exists c|].
  destruct detached; apply Ok_inj in H as <-.
  - change (detach _) with (mkCms OID_sd (Some (built_sd S ci_det (sgn (sg_key S) (c_H C (sg_hash S) content))))) in Hsm |- *.
    rewrite emit_det in Hsm |- *. destruct (built_reparse S ci_det_p _ Hw (Hsg _ _) (proj1 ci_det_p_facts) Hsm) as (Hrep & _ & Hsi). now split.
  - destruct (built_reparse S (ci_att content) _ Hw (Hsg _ _) Hci Hsm) as (Hrep & _ & Hsi). now split.
Qed.

(* the SHA-256 algorithm identifier, for the example catalogs *)
Definition ex_alg : bytes := enc_tlv 48 (enc_tlv 6 [96; 134; 72; 1; 101; 3; 4; 2; 1] ++ [5; 0]).
