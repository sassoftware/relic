(* FmtCAT/ProofsRpm.v — RPM: the patch relic builds over lead + signature header, the format laws, the digest preimages
   against the RPM package format. *)
From Relic Require Import Base.Prelude Base.Enc Base.Slice C16.Proofs Generated.FmtCAT_gen FmtCAT.Model.
From Relic Require Import Laws.Pipeline.

Local Open Scope Z_scope.

Lemma be32_app l r off : 0 <= off -> off + 4 <= zlen l -> be32 (l ++ r) off = be32 l off.
Proof. intros. unfold be32. now rewrite zslice_app_l by lia. Qed.
Lemma be32_nonneg l off : all_bytes l = true -> 0 <= be32 l off.
Proof. intros Hb. apply le_dec_range. rewrite all_bytes_rev. now apply all_bytes_zslice. Qed.
(* for a list whose elements at off .. off+3 are visible the hypothesis is closed by reflexivity *)
Lemma be32_word l off a b c d r : zdrop off l = a :: b :: c :: d :: r -> be32 l off = ((a * 256 + b) * 256 + c) * 256 + d.
Proof.
  intros H. unfold be32, zslice. rewrite H, Z.add_simpl_l. change (ztake 4 (a :: b :: c :: d :: r)) with [a; b; c; d].
  unfold be_dec. cbn [rev app le_dec]. lia.
Qed.

(* readHeader accepts exactly: sixteen bytes of intro with the magic, then index and store within the input *)
Definition hdr_total (pad : bool) (l : bytes) : Z :=
  16 + 16 * be32 l 8 + (if pad then rpmu_padded_size (be32 l 12) else be32 l 12).
Lemma hdr_span_ok pad l t : hdr_span pad l = Ok t <->
  16 <= zlen l /\ be32 l 0 = rpmu_intro_magic /\ t = hdr_total pad l /\ t <= zlen l.
Proof.
  unfold hdr_span, hdr_total, rpmu_bad_intro_magic, rpmu_index_bytes, rpmu_intro_magic.
  change rpmu_intro_size with 16. change rpmu_intro_off_Magic with 0. change rpmu_intro_off_Entries with 8.
  change rpmu_intro_off_Size with 12. change (rpmu_pads_when pad) with pad. set (store := if pad then _ else _).
  destruct (zlen l <? 16) eqn:E1; [split; [discriminate|lia]|].
  destruct (be32 l 0 =? 2393761793) eqn:E2; unfold negb; [|split; [discriminate|lia]].
  destruct (zlen l <? _ + store) eqn:E3.
  - split; [discriminate|lia].
  - split; [intros <-%Ok_inj; lia|intros (_ & _ & -> & _); f_equal; lia].
Qed.
Lemma hdr_span_app pad l r t : hdr_span pad l = Ok t -> hdr_span pad (l ++ r) = Ok t.
Proof.
  rewrite !hdr_span_ok. unfold hdr_total. intros (H16 & Hm & Ht & Hle).
  rewrite !be32_app, zlen_app by lia. pose proof (zlen_nonneg r). lia.
Qed.

Lemma sig_span_ok f n : rpm_sig_span f = Ok n <->
  96 <= zlen f /\ rpmu_bad_lead_magic (be32 f 0) = false /\ hdr_span true (zdrop 96 f) = Ok (n - 96).
Proof.
  unfold rpm_sig_span, rpmu_orig_size. change rpmu_layout_ok with true. change rpmu_lead_size with 96. unfold negb.
  destruct (zlen f <? 96) eqn:E1; [split; [discriminate|lia]|].
  destruct (rpmu_bad_lead_magic (be32 f 0)); [split; [discriminate|intros (_ & [=] & _)]|].
  destruct (hdr_span true (zdrop 96 f)) as [m| |]; cbn [bind].
  - split; [intros <-%Ok_inj|intros (_ & _ & ->%Ok_inj)]; repeat split; try f_equal; lia.
  - split; [discriminate|intros (_ & _ & [=])].
  - split; [discriminate|intros (_ & _ & [=])].
Qed.
Lemma sig_span_short f : zlen f < 96 -> rpm_sig_span f = Err E_RPM_SHORT.
Proof.
  intros H. unfold rpm_sig_span. change rpmu_layout_ok with true. change rpmu_lead_size with 96. unfold negb.
  now replace (zlen f <? 96) with true by lia.
Qed.
Lemma sig_span_bad_magic f : 96 <= zlen f -> rpmu_bad_lead_magic (be32 f 0) = true -> rpm_sig_span f = Err E_RPM_MAGIC.
Proof.
  intros H Hm. unfold rpm_sig_span. change rpmu_layout_ok with true. change rpmu_lead_size with 96. unfold negb.
  rewrite Hm. now replace (zlen f <? 96) with false by lia.
Qed.
Lemma sig_span_app f r n : rpm_sig_span f = Ok n -> rpm_sig_span (f ++ r) = Ok n.
Proof.
  rewrite !sig_span_ok. intros (H96 & Hm & Hs). pose proof (zlen_nonneg r).
  rewrite zlen_app, be32_app, zdrop_app_l by lia. split; [lia|]. split; [exact Hm|]. now apply hdr_span_app.
Qed.

(* the index tags depend on the header only *)
Lemma hdr_tags_f_app n : forall l r, 16 * Z.of_nat n <= zlen l -> hdr_tags_f n (l ++ r) = hdr_tags_f n l.
Proof.
  induction n as [|n IH]; intros l r H; [reflexivity|].
  cbn [hdr_tags_f]. change rpmu_tag_off_Tag with 0. change rpmu_tag_size with 16.
  rewrite be32_app, zdrop_app_l by lia. f_equal. apply IH. rewrite zlen_zdrop by lia. lia.
Qed.
Lemma padded_nonneg s : 0 <= s -> 0 <= rpmu_padded_size s.
Proof. intros H. unfold rpmu_padded_size. pose proof (Z.quot_pos (s + 7) 8). lia. Qed.
Lemma hdr_tags_app l r t : all_bytes l = true -> hdr_span true l = Ok t -> hdr_tags (l ++ r) = hdr_tags l.
Proof.
  intros Hb (H16 & _ & -> & Hle)%hdr_span_ok. unfold hdr_tags, hdr_total in *.
  change rpmu_intro_off_Entries with 8. change rpmu_intro_size with 16.
  rewrite be32_app, zdrop_app_l by lia. apply hdr_tags_f_app.
  pose proof (be32_nonneg l 8 Hb). pose proof (padded_nonneg _ (be32_nonneg l 12 Hb)).
  rewrite zlen_zdrop, Z2Nat.id by lia. lia.
Qed.
Lemma nsigs_app b r n : all_bytes b = true -> rpm_sig_span b = Ok n -> rpm_nsigs (b ++ r) = rpm_nsigs b.
Proof.
  intros Hb (H96 & _ & Hs)%sig_span_ok. unfold rpm_nsigs. change rpmu_lead_size with 96.
  rewrite zdrop_app_l by lia. now rewrite (hdr_tags_app _ _ _ (all_bytes_zdrop _ _ Hb) Hs).
Qed.

Lemma blob_ok_inv b : rpm_blob_ok b = true -> rpm_sig_span b = Ok (zlen b) /\ 0 < rpm_nsigs b.
Proof.
  unfold rpm_blob_ok. destruct (rpm_sig_span b) as [n| |]; try discriminate.
  intros [H1 H2]%andb_true_iff. split; [f_equal|]; lia.
Qed.
Lemma embed_inv f b g : rpm_embed f b = Ok g ->
  exists n, rpm_sig_span f = Ok n /\ rpm_blob_ok b = true /\ g = b ++ zdrop n f.
Proof.
  unfold rpm_embed. change rpm_sign_layout_ok with true. unfold negb.
  intros (n & Hn & H)%bind_ok. exists n. split; [exact Hn|].
  destruct (rpm_blob_ok b); [|discriminate]. split; [reflexivity|]. now apply Ok_inj in H as <-.
Qed.

(* the model carries the blob's byte-ness as part of blob_ok: embed refuses anything else *)
Definition rpm_embed_b (f blob : bytes) : result bytes :=
  if all_bytes blob then rpm_embed f blob else Err E_RPM_BLOB.

Lemma embed_b_inv f b g : rpm_embed_b f b = Ok g ->
  exists n, all_bytes b = true /\ rpm_sig_span f = Ok n /\ rpm_sig_span b = Ok (zlen b) /\ 0 < rpm_nsigs b /\ g = b ++ zdrop n f.
Proof.
  unfold rpm_embed_b. destruct (all_bytes b); [|discriminate].
  intros (n & Hn & [Hs Hns]%blob_ok_inv & ->)%embed_inv. exists n. auto.
Qed.

Theorem rpm_law_extract f b g : rpm_embed_b f b = Ok g -> rpm_extract g = Ok (Some b).
Proof.
  intros (n & Hb & _ & Hs & Hns & ->)%embed_b_inv.
  unfold rpm_extract, rpm_not_signed. rewrite (sig_span_app _ _ _ Hs), (nsigs_app _ _ _ Hb Hs). cbn [bind].
  replace (rpm_nsigs b =? 0) with false by lia. now rewrite ztake_app_exact.
Qed.

(* everything that is not lead + signature header *)
Definition rpm_rest (f : bytes) : result bytes := n <- rpm_sig_span f ;; Ok (zdrop n f).
Theorem rpm_law_payload f b g : rpm_embed_b f b = Ok g -> rpm_rest g = rpm_rest f.
Proof.
  intros (n & _ & Hn & Hs & _ & ->)%embed_b_inv.
  unfold rpm_rest. rewrite (sig_span_app _ _ _ Hs), Hn. cbn [bind]. now rewrite zdrop_app_exact.
Qed.

(* both digest preimages are cut from what follows the signature area, which the patch leaves alone *)
Lemma hashin_all_rest f : rpm_hashin_all f = (r <- rpm_rest f ;; _ <- hdr_span false r ;; Ok r).
Proof.
  unfold rpm_hashin_all, rpm_gen_span, rpm_rest. change rpmu_cover_ok with true. unfold negb.
  destruct (rpm_sig_span f) as [n| |]; cbn [bind]; [|reflexivity..]. now destruct (hdr_span false (zdrop n f)).
Qed.
Lemma hashin_hdr_rest f : rpm_hashin_hdr f = (r <- rpm_rest f ;; m <- hdr_span false r ;; Ok (ztake m r)).
Proof.
  unfold rpm_hashin_hdr, rpm_gen_span, rpm_rest. change rpmu_cover_ok with true. unfold negb.
  destruct (rpm_sig_span f) as [n| |]; cbn [bind]; [|reflexivity..].
  destruct (hdr_span false (zdrop n f)) as [m| |]; cbn [bind fst snd]; [|reflexivity..].
  unfold zslice. now rewrite Z.add_simpl_l.
Qed.
Theorem rpm_law_hashin f b g : rpm_embed_b f b = Ok g ->
  rpm_hashin_all g = rpm_hashin_all f /\ rpm_hashin_hdr g = rpm_hashin_hdr f.
Proof. intros H. now rewrite !hashin_all_rest, !hashin_hdr_rest, (rpm_law_payload _ _ _ H). Qed.

(* C02: the header + payload preimage and the signature area determine the file *)
Theorem protect g1 g2 p b : rpm_hashin_all g1 = Ok p -> rpm_hashin_all g2 = Ok p ->
  rpm_extract g1 = Ok (Some b) -> rpm_extract g2 = Ok (Some b) -> g1 = g2.
Proof.
  assert (K : forall g, rpm_hashin_all g = Ok p -> rpm_extract g = Ok (Some b) -> g = b ++ p).
  { intros g Hh He. rewrite hashin_all_rest in Hh. unfold rpm_rest, rpm_extract in *.
    destruct (rpm_sig_span g) as [n| |]; try discriminate. cbn [bind] in *.
    destruct (hdr_span false (zdrop n g)); try discriminate. apply Ok_inj in Hh as <-.
    destruct (rpm_not_signed _); [discriminate|]. injection He as <-. symmetry. apply ztake_zdrop. }
  intros H1 H2 H3 H4. now rewrite (K _ H1 H3), (K _ H2 H4).
Qed.

Theorem is_signed_spec f b g n :
  (rpm_embed_b f b = Ok g -> rpm_extract g = Ok (Some b)) /\
  (rpm_sig_span f = Ok n -> rpm_nsigs f = 0 -> rpm_extract f = Ok None) /\
  (rpm_sig_span f = Ok n -> 0 < rpm_nsigs f -> rpm_extract f = Ok (Some (ztake n f))).
Proof.
  split; [apply rpm_law_extract|]. split; intros Hn Hs; unfold rpm_extract; rewrite Hn; cbn [bind]; unfold rpm_not_signed.
  - rewrite Hs. reflexivity.
  - replace (rpm_nsigs f =? 0) with false by lia. reflexivity.
Qed.

(* the model has no Panic source in the spans, the patch and the verify report *)
Lemma hdr_span_no_panic pad l e : hdr_span pad l <> Panic e.
Proof.
  unfold hdr_span. destruct (_ <? _); [discriminate|]. destruct (rpmu_bad_intro_magic _); [discriminate|].
  destruct (_ <? _); discriminate.
Qed.
Lemma sig_span_no_panic f e : rpm_sig_span f <> Panic e.
Proof.
  unfold rpm_sig_span. destruct (negb _); [discriminate|]. destruct (_ <? _); [discriminate|].
  destruct (rpmu_bad_lead_magic _); [discriminate|]. apply bind_no_panic; [apply hdr_span_no_panic|discriminate].
Qed.
Lemma rest_no_panic f e : rpm_rest f <> Panic e.
Proof. apply bind_no_panic; [apply sig_span_no_panic|discriminate]. Qed.
Lemma dedupe_no_panic nochain sigs : forall seen e, rpm_dedupe seen sigs nochain <> Panic e.
Proof.
  induction sigs as [|[kid known] sigs IH]; intros seen e; cbn [rpm_dedupe]; [discriminate|].
  destruct (rpm_skip_seen _); [apply IH|]. destruct (_ && _); [discriminate|]. apply bind_no_panic; [apply IH|discriminate].
Qed.
Theorem verify_report_not_signed nochain : rpm_verify_report [] nochain = Ok None.
Proof. reflexivity. Qed.

(* what the format reader of Model.v establishes, in the terms of the model's spans *)
Lemma spec_hdr_len_inv l n : spec_hdr_len l = Some n ->
  16 <= zlen l /\ be32 l 0 = rpmu_intro_magic /\ n = 16 + 16 * be32 l 8 + be32 l 12.
Proof.
  intros H. do 16 (destruct l as [|? l]; [discriminate|]). cbn [spec_hdr_len] in H.
  destruct (_ && _) eqn:E in H; [|discriminate].
  erewrite (be32_word _ 0), (be32_word _ 8), (be32_word _ 12) by reflexivity.
  split; [rewrite !zlen_cons; pose proof (zlen_nonneg l); lia|]. split; [unfold rpmu_intro_magic; lia|congruence].
Qed.
Lemma spec_lead_ok_inv f : spec_lead_ok f = true -> 96 <= zlen f /\ rpmu_bad_lead_magic (be32 f 0) = false.
Proof.
  intros H. destruct f as [|a [|b [|c [|d f]]]]; try discriminate. cbn [spec_lead_ok] in H.
  erewrite (be32_word _ 0) by reflexivity.
  assert (a = 237 /\ b = 171 /\ c = 238 /\ d = 219) as (-> & -> & -> & ->) by lia.
  split; [lia|reflexivity].
Qed.
Lemma pad8_split il dl : 0 <= il -> 0 <= dl -> spec_pad8 (16 + 16 * il + dl) = 16 + 16 * il + rpmu_padded_size dl.
Proof. intros Hi Hd. unfold spec_pad8, rpmu_padded_size. rewrite Z.quot_div_nonneg by lia. lia. Qed.
(* on byte strings the format's header length determines the model's header span *)
Lemma hdr_span_spec (pad : bool) l n t : all_bytes l = true -> spec_hdr_len l = Some n ->
  t = (if pad then spec_pad8 n else n) -> t <= zlen l -> hdr_span pad l = Ok t /\ 16 <= t.
Proof.
  intros Hb Hn -> Hle. apply spec_hdr_len_inv in Hn as (H16 & Hm & ->).
  pose proof (be32_nonneg l 8 Hb) as N8. pose proof (be32_nonneg l 12 Hb) as N12.
  assert (E : (if pad then spec_pad8 (16 + 16 * be32 l 8 + be32 l 12) else 16 + 16 * be32 l 8 + be32 l 12) = hdr_total pad l).
  { unfold hdr_total. destruct pad; [|reflexivity]. now apply pad8_split. }
  rewrite E in *. split; [now apply hdr_span_ok|]. unfold hdr_total. pose proof (padded_nonneg _ N12). destruct pad; lia.
Qed.

Definition rpm_format : format bytes := mkFormat bytes rpm_hashin_all rpm_embed_b rpm_extract rpm_rest.
Lemma L1 : law_extract bytes rpm_format. Proof. exact rpm_law_extract. Qed.
Lemma L2 : law_hashin bytes rpm_format. Proof. exact (fun f b g H => proj1 (rpm_law_hashin f b g H)). Qed.
Lemma L3 : law_payload bytes rpm_format. Proof. exact rpm_law_payload. Qed.
