(* FmtMACHO/Properties.v — property theorems of the format module fmtmacho (Apple code signatures in thin Mach-O images), proved from
   the lemmas of FmtMACHO/Proofs*.v.  The property served is named in the comment above each theorem; checks/fmtmacho.py
   ASPECT_THEOREMS lists the same names. *)
From Relic Require Import Base.Prelude Base.Enc FmtMACHO.VpLang Generated.FmtMACHO_gen FmtMACHO.Model FmtMACHO.ModelM.
From Relic Require Import Base.Slice FmtMACHO.Proofs FmtMACHO.ProofsCD FmtMACHO.ProofsS FmtMACHO.ProofsM FmtMACHO.ProofsVP.
From Relic Require C09.Model.

(* ====================================================================================================== superblob *)
(* C01 C05: newSuperItem writes a CS_GenericBlob whose header states its magic and its length, for every payload below 4 GiB *)
Theorem macho_new_item_wf : forall magic payload, 0 <= magic < 4294967296 -> zlen payload + 8 < 4294967296 -> all_bytes payload = true ->
  let it := new_super_item magic payload in
  item_wf it /\ si_magic it = magic /\ zdrop 8 (si_data it) = payload /\ zlen (si_data it) = zlen payload + 8.
Proof. exact FmtMACHO.Proofs.new_item_wf. Qed.
(* C01: parseSuper (marshalSuperBlob magic items) = (magic, items) for EVERY list of blobs (any count, including none), total size below 4 GiB *)
Theorem macho_super_roundtrip : forall magic items, 0 <= magic < 4294967296 -> Forall item_wf items -> items_total items < 4294967296 ->
  parse_super (marshal_super magic items) = Ok (magic, items).
Proof. exact FmtMACHO.Proofs.super_roundtrip. Qed.
(* C01 C05: the reader written from cs_blobs.h (offsets from the start of the superblob, big endian) finds exactly the items; the length
   field is the length of the output; the index offsets are 12 + 8 n + the lengths of the blobs in front *)
Theorem macho_super_spec_reader : forall magic items, 0 <= magic < 4294967296 -> Forall item_wf items -> items_total items < 4294967296 ->
  spec_super (marshal_super magic items) = Some (magic, items) /\ zlen (marshal_super magic items) = items_total items /\
  rd32 4 (marshal_super magic items) = items_total items.
Proof. exact FmtMACHO.Proofs.super_spec_reader. Qed.

(* ====================================================================================================== malformed input (C11) *)
(* C11: on arbitrary bytes parseSuper returns a value or an ordinary error: no slice or index out of range, loop bounded *)
Theorem macho_parse_no_panic : forall blob p, all_bytes blob = true -> parse_super blob <> Panic p.
Proof. intros blob p Hb. exact (safe_no_panic _ _ p (parse_super_safe blob Hb)). Qed.
(* C11: parseCodeDirectory on arbitrary bytes: header, identifier / team strings, every special and code slot access, and the
   allocation of the slot table (at most 24 bytes per 20 bytes of input) *)
Theorem macho_parse_cd_no_panic : forall H blob itype p, all_bytes blob = true -> parse_code_directory H blob itype <> Panic p.
Proof. intros H blob itype p Hb. exact (safe_no_panic _ _ p (parse_cd_safe H blob itype Hb)). Qed.
Theorem macho_parse_signature_no_panic : forall H blob p, all_bytes blob = true -> parse_signature H blob <> Panic p.
Proof. intros H blob p Hb. exact (safe_no_panic _ _ p (parse_signature_safe H blob Hb)). Qed.
(* C11: csblob.Verify (the PKCS#7 layer being any function) and VerifyPages on whatever Verify accepted: since relic commit 83978b2 the
   page buffer is at most 2^20 bytes whatever the pageSize byte says (before: 2^pageSize bytes, panic for 63, out of memory from 36) *)
Theorem macho_verify_no_panic : forall H cms_verify blob vp p, all_bytes blob = true -> cs_verify H cms_verify blob vp <> Panic p.
Proof. intros H cms_verify blob vp p Hb. exact (safe_no_panic _ _ p (cs_verify_safe H cms_verify blob vp Hb)). Qed.
Theorem macho_verify_pages_no_panic : forall H cms_verify blob vp s file p, all_bytes blob = true ->
  cs_verify H cms_verify blob vp = Ok s -> verify_pages H s file <> Panic p.
Proof.
  intros H cms_verify blob vp s file p Hb Hv. apply verify_pages_rd_no_panic; [|apply zlen_nonneg].
  exact (safe_ok _ _ s (cs_verify_safe H cms_verify blob vp Hb) Hv).
Qed.
(* C11: VerifyPages is not hand-modelled: vp_prog (Generated/FmtMACHO_gen.v) is the statement-by-statement translation of its body, run by the
   interpreter of FmtMACHO/VpLang.v (Go's int64 wrap-around, make / reslice bounds, ReadFull, hash state).  For EVERY page size byte, EVERY 64 bit
   code size (CodeLimit64 is read from an untrusted uint64: negative values, -1, MinInt64 included), EVERY list of code slots (none, too few, too
   many) and EVERY reader content (the Mach-O section reader, the disk image reader) no `page[:remaining]`, no `make([]byte, pageSize)` of the
   program is out of range *)
Theorem macho_vp_no_panic : forall H c rd p, 0 <= i_log2 c -> 1048576 <= i_alloc_limit c -> vp_exec H c vp_prog rd <> Panic p.
Proof. exact FmtMACHO.ProofsVP.vp_no_panic. Qed.
(* C11: ... in particular on whatever csblob.Verify accepted, for any reader (dmg: the section up to the end of the property list) *)
Theorem macho_verify_pages_rd_no_panic : forall H cms_verify blob vp s n rd p, all_bytes blob = true -> 0 <= n ->
  cs_verify H cms_verify blob vp = Ok s -> verify_pages_rd H s n rd <> Panic p.
Proof.
  intros H cms_verify blob vp s n rd p Hb Hn Hv. apply verify_pages_rd_no_panic; [|exact Hn].
  exact (safe_ok _ _ s (cs_verify_safe H cms_verify blob vp Hb) Hv).
Qed.
(* C11 C02 (the tie): the generated program equals a closed function of the header values for all inputs; every theorem below is about vp_prog *)
Theorem macho_vp_prog_is_fun : forall H c rd, 0 <= i_log2 c -> 1048576 <= i_alloc_limit c -> vp_exec H c vp_prog rd = FmtMACHO.ProofsVP.vp_fun H c rd.
Proof. exact FmtMACHO.ProofsVP.vp_exec_eq. Qed.

Theorem macho_scan_no_panic : forall f p, scan_file f <> Panic p.
Proof.
  intros f p. unfold scan_file. destruct (negb scan_layout_ok); [discriminate|]. destruct (zlen f <? 4); [discriminate|].
  destruct (if mo_magic_tag =? _ then _ else _) as [[le magic]|]; [|discriminate].
  destruct (zlen f <? mo_hdr_size0); [discriminate|]. destruct (mo_cmds_short _ _); [discriminate|].
  destruct (cmd_loop _ le _ 0 _ _ _) as [st| |q] eqn:Ec; cbn [bind]; try discriminate.
  - destruct (mo_no_linkedit _); [discriminate|]. destruct (mo_has_old_sig _); [destruct (mo_old_sig_misplaced _ _); discriminate|discriminate].
  - exfalso. revert Ec. apply cmd_loop_no_panic. lia.
Qed.

(* ====================================================================================================== CodeDirectory *)
(* C05 C03 C01: for every supported digest, every number of special slots (none included) and of code slots (none included), every code limit
   an int64 holds (in particular below 2^31, between 2^31 and 2^32, above 2^32), with or without team identifier and exec segment fields, the
   reader written from cs_blobs.h reads newCodeDirectory's output back to exactly: identifier, team identifier, flags, version, code limit, page
   size, hash type and size, the special slot digests (slot -1 first; zero for an absent one) and the code slots; the length field is the length,
   hashOffset / identOffset / teamOffset are the stated sums.  cd_wf (Model.v) is the domain: identifier and team without NUL, 32 bit flags,
   code slots of n * hashSize bytes, directory below 4 GiB, digest function of the right output size *)
Theorem macho_cd_spec_reader : forall H p, cd_wf H p -> exists ht raw,
  lookup (cp_hash p) cs_hash_type_of = Some ht /\
  new_code_directory H p = Ok (raw, H (cp_hash p) raw) /\ spec_cd_read raw = Some (cd_expected_view H p ht) /\
  rd32 4 raw = zlen raw /\
  rd32 16 raw = 88 + (zlen (cp_ident p) + 1) + (match cp_team p with [] => 0 | _ => zlen (cp_team p) + 1 end) + zlen (cp_specials p) * go_hash_size (cp_hash p) /\
  rd32 20 raw = 88 /\ rd32 48 raw = (match cp_team p with [] => 0 | _ => 88 + (zlen (cp_ident p) + 1) end).
Proof.
  intros H p.
  (* with the parameters as variables every field of the header is an expression lia can read *)
  destruct p as [fl I T esb esl esf sps C nc h lim single]. unfold cd_wf, cd_expected_view, new_code_directory.
  cbn [cp_flags cp_ident cp_team cp_es_base cp_es_limit cp_es_flags cp_specials cp_code_slots cp_ncode cp_hash cp_code_limit cp_single].
  set (hs := go_hash_size h). intros [[ht [Hht Hht8]] [HI [HT [Hfl [Hnc [Hcs [Hcl [HH Htot]]]]]]]].
  assert (Hhs : hs = 20 \/ hs = 32 \/ hs = 48). { destruct (hash_type_cases _ _ Hht) as [[E _]|[[E _]|[E _]]]. all: subst h; cbn; auto. }
  pose proof (zlen_nonneg I). pose proof (zlen_nonneg T). pose proof (zlen_nonneg sps). pose proof (zlen_nonneg C).
  set (SPs := map (special_slot_bytes H h) sps).
  assert (HSPf : Forall (fun b => zlen b = hs) SPs) by (apply Forall_forall; intros b (s & <- & _)%in_map_iff; apply ssb_len; exact HH).
  assert (HSPl : zlen (concat SPs) = zlen sps * hs) by (rewrite (concat_len_const SPs hs HSPf); unfold SPs; now rewrite zlen_map).
  set (tl := match T with [] => 0 | _ => zlen T + 1 end). set (tpart := if cd_has_team T then T ++ [0] else []).
  assert (Htp : zlen tpart = tl /\ 0 <= tl <= zlen T + 1) by (unfold tpart, tl; destruct T as [|t T']; [cbn; lia|change (cd_has_team (t :: T')) with true; cbv iota; rewrite zlen_app; change (zlen [0]) with 1; lia]).
  destruct Htp as [Htp Htl].
  set (toff := match T with [] => 0 | _ => 88 + (zlen I + 1) end). assert (Htoff : 0 <= toff < 4294967296) by (unfold toff; destruct T; lia).
  set (hdr := cd_header (mkCP fl I T esb esl esf sps C nc h lim single) ht). set (body := I ++ [0] ++ tpart ++ concat SPs ++ C).
  exists ht, (hdr_bytes hdr ++ body). rewrite Hht, layout_ok. split; [reflexivity|]. split; [reflexivity|].
  assert (Hbl : zlen body = (zlen I + 1) + tl + zlen sps * hs + zlen C) by (unfold body; rewrite !zlen_app, Htp, HSPl; change (zlen [0]) with 1; lia).
  set (off2 := 88 + (zlen I + 1) + tl).
  (* the values newCodeDirectory puts into the header: no uint32 conversion wraps *)
  assert (Voff2 : (if cd_has_team T then cd_off_after_team (cd_off_after_ident cd_off0 (zlen I)) (zlen T) else cd_off_after_ident cd_off0 (zlen I)) = off2)
    by (unfold cd_off_after_team, cd_off_after_ident, cd_off0, off2, tl; change cdh_size with 88; destruct T as [|t T']; [change (cd_has_team []) with false|change (cd_has_team (t :: T')) with true]; cbv iota; lia).
  assert (Vlen : h_length hdr = 88 + zlen body).
  { unfold hdr, cd_header. cbn [h_length cp_hash cp_ident cp_team cp_specials cp_code_slots]. fold hs. rewrite Voff2. unfold cd_length, cd_off_after_slots. rewrite wrap32_small; lia. }
  assert (Vhoff : h_hashoff hdr = off2 + zlen sps * hs).
  { unfold hdr, cd_header. cbn [h_hashoff cp_hash cp_ident cp_team cp_specials cp_code_slots]. fold hs. rewrite Voff2. unfold cd_hash_off, cd_init_nspecial, cd_init_hashsize, wrap8.
    rewrite (Z.mod_small hs 256), !(wrap32_small hs), (wrap32_small (zlen sps)), (wrap32_small off2) by nia. apply wrap32_small. lia. }
  assert (Vtoff : h_teamoff hdr = toff).
  { unfold hdr, cd_header, toff. cbn [h_teamoff cp_ident cp_team]. destruct T; [reflexivity|]. change (cd_has_team (_ :: _)) with true. cbv iota.
    unfold cd_team_off, cd_off_after_ident, cd_off0. change cdh_size with 88. apply wrap32_small. lia. }
  assert (Vnsp : h_nspecial hdr = zlen sps) by (apply wrap32_small; nia).
  assert (Vhs : h_hashsize hdr = hs) by (apply Z.mod_small; lia).
  set (es := negb ((esb =? 0) && (esl =? 0) && (esf =? 0))).
  assert (Vver : h_version hdr = if es then 132096 else 131840).
  { unfold hdr, cd_header. cbn [h_version cp_es_base cp_es_limit cp_es_flags]. unfold cd_has_execseg, cd_init_es_base, cd_init_es_limit, cd_init_es_flags, es.
    destruct (esb =? 0), (esl =? 0), (esf =? 0); reflexivity. }
  assert (Vps : h_pagesize hdr = if single then 0 else 12) by (destruct single; reflexivity).
  set (is64 := cd_limit_is64 lim). assert (His : is64 = (lim >? 2147483646)) by reflexivity.
  assert (Vlim : h_limit hdr = if is64 then 0 else lim).
  { unfold hdr, cd_header. cbn [h_limit cp_code_limit]. fold is64. destruct is64; [reflexivity|]. apply wrap32_small. lia. }
  assert (Vl64 : h_limit64 hdr = if is64 then lim else 0) by (unfold hdr, cd_header; cbn [h_limit64 cp_code_limit]; fold is64; destruct is64; reflexivity).
  assert (Hraw : zlen (hdr_bytes hdr ++ body) = 88 + zlen body) by (rewrite zlen_app, zlen_hdr; reflexivity).
  (* the reader *)
  assert (R4 : rd32 4 (hdr_bytes hdr ++ body) = 88 + zlen body) by (rewrite fld_length; rewrite Vlen; lia).
  assert (R16 : rd32 16 (hdr_bytes hdr ++ body) = off2 + zlen sps * hs) by (rewrite fld_hashoff; rewrite Vhoff; lia).
  assert (R20 : rd32 20 (hdr_bytes hdr ++ body) = 88) by (apply fld_identoff; change (h_identoff hdr) with 88; lia).
  assert (R48 : rd32 48 (hdr_bytes hdr ++ body) = toff) by (rewrite fld_teamoff; rewrite Vtoff; lia).
  split; [|split; [rewrite R4, Hraw; reflexivity|split; [rewrite R16; unfold off2, tl; lia|split; [exact R20|exact R48]]]].
  unfold spec_cd_read. rewrite Hraw. replace (88 + zlen body <? 44) with false by lia.
  rewrite fld_magic by (change (h_magic hdr) with 4208856066; lia). change (h_magic hdr =? 4208856066) with true. cbn [negb].
  rewrite fld_version, Vver by (rewrite Vver; destruct es; lia). rewrite R4, Z.eqb_refl.
  replace (88 + zlen body <? _) with false by (symmetry; apply Z.ltb_ge; etransitivity; [apply cd_need_le|lia]). cbn [negb orb].
  rewrite R16, fld_nspecial, fld_ncode, fld_hashsize, Vnsp, Vhs by (rewrite ?Vnsp, ?Vhs; change (h_ncode hdr) with nc; nia). change (h_ncode hdr) with nc.
  replace ((hs =? 0) || (off2 + zlen sps * hs <? zlen sps * hs) || (88 + zlen body <? off2 + zlen sps * hs + nc * hs)) with false by (unfold off2; lia).
  rewrite R20, R48.
  (* identifier and team identifier *)
  assert (Hid : spec_cstr (zdp 88 (hdr_bytes hdr ++ body)) = Some I) by (rewrite zdp_eq, zdrop_app_len by apply zlen_hdr; apply spec_cstr_app; exact HI).
  rewrite Hid.
  assert (Htm : (if (131584 <=? (if es then 132096 else 131840)) && negb (toff =? 0) then spec_cstr (zdp toff (hdr_bytes hdr ++ body)) else None)
                = match T with [] => None | _ => Some T end).
  { replace (131584 <=? (if es then 132096 else 131840)) with true by (destruct es; reflexivity). cbn [andb].
    unfold toff. destruct T as [|t0 T'] eqn:ET; [reflexivity|]. replace (88 + (zlen I + 1) =? 0) with false by lia. cbn [negb].
    rewrite zdp_eq. unfold body, tpart. change (cd_has_team (t0 :: T')) with true. cbv iota.
    replace (hdr_bytes hdr ++ I ++ [0] ++ ((t0 :: T') ++ [0]) ++ concat SPs ++ C) with ((hdr_bytes hdr ++ I ++ [0]) ++ (t0 :: T') ++ 0 :: concat SPs ++ C) by (rewrite <- !app_assoc; reflexivity).
    rewrite zdrop_app_len by (rewrite !zlen_app, zlen_hdr; reflexivity). apply spec_cstr_app. exact HT. }
  rewrite Htm.
  (* code limit *)
  replace (131840 <=? (if es then 132096 else 131840)) with true by (destruct es; reflexivity).
  rewrite fld_limit64, fld_limit, Vl64, Vlim by (rewrite Vlim; destruct is64; lia).
  replace (if (if is64 then lim else 0) mod 18446744073709551616 =? 0 then if is64 then 0 else lim else (if is64 then lim else 0) mod 18446744073709551616) with lim
    by (destruct is64; [rewrite Z.mod_small by lia; replace (lim =? 0) with false by lia|]; reflexivity).
  rewrite fld_flags, fld_pagesize, fld_hashtype, Vps by (rewrite ?Vps; change (h_flags hdr) with fl; change (h_hashtype hdr) with ht; destruct single; lia).
  change (h_flags hdr) with fl. change (h_hashtype hdr) with ht.
  (* slots *)
  assert (Hsp : spec_slots (Z.to_nat (zlen sps)) (off2 + zlen sps * hs - hs) (- hs) hs (hdr_bytes hdr ++ body) = rev SPs).
  { replace (Z.to_nat (zlen sps)) with (length SPs) by (unfold SPs, zlen; rewrite map_length, Nat2Z.id; reflexivity).
    unfold body. replace (hdr_bytes hdr ++ I ++ [0] ++ tpart ++ concat SPs ++ C) with ((hdr_bytes hdr ++ I ++ [0] ++ tpart) ++ concat SPs ++ C) by (rewrite <- !app_assoc; reflexivity).
    replace (off2 + zlen sps * hs - hs) with (zlen (hdr_bytes hdr ++ I ++ [0] ++ tpart) + zlen (concat SPs) - hs)
      by (rewrite !zlen_app, zlen_hdr, Htp, HSPl; unfold off2; change (zlen [0]) with 1; lia).
    apply spec_slots_bwd; [exact HSPf|lia]. }
  assert (Hcd : spec_slots (Z.to_nat nc) (off2 + zlen sps * hs) hs hs (hdr_bytes hdr ++ body) = split_slots (Z.to_nat nc) hs C).
  { unfold body. replace (hdr_bytes hdr ++ I ++ [0] ++ tpart ++ concat SPs ++ C) with ((hdr_bytes hdr ++ I ++ [0] ++ tpart ++ concat SPs) ++ C ++ []) by (rewrite app_nil_r, <- !app_assoc; reflexivity).
    apply spec_slots_fwd; [rewrite !zlen_app, zlen_hdr, Htp, HSPl; unfold off2; change (zlen [0]) with 1; lia|lia|rewrite Z2Nat.id by lia; lia]. }
  rewrite Hsp, Hcd. fold es. do 2 f_equal.
  destruct es; [|reflexivity]. cbn [Z.leb]. rewrite fld_esbase, fld_eslimit, fld_esflags. reflexivity.
Qed.

(* ====================================================================================================== Sign *)
(* C01 C02 C05: for any list of digest algorithms the signer is configured with (relic's hashFuncs() currently returns one): the bytes handed to the
   PKCS#7 builder are the emitted slot 0 directory; directory k > 0 goes to slot 0x1000 + k - 1; the signed attribute carries (algorithm, digest of
   the emitted bytes) of EVERY directory, the plist attribute the first 20 bytes of each *)
Theorem macho_cdhash_is_emitted : forall H hfs p stream pl, sign_plan H hfs p stream = Ok pl ->
  exists dirs others, pl_items pl = dirs ++ others /\ length dirs = length hfs /\
    map si_type dirs = FmtMACHO.ProofsS.dir_types 0 (length hfs) /\ Forall (fun it => si_magic it = cs_magic_codedirectory) dirs /\
    pl_content pl = match dirs with it :: _ => si_data it | [] => [] end /\
    pl_attr pl = map (fun hi => (fst hi, H (fst hi) (si_data (snd hi)))) (combine hfs dirs) /\
    pl_plist pl = map (fun a => ztake 20 (snd a)) (pl_attr pl).
Proof.
  intros H hfs p stream pl.
  unfold sign_plan. rewrite sign_layout. cbn [negb].
  destruct (match sp_req p with Some v => _ | None => Ok None end) as [req| |]; cbn [bind]; try discriminate.
  destruct (sign_dirs H p _ stream 0 hfs) as [[[[its attr] pls] first]| |] eqn:Ed; cbn [bind]; try discriminate.
  intros [= <-]. destruct (sign_dirs_facts _ _ _ _ _ _ _ _ _ _ Ed) as [Hl [Ha [Hp [Ht [Hm Hf]]]]].
  exists its. eexists. cbn [pl_items pl_content pl_attr pl_plist].
  split; [reflexivity|]. split; [exact Hl|]. split; [exact Ht|]. split; [exact Hm|]. split; [apply Hf; reflexivity|]. split; [exact Ha|exact Hp].
Qed.
(* C05: the code slots are the digests of the 4096 byte chunks of the stream: the page model of unit C09 (C09: hashPages = chunks for every read split) *)
Theorem macho_pages_are_c09 : forall H h stream, hash_pages H h false stream =
  (concat (map (H h) (C09.Model.chunks 4096 stream)), zlen (C09.Model.chunks 4096 stream), zlen stream).
Proof. reflexivity. Qed.
(* C01: the finished signature is a superblob both readers parse back to the planned items followed by the CMS wrapper *)
Theorem macho_sign_blob_parses : forall pl cms, Forall item_wf (pl_items pl) -> all_bytes cms = true -> zlen cms + 8 < 4294967296 ->
  items_total (pl_items pl ++ [new_super_item cs_magic_blobwrapper cms]) < 4294967296 ->
  parse_super (sign_finish pl cms) = Ok (cs_magic_embedded, pl_items pl ++ [new_super_item cs_magic_blobwrapper cms]) /\
  spec_super (sign_finish pl cms) = Some (cs_magic_embedded, pl_items pl ++ [new_super_item cs_magic_blobwrapper cms]).
Proof.
  intros pl cms.
  intros Hwf Hb Hl Ht. unfold sign_finish.
  assert (Hall : Forall item_wf (pl_items pl ++ [new_super_item cs_magic_blobwrapper cms])).
  { apply Forall_app. split; [exact Hwf|]. constructor; [|constructor]. apply new_item_wf; [unfold cs_magic_blobwrapper; lia|exact Hl|exact Hb]. }
  split; [apply super_roundtrip|apply super_spec_reader]; try assumption; unfold cs_magic_embedded; lia.
Qed.

(* ====================================================================================================== Verify (C02) *)
(* what csblob.Verify has checked when it accepts (the PKCS#7 layer being an arbitrary oracle): see FmtMACHO.ProofsS.dir_bound / computed_of.
   NOT bound: a directory other than the first unless the plist attribute is present (the cd hash attribute alone only names directories that must
   exist); a requirements / entitlements blob whose slot in the directory is zero or absent; Info.plist and resources when the caller has none;
   the superblob framing, the space behind the superblob, bytes behind the signature *)
Theorem macho_verify_sound : forall H cms_verify blob vp s, cs_verify H cms_verify blob vp = Ok s ->
  parse_signature H blob = Ok s /\
  exists d0 rest attr plist, sg_dirs s = d0 :: rest /\ isSome (sg_cms s) = true /\
    cms_verify (obytes (sg_cms s)) (d_raw d0) = Some (attr, plist) /\
    Forall (FmtMACHO.ProofsS.dir_bound H s vp) (sg_dirs s) /\
    (forall a, attr = Some a -> Forall (fun e => clookup (fst e) (FmtMACHO.ProofsS.computed_of H (sg_dirs s) []) = Some (snd e)) a) /\
    (forall pl, plist = Some pl -> pl = map (fun d => ztake 20 (obytes (clookup (d_hash d) (FmtMACHO.ProofsS.computed_of H (sg_dirs s) [])))) (sg_dirs s)).
Proof. exact FmtMACHO.ProofsS.verify_sound. Qed.
(* with the plist attribute (relic's own signatures always carry it) and pairwise different digest algorithms EVERY directory is bound *)
Theorem macho_two_dirs_bound : forall H cms_verify blob vp s d0 rest attr pl, cs_verify H cms_verify blob vp = Ok s -> sg_dirs s = d0 :: rest ->
  cms_verify (obytes (sg_cms s)) (d_raw d0) = Some (attr, Some pl) -> NoDup (map d_hash (sg_dirs s)) ->
  pl = map (fun d => ztake 20 (H (d_hash d) (d_raw d))) (sg_dirs s).
Proof.
  intros H cms_verify blob vp s d0 rest attr pl Hv Hd Hc Hn. destruct (verify_sound _ _ _ _ _ Hv) as [_ [d0' [rest' [attr' [plist' [Hd' [_ [Hc' [_ [_ Hp]]]]]]]]]].
  rewrite Hd in Hd'. injection Hd' as <- <-. rewrite Hc in Hc'. injection Hc' as <- <-.
  rewrite (Hp pl eq_refl). apply map_ext_in. intros d Hi. now rewrite (clookup_computed H _ [] d Hi Hn).
Qed.
(* VerifyPages: every code slot of the best directory is the digest of the corresponding page (unit C09's chunks) of the first CodeSize() bytes *)
Theorem macho_verify_pages_sound : forall H s file d, verify_pages H s file = Ok tt -> best_dir (sg_dirs s) None = Some d ->
  h_pagesize (d_hdr d) <> 0 -> 0 <= h_pagesize (d_hdr d) ->
  let ps := 2 ^ h_pagesize (d_hdr d) in
  h_pagesize (d_hdr d) <= 20 /\
  Forall2 (fun e pg => obytes e = H (d_hash d) pg) (d_codes d) (firstn (length (d_codes d)) (C09.Model.chunks ps (ztake (mm_s64 (code_size s)) file))).
Proof.
  intros H s file d. unfold verify_pages, verify_pages_rd. intros Hv Hb Hsp H0. cbv zeta.
  assert (Hin : vp_input s (alloc_limit (zlen file)) = mkVin false (h_pagesize (d_hdr d)) (map obytes (d_codes d)) (d_hash d) (code_size s) (alloc_limit (zlen file)))
    by (unfold vp_input; rewrite Hb; reflexivity).
  rewrite Hin in Hv. pose proof (zlen_nonneg file) as Hf.
  apply vp_accepts_iff in Hv; [|cbn [i_log2]; lia|cbn [i_alloc_limit]; unfold alloc_limit; lia].
  destruct Hv as [_ [(Hz & _)|(Hl & _ & Hh)]]; cbn [i_log2 i_hashes i_hfun i_code_size] in *; [contradiction|].
  split; [lia|]. rewrite section_reader_prefix in Hh.
  (* as many slots as pages *)
  rewrite firstn_all2 by (apply (f_equal (@length _)) in Hh; rewrite !map_length in Hh; lia).
  revert Hh. generalize (C09.Model.chunks (2 ^ h_pagesize (d_hdr d)) (ztake (mm_s64 (code_size s)) file)) as pgs. clear.
  induction (d_codes d) as [|e r IH]; intros [|pg pgs]; cbn [map]; try discriminate; [constructor|].
  intros [= Hh Hr]. constructor; [exact Hh|apply IH; exact Hr].
Qed.
(* C02: EXACTLY when VerifyPages accepts, for all header values, slot lists and reader contents: page size 0 -> one slot, the digest of the whole
   reader content, whose length is the code size; page size 1..20 -> the reader holds CodeSize > 0 bytes and the slots are the digests of ALL pages (unit
   C09's chunks) of exactly the first CodeSize bytes — no slot too few (relic 086958a), none too many — or CodeSize <= 0 and there is no slot *)
Theorem macho_verify_pages_accepts_iff : forall H c rd, 0 <= i_log2 c -> 1048576 <= i_alloc_limit c ->
  (vp_exec H c vp_prog rd = Ok tt <-> FmtMACHO.ProofsVP.vp_accepts H c rd).
Proof. exact FmtMACHO.ProofsVP.vp_accepts_iff. Qed.
(* C02 C05: acceptance IS the specification (0 <= CodeSize <= |region|, slots = digests of the C09 chunks of exactly the first CodeSize bytes) for EVERY
   paged directory: no slot too few (relic 086958a), no code size with the sign bit set (relic bd61613) *)
Theorem macho_verify_pages_accepts_spec : forall H c rd, 1 <= i_log2 c <= 20 -> 1048576 <= i_alloc_limit c -> i_none c = false ->
  -9223372036854775808 <= i_code_size c < 9223372036854775808 ->
  (vp_exec H c vp_prog rd = Ok tt <-> FmtMACHO.ProofsVP.spec_pages_ok H (i_hfun c) (i_log2 c) (i_code_size c) (i_hashes c) rd).
Proof. exact FmtMACHO.ProofsVP.vp_accepts_spec. Qed.
(* C01 C05: every directory the specification describes is accepted (page sizes up to 2^20; a single-slot directory covers the whole region) *)
Theorem macho_spec_pages_accepted : forall H c rd, 0 <= i_log2 c <= 20 -> 1048576 <= i_alloc_limit c -> i_none c = false ->
  -9223372036854775808 <= i_code_size c < 9223372036854775808 -> (i_log2 c = 0 -> i_code_size c = zlen rd) ->
  FmtMACHO.ProofsVP.spec_pages_ok H (i_hfun c) (i_log2 c) (i_code_size c) (i_hashes c) rd -> vp_exec H c vp_prog rd = Ok tt.
Proof.
  intros H c rd Hl Hlim Hnone Hcs Hsingle Hs. destruct (Z.eq_dec (i_log2 c) 0) as [Hz|Hnz].
  - apply vp_accepts_iff; [lia|assumption|]. destruct Hs as [Hr Hh]. unfold vp_accepts, spec_code_slots in *. rewrite Hnone. split; [reflexivity|]. cbv zeta.
    rewrite s64_id by lia. left. replace (i_log2 c =? 0) with true in Hh by lia. rewrite ztake_all in Hh by lia. repeat split; [exact Hz|rewrite Hsingle by exact Hz; reflexivity|exact Hh].
  - apply vp_accepts_spec; try assumption; lia.
Qed.
(* C02 C05: CodeSize() (generated from the whole function): the 64 bit limit unless it is zero — as the SIGNED number Go reads — else the 32 bit one *)
Theorem macho_code_size_spec : forall none l64 l32, cs_code_size_of none l64 l32 = if none then 0 else if l64 =? 0 then l32 else l64.
Proof. intros none l64 l32. unfold cs_code_size_of. destruct none; [reflexivity|]. destruct (l64 =? 0); reflexivity. Qed.
(* C02 regression (relic 086958a; before: finding macho:code-slots-do-not-cover-limit): fewer slots than pages are refused whatever the uncovered bytes are;
   a limit beyond the reader with every existing page covered is refused *)
Theorem macho_few_slots_rejected :
  vp_exec FmtMACHO.ProofsVP.wH (FmtMACHO.ProofsVP.w_in 1 4 [FmtMACHO.ProofsVP.wH 5 [1; 2]]) vp_prog [1; 2; 3; 4] = Err 10 /\
  vp_exec FmtMACHO.ProofsVP.wH (FmtMACHO.ProofsVP.w_in 1 4 [FmtMACHO.ProofsVP.wH 5 [1; 2]]) vp_prog [1; 2; 9; 9] = Err 10 /\
  ~ FmtMACHO.ProofsVP.spec_pages_ok FmtMACHO.ProofsVP.wH 5 1 4 [FmtMACHO.ProofsVP.wH 5 [1; 2]] [1; 2; 3; 4] /\
  vp_exec FmtMACHO.ProofsVP.wH (FmtMACHO.ProofsVP.w_in 1 4 [FmtMACHO.ProofsVP.wH 5 [1; 2]; FmtMACHO.ProofsVP.wH 5 [3; 4]]) vp_prog [1; 2; 3; 4] = Ok tt /\
  vp_exec FmtMACHO.ProofsVP.wH (FmtMACHO.ProofsVP.w_in 1 4 [FmtMACHO.ProofsVP.wH 5 [1; 2]; FmtMACHO.ProofsVP.wH 5 [3; 4]]) vp_prog [1; 2; 9; 9] = Err 6 /\
  vp_exec FmtMACHO.ProofsVP.wH (FmtMACHO.ProofsVP.w_in 12 9223372036854775807 [FmtMACHO.ProofsVP.wH 5 [1; 2; 3]]) vp_prog [1; 2; 3] = Err 1 /\
  vp_exec FmtMACHO.ProofsVP.wH (FmtMACHO.ProofsVP.w_in 12 5 []) vp_prog [1; 2; 3; 4; 5] = Err 10.
Proof. repeat apply conj; try (vm_compute; reflexivity). intros [_ Hs]. vm_compute in Hs. discriminate. Qed.
(* C02 C11 regression (relic bd61613; before: finding macho:negative-limit-without-slots-accepted and the crash class of seeded change C11-r3): a code limit with
   the sign bit set (-1, MinInt64, an unwrapped uint64) is an ordinary error for no slot, one slot, paged and single-page directories *)
Theorem macho_negative_limit_rejected :
  vp_exec FmtMACHO.ProofsVP.wH (FmtMACHO.ProofsVP.w_in 12 (-1) []) vp_prog [1; 2; 3] = Err 10 /\
  vp_exec FmtMACHO.ProofsVP.wH (FmtMACHO.ProofsVP.w_in 12 (-1) []) vp_prog [7; 7; 7; 7] = Err 10 /\
  ~ FmtMACHO.ProofsVP.spec_pages_ok FmtMACHO.ProofsVP.wH 5 12 (-1) [] [1; 2; 3] /\
  vp_exec FmtMACHO.ProofsVP.wH (FmtMACHO.ProofsVP.w_in 12 (-1) [FmtMACHO.ProofsVP.wH 5 [1; 2; 3]]) vp_prog [1; 2; 3] = Err 10 /\
  vp_exec FmtMACHO.ProofsVP.wH (FmtMACHO.ProofsVP.w_in 12 (-9223372036854775808) [FmtMACHO.ProofsVP.wH 5 [1; 2; 3]]) vp_prog [1; 2; 3] = Err 10 /\
  vp_exec FmtMACHO.ProofsVP.wH (FmtMACHO.ProofsVP.w_in 12 (9223372036854775808 + 5) [FmtMACHO.ProofsVP.wH 5 [1; 2; 3]]) vp_prog [1; 2; 3] = Err 10 /\
  vp_exec FmtMACHO.ProofsVP.wH (FmtMACHO.ProofsVP.w_in 0 (-1) [FmtMACHO.ProofsVP.wH 5 [1; 2; 3]]) vp_prog [1; 2; 3] = Err 10 /\
  vp_exec FmtMACHO.ProofsVP.wH (FmtMACHO.ProofsVP.w_in 12 0 []) vp_prog [1; 2; 3] = Ok tt.
Proof. repeat apply conj; try (vm_compute; reflexivity). intros [Hr _]. lia. Qed.
(* witness (known finding macho:alternate-directory-unbound): without the plist attribute an alternate directory grafted into the signature makes
   MODIFIED code verify; with the plist it is refused (count) *)
Theorem macho_alternate_unbound_refuted :
  FmtMACHO.ProofsS.accepts FmtMACHO.ProofsS.w_cms_none FmtMACHO.ProofsS.w_blob_genuine FmtMACHO.ProofsS.w_code = true /\
  FmtMACHO.ProofsS.accepts FmtMACHO.ProofsS.w_cms_none FmtMACHO.ProofsS.w_blob_genuine FmtMACHO.ProofsS.w_tampered = false /\
  FmtMACHO.ProofsS.accepts FmtMACHO.ProofsS.w_cms_none FmtMACHO.ProofsS.w_blob_alt FmtMACHO.ProofsS.w_tampered = true /\
  FmtMACHO.ProofsS.accepts FmtMACHO.ProofsS.w_cms_attr FmtMACHO.ProofsS.w_blob_alt FmtMACHO.ProofsS.w_tampered = true /\
  FmtMACHO.ProofsS.accepts FmtMACHO.ProofsS.w_cms_plist FmtMACHO.ProofsS.w_blob_genuine FmtMACHO.ProofsS.w_code = true /\
  FmtMACHO.ProofsS.accepts FmtMACHO.ProofsS.w_cms_plist FmtMACHO.ProofsS.w_blob_alt FmtMACHO.ProofsS.w_tampered = false /\
  cs_verify FmtMACHO.ProofsS.toyH FmtMACHO.ProofsS.w_cms_plist FmtMACHO.ProofsS.w_blob_alt FmtMACHO.ProofsS.w_vp = Err E_COUNT.
Proof. vm_compute. repeat split; reflexivity. Qed.
(* witness (known finding macho:blob-without-slot-accepted) *)
Theorem macho_blob_without_slot_refuted :
  match cs_verify FmtMACHO.ProofsS.toyH FmtMACHO.ProofsS.w_cms_none FmtMACHO.ProofsS.w_blob_ent FmtMACHO.ProofsS.w_vp with
  | Ok s => sg_ent s = Some (si_data FmtMACHO.ProofsS.w_ent) /\ Forall (fun d => dir_special d 5 = None) (sg_dirs s) /\
            verify_pages FmtMACHO.ProofsS.toyH s FmtMACHO.ProofsS.w_code = Ok tt
  | _ => False
  end.
Proof. vm_compute. repeat split; try reflexivity. repeat constructor. Qed.

(* ====================================================================================================== Mach-O embedding *)
(* align(addr, a) is the least multiple of a not below addr *)
Theorem macho_align_spec : forall addr a, 0 <= addr -> 0 < a -> addr <= mo_align addr a < addr + a /\ mo_align addr a mod a = 0.
Proof. exact FmtMACHO.ProofsM.align_spec. Qed.
(* C01: the reservation code_size * (20 + hs) / 4096 + |entitlements given| + |requirements given| + 16384 covers the emitted signature whenever
   the parts that do not grow with the code (index, directory header, identifier, team, special slots, requirements blob beyond the given
   requirement, DER entitlements, blob headers, CMS) stay within 16384 - hs - 2 bytes; the code slots are paid for by the first term *)
Theorem macho_size_estimate_sufficient : forall code_size hs ident team nsp ncode req_blob req_given ent der cms,
  0 <= code_size -> 0 <= hs <= 64 -> 0 <= ncode -> ncode * 4096 <= code_size + 7 + 4095 ->
  FmtMACHO.ProofsM.overhead ident team nsp hs req_blob req_given der cms <= 16384 ->
  FmtMACHO.ProofsM.emitted ident team nsp hs ncode req_blob ent der cms <= estimate code_size hs ent req_given.
Proof.
  intros code_size hs ident team nsp ncode req_blob req_given ent der cms Hc Hh Hn Hnc Ho.
  unfold estimate, mo_est2, mo_est1, mo_est0, emitted. unfold overhead in Ho.
  rewrite Z.quot_div_nonneg by nia. set (q := code_size * (20 + hs) / 4096).
  assert (Hq : code_size * (20 + hs) < 4096 * q + 4096) by (unfold q; pose proof (Z.div_mod (code_size * (20 + hs)) 4096 ltac:(lia)); pose proof (Z.mod_pos_bound (code_size * (20 + hs)) 4096 ltac:(lia)); lia).
  assert (Hk : ncode * hs <= q + hs + 2) by nia. lia.
Qed.
(* ... and not beyond: a 17000 byte identifier on a 128 byte image: "signature overflows reserved space" (an error; nothing is written).
   Neither the certificate chain, nor a time stamp token, nor DER entitlements copied from an old signature enter the estimate *)
Theorem macho_size_estimate_refuted : macho_embed FmtMACHO.ProofsM.constH 0 (w_sparams (repeat 105 17000)) w_macho [9] = Err E_OVERFLOW.
Proof. vm_compute. reflexivity. Qed.
(* C01 C03 C08: the patches of a fresh signature, 32 and 64 bit, both byte orders (fresh_ok, ModelM.v: unsigned image whose __LINKEDIT command lies
   inside the load commands with 16 bytes of room behind them): the signature goes to the next multiple of 8 behind the code; the new load command is
   { LC_CODE_SIGNATURE, 16, offset, size }; the header is unchanged outside ncmds / sizeofcmds, the __LINKEDIT sizes and the new command; the signed
   file is the new header, the untouched code, zero padding, the signature buffer, and whatever followed the code *)
Theorem macho_patch_offsets : forall m f est pt, fresh_ok m f = true ->
  patch_signature (zlen f) m (ztake (m_next_lc m) f) est = Ok pt -> mo_reuse_block (m_sig_len m) est = false ->
  let nl := m_next_lc m in let cs := m_code_size m in
  let sig_start := mo_align cs mo_align_file in let sig_size := mo_align est mo_align_file in
  p_sig_start pt = sig_start /\ p_sig_buf_len pt = sig_size /\ p_padding pt = sig_start - cs /\ 0 <= p_padding pt < 8 /\
  zlen (p_hdr pt) = nl + 16 /\
  zslice nl (nl + 16) (p_hdr pt) = enc (m_le m) 4 (mm_wrap32 mo_lc_code_signature) ++ enc (m_le m) 4 16 ++ enc (m_le m) 4 (mm_wrap32 sig_start) ++ enc (m_le m) 4 (mm_wrap32 sig_size) /\
  ztake 16 (p_hdr pt) = ztake 16 f /\ zslice 24 (FmtMACHO.ProofsM.le_lo m) (p_hdr pt) = zslice 24 (FmtMACHO.ProofsM.le_lo m) f /\
  zslice (FmtMACHO.ProofsM.le_lo m + FmtMACHO.ProofsM.le_n m) nl (p_hdr pt) = zslice (FmtMACHO.ProofsM.le_lo m + FmtMACHO.ProofsM.le_n m) nl f /\
  forall sigbuf, zlen sigbuf = sig_size ->
    apply_patches f (patch_list pt sigbuf) = Ok (p_hdr pt ++ zslice (nl + 16) cs f ++ zeros (sig_start - cs) ++ sigbuf ++ zdrop cs f).
Proof. exact FmtMACHO.ProofsM.fresh_patches. Qed.
(* C01 C08 (digest input = what the verifier reads): the first sigStart bytes of the signed file are exactly the stream whose pages were hashed *)
Theorem macho_hashed_stream_is_output_prefix : forall f hs el rl mp, macho_plan f hs el rl = Ok mp -> fresh_ok (mp_markers mp) f = true ->
  0 <= m_code_size (mp_markers mp) -> 0 <= hs -> 0 <= el -> 0 <= rl ->
  let pt := mp_patched mp in let m := mp_markers mp in
  p_sig_start pt = mo_align (m_code_size m) 8 /\ p_sig_start pt mod 8 = 0 /\
  forall sigbuf, zlen sigbuf = p_sig_buf_len pt -> exists g, apply_patches f (patch_list pt sigbuf) = Ok g /\
    ztake (p_sig_start pt) g = mp_stream mp /\
    zslice (p_sig_start pt) (p_sig_start pt + p_sig_buf_len pt) g = sigbuf /\
    zdrop (p_sig_start pt + p_sig_buf_len pt) g = zdrop (m_code_size m) f /\
    zslice (m_next_lc m) (m_next_lc m + 16) g =
      enc (m_le m) 4 (mm_wrap32 mo_lc_code_signature) ++ enc (m_le m) 4 16 ++ enc (m_le m) 4 (mm_wrap32 (p_sig_start pt)) ++ enc (m_le m) 4 (mm_wrap32 (p_sig_buf_len pt)).
Proof.
  intros f hs el rl mp. unfold macho_plan. change (negb sign_m_layout_ok) with false. cbv iota.
  destruct (scan_file f) as [m| |] eqn:Es; cbn [bind]; try discriminate.
  destruct (patch_signature (zlen f) m (ztake (m_next_lc m) f) (estimate (m_code_size m) hs el rl)) as [pt| |] eqn:Ep; cbn [bind]; try discriminate.
  destruct (_ && _); [discriminate|]. intros [= <-]. cbn [mp_markers mp_patched mp_stream]. intros Hok Hc Hh He Hr.
  assert (Hb : m_sig_len m = 0 /\ 0 <= m_next_lc m /\ m_next_lc m + 16 <= m_code_size m <= zlen f)
    by (unfold fresh_ok in Hok; repeat (apply andb_true_iff in Hok as [Hok ?]); destruct (mo_le_is_64 (m_magic m)); lia).
  assert (Hre : mo_reuse_block (m_sig_len m) (estimate (m_code_size m) hs el rl) = false) by (destruct Hb as [-> _]; now apply estimate_pos).
  destruct (fresh_patches m f _ pt Hok Ep Hre) as [Hss [Hbl [Hpd [Hpr [Hhl [Hlc [_ [_ [_ Hap]]]]]]]]].
  destruct (align_spec (m_code_size m) 8 Hc ltac:(lia)) as [Hal Hmod]. change mo_align_file with 8 in *.
  split; [exact Hss|]. split; [rewrite Hss; exact Hmod|].
  intros sigbuf Hsb. eexists. split; [apply Hap; rewrite Hsb; exact Hbl|].
  set (nl := m_next_lc m) in *. set (cs := m_code_size m) in *. set (ss := mo_align cs 8) in *.
  set (mid := zslice (nl + 16) cs f). assert (Lmid : zlen mid = cs - nl - 16) by (unfold mid; rewrite zlen_zslice; lia).
  assert (Lz : zlen (zeros (ss - cs)) = ss - cs) by (apply zlen_zeros; lia).
  (* the signed file is pre ++ signature ++ rest, with pre = header ++ code ++ padding of length ss *)
  set (pre := p_hdr pt ++ mid ++ zeros (ss - cs)). assert (Lpre : zlen pre = ss) by (unfold pre; rewrite !zlen_app, Hhl, Lmid, Lz; lia).
  replace (p_hdr pt ++ mid ++ zeros (ss - cs) ++ sigbuf ++ zdrop cs f) with (pre ++ sigbuf ++ zdrop cs f) by (unfold pre; rewrite <- !app_assoc; reflexivity).
  rewrite Hss. split; [|split; [|split]].
  - rewrite ztake_app_len by exact Lpre. rewrite Hpd. unfold mo_code_limit. rewrite Hhl, !ztk_eq. change (ztake (cs - (nl + 16)) (zdrop (nl + 16) f)) with mid.
    symmetry. apply ztake_all. fold pre. lia.
  - apply zslice_app_mid; lia.
  - rewrite app_assoc. apply zdrop_app_len. rewrite zlen_app. lia.
  - rewrite Hbl. change mo_align_file with 8 in Hlc. fold ss in Hlc. rewrite <- Hlc. unfold pre. rewrite <- app_assoc. apply zslice_app_l; lia.
Qed.
(* C01: an image without __LINKEDIT is refused with an error (relic 949b37f; before: "signed" into a file that is no Mach-O) *)
Theorem macho_refuses_no_linkedit : scan_file w_macho_nolinkedit = Err E_NOLINKEDIT /\ forall H rg p, macho_hashin H rg p w_macho_nolinkedit = Err E_NOLINKEDIT.
Proof.
  assert (Hs : scan_file w_macho_nolinkedit = Err E_NOLINKEDIT) by (vm_compute; reflexivity). split; [exact Hs|].
  intros H rg p. unfold macho_hashin, macho_prepare, macho_plan. change (negb sign_m_layout_ok) with false. cbv iota. rewrite Hs. reflexivity.
Qed.
(* C01 C03 C08, computed on the minimal image: sign, sign again: each result carries exactly the CMS given, verifies in the model (directory parsed by
   the faithful parser, special slots, page hashes against the signed file), keeps the specification payload, re-uses the reserved space, and the
   code directory to be signed is the same for the signed and the unsigned file *)
Theorem macho_laws_computed :
  match FmtMACHO.ProofsM.sign_twice [9; 9; 9] [7] with
  | Ok (g1, g2) =>
      fresh_ok (match scan_file w_macho with Ok m => m | _ => mkM false 0 0 0 1 1 1 0 0 0 0 0 0 0 0 end) w_macho = true /\
      FmtMACHO.ProofsM.cms_of g1 = Some [9; 9; 9] /\ FmtMACHO.ProofsM.cms_of g2 = Some [7] /\
      FmtMACHO.ProofsM.verifies (fun _ _ => Some (None, None)) g1 = true /\ FmtMACHO.ProofsM.verifies (fun _ _ => Some (None, None)) g2 = true /\
      spec_payload g1 = spec_payload w_macho /\ spec_payload g2 = spec_payload w_macho /\ zlen g2 = zlen g1 /\
      macho_hashin FmtMACHO.ProofsM.constH 0 (w_sparams [105; 100]) g1 = macho_hashin FmtMACHO.ProofsM.constH 0 (w_sparams [105; 100]) w_macho /\
      match spec_image g1 with Some im => spec_codesig im = Some (128, 16392) | None => False end
  | _ => False
  end.
Proof.
  unfold sign_twice. rewrite embed1. cbn [bind]. rewrite embed2. cbn [bind].
  unfold cms_of, verifies, macho_hashin. rewrite blob1, blob2, (macho_prepare_pad _ _ _ _ _ _ _ plan1 old1 parses1).
  rewrite !parse_signature_pad, !cs_verify_pad by (exact parses1 || exact parses2).
  (* `repeat split` would evaluate the last conjunct, a match, to look for a conjunction *)
  do 9 (split; [vm_compute; reflexivity|]). vm_compute. reflexivity.
Qed.
(* C01: trailing bytes behind an odd code end are not hashed (relic e8e9586; before: the signed file failed its own verification) *)
Theorem macho_trailing_not_hashed :
  match macho_embed FmtMACHO.ProofsM.constH 0 (w_sparams [105; 100]) w_macho_trailing [9] with
  | Ok g => FmtMACHO.ProofsM.verifies (fun _ _ => Some (None, None)) g = true /\ zdrop (zlen g - 3) g = [6; 7; 8] /\ zslice 125 128 g = [0; 0; 0]
  | _ => False
  end.
Proof.
  rewrite embed3. unfold verifies. rewrite blob3, cs_verify_pad by exact parses3. vm_compute. repeat split; reflexivity.
Qed.

(* non-vacuity *)
Example super_small : marshal_super 4208856256 [new_super_item 4208882033 [1; 2]] =
  [250; 222; 12; 192; 0; 0; 0; 30; 0; 0; 0; 1; 0; 0; 0; 5; 0; 0; 0; 20; 250; 222; 113; 113; 0; 0; 0; 10; 1; 2].
Proof. reflexivity. Qed.
(* the hypotheses of the VerifyPages theorems are satisfiable: a two page directory over four bytes of code, page size 2^1, a 1 MiB allocation permitted;
   a directory with a negative code limit and one slot is inside the domain of macho_vp_no_panic and yields error class 10, not a panic *)
Example vp_domain_inhabited :
  let c := FmtMACHO.ProofsVP.w_in 1 4 [FmtMACHO.ProofsVP.wH 5 [1; 2]; FmtMACHO.ProofsVP.wH 5 [3; 4]] in
  0 <= i_log2 c /\ 1048576 <= i_alloc_limit c /\ -9223372036854775808 <= i_code_size c < 9223372036854775808 /\
  FmtMACHO.ProofsVP.spec_pages_ok FmtMACHO.ProofsVP.wH 5 1 4 (i_hashes c) [1; 2; 3; 4] /\ vp_exec FmtMACHO.ProofsVP.wH c vp_prog [1; 2; 3; 4] = Ok tt.
Proof. cbv zeta. repeat apply conj; try (vm_compute; reflexivity); try (vm_compute; congruence); cbn; lia. Qed.
Example vp_negative_limit_is_error :
  vp_exec FmtMACHO.ProofsVP.wH (FmtMACHO.ProofsVP.w_in 12 (-8192) [FmtMACHO.ProofsVP.wH 5 [1]; FmtMACHO.ProofsVP.wH 5 [2]]) vp_prog [1; 2] = Err 10.
Proof. vm_compute. reflexivity. Qed.
