(* FmtMACHO/ProofsM.v — part 2 (machos): alignment, the size estimate, the header scan never panics, the patches of a fresh signature,
   and the stages of the computed instances on the minimal image *)
From Relic Require Import Base.Prelude Base.Enc Base.Slice Generated.FmtMACHO_gen FmtMACHO.Model FmtMACHO.ModelM FmtMACHO.Proofs.

(* ------------------------------------------------------------------ align *)
Theorem align_spec addr a : 0 <= addr -> 0 < a -> addr <= mo_align addr a < addr + a /\ mo_align addr a mod a = 0.
Proof.
  intros H0 Ha. unfold mo_align, mo_align_rem, mo_align_needed, mo_align_bump. rewrite Z.rem_mod_nonneg by lia.
  pose proof (Z.mod_pos_bound addr a Ha) as Hm. destruct (addr mod a =? 0) eqn:E; cbn [negb].
  - split; lia.
  - split; [lia|]. replace (addr + (a - addr mod a)) with ((addr / a + 1) * a) by (pose proof (Z.div_mod addr a); lia). apply Z.mod_mul. lia.
Qed.

(* ------------------------------------------------------------------ the size estimate *)
(* the reservation: code_size * (20 + hash size) / 4096 + len(entitlements given) + len(requirements given) + 16384.
   What is emitted: 12 + 8 n index bytes, the directory (88 + identifier + team + special and code slots), the requirements blob, the entitlements
   blobs (8 byte headers), the CMS wrapper.  The code slots are paid for by the first term (one slot per 4096 bytes, the stream being at most 7
   bytes longer than code_size); everything else has to fit into the 16384 *)
Definition emitted (ident team nsp hs ncode req_blob ent der cms : Z) : Z :=
  12 + 8 * 5 + (88 + (ident + 1) + (team + 1) + nsp * hs + ncode * hs) + req_blob + (8 + ent) + (8 + der) + (8 + cms).
Definition overhead (ident team nsp hs req_blob req_given der cms : Z) : Z :=
  12 + 8 * 5 + 88 + (ident + 1) + (team + 1) + nsp * hs + (req_blob - req_given) + 8 + (8 + der) + (8 + cms) + (hs + 2).

(* ------------------------------------------------------------------ scanFile never panics: the loops are bounded by the bytes they consume *)
Lemma length_zdrop_le {A} n (l : list A) : (length (zdrop n l) <= length l)%nat.
Proof. unfold zdrop. rewrite skipn_length. lia. Qed.
Lemma length_zdrop_lt {A} n (l : list A) : 0 < n -> 0 < zlen l -> (length (zdrop n l) < length l)%nat.
Proof. intros Hn Hl. unfold zdrop, zlen in *. rewrite skipn_length. lia. Qed.
Lemma sect_loop_no_panic : forall fuel le is64 b i nsect sf fs p, (length b < fuel)%nat -> sect_loop fuel le is64 b i nsect sf fs <> Panic p.
Proof.
  induction fuel as [|fuel IH]; intros le is64 b i nsect sf fs p Hf; [lia|]. cbn [sect_loop].
  destruct (negb (mo_sect_loop i nsect)); [discriminate|].
  set (sz := if is64 then SECT64_SIZE else SECT32_SIZE). destruct (zlen b <? sz) eqn:E; [discriminate|].
  apply IH. assert (0 < sz) by (unfold sz; destruct is64; reflexivity). pose proof (length_zdrop_lt sz b ltac:(lia) ltac:(lia)). lia.
Qed.
(* a segment command: the section loop runs on what is left of the command *)
Lemma segment_no_panic le is64 k cmddat nsect sf fs p (g : Z -> result scanst) : (forall a, g a <> Panic p) ->
  (fs' <- sect_loop (S (length cmddat)) le is64 (zdrop k cmddat) 0 nsect sf fs ;; g fs') <> Panic p.
Proof.
  intros Hg. destruct (sect_loop _ _ _ _ _ _ _ _) as [a| |q] eqn:E; cbn [bind]; [apply Hg|discriminate|].
  exfalso. revert E. apply sect_loop_no_panic. pose proof (length_zdrop_le k cmddat). lia.
Qed.
Lemma cmd_loop_no_panic : forall fuel le dat i ncmd eoh st p, (length dat < fuel)%nat -> cmd_loop fuel le dat i ncmd eoh st <> Panic p.
Proof.
  induction fuel as [|fuel IH]; intros le dat i ncmd eoh st p Hf; [lia|]. cbn [cmd_loop].
  destruct (negb (mo_cmd_loop i ncmd)); [discriminate|].
  unfold mo_cmd_block_small. destruct (zlen dat <? 8) eqn:E8; [discriminate|].
  unfold mo_cmd_size_bad. set (siz := rdf le 4 4 dat). destruct ((siz <? 8) || (siz >? zlen dat)) eqn:Es; [discriminate|].
  match goal with |- (bind ?X _) <> _ => destruct X as [st'| |q] eqn:Est end; cbn [bind]; try discriminate.
  - apply IH. pose proof (length_zdrop_lt siz dat ltac:(lia) ltac:(lia)). lia.
  - exfalso. revert Est. clear IH.
    destruct (rdf le 0 4 dat =? LC_SEGMENT); [destruct (_ <? SEG32_SIZE); [discriminate|]; apply segment_no_panic; discriminate|].
    destruct (rdf le 0 4 dat =? LC_SEGMENT_64); [destruct (_ <? SEG64_SIZE); [discriminate|]; apply segment_no_panic; discriminate|].
    destruct (rdf le 0 4 dat =? mo_lc_code_signature); [destruct (_ <? mo_cscmd_size); discriminate|discriminate].
Qed.

(* ------------------------------------------------------------------ put: a write changes the buffer inside its window only *)
Lemma put_inv off v h h' : put off v h = Ok h' -> 0 <= off /\ off + zlen v <= zlen h /\ h' = ztake off h ++ v ++ zdrop (off + zlen v) h.
Proof. unfold put. destruct ((off <? 0) || (zlen h <? off + zlen v)) eqn:E; [discriminate|]. intros [= <-]. repeat split; lia. Qed.
Lemma zlen_enc le w v : zlen (enc le w v) = Z.of_nat w.
Proof. unfold enc. destruct le; [apply le_enc_zlen|apply be_enc_zlen]. Qed.

(* h' differs from h inside [lo, hi) only *)
Definition same_outside (lo hi : Z) (h h' : bytes) : Prop :=
  zlen h' = zlen h /\ ztake lo h' = ztake lo h /\ zdrop hi h' = zdrop hi h.
Lemma same_outside_widen lo hi lo' hi' h h' : same_outside lo hi h h' -> lo' <= lo -> 0 <= hi <= hi' -> same_outside lo' hi' h h'.
Proof.
  intros (Hl & Ht & Hd) H1 H2. split; [exact Hl|]. split.
  - replace lo' with (Z.min lo' lo) by lia. now rewrite <- !ztake_ztake, Ht.
  - replace hi' with (hi' - hi + hi) by lia. now rewrite <- !zdrop_zdrop, Hd by lia.
Qed.
Lemma same_outside_trans lo hi h1 h2 h3 : same_outside lo hi h1 h2 -> same_outside lo hi h2 h3 -> same_outside lo hi h1 h3.
Proof. intros (? & ? & ?) (? & ? & ?). repeat split; congruence. Qed.
Lemma same_outside_slice lo hi h h' a b : same_outside lo hi h h' -> 0 <= a -> 0 <= hi -> b <= lo \/ hi <= a -> zslice a b h' = zslice a b h.
Proof.
  intros (_ & Ht & Hd) Ha Hhi [Hb|Hb].
  - now rewrite <- (zslice_ztake a b lo h'), Ht, zslice_ztake.
  - replace a with (hi + (a - hi)) by lia. replace b with (hi + (b - hi)) by lia. now rewrite <- !zslice_zdrop, Hd by lia.
Qed.

Lemma put_same_outside off v h h' : put off v h = Ok h' -> same_outside off (off + zlen v) h h'.
Proof.
  intros (H0 & H1 & ->)%put_inv. pose proof (zlen_nonneg v). assert (Hl : zlen (ztake off h) = off) by (apply zlen_ztake; lia). repeat split.
  - rewrite !zlen_app, Hl, zlen_zdrop by lia. lia.
  - now apply ztake_app_len.
  - rewrite app_assoc. apply zdrop_app_len. rewrite zlen_app. lia.
Qed.
Lemma put_len off v buf r : put off v buf = Ok r -> zlen r = zlen buf.
Proof. intros P. apply (put_same_outside _ _ _ _ P). Qed.
Lemma put_at off v h h' : put off v h = Ok h' -> zslice off (off + zlen v) h' = v.
Proof. intros (H0 & H1 & ->)%put_inv. pose proof (zlen_nonneg v). apply zslice_app_mid; rewrite zlen_ztake; lia. Qed.
(* two adjacent writes are one *)
Lemma put_app off a b h h1 h2 : put off a h = Ok h1 -> put (off + zlen a) b h1 = Ok h2 -> put off (a ++ b) h = Ok h2.
Proof.
  intros P1 P2. destruct (put_same_outside _ _ _ _ P1) as (Hl & _ & Hd). apply put_inv in P1 as (H0 & H1 & E1). apply put_inv in P2 as (_ & H2 & ->).
  pose proof (zlen_nonneg a). pose proof (zlen_nonneg b). unfold put. rewrite zlen_app, Z.add_assoc.
  replace ((off <? 0) || (zlen h <? off + zlen a + zlen b)) with false by lia. f_equal.
  replace (off + zlen a + zlen b) with (zlen b + (off + zlen a)) at 2 by lia. rewrite <- (zdrop_zdrop (zlen b) (off + zlen a) h1), Hd, zdrop_zdrop by lia.
  rewrite E1, (app_assoc (ztake off h) a), ztake_app_len by (rewrite zlen_app, zlen_ztake; lia).
  rewrite <- !app_assoc. do 3 f_equal. f_equal. lia.
Qed.

(* ------------------------------------------------------------------ binpatch: patches in ascending order are applied as they stand *)
Lemma insert_patch_front p l : (forall q, In q l -> fst (fst p) < fst (fst q)) -> insert_patch p l = p :: l.
Proof. destruct l as [|x r]; [reflexivity|]. intros H. cbn [insert_patch]. replace (fst (fst p) <? fst (fst x)) with true by (specialize (H x (or_introl eq_refl)); lia). reflexivity. Qed.
Fixpoint sorted_off (l : list patch) : Prop :=
  match l with [] => True | p :: r => (forall q, In q r -> fst (fst p) < fst (fst q)) /\ sorted_off r end.
Lemma sort_sorted l : sorted_off l -> sort_patches l = l.
Proof. induction l as [|p r IH]; [reflexivity|]. intros [Hp Hr]. cbn [sort_patches]. rewrite IH by exact Hr. apply insert_patch_front. exact Hp. Qed.
Lemma zeros_split a b : 0 <= a -> 0 <= b -> zeros (a + b) = zeros a ++ zeros b.
Proof. intros Ha Hb. unfold zeros. rewrite Z2Nat.inj_add by lia. apply repeat_app. Qed.

(* ------------------------------------------------------------------ the three header patches of a fresh signature *)
Definition le_lo (m : markers) : Z := if mo_le_is_64 (m_magic m) then m_le_pos m + 32 else m_le_pos m + 28.
Definition le_n (m : markers) : Z := if mo_le_is_64 (m_magic m) then 24 else 12.

Lemma patch_ncmd_fresh m hdr r : m_load_cs m = 0 -> zlen hdr = m_next_lc m -> m_next_lc m + 16 <= m_first_sh m ->
  patch_ncmd m hdr = Ok r -> exists h', r = (h', m_next_lc m, [(16, 8)]) /\ same_outside 16 24 (hdr ++ zeros 16) h'.
Proof.
  intros Hlc Hl Hfs. unfold patch_ncmd, mo_load_cs_end, mo_lc_overflows, mo_hdr_extend, mo_ncmd_at, mo_cmdsz_at, mo_ncmd_patch_off, mo_ncmd_patch_len.
  rewrite Hlc, Hl. change (mo_has_load_cs 0) with false. cbv iota.
  replace (m_next_lc m + 16 >? m_first_sh m) with false by lia. replace (m_next_lc m <? m_next_lc m + 16) with true by lia.
  replace (m_next_lc m + 16 - m_next_lc m) with 16 by lia.
  destruct (crdf _ 16 4 _) as [n| |]; cbn [bind]; try discriminate. destruct (put 16 _ _) as [h1| |] eqn:P1; cbn [bind]; try discriminate.
  destruct (crdf _ 20 4 _) as [c| |]; cbn [bind]; try discriminate. destruct (put 20 _ _) as [h2| |] eqn:P2; cbn [bind]; try discriminate.
  destruct (cslice _ _ _); cbn [bind]; try discriminate. intros [= <-]. exists h2. split; [reflexivity|].
  apply put_same_outside in P1, P2. rewrite zlen_enc in P1, P2.
  eapply same_outside_trans; eapply same_outside_widen; try eassumption; lia.
Qed.
Lemma patch_link_edit_spec m h ss sz r : patch_link_edit m h ss sz = Ok r -> 0 <= m_le_pos m ->
  snd r = (le_lo m, le_n m) /\ same_outside (le_lo m) (le_lo m + le_n m) h (fst r).
Proof.
  unfold patch_link_edit, le_lo, le_n. intros Hp Hpos.
  destruct (mo_le_is_64 (m_magic m));
    [unfold mo_le64_memsz_at, mo_le64_filesz_at, mo_le64_patch_off, mo_le64_patch_len in Hp
    |unfold mo_le32_memsz_at, mo_le32_filesz_at, mo_le32_patch_off, mo_le32_patch_len in Hp].
  all: destruct (put _ _ h) as [h1| |] eqn:P1; cbn [bind] in Hp; try discriminate.
  all: destruct (put _ _ h1) as [h2| |] eqn:P2; cbn [bind] in Hp; try discriminate.
  all: destruct (cslice _ _ _); cbn [bind] in Hp; try discriminate; injection Hp as <-; split; [reflexivity|]; cbn [fst].
  all: apply put_same_outside in P1, P2; rewrite zlen_enc in P1, P2.
  all: eapply same_outside_trans; eapply same_outside_widen; try eassumption; lia.
Qed.
(* the four fields of the new command are adjacent: one write of sixteen bytes *)
Lemma patch_load_cmd_spec m h lc ss sz r : patch_load_cmd m h lc ss sz = Ok r ->
  snd r = (lc, 16) /\
  put lc (enc (m_le m) 4 (mm_wrap32 mo_lc_code_signature) ++ enc (m_le m) 4 16 ++ enc (m_le m) 4 (mm_wrap32 ss) ++ enc (m_le m) 4 (mm_wrap32 sz)) h = Ok (fst r).
Proof.
  unfold patch_load_cmd, mo_lc_cmd_at, mo_lc_len_at, mo_lc_off_at, mo_lc_size_at, mo_lc_cmd_val, mo_lc_len_val, mo_lc_off_val, mo_lc_size_val, mo_lc_patch_len.
  destruct (put lc _ h) as [h1| |] eqn:P1; cbn [bind]; try discriminate. destruct (put _ _ h1) as [h2| |] eqn:P2; cbn [bind]; try discriminate.
  destruct (put _ _ h2) as [h3| |] eqn:P3; cbn [bind]; try discriminate. destruct (put _ _ h3) as [h4| |] eqn:P4; cbn [bind]; try discriminate.
  destruct (cslice _ _ _); cbn [bind]; try discriminate. intros [= <-]. split; [reflexivity|]. cbn [fst].
  apply (put_app _ _ _ _ _ _ P1). rewrite zlen_enc. apply (put_app _ _ _ _ _ _ P2). rewrite zlen_enc, <- Z.add_assoc.
  apply (put_app _ _ _ _ _ _ P3). rewrite zlen_enc, <- Z.add_assoc. exact P4.
Qed.

Theorem fresh_patches m f est pt : fresh_ok m f = true ->
  patch_signature (zlen f) m (ztake (m_next_lc m) f) est = Ok pt -> mo_reuse_block (m_sig_len m) est = false ->
  let nl := m_next_lc m in let cs := m_code_size m in
  let sig_start := mo_align cs mo_align_file in let sig_size := mo_align est mo_align_file in
  p_sig_start pt = sig_start /\ p_sig_buf_len pt = sig_size /\ p_padding pt = sig_start - cs /\ 0 <= p_padding pt < 8 /\
  zlen (p_hdr pt) = nl + 16 /\
  (* the new load command, in the image's byte order *)
  zslice nl (nl + 16) (p_hdr pt) = enc (m_le m) 4 (mm_wrap32 mo_lc_code_signature) ++ enc (m_le m) 4 16 ++ enc (m_le m) 4 (mm_wrap32 sig_start) ++ enc (m_le m) 4 (mm_wrap32 sig_size) /\
  (* outside the three patched fields the new header is the old header (followed by the 16 bytes of the new command) *)
  ztake 16 (p_hdr pt) = ztake 16 f /\ zslice 24 (le_lo m) (p_hdr pt) = zslice 24 (le_lo m) f /\
  zslice (le_lo m + le_n m) nl (p_hdr pt) = zslice (le_lo m + le_n m) nl f /\
  forall sigbuf, zlen sigbuf = sig_size ->
    apply_patches f (patch_list pt sigbuf) = Ok (p_hdr pt ++ zslice (nl + 16) cs f ++ zeros (sig_start - cs) ++ sigbuf ++ zdrop cs f).
Proof.
  intros Hok Hp Hre nl cs sig_start sig_size.
  unfold fresh_ok in Hok. repeat (apply andb_true_iff in Hok as [Hok ?]).
  assert (Hlc : m_load_cs m = 0) by lia. assert (Hsl : m_sig_len m = 0) by lia. assert (Hss : m_sig_start m = 0) by lia.
  set (lo := le_lo m). set (n := le_n m).
  assert (Hlo : 56 <= lo /\ 0 < n /\ lo + n <= nl) by (unfold lo, n, le_lo, le_n, nl; destruct (mo_le_is_64 (m_magic m)); lia).
  assert (Hcs : nl + 16 <= cs <= zlen f) by (unfold nl, cs; lia). assert (Hfs : nl + 16 <= m_first_sh m /\ 28 <= m_le_pos m) by (unfold nl; lia).
  clear - Hlc Hsl Hss Hlo Hcs Hfs Hp Hre.   (* the boolean conjuncts have served; every lia below would translate them again *)
  destruct (align_spec cs 8 ltac:(lia) ltac:(lia)) as [Hal _]. change (mo_align cs 8) with sig_start in Hal.
  (* patchNcmd, patchLinkEdit, patchLoadCmd: each rewrites a window of its own *)
  unfold patch_signature in Hp. change (negb patch_layout_ok) with false in Hp. rewrite Hre, Hss in Hp. cbv iota in Hp.
  unfold mo_sig_size_aligned, mo_sig_start_unset, mo_sig_start_new, mo_padding, mo_padding_neg, mo_padded_len in Hp.
  change (0 =? 0) with true in Hp. cbv iota in Hp. fold cs sig_start sig_size in Hp. replace (sig_start - cs <? 0) with false in Hp by lia.
  destruct (alloc _ _) as [[]| |]; cbn [bind] in Hp; try discriminate.
  fold nl in Hp. set (hdr := ztake nl f) in Hp. assert (Hhl : zlen hdr = nl) by (apply zlen_ztake; lia).
  destruct (patch_ncmd m hdr) as [r1| |] eqn:E1; cbn [bind] in Hp; try discriminate.
  apply patch_ncmd_fresh in E1 as (h1 & -> & W1); [|assumption|assumption|apply Hfs]. cbv beta iota in Hp.
  destruct (patch_link_edit m h1 _ _) as [[h2 r2]| |] eqn:E2; cbn [bind fst snd] in Hp; try discriminate.
  apply patch_link_edit_spec in E2 as [E2 W2]; [|lia]. cbn [fst snd] in E2, W2. subst r2. fold lo n in W2, Hp.
  destruct (patch_load_cmd m h2 _ _ _) as [[h3 r3]| |] eqn:E3; cbn [bind fst snd] in Hp; try discriminate.
  apply patch_load_cmd_spec in E3 as [E3 P3]. cbn [fst snd] in E3, P3. subst r3.
  pose proof (put_same_outside _ _ _ _ P3) as W3. pose proof (put_at _ _ _ _ P3) as C3. rewrite !zlen_app, !zlen_enc in W3, C3. change (Z.of_nat 4 + (Z.of_nat 4 + (Z.of_nat 4 + Z.of_nat 4))) with 16 in W3, C3. clear P3.
  injection Hp as <-. cbn [p_sig_start p_sig_buf_len p_padding p_hdr].
  assert (L3 : zlen h3 = nl + 16).
  { destruct W1 as [L1 _], W2 as [L2 _], W3 as [L3 _]. rewrite L3, L2, L1, zlen_app, Hhl. reflexivity. }
  (* outside the three windows the new header is the old one *)
  assert (U : forall a b, 0 <= a -> b <= nl -> b <= 16 \/ 24 <= a -> b <= lo \/ lo + n <= a -> zslice a b h3 = zslice a b f).
  { clear - W1 W2 W3 Hlo Hhl.   (* each lia reads the whole context *)
    intros a b Ha Hb H1 H2. rewrite (same_outside_slice _ _ _ _ _ _ W3), (same_outside_slice _ _ _ _ _ _ W2), (same_outside_slice _ _ _ _ _ _ W1), zslice_app_l by lia.
    apply zslice_ztake; lia. }
  split; [reflexivity|]. split; [reflexivity|]. split; [reflexivity|]. split; [lia|]. split; [exact L3|]. split; [exact C3|].
  split; [rewrite <- !zslice_0; apply U; lia|]. split; [apply U; lia|]. split; [apply U; lia|].
  (* the patch set: the three header ranges in ascending order, then the signature behind the code; between them the file is copied, and
     there it agrees with the new header *)
  intros sigbuf Hsb. unfold apply_patches, patch_list. cbn [p_hdr p_hdr_ranges p_sig_patch p_padding map app fst snd]. rewrite Hsl. fold nl.
  rewrite sort_sorted by (cbn [sorted_off In]; intuition (subst; cbn [fst]; lia)).
  cbn [apply_sorted]. change (16 + 8) with 24.
  replace ((16 <? 0) || (zlen f <? 24) || (8 <? 0)) with false by lia. replace ((lo <? 24) || (zlen f <? lo + n) || (n <? 0)) with false by lia.
  replace ((nl <? lo + n) || (zlen f <? nl + 16) || (16 <? 0)) with false by lia. replace ((cs <? nl + 16) || (zlen f <? cs + 0) || (0 <? 0)) with false by lia.
  cbn [bind]. rewrite Z.add_0_r, <- (U 0 16), <- (U 24 lo), <- (U (lo + n) nl) by lia. f_equal. rewrite <- !app_assoc.
  rewrite <- (zslice_full h3) at 7. rewrite L3.
  rewrite (zslice_split 0 16 (nl + 16)), (zslice_split 16 24 (nl + 16)), (zslice_split 24 lo (nl + 16)), (zslice_split lo (lo + n) (nl + 16)), (zslice_split (lo + n) nl (nl + 16)) by lia.
  rewrite <- !app_assoc. reflexivity.
Qed.

Lemma estimate_pos cs hs el rl : 0 <= cs -> 0 <= hs -> 0 <= el -> 0 <= rl -> mo_reuse_block 0 (estimate cs hs el rl) = false.
Proof.
  intros. unfold mo_reuse_block, estimate, mo_est2, mo_est1, mo_est0. rewrite Z.quot_div_nonneg by nia.
  pose proof (Z.div_pos (cs * (20 + hs)) 4096 ltac:(nia) ltac:(lia)). lia.
Qed.

(* ------------------------------------------------------------------ computed instances on the minimal image *)
(* any digest function will do: this one is never all-zero *)
Definition constH (h : Z) (x : bytes) : bytes := repeat (1 + zlen x mod 250) (Z.to_nat (go_hash_size h)).
Definition sign_twice (cms1 cms2 : bytes) : result (bytes * bytes) :=
  g1 <- macho_embed constH 0 (w_sparams [105; 100]) w_macho cms1 ;; g2 <- macho_embed constH 0 (w_sparams [105; 100]) g1 cms2 ;; Ok (g1, g2).
Definition verifies (cmsv : bytes -> bytes -> option (option (list (Z * bytes)) * option (list bytes))) (g : bytes) : bool :=
  match macho_extract_blob g with
  | Ok (Some b) => match cs_verify constH cmsv b (mkVP None None None) with Ok s => match verify_pages constH s g with Ok _ => true | _ => false end | _ => false end
  | _ => false
  end.
Definition cms_of (g : bytes) : option bytes :=
  match macho_extract_blob g with Ok (Some b) => match parse_signature constH b with Ok s => sg_cms s | _ => None end | _ => None end.

(* The signed images are 16520 bytes long, 16392 of them the reserved space, of which the signature fills the first few hundred.  Every
   function of the model walks the whole byte string several times, parseSuper some thirty times; evaluating the computed theorems of
   Properties.v as they stand repeats that for every mention of a signed image.  So each stage is evaluated once, on the image written
   out (G1, G2, G3), and the parsers run on the signature without the unused reserve (parse_signature_pad). *)
(* both sides are evaluated by the VM when the cast is checked; `vm_compute; reflexivity` would also read the normal forms back into terms,
   which for these lists costs more than the evaluation.  Only for a right hand side that is a value (but for a list expression): against
   anything else the kernel's lazy conversion (coqchk has no other) compares unevaluated calls argument by argument and does not come back *)
Ltac by_vm := match goal with |- ?a = ?b => exact (@eq_refl _ b <: a = b) end.
Lemma macho_prepare_pad H rg f p mp sb pad :
  macho_plan f (go_hash_size (sp_hash p)) (zlen (obytes (sp_ent p))) rg = Ok mp -> mp_old_sig mp = Some (sb ++ pad) ->
  is_ok (parse_signature H sb) = true ->
  macho_prepare H rg f p = (p' <- defaults_from_signature H p (Some sb) ;; pl <- sign_plan H (sign_hash_list p') p' (mp_stream mp) ;; Ok (mkMS mp pl p')).
Proof. intros Hp Ho Hok. unfold macho_prepare. rewrite Hp. cbn [bind]. rewrite Ho. unfold defaults_from_signature. now rewrite parse_signature_pad. Qed.

(* the superblob at the start of the reserved space, and the plan of signing g again *)
Definition sig_of (g : bytes) : bytes := match macho_extract_blob g with Ok (Some b) => ztake (rd32 4 b) b | _ => [] end.
Definition plan_of (g : bytes) : mplan :=
  match macho_plan g 32 0 0 with Ok mp => mp | _ => mkMP (mkM false 0 0 0 0 0 0 0 0 0 0 0 0 0 0) (mkP [] 0 0 0 [] (0, 0, 0)) [] None end.
Definition embedded (f cms : bytes) : bytes := match macho_embed constH 0 (w_sparams [105; 100]) f cms with Ok g => g | _ => [] end.

Definition G1 : bytes := Eval vm_compute in embedded w_macho [9; 9; 9].
Definition S1 : bytes := Eval vm_compute in sig_of G1.
Definition P1 : mplan := Eval vm_compute in plan_of G1.
Definition G2 : bytes := Eval vm_compute in embedded G1 [7].
Definition S2 : bytes := Eval vm_compute in sig_of G2.
Definition G3 : bytes := Eval vm_compute in embedded w_macho_trailing [9].
Definition S3 : bytes := Eval vm_compute in sig_of G3.

Lemma embed1 : macho_embed constH 0 (w_sparams [105; 100]) w_macho [9; 9; 9] = Ok G1. Proof. by_vm. Qed.
Lemma blob1 : macho_extract_blob G1 = Ok (Some (S1 ++ zeros (16392 - zlen S1))). Proof. by_vm. Qed.
Lemma parses1 : is_ok (parse_signature constH S1) = true. Proof. by_vm. Qed.
Lemma plan1 : macho_plan G1 (go_hash_size (sp_hash (w_sparams [105; 100]))) (zlen (obytes (sp_ent (w_sparams [105; 100])))) 0 = Ok P1.
Proof. by_vm. Qed.
Lemma old1 : mp_old_sig P1 = Some (S1 ++ zeros (16392 - zlen S1)). Proof. by_vm. Qed.
Lemma embed2 : macho_embed constH 0 (w_sparams [105; 100]) G1 [7] = Ok G2.
Proof. unfold macho_embed. rewrite (macho_prepare_pad _ _ _ _ _ _ _ plan1 old1 parses1). by_vm. Qed.
Lemma blob2 : macho_extract_blob G2 = Ok (Some (S2 ++ zeros (16392 - zlen S2))). Proof. by_vm. Qed.
Lemma parses2 : is_ok (parse_signature constH S2) = true. Proof. by_vm. Qed.
Lemma embed3 : macho_embed constH 0 (w_sparams [105; 100]) w_macho_trailing [9] = Ok G3. Proof. by_vm. Qed.
Lemma blob3 : macho_extract_blob G3 = Ok (Some (S3 ++ zeros (16392 - zlen S3))). Proof. by_vm. Qed.
Lemma parses3 : is_ok (parse_signature constH S3) = true. Proof. by_vm. Qed.
