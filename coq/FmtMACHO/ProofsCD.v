(* FmtMACHO/ProofsCD.v — what the cs_blobs.h reader finds in a CodeDirectory as newCodeDirectory writes it, part by part: the header fields, the
   two strings, the slot tables.  Properties.macho_cd_spec_reader puts them together *)
From Relic Require Import Base.Prelude Base.Enc Base.Slice Generated.FmtMACHO_gen FmtMACHO.Model FmtMACHO.Proofs.

Lemma be_dec_be32 n : 0 <= n < 4294967296 -> be_dec (be32 n) = n.
Proof. intros Hn. unfold be32. apply be_dec_enc. exact Hn. Qed.
Lemma be_dec_wrap8 n : 0 <= n < 256 -> be_dec [wrap8 n] = n.
Proof. intros Hn. unfold wrap8. cbn. rewrite Z.mod_small; lia. Qed.

(* The header is 88 bytes written out one after the other, so a read at a fixed offset IS the decoding of one field's bytes: every statement
   below holds by conversion with be_dec (be32 field) (be_dec [wrap8 field], be_dec (be_enc 8 field)) *)
Section HdrFields.
  Variable h : cdhdr.
  Variable r : bytes.
  Let B := hdr_bytes h ++ r.
  Lemma zlen_hdr : zlen (hdr_bytes h) = 88.
  Proof. reflexivity. Qed.
  Lemma fld_magic : 0 <= h_magic h < 4294967296 -> rd32 0 B = h_magic h. Proof. exact (be_dec_be32 _). Qed.
  Lemma fld_length : 0 <= h_length h < 4294967296 -> rd32 4 B = h_length h. Proof. exact (be_dec_be32 _). Qed.
  Lemma fld_version : 0 <= h_version h < 4294967296 -> rd32 8 B = h_version h. Proof. exact (be_dec_be32 _). Qed.
  Lemma fld_flags : 0 <= h_flags h < 4294967296 -> rd32 12 B = h_flags h. Proof. exact (be_dec_be32 _). Qed.
  Lemma fld_hashoff : 0 <= h_hashoff h < 4294967296 -> rd32 16 B = h_hashoff h. Proof. exact (be_dec_be32 _). Qed.
  Lemma fld_identoff : 0 <= h_identoff h < 4294967296 -> rd32 20 B = h_identoff h. Proof. exact (be_dec_be32 _). Qed.
  Lemma fld_nspecial : 0 <= h_nspecial h < 4294967296 -> rd32 24 B = h_nspecial h. Proof. exact (be_dec_be32 _). Qed.
  Lemma fld_ncode : 0 <= h_ncode h < 4294967296 -> rd32 28 B = h_ncode h. Proof. exact (be_dec_be32 _). Qed.
  Lemma fld_limit : 0 <= h_limit h < 4294967296 -> rd32 32 B = h_limit h. Proof. exact (be_dec_be32 _). Qed.
  Lemma fld_hashsize : 0 <= h_hashsize h < 256 -> rdw 36 1 B = h_hashsize h. Proof. exact (be_dec_wrap8 _). Qed.
  Lemma fld_hashtype : 0 <= h_hashtype h < 256 -> rdw 37 1 B = h_hashtype h. Proof. exact (be_dec_wrap8 _). Qed.
  Lemma fld_pagesize : 0 <= h_pagesize h < 256 -> rdw 39 1 B = h_pagesize h. Proof. exact (be_dec_wrap8 _). Qed.
  Lemma fld_teamoff : 0 <= h_teamoff h < 4294967296 -> rd32 48 B = h_teamoff h. Proof. exact (be_dec_be32 _). Qed.
  Lemma fld_limit64 : rdw 56 8 B = h_limit64 h mod 18446744073709551616. Proof. exact (be_dec_enc_mod 8 _). Qed.
  Lemma fld_esbase : rdw 64 8 B = h_esbase h mod 18446744073709551616. Proof. exact (be_dec_enc_mod 8 _). Qed.
  Lemma fld_eslimit : rdw 72 8 B = h_eslimit h mod 18446744073709551616. Proof. exact (be_dec_enc_mod 8 _). Qed.
  Lemma fld_esflags : rdw 80 8 B = h_esflags h mod 18446744073709551616. Proof. exact (be_dec_enc_mod 8 _). Qed.
End HdrFields.

(* ------------------------------------------------------------------ strings and slots *)
Lemma spec_cstr_app s r : Forall (fun c => c <> 0) s -> spec_cstr (s ++ 0 :: r) = Some s.
Proof.
  induction 1 as [|c s Hc Hs IH]; cbn [app spec_cstr]; [reflexivity|].
  rewrite (proj2 (Z.eqb_neq c 0)) by exact Hc. now rewrite IH.
Qed.
Lemma spec_slots_fwd : forall n pre l post base hs, base = zlen pre -> 0 < hs -> Z.of_nat n * hs <= zlen l ->
  spec_slots n base hs hs (pre ++ l ++ post) = split_slots n hs l.
Proof.
  induction n as [|n IH]; intros pre l post base hs Hb Hh Hl; [reflexivity|].
  cbn [spec_slots split_slots]. rewrite Nat2Z.inj_succ in Hl. subst base.
  assert (Hl' : hs <= zlen l) by nia.
  f_equal.
  - rewrite <- (ztake_zdrop hs l) at 1. rewrite <- app_assoc. apply zslice_app_mid; [reflexivity|]. rewrite zlen_ztake by lia. reflexivity.
  - rewrite <- (ztake_zdrop hs l) at 1. rewrite <- (app_assoc (ztake hs l)). rewrite (app_assoc pre).
    apply IH; [rewrite zlen_app, zlen_ztake by lia; reflexivity|exact Hh|rewrite zlen_zdrop by lia; nia].
Qed.
Lemma spec_slots_bwd : forall bs pre post hs, Forall (fun b => zlen b = hs) bs -> 0 < hs ->
  spec_slots (length bs) (zlen pre + zlen (concat bs) - hs) (- hs) hs (pre ++ concat bs ++ post) = rev bs.
Proof.
  induction bs as [|x bs IH] using rev_ind; intros pre post hs Hf Hh; [reflexivity|].
  apply Forall_app in Hf as [Hf Hx]. inversion Hx as [|? ? Hxl _]; subst.
  rewrite app_length, Nat.add_1_r, rev_app_distr. cbn [rev app spec_slots]. rewrite concat_app. cbn [concat]. rewrite app_nil_r, zlen_app.
  f_equal.
  - rewrite <- !app_assoc. rewrite (app_assoc pre). apply zslice_app_mid; rewrite zlen_app; lia.
  - replace (zlen pre + (zlen (concat bs) + zlen x) - zlen x + - zlen x) with (zlen pre + zlen (concat bs) - zlen x) by lia.
    rewrite <- !app_assoc. apply IH; assumption.
Qed.
Lemma hash_type_cases h ht : lookup h cs_hash_type_of = Some ht -> (h = 3 /\ ht = 1) \/ (h = 5 /\ ht = 2) \/ (h = 6 /\ ht = 4).
Proof.
  unfold cs_hash_type_of. cbn [lookup].
  destruct (Z.eq_dec h 3) as [->|N3]; [intros [= <-]; auto|]. rewrite (proj2 (Z.eqb_neq 3 h)) by lia.
  destruct (Z.eq_dec h 5) as [->|N5]; [intros [= <-]; auto|]. rewrite (proj2 (Z.eqb_neq 5 h)) by lia.
  destruct (Z.eq_dec h 6) as [->|N6]; [intros [= <-]; auto|]. rewrite (proj2 (Z.eqb_neq 6 h)) by lia. discriminate.
Qed.
Lemma ssb_len H h s : (forall x, zlen (H h x) = go_hash_size h) -> zlen (special_slot_bytes H h s) = go_hash_size h.
Proof.
  intros HH. unfold special_slot_bytes, cd_special_present. destruct s; [apply HH|]. apply zlen_zeros. rewrite <- (HH []). apply zlen_nonneg.
Qed.
Lemma concat_len_const (bs : list bytes) hs : Forall (fun b => zlen b = hs) bs -> zlen (concat bs) = zlen bs * hs.
Proof. induction 1 as [|b bs Hb Hf IH]; [reflexivity|]. cbn [concat]. rewrite zlen_app, zlen_cons, IH, Hb. lia. Qed.

Lemma layout_ok : cdh_layout_ok && cd_writes_ok = true. Proof. reflexivity. Qed.
(* the least header size a version asks for *)
Lemma cd_need_le v : (if v <? 131328 then 44 else if v <? 131584 then 48 else if v <? 131840 then 52 else if v <? 132096 then 64 else 88) <= 88.
Proof. repeat destruct (_ <? _); lia. Qed.
