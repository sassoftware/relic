(* FmtMACHO/ProofsVP.v — theorems about the GENERATED program vp_prog (Generated/FmtMACHO_gen.v: the body of csblob SigBlob.VerifyPages
   translated statement by statement) under the interpreter of FmtMACHO/VpLang.v.
   1. vp_exec_eq: for EVERY header value (page size byte, signed 64 bit code size incl. negative values and MinInt64 — the expressions of the
      program wrap like Go's int64), every slot list and every reader content the program equals the closed function vp_fun
      (no panic: every `page[:remaining]` and `make([]byte, pageSize)` it executes is in range).
   2. the independent SPECIFICATION of the page hashes (cs_blobs.h / Apple's CodeDirectory::checkIntegrity + validateSlot: slot i is the digest of
      page i of the first codeLimit bytes, pages of 2^pageSize bytes, the last one short; pageSize 0 = one slot over everything) and
      vp_accepts_iff: exactly when the program accepts, for all inputs; for every paged directory, accepts <-> specification
      (since relic 086958a / bd61613). *)
From Relic Require Import Base.Prelude Base.Enc Base.Slice FmtMACHO.VpLang Generated.FmtMACHO_gen.
From Relic Require C09.Model C09.Proofs.

(* the shape the proofs below rely on: nine statements (the sign check of relic bd61613 among them), the range loop, the coverage check behind it
   (relic 086958a), return nil *)
Definition vp_body : list vstmt := match nth 9 vp_prog SBestDir with SRange b => b | _ => [] end.
Definition vp_after : vstmt := nth 10 vp_prog SBestDir.
Lemma prog_split : vp_prog = firstn 9 vp_prog ++ [SRange vp_body; vp_after; SRet 0].
Proof. reflexivity. Qed.
Lemma exec_list_app H c l1 : forall l2 s, exec_list H c (l1 ++ l2) s = match exec_list H c l1 s with VNext s' => exec_list H c l2 s' | o => o end.
Proof. induction l1 as [|x r IH]; intros l2 s; [reflexivity|]. cbn [app exec_list]. destruct (exec1 H c x s); [apply IH|reflexivity|reflexivity]. Qed.

Lemma s64_id x : -9223372036854775808 <= x < 9223372036854775808 -> mm_s64 x = x.
Proof. intros Hx. unfold mm_s64. rewrite Z.mod_small by lia. lia. Qed.
Lemma s64_range x : -9223372036854775808 <= mm_s64 x < 9223372036854775808.
Proof. unfold mm_s64. pose proof (Z.mod_pos_bound (x + 9223372036854775808) 18446744073709551616 ltac:(lia)). lia. Qed.
Lemma pow2_bounds n : 1 <= n <= 20 -> 2 <= 2 ^ n <= 1048576.
Proof. intros Hn. split; [apply (Z.pow_le_mono_r 2 1 n); lia|change 1048576 with (2 ^ 20); apply Z.pow_le_mono_r; lia]. Qed.
Lemma zlen_vzeros n : 0 <= n -> zlen (vzeros n) = n.
Proof. intros Hn. unfold zlen, vzeros. rewrite repeat_length. lia. Qed.

(* ------------------------------------------------------------------ the closed function *)
Section Fun.
  Variable H : Z -> bytes -> bytes.
  (* the range loop: error class, 0 = all slots matched *)
  Fixpoint pages_run (hf ps : Z) (hs : list bytes) (r : Z) (rd : bytes) : Z :=
    match hs with
    | [] => 0
    | e :: t =>
        if r <=? 0 then 10 else
        let k := Z.min r ps in
        if zlen rd <? k then 1 else
        if bytes_eqb (H hf (ztake k rd)) e then pages_run hf ps t (r - k) (zdrop k rd) else 6
    end.
  (* what is left of the code size behind the last slot *)
  Fixpoint rem_after (ps : Z) (hs : list bytes) (r : Z) : Z :=
    match hs with [] => r | _ :: t => rem_after ps t (r - Z.min r ps) end.
  Definition vp_fun (c : vin) (rd : bytes) : result unit :=
    if i_none c then Err 7 else
    let r := mm_s64 (i_code_size c) in
    if r <? 0 then Err 10 else
    if i_log2 c =? 0 then
      if negb (zlen (i_hashes c) =? 1) then Err 10
      else if negb (zlen rd =? r) then Err 10
      else if bytes_eqb (H (i_hfun c) rd) (hd [] (i_hashes c)) then Ok tt else Err 6
    else if i_log2 c >? 20 then Err 10
    else let code := pages_run (i_hfun c) (2 ^ i_log2 c) (i_hashes c) r rd in
         if code =? 0 then (if rem_after (2 ^ i_log2 c) (i_hashes c) r >? 0 then Err 10 else Ok tt) else Err code.
  Lemma pages_run_codes hf ps : forall hs r rd, pages_run hf ps hs r rd = 0 \/ pages_run hf ps hs r rd = 10 \/ pages_run hf ps hs r rd = 1 \/ pages_run hf ps hs r rd = 6.
  Proof.
    induction hs as [|e t IH]; intros r rd; cbn [pages_run]; [left; reflexivity|].
    destruct (r <=? 0); [auto|]. cbv zeta. destruct (_ <? _); [auto|]. destruct (bytes_eqb _ _); [apply IH|auto].
  Qed.
End Fun.

(* ------------------------------------------------------------------ the program equals the closed function *)
Section Exec.
  Variable H : Z -> bytes -> bytes.
  Local Arguments mm_s64 : simpl never.
  Local Arguments zlen : simpl never.
  Local Arguments ztake : simpl never.
  Local Arguments zdrop : simpl never.
  Local Arguments bytes_eqb : simpl never.
  Local Arguments Z.leb : simpl never.
  Local Arguments Z.ltb : simpl never.
  Local Arguments Z.gtb : simpl never.
  Local Arguments Z.eqb : simpl never.
  Local Arguments Z.sub : simpl never.
  Local Arguments Z.min : simpl never.
  Local Arguments Z.shiftl : simpl never.
  Local Arguments vzeros : simpl never.

  (* one iteration of `for i, expected := range dir.CodeHashes`: whenever remaining > 0 the page buffer has its full length *)
  Lemma body_step c rem ps back plen rd acc comp err n i0 e0 i e :
    1 <= ps < 9223372036854775808 -> zlen back = ps -> (0 < rem -> plen = ps) -> -9223372036854775808 <= rem < 9223372036854775808 ->
    exec_list H c vp_body (set_loop (mkVst rem ps back plen rd acc comp err n i0 e0) i e) =
      if rem <=? 0 then VRet 10 else
      let k := Z.min rem ps in
      if zlen rd <? k then VRet 1 else
      if bytes_eqb (H (i_hfun c) (ztake k rd)) e
      then VNext (mkVst (rem - k) ps (ztake k rd ++ zdrop k back) k (zdrop k rd) (ztake k rd) (H (i_hfun c) (ztake k rd)) false n i e)
      else VRet 6.
  Proof.
    intros Hps Hb Hpl Hr. unfold vp_body, vp_prog. cbn.
    destruct (rem <=? 0) eqn:E1; [reflexivity|].
    assert (Hp : plen = ps) by (apply Hpl; lia). subst plen.
    (* the comparison that decides about the reslice: whatever operator the source uses, as long as it separates rem < ps from rem > ps *)
    lazymatch goal with |- context [match (if ?cnd then _ else _) with _ => _ end] => destruct cnd eqn:E2 end.
    - replace ((rem <? 0) || (zlen back <? rem)) with false by lia.
      cbn. replace (Z.min rem ps) with rem by lia. unfold do_read_full. cbn.
      destruct (zlen rd <? rem) eqn:E3; cbn; [reflexivity|].
      rewrite (ztake_app_len rem) by (rewrite zlen_ztake; lia).
      destruct (bytes_eqb _ e); cbn; [|reflexivity].
      rewrite (s64_id rem) by lia. rewrite s64_id by lia. reflexivity.
    - cbn. replace (Z.min rem ps) with ps by lia. unfold do_read_full. cbn.
      destruct (zlen rd <? ps) eqn:E3; cbn; [reflexivity|].
      rewrite (ztake_app_len ps) by (rewrite zlen_ztake; lia).
      destruct (bytes_eqb _ e); cbn; [|reflexivity].
      rewrite (s64_id ps) by lia. rewrite s64_id by lia. reflexivity.
  Qed.

  Lemma range_run c ps : 1 <= ps < 9223372036854775808 -> forall hs i rem back plen rd acc comp err n i0 e0,
    zlen back = ps -> (0 < rem -> plen = ps) -> -9223372036854775808 <= rem < 9223372036854775808 ->
    match exec_range H c vp_body hs i (mkVst rem ps back plen rd acc comp err n i0 e0) with
    | VNext s' => pages_run H (i_hfun c) ps hs rem rd = 0 /\ s_remaining s' = rem_after ps hs rem
    | VRet code => code = pages_run H (i_hfun c) ps hs rem rd /\ code <> 0
    | VPanic _ => False
    end.
  Proof.
    intros Hps. induction hs as [|e t IH]; intros i rem back plen rd acc comp err n i0 e0 Hb Hpl Hr; cbn [exec_range pages_run rem_after]; [split; reflexivity|].
    rewrite (body_step c rem ps back plen rd acc comp err n i0 e0 i e Hps Hb Hpl Hr).
    destruct (rem <=? 0) eqn:E1; [split; [reflexivity|discriminate]|]. cbv zeta.
    destruct (zlen rd <? Z.min rem ps) eqn:E2; [split; [reflexivity|discriminate]|].
    destruct (bytes_eqb _ e); [|split; [reflexivity|discriminate]].
    apply IH.
    - rewrite zlen_app, zlen_ztake, zlen_zdrop by lia. lia.
    - lia.
    - lia.
  Qed.

  (* THE TIE: for every input the generated program is the closed function; in particular it never panics.
     Hypotheses: the page size field is a byte (only 0 <= is needed), an allocation of the largest supported page is permitted. *)
  Theorem vp_exec_eq c rd : 0 <= i_log2 c -> 1048576 <= i_alloc_limit c -> vp_exec H c vp_prog rd = vp_fun H c rd.
  Proof.
    destruct c as [none log2 hashes hf cs lim]. cbn [i_log2 i_alloc_limit]. intros Hl Hlim.
    unfold vp_exec, vp_fun. cbn [i_none i_log2 i_hashes i_hfun i_code_size].
    rewrite prog_split, exec_list_app.
    remember (exec_list H _ (SRange vp_body :: _)) as tl eqn:Htl. unfold vp_prog at 1. cbn.
    destruct none; [reflexivity|]. cbn.
    destruct (mm_s64 cs <? 0) eqn:Eneg; cbn; [reflexivity|].
    destruct (log2 =? 0) eqn:E0.
    { destruct (zlen hashes =? 1); cbn; [|reflexivity].
      destruct (zlen rd =? mm_s64 cs); cbn; [|reflexivity].
      destruct (bytes_eqb _ _); reflexivity. }
    cbn. change cs_max_page_log2 with 20. destruct (log2 >? 20) eqn:E1; cbn; [reflexivity|].
    assert (Hn : 1 <= log2 <= 20) by lia. pose proof (pow2_bounds log2 Hn) as Hp.
    rewrite Z.shiftl_1_l. rewrite (s64_id (2 ^ log2)) by lia. rewrite (s64_id (2 ^ log2)) by lia.
    replace (2 ^ log2 <? 0) with false by lia. replace (lim <? 2 ^ log2) with false by lia. cbn.
    subst tl. cbn [exec_list]. rewrite exec1_range. cbn [i_hashes].
    pose proof (range_run (mkVin false log2 hashes hf cs lim) (2 ^ log2) ltac:(lia) hashes 0 (mm_s64 cs) (vzeros (2 ^ log2)) (2 ^ log2) rd [] [] false 0 0 []
                  (zlen_vzeros (2 ^ log2) ltac:(lia)) (fun _ => eq_refl) (s64_range cs)) as Hrun.
    cbn [i_hfun] in Hrun.
    (* the goal has the same call, its state written with the setters *)
    match type of Hrun with match ?x with _ => _ end =>
      match goal with |- match match ?y with _ => _ end with _ => _ end = _ => change y with x end; destruct x as [s'|code|p] end.
    - destruct Hrun as [Hrun Hrem]. rewrite Hrun. change (0 =? 0) with true. cbv iota.
      unfold vp_after, vp_prog. cbn [nth]. rewrite exec1_if. rewrite Hrem.
      destruct (rem_after (2 ^ log2) hashes (mm_s64 cs) >? 0); reflexivity.
    - destruct Hrun as [-> Hnz]. destruct (pages_run H hf (2 ^ log2) hashes (mm_s64 cs) rd =? 0) eqn:Ez; [lia|reflexivity].
    - destruct Hrun.
  Qed.

  Theorem vp_no_panic c rd p : 0 <= i_log2 c -> 1048576 <= i_alloc_limit c -> vp_exec H c vp_prog rd <> Panic p.
  Proof.
    intros Hl Hlim. rewrite vp_exec_eq by assumption. unfold vp_fun.
    destruct (i_none c); [discriminate|]. cbv zeta. destruct (_ <? 0); [discriminate|].
    destruct (i_log2 c =? 0). { destruct (negb _); [discriminate|]. destruct (negb _); [discriminate|]. destruct (bytes_eqb _ _); discriminate. }
    destruct (i_log2 c >? 20); [discriminate|]. destruct (_ =? 0); [destruct (_ >? 0)|]; discriminate.
  Qed.
End Exec.

(* ------------------------------------------------------------------ the loop against the chunks of unit C09 *)
Lemma ztake_nonnil {A} n (l : list A) : 0 < n -> 0 < zlen l -> ztake n l <> [].
Proof. intros Hn Hl. destruct l; [cbn in Hl; lia|]. unfold ztake. destruct (Z.to_nat n) eqn:E; [lia|]. discriminate. Qed.
Lemma chunks_of_nonpos ps r (rd : bytes) : r <= 0 -> C09.Model.chunks ps (ztake r rd) = [].
Proof. intros Hr. rewrite ztake_neg by lia. reflexivity. Qed.

(* number of pages of cs bytes *)
Definition pages_of (ps cs : Z) : Z := (cs + ps - 1) / ps.
Lemma length_chunks ps : 0 < ps -> forall l, zlen (C09.Model.chunks ps l) = pages_of ps (zlen l).
Proof.
  intros Hps. induction l as [|l Hne IH] using (C09.Proofs.chunks_ind ps Hps).
  { symmetry. apply Z.div_small. change (zlen (@nil Z)) with 0. lia. }
  rewrite (C09.Proofs.chunks_step ps Hps l Hne), zlen_cons, IH, zlen_zdrop_gen by lia.
  apply C09.Proofs.zlen_pos_iff in Hne. set (m := zlen l) in *.
  unfold pages_of. destruct (Z.max_spec 0 (m - ps)) as [[Hlt ->]|[Hge ->]].
  - replace (m + ps - 1) with ((m - ps + ps - 1) + 1 * ps) by lia. rewrite Z.div_add by lia. lia.
  - replace ((0 + ps - 1) / ps) with 0 by (symmetry; apply Z.div_small; lia). symmetry. replace (m + ps - 1) with (m - 1 + 1 * ps) by lia.
    rewrite Z.div_add by lia. rewrite Z.div_small by lia. reflexivity.
Qed.

Section Spec.
  Variable H : Z -> bytes -> bytes.
  (* the code slots of a directory over `code`: one digest per page of 2^log2 bytes (the last page short, none for empty code);
     page size 0 ("infinite", disk images): a single slot over everything *)
  Definition spec_code_slots (hf log2 : Z) (code : bytes) : list bytes :=
    if log2 =? 0 then [H hf code] else map (H hf) (C09.Model.chunks (2 ^ log2) code).
  (* a directory with code limit cs and these slots describes the region rd: the limit lies inside the region and the slots are those of
     the first cs bytes *)
  Definition spec_pages_ok (hf log2 cs : Z) (slots : list bytes) (rd : bytes) : Prop :=
    0 <= cs <= zlen rd /\ slots = spec_code_slots hf log2 (ztake cs rd).

  (* all slots match exactly when: they are the digests of the first |hs| pages of the first r bytes, there are that many pages, and the
     reader holds every byte of those pages *)
  Lemma pages_run_ok hf ps : 0 < ps -> forall hs r rd,
    pages_run H hf ps hs r rd = 0 <->
    (hs = map (H hf) (firstn (length hs) (C09.Model.chunks ps (ztake r rd))) /\
     (length hs <= length (C09.Model.chunks ps (ztake r rd)))%nat /\ Z.min r (zlen hs * ps) <= zlen rd).
  Proof.
    intros Hps. induction hs as [|e t IH]; intros r rd; cbn [pages_run].
    { split; [intros _|reflexivity]. cbn. pose proof (zlen_nonneg rd). repeat split; lia. }
    destruct (r <=? 0) eqn:Er.
    { split; [discriminate|]. intros (_ & Hl & _). rewrite chunks_of_nonpos in Hl by lia. cbn in Hl. lia. }
    cbv zeta. set (k := Z.min r ps). assert (Hk : k = Z.min r ps) by reflexivity.
    rewrite zlen_cons. assert (Hm0 : 0 <= zlen t * ps) by (pose proof (zlen_nonneg t); nia).
    destruct (zlen rd <? k) eqn:Ed.
    { split; [discriminate|]. intros (_ & _ & Hm). lia. }
    (* the first page is the first k bytes; behind it lie the pages of the next r - k bytes (none if this page was the short one) *)
    assert (Hne : ztake r rd <> []) by (apply ztake_nonnil; lia).
    rewrite (C09.Proofs.chunks_step ps Hps _ Hne), ztake_ztake, zdrop_ztake by lia. replace (Z.min ps r) with k by lia.
    replace (ztake (r - ps) (zdrop ps rd)) with (ztake (r - k) (zdrop k rd))
      by (destruct (Z.min_spec r ps) as [[Hlt Ek]|[Hge Ek]]; rewrite Hk, Ek; [rewrite !ztake_neg by lia|]; reflexivity).
    cbn [length firstn map].
    destruct (bytes_eqb (H hf (ztake k rd)) e) eqn:Ee.
    - apply bytes_eqb_eq in Ee. rewrite IH, zlen_zdrop by lia. split; intros (Ht & Hl & Hm).
      + repeat split; [congruence|lia|lia].
      + injection Ht as _ Ht. repeat split; [exact Ht|lia|lia].
    - split; [discriminate|]. intros (Ht & _). injection Ht as Ht _. symmetry in Ht. apply bytes_eqb_eq in Ht. congruence.
  Qed.
End Spec.

(* ------------------------------------------------------------------ acceptance *)
Section Accept.
  Variable H : Z -> bytes -> bytes.
  Implicit Type c : vin.

  Lemma rem_after_closed ps : 0 < ps -> forall hs r, 0 <= r -> rem_after ps hs r = Z.max 0 (r - zlen hs * ps).
  Proof.
    intros Hps. induction hs as [|e t IH]; intros r Hr; cbn [rem_after]; [unfold zlen; cbn [length]; lia|].
    rewrite IH by lia. rewrite zlen_cons. assert (0 <= zlen t * ps) by (pose proof (zlen_nonneg t); nia). lia.
  Qed.
  Lemma pages_of_bounds ps r : 0 < ps -> r <= pages_of ps r * ps /\ forall n, r <= n * ps -> pages_of ps r <= n.
  Proof.
    intros Hps. unfold pages_of. pose proof (Z.div_mod (r + ps - 1) ps ltac:(lia)) as Hd. pose proof (Z.mod_pos_bound (r + ps - 1) ps ltac:(lia)) as Hm.
    split; [nia|]. intros n Hn. apply Z.lt_succ_r. apply Z.div_lt_upper_bound; [lia|]. nia.
  Qed.
  (* all slots match AND nothing of the code size is left behind the last slot (relic 086958a) <-> the slots are the digests of ALL pages of the first
     r bytes, which the reader holds; or there is nothing to cover (r <= 0) and there is no slot *)
  Lemma cover_iff hf ps : 0 < ps -> forall hs r rd,
    (pages_run H hf ps hs r rd = 0 /\ rem_after ps hs r <= 0) <->
    (r <= 0 /\ hs = [] \/ 0 < r <= zlen rd /\ hs = map (H hf) (C09.Model.chunks ps (ztake r rd))).
  Proof.
    intros Hps hs r rd. rewrite (pages_run_ok H hf ps Hps). split.
    - intros [(Hh & Hl & Hm) Hrem]. destruct (Z.le_gt_cases r 0) as [Hr|Hr].
      + left. split; [exact Hr|]. rewrite chunks_of_nonpos in Hl by lia. destruct hs; [reflexivity|cbn in Hl; lia].
      + right. rewrite rem_after_closed in Hrem by lia. assert (Hcov : r <= zlen hs * ps) by lia.
        assert (Hlen : r <= zlen rd) by lia. split; [lia|].
        assert (Hc : zlen (C09.Model.chunks ps (ztake r rd)) = pages_of ps r) by (rewrite (length_chunks ps Hps), zlen_ztake by lia; reflexivity).
        destruct (pages_of_bounds ps r Hps) as [_ Hle]. specialize (Hle _ Hcov).
        rewrite Hh at 1. f_equal. apply firstn_all2. unfold zlen in *. lia.
    - intros [[Hr ->]|[Hr ->]].
      + cbn. rewrite chunks_of_nonpos by lia. pose proof (zlen_nonneg rd). repeat split; cbn; lia.
      + assert (Hc : zlen (C09.Model.chunks ps (ztake r rd)) = pages_of ps r) by (rewrite (length_chunks ps Hps), zlen_ztake by lia; reflexivity).
        destruct (pages_of_bounds ps r Hps) as [Hge _].
        assert (Hz : zlen (map (H hf) (C09.Model.chunks ps (ztake r rd))) = pages_of ps r) by (unfold zlen in *; rewrite map_length; exact Hc).
        rewrite map_length, firstn_all. repeat split; [lia|rewrite Hz; lia|].
        rewrite rem_after_closed by lia. rewrite Hz. lia.
  Qed.

  Lemma cover_nonneg hf ps hs r rd : 0 <= r ->
    (r <= 0 /\ hs = [] \/ 0 < r <= zlen rd /\ hs = map (H hf) (C09.Model.chunks ps (ztake r rd))) <->
    (0 <= r <= zlen rd /\ hs = map (H hf) (C09.Model.chunks ps (ztake r rd))).
  Proof.
    intros Hr. pose proof (zlen_nonneg rd). split.
    - intros [[Hle ->]|[Hlt ->]]; [|split; [lia|reflexivity]]. replace r with 0 by lia. split; [lia|reflexivity].
    - intros [Hle ->]. destruct (Z.eq_dec r 0) as [->|Hnz]; [left; split; [lia|reflexivity]|right; split; [lia|reflexivity]].
  Qed.

  (* exactly when VerifyPages accepts, for ALL inputs (cs = the int64 CodeSize(); hs = the code slots; rd = what the reader delivers) *)
  Definition vp_accepts c (rd : bytes) : Prop :=
    i_none c = false /\
    let cs := mm_s64 (i_code_size c) in let hs := i_hashes c in
    (i_log2 c = 0 /\ zlen rd = cs /\ hs = [H (i_hfun c) rd] \/
     1 <= i_log2 c <= 20 /\ 0 <= cs <= zlen rd /\ hs = map (H (i_hfun c)) (C09.Model.chunks (2 ^ i_log2 c) (ztake cs rd))).

  Theorem vp_accepts_iff c rd : 0 <= i_log2 c -> 1048576 <= i_alloc_limit c ->
    (vp_exec H c vp_prog rd = Ok tt <-> vp_accepts c rd).
  Proof.
    intros Hl Hlim. rewrite vp_exec_eq by assumption. unfold vp_fun, vp_accepts.
    destruct (i_none c); [split; [discriminate|intros [? _]; discriminate]|]. cbv zeta.
    set (cs := mm_s64 (i_code_size c)). set (hs := i_hashes c) in *. pose proof (zlen_nonneg rd) as Hrd.
    destruct (cs <? 0) eqn:En; [split; [discriminate|]; intros [_ [(_ & Hn & _)|(_ & Hr & _)]]; lia|].
    destruct (i_log2 c =? 0) eqn:E0.
    - assert (Hz : i_log2 c = 0) by lia.
      split.
      + destruct (zlen hs =? 1) eqn:E1; cbn [negb]; [|discriminate]. destruct (zlen rd =? cs) eqn:E2; cbn [negb]; [|discriminate].
        destruct (bytes_eqb _ _) eqn:E3; [|discriminate]. intros _. split; [reflexivity|]. left. apply bytes_eqb_eq in E3.
        apply Z.eqb_eq in E1. destruct hs as [|h [|h2 t]]; [rewrite zlen_nil in E1; lia| |rewrite !zlen_cons in E1; pose proof (zlen_nonneg t); lia].
        cbn in E3. repeat split; [exact Hz|lia|congruence].
      + intros [_ [(_ & Hn & Hh)|(Hr & _)]]; [|lia]. rewrite Hh. cbn [hd]. replace (zlen [H (i_hfun c) rd] =? 1) with true by reflexivity.
        replace (zlen rd =? cs) with true by lia. cbn [negb]. replace (bytes_eqb _ _) with true by (symmetry; apply bytes_eqb_refl). reflexivity.
    - destruct (i_log2 c >? 20) eqn:E1.
      + split; [discriminate|]. intros [_ [(Hz & _)|(Hr & _)]]; lia.
      + assert (Hn : 1 <= i_log2 c <= 20) by lia. pose proof (pow2_bounds _ Hn) as Hp.
        pose proof (cover_iff (i_hfun c) (2 ^ i_log2 c) ltac:(lia) hs cs rd) as Hcov.
        rewrite (cover_nonneg (i_hfun c) (2 ^ i_log2 c) hs cs rd ltac:(lia)) in Hcov.
        destruct (pages_run H (i_hfun c) (2 ^ i_log2 c) hs cs rd =? 0) eqn:Ez.
        * destruct (rem_after (2 ^ i_log2 c) hs cs >? 0) eqn:Er.
          -- split; [discriminate|]. intros [_ [(Hz & _)|(_ & Ha)]]; [lia|]. apply Hcov in Ha. lia.
          -- split; [intros _|reflexivity]. split; [reflexivity|]. right. split; [exact Hn|]. apply Hcov. lia.
        * split; [discriminate|]. intros [_ [(Hz & _)|(_ & Ha)]]; [lia|]. apply Hcov in Ha. lia.
  Qed.

  (* acceptance IS the specification — 0 <= CodeSize <= |region| and the slots are the digests of the C09 chunks of exactly the first CodeSize bytes —
     for EVERY paged directory (relic 086958a: no slot too few; bd61613: no negative code size) *)
  Theorem vp_accepts_spec c rd : 1 <= i_log2 c <= 20 -> 1048576 <= i_alloc_limit c -> i_none c = false ->
    -9223372036854775808 <= i_code_size c < 9223372036854775808 ->
    (vp_exec H c vp_prog rd = Ok tt <-> spec_pages_ok H (i_hfun c) (i_log2 c) (i_code_size c) (i_hashes c) rd).
  Proof.
    intros Hn Hlim Hnone Hcs. rewrite vp_accepts_iff by (assumption || lia). unfold vp_accepts, spec_pages_ok, spec_code_slots. rewrite Hnone. cbv zeta.
    rewrite s64_id by lia. replace (i_log2 c =? 0) with false by lia. split.
    - intros [_ [(Hz & _)|(_ & Hr & Hh)]]; [lia|split; assumption].
    - intros [Hr Hh]. split; [reflexivity|]. right. repeat split; (lia || assumption).
  Qed.
End Accept.

(* ------------------------------------------------------------------ for the witnesses: a computable digest that is never empty *)
Definition wH (h : Z) (x : bytes) : bytes := [fold_left (fun a b => (a * 31 + b + 7) mod 251) x 1 + 1; zlen x mod 256].
Definition w_in (log2 cs : Z) (hs : list bytes) : vin := mkVin false log2 hs 5 cs 1048576.
