(* FmtMACHO/ProofsS.v — Sign assembles what it signs; what Verify guarantees; the witnesses of what it does not *)
From Relic Require Import Base.Prelude Base.Enc Base.Slice FmtMACHO.VpLang Generated.FmtMACHO_gen FmtMACHO.Model FmtMACHO.Proofs FmtMACHO.ProofsCD.

Lemma sign_layout : sign_layout_ok = true. Proof. reflexivity. Qed.
Lemma ncd_digest H p raw dg : new_code_directory H p = Ok (raw, dg) -> dg = H (cp_hash p) raw.
Proof.
  unfold new_code_directory. destruct (lookup _ _); [|discriminate]. rewrite layout_ok. cbn [negb].
  (* injection on the equation as it stands would normalise the directory *)
  generalize (hdr_bytes (cd_header p z) ++ cd_body H p). now intros r [= <- <-].
Qed.

(* the type of the k-th directory item *)
Definition dir_itype (k : Z) : Z := if sign_is_first_cd k then sign_first_itype else sign_alt_itype k.
Fixpoint dir_types (i : Z) (n : nat) : list Z := match n with O => [] | S m => dir_itype i :: dir_types (i + 1) m end.

Lemma sign_dirs_facts H p sp stream : forall hfs i its attr pls first,
  sign_dirs H p sp stream i hfs = Ok (its, attr, pls, first) ->
  length its = length hfs /\
  attr = map (fun hi => (fst hi, H (fst hi) (si_data (snd hi)))) (combine hfs its) /\
  pls = map (fun a => ztake sign_plist_trunc (snd a)) attr /\
  map si_type its = dir_types i (length hfs) /\
  Forall (fun it => si_magic it = cs_magic_codedirectory) its /\
  (i = 0 -> first = match its with it :: _ => si_data it | [] => [] end).
Proof.
  induction hfs as [|h r IH]; intros i its attr pls first; cbn [sign_dirs].
  - intros [= <- <- <- <-]. repeat split; constructor.
  - destruct (hash_pages H h _ stream) as [[slots count] limit].
    destruct (new_code_directory H _) as [[raw dg]| |] eqn:En; cbn [bind]; try discriminate.
    destruct (sign_dirs H p sp stream (i + 1) r) as [[[[its' attr'] pls'] first']| |] eqn:Er; cbn [bind]; try discriminate.
    intros [= <- <- <- <-]. destruct (IH _ _ _ _ _ Er) as [Hl [Ha [Hp [Ht [Hm Hf]]]]].
    apply ncd_digest in En. cbn [cp_hash fst snd] in En. subst dg.
    repeat split.
    + cbn [length]. now rewrite Hl.
    + cbn [combine map fst snd si_data]. now rewrite <- Ha.
    + cbn [map snd]. now rewrite <- Hp.
    + cbn [map length dir_types si_type]. unfold dir_itype. now rewrite Ht.
    + constructor; [reflexivity|exact Hm].
    + intros ->. change (sign_is_first_cd 0) with true. reflexivity.
Qed.

(* alternates sit in slots 0x1000, 0x1001, ... *)
Example dir_types_3 : dir_types 0 3 = [0; 4096; 4097]. Proof. reflexivity. Qed.

(* ------------------------------------------------------------------ what csblob.Verify guarantees when it accepts *)
Section Sound.
  Variable H : Z -> bytes -> bytes.
  Variable cms_verify : bytes -> bytes -> option (option (list (Z * bytes)) * option (list bytes)).

  Definition slot_bound (s : sigblob) (vp : vparams) (d : pdir) (code : Z) : Prop :=
    forall x, dir_special d code = Some x -> x = H (d_hash d) (obytes (check_blob s vp code)).
  Definition dir_bound (s : sigblob) (vp : vparams) (d : pdir) : Prop :=
    slot_bound s vp d 7 /\ slot_bound s vp d 5 /\ slot_bound s vp d 2 /\ slot_bound s vp d 6 /\
    (isSome (vp_info vp) = true -> slot_bound s vp d 1) /\ (isSome (vp_res vp) = true -> slot_bound s vp d 3).
  (* one hashCheck: when its guard lets it run on a slot that is present, the slot is the digest of the blob *)
  Lemma run_checks_step s vp d a b code e cr g gr : run_checks H s vp d ([a; b; code; code; e] :: cr) (g :: gr) = Ok tt ->
    run_checks H s vp d cr gr = Ok tt /\ (g true (isSome (check_blob s vp code)) = true -> slot_bound s vp d code).
  Proof.
    cbn [run_checks nth]. unfold slot_bound. destruct (dir_special d code) as [x|]; cbn [isSome obytes].
    - destruct (g true _); [destruct (bytes_eqb _ x) eqn:E; [|discriminate]|]; intros Hr; (split; [exact Hr|]); [|discriminate].
      intros _ y [= <-]. symmetry. now apply bytes_eqb_eq.
    - destruct (g false _); [destruct (bytes_eqb _ _); [|discriminate]|]; intros Hr; (split; [exact Hr|discriminate]).
  Qed.
  Lemma run_checks_sound s vp d : run_checks H s vp d vfy_checks vfy_check_guards = Ok tt -> dir_bound s vp d.
  Proof.
    unfold vfy_checks, vfy_check_guards. intros Hr.
    apply run_checks_step in Hr as [Hr B7]. apply run_checks_step in Hr as [Hr B5]. apply run_checks_step in Hr as [Hr B2].
    apply run_checks_step in Hr as [Hr B6]. apply run_checks_step in Hr as [Hr B1]. apply run_checks_step in Hr as [_ B3].
    repeat split; auto.
  Qed.
  Fixpoint computed_of (dirs : list pdir) (acc : list (Z * bytes)) : list (Z * bytes) :=
    match dirs with [] => acc | d :: r => computed_of r ((d_hash d, H (d_hash d) (d_raw d)) :: acc) end.
  Lemma check_dirs_sound s vp : forall dirs acc c, check_dirs H s vp dirs acc = Ok c ->
    c = computed_of dirs acc /\ Forall (dir_bound s vp) dirs.
  Proof.
    induction dirs as [|d r IH]; intros acc c; cbn [check_dirs computed_of]; [intros [= <-]; split; [reflexivity|constructor]|].
    destruct (run_checks H s vp d vfy_checks vfy_check_guards) as [[]| |] eqn:Er; cbn [bind]; try discriminate.
    intros Hc. destruct (IH _ _ Hc) as [-> Hf]. split; [reflexivity|]. constructor; [apply run_checks_sound; exact Er|exact Hf].
  Qed.
  Lemma check_plist_sound : forall e a, check_plist_each e a = Ok tt -> zlen e = zlen a -> e = a.
  Proof.
    induction e as [|x er IH]; intros [|y ar]; cbn [check_plist_each]; rewrite ?zlen_cons, ?zlen_nil; intros Hc Hl;
      try reflexivity; try (pose proof (zlen_nonneg ar); lia); try (pose proof (zlen_nonneg er); lia).
    destruct (bytes_eqb x y) eqn:E; [|discriminate]. apply bytes_eqb_eq in E. subst y. f_equal. apply IH; [exact Hc|lia].
  Qed.
  Lemma check_attr_sound : forall attr computed, check_attr attr computed = Ok tt -> Forall (fun a => clookup (fst a) computed = Some (snd a)) attr.
  Proof.
    induction attr as [|[h dg] r IH]; intros computed; cbn [check_attr]; [constructor|].
    destruct (clookup h computed) as [hc|] eqn:El.
    - destruct (bytes_eqb hc dg) eqn:E; [|discriminate]. apply bytes_eqb_eq in E. subst dg. intros Hc. constructor; [exact El|apply IH; exact Hc].
    - change (vfy_attr_missing true) with true. discriminate.
  Qed.

  (* C02: when csblob.Verify accepts: there is a directory; the PKCS#7 oracle accepted exactly the bytes of the FIRST directory (lowest slot);
     every non-zero special slot -7 -5 -2 -6 of EVERY directory is the digest of the blob found in the signature (of the empty string when the
     blob is missing), -1 and -3 when the caller supplied the plist / resources; a cd hash attribute lists only digests of directories present;
     a plist attribute lists the (20 byte) digest of every directory, in slot order *)
  Theorem verify_sound blob vp s : cs_verify H cms_verify blob vp = Ok s ->
    parse_signature H blob = Ok s /\
    exists d0 rest attr plist, sg_dirs s = d0 :: rest /\ isSome (sg_cms s) = true /\
      cms_verify (obytes (sg_cms s)) (d_raw d0) = Some (attr, plist) /\
      Forall (dir_bound s vp) (sg_dirs s) /\
      (forall a, attr = Some a -> Forall (fun e => clookup (fst e) (computed_of (sg_dirs s) []) = Some (snd e)) a) /\
      (forall pl, plist = Some pl -> pl = map (fun d => ztake 20 (obytes (clookup (d_hash d) (computed_of (sg_dirs s) [])))) (sg_dirs s)).
  Proof.
    unfold cs_verify. change (negb vfy_layout_ok) with false. cbv iota.
    destruct (parse_signature H blob) as [s0| |]; cbn [bind]; try discriminate.
    destruct (check_dirs H s0 vp (sg_dirs s0) []) as [c| |] eqn:Ec; cbn [bind]; try discriminate.
    apply check_dirs_sound in Ec as [-> Hb].
    unfold vfy_no_dirs, vfy_no_cms. destruct (sg_dirs s0) as [|d0 rest] eqn:Ed; [discriminate|].
    rewrite zlen_cons. replace (1 + zlen rest =? 0) with false by (pose proof (zlen_nonneg rest); lia).
    change (Z.to_nat vfy_content_dir) with 0%nat. cbn [nth_error].
    destruct (sg_cms s0) as [cms|] eqn:Ecms; cbn [isSome negb obytes]; [|discriminate].
    destruct (cms_verify cms (d_raw d0)) as [[attr plist]|] eqn:Ev; [|discriminate].
    destruct (match attr with Some a => check_attr a _ | None => Ok tt end) as [[]| |] eqn:Ea; cbn [bind]; try discriminate.
    destruct (match plist with Some pl => _ | None => Ok tt end) as [[]| |] eqn:Ep; cbn [bind]; try discriminate.
    intros [= <-]. split; [reflexivity|]. exists d0, rest, attr, plist. rewrite Ed, Ecms. cbn [isSome obytes].
    split; [reflexivity|]. split; [reflexivity|]. split; [exact Ev|]. split; [exact Hb|]. split.
    - intros a ->. apply check_attr_sound. exact Ea.
    - intros pl ->. unfold vfy_plist_count_bad in Ep. change vfy_plist_trunc with 20 in Ep.
      destruct (negb (zlen pl =? zlen (map _ (d0 :: rest)))) eqn:En; [discriminate|].
      apply negb_false_iff, Z.eqb_eq in En. apply check_plist_sound; [exact Ep|exact En].
  Qed.

  (* a directory whose digest algorithm no later directory uses keeps its entry *)
  Lemma clookup_computed_skip k : forall dirs acc, ~ In k (map d_hash dirs) -> clookup k (computed_of dirs acc) = clookup k acc.
  Proof.
    induction dirs as [|y r IH]; intros acc Hni; [reflexivity|]. cbn [computed_of map In] in *. rewrite IH by tauto.
    cbn [clookup]. destruct (d_hash y =? k) eqn:E; [exfalso; apply Hni; left; lia|reflexivity].
  Qed.
  Lemma clookup_computed : forall dirs acc d, In d dirs -> NoDup (map d_hash dirs) ->
    clookup (d_hash d) (computed_of dirs acc) = Some (H (d_hash d) (d_raw d)).
  Proof.
    induction dirs as [|x r IH]; intros acc d Hi Hn; [destruct Hi|]. cbn [computed_of map] in *. inversion Hn as [|? ? Hx Hr]; subst.
    destruct Hi as [->|Hi]; [|apply IH; assumption].
    rewrite clookup_computed_skip by exact Hx. cbn [clookup]. now rewrite Z.eqb_refl.
  Qed.
End Sound.

(* ------------------------------------------------------------------ what VerifyPages reads of the file *)
Lemma section_reader_prefix file n : ztake (mm_s64 n) (section_reader file n) = ztake (mm_s64 n) file.
Proof.
  unfold section_reader. destruct (n <? 0) eqn:E; [reflexivity|]. rewrite ztk_eq.
  destruct (Z.le_gt_cases (mm_s64 n) 0) as [Hle|Hgt]; [rewrite !ztake_neg by lia; reflexivity|].
  assert (Hm : mm_s64 n <= n).
  { unfold mm_s64. pose proof (Z.mod_le (n + 9223372036854775808) 18446744073709551616 ltac:(lia) ltac:(lia)). lia. }
  rewrite ztake_ztake. f_equal. lia.
Qed.

(* ------------------------------------------------------------------ witnesses of what Verify does NOT bind (a toy digest: computable, never all-zero) *)
Definition toyH (h : Z) (x : bytes) : bytes := repeat (fold_left (fun a b => (a * 31 + b + 7) mod 251) x 1 + 1) (Z.to_nat (go_hash_size h)).
Definition w_code : bytes := [1; 2; 3].
Definition w_tampered : bytes := [1; 2; 4].
Definition w_cd (h : Z) (code : bytes) : bytes :=
  match new_code_directory toyH (mkCP 0 [105] [] 0 0 0 [None; None; None; None; None] (toyH h code) 1 h 3 false) with Ok (raw, _) => raw | _ => [] end.
Definition w_cd0 : bytes := w_cd 3 w_code.                 (* SHA-1 style directory over the genuine code: the one the PKCS#7 signature covers *)
Definition w_cd_alt : bytes := w_cd 5 w_tampered.          (* attacker's SHA-256 style directory over the modified code *)
Definition w_wrapper : sitem := new_super_item cs_magic_blobwrapper [9].
Definition w_blob_genuine : bytes := marshal_super cs_magic_embedded [mkSI 0 cs_magic_codedirectory w_cd0; w_wrapper].
Definition w_blob_alt : bytes := marshal_super cs_magic_embedded [mkSI 0 cs_magic_codedirectory w_cd0; mkSI 4096 cs_magic_codedirectory w_cd_alt; w_wrapper].
Definition w_ent : sitem := new_super_item cs_magic_entitlement [60; 120; 47; 62].
Definition w_blob_ent : bytes := marshal_super cs_magic_embedded [mkSI 0 cs_magic_codedirectory w_cd0; mkSI 5 (si_magic w_ent) (si_data w_ent); w_wrapper].
Definition w_vp : vparams := mkVP None None None.
(* PKCS#7 oracles: a valid signature over w_cd0 without the Apple attributes / with the attribute list only / with the plist *)
Definition w_cms_none (cms content : bytes) := if bytes_eqb content w_cd0 then Some (@None (list (Z * bytes)), @None (list bytes)) else None.
Definition w_cms_attr (cms content : bytes) := if bytes_eqb content w_cd0 then Some (Some [(3, toyH 3 w_cd0)], @None (list bytes)) else None.
Definition w_cms_plist (cms content : bytes) := if bytes_eqb content w_cd0 then Some (@None (list (Z * bytes)), Some [ztake 20 (toyH 3 w_cd0)]) else None.

Definition accepts (cmsv : bytes -> bytes -> option (option (list (Z * bytes)) * option (list bytes))) (blob file : bytes) : bool :=
  match cs_verify toyH cmsv blob w_vp with Ok s => match verify_pages toyH s file with Ok _ => true | _ => false end | _ => false end.
