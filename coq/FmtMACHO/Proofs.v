(* FmtMACHO/Proofs.v — lemmas for part 1 (csblob): superblob round trip and specification reader, what the parsers do with malformed input and with appended bytes *)
From Relic Require Import Base.Prelude Base.Enc Base.Slice FmtMACHO.VpLang Generated.FmtMACHO_gen FmtMACHO.Model.
From Relic Require FmtMACHO.ProofsVP.

(* ------------------------------------------------------------------ reads and writes of 32 bit words *)
Lemma ztk_eq {A} n (l : list A) : ztk n l = ztake n l.
Proof.
  unfold ztk. destruct (Z.min_spec n (zlen l)) as [[_ ->]|[H ->]]; [reflexivity|]. rewrite !ztake_all by lia. reflexivity.
Qed.
Lemma zdp_eq {A} n (l : list A) : zdp n l = zdrop n l.
Proof.
  unfold zdp. destruct (Z.min_spec n (zlen l)) as [[_ ->]|[H ->]]; [reflexivity|]. rewrite !zdrop_all by lia. reflexivity.
Qed.
Lemma zlen_zeros n : 0 <= n -> zlen (zeros n) = n.
Proof. intros H. unfold zeros. rewrite zlen_repeat. lia. Qed.
Lemma zlen_be32 n : zlen (be32 n) = 4.
Proof. unfold be32. now rewrite be_enc_zlen. Qed.
Lemma all_bytes_be32 n : all_bytes (be32 n) = true.
Proof. apply be_enc_bytes. Qed.
Lemma wrap32_small n : 0 <= n < 4294967296 -> mm_wrap32 n = n.
Proof. intros H. unfold mm_wrap32. apply Z.mod_small. exact H. Qed.
Lemma rd32_at a n r off : off = zlen a -> 0 <= n < 4294967296 -> rd32 off (a ++ be32 n ++ r) = n.
Proof.
  intros -> H. unfold rd32. rewrite (zslice_app_mid _ _ a (be32 n) r) by (rewrite ?zlen_be32; lia). unfold be32. apply be_dec_enc. exact H.
Qed.
Lemma rd32_be32 n r : 0 <= n < 4294967296 -> rd32 0 (be32 n ++ r) = n.
Proof. apply (rd32_at [] n r 0). reflexivity. Qed.
Lemma rd32_app_mid pre d post off : 0 <= off -> off + 4 <= zlen d -> rd32 (zlen pre + off) (pre ++ d ++ post) = rd32 off d.
Proof. intros H0 H1. unfold rd32. rewrite zslice_app_r, zslice_app_l by lia. do 2 f_equal; lia. Qed.
Lemma crd32_ok off l : 0 <= off -> off + 4 <= zlen l -> crd32 off l = Ok (rd32 off l).
Proof. intros H0 H1. unfold crd32. replace ((off <? 0) || (zlen l <? off + 4)) with false by lia. reflexivity. Qed.
Lemma crd32_at a n r off : off = zlen a -> 0 <= n < 4294967296 -> crd32 off (a ++ be32 n ++ r) = Ok n.
Proof.
  intros Ho H. pose proof (zlen_nonneg a). pose proof (zlen_nonneg r).
  rewrite crd32_ok by (rewrite ?zlen_app, ?zlen_be32; lia). now rewrite rd32_at.
Qed.
Lemma crd32_0 n r : 0 <= n < 4294967296 -> crd32 0 (be32 n ++ r) = Ok n.
Proof. apply (crd32_at [] n r 0). reflexivity. Qed.
Lemma cslice_ok a b l : 0 <= a <= b -> b <= zlen l -> cslice a b l = Ok (zslice a b l).
Proof. intros H0 H1. unfold cslice. replace ((a <? 0) || (b <? a) || (zlen l <? b)) with false by lia. reflexivity. Qed.
Lemma cslice_to_end a l : 0 <= a <= zlen l -> cslice a (zlen l) l = Ok (zdrop a l).
Proof. intros. rewrite cslice_ok by lia. now rewrite zslice_to_end. Qed.

Lemma rd32_range l off : all_bytes l = true -> 0 <= off -> off + 4 <= zlen l -> 0 <= rd32 off l < 4294967296.
Proof.
  intros Hb H0 H1. unfold rd32, be_dec.
  pose proof (le_dec_range (rev (zslice off (off + 4) l)) ltac:(rewrite all_bytes_rev; now apply all_bytes_zslice)) as Hr.
  rewrite zlen_rev, zlen_zslice in Hr by lia. replace (off + 4 - off) with 4 in Hr by lia. exact Hr.
Qed.

(* ------------------------------------------------------------------ newSuperItem *)
Lemma si_layout : si_layout_ok = true. Proof. reflexivity. Qed.
Lemma new_item_data magic payload : zlen payload + 8 < 4294967296 ->
  si_data (new_super_item magic payload) = be32 magic ++ be32 (zlen payload + 8) ++ payload.
Proof.
  intros H. unfold new_super_item. rewrite si_layout. cbn [si_data]. unfold si_len_val, si_total.
  rewrite wrap32_small by (pose proof (zlen_nonneg payload); lia).
  replace (8 + zlen payload - 8 - zlen payload) with 0 by lia. cbn [zeros Z.to_nat repeat]. now rewrite app_nil_r.
Qed.
Theorem new_item_wf magic payload : 0 <= magic < 4294967296 -> zlen payload + 8 < 4294967296 -> all_bytes payload = true ->
  let it := new_super_item magic payload in
  item_wf it /\ si_magic it = magic /\ zdrop 8 (si_data it) = payload /\ zlen (si_data it) = zlen payload + 8.
Proof.
  intros Hm Hl Hb it. pose proof (zlen_nonneg payload) as Hp.
  assert (Hd : si_data it = be32 magic ++ be32 (zlen payload + 8) ++ payload) by (apply new_item_data; exact Hl).
  assert (Hlen : zlen (si_data it) = zlen payload + 8) by (rewrite Hd, !zlen_app, !zlen_be32; lia).
  assert (Hty : 0 <= si_type it < 4294967296).
  { unfold it, new_super_item, cs_itypes. cbn [si_type lookup]. repeat (destruct (_ =? magic); [lia|]). lia. }
  repeat split; try lia.
  - rewrite Hlen, Hd. apply (rd32_at (be32 magic)); [now rewrite zlen_be32|lia].
  - rewrite Hd. apply rd32_be32. exact Hm.
  - rewrite Hd, !all_bytes_app, !all_bytes_be32, Hb. reflexivity.
  - rewrite Hd, app_assoc. apply zdrop_app_len. rewrite zlen_app, !zlen_be32. reflexivity.
Qed.

(* ------------------------------------------------------------------ marshalSuperBlob / parseSuper *)
Lemma sbw_layout : sbw_layout_ok = true. Proof. reflexivity. Qed.
Definition data_len (items : list sitem) : Z := zlen (concat (map si_data items)).
Lemma data_len_cons it r : data_len (it :: r) = zlen (si_data it) + data_len r.
Proof. unfold data_len. cbn [map concat]. now rewrite zlen_app. Qed.
Lemma data_len_nonneg items : 0 <= data_len items.
Proof. apply zlen_nonneg. Qed.

(* below 4 GiB the running length does not wrap *)
Lemma sb_index_cons it r len : 0 <= len -> len + zlen (si_data it) < 4294967296 ->
  sb_index (it :: r) len = (be32 (si_type it) ++ be32 len ++ fst (sb_index r (len + zlen (si_data it))), snd (sb_index r (len + zlen (si_data it)))).
Proof.
  intros H0 H1. pose proof (zlen_nonneg (si_data it)). cbn [sb_index]. unfold sbw_len_step. rewrite (wrap32_small (zlen _)), wrap32_small by lia.
  now destruct (sb_index r _).
Qed.
Lemma sb_index_len items : forall len, zlen (fst (sb_index items len)) = 8 * zlen items.
Proof.
  induction items as [|it r IH]; intros len; cbn [sb_index]; [reflexivity|].
  specialize (IH (mm_wrap32 (sbw_len_step len (zlen (si_data it))))). destruct (sb_index r _) as [ix fin]. cbn [fst] in *.
  rewrite !zlen_app, !zlen_be32, IH, zlen_cons. lia.
Qed.
Lemma sb_index_fin items : forall len, 0 <= len -> len + data_len items < 4294967296 -> snd (sb_index items len) = len + data_len items.
Proof.
  induction items as [|it r IH]; intros len H0 H; [cbn; unfold data_len; cbn; lia|].
  rewrite data_len_cons in *. pose proof (zlen_nonneg (si_data it)). pose proof (data_len_nonneg r).
  rewrite sb_index_cons by lia. cbn [snd]. rewrite IH by lia. lia.
Qed.

(* wherever a well-formed item lies, the two words at its start are its magic and its length *)
Lemma item_header_at pre it post : item_wf it ->
  rd32 (zlen pre) (pre ++ si_data it ++ post) = si_magic it /\ rd32 (zlen pre + 4) (pre ++ si_data it ++ post) = zlen (si_data it).
Proof.
  intros (Hl8 & Hrl & Hrm & _). split; [rewrite <- (Z.add_0_r (zlen pre))|]; rewrite rd32_app_mid by lia; assumption.
Qed.

Lemma ps_items_ok : forall rest fuel i count pre_ix pre_data len data_off,
  Forall item_wf rest -> (length rest < fuel)%nat -> zlen pre_ix = 8 * i -> 0 <= i -> count = i + zlen rest ->
  len = data_off + zlen pre_data -> 0 <= data_off -> len + data_len rest < 4294967296 ->
  ps_items fuel i count (pre_ix ++ fst (sb_index rest len)) (pre_data ++ concat (map si_data rest)) data_off = Ok rest.
Proof.
  induction rest as [|it r IH]; intros fuel i count pre_ix pre_data len data_off Hwf Hf Hix Hi Hc Hlen Hd Hb;
    (destruct fuel; [cbn in Hf; lia|]); cbn [ps_items]; unfold sb_loop_cond.
  - rewrite zlen_nil in Hc. replace (i <? count) with false by lia. reflexivity.
  - rewrite zlen_cons in Hc. pose proof (zlen_nonneg r). replace (i <? count) with true by lia. cbn [negb].
    inversion Hwf as [|? ? Hit Hwf']; subst.
    pose proof (zlen_nonneg pre_data) as Hpd. rewrite data_len_cons in Hb. pose proof (data_len_nonneg r) as Hdr.
    set (len := data_off + zlen pre_data) in *. rewrite sb_index_cons by lia. cbn [fst map concat].
    set (ix := fst (sb_index r _)). set (dr := concat (map si_data r)). pose proof (zlen_nonneg dr) as Hcr.
    destruct (item_header_at pre_data it dr Hit) as [Hrd_m Hrd_len]. destruct Hit as [Hl8 [_ [_ [Hty _]]]].
    (* the index entry *)
    unfold sb_rd_itype_at, sb_rd_ioff_at.
    rewrite (crd32_at pre_ix (si_type it)) by lia. cbn [bind].
    rewrite (app_assoc pre_ix), (crd32_at (pre_ix ++ be32 (si_type it)) len) by (rewrite ?zlen_app, ?zlen_be32; lia). cbn [bind].
    unfold sb_rel_off. replace (len - data_off) with (zlen pre_data) by (unfold len; lia).
    (* the item's own header, then its bytes *)
    unfold sb_off_bad, sb_item_bad, sb_rd_ilen_at, sb_rd_imagic_at, sb_item_lo, sb_item_hi.
    rewrite !crd32_ok, Hrd_len, Hrd_m by (rewrite ?zlen_app; lia). cbn [bind]. rewrite cslice_ok, (zslice_app_mid _ _ pre_data (si_data it)) by (rewrite ?zlen_app; lia). cbn [bind].
    rewrite !zlen_app.
    replace ((zlen pre_data <? 0) || (zlen pre_data >? zlen pre_data + (zlen (si_data it) + zlen dr) - 8)) with false by lia.
    replace ((zlen (si_data it) <? 8) || (zlen pre_data + zlen (si_data it) >? zlen pre_data + (zlen (si_data it) + zlen dr))) with false by lia.
    (* the rest *)
    rewrite (app_assoc _ (be32 len)), (app_assoc pre_data).
    rewrite (IH fuel (i + 1) _ _ (pre_data ++ si_data it) (len + zlen (si_data it)) data_off Hwf');
      [cbn [bind]; destruct it; reflexivity|cbn [length] in Hf; lia|rewrite !zlen_app, !zlen_be32; lia|lia|lia|rewrite zlen_app; unfold len; lia|exact Hd|lia].
Qed.

Lemma items_total_eq items : items_total items = 12 + 8 * zlen items + data_len items.
Proof. reflexivity. Qed.
Lemma marshal_form magic items : items_total items < 4294967296 ->
  marshal_super magic items =
  be32 magic ++ be32 (items_total items) ++ be32 (zlen items) ++ fst (sb_index items (12 + 8 * zlen items)) ++ concat (map si_data items).
Proof.
  intros Ht. unfold marshal_super. rewrite sbw_layout. cbn [negb].
  pose proof (zlen_nonneg items) as Hn. pose proof (data_len_nonneg items) as Hd. rewrite items_total_eq in Ht.
  replace (sbw_len0 (sbw_nints (zlen items))) with (12 + 8 * zlen items) by (unfold sbw_len0, sbw_nints; rewrite wrap32_small by lia; lia).
  pose proof (sb_index_fin items (12 + 8 * zlen items) ltac:(lia) ltac:(lia)) as Hf. destruct (sb_index items _) as [ix total]. cbn [snd fst] in *. subst total.
  unfold sbw_count_val. rewrite wrap32_small by lia. reflexivity.
Qed.
Lemma marshal_len magic items : items_total items < 4294967296 -> zlen (marshal_super magic items) = items_total items.
Proof.
  intros Ht. rewrite marshal_form by exact Ht. rewrite !zlen_app, !zlen_be32, sb_index_len, items_total_eq. unfold data_len. lia.
Qed.

Theorem super_roundtrip magic items : 0 <= magic < 4294967296 -> Forall item_wf items -> items_total items < 4294967296 ->
  parse_super (marshal_super magic items) = Ok (magic, items).
Proof.
  intros Hm Hwf Ht. pose proof (marshal_len magic items Ht) as Hlen. unfold parse_super. rewrite Hlen. rewrite marshal_form by exact Ht.
  pose proof (zlen_nonneg items) as Hn. pose proof (data_len_nonneg items) as Hd. rewrite items_total_eq in *.
  set (n := zlen items) in *. set (total := 12 + 8 * n + data_len items) in *.
  set (ix := fst (sb_index items (12 + 8 * n))). set (dat := concat (map si_data items)).
  assert (Hix : zlen ix = 8 * n) by apply sb_index_len. assert (Hdat : zlen dat = data_len items) by reflexivity.
  unfold sb_short, sb_rd_magic_at, sb_rd_length_at, sb_rd_count_at, sb_len_bad, sb_hdr_skip, sb_index_short, sb_index_bytes, sb_data_off.
  replace (total <? 12) with false by lia.
  rewrite crd32_0 by lia. cbn [bind]. rewrite (crd32_at (be32 magic) total) by (rewrite ?zlen_be32; lia). cbn [bind].
  rewrite (app_assoc (be32 magic)), (crd32_at (be32 magic ++ be32 total) n) by (rewrite ?zlen_app, ?zlen_be32; lia). cbn [bind].
  replace ((total <? 8) || (total >? total)) with false by lia.
  (* blob[12:] is the index followed by the data *)
  rewrite (app_assoc _ (be32 n)). set (hdr := (be32 magic ++ be32 total) ++ be32 n). assert (Hh : zlen hdr = 12) by (unfold hdr; rewrite !zlen_app, !zlen_be32; reflexivity).
  rewrite cslice_ok, (zslice_app_tail 12 total hdr) by (rewrite ?zlen_app; lia). cbn [bind]. rewrite zlen_app, Hix, Hdat.
  replace (8 * n + data_len items <? 8 * n) with false by lia.
  rewrite !cslice_ok, (zslice_app_head _ ix dat Hix), (zslice_app_tail _ _ ix dat) by (rewrite ?zlen_app; lia). cbn [bind]. rewrite Hdat.
  replace (total - data_len items) with (12 + 8 * n) by (unfold total; lia).
  pose proof (ps_items_ok items (S (Z.to_nat n)) 0 n [] [] (12 + 8 * n) (12 + 8 * n) Hwf) as Hps. cbn [app] in Hps. fold ix dat in Hps.
  rewrite Hps; [reflexivity|unfold n, zlen; lia|reflexivity|lia|lia|cbn; lia|lia|lia].
Qed.

(* ------------------------------------------------------------------ the cs_blobs.h reader on marshalSuperBlob's output *)
Lemma spec_blob_at_item pre it post : item_wf it -> zlen pre + zlen (si_data it) < 4294967296 ->
  spec_blob_at (pre ++ si_data it ++ post) (zlen pre) = Some (si_magic it, si_data it).
Proof.
  intros Hwf Hb. destruct (item_header_at pre it post Hwf) as [Hm Hlen]. destruct Hwf as [Hl8 _].
  pose proof (zlen_nonneg pre). pose proof (zlen_nonneg post). unfold spec_blob_at. rewrite Hlen, Hm, !zlen_app.
  replace ((zlen pre <? 0) || (zlen pre + (zlen (si_data it) + zlen post) <? zlen pre + 8)) with false by lia.
  replace ((zlen (si_data it) <? 8) || (zlen pre + (zlen (si_data it) + zlen post) <? zlen pre + zlen (si_data it))) with false by lia.
  do 2 f_equal. apply zslice_app_mid; lia.
Qed.
Lemma spec_index_ok : forall rest i hdr pre_ix pre_data len,
  Forall item_wf rest -> zlen hdr = 12 -> zlen pre_ix = 8 * i -> 0 <= i ->
  len = 12 + 8 * (i + zlen rest) + zlen pre_data -> len + data_len rest < 4294967296 ->
  spec_index (length rest) i (hdr ++ (pre_ix ++ fst (sb_index rest len)) ++ pre_data ++ concat (map si_data rest)) = Some rest.
Proof.
  induction rest as [|it r IH]; intros i hdr pre_ix pre_data len Hwf Hh Hix Hi Hlen Hb; [reflexivity|].
  cbn [length spec_index]. inversion Hwf as [|? ? Hit Hwf']; subst.
  rewrite zlen_cons in *. rewrite data_len_cons in Hb. pose proof (zlen_nonneg r). pose proof (zlen_nonneg pre_data). pose proof (data_len_nonneg r).
  pose proof (zlen_nonneg (si_data it)). assert (Hty : 0 <= si_type it < 4294967296) by apply Hit.
  set (len := 12 + 8 * (i + (1 + zlen r)) + zlen pre_data) in *. rewrite sb_index_cons by lia. cbn [fst map concat].
  set (ix := fst (sb_index r _)). set (dr := concat (map si_data r)).
  assert (Hix_r : zlen ix = 8 * zlen r) by apply sb_index_len.
  (* entry i of the index: type and offset; then the blob at that offset *)
  set (all := hdr ++ (pre_ix ++ be32 (si_type it) ++ be32 len ++ ix) ++ pre_data ++ si_data it ++ dr).
  assert (Ht : rd32 (12 + 8 * i) all = si_type it).
  { unfold all. rewrite <- !app_assoc, (app_assoc hdr). apply rd32_at; [rewrite zlen_app; lia|lia]. }
  assert (Ho : rd32 (12 + 8 * i + 4) all = len).
  { unfold all. rewrite <- !app_assoc, (app_assoc hdr), (app_assoc (hdr ++ pre_ix)). apply rd32_at; [rewrite !zlen_app, zlen_be32; lia|unfold len; lia]. }
  assert (Hbl : spec_blob_at all len = Some (si_magic it, si_data it)).
  { unfold all. set (IX := pre_ix ++ be32 (si_type it) ++ be32 len ++ ix). rewrite (app_assoc IX), (app_assoc hdr).
    assert (Hpre : zlen (hdr ++ IX ++ pre_data) = len) by (unfold IX; rewrite !zlen_app, !zlen_be32; unfold len; lia).
    rewrite <- Hpre at 1. apply spec_blob_at_item; [exact Hit|rewrite Hpre; unfold len in *; lia]. }
  rewrite Ht, Ho, Hbl.
  replace all with (hdr ++ (((pre_ix ++ be32 (si_type it)) ++ be32 len) ++ ix) ++ (pre_data ++ si_data it) ++ dr) by (unfold all; rewrite <- !app_assoc; reflexivity).
  rewrite (IH (i + 1) hdr _ (pre_data ++ si_data it) (len + zlen (si_data it)) Hwf' Hh);
    [destruct it; reflexivity|rewrite !zlen_app, !zlen_be32; lia|lia|rewrite zlen_app; unfold len; lia|lia].
Qed.
Theorem super_spec_reader magic items : 0 <= magic < 4294967296 -> Forall item_wf items -> items_total items < 4294967296 ->
  spec_super (marshal_super magic items) = Some (magic, items) /\ zlen (marshal_super magic items) = items_total items /\
  rd32 4 (marshal_super magic items) = items_total items.
Proof.
  intros Hm Hwf Ht. pose proof (marshal_len magic items Ht) as Hlen. pose proof (zlen_nonneg items) as Hn. pose proof (data_len_nonneg items) as Hd.
  assert (H4 : rd32 4 (marshal_super magic items) = items_total items).
  { rewrite marshal_form by exact Ht. apply rd32_at; [now rewrite zlen_be32|rewrite items_total_eq in *; lia]. }
  split; [|split; [exact Hlen|exact H4]].
  unfold spec_super. rewrite H4, Hlen, marshal_form by exact Ht. rewrite items_total_eq in *.
  set (n := zlen items) in *. set (total := 12 + 8 * n + data_len items) in *.
  set (ix := fst (sb_index items (12 + 8 * n))). set (dat := concat (map si_data items)).
  replace (total <? 12) with false by lia.
  assert (H8 : rd32 8 (be32 magic ++ be32 total ++ be32 n ++ ix ++ dat) = n) by (rewrite (app_assoc (be32 magic)); apply rd32_at; [rewrite zlen_app, !zlen_be32; lia|lia]).
  rewrite H8. replace ((total <? total) || (total <? 12 + 8 * n)) with false by lia.
  rewrite rd32_be32 by exact Hm. unfold n at 1, zlen at 1. rewrite Nat2Z.id.
  rewrite (app_assoc (be32 total)), (app_assoc (be32 magic)).
  pose proof (spec_index_ok items 0 (be32 magic ++ be32 total ++ be32 n) [] [] (12 + 8 * n) Hwf) as Hsi. cbn [app] in Hsi. fold ix dat in Hsi.
  rewrite Hsi; [reflexivity|rewrite !zlen_app, !zlen_be32; lia|reflexivity|lia|change (zlen (@nil Z)) with 0; lia|unfold total in *; lia].
Qed.

(* ------------------------------------------------------------------ malformed input: no panic, and what a parser returns is made of input bytes *)
(* a result is safe when it is no panic and, if it is a value, the value satisfies P: one pass over a parser proves both, and the second
   is what the next parser's bounds rest on *)
Definition safe {A} (P : A -> Prop) (r : result A) : Prop := match r with Ok a => P a | Err _ => True | Panic _ => False end.
Lemma safe_bind {A B} (P : A -> Prop) (Q : B -> Prop) r k : safe P r -> (forall a, P a -> safe Q (k a)) -> safe Q (bind r k).
Proof. destruct r; cbn; auto. Qed.
Lemma safe_no_panic {A} (P : A -> Prop) r p : safe P r -> r <> Panic p.
Proof. now intros Hs ->. Qed.
Lemma safe_ok {A} (P : A -> Prop) r a : safe P r -> r = Ok a -> P a.
Proof. now intros Hs ->. Qed.
Definition any {A} (_ : A) : Prop := True.

Definition item_bytes (it : sitem) : Prop := all_bytes (si_data it) = true.
Lemma ps_items_safe : forall fuel i count indexes blob data_off, all_bytes blob = true ->
  zlen indexes = 8 * count -> 0 <= i -> (Z.to_nat (count - i) < fuel)%nat ->
  safe (Forall item_bytes) (ps_items fuel i count indexes blob data_off).
Proof.
  induction fuel as [|fuel IH]; intros i count indexes blob data_off Hb Hix Hi Hf; [lia|].
  cbn [ps_items]. unfold sb_loop_cond. destruct (i <? count) eqn:Ec; cbn [negb]; [|constructor].
  unfold sb_rd_itype_at, sb_rd_ioff_at. rewrite !crd32_ok by lia. cbn [bind].
  unfold sb_rel_off, sb_off_bad. set (offset := rd32 (4 + 8 * i) indexes - data_off).
  destruct ((offset <? 0) || (offset >? zlen blob - 8)) eqn:Eo; [exact I|].
  unfold sb_rd_ilen_at. rewrite crd32_ok by lia. cbn [bind].
  unfold sb_item_bad. set (length := rd32 (offset + 4) blob).
  destruct ((length <? 8) || (offset + length >? zlen blob)) eqn:El; [exact I|].
  unfold sb_rd_imagic_at, sb_item_lo, sb_item_hi. rewrite crd32_ok, cslice_ok by lia. cbn [bind].
  apply (safe_bind (Forall item_bytes)); [apply IH; [exact Hb|exact Hix|lia|lia]|].
  intros r Hr. constructor; [now apply all_bytes_zslice|exact Hr].
Qed.
Theorem parse_super_safe blob : all_bytes blob = true -> safe (fun r => Forall item_bytes (snd r)) (parse_super blob).
Proof.
  intros Hb. unfold parse_super, sb_short. destruct (zlen blob <? 12) eqn:E; [exact I|].
  unfold sb_rd_magic_at, sb_rd_length_at, sb_rd_count_at. rewrite !crd32_ok by lia. cbn [bind].
  unfold sb_len_bad. destruct ((rd32 4 blob <? 8) || (rd32 4 blob >? zlen blob)); [exact I|].
  unfold sb_hdr_skip. rewrite cslice_ok by lia. cbn [bind].
  pose proof (rd32_range blob 8 Hb ltac:(lia) ltac:(lia)) as Hc.
  assert (Hl1 : zlen (zslice 12 (zlen blob) blob) = zlen blob - 12) by (apply zlen_zslice; lia).
  unfold sb_index_short, sb_index_bytes. rewrite Hl1. destruct (zlen blob - 12 <? 8 * rd32 8 blob) eqn:E2; [exact I|].
  rewrite !cslice_ok by lia. cbn [bind].
  apply (safe_bind (Forall item_bytes)); [|trivial].
  apply ps_items_safe; [now do 2 apply all_bytes_zslice|rewrite zlen_zslice by lia; lia|lia|lia].
Qed.

(* ------------------------------------------------------------------ bytes behind a superblob are not looked at *)
(* where r returns a value r' returns the same: like safe, it is proved along the binds *)
Definition ok_in {A} (r r' : result A) : Prop := forall v, r = Ok v -> r' = Ok v.
Lemma ok_in_refl {A} (r : result A) : ok_in r r.
Proof. now intros v. Qed.
Lemma ok_in_bind {A B} (r r' : result A) (k k' : A -> result B) : ok_in r r' -> (forall a, ok_in (k a) (k' a)) -> ok_in (bind r k) (bind r' k').
Proof. intros Hr Hk v. destruct r as [a| |]; cbn [bind]; try discriminate. rewrite (Hr a eq_refl). apply Hk. Qed.
Lemma crd32_app off l pad : ok_in (crd32 off l) (crd32 off (l ++ pad)).
Proof.
  intros v. unfold crd32. destruct ((off <? 0) || (zlen l <? off + 4)) eqn:E; [discriminate|]. intros [= <-].
  rewrite zlen_app. pose proof (zlen_nonneg pad). replace ((off <? 0) || (zlen l + zlen pad <? off + 4)) with false by lia.
  unfold rd32. now rewrite zslice_app_l by lia.
Qed.
Lemma cslice_app a b l pad : ok_in (cslice a b l) (cslice a b (l ++ pad)).
Proof.
  intros v. unfold cslice. destruct ((a <? 0) || (b <? a) || (zlen l <? b)) eqn:E; [discriminate|]. intros [= <-].
  rewrite zlen_app. pose proof (zlen_nonneg pad). replace ((a <? 0) || (b <? a) || (zlen l + zlen pad <? b)) with false by lia.
  now rewrite zslice_app_l by lia.
Qed.
Lemma ps_items_app pad : forall fuel i count indexes blob data_off,
  ok_in (ps_items fuel i count indexes blob data_off) (ps_items fuel i count indexes (blob ++ pad) data_off).
Proof.
  induction fuel as [|fuel IH]; intros i count indexes blob data_off; cbn [ps_items]; [apply ok_in_refl|].
  destruct (negb (sb_loop_cond i count)); [apply ok_in_refl|].
  apply ok_in_bind; [apply ok_in_refl|intros ty]. apply ok_in_bind; [apply ok_in_refl|intros off0].
  unfold sb_off_bad, sb_item_bad. rewrite zlen_app. pose proof (zlen_nonneg pad).
  set (offset := sb_rel_off off0 data_off).
  destruct ((offset <? 0) || (offset >? zlen blob - 8)) eqn:E1; [discriminate|].
  replace ((offset <? 0) || (offset >? zlen blob + zlen pad - 8)) with false by lia.
  apply ok_in_bind; [apply crd32_app|intros len].
  destruct ((len <? 8) || (offset + len >? zlen blob)) eqn:E2; [discriminate|].
  replace ((len <? 8) || (offset + len >? zlen blob + zlen pad)) with false by lia.
  apply ok_in_bind; [apply crd32_app|intros magic]. apply ok_in_bind; [apply cslice_app|intros data].
  apply ok_in_bind; [apply IH|intros r; apply ok_in_refl].
Qed.
(* every bounds check of parseSuper is against len(blob), none against the length field: what parses, parses with anything appended *)
Theorem parse_super_app blob pad : ok_in (parse_super blob) (parse_super (blob ++ pad)).
Proof.
  unfold parse_super, sb_short, sb_len_bad, sb_index_short, sb_data_off, sb_hdr_skip, sb_index_bytes.
  pose proof (zlen_nonneg pad). pose proof (zlen_app blob pad) as Hl.
  destruct (zlen blob <? 12) eqn:E0; [discriminate|]. replace (zlen (blob ++ pad) <? 12) with false by lia.
  apply ok_in_bind; [apply crd32_app|intros magic]. apply ok_in_bind; [apply crd32_app|intros len]. apply ok_in_bind; [apply crd32_app|intros count].
  destruct ((len <? 8) || (len >? zlen blob)) eqn:E1; [discriminate|]. replace ((len <? 8) || (len >? zlen (blob ++ pad))) with false by lia.
  (* blob[12:], then the index and what follows it: the appended bytes stay at the end *)
  rewrite !cslice_to_end, zdrop_app_l by lia. cbn [bind]. set (b1 := zdrop 12 blob). pose proof (zlen_app b1 pad) as Hl1.
  destruct (zlen b1 <? 8 * count) eqn:E2; [discriminate|]. replace (zlen (b1 ++ pad) <? 8 * count) with false by lia.
  destruct (cslice 0 (8 * count) b1) as [ix| |] eqn:Ei; cbn [bind]; try discriminate. rewrite (cslice_app _ _ _ pad _ Ei). cbn [bind].
  assert (0 <= 8 * count) by (unfold cslice in Ei; destruct (_ || _) eqn:E3 in Ei; [discriminate|lia]).
  rewrite !cslice_to_end, zdrop_app_l by lia. cbn [bind].
  replace (zlen (blob ++ pad) - zlen (zdrop (8 * count) b1 ++ pad)) with (zlen blob - zlen (zdrop (8 * count) b1)) by (rewrite !zlen_app; lia).
  apply ok_in_bind; [apply ps_items_app|intros its; apply ok_in_refl].
Qed.
Lemma parse_signature_pad H blob pad : is_ok (parse_signature H blob) = true -> parse_signature H (blob ++ pad) = parse_signature H blob.
Proof.
  unfold parse_signature. destruct (parse_super blob) as [r| |] eqn:E; cbn [bind is_ok]; try discriminate. now rewrite (parse_super_app _ pad _ E).
Qed.
Lemma cs_verify_pad H cms_verify blob pad vp : is_ok (parse_signature H blob) = true -> cs_verify H cms_verify (blob ++ pad) vp = cs_verify H cms_verify blob vp.
Proof. intros Hok. unfold cs_verify. now rewrite parse_signature_pad. Qed.

(* ------------------------------------------------------------------ parseCodeDirectory *)
Lemma rdw_nonneg off w l : all_bytes l = true -> 0 <= rdw off w l.
Proof.
  intros Hb. unfold rdw, be_dec.
  pose proof (le_dec_range (rev (zslice off (off + w) l)) ltac:(rewrite all_bytes_rev; now apply all_bytes_zslice)) as Hr. lia.
Qed.
Lemma index0_bounds l : forall k, index0 l k = -1 \/ (k <= index0 l k < k + zlen l).
Proof.
  induction l as [|b r IH]; intros k; cbn [index0]; [left; reflexivity|].
  rewrite zlen_cons. pose proof (zlen_nonneg r). destruct (b =? 0); [right; lia|]. destruct (IH (k + 1)) as [->|H1]; [left; reflexivity|right; lia].
Qed.
Lemma cstring_safe blob i : 0 <= i -> safe any (cstring blob i).
Proof.
  intros Hi. unfold cstring, cstr_off_bad. destruct (i >=? zlen blob) eqn:E; [exact I|].
  rewrite cslice_ok by lia. cbn [bind]. unfold cstr_no_nul.
  destruct (index0_bounds (zslice i (zlen blob) blob) 0) as [->|Hb]; [exact I|].
  destruct (index0 _ 0 <? 0) eqn:E2; [exact I|]. rewrite cslice_ok by lia. exact I.
Qed.
(* the three supported digests, by their sizes *)
Lemma hash_func_safe ht hl : safe (fun hf => hl = go_hash_size hf /\ 20 <= hl) (hash_func ht hl).
Proof.
  unfold hash_func, cs_hash_unknown, cs_hash_size_bad, cs_hash_func_of. cbn [find fst snd].
  destruct (1 =? ht); [|destruct (2 =? ht); [|destruct (4 =? ht)]]; cbn [fst snd]; try exact I.
  all: match goal with |- context [negb (?n =? ?m)] => destruct (n =? m) eqn:E end; cbn [negb]; [|exact I].
  all: apply Z.eqb_eq in E; subst hl; split; [reflexivity|cbn; lia].
Qed.
Lemma slot_safe blob hb hl i : 0 <= pcd_slot_lo hb hl i <= pcd_slot_hi hb hl i -> pcd_slot_hi hb hl i <= zlen blob -> safe any (slot blob hb hl i).
Proof. intros H0 H1. unfold slot. rewrite cslice_ok by lia. exact I. Qed.
Lemma code_loop_safe : forall fuel blob hb hl i n, 0 <= hb -> 0 <= hl -> 0 <= i -> hb + n * hl <= zlen blob -> (Z.to_nat (n - i) < fuel)%nat ->
  safe any (code_loop fuel blob hb hl i n).
Proof.
  induction fuel as [|fuel IH]; intros blob hb hl i n Hb Hl Hi Hn Hf; [lia|].
  cbn [code_loop]. unfold pcd_code_loop, pcd_code_arg. destruct (i <? n) eqn:E; cbn [negb]; [|exact I].
  apply (safe_bind any); [apply slot_safe; unfold pcd_slot_lo, pcd_slot_hi; nia|intros v _].
  apply (safe_bind any); [apply IH; lia|intros; exact I].
Qed.
Lemma special_loop_safe : forall fuel blob hb hl i n, 0 <= hl -> 1 <= i -> n * hl <= hb -> hb <= zlen blob -> (Z.to_nat (n + 1 - i) < fuel)%nat ->
  safe any (special_loop fuel blob hb hl i n).
Proof.
  induction fuel as [|fuel IH]; intros blob hb hl i n Hl Hi Hn Hb Hf; [lia|].
  cbn [special_loop]. unfold pcd_special_loop, pcd_special_arg. destruct (i <=? n) eqn:E; cbn [negb]; [|exact I].
  apply (safe_bind any); [apply slot_safe; unfold pcd_slot_lo, pcd_slot_hi; nia|intros v _].
  apply (safe_bind any); [apply IH; lia|intros; exact I].
Qed.
Theorem parse_cd_safe H blob itype : all_bytes blob = true -> safe (fun d => 0 <= h_pagesize (d_hdr d)) (parse_code_directory H blob itype).
Proof.
  intros Hb. unfold parse_code_directory. destruct (zlen blob <? cdh_size) eqn:E0; [exact I|].
  set (hdr := read_hdr blob).
  assert (Hh : 0 <= h_identoff hdr /\ 0 <= h_teamoff hdr /\ 0 <= h_ncode hdr /\ 0 <= h_nspecial hdr /\ 0 <= h_hashoff hdr /\ 0 <= h_pagesize hdr).
  { unfold hdr, read_hdr. cbn [h_identoff h_teamoff h_ncode h_nspecial h_hashoff h_pagesize]. unfold zf. destruct (existsb _ _); repeat split; try apply rdw_nonneg; trivial; lia. }
  destruct Hh as (Hio & Hto & Hnc & Hns & Hho & Hps).
  apply (safe_bind any); [destruct (pcd_has_ident _); [now apply cstring_safe|exact I]|intros ident _].
  apply (safe_bind any); [destruct (pcd_has_team _); [now apply cstring_safe|exact I]|intros team _].
  destruct (pcd_has_scatter _); [exact I|].
  apply (safe_bind _ _ _ _ (hash_func_safe _ _)). intros hf [_ Hhl].
  unfold pcd_slots_bad. destruct ((h_nspecial hdr * h_hashsize hdr >? h_hashoff hdr) || (h_hashoff hdr + h_ncode hdr * h_hashsize hdr >? zlen blob)) eqn:Es; [exact I|].
  (* make([][]byte, CodeSlotCount): 24 bytes per slot, and every slot has at least 20 bytes of input *)
  replace (alloc (zlen blob) (24 * h_ncode hdr)) with (Ok tt) by (unfold alloc, alloc_limit; replace (24 * h_ncode hdr <? 0) with false by lia; replace (64 * zlen blob + 1048576 <? 24 * h_ncode hdr) with false by nia; reflexivity).
  cbn [bind]. unfold pcd_code_loop_init, pcd_special_loop_init.
  apply (safe_bind any); [apply code_loop_safe; lia|intros codes _].
  apply (safe_bind any); [apply special_loop_safe; try lia; nia|intros sp _]. exact Hps.
Qed.

(* ------------------------------------------------------------------ parseSignature / Verify / VerifyPages *)
Lemma check_attr_safe : forall attr computed, safe any (check_attr attr computed).
Proof.
  induction attr as [|[h dg] r IH]; intros computed; cbn [check_attr]; [exact I|].
  destruct (clookup h computed); [destruct (bytes_eqb _ _); [apply IH|exact I]|]. destruct (vfy_attr_missing true); [exact I|apply IH].
Qed.
Lemma check_plist_safe : forall e a, safe any (check_plist_each e a).
Proof. induction e as [|x er IH]; intros a; cbn [check_plist_each]; [exact I|]. destruct a; [exact I|]. destruct (bytes_eqb _ _); [apply IH|exact I]. Qed.
Section NoPanic.
  Variable H : Z -> bytes -> bytes.

  (* what VerifyPages needs of the directories: the page size byte is not negative *)
  Definition dirs_ok (s : sigblob) : Prop := Forall (fun d => 0 <= h_pagesize (d_hdr d)) (sg_dirs s).
  Lemma psig_items_safe : forall items s, Forall item_bytes items -> dirs_ok s -> safe dirs_ok (psig_items H items s).
  Proof.
    induction items as [|it r IH]; intros s Hb Hs; cbn [psig_items]; [exact Hs|].
    inversion Hb as [|? ? Hit Hr]; subst. apply (safe_bind dirs_ok); [|intros s' Hs'; now apply IH].
    (* only a code directory item changes the directories *)
    destruct (psig_act (si_type it) =? 2); [exact Hs|]. destruct (psig_act (si_type it) =? 5); [exact Hs|].
    destruct (psig_act (si_type it) =? 7); [exact Hs|]. destruct (psig_act (si_type it) =? 102); [exact Hs|].
    destruct (psig_act (si_type it) =? 100).
    { apply (safe_bind (fun d => 0 <= h_pagesize (d_hdr d))); [now apply parse_cd_safe|intros d Hd].
      apply Forall_app. split; [exact Hs|]. constructor; [exact Hd|constructor]. }
    destruct (psig_act (si_type it) =? 101); [|exact Hs].
    unfold psig_cms_empty, psig_cms_skip. destruct (zlen (si_data it) <=? 8) eqn:E; [exact Hs|]. rewrite cslice_ok by lia. exact Hs.
  Qed.
  Lemma insert_dir_forall (P : pdir -> Prop) d l : P d -> Forall P l -> Forall P (insert_dir d l).
  Proof. intros Hd. induction 1; cbn [insert_dir]; [constructor; [exact Hd|constructor]|]. destruct (_ <? _); constructor; auto. Qed.
  Lemma sort_dirs_forall (P : pdir -> Prop) l : Forall P l -> Forall P (sort_dirs l).
  Proof. induction 1; cbn [sort_dirs]; [constructor|]. apply insert_dir_forall; assumption. Qed.
  Theorem parse_signature_safe blob : all_bytes blob = true -> safe dirs_ok (parse_signature H blob).
  Proof.
    intros Hb. unfold parse_signature. apply (safe_bind _ _ _ _ (parse_super_safe blob Hb)). intros [m its] Hi. cbn [fst snd] in *.
    destruct (psig_magic_bad m); [exact I|]. apply (safe_bind dirs_ok); [apply psig_items_safe; [exact Hi|constructor]|].
    intros s Hs. unfold dirs_ok. cbn [safe sg_dirs]. destruct psig_sorts_by_itype; [apply sort_dirs_forall|]; exact Hs.
  Qed.
  Lemma run_checks_safe s vp d : forall checks guards, safe any (run_checks H s vp d checks guards).
  Proof.
    induction checks as [|c cr IH]; intros guards; cbn [run_checks]; [exact I|].
    destruct guards as [|g gr]; [exact I|]. destruct (g _ _); [|apply IH]. destruct (bytes_eqb _ _); [apply IH|exact I].
  Qed.
  Lemma check_dirs_safe s vp : forall dirs computed, safe any (check_dirs H s vp dirs computed).
  Proof. induction dirs as [|d r IH]; intros computed; cbn [check_dirs]; [exact I|]. apply (safe_bind any); [apply run_checks_safe|intros; apply IH]. Qed.
  Theorem cs_verify_safe cms_verify blob vp : all_bytes blob = true -> safe dirs_ok (cs_verify H cms_verify blob vp).
  Proof.
    intros Hb. unfold cs_verify. destruct (negb vfy_layout_ok); [exact I|].
    apply (safe_bind _ _ _ _ (parse_signature_safe blob Hb)). intros s Hs.
    apply (safe_bind any); [apply check_dirs_safe|intros c _].
    destruct (vfy_no_dirs _); [exact I|]. destruct (vfy_no_cms _); [exact I|]. destruct (cms_verify _ _) as [[attr plist]|]; [|exact I].
    apply (safe_bind any); [destruct attr; [apply check_attr_safe|exact I]|intros _ _].
    apply (safe_bind any); [|intros _ _; exact Hs].
    destruct plist as [pl|]; [|exact I]. destruct (vfy_plist_count_bad _ _); [exact I|apply check_plist_safe].
  Qed.

  Lemma best_dir_in : forall dirs cur d, best_dir dirs cur = Some d -> In d dirs \/ cur = Some d.
  Proof.
    induction dirs as [|d2 r IH]; intros cur d; cbn [best_dir]; [intros ->; right; reflexivity|].
    intros Hb. apply IH in Hb as [Hi|Hc]; [left; right; exact Hi|]. destruct (vfy_better_dir _ _ _); [injection Hc as ->; left; left; reflexivity|right; exact Hc].
  Qed.
  Lemma vp_input_log2 s lim : dirs_ok s -> 0 <= i_log2 (vp_input s lim).
  Proof.
    intros Hd. unfold vp_input. destruct (best_dir (sg_dirs s) None) as [d|] eqn:Eb; cbn [i_log2]; [|lia].
    apply best_dir_in in Eb as [Hi|Hc]; [|discriminate]. unfold dirs_ok in Hd. rewrite Forall_forall in Hd. apply Hd. exact Hi.
  Qed.
  Lemma vp_input_limit s lim : i_alloc_limit (vp_input s lim) = lim.
  Proof. unfold vp_input. destruct (best_dir _ _); reflexivity. Qed.
  (* VerifyPages is the generated program vp_prog; ProofsVP.vp_no_panic: no reslice or allocation of it is out of range for ANY page size byte,
     any 64 bit code size (negative values and MinInt64 included), any number of slots, any reader content.  Since relic commit 83978b2 the page
     size field is bounded before the page buffer is allocated *)
  Theorem verify_pages_rd_no_panic s n rd p : dirs_ok s -> 0 <= n -> verify_pages_rd H s n rd <> Panic p.
  Proof.
    intros Hd Hn. unfold verify_pages_rd. apply ProofsVP.vp_no_panic; [apply vp_input_log2; exact Hd|].
    rewrite vp_input_limit. unfold alloc_limit. lia.
  Qed.
End NoPanic.
