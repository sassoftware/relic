(* C11/TextProofs.v — the text / line parser models of C11/Text.v cannot return Panic (no index or slice out of range, no
   loop out of fuel) for ANY byte string; each loop and sub-parser in the form `returns` of C11/Proofs.v. *)
From Coq Require Import String.
From Relic Require Import Base.Prelude Base.Slice Generated.C11_gen C11.Model C11.Proofs C11.Text.

(* ------------------------------------------------------------------ strings.Index & co *)
Lemma has_prefix_len : forall p l, has_prefix l p = true -> zlen p <= zlen l.
Proof.
  induction p as [|x p IH]; intros l H; [rewrite zlen_nil; apply zlen_nonneg|].
  destruct l as [|y l]; cbn [has_prefix] in H; [discriminate|].
  apply andb_true_iff in H as [_ H]. specialize (IH l H). rewrite !zlen_cons. lia.
Qed.
Lemma index_from_range : forall l sep k,
  index_from k l sep = -1 \/ (k <= index_from k l sep /\ index_from k l sep - k + zlen sep <= zlen l).
Proof.
  induction l as [|a l IH]; intros sep k.
  - cbn [index_from]. destruct (has_prefix [] sep) eqn:E; [|left; reflexivity].
    right. apply has_prefix_len in E. lia.
  - cbn [index_from]. destruct (has_prefix (a :: l) sep) eqn:E.
    + right. apply has_prefix_len in E. lia.
    + destruct (IH sep (k + 1)) as [H|H]; [left; exact H|right]. rewrite zlen_cons. lia.
Qed.
Lemma index_sub_range l sep : index_sub l sep = -1 \/ (0 <= index_sub l sep /\ index_sub l sep + zlen sep <= zlen l).
Proof. unfold index_sub. destruct (index_from_range l sep 0) as [H|H]; [left; exact H|right; lia]. Qed.

(* ------------------------------------------------------------------ the checked primitives of Text.v behind their guards *)
Lemma cindex_ok i l : 0 <= i < zlen l -> cindex i l = Ok (nth (Z.to_nat i) l 0).
Proof. intros H. unfold cindex. destruct (_ || _) eqn:E; [lia|reflexivity]. Qed.
Lemma cnth_ok {A} i (l : list A) : 0 <= i < zlen l -> exists a, cnth i l = Ok a.
Proof.
  intros H. unfold cnth. replace (i <? 0) with false by lia.
  destruct (nth_error l (Z.to_nat i)) eqn:E; [eexists; reflexivity|].
  apply nth_error_None in E. unfold zlen in H. lia.
Qed.
Lemma cslice_l_ok {A} a b (l : list A) : 0 <= a <= b -> b <= zlen l -> cslice_l a b l = Ok (zslice a b l).
Proof. intros H1 H2. unfold cslice_l. destruct (_ || _) eqn:E; [lia|reflexivity]. Qed.

(* ------------------------------------------------------------------ the scanner loop *)
Lemma scan_fold_returns {S} (step : S -> bytes -> result S) :
  (forall st l, returns any (step st l)) -> forall ls st, returns any (scan_fold step st ls).
Proof.
  intros Hs. induction ls as [|l r IH]; intros st; cbn [scan_fold]; [exact I|].
  destruct (max_token <=? zlen l); [exact I|].
  eapply returns_bind; [apply Hs|]. intros st' _. apply IH.
Qed.

(* ================================================================== lib/signdeb parseControl *)
Lemma pc_step_returns st line : returns any (pc_step st line).
Proof.
  unfold pc_step. set (j := index_sub line c11_pc_colon).
  destruct (c11_pc_skip _ j) eqn:E; [exact I|]. unfold c11_pc_skip in E.
  pose proof (index_sub_range line c11_pc_colon) as H. fold j in H. change (zlen c11_pc_colon) with 1 in H.
  unfold c11_pc_key_bounds, c11_pc_value_bounds. cbn [fst snd].
  rewrite !cslice_ok by lia. exact I.
Qed.

(* ================================================================== lib/signdeb checkSig *)
Lemma count_z_nonneg c l : 0 <= count_z c l.
Proof. induction l as [|x l IH]; cbn [count_z]; [lia|]. destruct (x =? c); lia. Qed.
Lemma split_n_byte_length c : forall s n cur, zlen (split_n_byte c n cur s) = Z.min (Z.of_nat n) (count_z c s) + 1.
Proof.
  induction s as [|x r IH]; intros n cur; cbn [split_n_byte count_z].
  - rewrite zlen_cons, zlen_nil. lia.
  - pose proof (count_z_nonneg c r). destruct n as [|n'].
    + rewrite zlen_cons, zlen_nil. destruct (x =? c); lia.
    + destruct (x =? c); [rewrite zlen_cons, IH|rewrite IH]; lia.
Qed.
(* the field count is checked before parts[1] / parts[3] (relic d376f3c) *)
Lemma cs_digests_returns digs : forall ls checked, returns any (cs_digests digs checked ls).
Proof.
  induction ls as [|line r IH]; intros checked; cbn [cs_digests]; [exact I|].
  destruct (c11_cs_is_end line) eqn:Eend; [exact I|].
  assert (Hl : 0 < zlen line) by (destruct line; [discriminate Eend|rewrite zlen_cons; pose proof (zlen_nonneg line); lia]).
  rewrite cindex_ok by lia. cbn [bind].
  destruct (c11_cs_malformed _ _); [exact I|].
  unfold c11_cs_rest_bounds. cbn [fst snd]. rewrite cslice_ok by lia. cbn [bind].
  set (parts := split_n_byte _ _ _ _).
  destruct (c11_cs_parts_bad (zlen parts)) eqn:Ep; [exact I|]. unfold c11_cs_parts_bad in Ep.
  change (nth 0 c11_cs_part_indexes 0) with 0. change (nth 1 c11_cs_part_indexes 0) with 1. change (nth 2 c11_cs_part_indexes 0) with 3.
  destruct (cnth_ok 0 parts ltac:(lia)) as [p0 ->]. destruct (cnth_ok 1 parts ltac:(lia)) as [p1 ->].
  destruct (cnth_ok 3 parts ltac:(lia)) as [nm ->]. cbn [bind].
  destruct (bytes_eqb _ []); [exact I|]. destruct (negb (bytes_eqb _ _)); [exact I|]. apply IH.
Qed.
(* the former crasher ("Files:", then a tab and 75 letters: SplitN gives one field) is now a malformed signature *)
Definition cs_witness : bytes := [70; 105; 108; 101; 115; 58; 10; 9] ++ repeat 97 75 ++ [10].
(* split count = blanks + 1 up to the limit: exactly the lines with at least three blanks pass the field-count check *)
Lemma cs_parts_count rest : zlen (split_n_byte cs_sep_byte (Z.to_nat (c11_cs_nparts - 1)) [] rest) = Z.min 3 (count_z cs_sep_byte rest) + 1.
Proof. rewrite split_n_byte_length. reflexivity. Qed.

(* ================================================================== lib/signjar *)
(* the cut position chosen by one iteration of splitManifest lies inside the (non-empty) manifest and is not 0 *)
Lemma sm_idx_range m : zlen m <> 0 ->
  let i1 := index_sub m c11_sm_sep_crlf in
  let i2 := index_sub m c11_sm_sep_lf in
  let idx := if c11_sm_case_crlf i1 i2 then c11_sm_idx_crlf i1 else if c11_sm_case_lf i1 i2 then c11_sm_idx_lf i2 else c11_sm_idx_rest (zlen m) in
  1 <= idx <= zlen m.
Proof.
  intros Hm i1 i2. pose proof (zlen_nonneg m).
  pose proof (index_sub_range m c11_sm_sep_crlf) as H1. fold i1 in H1. change (zlen c11_sm_sep_crlf) with 4 in H1.
  pose proof (index_sub_range m c11_sm_sep_lf) as H2. fold i2 in H2. change (zlen c11_sm_sep_lf) with 2 in H2.
  unfold c11_sm_case_crlf, c11_sm_case_lf, c11_sm_idx_crlf, c11_sm_idx_lf, c11_sm_idx_rest. cbv zeta.
  destruct (_ && _) eqn:E1; [lia|]. destruct (i2 >=? 0) eqn:E2; lia.
Qed.
(* every iteration removes at least one byte *)
Lemma sm_loop_returns : forall fuel m acc mal, (length m < fuel)%nat -> returns any (sm_loop fuel m acc mal).
Proof.
  induction fuel as [|k IH]; intros m acc mal Hf; [lia|]. cbn [sm_loop].
  destruct (c11_sm_more (zlen m)) eqn:Em; [|exact I]. unfold c11_sm_more in Em.
  pose proof (sm_idx_range m ltac:(lia)) as Hi. cbv zeta in Hi.
  set (idx := if c11_sm_case_crlf _ _ then _ else _) in *.
  unfold c11_sm_section_bounds, c11_sm_rest_bounds. cbn [fst snd].
  rewrite !cslice_ok by lia. cbn [bind].
  assert (Hr : (length (zslice idx (zlen m) m) < k)%nat).
  { pose proof (zlen_zslice idx (zlen m) m ltac:(lia) ltac:(lia)) as Hz. unfold zlen in *. lia. }
  destruct (c11_sm_empty_section _); apply IH; exact Hr.
Qed.
Lemma split_manifest_returns m : returns any (split_manifest m).
Proof. apply sm_loop_returns. lia. Qed.
(* a result that is not flagged malformed was not flagged before, and has a section when there was anything to split: an
   iteration that cuts off a blank section sets the flag for good, every other one adds its section *)
Lemma sm_loop_not_malformed : forall fuel m acc mal s, sm_loop fuel m acc mal = Ok (s, false) ->
  mal = false /\ (m <> [] \/ acc <> [] -> s <> []).
Proof.
  induction fuel as [|k IH]; intros m acc mal s H; [discriminate|]. cbn [sm_loop] in H.
  unfold c11_sm_more in H. destruct (negb (zlen m =? 0)) eqn:Em.
  - destruct (cslice _ _ m) as [sec| |]; cbn [bind] in H; try discriminate.
    destruct (cslice _ _ m) as [rest| |]; cbn [bind] in H; try discriminate.
    destruct (c11_sm_empty_section _); apply IH in H as [Hmal Hs]; [discriminate|]. split.
    + destruct (c11_sm_case_crlf _ _); [exact Hmal|]. destruct (c11_sm_case_lf _ _); [exact Hmal|discriminate].
    + intros _. apply Hs. right. discriminate.
  - injection H as <- ->. split; [reflexivity|]. intros [Hm|Ha].
    + exfalso. apply Hm, zlen_0_nil. lia.
    + intros X. apply (f_equal (@rev bytes)) in X. rewrite rev_involutive in X. contradiction.
Qed.

Lemma ps_lines_returns : forall ls h, returns any (ps_lines ls h).
Proof.
  induction ls as [|line r IH]; intros h; cbn [ps_lines]; [exact I|].
  destruct (c11_ps_skip_line _); [apply IH|].
  set (idx := index_sub line c11_ps_colon). destruct (c11_ps_no_colon idx) eqn:E; [exact I|]. unfold c11_ps_no_colon in E.
  pose proof (index_sub_range line c11_ps_colon) as H. fold idx in H. change (zlen c11_ps_colon) with 1 in H.
  unfold c11_ps_key_bounds, c11_ps_value_bounds. cbn [fst snd].
  rewrite !cslice_ok by lia. cbn [bind]. apply IH.
Qed.
Lemma parse_section_returns s : returns any (parse_section s).
Proof. apply ps_lines_returns. Qed.
Lemma pm_sections_returns : forall secs i n, returns any (pm_sections i secs n).
Proof.
  induction secs as [|s r IH]; intros i n; cbn [pm_sections]; [exact I|].
  destruct (c11_pm_skip_section _ _); [apply IH|].
  eapply returns_bind; [apply parse_section_returns|]. intros h _.
  destruct (i =? 0); [apply IH|]. destruct (c11_pm_no_name _); [exact I|apply IH].
Qed.
Lemma dm_sections_returns : forall secs n, returns any (dm_sections secs n).
Proof.
  induction secs as [|s r IH]; intros n; cbn [dm_sections]; [exact I|].
  eapply returns_bind; [apply parse_section_returns|]. intros h _.
  destruct (c11_pm_no_name _); [exact I|apply IH].
Qed.

(* ================================================================== lib/pgptools: line scanners behind an io.Pipe *)
(* a consumer that is drained (signdeb.Sign: io.Copy(ioutil.Discard, r) after parseControl) never blocks its producer *)
Lemma drained_pipe_never_hangs {A} stream (consume : bytes -> result A) : pipe_run true stream consume = consume stream.
Proof. unfold pipe_run. rewrite andb_false_r. reflexivity. Qed.
(* one that is not blocks it on every stream with a line at the scanner limit, whatever it does with the lines before *)
Lemma unreleased_pipe_hangs_on {A} stream (consume : bytes -> result A) :
  scan_too_long (raw_lines stream) = true -> pipe_run false stream consume = Panic P_HANG.
Proof. intros H. unfold pipe_run. rewrite H. reflexivity. Qed.
Lemma sign_goroutine_drains :
  In ("lib/signdeb:Sign"%string, ["parseControl"%string], false, true) c11_goroutines.
Proof. unfold c11_goroutines. do 4 apply in_cons. apply in_eq. Qed.

Lemma frev_rev l : frev l = rev l.
Proof. unfold frev. rewrite rev_append_rev. apply app_nil_r. Qed.
(* bytes without a line feed are one line *)
Lemma split_nl_one_line : forall l cur, Forall (fun c => c <> 10) l -> l <> [] \/ cur <> [] ->
  split_nl cur l = [frev (rev_append l cur)].
Proof.
  induction l as [|c r IH]; intros cur HF Hne; cbn [split_nl rev_append].
  - destruct cur; [destruct Hne; contradiction|reflexivity].
  - inversion HF; subst. destruct (c =? 10) eqn:E; [lia|]. apply IH; [assumption|right; discriminate].
Qed.
Lemma one_long_line l : Forall (fun c => c <> 10) l -> max_token <= zlen l -> scan_too_long (raw_lines l) = true.
Proof.
  intros HF Hl. unfold raw_lines. rewrite split_nl_one_line; [|exact HF|left; intros ->; exact (Hl eq_refl)].
  fold (frev l). rewrite !frev_rev, rev_involutive. cbn [scan_too_long existsb]. lia.
Qed.
Lemma dash_escape_len l : zlen (dash_escape l) <= zlen l + 2.
Proof. unfold dash_escape. destruct l as [|c r]; [lia|]. destruct c as [|c|c]; try lia.
  do 6 (destruct c as [c|c|]; try lia). rewrite !zlen_cons. lia. Qed.

(* ================================================================== what srcgen finds in the source today = what was reviewed *)
Lemma goroutines_reviewed : c11_goroutines = reviewed_goroutines. Proof. reflexivity. Qed.
(* shape assumptions of the models about generated values *)
Lemma scanners_use_default_buffer : c11_pc_scanner_tuning = [] /\ c11_cl_tail_scanner_tuning = [] /\ c11_cl_head_scanner_tuning = [].
Proof. repeat apply conj; reflexivity. Qed.
Lemma single_byte_separators : zlen c11_cs_sep = 1 /\ zlen c11_ps_line_sep = 1 /\ zlen c11_ps_colon = 1 /\ zlen c11_pc_colon = 1.
Proof. repeat apply conj; reflexivity. Qed.
Lemma control_ext_slice_guarded : zlen c11_sign_control_prefix = 11.     (* name[11:] after HasPrefix(name, "control.tar") *)
Proof. reflexivity. Qed.
Lemma sign_channels_buffered : c11_sign_errch_cap = 1 /\ c11_sign_infoch_cap = 1.
Proof. split; reflexivity. Qed.
Lemma digest_manifest_call_order : c11_dm_order = [0; 1; 1; 2; 1].
Proof. reflexivity. Qed.
