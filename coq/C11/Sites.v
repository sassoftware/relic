(* C11/Sites.v — the reviewed lists of index / slice / type-assertion sites that srcgen's light dominator analysis cannot
   show to be guarded, per input-facing package.  srcgen re-derives the lists from the Go AST on every run
   (Generated/C11_gen.v, the c11_unguarded_ lists); C11.Properties.unguarded_sites_reviewed states that what it finds now is
   exactly what was reviewed, so a NEW index, slice or single-value type assertion on these paths that no dominating
   condition protects — or the removal of the check that protected an existing one — breaks an equality there and the C11
   proof target no longer builds.  Review notes (why each listed site cannot fail, or under which finding key it is known to) follow each list. *)
From Coq Require Import String.
From Relic Require Import Base.Prelude Generated.C11_gen.
Open Scope string_scope.

Definition reviewed_signdeb : list string := [
].
(* review: nothing left — checkSig tests len(parts) before indexing since relic d376f3c (C11.Properties.check_sig_no_panic). *)

Definition reviewed_pgptools : list string := [
  "serializeHeader: index buf[1]";
  "serializeHeader: index buf[1]";
  "serializeHeader: index buf[2]";
  "serializeHeader: index buf[1]";
  "serializeHeader: index buf[2]";
  "serializeHeader: index buf[3]";
  "serializeHeader: index buf[4]";
  "serializeHeader: index buf[5]";
  "serializeHeader: slice buf[:n]"].
(* review: serializeHeader: buf is a fixed 6-byte buffer filled by constant indexes chosen by the length class (FmtPGP.pgp_len_roundtrip). *)

Definition reviewed_signjar : list string := [
  "splitManifest: slice manifest[:idx]";
  "splitManifest: slice manifest[idx:]";
  "writeAttribute: slice line[i:j]";
  "hashFile: slice key[:len(key)-len(suffix)]";
  "hashFile: index value[0]";
  "hashFile: slice buf[:n]";
  "verifySigFile: index sections[0]"].
(* review: splitManifest: idx comes from bytes.Index on the same slice (C11.Properties.split_manifest_no_panic). writeAttribute line[i:j]: j is clamped to len(line). hashFile: key has the suffix (HasSuffix above), value[0] of a header value list (http.Header values are never empty), buf[:n] n from Read. verifySigFile sections[0]: guarded by ParseManifest of the same bytes just above (C11.Properties.parse_manifest_guards_digest). *)

Definition reviewed_appmanifest : list string := [
  "PublicKeyToken: index sum[19-i]";
  "PublicKeyToken: index token[i]";
  "bigIntToLE: index b[j]";
  "bigIntToLE: index b[i]";
  "bigIntToLE: index b[i]";
  "bigIntToLE: index b[j]";
  "makeManifestHash: index blob[j]";
  "makeManifestHash: index blob[i]";
  "makeManifestHash: index blob[i]";
  "makeManifestHash: index blob[j]";
  "SignedManifest.AddTimestamp: slice siblob[:n]";
  "SignedManifest.AddTimestamp: slice siblob[n:]"].
(* review: byte reversal loops over fixed-size digests / big.Int bytes (i, j derived from len); AddTimestamp: n = index of a marker that was just serialized into siblob. *)

Definition reviewed_signers_deb : list string := [
].
(* review: prefix slices follow strings.HasPrefix checks on the same strings (the analysis does not track len(prefix) of a variable prefix). *)

Definition reviewed_signers_pgp : list string := [
].

Definition reviewed_xmldsig : list string := [
  "HashAlgorithm: slice hashAlg[len(prefix):]";
  "parseAlgs: slice sigAlg[len(prefix):]";
  "parseAlgs: slice sigAlg[:len(sigAlg)-len(hashAlg)-1]"].

Definition reviewed_comdoc : list string := [
  "ComDoc.readDir: index cooked[i]";
  "ComDoc.RootStorage: index r.Files[r.rootStorage]";
  "ComDoc.ListDir: index stack[i]";
  "ComDoc.ListDir: slice stack[:i]";
  "ComDoc.appendDirEnt: index r.Files[index]";
  "ComDoc.appendDirEnt: index r.Files[index]";
  "ComDoc.appendDirEnt: index r.Files[index]";
  "ComDoc.writeDirStream: slice r.Files[j : j+perSector]";
  "ComDoc.writeDirStream: index chunk[k]";
  "ComDoc.writeDirStream: index chunk[k]";
  "ComDoc.writeDirStream: index r.SAT[previous]";
  "ComDoc.writeDirStream: index r.SAT[previous]";
  "ComDoc.rebuildTree: index r.Files[i]";
  "ComDoc.rebuildTree: assert n.Item.(*DirEnt)";
  "ComDoc.rebuildTree: index r.Files[parent]";
  "ComDoc.rebuildTree: index n.Children[0]";
  "ComDoc.rebuildTree: assert n.Children[0].Item.(*DirEnt)";
  "ComDoc.rebuildTree: index n.Children[0]";
  "ComDoc.rebuildTree: index n.Children[1]";
  "ComDoc.rebuildTree: assert n.Children[1].Item.(*DirEnt)";
  "ComDoc.rebuildTree: index n.Children[1]";
  "lessDirEnt: assert i.(*DirEnt)";
  "lessDirEnt: assert j.(*DirEnt)";
  "lessDirEnt: index f.NameRunes[k]";
  "SameName: index rb[k]";
  "ComDoc.readMSAT: slice values[:count-1]";
  "ComDoc.readMSAT: index values[count-1]";
  "ComDoc.readMSAT: index r.MSAT[i]";
  "ComDoc.readMSAT: slice r.MSAT[:i+1]";
  "ComDoc.allocSectorTables: index r.makeFreeSectors(1, false)[0]";
  "ComDoc.allocSectorTables: index r.SAT[sector]";
  "ComDoc.allocSectorTables: index r.makeFreeSectors(1, false)[0]";
  "ComDoc.allocSectorTables: index r.SAT[sector]";
  "ComDoc.writeMSAT: index msat[i]";
  "ComDoc.writeMSAT: slice msat[msatInHeader:]";
  "ComDoc.writeMSAT: slice msat[j : j+msatPerSector]";
  "ComDoc.writeMSAT: index r.msatList[i+1]";
  "ComDoc.writeMSAT: index chunk[msatPerSector]";
  "ComDoc.writeMSAT: index chunk[msatPerSector]";
  "ComDoc.writeSector: index buf[i]";
  "ComDoc.writeSector: slice buf[:r.SectorSize]";
  "ComDoc.makeFreeSectors: index newSAT[i]";
  "ComDoc.writeSAT: slice r.SAT[j : j+satPerSector]";
  "ComDoc.writeShortSAT: slice r.SSAT[j : j+perSector]";
  "ComDoc.writeShortSAT: index r.SAT[previous]";
  "ComDoc.writeShortSAT: index r.SAT[previous]";
  "ComDoc.readShortSector: index r.Files[r.rootStorage]";
  "ComDoc.writeShortSector: index buf[i]";
  "ComDoc.writeShortSector: slice buf[:r.ShortSectorSize]";
  "ComDoc.writeShortSector: index r.Files[r.rootStorage]";
  "ComDoc.writeShortSector: index r.SAT[bigSectorID]";
  "ComDoc.writeShortSector: index r.SAT[bigSectorID]";
  "ComDoc.writeShortSector: index r.SAT[bigSectorID]";
  "streamReader.Read: slice d[:int(sr.remaining)]";
  "streamReader.Read: slice d[n:]";
  "streamReader.Read: slice sr.saved[n:]";
  "streamReader.Read: slice d[:sr.sectorSize]";
  "streamReader.Read: slice d[n:]";
  "streamReader.Read: slice sr.buf[len(d):]";
  "ComDoc.addStream: index sat[previous]";
  "ComDoc.addStream: slice contents[:n]";
  "ComDoc.addStream: slice contents[:n]";
  "ComDoc.addStream: slice contents[n:]";
  "ComDoc.addStream: index sat[previous]"].
(* review: reader sites are bounded by the sector-count / directory-id checks added by the C11 fixes (readDir, ListDir, readMSAT, readShortSector: corpus entries comdoc.x); writer sites index tables the writer allocated itself. Known residual keys: known_findings.json C11:comdoc.x. *)

Definition reviewed_csblob : list string := [
  "checkPlistHashes: slice computed[dir.HashFunc][:20]";
  "checkPlistHashes: index computedList[i]";
  "parseCodeDirectory: slice blob[hashBase+i*hashLen : hashBase+(i+1)*hashLen]";
  "parseCodeDirectory: index dir.CodeHashes[i]";
  "cstring: slice blob[i:]";
  "newCodeDirectory: slice specialSlots[:len(specialSlots)+h.Size()]";
  "parseSignature: index sig.Directories[i]";
  "parseSignature: index sig.Directories[j]";
  "hashPages: index hashers[i]";
  "hashPages: index hashers[i]";
  "hashPages: index writers[i]";
  "hashPages: index slots[i]";
  "hashPages: slice buf[:n]";
  "hashPages: index slots[i]";
  "hashPages: index slots[i]";
  "SigBlob.Requirements: slice item.data[8:]";
  "reqDumper.op: slice d.buf[4:]";
  "reqDumper.getData: slice d.buf[:length]";
  "reqDumper.getData: slice d.buf[aligned:]";
  "parseSuper: slice blob[:8*count]";
  "parseSuper: slice blob[8*count:]";
  "parseSuper: slice indexes[8*i:]";
  "parseSuper: slice indexes[4+8*i:]";
  "parseSuper: slice blob[offset+4:]";
  "parseSuper: slice blob[offset:]";
  "parseSuper: slice blob[offset : offset+length]";
  "newSuperItem: slice packed[4:]";
  "newSuperItem: slice packed[8:]";
  "marshalSuperBlob: index ints[0]";
  "marshalSuperBlob: index ints[2]";
  "marshalSuperBlob: index ints[3+2*i]";
  "marshalSuperBlob: index ints[4+2*i]";
  "marshalSuperBlob: index ints[1]";
  "SigBlob.VerifyPages: slice page[:remaining]"].
(* review: parseSuper: C11.Properties.parse_super_no_panic. parseCodeDirectory / VerifyPages / Requirements: bounded by the explicit length checks in front of them (corpus entries csblob.x); reqDumper reads are length-checked by getData. hashPages / marshalSuperBlob index tables of their own making. *)

Definition reviewed_xar : list string := [
  "XAR.Verify: index x.Certificates[0]";
  "XAR.Verify: index x.Certificates[0]";
  "XAR.Verify: slice x.Certificates[1:]";
  "XAR.checkFiles: index dataFiles[i]";
  "XAR.checkFiles: index dataFiles[j]";
  "checkFiles: index dataFiles[i]";
  "checkFiles: index dataFiles[j]";
  "parseCertificates: index parsed[i]"].
(* review: Certificates[0]: an empty certificate list is rejected above; dataFiles sort callbacks; parsed[i] parallel table. *)

Definition reviewed_dmg : list string := [
].
(* review: patch functions slice a header copy whose offsets were validated when the markers were found (corpus machos.machoMarkers.PatchSignature_slice); cstring: i from IndexByte (i < 0 handled). *)

Definition reviewed_machos : list string := [
  "machoMarkers.PatchSignature: slice padded[padding:]";
  "machoMarkers.patchNcmd: slice newHeader[16:]";
  "machoMarkers.patchNcmd: slice newHeader[16:]";
  "machoMarkers.patchNcmd: slice newHeader[20:]";
  "machoMarkers.patchNcmd: slice newHeader[20:]";
  "machoMarkers.patchNcmd: slice newHeader[16 : 16+8]";
  "machoMarkers.patchLoadCmd: slice newHeader[f.loadCsStart:]";
  "machoMarkers.patchLoadCmd: slice newHeader[f.loadCsStart+4:]";
  "machoMarkers.patchLoadCmd: slice newHeader[f.loadCsStart+8:]";
  "machoMarkers.patchLoadCmd: slice newHeader[f.loadCsStart+12:]";
  "machoMarkers.patchLoadCmd: slice newHeader[f.loadCsStart : f.loadCsStart+16]";
  "machoMarkers.patchLinkEdit: slice newHeader[f.linkEditHdrPos+32:]";
  "machoMarkers.patchLinkEdit: slice newHeader[f.linkEditHdrPos+48:]";
  "machoMarkers.patchLinkEdit: slice newHeader[f.linkEditHdrPos+28:]";
  "machoMarkers.patchLinkEdit: slice newHeader[f.linkEditHdrPos+36:]";
  "machoMarkers.patchLinkEdit: slice newHeader[patchStart : patchStart+patchSize]";
  "cstring: slice b[0:i]"].
