(* C11/Properties.v — property C11 (malformed input yields an error, never a crash or runaway resource use) for the parsers
   modelled in C11/Model.v and C11/Text.v; their loops and sub-parsers are dealt with in C11/Proofs.v and C11/TextProofs.v.
   `Panic` covers: slice / index out of range, negative allocation size, a single allocation above
   alloc_limit(|input|) = 64·|input| + 1 MiB, and a loop that runs out of its fuel.  Every theorem quantifies over ALL byte
   strings (all_bytes l: every element is in 0..255). *)
From Relic Require Import Base.Prelude Base.Enc Base.Slice Generated.C11_gen C11.Model.
From Relic Require C17.Model Generated.C17_gen.
From Relic Require Import C11.Text C11.Proofs C11.TextProofs.
From Relic Require C11.Sites.

(* binpatch.Load (request body of the patch endpoints, output of every remote signing) *)
Theorem load_no_panic : forall l p, all_bytes l = true -> load l <> Panic p.
Proof.
  intros l p Hb. apply returns_no_panic with (P := any). unfold load.
  destruct (zlen l <? c11_psh_size); [exact I|].
  destruct (c11_load_version_bad _); [exact I|].
  set (num := be_dec _). set (rest := zdrop c11_psh_size l).
  assert (Hn : 0 <= num) by (apply be_dec_nonneg, all_bytes_zslice, Hb).
  unfold c11_load_count_exceeds. destruct (num * 16 >? zlen rest) eqn:E1; [exact I|].
  pose proof (zlen_zdrop_le c11_psh_size l) as Hr. fold rest in Hr. pose proof (zlen_nonneg rest).
  change c11_ph_size with 16. rewrite !alloc_ok by (unfold alloc_limit; lia). cbn [bind].
  eapply returns_bind; [apply load_headers_returns, all_bytes_zdrop, Hb|]. intros [hs rest'] [H1 H2]. cbn [fst snd] in *.
  eapply returns_bind; [apply load_blobs_returns; [exact H1|lia]|intros; exact I].
Qed.
(* csblob.parseSuper (Mach-O / DMG code signature blobs) *)
Theorem parse_super_no_panic : forall blob p, all_bytes blob = true -> parse_super blob <> Panic p.
Proof.
  intros blob p Hb. apply returns_no_panic with (P := any). unfold parse_super, c11_super_short.
  destruct (zlen blob <? 12) eqn:E0; [exact I|].
  rewrite !cbe_ok by lia. cbn [bind].
  destruct (c11_super_len_bad _ _); [exact I|].
  rewrite cslice_ok by lia. cbn [bind].
  set (count := be_dec (zslice 8 (8 + 4) blob)). set (b1 := zslice 12 (zlen blob) blob).
  assert (Hc : 0 <= count) by (apply be_dec_nonneg, all_bytes_zslice, Hb).
  unfold c11_super_index_short. destruct (zlen b1 <? 8 * count) eqn:E1; [exact I|].
  rewrite !cslice_ok by lia. cbn [bind].
  eapply returns_bind; [|intros; exact I].
  apply super_items_returns with (count := count); [rewrite zlen_zslice; lia|lia|lia].
Qed.
(* signxap.removeSignature (central directory blob of an uploaded XAP), and what it keeps is a prefix of its input *)
Theorem xap_remove_no_panic : forall cd p, all_bytes cd = true -> xap_remove cd <> Panic p.
Proof. intros cd p Hb. exact (returns_no_panic _ _ p (xap_remove_returns cd Hb)). Qed.
Theorem xap_remove_range : forall cd n, all_bytes cd = true -> xap_remove cd = Ok n -> 0 <= n <= zlen cd.
Proof. intros cd n Hb. exact (returns_ok _ _ n (xap_remove_returns cd Hb)). Qed.
(* apk.unmarshal, for EVERY target type built from uint32, []byte, apkRaw, slices and structs (not only the four in use):
   no panic, and the recursion / the slice loop terminate within fuel = depth of the type / |blob|+1 iterations *)
Theorem unmarshal_no_panic : forall s blob p, all_bytes blob = true -> unmarshal s blob <> Panic p.
Proof. intros s blob p Hb. exact (returns_no_panic _ _ p (unmarshal_returns s blob Hb)). Qed.
(* apk.getSigBlock + the ID-value pair loop of apk.verify + the parse of every v2 signer list, given that the central directory
   offset lies inside the file (established by zipslicer.Read) and that the block is what was read between the two offsets;
   vok is the (unmodelled) outcome of the cryptographic checks on each parsed signer list, quantified over *)
Theorem apk_v2_parse_no_panic : forall vok n sig_loc dir_loc gap p, all_bytes gap = true -> 0 <= n -> dir_loc <= n ->
  (0 <= sig_loc <= dir_loc -> zlen gap = dir_loc - sig_loc) -> apk_v2_parse vok n sig_loc dir_loc gap <> Panic p.
Proof. exact C11.Proofs.apk_v2_parse_no_panic. Qed.
(* apkSigner.Verify: indexing the computed digests by the position of the signed digest entries (any list of hash functions,
   duplicates included) — rests on the merkle hasher returning one digest per REQUESTED entry, which the harness checks on the real code *)
Theorem verify_digests_no_panic : forall hashes p, verify_digests hashes <> Panic p.
Proof. intros hashes p. unfold verify_digests, merkle_out_len. rewrite digest_loop_ok by lia. discriminate. Qed.
(* zipslicer.ReadWithDirectory (the byte-level model of C17): no panic, and the entry loop never runs out of fuel *)
Theorem zip_directory_no_panic : forall size cd p, C17.Model.read_with_directory size cd <> Panic p.
Proof.
  intros size cd p. apply returns_no_panic with (P := any). unfold C17.Model.read_with_directory.
  eapply returns_bind; [apply zip_entries_returns|]. intros r _.
  destruct (_ =? _); [exact I|]. destruct (_ =? _); exact I.
Qed.
(* every directory entry consumes at least 46 bytes *)
Theorem zip_entries_fuel : forall fuel cd, (length cd < fuel)%nat -> C17.Model.read_entries fuel cd <> Err C17.Model.E_FUEL.
Proof.
  induction fuel as [|k IH]; intros cd Hf; [lia|]. cbn [C17.Model.read_entries].
  destruct (C17_gen.rwd_cd_short _); [discriminate|].
  destruct (C17_gen.rwd_not_cd_sig _); [discriminate|].
  unfold C17_gen.rwd_hdr_short. destruct (zlen cd <? 46) eqn:E; [discriminate|].
  destruct (C17_gen.rwd_ent_short _ _ _ _); [discriminate|].
  destruct (C17_gen.rwd_missing_z64 _ _); [discriminate|].
  set (r4 := zdrop _ (zdrop _ (zdrop _ (zdrop C17_gen.directoryHeaderLen cd)))).
  assert (Hr : (length r4 < k)%nat).
  { assert (zlen r4 <= zlen (zdrop 46 cd)) by (do 2 (etransitivity; [apply zlen_zdrop_le|]); apply zlen_zdrop_le).
    pose proof (zlen_zdrop 46 cd ltac:(lia)). unfold zlen in *. lia. }
  specialize (IH r4 Hr). destruct (C17.Model.read_entries k r4); cbn [bind]; try discriminate.
  intros [= ->]. apply IH. reflexivity.
Qed.

(* ================================================================== hand-written text / line parsers (C11/Text.v) *)
(* lib/signdeb parseControl — run by signdeb.Sign in a helper goroutine without recover, so a panic here ends the process:
   for EVERY control file text (any bytes: empty lines, no colon, only a colon, leading blanks, comments, CR LF, NUL, no final
   newline, lines of any length) the line loop returns a result or an error *)
Theorem parse_control_no_panic : forall text p, parse_control text <> Panic p.
Proof.
  intros text p. apply returns_no_panic with (P := any). unfold parse_control.
  eapply returns_bind; [apply scan_fold_returns, pc_step_returns|]. intros st _. destruct (c11_pc_missing _ _); exact I.
Qed.
(* a successful parse has a package name and a version (what signers/deb writes into the audit record) *)
Theorem parse_control_ok_fields : forall text i, parse_control text = Ok i -> pi_pkg i <> [] /\ pi_ver i <> [].
Proof.
  intros text i. unfold parse_control. destruct (scan_fold pc_step _ _) as [st| |]; cbn [bind]; try discriminate.
  unfold c11_pc_missing. destruct (bytes_eqb (pi_pkg st) []) eqn:E1; [discriminate|].
  destruct (bytes_eqb (pi_ver st) []) eqn:E2; [discriminate|]. cbn [orb]. intros [= <-].
  split; apply bytes_eqb_neq; assumption.
Qed.
(* ... also behind the io.Pipe: the goroutine drains its reader after an early return, so the producer never blocks *)
Theorem sign_control_pipe_no_panic : forall stream p, pipe_run c11_goroutines_releases_parseControl stream parse_control <> Panic p.
Proof.
  intros stream p. change c11_goroutines_releases_parseControl with true. rewrite drained_pipe_never_hangs.
  apply parse_control_no_panic.
Qed.
(* lib/signdeb checkSig: for EVERY signed body and digest table (any number of blanks in a digest line) a result or an
   error; the input that crashed it before relic d376f3c is rejected as malformed *)
Theorem check_sig_no_panic : forall digs body p, check_sig digs body <> Panic p.
Proof.
  intros digs body p. apply returns_no_panic with (P := any). unfold check_sig.
  destruct (cs_skip_header _) as [r|]; [|exact I].
  eapply returns_bind; [apply cs_digests_returns|]. intros checked _. destruct (forallb _ _); exact I.
Qed.
Theorem cs_witness_is_error : check_sig [] C11.TextProofs.cs_witness = Err E_MALFORMED.
Proof. vm_compute. reflexivity. Qed.
(* lib/signjar: splitManifest (cut positions from bytes.Index; the loop terminates), parseSection, parseManifest *)
Theorem split_manifest_no_panic : forall m p, split_manifest m <> Panic p.
Proof. intros m p. exact (returns_no_panic _ _ p (split_manifest_returns m)). Qed.
Theorem parse_section_no_panic : forall s p, parse_section s <> Panic p.
Proof. intros s p. exact (returns_no_panic _ _ p (parse_section_returns s)). Qed.
Theorem parse_manifest_no_panic : forall m p, parse_manifest m <> Panic p.
Proof.
  intros m p. apply returns_no_panic with (P := any). unfold parse_manifest.
  eapply returns_bind; [apply split_manifest_returns|]. intros sm _.
  destruct (c11_pm_no_sections _); [exact I|].
  eapply returns_bind; [apply pm_sections_returns|intros; exact I].
Qed.
(* DigestManifest: sections[0] and sections[1:] sit behind the emptiness check (relic 37fd88a), for every manifest; the
   empty manifest is the only input for which splitManifest reports neither a section nor a malformation (the case that
   check catches) *)
Theorem digest_manifest_no_panic : forall m p, digest_manifest m <> Panic p.
Proof.
  intros m p. apply returns_no_panic with (P := any). unfold digest_manifest.
  eapply returns_bind; [apply split_manifest_returns|]. intros [secs mal] _. cbn [fst snd].
  destruct mal; [exact I|]. unfold c11_dm_empty. destruct (zlen secs =? 0) eqn:E0; [exact I|].
  pose proof (zlen_nonneg secs). destruct (cnth_ok 0 secs ltac:(lia)) as [s0 ->].
  rewrite cslice_l_ok by lia. cbn [bind]. apply dm_sections_returns.
Qed.
Theorem split_manifest_empty_iff : forall m secs, split_manifest m = Ok (secs, false) -> (secs = [] <-> m = []).
Proof.
  intros m secs E. split.
  - intros ->. destruct m as [|c r]; [reflexivity|]. exfalso.
    apply sm_loop_not_malformed in E as [_ Hs]. apply Hs; [left; discriminate|reflexivity].
  - intros ->. vm_compute in E. inversion E. reflexivity.
Qed.
(* every caller has parsed the same bytes first (updateManifest -> parseManifest, verifySigFile -> ParseManifest): that
   alone already excludes the empty section list *)
Theorem parse_manifest_guards_digest : forall m r p, parse_manifest m = Ok r -> digest_manifest m <> Panic p.
Proof. intros m r p _. apply digest_manifest_no_panic. Qed.
(* lib/pgptools: the line scanners cannot panic, and the goroutines around them close the read side of the pipe before
   reporting (relic 311c650), so DetachClearSign returns for EVERY message (a line at the scanner limit gives an error);
   without that release one line of 65536 bytes blocks the writer for ever *)
Theorem tail_clear_sign_no_panic : forall s p, tail_clear_sign s <> Panic p.
Proof. intros s p. unfold tail_clear_sign. destruct (scan_too_long _); discriminate. Qed.
Theorem head_clear_sign_no_panic : forall s p, head_clear_sign s <> Panic p.
Proof. intros s p. unfold head_clear_sign. destruct (head_lines _); [discriminate|]. destruct (scan_too_long _); discriminate. Qed.
Theorem detach_clear_sign_no_hang : forall msg p, detach_clear_sign msg <> Panic p.
Proof.
  intros msg p. unfold detach_clear_sign. change cl_releases with true. rewrite andb_false_r.
  destruct (existsb _ _); discriminate.
Qed.
Theorem released_pipe_scanners_no_panic : forall stream p,
  pipe_run cl_releases stream tail_clear_sign <> Panic p /\ pipe_run cl_releases stream head_clear_sign <> Panic p.
Proof.
  intros stream p. change cl_releases with true. rewrite !drained_pipe_never_hangs.
  split; [apply tail_clear_sign_no_panic|apply head_clear_sign_no_panic].
Qed.
Theorem unreleased_pipe_hangs : exists stream, pipe_run false stream tail_clear_sign = Panic P_HANG.
Proof.
  exists (repeat 65 (Z.to_nat max_token)). apply unreleased_pipe_hangs_on, one_long_line.
  - apply Forall_forall. intros c Hc. apply repeat_spec in Hc. lia.
  - rewrite zlen_repeat. lia.
Qed.
Theorem detach_clear_sign_ok_when : forall msg,
  Forall (fun l => zlen l < max_token - 2) (raw_lines msg) -> detach_clear_sign msg = Ok tt.
Proof.
  intros msg HF. unfold detach_clear_sign, clearsigned_lines.
  assert (E : existsb (fun l => max_token <=? zlen l) (map dash_escape (raw_lines msg)) = false).
  { induction HF as [|l r Hl _ IH]; [reflexivity|]. cbn [map existsb]. rewrite IH.
    pose proof (dash_escape_len l). replace (max_token <=? zlen (dash_escape l)) with false by lia. reflexivity. }
  rewrite E. reflexivity.
Qed.
(* the source as srcgen reads it NOW has exactly the reviewed index / slice / assertion sites in the modelled functions,
   the reviewed goroutines (none recovers; only signdeb.Sign drains), and the reviewed unguarded sites in every
   input-facing package of the list *)
Theorem modelled_sites_reviewed :
  c11_pc_sites = reviewed_pc_sites /\ c11_cs_sites = reviewed_cs_sites /\ c11_sign_sites = reviewed_sign_sites /\
  c11_sm_sites = reviewed_sm_sites /\ c11_ps_sites = reviewed_ps_sites /\ c11_pm_sites = reviewed_pm_sites /\
  c11_dm_sites = reviewed_dm_sites /\ c11_pc_fields = reviewed_pc_fields.
Proof. repeat apply conj; reflexivity. Qed.
Theorem goroutines_reviewed : c11_goroutines = reviewed_goroutines.
Proof. exact C11.TextProofs.goroutines_reviewed. Qed.
Theorem unguarded_sites_reviewed :
  c11_unguarded_signdeb = C11.Sites.reviewed_signdeb /\ c11_unguarded_pgptools = C11.Sites.reviewed_pgptools /\
  c11_unguarded_signjar = C11.Sites.reviewed_signjar /\ c11_unguarded_appmanifest = C11.Sites.reviewed_appmanifest /\
  c11_unguarded_signers_deb = C11.Sites.reviewed_signers_deb /\ c11_unguarded_signers_pgp = C11.Sites.reviewed_signers_pgp /\
  c11_unguarded_xmldsig = C11.Sites.reviewed_xmldsig /\ c11_unguarded_comdoc = C11.Sites.reviewed_comdoc /\
  c11_unguarded_csblob = C11.Sites.reviewed_csblob /\ c11_unguarded_xar = C11.Sites.reviewed_xar /\
  c11_unguarded_dmg = C11.Sites.reviewed_dmg /\ c11_unguarded_machos = C11.Sites.reviewed_machos.
Proof. repeat apply conj; reflexivity. Qed.

(* ------------------------------------------------------------------ non-vacuity: the models accept well-formed input *)
Example load_accepts : exists r, load ([0;0;0;1; 0;0;0;1] ++ [0;0;0;0;0;0;0;5; 0;0;0;2; 0;0;0;3] ++ [7;8;9]) = Ok r.
Proof. eexists. vm_compute. reflexivity. Qed.
Example super_accepts : exists r,
  parse_super ([250;222;12;192; 0;0;0;32; 0;0;0;1] ++ [0;0;0;2; 0;0;0;20] ++ [250;222;12;1; 0;0;0;12; 1;2;3;4]) = Ok r.
Proof. eexists. vm_compute. reflexivity. Qed.
Example xap_strips : xap_remove ([1;2;3;4;5] ++ [1;0; 1;0; 1;0;0;0] ++ [9] ++ [88;97;112;83; 1;0; 9;0;0;0]) = Ok 5.
Proof. vm_compute. reflexivity. Qed.
Example signers_accepts : exists r,
  unmarshal s_signer_list ([22;0;0;0] ++ [18;0;0;0] ++ ([2;0;0;0; 1;2]) ++ ([0;0;0;0]) ++ ([4;0;0;0; 5;6;7;8])) = Ok r.
Proof. eexists. vm_compute. reflexivity. Qed.
(* the guards are necessary: without the fix of relic commit 8f6be83 (`4+len(blob) < size`) this input sliced out of range *)
Example prefix_overrun_is_error : unmarshal SBytes [8;0;0;0; 1;2;3;4] = Err E_EOF.
Proof. vm_compute. reflexivity. Qed.

(* a control file as dpkg-deb writes it, with a folded description, a comment, an empty line and CR LF endings *)
Definition sample_control : bytes :=
  [80;97;99;107;97;103;101;58;32;100;101;109;111;13;10] ++ [86;101;114;115;105;111;110;58;9;49;46;48;10] ++
  [35;32;99;58;32;120;10] ++ [10] ++ [65;114;99;104;105;116;101;99;116;117;114;101;58;32;97;108;108;10] ++ [32;102;111;108;100;58;32;120;10].
Example control_accepts : parse_control sample_control = Ok (mkInfo [100;101;109;111] [49;46;48] [97;108;108]).
Proof. vm_compute. reflexivity. Qed.
Example control_matches_spec : spec_simple sample_control = true /\ spec_control sample_control = Some (mkInfo [100;101;109;111] [49;46;48] [97;108;108]).
Proof. split; vm_compute; reflexivity. Qed.
Example control_odd_lines_are_skipped : parse_control (sample_control ++ [58;10;58;32;10;32;10;0;58;0]) = parse_control sample_control.
Proof. vm_compute. reflexivity. Qed.
Example control_missing_is_error : parse_control [80;97;99;107;97;103;101;58;102;111;111;10] = Err E_MISSING.
Proof. vm_compute. reflexivity. Qed.
(* "Files:" then one digest line with md5, sha1, size, name — accepted *)
Definition sample_sums : bytes := repeat 48 32 ++ [32] ++ repeat 49 40.
Definition sample_body : bytes := [86;58;32;52;10] ++ [70;105;108;101;115;58;10] ++ [9] ++ sample_sums ++ [32;52;32;97;10] ++ [10].
Example check_sig_accepts : check_sig [([97], sample_sums)] sample_body = Ok tt.
Proof. vm_compute. reflexivity. Qed.
(* Manifest-Version: 1\r\n\r\nName: a\r\n\r\n *)
Definition sample_manifest : bytes :=
  [77;97;110;105;102;101;115;116;45;86;101;114;115;105;111;110;58;32;49;13;10;13;10] ++ [78;97;109;101;58;32;97;13;10;13;10].
Example manifest_accepts : parse_manifest sample_manifest = Ok (1, false) /\ digest_manifest sample_manifest = Ok 1.
Proof. split; vm_compute; reflexivity. Qed.
Example tail_keeps_signature : tail_clear_sign ([97;10] ++ c11_cl_sig_header ++ [10;98;10]) = Ok (c11_cl_sig_header ++ [13;10;98;13;10]).
Proof. vm_compute. reflexivity. Qed.
