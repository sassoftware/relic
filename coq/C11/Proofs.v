(* C11/Proofs.v — the loops and sub-parsers of C11/Model.v cannot return Panic (no slice/index out of range, no negative or
   runaway allocation, no loop that runs out of fuel) for EVERY byte string: each is shown in the form `returns` defined
   below, and C11/Properties.v puts them together for the parsers as a whole. *)
From Relic Require Import Base.Prelude Base.Enc Base.Slice Generated.C11_gen C11.Model.
From Relic Require C17.Model Generated.C17_gen.

Lemma zlen_zdrop_ge n (l : bytes) : 0 <= n -> zlen l - n <= zlen (zdrop n l).
Proof. intros H. rewrite zlen_zdrop_gen by exact H. lia. Qed.

(* the checked primitives return normally when their guards hold *)
Lemma cslice_ok a b l : 0 <= a <= b -> b <= zlen l -> cslice a b l = Ok (zslice a b l).
Proof. intros H1 H2. unfold cslice. destruct (_ || _) eqn:E; [lia|reflexivity]. Qed.
Lemma cle_ok w off l : 0 <= off -> off + w <= zlen l -> 0 <= w -> cle w off l = Ok (le_dec (zslice off (off + w) l)).
Proof. intros H1 H2 H3. unfold cle. destruct (_ || _) eqn:E1; [lia|]. destruct (zlen l - off <? w) eqn:E2; [lia|reflexivity]. Qed.
Lemma cbe_ok w off l : 0 <= off -> off + w <= zlen l -> 0 <= w -> cbe w off l = Ok (be_dec (zslice off (off + w) l)).
Proof. intros H1 H2 H3. unfold cbe. destruct (_ || _) eqn:E1; [lia|]. destruct (zlen l - off <? w) eqn:E2; [lia|reflexivity]. Qed.
Lemma alloc_ok n k : 0 <= k -> k <= alloc_limit n -> alloc n k = Ok tt.
Proof. intros H1 H2. unfold alloc. destruct (k <? 0) eqn:E1; [lia|]. destruct (_ <? k) eqn:E2; [lia|reflexivity]. Qed.

(* The form in which every parser is shown not to panic: r is not a Panic, and the value it returns, if it returns one,
   satisfies P.  A parser is a chain of binds, guards and loops, and `returns` follows that structure: a guard that fails
   gives Err (nothing to show), a primitive behind its guard is rewritten to Ok by the lemmas above, a sub-parser is
   passed by returns_bind, which hands what is known of its value to the rest of the chain. *)
Definition returns {A} (P : A -> Prop) (r : result A) : Prop :=
  match r with Ok a => P a | Err _ => True | Panic _ => False end.
Definition any {A} (_ : A) : Prop := True.
Lemma returns_bind {A B} (P : A -> Prop) (Q : B -> Prop) r (f : A -> result B) :
  returns P r -> (forall a, P a -> returns Q (f a)) -> returns Q (bind r f).
Proof. destruct r; cbn [returns bind]; auto. Qed.
Lemma returns_rmap {A B} (P : A -> Prop) (Q : B -> Prop) (f : A -> B) r :
  returns P r -> (forall a, P a -> Q (f a)) -> returns Q (rmap f r).
Proof. destruct r; cbn [returns rmap]; auto. Qed.
Lemma returns_no_panic {A} (P : A -> Prop) r p : returns P r -> r <> Panic p.
Proof. intros H ->. exact H. Qed.
Lemma returns_ok {A} (P : A -> Prop) r a : returns P r -> r = Ok a -> P a.
Proof. intros H ->. exact H. Qed.
Lemma rmap_panic {A B} (f : A -> B) r p : rmap f r = Panic p -> r = Panic p.
Proof. destruct r; cbn; intros H; inversion H; reflexivity. Qed.

(* ================================================================== binpatch.Load *)
Definition hdrs_ok (hs : list phdr) : Prop := Forall (fun h => 0 <= ph_new h) hs.
Lemma load_headers_returns : forall n l, all_bytes l = true ->
  returns (fun r => hdrs_ok (fst r) /\ zlen (snd r) <= zlen l) (load_headers n l).
Proof.
  induction n as [|n IH]; intros l Hb; cbn [load_headers].
  - split; [constructor|cbn [snd]; lia].
  - destruct (zlen l <? c11_ph_size); [exact I|].
    eapply returns_bind; [apply IH, all_bytes_zdrop, Hb|]. intros [hs rest] [H1 H2]. cbn [returns fst snd] in *. split.
    + constructor; [|exact H1]. apply be_dec_nonneg, all_bytes_zslice, Hb.
    + pose proof (zlen_zdrop_le c11_ph_size l). lia.
Qed.
Lemma load_blobs_returns n : forall hs l, hdrs_ok hs -> zlen l <= n -> returns any (load_blobs n hs l).
Proof.
  induction hs as [|h hs IH]; intros l Hh Hl; cbn [load_blobs]; [exact I|].
  inversion Hh as [|? ? H0 Hh']; subst. pose proof (zlen_nonneg l).
  unfold c11_load_blob_exceeds. destruct (ph_new h >? zlen l) eqn:E; [exact I|].
  rewrite alloc_ok by (unfold alloc_limit; lia). cbn [bind].
  destruct (zlen l <? ph_new h); [exact I|].
  eapply returns_bind; [apply IH; [exact Hh'|]|intros; exact I].
  pose proof (zlen_zdrop_le (ph_new h) l). lia.
Qed.

(* ================================================================== csblob.parseSuper *)
Lemma super_items_returns indexes blob data_off count : zlen indexes = 8 * count ->
  forall n i, 0 <= i -> i + Z.of_nat n = count -> returns any (super_items n i indexes blob data_off).
Proof.
  intros Hlen. induction n as [|n IH]; intros i Hi Hc; cbn [super_items]; [exact I|].
  rewrite !cbe_ok by lia. cbn [bind].
  unfold c11_super_off_bad. set (offset := _ - data_off).
  destruct ((offset <? 0) || (offset >? zlen blob - 8)) eqn:E1; [exact I|].
  rewrite cbe_ok by lia. cbn [bind]. set (length := be_dec _).
  unfold c11_super_item_bad. destruct ((length <? 8) || (offset + length >? zlen blob)) eqn:E2; [exact I|].
  rewrite cbe_ok, cslice_ok by lia. cbn [bind].
  eapply returns_bind; [apply IH; lia|intros; exact I].
Qed.

(* ================================================================== signxap.removeSignature *)
(* what is kept is a prefix of the input *)
Lemma xap_remove_returns cd : all_bytes cd = true -> returns (fun n => 0 <= n <= zlen cd) (xap_remove cd).
Proof.
  intros Hb. unfold xap_remove, c11_xap_short. pose proof (zlen_nonneg cd).
  destruct (zlen cd <? 10) eqn:E0; [cbn [returns]; lia|].
  rewrite cslice_ok by lia. cbn [bind].
  set (tr := zslice (zlen cd - 10) (zlen cd) cd). set (magic := le_dec _). set (tsize := le_dec _).
  assert (Ht : 0 <= tsize) by (apply le_dec_nonneg; now apply all_bytes_zslice, all_bytes_zslice).
  unfold c11_xap_is_trailer. destruct ((magic =? c11_xap_trailer_magic) && (tsize + 10 <=? zlen cd)) eqn:E1; [|cbn [returns]; lia].
  rewrite cslice_ok by lia. cbn [bind returns]. lia.
Qed.

(* ================================================================== apk: length-prefixed structures *)
(* what an activation of unmarshalR that returns normally leaves of the blob: at least four bytes less *)
Definition consumed (blob : bytes) (x : aval * bytes) : Prop := zlen (snd x) + 4 <= zlen blob /\ all_bytes (snd x) = true.
Lemma um_items_ok rec : (forall b, all_bytes b = true -> returns (consumed b) (rec b)) ->
  forall n b, (length b < n)%nat -> all_bytes b = true -> returns any (um_items rec n b).
Proof.
  intros Hrec. induction n as [|n IH]; intros b Hn Hb; [lia|]. cbn [um_items].
  destruct (c11_um_slice_more (zlen b)); [|exact I].
  eapply returns_bind; [apply Hrec, Hb|]. intros x [Hl Hr].
  eapply returns_bind; [apply IH; [unfold zlen in Hl; lia|exact Hr]|intros; exact I].
Qed.
Lemma um_fields_ok (rec : schema -> bytes -> result (aval * bytes)) : forall fs,
  (forall f b, In f fs -> all_bytes b = true -> returns (consumed b) (rec f b)) ->
  forall b, all_bytes b = true -> returns any (um_fields rec fs b).
Proof.
  induction fs as [|f fs IH]; intros Hrec b Hb; cbn [um_fields].
  - destruct (c11_um_struct_trailing _); exact I.
  - eapply returns_bind; [apply Hrec; [left; reflexivity|exact Hb]|]. intros x [_ Hr].
    eapply returns_bind; [apply IH; [|exact Hr]|intros; exact I].
    intros f' b' Hin. apply Hrec. right. exact Hin.
Qed.
Lemma depth_in f fs : In f fs -> (depth f <= fold_right (fun f n => Nat.max (depth f) n) O fs)%nat.
Proof.
  induction fs as [|g fs IH]; intros H; [contradiction|]. cbn [fold_right]. destruct H as [->|H]; [lia|]. specialize (IH H). lia.
Qed.

(* The frame every type but uint32 starts with: a length, then that many bytes.  Whatever is done with the pieces (k), the
   remainder handed on is at least four bytes shorter than the blob. *)
Lemma um_frame {A} (Q : A -> Prop) blob (k : bytes -> bytes -> bytes -> result A) : all_bytes blob = true ->
  (forall remainder raw inner, zlen remainder + 4 <= zlen blob -> all_bytes remainder = true -> all_bytes inner = true ->
   returns Q (k remainder raw inner)) ->
  returns Q
    (if c11_um_prefix_short (zlen blob) then Err E_EOF else
     size <- cle 4 0 blob ;;
     if c11_um_size_exceeds size (zlen blob) then Err E_EOF else
     remainder <- cslice (4 + size) (zlen blob) blob ;;
     raw <- cslice 0 (4 + size) blob ;;
     inner <- cslice 4 (zlen raw) raw ;;
     k remainder raw inner).
Proof.
  intros Hb Hk. unfold c11_um_prefix_short. destruct (zlen blob <? 4) eqn:E; [exact I|].
  rewrite cle_ok by lia. cbn [bind]. set (size := le_dec _).
  assert (Hs : 0 <= size) by (apply le_dec_nonneg; now apply all_bytes_zslice).
  unfold c11_um_size_exceeds. destruct (size >? zlen blob - 4) eqn:E2; [exact I|].
  rewrite !cslice_ok by lia. cbn [bind]. rewrite cslice_ok by (rewrite zlen_zslice by lia; lia). cbn [bind].
  apply Hk; [rewrite zlen_zslice by lia; lia|now apply all_bytes_zslice|now apply all_bytes_zslice, all_bytes_zslice].
Qed.
(* fuel = depth of the type is enough for the recursion, |inner| + 1 for the loop of a slice *)
Lemma um_no_panic : forall fuel s blob, (depth s <= fuel)%nat -> all_bytes blob = true -> returns (consumed blob) (um fuel s blob).
Proof.
  induction fuel as [|k IH]; intros s blob Hd Hb; [destruct s; cbn [depth] in Hd; lia|].
  destruct s as [| | |e|fs]; cbn [um depth] in *.
  - unfold c11_um_scalar_short. destruct (zlen blob <? 4) eqn:E; [exact I|].
    rewrite cle_ok, cslice_ok by lia. cbn [bind].
    split; cbn [snd]; [rewrite zlen_zslice by lia; lia|now apply all_bytes_zslice].
  - apply um_frame; [exact Hb|]. intros remainder raw inner Hl Hr _. split; assumption.
  - apply um_frame; [exact Hb|]. intros remainder raw inner Hl Hr _. split; assumption.
  - apply um_frame; [exact Hb|]. intros remainder raw inner Hl Hr Hi.
    apply returns_rmap with (P := any); [|intros; split; assumption].
    apply um_items_ok; [|lia|exact Hi]. intros b Hb'. apply IH; [lia|exact Hb'].
  - apply um_frame; [exact Hb|]. intros remainder raw inner Hl Hr Hi.
    apply returns_rmap with (P := any); [|intros; split; assumption].
    apply um_fields_ok; [|exact Hi]. intros f b Hin Hb'. apply IH; [|exact Hb']. pose proof (depth_in f fs Hin). lia.
Qed.
Lemma unmarshal_returns s blob : all_bytes blob = true -> returns any (unmarshal s blob).
Proof.
  intros Hb. unfold unmarshal. eapply returns_bind; [apply um_no_panic; [lia|exact Hb]|].
  intros x _. destruct (negb _); exact I.
Qed.

(* ================================================================== apk: signing block and the pair loop *)
(* every pair that is passed has consumed at least twelve bytes, so |block| + 1 iterations suffice *)
Lemma pairs_returns vok : forall fuel block, (length block < fuel)%nat -> all_bytes block = true -> returns any (pairs vok fuel block).
Proof.
  induction fuel as [|k IH]; intros block Hf Hb; [lia|]. cbn [pairs].
  unfold c11_pair_more, c11_pair_short. destruct (zlen block >? 0); [|exact I].
  destruct (zlen block <? 12) eqn:E; [exact I|].
  rewrite cle_ok, cslice_ok by lia. cbn [bind].
  set (part_size := le_dec _). set (b1 := zslice 8 (zlen block) block).
  assert (Hb1 : all_bytes b1 = true) by (now apply all_bytes_zslice).
  assert (Hl1 : zlen b1 = zlen block - 8) by (unfold b1; rewrite zlen_zslice by lia; lia).
  unfold c11_pair_size_bad. destruct ((part_size <? 4) || (part_size >? zlen b1)) eqn:E2; [exact I|].
  rewrite cle_ok, !cslice_ok by lia. cbn [bind].
  set (b2 := zslice part_size (zlen b1) b1).
  assert (Hrest : returns any (pairs vok k b2)).
  { apply IH; [|now apply all_bytes_zslice].
    assert (zlen b2 = zlen b1 - part_size) by (unfold b2; rewrite zlen_zslice by lia; lia). unfold zlen in *. lia. }
  destruct (c11_pair_other _); [exact Hrest|].
  eapply returns_bind; [apply unmarshal_returns, all_bytes_zslice, Hb1|]. intros sl _.
  assert (Hv : returns any (if vok sl then r <- pairs vok k b2 ;; Ok (sl :: r) else Ok [sl])).
  { destruct (vok sl); [|exact I]. eapply returns_bind; [exact Hrest|intros; exact I]. }
  destruct sl as [| | |[|x xs]|]; try exact Hv. exact I.
Qed.
(* DirLoc lies inside the file (zipslicer.Read, relic commit 30c2462) and the gap is what ReadAt returned for [sigLoc, DirLoc) *)
Theorem apk_v2_parse_no_panic vok n sig_loc dir_loc gap p : all_bytes gap = true -> 0 <= n -> dir_loc <= n ->
  (0 <= sig_loc <= dir_loc -> zlen gap = dir_loc - sig_loc) -> apk_v2_parse vok n sig_loc dir_loc gap <> Panic p.
Proof.
  intros Hb Hn Hd Hg. apply returns_no_panic with (P := any). unfold apk_v2_parse, sig_block.
  destruct (c11_sb_unsigned _ _); [exact I|].
  unfold c11_sb_out_of_range. destruct ((sig_loc <? 0) || (sig_loc >? dir_loc)) eqn:E; [exact I|].
  specialize (Hg ltac:(lia)).
  rewrite alloc_ok by (unfold alloc_limit; lia). cbn [bind].
  destruct (negb _); [exact I|].
  unfold c11_sb_too_short. change (zlen sig_magic) with 16. destruct (zlen gap <? 8 + 8 + 16) eqn:E2; [exact I|].
  rewrite cle_ok, cslice_ok by lia. cbn [bind].
  rewrite cle_ok by (rewrite ?zlen_zslice; lia). cbn [bind].
  destruct (c11_sb_size_bad _ _ _); [exact I|].
  rewrite cslice_ok by lia. cbn [bind].
  apply pairs_returns; [lia|now apply all_bytes_zslice].
Qed.

(* ================================================================== apk: the digest comparison loop of apkSigner.Verify *)
Lemma digest_loop_ok n : forall ds i, 0 <= i -> i + zlen ds <= n -> digest_loop n i ds = Ok tt.
Proof.
  induction ds as [|d ds IH]; intros i Hi Hn; [reflexivity|]. cbn [digest_loop]. rewrite zlen_cons in Hn. pose proof (zlen_nonneg ds).
  replace ((i <? 0) || (n <=? i)) with false by lia. apply IH; lia.
Qed.

(* ================================================================== zipslicer.ReadWithDirectory (the model of C17) *)
Lemma zip_entries_returns : forall fuel cd, returns any (C17.Model.read_entries fuel cd).
Proof.
  induction fuel as [|k IH]; intros cd; cbn [C17.Model.read_entries]; [exact I|].
  destruct (C17_gen.rwd_cd_short _); [exact I|].
  destruct (C17_gen.rwd_not_cd_sig _); [exact I|].
  destruct (C17_gen.rwd_hdr_short _); [exact I|].
  destruct (C17_gen.rwd_ent_short _ _ _ _); [exact I|].
  destruct (C17_gen.rwd_missing_z64 _ _); [exact I|].
  eapply returns_bind; [apply IH|intros; exact I].
Qed.
