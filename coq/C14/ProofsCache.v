(* C14/ProofsCache.v — the timed key cache. One invariant holds the mutex and the simulation by the sequential
   specification (linearization points inside each call), a second the stamps of invocation, effect and response; each
   says per thread what that thread needs of the shared state, so that a step re-proves it for the thread that moved and
   frames it for the others. What the specification guarantees of its results then holds under every interleaving. *)
From Relic Require Import Base.Prelude Generated.C14_gen C14.Model C14.Proofs C14.ModelCache.
From Coq Require Import Sorted.

(* ---- facts read off the generated skeleton; the decisions of GetKey in closed form *)
Lemma lock_spans : cache_lock_spans_call = true. Proof. reflexivity. Qed.
Lemma err_checked : cache_err_checked = true. Proof. reflexivity. Qed.
Lemma names_ok : cache_names_ok = true. Proof. reflexivity. Qed.
Lemma used_name_eq rq : used_name rq = c_name rq. Proof. unfold used_name. rewrite names_ok. reflexivity. Qed.

Lemma want_len_0 rq : (want_len rq =? 0) = (c_pin rq =? 0).
Proof. unfold want_len. destruct (c_pin rq =? 0); reflexivity. Qed.

Lemma check_cache_spec rq c now :
  check_cache rq c now =
  match clookup (c_name rq) c with
  | Some e => if live e now && pin_ok rq (e_key e) then Hit (e_key e) else Miss
  | None => Miss
  end.
Proof.
  unfold check_cache. rewrite used_name_eq.
  destruct (clookup (c_name rq) c) as [e|].
  - unfold cache_entry_live, cache_id_acceptable, live, pin_ok. rewrite want_len_0, Z.gtb_ltb. cbn [andb].
    destruct (now <? e_exp e); cbn [andb]; [|reflexivity].
    destruct ((c_pin rq =? 0) || (c_pin rq =? k_id (e_key e))); reflexivity.
  - unfold cache_entry_live. cbn [andb]. reflexivity.
Qed.
Lemma fetch_key_spec tok rq fok :
  fetch_key tok rq fok = match (if fok then tok (c_name rq) (c_pin rq) else None) with Some k => Fetched k | None => FetchErr end.
Proof. unfold fetch_key. rewrite used_name_eq, err_checked. reflexivity. Qed.
Lemma store_cache_spec E rq k c now :
  store_cache E rq k c now = if (0 <? E) && (c_pin rq =? 0) then mkEnt (c_name rq) k (now + E) :: c else c.
Proof.
  unfold store_cache, cache_may_store, cache_store_expires. rewrite used_name_eq, want_len_0, Z.gtb_ltb. reflexivity.
Qed.
Lemma try_lock_spec lk i : try_lock lk i = match lk with None => Some (Some i) | Some _ => None end.
Proof. unfold try_lock. rewrite lock_spans. reflexivity. Qed.

(* ---- the sequential specification against the decisions *)
Lemma seq_get_hit E tok c t rq ok k : check_cache rq c t = Hit k -> seq_get E tok c t rq ok = (Some k, c).
Proof.
  rewrite check_cache_spec. unfold seq_get. destruct (clookup (c_name rq) c) as [e|]; [|discriminate].
  destruct (live e t && pin_ok rq (e_key e)); [|discriminate]. intros H; inversion H; reflexivity.
Qed.
Lemma seq_get_miss E tok c t rq ok :
  check_cache rq c t = Miss ->
  seq_get E tok c t rq ok =
  match fetch_key tok rq ok with
  | Fetched k => (Some k, store_cache E rq k c t)
  | FetchErr => (None, c)
  end.
Proof.
  rewrite check_cache_spec, fetch_key_spec. unfold seq_get. intros H.
  destruct (clookup (c_name rq) c) as [e|]; [destruct (live e t && pin_ok rq (e_key e)); [discriminate|]|];
    destruct (if ok then tok (c_name rq) (c_pin rq) else None); rewrite ?store_cache_spec; reflexivity.
Qed.
Lemma miss_mono rq c t t' : check_cache rq c t = Miss -> t <= t' -> check_cache rq c t' = Miss.
Proof.
  rewrite !check_cache_spec. destruct (clookup (c_name rq) c) as [e|]; [|reflexivity].
  unfold live. intros H Hle. destruct (pin_ok rq (e_key e)); rewrite ?andb_false_r; [|reflexivity].
  rewrite andb_true_r in *. destruct (t <? e_exp e) eqn:A; [discriminate|].
  destruct (t' <? e_exp e) eqn:B; [lia|reflexivity].
Qed.

Lemma history_add s i ok : history (add_lin s i ok) = history s ++ [mkLin (cs_step s) i (cs_now s) ok].
Proof. reflexivity. Qed.
Lemma seq_run_snoc E tok rqs ops o : seq_run E tok rqs (ops ++ [o]) = seq_op E tok rqs (seq_run E tok rqs ops) o.
Proof. unfold seq_run. rewrite fold_left_app. reflexivity. Qed.

(* ---- the invariant: the mutex, and the sequential specification run over the history so far *)
Definition finished (p : cpc) (r : option key) : Prop := p = CRet r \/ p = CDone r.
Definition pending (p : cpc) : bool := match p with CRet _ | CDone _ => false | _ => true end.
Definition fetching (p : cpc) : bool := match p with CMiss | CFetched _ => true | _ => false end.
Lemma finished_pending p r : finished p r -> pending p = false.
Proof. intros [->| ->]; reflexivity. Qed.
Lemma finished_section_or_done p r : finished p r -> p = CRet r \/ p = CDone r.
Proof. auto. Qed.

(* what a thread between the lookup and the store relies on: the lookup would still miss, and the key it holds is the
   token's *)
Definition fetch_ok (tok : tokenT) (rqs : list creq) (c : cache) (now : Z) (i : nat) (p : cpc) : Prop :=
  forall rq, nth_error rqs i = Some rq ->
    (fetching p = true -> check_cache rq c now = Miss) /\ (forall k, p = CFetched k -> tok (c_name rq) (c_pin rq) = Some k).
Lemma fetch_ok_intro tok rqs c now i p rq : nth_error rqs i = Some rq ->
  (fetching p = true -> check_cache rq c now = Miss) -> (forall k, p = CFetched k -> tok (c_name rq) (c_pin rq) = Some k) ->
  fetch_ok tok rqs c now i p.
Proof. intros Hrq A B rq' Hrq'. rewrite Hrq in Hrq'. inversion Hrq'; subst rq'. auto. Qed.
Lemma fetch_ok_idle tok rqs c now i p : fetching p = false -> fetch_ok tok rqs c now i p.
Proof. intros Hf rq _. split; [rewrite Hf; discriminate|]. intros k Hk. rewrite Hk in Hf. discriminate. Qed.
Lemma fetch_ok_later tok rqs c now now' i p : fetch_ok tok rqs c now i p -> now <= now' -> fetch_ok tok rqs c now' i p.
Proof.
  intros H Hle rq Hrq. destruct (H rq Hrq) as [Hm Hf]. split; [|exact Hf]. intros Hfe. exact (miss_mono _ _ _ _ (Hm Hfe) Hle).
Qed.

(* what thread i needs of the rest of the state: its result, once it has one, is the one the specification computes; and
   fetch_ok while it has none *)
Definition thr_ok (E : Z) (tok : tokenT) (rqs : list creq) (s : cstate) (i : nat) (t : cthr) : Prop :=
  (forall r, finished (t_pc t) r -> In (i, r) (snd (seq_run E tok rqs (history s)))) /\
  fetch_ok tok rqs (cs_cache s) (cs_now s) i (t_pc t).
Lemma thr_ok_idle E tok rqs s i t : pending (t_pc t) = true -> fetching (t_pc t) = false -> thr_ok E tok rqs s i t.
Proof.
  intros Hp Hf. split; [|apply fetch_ok_idle; exact Hf]. intros r Hr. rewrite (finished_pending _ _ Hr) in Hp. discriminate.
Qed.

Record CInv (E : Z) (tok : tokenT) (rqs : list creq) (s : cstate) : Prop := mkCInv {
  ci_len : length (cs_thr s) = length rqs;
  ci_own : forall i t, nth_error (cs_thr s) i = Some t -> in_section (t_pc t) = true -> cs_lock s = Some i;
  ci_lock : forall i, cs_lock s = Some i -> exists t, nth_error (cs_thr s) i = Some t /\ in_section (t_pc t) = true;
  ci_thr : forall i t, nth_error (cs_thr s) i = Some t -> thr_ok E tok rqs s i t;
  ci_cache : fst (seq_run E tok rqs (history s)) = cs_cache s;
  ci_lin : forall o, In o (cs_lin s) -> exists t, nth_error (cs_thr s) (l_thread o) = Some t /\ pending (t_pc t) = false;
  ci_nodup : NoDup (map l_thread (cs_lin s))
}.

Lemma cinv_init E tok rqs : CInv E tok rqs (cinit rqs).
Proof.
  assert (T : forall i t, nth_error (cs_thr (cinit rqs)) i = Some t -> t_pc t = CNew).
  { unfold cinit; cbn. intros i t H. rewrite nth_error_map in H. destruct (nth_error rqs i); cbn in H; [|discriminate].
    inversion H; reflexivity. }
  constructor; cbn.
  - apply map_length.
  - intros i t H Hs. rewrite (T _ _ H) in Hs. discriminate.
  - intros i H; discriminate.
  - intros i t H. apply thr_ok_idle; rewrite (T _ _ H); reflexivity.
  - reflexivity.
  - intros o [].
  - constructor.
Qed.

(* nobody else is inside the critical section while thread i is *)
Definition thr_at (s : cstate) (i : nat) : option cthr := nth_error (cs_thr s) i.
Lemma alone s i t j u :
  (forall j u, thr_at s j = Some u -> in_section (t_pc u) = true -> cs_lock s = Some j) ->
  thr_at s i = Some t -> in_section (t_pc t) = true -> thr_at s j = Some u -> in_section (t_pc u) = true -> j = i.
Proof. apply (owner_unique (fun t => in_section (t_pc t))). Qed.
Lemma fetching_section p : fetching p = true -> in_section p = true.
Proof. destruct p; intros H; try discriminate; reflexivity. Qed.
(* the threads named in the history have a result; a thread that has one keeps one *)
Lemma lin_update (l : list cthr) (lin : list linrec) i t t' :
  (forall o, In o lin -> exists u, nth_error l (l_thread o) = Some u /\ pending (t_pc u) = false) ->
  nth_error l i = Some t -> (pending (t_pc t) = false -> pending (t_pc t') = false) ->
  forall o, In o lin -> exists u, nth_error (update l i t') (l_thread o) = Some u /\ pending (t_pc u) = false.
Proof.
  intros Hn Ht Hp o Ho. exact (nth_error_update_ex (fun u => pending (t_pc u) = false) _ _ _ _ _ Ht Hp (Hn o Ho)).
Qed.

(* thread i moves without taking or releasing the lock and without taking effect: CNew -> CWait, CLocked -> CMiss,
   CMiss -> CFetched k *)
Lemma cinv_move E tok rqs s i t t' :
  CInv E tok rqs s -> nth_error (cs_thr s) i = Some t ->
  in_section (t_pc t') = in_section (t_pc t) -> pending (t_pc t) = true -> pending (t_pc t') = true ->
  fetch_ok tok rqs (cs_cache s) (cs_now s) i (t_pc t') ->
  CInv E tok rqs (set_thr s i t').
Proof.
  intros [Hl Ho Hk Hth Hc Hn Hd] Ht Hsec Hp Hp' Hrq.
  constructor; unfold thr_ok, set_thr, history in *; cbn [cs_thr cs_lock cs_cache cs_lin cs_now cs_step] in *; auto.
  - rewrite length_update. exact Hl.
  - intros j u H Hs. split_update i j Ht H; [rewrite Hsec in Hs|]; eauto.
  - intros j Hj. apply (nth_error_update_ex (fun u => in_section (t_pc u) = true) _ _ _ _ _ Ht); [congruence|auto].
  - intros j u H. split_update i j Ht H; [|auto]. split; [|exact Hrq].
    intros r Hf. rewrite (finished_pending _ _ Hf) in Hp'. discriminate.
  - apply (lin_update _ _ _ _ _ Hn Ht). rewrite Hp. discriminate.
Qed.

Lemma cinv_acquire E tok rqs s i t :
  CInv E tok rqs s -> nth_error (cs_thr s) i = Some t -> t_pc t = CWait -> cs_lock s = None ->
  CInv E tok rqs (mkCS (cs_now s) (Some i) (cs_cache s) (update (cs_thr s) i (with_pc t CLocked)) (cs_step s) (cs_lin s)).
Proof.
  intros [Hl Ho Hk Hth Hc Hn Hd] Ht Hpc Hlk.
  constructor; unfold history in *; cbn [cs_thr cs_lock cs_cache cs_lin cs_now cs_step] in *; auto.
  - rewrite length_update. exact Hl.
  - intros j u H Hs. split_update i j Ht H; [reflexivity|]. rewrite (Ho _ _ H Hs) in Hlk. discriminate.
  - intros j Hj. inversion Hj; subst j. eexists. rewrite (nth_error_update_eq _ _ _ _ Ht). split; reflexivity.
  - intros j u H. split_update i j Ht H; [apply thr_ok_idle; reflexivity|exact (Hth _ _ H)].
  - apply (lin_update _ _ _ _ _ Hn Ht). rewrite Hpc. discriminate.
Qed.

Lemma cinv_release E tok rqs s i t r :
  CInv E tok rqs s -> nth_error (cs_thr s) i = Some t -> t_pc t = CRet r ->
  CInv E tok rqs (mkCS (cs_now s) (unlock (cs_lock s) i) (cs_cache s)
                       (update (cs_thr s) i (mkThr (CDone r) (t_fetched t) (t_inv t) (Some (cs_step s)))) (cs_step s) (cs_lin s)).
Proof.
  intros [Hl Ho Hk Hth Hc Hn Hd] Ht Hpc.
  assert (Hs : in_section (t_pc t) = true) by (rewrite Hpc; reflexivity).
  assert (Hun : unlock (cs_lock s) i = None) by (rewrite (Ho _ _ Ht Hs); unfold unlock; rewrite Nat.eqb_refl; reflexivity).
  rewrite Hun.
  constructor; unfold history in *; cbn [cs_thr cs_lock cs_cache cs_lin cs_now cs_step] in *; auto.
  - rewrite length_update. exact Hl.
  - intros j u H Hsu. split_update i j Ht H; [discriminate|]. exfalso. apply n. symmetry. eapply (alone s i t j u); eauto.
  - intros j Hj; discriminate.
  - intros j u H. split_update i j Ht H; [|exact (Hth _ _ H)].
    split; [|apply fetch_ok_idle; reflexivity].
    intros r' [Hf|Hf]; inversion Hf; subst. apply (proj1 (Hth _ _ Ht)). left; exact Hpc.
  - apply (lin_update _ _ _ _ _ Hn Ht). reflexivity.
Qed.

(* thread i takes effect: its operation is appended to the history and its result is fixed. It holds the lock, so no
   other thread is between lookup and store: the others see only a longer list of results *)
Lemma cinv_linearize E tok rqs s i t t' rq ok res c' :
  CInv E tok rqs s -> nth_error (cs_thr s) i = Some t -> nth_error rqs i = Some rq ->
  in_section (t_pc t) = true -> pending (t_pc t) = true ->
  t_pc t' = CRet res ->
  seq_get E tok (cs_cache s) (cs_now s) rq ok = (res, c') ->
  CInv E tok rqs (add_lin (mkCS (cs_now s) (cs_lock s) c' (update (cs_thr s) i t') (cs_step s) (cs_lin s)) i ok).
Proof.
  intros [Hl Ho Hk Hth Hc Hn Hd] Ht Hrq Hs Hp Hpc Hget.
  assert (Hrun : seq_run E tok rqs (history (add_lin (mkCS (cs_now s) (cs_lock s) c' (update (cs_thr s) i t') (cs_step s) (cs_lin s)) i ok)) =
                 (c', snd (seq_run E tok rqs (history s)) ++ [(i, res)])).
  { rewrite history_add, seq_run_snoc. unfold seq_op, history in *. cbn [l_thread l_time l_ok cs_lin cs_now cs_step].
    rewrite Hrq, Hc, Hget. reflexivity. }
  constructor; unfold thr_ok; rewrite ?Hrun; cbn [add_lin cs_thr cs_lock cs_cache cs_lin cs_now cs_step fst snd]; auto.
  - rewrite length_update. exact Hl.
  - intros j u H Hu. split_update i j Ht H; eauto.
  - intros j Hj. rewrite (Ho _ _ Ht Hs) in Hj. inversion Hj; subst j.
    exists t'. rewrite (nth_error_update_eq _ _ _ _ Ht), Hpc. auto.
  - intros j u H. split_update i j Ht H.
    + rewrite Hpc. split; [|apply fetch_ok_idle; reflexivity].
      intros r [Hf|Hf]; inversion Hf; subst. apply in_or_app. right. left. reflexivity.
    + destruct (Hth j u H) as [Hr Hq]. split; [intros r Hf; apply in_or_app; left; auto|].
      intros rq' Hrq'. destruct (Hq rq' Hrq') as [_ Hf]. split; [|exact Hf].
      intros Hfe. elim n. symmetry. eapply (alone s i t j u); eauto using fetching_section.
  - intros o [<-|Ho']; cbn [l_thread].
    + exists t'. rewrite (nth_error_update_eq _ _ _ _ Ht), Hpc. split; reflexivity.
    + apply (lin_update _ _ _ _ _ Hn Ht); [rewrite Hp; discriminate|exact Ho'].
  - cbn [map l_thread]. constructor; [|exact Hd]. intros Hin. apply in_map_iff in Hin as (o & Eo & Ho').
    destruct (Hn o Ho') as (u & Hu & Hfin). rewrite Eo, Ht in Hu. inversion Hu; subst. congruence.
Qed.

Lemma cinv_tick E tok rqs s d :
  CInv E tok rqs s -> CInv E tok rqs (mkCS (cs_now s + Z.max 0 d) (cs_lock s) (cs_cache s) (cs_thr s) (S (cs_step s)) (cs_lin s)).
Proof.
  intros [Hl Ho Hk Hth Hc Hn Hd]. constructor; auto.
  intros i t H. destruct (Hth i t H) as [Hr Hq]. split; [exact Hr|]. apply (fetch_ok_later _ _ _ _ _ _ _ Hq). cbn; lia.
Qed.
Lemma cinv_bump E tok rqs s : CInv E tok rqs s -> CInv E tok rqs (bump s).
Proof. intros [Hl Ho Hk Hth Hc Hn Hd]. constructor; auto. Qed.

Lemma cinv_thread E tok rqs s i fok rq t :
  CInv E tok rqs s -> nth_error rqs i = Some rq -> nth_error (cs_thr s) i = Some t -> CInv E tok rqs (cthread E tok rq i fok t s).
Proof.
  intros HI Hrq Ht. unfold cthread.
  destruct (ci_thr _ _ _ _ HI i t Ht) as [_ Hq]. destruct (Hq rq Hrq) as [Hmiss Htok]. clear Hq.
  destruct (t_pc t) as [| | | |k|r|r] eqn:Hpc.
  - apply (cinv_move E tok rqs s i t _ HI Ht); cbn [t_pc]; rewrite ?Hpc; try reflexivity.
    apply fetch_ok_idle; reflexivity.
  - rewrite try_lock_spec. destruct (cs_lock s) eqn:Hlk; [exact HI|]. eapply cinv_acquire; eauto.
  - destruct (check_cache rq (cs_cache s) (cs_now s)) as [k|] eqn:Hck.
    + apply (cinv_linearize E tok rqs s i t _ rq true (Some k) (cs_cache s) HI Ht Hrq); rewrite ?Hpc; try reflexivity.
      apply seq_get_hit. exact Hck.
    + apply (cinv_move E tok rqs s i t _ HI Ht); cbn [with_pc t_pc]; rewrite ?Hpc; try reflexivity.
      apply (fetch_ok_intro _ _ _ _ _ _ rq Hrq); [intros _; exact Hck|intros k H; discriminate].
  - specialize (Hmiss eq_refl). rewrite fetch_key_spec.
    destruct (if fok then tok (c_name rq) (c_pin rq) else None) as [k|] eqn:Hfk.
    + apply (cinv_move E tok rqs s i t _ HI Ht); cbn [t_pc]; rewrite ?Hpc; try reflexivity.
      apply (fetch_ok_intro _ _ _ _ _ _ rq Hrq); [intros _; exact Hmiss|]. intros k' H; inversion H; subst k'.
      destruct fok; [exact Hfk|discriminate].
    + apply (cinv_linearize E tok rqs s i t _ rq false None (cs_cache s) HI Ht Hrq); rewrite ?Hpc; try reflexivity.
      rewrite (seq_get_miss _ _ _ _ _ _ Hmiss), fetch_key_spec. reflexivity.
  - specialize (Hmiss eq_refl). specialize (Htok k eq_refl).
    apply (cinv_linearize E tok rqs s i t _ rq true (Some k) _ HI Ht Hrq); rewrite ?Hpc; try reflexivity.
    rewrite (seq_get_miss _ _ _ _ _ _ Hmiss), fetch_key_spec, Htok. reflexivity.
  - eapply cinv_release; eauto.
  - exact HI.
Qed.

Lemma cinv_run E tok rqs sched : CInv E tok rqs (crun E tok rqs sched).
Proof.
  apply (fold_left_inv (CInv E tok rqs)); [|apply cinv_init]. intros s [i fok|d] HI; cbn [cstep]; [|apply cinv_tick; exact HI].
  destruct (nth_error rqs i) as [rq|] eqn:Hrq; [|apply cinv_bump; exact HI].
  destruct (nth_error (cs_thr s) i) as [t|] eqn:Ht; [|apply cinv_bump; exact HI].
  apply cinv_bump. eapply cinv_thread; eauto.
Qed.

(* ---- stamps: every call's linearization point lies between its invocation and its response.
   As far as stamps go a step of thread i is one of five kinds *)
Inductive tstep (s : cstate) (i : nat) (t : cthr) : cthr -> list linrec -> Prop :=
| TS_stutter : tstep s i t t (cs_lin s)
| TS_invoke : t_pc t = CNew -> tstep s i t (mkThr CWait (t_fetched t) (Some (cs_step s)) (t_res t)) (cs_lin s)
| TS_move p f : t_pc t <> CNew -> pending (t_pc t) = true -> p <> CNew -> pending p = true ->
                tstep s i t (mkThr p f (t_inv t) (t_res t)) (cs_lin s)
| TS_lin res f ok : t_pc t <> CNew -> pending (t_pc t) = true ->
                tstep s i t (mkThr (CRet res) f (t_inv t) (t_res t)) (mkLin (cs_step s) i (cs_now s) ok :: cs_lin s)
| TS_done r : t_pc t = CRet r -> tstep s i t (mkThr (CDone r) (t_fetched t) (t_inv t) (Some (cs_step s))) (cs_lin s).

Lemma cthread_tstep E tok rq i fok t s :
  nth_error (cs_thr s) i = Some t ->
  exists t' lins, tstep s i t t' lins /\ cs_thr (cthread E tok rq i fok t s) = update (cs_thr s) i t' /\
                  cs_lin (cthread E tok rq i fok t s) = lins /\ cs_now (cthread E tok rq i fok t s) = cs_now s /\
                  cs_step (cthread E tok rq i fok t s) = cs_step s.
Proof.
  intros Ht. unfold cthread.
  assert (Stutter : exists t' lins, tstep s i t t' lins /\ cs_thr s = update (cs_thr s) i t' /\ cs_lin s = lins /\ cs_now s = cs_now s /\ cs_step s = cs_step s).
  { exists t, (cs_lin s). rewrite update_same by exact Ht. auto using TS_stutter. }
  destruct (t_pc t) as [| | | |k|r|r] eqn:Hpc; [|destruct (try_lock (cs_lock s) i)|destruct (check_cache rq (cs_cache s) (cs_now s))|destruct (fetch_key tok rq fok)| | |];
    try exact Stutter; do 2 eexists; (split; [|cbn; split; [reflexivity|auto]]).
  - apply TS_invoke; exact Hpc.
  - apply (TS_move s i t CLocked (t_fetched t)); rewrite ?Hpc; try reflexivity; discriminate.
  - apply (TS_lin s i t (Some k) (t_fetched t) true); rewrite Hpc; try reflexivity; discriminate.
  - apply (TS_move s i t CMiss (t_fetched t)); rewrite ?Hpc; try reflexivity; discriminate.
  - apply (TS_move s i t (CFetched k) true); rewrite ?Hpc; try reflexivity; discriminate.
  - apply (TS_lin s i t None true false); rewrite Hpc; try reflexivity; discriminate.
  - apply (TS_lin s i t (Some k) (t_fetched t) true); rewrite Hpc; try reflexivity; discriminate.
  - apply (TS_done s i t r); exact Hpc.
Qed.

Definition lin_order (a b : linrec) : Prop := (l_stamp b < l_stamp a)%nat /\ l_time b <= l_time a.   (* list is newest first *)
(* the stamps of thread i: invoked in the past; no response while it has no result; and every operation of its own in the
   history took effect after its invocation and before its response *)
Definition thr_st (s : cstate) (i : nat) (t : cthr) : Prop :=
  (t_pc t = CNew -> t_inv t = None) /\
  (t_pc t <> CNew -> exists a, t_inv t = Some a /\ (a < cs_step s)%nat) /\
  (pending (t_pc t) = true -> t_res t = None) /\
  (forall o, In o (cs_lin s) -> l_thread o = i ->
     (exists a, t_inv t = Some a /\ (a < l_stamp o)%nat) /\ (forall x, t_res t = Some x -> (l_stamp o < x)%nat)).
Record SInv (s : cstate) : Prop := mkSInv {
  si_thr : forall i t, nth_error (cs_thr s) i = Some t -> thr_st s i t;
  si_lin_lt : forall o, In o (cs_lin s) -> (l_stamp o < cs_step s)%nat /\ l_time o <= cs_now s;
  si_sorted : StronglySorted lin_order (cs_lin s)
}.

Lemma sinv_init rqs : SInv (cinit rqs).
Proof.
  constructor; cbn; [|intros o []|constructor].
  unfold cinit; cbn. intros i t H. rewrite nth_error_map in H. destruct (nth_error rqs i); cbn in H; [|discriminate].
  inversion H; subst t. repeat split; cbn; try reflexivity; contradiction.
Qed.

(* a thread that does not move: time passes, and operations of other threads join the history *)
Lemma thr_st_frame s s' j u :
  thr_st s j u -> (cs_step s <= cs_step s')%nat -> (forall o, In o (cs_lin s') -> l_thread o = j -> In o (cs_lin s)) ->
  thr_st s' j u.
Proof.
  intros (A & B & C & D) Hs Hl. repeat split; auto.
  - intros Hn. destruct (B Hn) as (a & Ha & La). exists a. split; [exact Ha|lia].
  - apply D; auto.
  - apply D; auto.
Qed.

Lemma sinv_tstep s s' i t t' lins :
  SInv s -> nth_error (cs_thr s) i = Some t -> tstep s i t t' lins ->
  cs_thr s' = update (cs_thr s) i t' -> cs_lin s' = lins -> cs_now s' = cs_now s -> cs_step s' = cs_step s ->
  SInv (bump s').
Proof.
  intros [Hth C G] Ht Hts Hthr Hlin Hnow Hstep.
  assert (Sup : forall o, In o lins -> In o (cs_lin s) \/ o = mkLin (cs_step s) i (cs_now s) (l_ok o)).
  { intros o Ho. destruct Hts; auto. destruct Ho as [<-|Ho]; auto. }
  assert (Others : forall j u, j <> i -> nth_error (cs_thr s) j = Some u -> thr_st (bump s') j u).
  { intros j u Hj Hu. apply (thr_st_frame s); [auto|cbn; lia|]. cbn [bump cs_lin]. rewrite Hlin. intros o Ho Ej.
    destruct (Sup o Ho) as [Hin|E]; [exact Hin|]. rewrite E in Ej. cbn in Ej. congruence. }
  assert (Mover : thr_st (bump s') i t').
  { destruct (Hth _ _ Ht) as (A & B & R & D). unfold thr_st. cbn [bump cs_lin cs_step]. rewrite Hlin, Hstep.
    assert (B' : t_pc t <> CNew -> exists a, t_inv t = Some a /\ (a < S (cs_step s))%nat).
    { intros Hn. destruct (B Hn) as (a & Ha & La). exists a. split; [exact Ha|lia]. }
    destruct Hts as [ | Hn | p f Hn Hp Hn' Hp' | res f ok Hn Hp | r Hr ]; cbn [t_pc t_inv t_res].
    - repeat split; auto; apply D; assumption.
    - (* invoked now: nothing of its own is in the history yet *)
      assert (None' : forall o, In o (cs_lin s) -> l_thread o = i -> False).
      { intros o Ho Ei. destruct (D o Ho Ei) as [(a & Ha & _) _]. rewrite (A Hn) in Ha. discriminate. }
      repeat split; try discriminate; try (exfalso; eapply None'; eassumption).
      + intros _. exists (cs_step s). split; [reflexivity|lia].
      + intros _. apply R. rewrite Hn. reflexivity.
    - repeat split; try contradiction; auto; apply D; assumption.
    - (* takes effect now: after its invocation; it has not returned *)
      repeat split; try contradiction; try discriminate; auto.
      + destruct H as [<-|H]; [cbn [l_stamp]; destruct (B Hn) as (a & Ha & La); eauto|apply D; assumption].
      + rewrite (R Hp). discriminate.
    - (* returns now: after everything in the history *)
      assert (Hn : t_pc t <> CNew) by (rewrite Hr; discriminate).
      repeat split; try discriminate; auto.
      + apply D; assumption.
      + intros x Hx. inversion Hx; subst x. apply C. assumption. }
  constructor.
  - intros j u H. cbn [bump cs_thr] in H. rewrite Hthr in H. split_update i j Ht H; auto.
  - cbn [bump cs_lin cs_now cs_step]. rewrite Hlin, Hnow, Hstep. intros o Ho.
    destruct (Sup o Ho) as [Hin| ->]; [destruct (C o Hin); split; lia|cbn; split; lia].
  - cbn [bump cs_lin]. rewrite Hlin. destruct Hts; auto.
    constructor; [exact G|]. apply Forall_forall. intros o Ho. destruct (C o Ho). split; cbn; lia.
Qed.

Lemma sinv_idle s d : SInv s -> SInv (mkCS (cs_now s + Z.max 0 d) (cs_lock s) (cs_cache s) (cs_thr s) (S (cs_step s)) (cs_lin s)).
Proof.
  intros [Hth C G]. constructor; cbn [cs_thr cs_lin cs_now cs_step]; auto.
  - intros i t H. apply (thr_st_frame s); [auto|cbn; lia|auto].
  - intros o Ho. destruct (C o Ho). split; lia.
Qed.
Lemma sinv_bump s : SInv s -> SInv (bump s).
Proof.
  intros H. pose proof (sinv_idle s 0 H) as K. replace (cs_now s + Z.max 0 0) with (cs_now s) in K by lia. exact K.
Qed.

Lemma sinv_run E tok rqs sched : SInv (crun E tok rqs sched).
Proof.
  apply (fold_left_inv SInv); [|apply sinv_init]. intros s [i fok|d] HS; cbn [cstep]; [|apply sinv_idle; exact HS].
  destruct (nth_error rqs i) as [rq|] eqn:Hrq; [destruct (nth_error (cs_thr s) i) as [t|] eqn:Ht|]; try (apply sinv_bump; exact HS).
  destruct (cthread_tstep E tok rq i fok t s Ht) as (t' & lins & Hts & E1 & E2 & E3 & E4). eapply sinv_tstep; eauto.
Qed.

(* ---- sorted lists *)
Lemma ssorted_snoc {A} (R : A -> A -> Prop) l a : StronglySorted R l -> Forall (fun x => R x a) l -> StronglySorted R (l ++ [a]).
Proof.
  induction l as [|x l IH]; cbn; intros Hs Hf.
  - constructor; constructor.
  - inversion Hs; inversion Hf; subst. constructor; [auto|]. apply Forall_app. split; [assumption|constructor; [assumption|constructor]].
Qed.
Lemma ssorted_rev {A} (R : A -> A -> Prop) l : StronglySorted R l -> StronglySorted (fun a b => R b a) (rev l).
Proof.
  induction l as [|x l IH]; cbn; intros Hs; [constructor|].
  inversion Hs; subst. apply ssorted_snoc; [auto|]. apply Forall_forall. intros y Hy. apply in_rev in Hy.
  eapply Forall_forall in H2; eauto.
Qed.
Lemma ssorted_before {A} (R : A -> A -> Prop) l1 a l2 : StronglySorted R (l1 ++ a :: l2) -> forall b, In b l1 -> R b a.
Proof.
  induction l1 as [|x l1 IH]; cbn; intros Hs b Hb; [contradiction|].
  inversion Hs; subst. destruct Hb as [->|Hb]; [|eauto].
  eapply Forall_forall in H2; [exact H2|]. apply in_or_app. right. left. reflexivity.
Qed.

Definition hist_order (a b : linrec) : Prop := (l_stamp a < l_stamp b)%nat /\ l_time a <= l_time b.

(* every completed call appears in the sequential history exactly once, with the result it returned; the cache the
   concurrent run ends with is the cache of the sequential run; each call took effect after its invocation and before
   its response; the sequential order is the order of effect, with a non-decreasing clock *)
Lemma cache_linearizable : forall E tok rqs sched,
  let s := crun E tok rqs sched in
  fst (seq_run E tok rqs (history s)) = cs_cache s /\
  (forall i t r, nth_error (cs_thr s) i = Some t -> cresult t = Some r -> In (i, r) (snd (seq_run E tok rqs (history s)))) /\
  NoDup (map l_thread (history s)) /\
  (forall o, In o (history s) -> exists t a,
       nth_error (cs_thr s) (l_thread o) = Some t /\ t_inv t = Some a /\ (a < l_stamp o)%nat /\
       (forall x, t_res t = Some x -> (l_stamp o < x)%nat)) /\
  StronglySorted hist_order (history s).
Proof.
  intros E tok rqs sched s. pose proof (cinv_run E tok rqs sched) as HI. pose proof (sinv_run E tok rqs sched) as HS.
  fold s in HI, HS. repeat split.
  - apply (ci_cache _ _ _ _ HI).
  - intros i t r Ht Hr. apply (proj1 (ci_thr _ _ _ _ HI i t Ht)). unfold cresult in Hr. destruct (t_pc t); try discriminate.
    inversion Hr; subst. right; reflexivity.
  - unfold history. rewrite map_rev. apply NoDup_rev. apply (ci_nodup _ _ _ _ HI).
  - intros o Ho. unfold history in Ho. apply in_rev in Ho. destruct (ci_lin _ _ _ _ HI o Ho) as (t & Ht & _).
    destruct (si_thr _ HS _ _ Ht) as (_ & _ & _ & D). destruct (D o Ho eq_refl) as [(a & Ha & La) Hx]. exists t, a. auto.
  - unfold history. apply (ssorted_rev lin_order). apply (si_sorted _ HS).
Qed.

(* ---- safety: what the sequential specification guarantees of its results holds of every result the concurrent cache
   hands out *)
Lemma seq_get_cases E tok c t rq ok res c' : seq_get E tok c t rq ok = (res, c') ->
  (exists e, clookup (c_name rq) c = Some e /\ pin_ok rq (e_key e) = true /\ res = Some (e_key e) /\ c' = c) \/
  (res = None /\ c' = c) \/
  (exists k, tok (c_name rq) (c_pin rq) = Some k /\ res = Some k /\
             c' = if (0 <? E) && (c_pin rq =? 0) then mkEnt (c_name rq) k (t + E) :: c else c).
Proof.
  unfold seq_get. set (fetch := match (if ok then tok (c_name rq) (c_pin rq) else None) with None => _ | Some k => _ end).
  assert (F : fetch = (res, c') -> (res = None /\ c' = c) \/
            (exists k, tok (c_name rq) (c_pin rq) = Some k /\ res = Some k /\
                       c' = if (0 <? E) && (c_pin rq =? 0) then mkEnt (c_name rq) k (t + E) :: c else c)).
  { unfold fetch. destruct ok; [destruct (tok (c_name rq) (c_pin rq)) as [k|]|]; intros H; inversion H; eauto. }
  destruct (clookup (c_name rq) c) as [e|]; [destruct (live e t && pin_ok rq (e_key e)) eqn:Hl|]; auto.
  intros H; inversion H; subst. left. exists e. apply andb_true_iff in Hl. tauto.
Qed.

Lemma seq_run_results E tok rqs (I : cache -> Prop) (P : creq -> key -> Prop) :
  I [] ->
  (forall c t rq ok res c', I c -> seq_get E tok c t rq ok = (res, c') -> I c' /\ forall k, res = Some k -> P rq k) ->
  forall ops, I (fst (seq_run E tok rqs ops)) /\
    forall i k, In (i, Some k) (snd (seq_run E tok rqs ops)) -> exists rq, nth_error rqs i = Some rq /\ P rq k.
Proof.
  intros H0 Hget. induction ops as [|o ops [I1 I2]] using rev_ind.
  - split; [exact H0|intros i k []].
  - rewrite seq_run_snoc. unfold seq_op.
    destruct (nth_error rqs (l_thread o)) as [rq|] eqn:Hrq; [|split; assumption].
    destruct (seq_get E tok (fst (seq_run E tok rqs ops)) (l_time o) rq (l_ok o)) as [res c'] eqn:Hg.
    destruct (Hget _ _ _ _ _ _ I1 Hg) as [J1 J2]. cbn [fst snd]. split; [exact J1|].
    intros i k Hin. apply in_app_or in Hin. destruct Hin as [Hin|[Hin|[]]]; [eauto|].
    inversion Hin; subst. eauto.
Qed.
Lemma crun_results E tok rqs sched (I : cache -> Prop) (P : creq -> key -> Prop) :
  I [] ->
  (forall c t rq ok res c', I c -> seq_get E tok c t rq ok = (res, c') -> I c' /\ forall k, res = Some k -> P rq k) ->
  forall i t rq k, nth_error (cs_thr (crun E tok rqs sched)) i = Some t -> nth_error rqs i = Some rq ->
  cresult t = Some (Some k) -> P rq k.
Proof.
  intros H0 Hget i t rq k Ht Hrq Hr. destruct (cache_linearizable E tok rqs sched) as (_ & Hres & _).
  destruct (seq_run_results E tok rqs I P H0 Hget (history (crun E tok rqs sched))) as [_ H2].
  destruct (H2 i k (Hres i t (Some k) Ht Hr)) as (rq' & E1 & E2). congruence.
Qed.

Definition entries_owned (c : cache) : Prop := forall e, In e c -> k_name (e_key e) = e_name e.
Lemma clookup_in n c e : clookup n c = Some e -> In e c /\ e_name e = n.
Proof.
  induction c as [|x c IH]; cbn; [discriminate|]. destruct (e_name x =? n) eqn:En.
  - intros H; inversion H; subst. split; [left; reflexivity|apply Z.eqb_eq; exact En].
  - intros H. destruct (IH H). auto.
Qed.
Lemma seq_get_owned E tok c t rq ok res c' :
  tok_owner tok -> entries_owned c -> seq_get E tok c t rq ok = (res, c') ->
  entries_owned c' /\ (forall k, res = Some k -> k_name k = c_name rq).
Proof.
  intros Ho Hc H. destruct (seq_get_cases _ _ _ _ _ _ _ _ H) as [(e & El & _ & -> & ->)|[[-> ->]|(k & Ek & -> & ->)]].
  - split; [exact Hc|]. intros k Hk; inversion Hk; subst. destruct (clookup_in _ _ _ El) as [Hin Hn]. rewrite (Hc e Hin). exact Hn.
  - split; [exact Hc|discriminate].
  - pose proof (Ho _ _ _ Ek) as Hk. split; [|intros k' Hk'; inversion Hk'; subst; exact Hk].
    destruct ((0 <? E) && (c_pin rq =? 0)); [|exact Hc]. intros e [<-|He]; [exact Hk|auto].
Qed.
(* a pinned request (a key id in the context) is answered with that id *)
Lemma seq_get_pinned E tok c t rq ok res c' :
  tok_pin tok -> seq_get E tok c t rq ok = (res, c') -> forall k, res = Some k -> c_pin rq <> 0 -> k_id k = c_pin rq.
Proof.
  intros Hp H k Hk Hn. destruct (seq_get_cases _ _ _ _ _ _ _ _ H) as [(e & _ & Hpin & -> & _)|[[-> _]|(k' & Ek & -> & _)]];
    inversion Hk; subst; [|eapply Hp; eauto].
  unfold pin_ok in Hpin. apply orb_true_iff in Hpin as [Hz|He]; [apply Z.eqb_eq in Hz; contradiction|apply Z.eqb_eq in He; auto].
Qed.
Lemma cache_pinned_id : forall E tok rqs sched i t rq k,
  tok_pin tok ->
  nth_error (cs_thr (crun E tok rqs sched)) i = Some t -> nth_error rqs i = Some rq -> c_pin rq <> 0 ->
  cresult t = Some (Some k) -> k_id k = c_pin rq.
Proof.
  intros E tok rqs sched i t rq k Hp Ht Hrq Hn Hr.
  apply (crun_results E tok rqs sched (fun _ => True) (fun rq k => c_pin rq <> 0 -> k_id k = c_pin rq) I) with (i := i) (t := t); auto.
  intros c u rq' ok res c' _ Hg. split; [exact I|]. intros k' Hk'. exact (seq_get_pinned _ _ _ _ _ _ _ _ Hp Hg k' Hk').
Qed.

(* ---- entries never outlive the configured expiry; with expiry <= 0 nothing is ever cached *)
Definition exp_bounded (E : Z) (s : cstate) : Prop :=
  (forall e, In e (cs_cache s) -> e_exp e <= cs_now s + E) /\ (E <= 0 -> cs_cache s = []).
Lemma exp_thread E tok rq i fok t s : exp_bounded E s -> exp_bounded E (cthread E tok rq i fok t s).
Proof.
  intros [H1 H2]. unfold cthread.
  destruct (t_pc t); try (split; assumption).
  - destruct (try_lock (cs_lock s) i); split; assumption.
  - destruct (check_cache rq (cs_cache s) (cs_now s)); split; assumption.
  - destruct (fetch_key tok rq fok); split; assumption.
  - unfold exp_bounded, add_lin; cbn [cs_cache cs_now]. rewrite store_cache_spec.
    destruct (0 <? E) eqn:EE; cbn [andb]; [|split; assumption].
    destruct (c_pin rq =? 0); [|split; assumption]. split; [|lia].
    intros e [<-|He]; [cbn; lia|auto].
Qed.

(* ---- absence of deadlock: a thread that is not blocked on the lock moves *)
Lemma cthread_moves E tok rq i fok t s :
  nth_error (cs_thr s) i = Some t -> (forall r, t_pc t <> CDone r) -> (t_pc t = CWait -> cs_lock s = None) ->
  exists t', nth_error (cs_thr (cthread E tok rq i fok t s)) i = Some t' /\ t_pc t' <> t_pc t.
Proof.
  intros Ht Hnd Hw. unfold cthread.
  destruct (t_pc t) as [| | | |k|r|r] eqn:Hpc;
    [|rewrite try_lock_spec, (Hw eq_refl)|destruct (check_cache rq (cs_cache s) (cs_now s))|destruct (fetch_key tok rq fok)| | |exfalso; eapply Hnd; reflexivity];
    eexists; cbn; rewrite (nth_error_update_eq _ _ _ _ Ht); (split; [reflexivity|cbn; discriminate]).
Qed.
