(* C14/ProofsInit.v — the invariant of the lazily created timestamper: the lock names the one caller inside, the stored
   value is the one successful construction, and a caller that was handed a timestamper was handed the stored one. *)
From Relic Require Import Base.Prelude Generated.C14_gen C14.Model C14.Proofs C14.ModelInit.

Lemma ts_flags : ts_lock_spans_call && ts_table_ok = true. Proof. reflexivity. Qed.

Definition tfin (p : tpc) (a : Z) : Prop := p = TRet (Some a) \/ p = TDone (Some a).
Record TInv (s : tstate) : Prop := mkTInv {
  ti_own : forall i p, nth_error (ts_thr s) i = Some p -> tsec p = true -> ts_lock s = Some i;
  ti_val : (ts_val s = None /\ ts_made s = []) \/ (exists v, ts_val s = Some v /\ ts_made s = [v]);
  ti_creating : forall i, nth_error (ts_thr s) i = Some TCreating -> ts_val s = None;
  ti_res : forall i p a, nth_error (ts_thr s) i = Some p -> tfin p a -> ts_val s = Some a
}.

Lemma tinv_init n : TInv (tinit n).
Proof.
  assert (T : forall i p, nth_error (repeat TNew n) i = Some p -> p = TNew) by (intros i p H; apply nth_error_In, repeat_spec in H; exact H).
  constructor; cbn [tinit ts_thr ts_lock ts_val ts_made].
  - intros i p H Hs. rewrite (T _ _ H) in Hs. discriminate.
  - left; auto.
  - intros i H. apply T in H. discriminate.
  - intros i p a H [Hf|Hf]; rewrite (T _ _ H) in Hf; discriminate.
Qed.

Lemma tinv_thread i ok p s : TInv s -> nth_error (ts_thr s) i = Some p -> TInv (tthread i ok p s).
Proof.
  intros HI Hp. pose proof HI as [Ho Hv Hc Hr]. unfold tthread. rewrite ts_flags.
  assert (Alone : forall j q, tsec p = true -> nth_error (ts_thr s) j = Some q -> tsec q = true -> j = i).
  { intros j q Hs Hq Hsq. exact (owner_unique tsec _ _ i p j q Ho Hp Hs Hq Hsq). }
  destruct p as [| | |r|r].
  - destruct (ts_lock s) eqn:Hl; [exact HI|].
    constructor; cbn [ts_thr ts_lock ts_val ts_made]; auto.
    + intros j q H Hs. split_update i j Hp H; [reflexivity|]. discriminate (Ho _ _ H Hs).
    + intros j H. split_update i j Hp H; eauto.
    + intros j q a H Hf. split_update i j Hp H; [destruct Hf; discriminate|eauto].
  - unfold ts_needs_init. destruct (ts_val s) as [v|] eqn:Ev.
    + constructor; cbn [ts_thr ts_lock ts_val ts_made]; auto.
      * intros j q H Hs. split_update i j Hp H; [apply (Ho _ _ Hp); reflexivity|eauto].
      * intros j H. split_update i j Hp H; eauto.
      * intros j q a H Hf. split_update i j Hp H; [destruct Hf as [Hf|Hf]; inversion Hf; reflexivity|eauto].
    + constructor; cbn [ts_thr ts_lock ts_val ts_made]; auto.
      * intros j q H Hs. split_update i j Hp H; [apply (Ho _ _ Hp); reflexivity|eauto].
      * intros j q a H Hf. split_update i j Hp H; [destruct Hf; discriminate|eauto].
  - pose proof (Hc _ Hp) as Hn. destruct Hv as [[_ Hm]|(v & Ev & _)]; [|congruence].
    destruct ok.
    + unfold ts_assigns_global, ts_returns_global. constructor; cbn [ts_thr ts_lock ts_val ts_made].
      * intros j q H Hs. split_update i j Hp H; [apply (Ho _ _ Hp); reflexivity|eauto].
      * right. exists (ts_next s). rewrite Hm. auto.
      * intros j H. split_update i j Hp H. exfalso. apply n. symmetry. eapply Alone; eauto.
      * intros j q a H Hf. split_update i j Hp H.
        -- destruct Hf as [Hf|Hf]; inversion Hf; reflexivity.
        -- rewrite (Hr _ _ _ H Hf) in Hn. discriminate.
    + unfold ts_assigns_global. constructor; cbn [ts_thr ts_lock ts_val ts_made].
      * intros j q H Hs. split_update i j Hp H; [apply (Ho _ _ Hp); reflexivity|eauto].
      * left; auto.
      * intros j H. reflexivity.
      * intros j q a H Hf. split_update i j Hp H; [destruct Hf; discriminate|]. rewrite (Hr _ _ _ H Hf) in Hn. discriminate.
  - assert (Hl : ts_lock s = Some i) by (apply (Ho _ _ Hp); reflexivity). rewrite Hl, Nat.eqb_refl.
    constructor; cbn [ts_thr ts_lock ts_val ts_made]; auto.
    + intros j q H Hs. split_update i j Hp H; [discriminate|]. exfalso. apply n. symmetry. eapply Alone; eauto.
    + intros j H. split_update i j Hp H; eauto.
    + intros j q a H Hf. split_update i j Hp H; [|eauto]. apply (Hr _ _ a Hp). destruct Hf as [Hf|Hf]; inversion Hf; left; reflexivity.
  - exact HI.
Qed.
Lemma tinv_run n sched : TInv (trun n sched).
Proof.
  apply (fold_left_inv TInv); [|apply tinv_init]. intros s [i ok] H. cbn [tstep].
  destruct (nth_error (ts_thr s) i) as [p|] eqn:Hp; [apply tinv_thread; assumption|exact H].
Qed.

Lemma ts_wrapper_per_request : ts_wrapper_copies = true.
Proof. reflexivity. Qed.
