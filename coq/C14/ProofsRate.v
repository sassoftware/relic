(* C14/ProofsRate.v — the rate limiter: closed form of one reservation; a history of calls characterised by its first
   admitted event, from which the bound on the tokens left behind along a chain of admitted events (the core of the
   window bound) and the state after a prefix follow by induction on the events. *)
From Relic Require Import Base.Prelude Base.Lists Generated.C14_gen C14.ModelRate.

Definition cap (L : limiter) : Z := lm_burst L * lm_unit L.
Definition same_params (L L' : limiter) : Prop := lm_rate L' = lm_rate L /\ lm_unit L' = lm_unit L /\ lm_burst L' = lm_burst L.

Lemma advance_spec L t : wf L ->
  advance L t = Z.min (cap L) (lm_tokens L + lm_rate L * Z.max 0 (t - lm_last L)).
Proof.
  intros (Hr & Hu & Hb & Ht). unfold advance, rate_clamp, rate_nonpositive, rate_over_burst, cap.
  assert (E0 : (lm_rate L <=? 0) = false) by lia. rewrite E0.
  destruct (t <? lm_last L) eqn:Ec.
  - replace (t - t) with 0 by lia. replace (Z.max 0 (t - lm_last L)) with 0 by lia.
    rewrite Z.mul_0_l, Z.mul_0_r. destruct (lm_tokens L + 0 >? lm_burst L * lm_unit L) eqn:Eo; lia.
  - replace (Z.max 0 (t - lm_last L)) with (t - lm_last L) by lia. rewrite (Z.mul_comm (t - lm_last L)).
    destruct (lm_tokens L + lm_rate L * (t - lm_last L) >? lm_burst L * lm_unit L) eqn:Eo; lia.
Qed.

Definition wait_of (L : limiter) (tk2 : Z) : Z := if tk2 <? 0 then Z.quot (- tk2) (lm_rate L) else 0.
Lemma reserve_spec L t mw : wf L ->
  reserve L t mw =
  let tk2 := advance L t - lm_unit L in
  if wait_of L tk2 <=? mw then (mkLm (lm_rate L) (lm_unit L) (lm_burst L) tk2 t, mkRes true (t + wait_of L tk2))
  else (L, mkRes false 0).
Proof.
  intros (Hr & Hu & Hb & Ht). unfold reserve, rate_deducts_n, rate_needs_wait, dur_from_tokens, rate_nonpositive, rate_ok,
    rate_wait_is_one, rate_sets_tokens, rate_sets_last, rate_time_to_act, wait_of.
  assert (E0 : (lm_rate L <=? 0) = false) by lia. rewrite E0.
  assert (E1 : (1 <=? lm_burst L) = true) by lia. rewrite E1. cbn [andb]. reflexivity.
Qed.

(* a call that read the clock at t and left tok token-units behind acts at t plus the wait that pays the debt - tok,
   a quotient by the rate truncated to whole time units *)
Definition acts_at (rate t act tok : Z) : Prop :=
  t <= act /\ rate * act <= rate * t + Z.max 0 (- tok) /\ rate * t - tok - (rate - 1) <= rate * act.

Lemma wait_bounds L tk2 : 1 <= lm_rate L ->
  0 <= wait_of L tk2 /\ lm_rate L * wait_of L tk2 <= Z.max 0 (- tk2) /\ - tk2 - (lm_rate L - 1) <= lm_rate L * wait_of L tk2.
Proof.
  intros Hr. unfold wait_of. destruct (tk2 <? 0) eqn:En; [|lia].
  rewrite Z.quot_div_nonneg by lia.
  pose proof (Z.div_mod (- tk2) (lm_rate L) ltac:(lia)) as D.
  pose proof (Z.mod_pos_bound (- tk2) (lm_rate L) ltac:(lia)) as M.
  pose proof (Z.div_pos (- tk2) (lm_rate L) ltac:(lia) ltac:(lia)) as P.
  set (q := - tk2 / lm_rate L) in *. set (m := (- tk2) mod lm_rate L) in *.
  repeat split; lia.
Qed.

Lemma reserve_admitted L t mw L' res : wf L -> reserve L t mw = (L', res) -> r_ok res = true ->
  wf L' /\ same_params L L' /\ lm_last L' = t /\
  lm_tokens L' = Z.min (cap L) (lm_tokens L + lm_rate L * Z.max 0 (t - lm_last L)) - lm_unit L /\
  acts_at (lm_rate L) t (r_act res) (lm_tokens L').
Proof.
  intros W. pose proof W as (Hr & Hu & Hb & Ht). rewrite (reserve_spec L t mw W). cbn zeta.
  rewrite (advance_spec L t W).
  set (tk2 := Z.min (cap L) (lm_tokens L + lm_rate L * Z.max 0 (t - lm_last L)) - lm_unit L).
  destruct (wait_of L tk2 <=? mw); intros H Hok; inversion H; subst; cbn in Hok; [|discriminate]. clear H Hok.
  destruct (wait_bounds L tk2 Hr) as (W0 & W1 & W2).
  cbn [lm_rate lm_unit lm_burst lm_tokens lm_last r_act].
  assert (tk2 <= cap L - lm_unit L) by (unfold tk2; lia).
  unfold wf, same_params, acts_at, cap in *. cbn [lm_rate lm_unit lm_burst lm_tokens lm_last].
  rewrite Z.mul_add_distr_l. repeat split; try lia.
Qed.
Lemma reserve_rejected L t mw L' res : wf L -> reserve L t mw = (L', res) -> r_ok res = false -> L' = L.
Proof.
  intros W. rewrite (reserve_spec L t mw W). cbn zeta.
  destruct (wait_of L (advance L t - lm_unit L) <=? mw); intros H Hok; inversion H; subst; [discriminate|reflexivity].
Qed.

(* ---- chains of admitted reservations *)
Lemma up_down ts a : up_path (a :: ts) = (last ts a - a) + down_path (a :: ts).
Proof.
  revert a; induction ts as [|b ts IH]; intros a; [cbn; lia|].
  change (up_path (a :: b :: ts)) with (Z.max 0 (b - a) + up_path (b :: ts)).
  change (down_path (a :: b :: ts)) with (Z.max 0 (a - b) + down_path (b :: ts)).
  rewrite IH. rewrite (last_cons b ts a). lia.
Qed.

(* the first admitted event of a history: rejected calls before it leave the limiter as it was *)
Lemma run_first : forall calls L e rest, wf L -> run L calls = e :: rest ->
  exists L' calls', wf L' /\ same_params L L' /\ lm_tokens L' = ev_tok e /\ lm_last L' = ev_t e /\ run L' calls' = rest /\
    ev_tok e = Z.min (cap L) (lm_tokens L + lm_rate L * Z.max 0 (ev_t e - lm_last L)) - lm_unit L /\
    acts_at (lm_rate L) (ev_t e) (ev_act e) (ev_tok e).
Proof.
  induction calls as [|[t mw] r IH]; intros L e rest W H; cbn [run] in H; [discriminate|].
  destruct (reserve L t mw) as [L' res] eqn:Er. destruct (r_ok res) eqn:Eo.
  - destruct (reserve_admitted L t mw L' res W Er Eo) as (W' & P & Hl & Ht & A).
    injection H as <- Hrest. exists L', r. cbn [ev_tok ev_t ev_act]. rewrite <- Ht. auto 10.
  - rewrite (reserve_rejected L t mw L' res W Er Eo) in H. eauto.
Qed.

Lemma chain : forall calls L, wf L -> forall mid ej post, run L calls = mid ++ ej :: post ->
  ev_tok ej <= lm_tokens L + lm_rate L * up_path (lm_last L :: map ev_t mid ++ [ev_t ej]) - lm_unit L * (zlen mid + 1).
Proof.
  intros calls L W mid. revert calls L W. induction mid as [|e mid IH]; intros calls L W ej post H; cbn [app] in H;
    destruct (run_first calls L _ _ W H) as (L' & calls' & W' & (P1 & P2 & P3) & Tk & Tl & Hrest & Ht & _).
  - cbn [map app]. change (zlen (@nil ev)) with 0.
    change (up_path [lm_last L; ev_t ej]) with (Z.max 0 (ev_t ej - lm_last L) + 0). lia.
  - specialize (IH calls' L' W' ej post Hrest). rewrite P1, P2, Tk, Tl in IH.
    cbn [map app]. change (up_path (lm_last L :: ev_t e :: map ev_t mid ++ [ev_t ej]))
      with (Z.max 0 (ev_t e - lm_last L) + up_path (ev_t e :: map ev_t mid ++ [ev_t ej])).
    rewrite zlen_cons, Z.mul_add_distr_l. lia.
Qed.

(* the state reached after an admitted event, the calls still to come, and what is known about the event *)
Lemma run_split : forall pre calls L, wf L -> forall e rest, run L calls = pre ++ e :: rest ->
  exists L' calls', wf L' /\ same_params L L' /\ lm_tokens L' = ev_tok e /\ lm_last L' = ev_t e /\ run L' calls' = rest /\
    ev_tok e <= cap L - lm_unit L /\ acts_at (lm_rate L) (ev_t e) (ev_act e) (ev_tok e).
Proof.
  induction pre as [|e0 pre IH]; intros calls L W e rest H; cbn [app] in H;
    destruct (run_first calls L _ _ W H) as (L' & calls' & W' & (P1 & P2 & P3) & Tk & Tl & Hrest & Ht & A).
  - assert (B : ev_tok e <= cap L - lm_unit L) by (unfold cap in *; lia).
    exists L', calls'. unfold same_params. auto 10.
  - destruct (IH calls' L' W' e rest Hrest) as (L2 & c2 & W2 & (Q1 & Q2 & Q3) & R).
    unfold cap in *. rewrite P1, P2, P3 in R.
    exists L2, c2. split; [exact W2|]. split; [unfold same_params; repeat split; congruence|exact R].
Qed.

(* clock readings that reach the limiter in order: nothing is credited twice *)
Fixpoint nondecreasing (ts : list Z) : Prop :=
  match ts with a :: ((b :: _) as r) => a <= b /\ nondecreasing r | _ => True end.
Lemma down_path_sorted ts : nondecreasing ts -> down_path ts = 0.
Proof.
  induction ts as [|a ts IH]; [reflexivity|]. destruct ts as [|b r]; [reflexivity|].
  intros [H1 H2]. change (down_path (a :: b :: r)) with (Z.max 0 (a - b) + down_path (b :: r)). rewrite (IH H2). lia.
Qed.

Lemma window_from_sound rate unit burst slack a0 : forall rest n,
  window_from rate unit burst slack a0 n rest = true ->
  forall mid a post, rest = mid ++ a :: post -> unit * (n + zlen mid + 1) <= unit * burst + rate * (a - a0) + slack.
Proof.
  induction rest as [|x rest IH]; intros n H mid a post E; [destruct mid; discriminate|].
  cbn [window_from] in H. apply andb_true_iff in H as [H1 H2].
  destruct mid as [|m mid]; cbn [app] in E; inversion E; subst.
  - change (zlen (@nil Z)) with 0. lia.
  - rewrite zlen_cons. specialize (IH (n + 1) H2 mid a post eq_refl). replace (n + (1 + zlen mid) + 1) with (n + 1 + zlen mid + 1) by lia. exact IH.
Qed.

(* ---- histories in two parts: the interleaving machine extends its history one reservation at a time *)
Lemma run_app : forall c1 L c2, run L (c1 ++ c2) = run L c1 ++ run (state_after L c1) c2.
Proof.
  induction c1 as [|[t mw] r IH]; intros L c2; cbn [app run state_after]; [reflexivity|].
  destruct (reserve L t mw) as [L' res]. cbn [fst]. destruct (r_ok res); rewrite IH; reflexivity.
Qed.
Lemma state_after_app : forall c1 L c2, state_after L (c1 ++ c2) = state_after (state_after L c1) c2.
Proof. induction c1 as [|[t mw] r IH]; intros L c2; cbn [app state_after]; auto. Qed.

Lemma rupdate_eq l i x p : nth_error l i = Some p -> nth_error (rupdate l i x) i = Some x.
Proof. revert i; induction l as [|y l IH]; intros [|i]; cbn; intros H; try discriminate; auto. Qed.

