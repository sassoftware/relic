(* C14/Properties.v — the property theorems of the unit. The invariants and general lemmas they are read off are in the
   Proofs files, one per state machine. *)
From Relic Require Import Base.Prelude Generated.C14_gen C14.Model C14.Proofs.
From Relic Require C14.ModelCache C14.ProofsCache C14.ModelRate C14.ProofsRate C14.ModelShut C14.ProofsShut C14.ModelInit C14.ProofsInit C14.ModelProc C14.ProofsProc.
From Coq Require Import Permutation Sorted.

(* every request that completes receives exactly what it would receive alone: signature over ITS body with ITS key
   (the key its name denotes) and ITS options — for every number of requests and every interleaving *)
Theorem isolation : forall tok rqs sched i rq s,
  nth_error rqs i = Some rq ->
  option_map response (nth_error (fst (run tok rqs sched)) i) = Some (Some s) ->
  s = isolated tok rq.
Proof. exact C14.Proofs.isolation. Qed.

(* the shared key cache only ever holds the token's key for a name *)
Theorem cache_consistent : forall tok rqs sched n k,
  cache_lookup n (sh_cache (snd (run tok rqs sched))) = Some k -> k = tok n.
Proof. intros tok rqs sched. exact (inv_cache _ _ _ (inv_run tok rqs sched)). Qed.

(* no audit record is lost or mixed up: when every request has completed, the log is a permutation of one correct
   record per request *)
Theorem no_lost_audit : forall tok rqs sched,
  Forall (fun p => exists s, p = PDone s) (fst (run tok rqs sched)) ->
  Permutation (sh_log (snd (run tok rqs sched)))
              (map (fun rq => mkRec (q_name rq) (tok (q_name rq)) (q_body rq)) rqs).
Proof. exact C14.Proofs.no_lost_audit. Qed.

(* no deadlock in the model: an unfinished request can always take a step that advances it *)
Theorem progress : forall tok rqs s i rq p,
  nth_error rqs i = Some rq -> nth_error (fst s) i = Some p -> (forall sg, p <> PDone sg) ->
  nth_error (fst (sys_step tok rqs s i)) i <> Some p.
Proof. exact C14.Proofs.progress. Qed.

(* Close runs its body exactly once however many callers race for it *)
Theorem closeonce_once : forall callers, (1 <= callers)%nat -> close_calls callers false 0 = (true, 1%nat).
Proof. exact C14.Proofs.closeonce_once. Qed.

(* locks are never nested in a cycle; shutdown waits for handlers before closing tokens; request objects are per request *)
Theorem lock_graph_acyclic : acyclic lock_edges = true.
Proof. reflexivity. Qed.
Theorem shutdown_order : shutdown_then_close = true.
Proof. reflexivity. Qed.
Theorem per_request_objects : flags_fresh_per_request = true /\ cache_unlock_deferred = true.
Proof. split; reflexivity. Qed.

Example two_requests_interleaved :
  let tok := fun n => n * 100 in
  let rqs := [mkRq 1 11 5; mkRq 2 22 6; mkRq 1 33 7] in
  map response (fst (run tok rqs [0; 1; 2; 2; 1; 0; 0; 2; 1; 1; 0; 2]%nat)) =
  [Some (mkSig 100 11 5); Some (mkSig 200 22 6); Some (mkSig 100 33 7)].
Proof. vm_compute. reflexivity. Qed.


(* =====================================================================================================================
   (a) token/tokencache/cache.go with time: expiry, pinned key ids, the mutex — over every interleaving of GetKey calls
   and clock advances *)
Section CacheProps.
Import C14.ModelCache C14.ProofsCache.

(* LINEARIZABILITY. For every expiry, token, list of requests and schedule (thread steps, token failures, clock ticks):
   running the sequential specification seq_get over the operations in the order they took effect gives the cache the
   concurrent run ends with and, for every completed call, the result it returned; every call is in that order exactly
   once, took effect after it was invoked and before it returned, and the order follows the (non-decreasing) clock *)
Theorem cache_linearizable : forall E tok rqs sched,
  let s := crun E tok rqs sched in
  fst (seq_run E tok rqs (history s)) = cs_cache s /\
  (forall i t r, nth_error (cs_thr s) i = Some t -> cresult t = Some r -> In (i, r) (snd (seq_run E tok rqs (history s)))) /\
  NoDup (map l_thread (history s)) /\
  (forall o, In o (history s) -> exists t a,
       nth_error (cs_thr s) (l_thread o) = Some t /\ t_inv t = Some a /\ (a < l_stamp o)%nat /\
       (forall x, t_res t = Some x -> (l_stamp o < x)%nat)) /\
  StronglySorted hist_order (history s).
Proof. exact C14.ProofsCache.cache_linearizable. Qed.

(* ... consistent with real time: a call that returned before another was invoked precedes it in the sequential order *)
Theorem cache_realtime : forall E tok rqs sched oa ob ta tb x y,
  let s := crun E tok rqs sched in
  In oa (history s) -> In ob (history s) ->
  nth_error (cs_thr s) (l_thread oa) = Some ta -> t_res ta = Some x ->
  nth_error (cs_thr s) (l_thread ob) = Some tb -> t_inv tb = Some y ->
  (x < y)%nat ->
  exists l1 l2 l3, history s = l1 ++ oa :: l2 ++ ob :: l3.
Proof.
  intros E tok rqs sched oa ob ta tb x y s Ha Hb Hta Hx Htb Hy Hlt.
  destruct (cache_linearizable E tok rqs sched) as (_ & _ & _ & Hst & Hso). fold s in Hst, Hso.
  destruct (Hst oa Ha) as (ta' & a1 & Ea & _ & _ & Ra). rewrite Hta in Ea. inversion Ea; subst ta'. specialize (Ra x Hx).
  destruct (Hst ob Hb) as (tb' & a2 & Eb & Ia & La & _). rewrite Htb in Eb. inversion Eb; subst tb'. rewrite Hy in Ia. inversion Ia; subst a2.
  assert (Lt : (l_stamp oa < l_stamp ob)%nat) by lia.
  destruct (in_split _ _ Ha) as (l1 & r & Er). rewrite Er in Hb, Hso |- *.
  apply in_app_or in Hb. destruct Hb as [Hb|[Hb|Hb]].
  - pose proof (ssorted_before hist_order l1 oa r Hso ob Hb) as [K _]. lia.
  - subst ob. lia.
  - destruct (in_split _ _ Hb) as (l2 & l3 & Er2). exists l1, l2, l3. rewrite Er2. reflexivity.
Qed.

(* never a key belonging to another name (given a token that hands out keys of the name it is asked for) *)
Theorem cache_never_foreign_key : forall E tok rqs sched i t rq k,
  tok_owner tok ->
  nth_error (cs_thr (crun E tok rqs sched)) i = Some t -> nth_error rqs i = Some rq ->
  cresult t = Some (Some k) -> k_name k = c_name rq.
Proof.
  intros E tok rqs sched i t rq k Ho.
  apply (crun_results E tok rqs sched entries_owned (fun rq k => k_name k = c_name rq)); [intros e []|].
  intros c u rq' ok res c'. apply seq_get_owned. exact Ho.
Qed.

(* a lookup that pins a key id never returns a key with a different id — under every interleaving with un-pinned
   lookups of the same name — and never populates the cache *)
Theorem cache_pinned_id : forall E tok rqs sched i t rq k,
  tok_pin tok ->
  nth_error (cs_thr (crun E tok rqs sched)) i = Some t -> nth_error rqs i = Some rq -> c_pin rq <> 0 ->
  cresult t = Some (Some k) -> k_id k = c_pin rq.
Proof. exact C14.ProofsCache.cache_pinned_id. Qed.
Theorem cache_pinned_no_store : forall E tok rq i fok t s,
  c_pin rq <> 0 -> cs_cache (cthread E tok rq i fok t s) = cs_cache s.
Proof.
  intros E tok rq i fok t s Hn. unfold cthread.
  destruct (t_pc t); try reflexivity.
  - destruct (try_lock (cs_lock s) i); reflexivity.
  - destruct (check_cache rq (cs_cache s) (cs_now s)); reflexivity.
  - destruct (fetch_key tok rq fok); reflexivity.
  - cbn [add_lin cs_cache]. rewrite store_cache_spec. assert (Ez : (c_pin rq =? 0) = false) by (apply Z.eqb_neq; exact Hn). rewrite Ez, andb_false_r. reflexivity.
Qed.

(* no entry outlives the configured expiry; expiry <= 0 caches nothing *)
Theorem cache_expiry_bounded : forall E tok rqs sched,
  let s := crun E tok rqs sched in
  (forall e, In e (cs_cache s) -> e_exp e <= cs_now s + E) /\ (E <= 0 -> cs_cache s = []).
Proof.
  intros E tok rqs sched. apply (fold_left_inv (exp_bounded E)); [|split; [intros e []|reflexivity]].
  intros s [i fok|d] H; cbn [cstep].
  - destruct (nth_error rqs i) as [rq|]; [destruct (nth_error (cs_thr s) i) as [t|]|]; try exact H.
    exact (exp_thread E tok rq i fok t s H).
  - destruct H as [A B]. split; cbn [cs_cache cs_now]; [|exact B]. intros e He. specialize (A e He). lia.
Qed.

(* the mutex: at most one call is between Lock and Unlock; and no deadlock: while some call is unfinished some thread
   can take a step that advances it *)
Theorem cache_mutex : forall E tok rqs sched i j ti tj,
  let s := crun E tok rqs sched in
  nth_error (cs_thr s) i = Some ti -> nth_error (cs_thr s) j = Some tj ->
  in_section (t_pc ti) = true -> in_section (t_pc tj) = true -> i = j.
Proof.
  intros E tok rqs sched i j ti tj s Hi Hj Si Sj.
  exact (alone s j tj i ti (ci_own _ _ _ _ (cinv_run E tok rqs sched)) Hj Sj Hi Si).
Qed.
Theorem cache_deadlock_free : forall E tok rqs sched i t,
  let s := crun E tok rqs sched in
  nth_error (cs_thr s) i = Some t -> (forall r, t_pc t <> CDone r) ->
  exists j tj tj', nth_error (cs_thr s) j = Some tj /\
                   nth_error (cs_thr (cstep E tok rqs s (CStep j true))) j = Some tj' /\ t_pc tj' <> t_pc tj.
Proof.
  intros E tok rqs sched i t s Ht Hnd. pose proof (cinv_run E tok rqs sched) as HI. fold s in HI.
  assert (Hlen := ci_len _ _ _ _ HI).
  assert (RQ : forall j u, nth_error (cs_thr s) j = Some u -> exists rq, nth_error rqs j = Some rq).
  { intros j u Hu. destruct (nth_error rqs j) eqn:E1; [eauto|]. apply nth_error_None in E1.
    assert (j < length (cs_thr s))%nat by (apply nth_error_Some; congruence). lia. }
  (* the thread that holds the lock can move; when nobody holds it, thread i can *)
  destruct (cs_lock s) as [j|] eqn:Hlk.
  - destruct (ci_lock _ _ _ _ HI j Hlk) as (tj & Hj & Sj). destruct (RQ _ _ Hj) as (rq & Hrq).
    destruct (cthread_moves E tok rq j true tj s Hj) as (tj' & H1 & H2).
    + intros r Hr. rewrite Hr in Sj. discriminate.
    + intros Hw. rewrite Hw in Sj. discriminate.
    + exists j, tj, tj'. split; [exact Hj|]. cbn [cstep]. rewrite Hrq, Hj. cbn [bump cs_thr]. auto.
  - destruct (RQ _ _ Ht) as (rq & Hrq).
    destruct (cthread_moves E tok rq i true t s Ht Hnd) as (t' & H1 & H2).
    + intros _; exact Hlk.
    + exists i, t, t'. split; [exact Ht|]. cbn [cstep]. rewrite Hrq, Ht. cbn [bump cs_thr]. auto.
Qed.

(* non-vacuity: a token satisfying both hypotheses; a schedule with a hit, an expiry between two requests, a pinned
   lookup while the entry is live, and a token failure *)
Definition ex_tok : tokenT := fun n p => Some (mkKey n (if p =? 0 then 7 else p)).
Example ex_tok_ok : tok_owner ex_tok /\ tok_pin ex_tok.
Proof.
  split; intros n p k H; inversion H; subst; cbn; auto. intros Hp. destruct (p =? 0) eqn:E; [apply Z.eqb_eq in E; contradiction|reflexivity].
Qed.
Example ex_cache_run :
  let rqs := [mkCReq 1 0; mkCReq 1 0; mkCReq 1 9; mkCReq 1 0; mkCReq 2 0] in
  let st := fun i => [CStep i true; CStep i true; CStep i true; CStep i true; CStep i true; CStep i true] in
  let s := crun 10 ex_tok rqs (st 0%nat ++ st 1%nat ++ st 2%nat ++ [CTick 10] ++ st 3%nat ++
                               [CStep 4 true; CStep 4 true; CStep 4 true; CStep 4 false; CStep 4 true]) in
  map cresult (cs_thr s) = [Some (Some (mkKey 1 7)); Some (Some (mkKey 1 7)); Some (Some (mkKey 1 9)); Some (Some (mkKey 1 7)); Some None] /\
  map t_fetched (cs_thr s) = [true; false; true; true; true] /\
  map e_exp (cs_cache s) = [20; 10].
Proof. vm_compute. auto. Qed.
End CacheProps.

(* =====================================================================================================================
   (b) token/tokencache/ratelimit.go: the limiter as a state machine over a clock *)
Section RateProps.
Import C14.ModelRate C14.ProofsRate.

(* THE WINDOW BOUND over any history of calls: operations admitted from the i-th to the j-th admitted one never exceed
   burst + rate * (act_j - act_i), up to the truncation of a wait to whole time units (rate - 1 token-units, less than
   one operation when rate < unit) and the credit for clock readings that reached the limiter out of order *)
Theorem rl_window_bound : forall L calls pre ei mid ej post,
  wf L -> run L calls = pre ++ ei :: mid ++ ej :: post ->
  lm_unit L * (zlen mid + 2) <=
    lm_unit L * lm_burst L + lm_rate L * (ev_act ej - ev_act ei)
    + lm_rate L * down_path (ev_t ei :: map ev_t mid ++ [ev_t ej]) + (lm_rate L - 1).
Proof.
  intros L calls pre ei mid ej post W H.
  destruct (run_split pre calls L W ei (mid ++ ej :: post) H) as (Li & ci & Wi & (P1 & P2 & P3) & Ti & Li_last & Hrun & Bi & (_ & Ai & _)).
  pose proof (chain ci Li Wi mid ej post Hrun) as C.
  destruct (run_split mid ci Li Wi ej post Hrun) as (_ & _ & _ & _ & _ & _ & _ & _ & (_ & _ & Aj)).
  rewrite P1, P2, Ti, Li_last in *.
  (* C bounds the tokens ej left behind by those ei left behind and the time between the two readings of the clock;
     Bi, Ai and Aj turn tokens left behind into times to act *)
  rewrite up_down, last_last in C.
  pose proof W as (Hr & Hu & Hb & _). unfold cap in *. pose proof (zlen_nonneg mid). nia.
Qed.
Theorem rl_window_bound_ordered : forall L calls pre ei mid ej post,
  wf L -> run L calls = pre ++ ei :: mid ++ ej :: post ->
  nondecreasing (ev_t ei :: map ev_t mid ++ [ev_t ej]) ->
  lm_unit L * (zlen mid + 2) <= lm_unit L * lm_burst L + lm_rate L * (ev_act ej - ev_act ei) + (lm_rate L - 1).
Proof.
  intros L calls pre ei mid ej post W H Hs. pose proof (rl_window_bound L calls pre ei mid ej post W H) as B.
  rewrite (down_path_sorted _ Hs) in B. lia.
Qed.
(* the plain bound is FALSE for arbitrary interleavings of "read the clock" and "reserve": a caller that read the clock,
   was overtaken by a later reading and then reserved moves the limiter's clock back, and the same interval is credited
   twice *)
Theorem rl_strict_bound_refuted : exists L calls ei ej,
  wf L /\ run L calls = [ei; mkEv 0 1 (-1); ej] /\
  ~ (lm_unit L * 2 <= lm_unit L * lm_burst L + lm_rate L * (ev_act ej - ev_act ei) + (lm_rate L - 1)) /\
  ev_act ei = ev_act ej.
Proof.
  exists (new_limiter 1 1 1), [(10, 100); (0, 100); (10, 100)], (mkEv 10 10 0), (mkEv 10 10 0).
  split; [unfold wf, new_limiter; cbn; lia|]. split; [vm_compute; reflexivity|]. split; [cbn; lia|reflexivity].
Qed.

(* no lost token, no negative wait: an admitted operation costs exactly one unit on top of the capped refill and waits
   between 0 and debt/rate; a rejected one leaves the limiter untouched *)
Theorem rl_accounting : forall L t mw L' res, wf L -> reserve L t mw = (L', res) ->
  (r_ok res = true ->
     lm_tokens L' = Z.min (lm_burst L * lm_unit L) (lm_tokens L + lm_rate L * Z.max 0 (t - lm_last L)) - lm_unit L /\
     t <= r_act res /\ lm_rate L * (r_act res - t) <= Z.max 0 (- lm_tokens L')) /\
  (r_ok res = false -> L' = L).
Proof.
  intros L t mw L' res W Er. split; intros Eo.
  - destruct (reserve_admitted L t mw L' res W Er Eo) as (_ & _ & _ & Ht & (A1 & A2 & _)). unfold cap in Ht.
    repeat split; auto. rewrite Z.mul_sub_distr_l. lia.
  - eapply reserve_rejected; eauto.
Qed.

(* progress: a caller that accepts the wait is admitted, its time to act is fixed when it reserves, and it proceeds as
   soon as the clock gets there, whatever other callers do; relic's burst floor keeps the limiter well formed *)
Theorem rl_admits : forall L t mw, wf L -> wait_of L (advance L t - lm_unit L) <= mw -> r_ok (snd (reserve L t mw)) = true.
Proof.
  intros L t mw W H. rewrite (reserve_spec L t mw W). cbn zeta.
  destruct (wait_of L (advance L t - lm_unit L) <=? mw) eqn:E; [reflexivity|lia].
Qed.
Theorem rl_progress : forall mw s i a, nth_error (rs_thr s) i = Some (RSleep a) -> a <= rs_now s ->
  nth_error (rs_thr (rstep mw s (RStep i))) i = Some (RDone (rs_now s)).
Proof.
  intros mw s i a H Hle. cbn [rstep]. rewrite H. assert (E : (a <=? rs_now s) = true) by lia. rewrite E.
  cbn [rs_thr]. eapply rupdate_eq; eauto.
Qed.
Theorem rl_burst_floor_ok : forall rate unit burst, 1 <= rate -> 1 <= unit -> wf (relic_new_limiter rate unit burst).
Proof.
  intros rate unit burst Hr Hu. unfold relic_new_limiter, relic_burst, new_limiter, rl_burst_too_small, rl_burst_floor, rate_starts_full, wf.
  cbn [lm_rate lm_unit lm_burst lm_tokens]. destruct (burst <? 1) eqn:E; repeat split; lia.
Qed.
(* ... but NOT for tokencache.NewLimiter called directly with a rate <= 0 (the server no longer does: server_limiter_wf):
   the second caller is told to wait InfDuration — a documented restriction of the domain, rate > 0 *)
Theorem rl_progress_refuted_nonpositive_rate : exists L calls e1 e2,
  lm_rate L <= 0 /\ run L calls = [e1; e2] /\ ev_act e2 - ev_t e2 = rate_inf_duration.
Proof.
  exists (relic_new_limiter (-1) 1000000000 1), [(0, rate_inf_duration); (0, rate_inf_duration)].
  eexists. eexists. split; [cbn; lia|]. split; [vm_compute; reflexivity|]. vm_compute. reflexivity.
Qed.

(* relic's wrapper: every GetKey / Sign / SignContext is one reservation on the one shared limiter *)
Theorem relic_ops_eq_run : forall calls L, relic_ops L calls = run L (map (fun c => (snd (fst c), snd c)) calls).
Proof.
  induction calls as [|[[k t] mw] r IH]; intros L; cbn [relic_ops run map fst snd]; [reflexivity|].
  assert (G : op_guarded k = true) by (destruct k; reflexivity). rewrite G.
  destruct (reserve L t mw) as [L' res]. destruct (r_ok res); rewrite IH; reflexivity.
Qed.
(* every schedule of the interleaving machine is a history of [run] (so the window bound covers it) *)
Theorem rl_conc_state : forall mw L n sched, rs_lim (rrun mw L n sched) = state_after L (rev (rs_calls (rrun mw L n sched))).
Proof.
  intros mw L n sched. apply (fold_left_inv (fun s => rs_lim s = state_after L (rev (rs_calls s)))); [|reflexivity].
  intros s [i|d] H; cbn [rstep]; [|exact H].
  destruct (nth_error (rs_thr s) i) as [[|t|a| |z]|]; try exact H.
  - destruct (reserve (rs_lim s) t mw) as [L' res] eqn:Er. cbn [rs_lim rs_calls rev].
    rewrite state_after_app, <- H. cbn [state_after]. rewrite Er. reflexivity.
  - destruct (a <=? rs_now s); exact H.
Qed.
(* the executable window check applied to the real limiter's output is sound for the declarative bound *)
Theorem window_ok_sound : forall rate unit burst slack acts, window_ok rate unit burst slack acts = true ->
  forall pre ai mid aj post, acts = pre ++ ai :: mid ++ aj :: post ->
  unit * (zlen mid + 2) <= unit * burst + rate * (aj - ai) + slack.
Proof.
  induction acts as [|x acts IH]; intros H pre ai mid aj post E; [destruct pre; discriminate|].
  cbn [window_ok] in H. apply andb_true_iff in H as [H1 H2].
  destruct pre as [|p pre]; cbn [app] in E; inversion E; subst.
  - pose proof (window_from_sound _ _ _ _ _ _ _ H1 mid aj post eq_refl). lia.
  - eapply IH; eauto.
Qed.

(* how the server stacks the wrappers, and how relic constructs the limiter: metrics, then (rate limit configured)
   the limiter built from the configured rate and burst, then the key cache on top *)
Theorem server_wiring :
  open_tokens_calls = [2; 0; 1; 2] /\ open_tokens_limiter_args = true /\ open_tokens_cache_args = true /\
  (forall r, rl_enabled r = (r >? 0)) /\ rl_newlimiter_args = true /\ rl_struct_plain = true.
Proof. repeat split; reflexivity. Qed.
(* the server builds a limiter only for a positive configured rate, so every limiter it builds is well formed and the
   theorems above apply to it *)
Theorem server_limiter_wf : forall rate unit burst, rl_enabled rate = true -> 1 <= unit -> wf (relic_new_limiter rate unit burst).
Proof. intros rate unit burst H Hu. apply rl_burst_floor_ok; [unfold rl_enabled in H; lia|exact Hu]. Qed.

Example ex_rate_run :   (* 2 operations per 10 ticks, burst 2: five calls at t = 0 act at 0 0 5 10 15 *)
  map ev_act (run (relic_new_limiter 2 10 2) [(0, 1000); (0, 1000); (0, 1000); (0, 1000); (0, 1000)]) = [0; 0; 5; 10; 15] /\
  wf (relic_new_limiter 2 10 2) /\ window_ok 2 10 2 1 [0; 0; 5; 10; 15] = true /\ window_ok 2 10 2 1 [0; 0; 4; 10; 15] = false.
Proof. vm_compute. repeat split; auto; discriminate. Qed.
End RateProps.

(* =====================================================================================================================
   (c) shutdown at any moment, (d) the audit file under concurrency *)
Section ShutProps.
Import C14.ModelShut C14.ProofsShut.

(* the tokens are closed only after the last accepted handler has finished (within the grace period) *)
Theorem shutdown_waits_for_handlers : forall line ntok n sched i p,
  let s := srun line ntok n sched in
  ss_tok_closed s = true -> ss_forced s = false -> nth_error (ss_req s) i = Some p -> active p = false.
Proof.
  intros line ntok n sched i p s Hc Hf Hp. pose proof (shinv_run line ntok n sched) as HI. fold s in HI.
  assert (Hsd : (1 <= ss_sd s)%nat) by (rewrite (sh_closed_sd _ HI Hc); lia).
  exact (forallb_negb_nth _ _ _ _ (sh_drained _ HI Hsd Hf) Hp).
Qed.
(* no handler uses a token after Close *)
Theorem no_token_use_after_close : forall line ntok n sched,
  let s := srun line ntok n sched in ss_forced s = false -> clean (ss_trace s) = true.
Proof. intros line ntok n sched s Hf. apply (sh_clean _ (shinv_run line ntok n sched) Hf). Qed.
(* nothing is accepted once Shutdown has begun *)
Theorem no_accept_after_shutdown : forall line ntok n sched i ok,
  let s := srun line ntok n sched in
  ss_begun s = true -> nth_error (ss_req s) i = Some HNew ->
  nth_error (ss_req (sstep line ntok s (EReq i ok))) i = Some HRefused.
Proof.
  intros line ntok n sched i ok s Hb Hp. pose proof (shinv_run line ntok n sched) as HI. fold s in HI.
  rewrite (req_step _ _ _ _ _ _ Hp). cbn [next_pc]. rewrite (sh_begun_listen _ HI Hb). reflexivity.
Qed.
(* daemon.Close returns last *)
Theorem close_returns_last : forall line ntok n sched,
  let s := srun line ntok n sched in
  ss_returned s = true ->
  ss_tok_closed s = true /\ ss_chan_closed s = true /\
  (ss_forced s = false -> forall i p, nth_error (ss_req s) i = Some p -> active p = false).
Proof.
  intros line ntok n sched s Hr. pose proof (shinv_run line ntok n sched) as HI. fold s in HI.
  destruct (sh_sd_closed _ HI (sh_returned _ HI Hr)) as [H1 H2]. repeat split; auto.
  intros Hf i p Hp. eapply shutdown_waits_for_handlers; eauto.
Qed.
(* a Shutdown event anywhere in the schedule neither cancels nor blocks a handler: every accepted request reaches the
   200 response or an error response once scheduled often enough, whatever is interleaved *)
Theorem handler_untouched : forall line ntok s e i,
  (forall ok, e <> EReq i ok) -> nth_error (ss_req (sstep line ntok s e)) i = nth_error (ss_req s) i.
Proof. intros line ntok s e i. apply req_frame. Qed.
Theorem accepted_request_completes : forall line ntok sched s i p,
  nth_error (ss_req s) i = Some p -> (budget p <= length (filter (own i) sched))%nat ->
  exists q, nth_error (ss_req (fold_left (sstep line ntok) sched s)) i = Some q /\ terminal q = true.
Proof.
  intros line ntok sched. induction sched as [|e l IH]; intros s i p Hp Hb.
  - cbn in Hb. exists p. split; [exact Hp|]. apply budget_zero. lia.
  - cbn [fold_left]. cbn [filter] in Hb. destruct (own i e) eqn:Ho.
    + destruct e as [j ok| | | |d|timer]; try discriminate. cbn in Ho. apply Nat.eqb_eq in Ho. subst j. cbn [length] in Hb.
      eapply IH; [exact (req_step line ntok s i ok p Hp)|]. pose proof (budget_next (ss_listening s) ok p). lia.
    + eapply IH; [|exact Hb]. rewrite req_frame; [exact Hp|]. intros ok ->. cbn in Ho. rewrite Nat.eqb_refl in Ho. discriminate.
Qed.
(* and shutdown itself terminates from every reachable state once the handlers are done *)
Theorem shutdown_completes : forall line ntok s,
  ShInv s -> ss_called s = true -> quiet s ->
  ss_returned (fold_left (sstep line ntok) finish_sched s) = true.
Proof.
  intros line ntok s HI Hc Hq. unfold finish_sched. cbn [fold_left]. rewrite !sstep_go, !sstep_health.
  destruct (three_go ntok s HI Hc Hq) as (Cu & Hu). set (u := gostep ntok (gostep ntok (gostep ntok s))) in *.
  destruct Hu as [[Su Hch]|Su].
  - destruct (loop_leaves ntok u Hch) as (L3 & K3 & D3 & C3). set (w := lstep ntok false (lstep ntok false (lstep ntok false u))) in *.
    rewrite Cu in K3. rewrite Su in D3.
    destruct (go_close_tokens ntok w K3 D3 C3 L3) as (C4 & S4).
    rewrite (go_done ntok _ S4). apply wait_returns; assumption.
  - (* already done: nothing moves any more *)
    assert (Fr : forall v, ss_called v = true -> ss_sd v = 2%nat -> ss_called (lstep ntok false v) = true /\ ss_sd (lstep ntok false v) = 2%nat).
    { intros v Cv Sv. destruct (lstep_frame health_guard ntok false v) as (_ & _ & _ & _ & F5 & F6 & _). fold (lstep ntok false v) in *. rewrite F5, F6. auto. }
    destruct (Fr u Cu Su) as (C1 & S1). destruct (Fr _ C1 S1) as (C2 & S2). destruct (Fr _ C2 S2) as (C3 & S3).
    rewrite (go_done ntok _ S3), (go_done ntok _ S3). apply wait_returns; assumption.
Qed.
Theorem reachable_states_satisfy_ShInv : forall line ntok n sched, ShInv (srun line ntok n sched).
Proof. exact C14.ProofsShut.shinv_run. Qed.

(* where the full statement fails in the faithful model: the grace period is bounded (generated constant, 5 minutes); a
   handler that runs longer sees its token closed *)
Theorem shutdown_grace_period_refuted : exists sched,
  let s := srun (fun _ => []) 1 1 sched in
  ss_forced s = true /\ clean (ss_trace s) = false /\ ss_tok_closed s = true.
Proof.
  exists [EReq 0 true; EReq 0 true; EReq 0 true; EReq 0 true; EShutdown; EGo; ETick daemon_shutdown_timeout; EGo; EGo; EHealth false; EGo; EReq 0 true].
  vm_compute. auto.
Qed.
(* the health loop: no ping of a token begins, and none is still running, after the tokens were closed — under every
   schedule (server.Close waits for the loop; healthCheck looks at the closed channel before every ping) *)
Theorem no_health_ping_after_close : forall line ntok n sched, no_ping_after_close (ss_trace (srun line ntok n sched)) = true.
Proof. intros. apply (sh_noping _ (shinv_run line ntok n sched)). Qed.
(* without the wait in server.Close a check that is under way pings a closed token (the behaviour before aed4bdd) *)
Theorem health_ping_needs_the_wait : exists sched,
  let s := srun_gen true false true (fun _ => []) 2 0 sched in
  ss_forced s = false /\ no_ping_after_close (ss_trace s) = false.
Proof.
  exists [EHealth true; EHealth true; EShutdown; EGo; EGo; EGo; EHealth true]. vm_compute. auto.
Qed.

(* (d) exactly one complete line per request whose audit step succeeded; lines never mix *)
Theorem audit_one_line_per_request : forall line ntok n sched,
  (forall i, ~ In nl (line i)) ->
  let s := srun line ntok n sched in
  read_lines (ss_file s) = (map line (rev (ss_order s)), []) /\
  NoDup (rev (ss_order s)) /\
  (forall i p, nth_error (ss_req s) i = Some p -> (In i (rev (ss_order s)) <-> audited p = true)).
Proof.
  intros line ntok n sched Hn s. destruct (auinv_run line ntok n sched) as [Af An Ai Al]. fold s in Af, An, Ai, Al.
  split; [rewrite Af; apply read_render; exact Hn|]. split; [apply NoDup_rev; exact An|].
  intros i p Hp. rewrite audited_eq, <- in_rev. apply Ai; exact Hp.
Qed.
(* why the single write matters: were the newline written separately, two appends could interleave into one line *)
Theorem audit_two_writes_refuted : exists sched,
  let s := srun_gen false true true (fun i => [Z.of_nat i + 65]) 0 2 sched in
  read_lines (ss_file s) = ([[65; 66]; []], []).
Proof.
  exists [EReq 0 true; EReq 1 true; EReq 0 true; EReq 1 true; EReq 0 true; EReq 1 true; EReq 0 true; EReq 1 true;
          EReq 0 true; EReq 1 true; EReq 0 true; EReq 1 true; EReq 0 true; EReq 1 true; EReq 0 true; EReq 1 true].
  vm_compute. reflexivity.
Qed.

(* remaining source facts the model relies on: Serve runs inside the errgroup the caller of Close waits on; AppendTo
   opens, marshals, appends the newline and writes — in that order *)
Theorem serve_and_append_shape : daemon_serve_calls = [0; 1; 1; 2] /\ daemon_serve_in_group = true /\ append_order = [0; 1; 2; 3].
Proof. repeat split; reflexivity. Qed.

Example ex_shutdown_mid_request :   (* request 0 accepted, shutdown arrives, request 1 is refused, request 0 still completes *)
  let s := srun (fun i => [Z.of_nat i + 65]) 1 2
             [EReq 0 true; EReq 0 true; EShutdown; EGo; EReq 1 true; EGo; EReq 0 true; EReq 0 true; EReq 0 true; EReq 0 true; EReq 0 true;
              EReq 0 true; EHealth true; EHealth true; EGo; EGo; EHealth true; EHealth true; EHealth false; EGo; EWait] in
  ss_req s = [HDone; HRefused] /\ ss_file s = [65; 10] /\ ss_returned s = true /\ ss_forced s = false /\
  ss_trace s = [TClose; TPong; TPing; TUse 0; TUse 0].
Proof. vm_compute. repeat split; reflexivity. Qed.
End ShutProps.

(* =====================================================================================================================
   (c') shutdown of the PROCESS: `relic serve` blocks on Daemon.Serve (the errgroup's Wait); a signal makes watchSignals run
   Daemon.Close on another goroutine; the process is gone when main returns. Goroutines run the programs srcgen translates
   from serveCmd, Daemon.Serve, Daemon.Close and watchSignals *)
Section ProcProps.
Import C14.ModelProc C14.ProofsProc.

(* THE PROPERTY: under every interleaving of goroutine steps, handler steps, signals, the watcher's receives and clock
   ticks, for every number of listeners and handlers: unless the exit was forced (second signal -> os.Exit, a signal
   before signal.Notify, a handler outliving the grace period) no accepted request is cut off or loses its token, and
   when the process has gone away nothing was left running and the tokens had been closed first *)
Theorem proc_shutdown_lets_requests_finish : forall nlis n sched, (1 <= nlis)%nat ->
  let s := prun nlis n sched in p_forced s = false -> spec_ok s = true.
Proof. exact C14.ProofsProc.proc_shutdown_lets_requests_finish. Qed.
(* Serve returns last: when main has returned from Daemon.Serve, Shutdown has returned, server.Close has run, and no
   handler is running or was cut *)
Theorem serve_returns_last : forall nlis n sched t0, (1 <= nlis)%nat ->
  let s := prun nlis n sched in
  nth_error (p_thr s) 0 = Some t0 -> t_done t0 = true \/ (t_ops t0 = [] /\ t_items t0 = []) ->
  p_tok_closed s = true /\ p_drained s = true /\ p_insh s = true /\
  (p_forced s = false -> existsb pactive (p_req s) = false /\ forallb req_ok (p_req s) = true).
Proof. exact C14.ProofsProc.serve_returns_last. Qed.
(* main returns only after a graceful shutdown was started, and then with exit code 0 (that of shared.Fail, 70, when Shutdown
   ran into its deadline) *)
Theorem graceful_exit_code : forall nlis n sched, (1 <= nlis)%nat ->
  let s := prun nlis n sched in p_alive s = false -> p_how s = 1 ->
  p_code s = (if p_forced s then timeout_exit_code else 0) /\ p_closing s = true /\ p_tok_closed s = true.
Proof.
  intros nlis n sched Hn s Hal Hh. destruct (pinv_run nlis n sched Hn) as (roles & HI). fold s in HI.
  destruct (pi_x _ _ _ HI Hal) as (_ & B). destruct (B Hh) as (B1 & B2 & _).
  split; [exact B2|]. split; [|exact B1]. apply (pi_ic _ _ _ HI). destruct (pi_d2 _ _ _ HI (pi_d3 _ _ _ HI B1)). assumption.
Qed.
(* the tokens are never closed under a running handler (within the grace period), also at process level *)
Theorem proc_tokens_closed_after_handlers : forall nlis n sched, (1 <= nlis)%nat ->
  let s := prun nlis n sched in p_tok_closed s = true -> p_forced s = false -> existsb pactive (p_req s) = false.
Proof.
  intros nlis n sched Hn s HT HF. destruct (pinv_run nlis n sched Hn) as (roles & HI). fold s in HI.
  destruct (pi_d2 _ _ _ HI (pi_d3 _ _ _ HI HT)) as (_ & [F|Q]); [congruence|exact Q].
Qed.
(* liveness: no deadlock between Serve's Wait, Close's Wait and the member running Shutdown; a blocked goroutine does not
   move; and from every reachable state with a shutdown under way and no handler running the process does exit, through
   main, with code 0 *)
Theorem proc_no_deadlock : forall nlis s, PInv nlis s -> p_alive s = true -> p_closing s = true -> existsb pactive (p_req s) = false ->
  exists i, enabled s i = true.
Proof.
  intros nlis s (roles & HI) Hal Hcl Hq. destruct (live_choice _ _ _ HI Hal Hcl Hq) as (i & r & Hr & Hen & _).
  exists i. rewrite (enabled_role _ _ _ _ (pi_thr _ _ _ HI) Hr). exact Hen.
Qed.
Theorem blocked_is_noop : forall pg nlis s i, enabled s i = false -> tstep pg nlis s i = s.
Proof.
  intros pg nlis s i. unfold enabled, tstep. destruct (nth_error (p_thr s) i) as [t|]; [|reflexivity].
  unfold live. destruct (t_done t); cbn [negb andb]; [reflexivity|].
  destruct (t_ops t) as [|c rest]; [discriminate|].
  destruct (Z.eqb_spec c 1) as [->|n1]; [cbn [Z.eqb Pos.eqb]; intros ->; reflexivity|].
  destruct (Z.eqb_spec c 2) as [->|n2].
  { cbn [Z.eqb Pos.eqb]. intros H. apply orb_false_iff in H as [H1 H3]. apply orb_false_iff in H1 as [H1 H2]. rewrite H1, H2, H3. reflexivity. }
  destruct (Z.eqb_spec c 4) as [->|n4]; [cbn [Z.eqb Pos.eqb]; intros ->; reflexivity|].
  destruct (Z.eqb_spec c 5) as [->|n5]; [|discriminate].
  intros H. apply negb_false_iff in H. cbn [Z.eqb Pos.eqb]. destruct s; cbn in *; subst; reflexivity.
Qed.
Theorem proc_exits : forall nlis s, PInv nlis s -> p_alive s = true -> p_closing s = true -> existsb pactive (p_req s) = false ->
  p_forced s = false ->
  exists sched, Forall is_thr sched /\
    let s' := fold_left (pstep real_progs nlis) sched s in p_alive s' = false /\ p_how s' = 1 /\ p_code s' = 0.
Proof.
  intros nlis s (roles & HI) Hal Hcl Hq HF. exact (proc_exits_aux _ _ _ _ HI (le_n _) Hal Hcl Hq HF).
Qed.
Theorem reachable_states_satisfy_PInv : forall nlis n sched, (1 <= nlis)%nat -> PInv nlis (prun nlis n sched).
Proof. exact C14.ProofsProc.pinv_run. Qed.
(* the source facts: the translated programs, the watcher's decision, the grace period and the exit code *)
Theorem proc_programs :
  main_prog = [(2, [5]); (0, [6])] /\ daemon_serve_prog = [(3, [1]); (0, [4])] /\ daemon_close_prog = [(1, [2; 3]); (0, [4])] /\
  daemon_close_prog_guards = [] /\ daemon_serve_prog_guards = [] /\ servecmd_prog_guards = [] /\
  grace = daemon_shutdown_timeout /\ 300 * 1000000000 <= grace /\ main_exit_code = 0 /\ sig_loop_forever = true /\ sig_notified = [2; 15; 3; 10; 12] /\
  sig_chan_cap = 4 /\ sig_exit_code = 0 /\ timeout_exit_code = 70.
Proof. repeat split; try reflexivity; vm_compute; discriminate. Qed.
(* watchSignals: SIGUSR1 does nothing; the first other signal starts Close on its own goroutine; any later one exits *)
Theorem sig_action_spec : forall sig a, sig_action sig a = if sig =? 10 then (0, a) else if a then (2, a) else (1, true).
Proof. intros sig a. unfold sig_action. destruct (sig =? 10); [reflexivity|]. destruct a; reflexivity. Qed.

(* where the full statement fails, with witnesses: Daemon.Close calling Shutdown / server.Close / Wait directly instead
   of inside the errgroup (see direct_close_progs) *)
Theorem close_outside_group_refuted : exists sched,
  let s := prun_gen direct_close_progs 1 1 sched in
  p_forced s = false /\ p_alive s = false /\ p_how s = 1 /\ p_req s = [PCut] /\ p_tok_closed s = false /\ spec_ok s = false.
Proof.
  exists (startup ++ [PReq 0; PReq 0; PSig 15; PWatch; PThr 3; PThr 3; PThr 2; PThr 2; PThr 0; PThr 0]).
  vm_compute. repeat split; reflexivity.
Qed.
(* a second signal while the shutdown is waiting for a handler: watchSignals calls os.Exit, the handler is cut off
   (documented behaviour: "shutting down immediately") *)
Theorem second_signal_refuted : exists sched,
  let s := prun 1 1 sched in p_forced s = true /\ p_how s = 2 /\ p_code s = sig_exit_code /\ p_req s = [PCut].
Proof. exists (startup ++ [PReq 0; PReq 0; PSig 15; PWatch; PSig 2; PWatch]). vm_compute. repeat split; reflexivity. Qed.
(* a signal that arrives after the listeners accept but before the watcher goroutine has called signal.Notify ends the
   process by its default action (the window between `go watchSignals(srv)` and the goroutine's first statement) *)
Theorem signal_before_notify_refuted : exists sched,
  let s := prun 1 1 sched in p_forced s = true /\ p_how s = 3 /\ p_watch s = false /\ p_req s = [PCut].
Proof. exists [PThr 0; PThr 0; PThr 0; PThr 0; PThr 0; PReq 0; PSig 15]. vm_compute. repeat split; reflexivity. Qed.
(* a handler that outlives the grace period (generated constant) has its token closed under it *)
Theorem proc_grace_period_refuted : exists sched,
  let s := prun 1 1 sched in p_forced s = true /\ p_alive s = true /\ p_req s = [PTokGone].
Proof.
  exists (startup ++ [PReq 0; PReq 0; PSig 15; PWatch; PThr 3; PThr 4; PTick daemon_shutdown_timeout; PThr 4; PThr 4; PReq 0; PReq 0; PReq 0]).
  vm_compute. repeat split; reflexivity.
Qed.

(* non-vacuity: two listeners; requests 0 and 1 are in flight when SIGUSR1 (ignored) and SIGTERM arrive, request 2 comes
   after Shutdown has begun and is refused; both in-flight requests are answered, then the tokens are closed, then main
   returns: exit code 0 *)
Example ex_proc_graceful :
  let s := prun 2 3 [PThr 0; PThr 0; PThr 0; PThr 0; PThr 0; PThr 1; PReq 0; PReq 1; PReq 0; PSig 10; PWatch; PSig 15; PWatch; PThr 4; PThr 5;
                     PReq 2; PThr 5; PThr 2; PThr 3; PThr 0;
                     PReq 0; PReq 0; PReq 0; PReq 0; PReq 0; PReq 0; PReq 1; PReq 1; PReq 1; PReq 1; PReq 1; PReq 1; PReq 1;
                     PThr 5; PThr 5; PThr 5; PThr 2; PThr 3; PThr 2; PThr 3; PThr 4; PThr 4; PThr 4; PThr 0; PThr 0] in
  p_req s = [PDone; PDone; PRefused] /\ p_alive s = false /\ p_how s = 1 /\ p_code s = 0 /\ p_forced s = false /\
  p_tok_closed s = true /\ spec_ok s = true.
Proof. vm_compute. repeat split; reflexivity. Qed.
(* an idle server: SIGINT, shutdown, exit 0 *)
Example ex_proc_idle :
  let s := prun 1 0 (startup ++ [PSig 2; PWatch; PThr 3; PThr 4; PThr 4; PThr 4; PThr 4; PThr 2; PThr 2; PThr 0; PThr 0]) in
  p_alive s = false /\ p_how s = 1 /\ p_code s = 0 /\ p_tok_closed s = true.
Proof. vm_compute. repeat split; reflexivity. Qed.
(* the hypotheses of proc_exits are satisfiable: the state right after the watcher has started the shutdown *)
Example ex_proc_exits_applies :
  let s := prun 1 0 (startup ++ [PSig 15; PWatch]) in
  PInv 1 s /\ p_alive s = true /\ p_closing s = true /\ existsb pactive (p_req s) = false /\ p_forced s = false.
Proof. split; [apply C14.ProofsProc.pinv_run; lia|vm_compute; repeat split; reflexivity]. Qed.
End ProcProps.

(* =====================================================================================================================
   (e) the lazily created timestamper and package-level mutable state *)
Section InitProps.
Import C14.ModelInit C14.ProofsInit.

(* however many requests race for it, the timestamper is constructed successfully at most once, every caller that gets
   one gets that one, a failed construction is not remembered, and at most one caller is inside at a time *)
Theorem ts_single_instance : forall n sched, (length (ts_made (trun n sched)) <= 1)%nat.
Proof. intros n sched. destruct (ti_val _ (tinv_run n sched)) as [[_ ->]|(v & _ & ->)]; cbn; lia. Qed.
Theorem ts_same_instance : forall n sched i j a b,
  nth_error (ts_thr (trun n sched)) i = Some (TDone (Some a)) -> nth_error (ts_thr (trun n sched)) j = Some (TDone (Some b)) -> a = b.
Proof.
  intros n sched i j a b Hi Hj. pose proof (tinv_run n sched) as HI.
  pose proof (ti_res _ HI _ _ a Hi (or_intror eq_refl)). pose proof (ti_res _ HI _ _ b Hj (or_intror eq_refl)). congruence.
Qed.
Theorem ts_failure_not_cached : forall n sched, ts_made (trun n sched) = [] -> ts_val (trun n sched) = None.
Proof. intros n sched H. destruct (ti_val _ (tinv_run n sched)) as [[E _]|(v & _ & E)]; [exact E|congruence]. Qed.
Theorem ts_mutex : forall n sched i j p q,
  nth_error (ts_thr (trun n sched)) i = Some p -> nth_error (ts_thr (trun n sched)) j = Some q -> tsec p = true -> tsec q = true -> i = j.
Proof.
  intros n sched i j p q Hi Hj Sp Sq. exact (owner_unique tsec _ _ j q i p (ti_own _ (tinv_run n sched)) Hj Sq Hi Sp).
Qed.

(* the package-level variables and the writes to them that srcgen finds in the anchored packages and in every
   signers/* package are exactly the reviewed ones: a NEW shared mutable global (or a new write site) breaks these *)
Theorem shared_writes_reviewed : shared_writes = map fst reviewed_writes.
Proof. reflexivity. Qed.
Theorem shared_vars_reviewed : shared_vars = map fst reviewed_vars.
Proof. reflexivity. Qed.
Theorem review_is_consistent : review_consistent = true /\ forallb (fun w => guard_named (snd w)) reviewed_writes = true.
Proof. split; vm_compute; reflexivity. Qed.
(* objects a request writes into are built per request: the certificate bundle (InitKey loads it afresh, so that
   Init may store the request's timestamp choice in it), the timestamp request copy, flags, audit record *)
Theorem per_request_bundle : initkey_calls = [0; 1] /\ ts_wrapper_copies = true /\ init_calls = [0; 1; 2; 3].
Proof. repeat split; reflexivity. Qed.

(* a request gets the shared timestamper exactly when its key asks for one and the request did not opt out *)
Theorem ts_wanted_spec : forall enabled named no_ts, ts_wanted enabled named no_ts = (enabled || named) && negb no_ts.
Proof. reflexivity. Qed.
Theorem closeonce_shape : closeonce_struct_plain = true /\ closeonce_calls = [0; 4; 1; 2; 3].
Proof. split; reflexivity. Qed.

Example ex_ts_race :   (* three callers, first construction fails, second succeeds, third reuses it *)
  let st := fun i ok => [TStep i ok; TStep i ok; TStep i ok; TStep i ok] in
  let s := trun 3 (st 0%nat false ++ [TStep 1 true; TStep 2 true; TStep 1 true; TStep 2 true] ++ st 1%nat true ++ st 2%nat true) in
  ts_thr s = [TDone None; TDone (Some 1); TDone (Some 1)] /\ ts_made s = [1].
Proof. vm_compute. auto. Qed.
End InitProps.
