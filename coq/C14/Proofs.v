(* C14/Proofs.v — what the state machines of this unit share (lists of threads under [update], invariants of runs, the
   owner of a mutex); then the interleaving model of Model.v: one invariant, preserved by every step. *)
From Relic Require Import Base.Prelude Generated.C14_gen C14.Model.
From Coq Require Import Permutation.

Lemma fold_left_inv {S E} (P : S -> Prop) (f : S -> E -> S) :
  (forall s e, P s -> P (f s e)) -> forall l s, P s -> P (fold_left f l s).
Proof. intros Hf l. induction l as [|e l IH]; cbn; auto. Qed.

Lemma length_update {A} (l : list A) i x : length (update l i x) = length l.
Proof.
  revert i; induction l as [|y l IH]; intros [|i]; cbn; auto.
Qed.
Lemma nth_error_update_eq {A} (l : list A) i x p :
  nth_error l i = Some p -> nth_error (update l i x) i = Some x.
Proof.
  revert i; induction l as [|y l IH]; intros [|i]; cbn; intros H; try discriminate; auto.
Qed.
Lemma nth_error_update_neq {A} (l : list A) (i j : nat) x :
  i <> j -> nth_error (update l i x) j = nth_error l j.
Proof.
  revert i j; induction l as [|y l IH]; intros [|i] [|j] H; cbn; auto.
  - congruence.
Qed.
(* [H : nth_error (update l i x) j = Some y], given [Hp : nth_error l i = Some _]: either j is i and y is x (substituted
   everywhere), or H becomes a statement about l *)
Ltac split_update i j Hp H :=
  destruct (Nat.eq_dec i j) as [<-|?];
  [ rewrite (nth_error_update_eq _ _ _ _ Hp) in H; inversion H; subst; clear H
  | rewrite nth_error_update_neq in H by assumption ].
Lemma nth_error_update_ex {A} (P : A -> Prop) (l : list A) i x y j :
  nth_error l i = Some x -> (P x -> P y) ->
  (exists z, nth_error l j = Some z /\ P z) -> exists z, nth_error (update l i y) j = Some z /\ P z.
Proof.
  intros Hx Hxy (z & Hz & Pz). destruct (Nat.eq_dec i j) as [<-|?].
  - exists y. rewrite Hx in Hz. inversion Hz; subst z. rewrite (nth_error_update_eq _ _ _ _ Hx). auto.
  - exists z. rewrite nth_error_update_neq by assumption. auto.
Qed.
Lemma update_same {A} (l : list A) i x : nth_error l i = Some x -> update l i x = l.
Proof.
  revert i; induction l as [|y l IH]; intros [|i]; cbn; intros H; try discriminate; auto.
  - inversion H; reflexivity.
  - f_equal. auto.
Qed.
Lemma map_update {A B} (f : A -> B) l i x : map f (update l i x) = update (map f l) i (f x).
Proof. revert i; induction l as [|y l IH]; intros [|i]; cbn; auto. f_equal. apply IH. Qed.
Lemma map_repeat {A B} (f : A -> B) x n : map f (repeat x n) = repeat (f x) n.
Proof. induction n; cbn; auto. f_equal. exact IHn. Qed.
Lemma In_update_new {A} (l : list A) i y z : nth_error l i = Some y -> In z (update l i z).
Proof.
  revert i; induction l as [|x l IH]; intros [|i]; cbn; intros H; try discriminate; auto; try (right; eapply IH; eauto).
Qed.
Lemma In_update_keep {A} (l : list A) i y z x : nth_error l i = Some y -> In x l -> x = y \/ In x (update l i z).
Proof.
  revert i; induction l as [|a l IH]; intros [|i]; cbn; intros H Hin; try discriminate.
  - inversion H; subst. destruct Hin as [->|Hin]; auto.
  - destruct Hin as [->|Hin]; [auto|]. destruct (IH _ H Hin); auto.
Qed.
Lemma In_update_inv {A} (l : list A) i z x : In x (update l i z) -> x = z \/ In x l.
Proof.
  revert i; induction l as [|a l IH]; intros [|i]; cbn; intros H; auto.
  - destruct H as [<-|H]; auto.
  - destruct H as [<-|H]; auto. destruct (IH _ H); auto.
Qed.
Lemma forallb_nth {A} (f : A -> bool) l i x : forallb f l = true -> nth_error l i = Some x -> f x = true.
Proof. intros H Hn. apply nth_error_In in Hn. eapply forallb_forall in H; eauto. Qed.
Lemma forallb_update {A} (f : A -> bool) l i x : forallb f l = true -> f x = true -> forallb f (update l i x) = true.
Proof.
  revert i; induction l as [|y l IH]; intros [|i]; cbn; intros H Hx; auto; apply andb_true_iff in H as [H1 H2];
    apply andb_true_iff; split; auto.
Qed.
Lemma existsb_forallb_neg {A} (f : A -> bool) l : existsb f l = false <-> forallb (fun x => negb (f x)) l = true.
Proof.
  induction l as [|y l IH]; cbn; [tauto|]. rewrite orb_false_iff, andb_true_iff, IH, negb_true_iff. tauto.
Qed.
Lemma forallb_negb_nth {A} (f : A -> bool) l i x : forallb (fun x => negb (f x)) l = true -> nth_error l i = Some x -> f x = false.
Proof. intros H Hn. apply negb_true_iff. exact (forallb_nth _ _ _ _ H Hn). Qed.
Lemma existsb_update {A} (f : A -> bool) l i x : existsb f l = false -> f x = false -> existsb f (update l i x) = false.
Proof. rewrite !existsb_forallb_neg. intros H Hx. apply forallb_update; [exact H|]. rewrite Hx. reflexivity. Qed.
Lemma existsb_nth {A} (f : A -> bool) l i x : existsb f l = false -> nth_error l i = Some x -> f x = false.
Proof. intros H. apply forallb_negb_nth, existsb_forallb_neg, H. Qed.

(* a lock that names its holder: two threads inside the critical section are the same thread *)
Lemma owner_unique {A} (sec : A -> bool) (lk : option nat) (l : list A) i t j u :
  (forall j u, nth_error l j = Some u -> sec u = true -> lk = Some j) ->
  nth_error l i = Some t -> sec t = true -> nth_error l j = Some u -> sec u = true -> j = i.
Proof. intros Ho Ht Hs Hu Hsu. pose proof (Ho _ _ Ht Hs). pose proof (Ho _ _ Hu Hsu). congruence. Qed.

(* ---- the invariant of the interleaving model *)
Definition mkrec (tok : token) (rq : request) : record := mkRec (q_name rq) (tok (q_name rq)) (q_body rq).
Definition audited (p : pc) : bool := match p with PAudited _ | PDone _ => true | _ => false end.
Fixpoint recs (tok : token) (rqs : list request) (pcs : list pc) : list record :=
  match rqs, pcs with
  | rq :: r, p :: ps => (if audited p then [mkrec tok rq] else []) ++ recs tok r ps
  | _, _ => []
  end.
Definition pcok (tok : token) (rq : request) (p : pc) : Prop :=
  match p with
  | PStart => True
  | PHaveKey k => k = tok (q_name rq)
  | PSigned s | PAudited s | PDone s => s = isolated tok rq
  end.
Definition cache_ok (tok : token) (c : list (Z * Z)) : Prop :=
  forall n k, cache_lookup n c = Some k -> k = tok n.

Record Inv (tok : token) (rqs : list request) (s : sys) : Prop := mkInv {
  inv_len : length (fst s) = length rqs;
  inv_cache : cache_ok tok (sh_cache (snd s));
  inv_pc : forall i rq p, nth_error rqs i = Some rq -> nth_error (fst s) i = Some p -> pcok tok rq p;
  inv_log : Permutation (sh_log (snd s)) (recs tok rqs (fst s))
}.

Lemma recs_update_same tok rqs pcs i p p' :
  nth_error pcs i = Some p -> audited p' = audited p ->
  recs tok rqs (update pcs i p') = recs tok rqs pcs.
Proof.
  revert pcs i; induction rqs as [|rq r IH]; intros [|q ps] [|i]; cbn; intros H Ha; try discriminate; auto.
  - inversion H; subst. rewrite Ha. reflexivity.
  - f_equal. eapply IH; eauto.
Qed.
Lemma recs_update_audit tok rqs pcs i rq p p' :
  nth_error rqs i = Some rq -> nth_error pcs i = Some p -> audited p = false -> audited p' = true ->
  Permutation (mkrec tok rq :: recs tok rqs pcs) (recs tok rqs (update pcs i p')).
Proof.
  revert pcs i; induction rqs as [|rq0 r IH]; intros [|q ps] [|i]; cbn; intros Hr Hp Ha Ha'; try discriminate.
  - inversion Hr; inversion Hp; subst. rewrite Ha, Ha'. cbn. apply Permutation_refl.
  - eapply Permutation_trans; [apply Permutation_middle|].
    apply Permutation_app_head. eapply IH; eauto.
Qed.

Lemma inv_init tok rqs : Inv tok rqs (map (fun _ => PStart) rqs, mkSh [] []).
Proof.
  constructor; cbn.
  - apply map_length.
  - intros n k H; discriminate.
  - intros i rq p _ H. rewrite nth_error_map in H. destruct (nth_error rqs i); cbn in H; [|discriminate].
    inversion H; subst. exact I.
  - induction rqs as [|rq r IH]; cbn; auto.
Qed.

(* request i moves from p to p': either the step is not the audit step and leaves the log alone, or it is and appends
   the request's record *)
Lemma inv_update tok rqs pcs sh i rq p p' sh' :
  Inv tok rqs (pcs, sh) -> nth_error rqs i = Some rq -> nth_error pcs i = Some p ->
  pcok tok rq p' -> cache_ok tok (sh_cache sh') ->
  audited p' = audited p /\ sh_log sh' = sh_log sh \/
  audited p = false /\ audited p' = true /\ sh_log sh' = sh_log sh ++ [mkrec tok rq] ->
  Inv tok rqs (update pcs i p', sh').
Proof.
  intros [Hl Hc Hp Hg] Er Ep Hok Hc' Hlog. cbn in *. constructor; cbn; auto.
  - rewrite length_update. exact Hl.
  - intros j rq' q Hr Hq. split_update i j Ep Hq; [|eauto].
    rewrite Er in Hr. inversion Hr; subst. exact Hok.
  - destruct Hlog as [[Ha ->]|(Ha & Ha' & ->)].
    + rewrite (recs_update_same _ _ _ _ _ _ Ep Ha). exact Hg.
    + eapply Permutation_trans; [apply Permutation_sym, Permutation_cons_append|].
      eapply Permutation_trans; [apply perm_skip, Hg|].
      exact (recs_update_audit tok rqs pcs i rq _ _ Er Ep Ha Ha').
Qed.

Lemma inv_step tok rqs s i : Inv tok rqs s -> Inv tok rqs (sys_step tok rqs s i).
Proof.
  intros HI. unfold sys_step.
  destruct (nth_error rqs i) as [rq|] eqn:Er; [|exact HI].
  destruct (nth_error (fst s) i) as [p|] eqn:Ep; [|exact HI].
  destruct s as [pcs sh]. cbn [fst snd] in *.
  pose proof (inv_pc _ _ _ HI i rq p Er Ep) as Hok. pose proof (inv_cache _ _ _ HI) as Hc. cbn [fst snd] in *.
  destruct p as [|k|sg|sg|sg]; cbn [step].
  - destruct (cache_lookup (q_name rq) (sh_cache sh)) as [k|] eqn:El; eapply inv_update; eauto.
    + exact (Hc _ _ El).
    + reflexivity.
    + intros n k. cbn. destruct (q_name rq =? n) eqn:En; [|apply Hc].
      intros H; inversion H; subst. apply Z.eqb_eq in En. subst. reflexivity.
  - eapply inv_update; eauto. cbn in *. subst. reflexivity.
  - eapply inv_update; eauto. cbn in *. subst sg. right. auto.
  - eapply inv_update; eauto.
  - eapply inv_update; eauto.
Qed.

Lemma inv_run tok rqs sched : Inv tok rqs (run tok rqs sched).
Proof. apply (fold_left_inv (Inv tok rqs)); [intros s i; apply inv_step|apply inv_init]. Qed.

(* ---- the theorems *)
Lemma isolation : forall tok rqs sched i rq s,
  nth_error rqs i = Some rq ->
  option_map response (nth_error (fst (run tok rqs sched)) i) = Some (Some s) ->
  s = isolated tok rq.
Proof.
  intros tok rqs sched i rq s Hr H.
  destruct (nth_error (fst (run tok rqs sched)) i) as [p|] eqn:Ep; cbn in H; [|discriminate].
  destruct p; cbn in H; try discriminate. inversion H; subst.
  exact (inv_pc _ _ _ (inv_run tok rqs sched) i rq _ Hr Ep).
Qed.

Lemma recs_all_done tok rqs pcs :
  length pcs = length rqs -> Forall (fun p => exists s, p = PDone s) pcs ->
  recs tok rqs pcs = map (mkrec tok) rqs.
Proof.
  revert pcs; induction rqs as [|rq r IH]; intros [|p ps]; cbn; intros Hl Hf; try discriminate; auto.
  inversion Hf as [|? ? [sg ->] Hf']; subst. cbn. f_equal. apply IH; auto.
Qed.

Lemma no_lost_audit : forall tok rqs sched,
  Forall (fun p => exists s, p = PDone s) (fst (run tok rqs sched)) ->
  Permutation (sh_log (snd (run tok rqs sched)))
              (map (fun rq => mkRec (q_name rq) (tok (q_name rq)) (q_body rq)) rqs).
Proof.
  intros tok rqs sched Hf. pose proof (inv_run tok rqs sched) as HI.
  pose proof (inv_log _ _ _ HI) as Hg.
  rewrite (recs_all_done tok rqs _ (inv_len _ _ _ HI) Hf) in Hg. exact Hg.
Qed.

Lemma progress : forall tok rqs s i rq p,
  nth_error rqs i = Some rq -> nth_error (fst s) i = Some p -> (forall sg, p <> PDone sg) ->
  nth_error (fst (sys_step tok rqs s i)) i <> Some p.
Proof.
  intros tok rqs s i rq p Hr Hp Hn. unfold sys_step. rewrite Hr, Hp.
  destruct (step tok rq p (snd s)) as [p' sh'] eqn:Es. cbn [fst].
  rewrite (nth_error_update_eq _ _ _ _ Hp). intros H; inversion H; subst p'.
  destruct p; cbn in Es; try discriminate.
  - destruct (cache_lookup (q_name rq) (sh_cache (snd s))); discriminate.
  - eapply Hn; reflexivity.
Qed.

Lemma close_calls_closed n r : close_calls n true r = (true, r).
Proof. induction n as [|n IH]; cbn; auto. Qed.
Lemma closeonce_once : forall callers, (1 <= callers)%nat -> close_calls callers false 0 = (true, 1%nat).
Proof.
  intros [|n] H; [lia|]. cbn. apply close_calls_closed.
Qed.
