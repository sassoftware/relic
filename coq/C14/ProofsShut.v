(* C14/ProofsShut.v — shutdown at any moment: handlers accepted before it run to completion, the tokens are closed only
   after the last of them (within the grace period), nothing is accepted afterwards, Close returns last; the audit file
   holds exactly one complete line per audited request under every interleaving. *)
From Relic Require Import Base.Prelude Generated.C14_gen C14.Model C14.Proofs C14.ModelShut.

(* ---- the generated tables this development is about *)
Lemma close_prog_eq : close_prog = [2; 3]. Proof. reflexivity. Qed.
Lemma close_waits_eq : close_waits = true. Proof. reflexivity. Qed.
Lemma audit_atomic_eq : audit_atomic = true. Proof. reflexivity. Qed.
Lemma serve_table : serve_sign_calls = [0; 1; 2; 3; 4; 5; 6]. Proof. reflexivity. Qed.
Lemma server_close_table : server_close_calls = [0; 1]. Proof. reflexivity. Qed.
Lemma loop_exits : health_loop_exits_on_close = true. Proof. reflexivity. Qed.
Lemma waits_eq : server_close_waits_loop = true. Proof. reflexivity. Qed.
Lemma guard_eq : health_guard = true. Proof. reflexivity. Qed.

(* ---- closed form of a handler step (one write per append) *)
Definition next_pc (listening ok : bool) (p : hpc) : hpc :=
  match p with
  | HNew => if listening then HRun 0 else HRefused
  | HRun 0 | HRun 1 | HRun 2 => match p with HRun k => HRun (S k) | _ => p end
  | HRun 3 | HRun 4 | HRun 5 => match p with HRun k => if ok then HRun (S k) else HErr | _ => p end
  | HRun _ => HDone
  | HHalf k => HRun (S k)
  | _ => p
  end.
Definition uses_token (p : hpc) : bool := match p with HRun 3 | HRun 4 => true | _ => false end.
Definition appends (ok : bool) (p : hpc) : bool := match p with HRun 5 => ok | _ => false end.

Lemma sstep_req line ntok s i ok :
  sstep line ntok s (EReq i ok) =
  match nth_error (ss_req s) i with
  | None => s
  | Some p =>
      mkSS (ss_now s) (ss_listening s) (ss_called s) (ss_begun s) (ss_shut_at s) (ss_sd s) (ss_forced s) (ss_chan_closed s) (ss_tok_closed s)
           (ss_returned s) (update (ss_req s) i (next_pc (ss_listening s) ok p))
           (if appends ok p then ss_file s ++ line i ++ [nl] else match p with HHalf _ => ss_file s ++ [nl] | _ => ss_file s end)
           (if appends ok p then i :: ss_order s else ss_order s)
           (if uses_token p then TUse i :: ss_trace s else ss_trace s) (ss_loop s)
  end.
Proof.
  unfold sstep. cbn [sstep_gen]. rewrite audit_atomic_eq. destruct (nth_error (ss_req s) i) as [p|] eqn:Hp; [|reflexivity].
  unfold hstep. rewrite serve_table.
  destruct p as [| |k|k| |]; try (cbn; rewrite (update_same _ _ _ Hp); destruct s; reflexivity).
  - unfold set_req. destruct (ss_listening s); reflexivity.
  - do 7 (destruct k as [|k]; [destruct ok; reflexivity|]). destruct k; reflexivity.
  - reflexivity.
Qed.

(* ---- the shutdown invariant *)
Definition quiet (s : sstate) : Prop := forallb (fun p => negb (active p)) (ss_req s) = true.
Record ShInv (s : sstate) : Prop := mkShInv {
  sh_sd_le : (ss_sd s <= 2)%nat;
  sh_begun_listen : ss_begun s = true -> ss_listening s = false;
  sh_sd_begun : (1 <= ss_sd s)%nat -> ss_begun s = true;
  sh_begun_called : ss_begun s = true -> ss_called s = true;
  sh_drained : (1 <= ss_sd s)%nat -> ss_forced s = false -> quiet s;
  sh_closed_sd : ss_tok_closed s = true -> ss_sd s = 2%nat;
  sh_sd_closed : ss_sd s = 2%nat -> ss_tok_closed s = true /\ ss_chan_closed s = true;
  sh_close_trace : has_close (ss_trace s) = ss_tok_closed s;
  sh_clean : ss_forced s = false -> clean (ss_trace s) = true;
  sh_returned : ss_returned s = true -> ss_sd s = 2%nat;
  sh_nohalf : forall i k, nth_error (ss_req s) i <> Some (HHalf k);
  sh_tok_chan : ss_tok_closed s = true -> ss_chan_closed s = true /\ ss_loop s = LExit;
  sh_noping : no_ping_after_close (ss_trace s) = true
}.

Ltac shsimp := cbn [ss_sd ss_begun ss_listening ss_called ss_forced ss_tok_closed ss_chan_closed ss_trace ss_returned ss_req ss_loop
                    has_close clean no_ping_after_close].

Lemma shinv_init n : ShInv (sinit n).
Proof.
  constructor; unfold sinit; shsimp; try discriminate; try reflexivity; try lia.
  intros i k H. apply nth_error_In, repeat_spec in H. discriminate.
Qed.

Lemma next_pc_quiet ok p : active p = false -> active (next_pc false ok p) = false.
Proof. destruct p; cbn; auto; discriminate. Qed.

Lemma next_pc_not_half l ok p k : (forall q, p <> HHalf q) -> next_pc l ok p <> HHalf k.
Proof.
  intros Hn. destruct p as [| |[|[|[|[|[|[|q]]]]]]|q| |]; cbn; try discriminate;
    try (destruct l; discriminate); try (destruct ok; discriminate);
    exfalso; eapply Hn; reflexivity.
Qed.

Lemma shinv_req line ntok s i ok : ShInv s -> ShInv (sstep line ntok s (EReq i ok)).
Proof.
  intros HI. rewrite sstep_req. destruct (nth_error (ss_req s) i) as [p|] eqn:Hp; [|exact HI].
  destruct HI as [A B C CC D F G H K R N TC NP].
  (* a handler that is running while the tokens are closed contradicts the invariant (unless the grace period expired) *)
  assert (Act : ss_forced s = false -> (1 <= ss_sd s)%nat -> active p = false).
  { intros Hf Hsd. exact (forallb_negb_nth _ _ _ _ (D Hsd Hf) Hp). }
  constructor; shsimp; auto.
  - intros Hsd Hf. unfold quiet. cbn [ss_req]. apply forallb_update; [apply D; auto|].
    rewrite (B (C Hsd)). rewrite next_pc_quiet; [reflexivity|auto].
  - destruct (uses_token p); [cbn|]; exact H.
  - intros Hf. destruct (uses_token p) eqn:Hu; [|auto]. cbn [clean]. rewrite (K Hf), andb_true_r.
    rewrite H. destruct (ss_tok_closed s) eqn:Hc; [|reflexivity]. exfalso.
    assert (Hsd : (1 <= ss_sd s)%nat) by (rewrite (F eq_refl); lia).
    pose proof (Act Hf Hsd) as Q. destruct p as [| |[|[|[|[|[|k]]]]]| | |]; cbn in Hu, Q; discriminate.
  - intros j k. destruct (Nat.eq_dec i j) as [<-|ne].
    + rewrite (nth_error_update_eq _ _ _ _ Hp). intros Hh. inversion Hh as [Hh'].
      apply (next_pc_not_half (ss_listening s) ok p k); [|exact Hh']. intros q Hq. subst p. eapply N; eauto.
    + rewrite nth_error_update_neq by assumption. apply N.
  - destruct (uses_token p); exact NP.
Qed.

(* what a step of the shutdown goroutine / of the health loop can NOT change *)
Lemma gostep_frame waits ntok s :
  let s' := gostep_gen waits ntok s in
  ss_req s' = ss_req s /\ ss_file s' = ss_file s /\ ss_order s' = ss_order s /\ ss_loop s' = ss_loop s /\
  (ss_begun s = true -> ss_begun s' = true).
Proof.
  unfold gostep_gen. destruct (negb (ss_called s)); [repeat split; auto|].
  destruct (nth_error close_prog (ss_sd s)) as [c|]; [|repeat split; auto].
  destruct (c =? 2).
  - destruct (negb (ss_begun s)); [cbn; repeat split; auto|]. destruct (negb (existsb active (ss_req s))); [cbn; repeat split; auto|].
    destruct (daemon_shutdown_timeout <=? ss_now s - ss_shut_at s); cbn; repeat split; auto.
  - destruct waits; [|cbn; repeat split; auto]. destruct (negb (ss_chan_closed s)); [cbn; repeat split; auto|].
    destruct (ss_loop s) eqn:El; cbn; rewrite ?El; repeat split; auto.
Qed.
Lemma lstep_frame guard ntok timer s :
  let s' := lstep_gen guard ntok timer s in
  ss_req s' = ss_req s /\ ss_file s' = ss_file s /\ ss_order s' = ss_order s /\ ss_begun s' = ss_begun s /\
  ss_sd s' = ss_sd s /\ ss_called s' = ss_called s /\ ss_chan_closed s' = ss_chan_closed s /\ ss_tok_closed s' = ss_tok_closed s /\
  ss_listening s' = ss_listening s /\ ss_forced s' = ss_forced s /\ ss_returned s' = ss_returned s.
Proof.
  unfold lstep_gen. destruct (ss_loop s) as [|[|n]|n|].
  - destruct timer; [cbn; repeat split; auto|]. destruct (ss_chan_closed s) eqn:E; [destruct health_loop_exits_on_close|]; cbn; rewrite ?E; repeat split; auto.
  - cbn; repeat split; auto.
  - destruct (guard && ss_chan_closed s); cbn; repeat split; auto.
  - cbn; repeat split; auto.
  - repeat split; auto.
Qed.

(* The goroutine's step sets a few flags. In each case most parts of the invariant are untouched or hold for a reason a
   glance shows (a premise that is false, a number that is small); those are closed together, the rest one by one. *)
Lemma shinv_go ntok s : ShInv s -> ShInv (gostep ntok s).
Proof.
  intros HI. pose proof HI as [A B C CC D F G H K R N TC NP]. unfold gostep, gostep_gen. rewrite waits_eq.
  destruct (ss_called s) eqn:Hc; cbn [negb]; [|exact HI].
  rewrite close_prog_eq.
  destruct (ss_sd s) as [|[|sd]] eqn:Hsd; cbn [nth_error Z.eqb Pos.eqb].
  3: { assert (En : nth_error (@nil Z) sd = None) by (destruct sd; reflexivity). rewrite En. exact HI. }
  all: assert (Hnc : ss_tok_closed s = false) by (destruct (ss_tok_closed s) eqn:E; [discriminate (F eq_refl)|reflexivity]).
  all: assert (Hnr : ss_returned s = false) by (destruct (ss_returned s) eqn:E; [discriminate (R eq_refl)|reflexivity]).
  - (* Shutdown: close the listener; then return when no handler is active, or when the grace period is over *)
    destruct (ss_begun s) eqn:Hb; cbn [negb].
    + destruct (existsb active (ss_req s)) eqn:Hex; cbn [negb].
      * destruct (daemon_shutdown_timeout <=? ss_now s - ss_shut_at s); [|exact HI].
        constructor; shsimp; auto; intros; first [congruence|lia].
      * constructor; shsimp; auto; try (intros; first [congruence|lia]).
        intros _ _. apply existsb_forallb_neg. exact Hex.
    + constructor; shsimp; auto; intros; first [congruence|lia].
  - (* server.Close: close the channel; wait for the loop; close the tokens *)
    destruct (ss_chan_closed s) eqn:Hch; cbn [negb].
    + destruct (ss_loop s) eqn:Hl; try exact HI.
      constructor; shsimp; auto; intros; first [congruence|lia].
    + constructor; shsimp; auto; intros; first [congruence|lia].
Qed.

Lemma shinv_set_loop s l : ShInv s -> ss_tok_closed s = false -> ShInv (set_loop s l).
Proof.
  intros [A B C CC D F G H K R N TC NP] Hnc. constructor; unfold set_loop; shsimp; try assumption.
  rewrite Hnc. discriminate.
Qed.
Lemma shinv_ping s e : ShInv s -> ss_tok_closed s = false -> e = TPing \/ e = TPong -> ShInv (add_trace s e).
Proof.
  intros [A B C CC D F G H K R N TC NP] Hnc He. constructor; unfold add_trace; shsimp; try assumption.
  - destruct He as [->| ->]; exact H.
  - intros Hf. destruct He as [->| ->]; cbn [clean]; auto.
  - destruct He as [->| ->]; cbn [no_ping_after_close]; rewrite H, Hnc, NP; reflexivity.
Qed.

Lemma shinv_loop ntok timer s : ShInv s -> ShInv (lstep ntok timer s).
Proof.
  intros HI. pose proof HI as [A B C CC D F G H K R N TC NP]. unfold lstep, lstep_gen.
  (* while the loop has not exited the tokens are open (this does not depend on healthCheck looking at the channel) *)
  assert (Open : ss_loop s <> LExit -> ss_tok_closed s = false).
  { intros Hn. destruct (ss_tok_closed s) eqn:E; [|reflexivity]. destruct (TC eq_refl) as [_ Hl]. contradiction. }
  destruct (ss_loop s) as [|[|n]|n|] eqn:Hl; [| | | |exact HI];
    assert (Hnc : ss_tok_closed s = false) by (apply Open; discriminate).
  - destruct timer; [apply shinv_set_loop; assumption|]. destruct (ss_chan_closed s); [|exact HI]. rewrite loop_exits. apply shinv_set_loop; assumption.
  - apply shinv_set_loop; assumption.
  - destruct (health_guard && ss_chan_closed s); apply shinv_set_loop; auto using shinv_ping.
  - apply shinv_set_loop; auto using shinv_ping.
Qed.

Lemma shinv_step line ntok s e : ShInv s -> ShInv (sstep line ntok s e).
Proof.
  intros HI. destruct e as [i ok| | | |d|timer].
  - apply shinv_req; exact HI.
  - destruct HI as [A B C CC D F G H K R N TC NP]. unfold sstep; cbn [sstep_gen]. constructor; auto.
  - unfold sstep; cbn [sstep_gen]. apply shinv_go; exact HI.
  - pose proof HI as [A B C CC D F G H K R N TC NP]. unfold sstep; cbn [sstep_gen]. rewrite close_waits_eq, close_prog_eq.
    destruct (ss_called s && Nat.leb (length [2; 3]) (ss_sd s)) eqn:E; [|exact HI].
    apply andb_true_iff in E as [E1 E2]. apply Nat.leb_le in E2. cbn [length] in E2.
    constructor; shsimp; auto.
    intros _. lia.
  - destruct HI as [A B C CC D F G H K R N TC NP]. unfold sstep; cbn [sstep_gen]. constructor; auto.
  - unfold sstep; cbn [sstep_gen]. apply shinv_loop; exact HI.
Qed.
Lemma shinv_run line ntok n sched : ShInv (srun line ntok n sched).
Proof. apply (fold_left_inv ShInv); [intros s e; apply shinv_step|apply shinv_init]. Qed.

(* ---- handlers: events of others leave a handler's program counter alone, its own step depends only on its own state *)
Lemma req_step line ntok s i ok p : nth_error (ss_req s) i = Some p ->
  nth_error (ss_req (sstep line ntok s (EReq i ok))) i = Some (next_pc (ss_listening s) ok p).
Proof.
  intros Hp. rewrite sstep_req, Hp. apply (nth_error_update_eq _ _ _ _ Hp).
Qed.
(* only a handler's step touches the handlers or the audit file *)
Lemma sstep_frame line ntok s e :
  match e with
  | EReq _ _ => True
  | _ => ss_req (sstep line ntok s e) = ss_req s /\ ss_file (sstep line ntok s e) = ss_file s /\ ss_order (sstep line ntok s e) = ss_order s
  end.
Proof.
  destruct e as [i ok| | | |d|timer]; unfold sstep; cbn [sstep_gen]; auto.
  - destruct (gostep_frame server_close_waits_loop ntok s) as (F1 & F2 & F3 & _). auto.
  - destruct (ss_called s && (if close_waits then Nat.leb (length close_prog) (ss_sd s) else true)); auto.
  - destruct (lstep_frame health_guard ntok timer s) as (F1 & F2 & F3 & _). auto.
Qed.
Lemma req_frame line ntok s e i : (forall ok, e <> EReq i ok) -> nth_error (ss_req (sstep line ntok s e)) i = nth_error (ss_req s) i.
Proof.
  intros Hne. pose proof (sstep_frame line ntok s e) as F.
  destruct e as [j ok| | | |d|timer]; [|destruct F as (F & _); rewrite F; reflexivity ..].
  rewrite sstep_req. destruct (nth_error (ss_req s) j) as [p|] eqn:Hp; [|reflexivity].
  apply nth_error_update_neq. intros ->. eapply Hne; reflexivity.
Qed.
Lemma handler_own_step : forall line ntok s i ok p,
  nth_error (ss_req s) i = Some p -> active p = true ->
  nth_error (ss_req (sstep line ntok s (EReq i ok))) i = Some (next_pc true ok p).
Proof.
  intros line ntok s i ok p Hp Ha. rewrite (req_step _ _ _ _ _ _ Hp). destruct p; try discriminate; reflexivity.
Qed.
(* the listener never reopens *)
Lemma begun_monotone line ntok e s : ss_begun s = true -> ss_begun (sstep line ntok s e) = true.
Proof.
  intros Hb. destruct e as [i ok| | | |d|timer]; [rewrite sstep_req; destruct (nth_error (ss_req s) i); exact Hb|..];
    unfold sstep; cbn [sstep_gen]; auto.
  - destruct (gostep_frame server_close_waits_loop ntok s) as (_ & _ & _ & _ & Hg). auto.
  - destruct (ss_called s && (if close_waits then Nat.leb (length close_prog) (ss_sd s) else true)); exact Hb.
  - destruct (lstep_frame health_guard ntok timer s) as (_ & _ & _ & Hg & _). rewrite Hg. exact Hb.
Qed.

(* the steps a handler still has to take: its own steps lower it, nothing else touches it *)
Definition budget (p : hpc) : nat :=
  match p with HNew => 11 | HRun k => Nat.max 1 (9 - k) | HHalf k => 1 + Nat.max 1 (9 - S k) | _ => 0 end%nat.
Definition own (i : nat) (e : sev) : bool := match e with EReq j _ => Nat.eqb i j | _ => false end.
Lemma budget_zero p : budget p = 0%nat -> terminal p = true.
Proof. destruct p as [| |k|k| |]; unfold budget; intros H; auto; exfalso; lia. Qed.
Lemma budget_next l ok p : (budget (next_pc l ok p) <= pred (budget p))%nat.
Proof.
  destruct p as [| |[|[|[|[|[|[|[|q]]]]]]]|q| |]; unfold budget, next_pc; try lia; try (destruct l; lia); try (destruct ok; lia).
Qed.

(* ---- shutdown terminates: the goroutine's steps one by one, from a state in which Close was called *)
Lemma go_begin ntok s : ss_called s = true -> ss_sd s = 0%nat -> ss_begun s = false ->
  let s1 := gostep ntok s in ss_called s1 = true /\ ss_sd s1 = 0%nat /\ ss_begun s1 = true /\ ss_req s1 = ss_req s.
Proof.
  intros Hc Hsd Hb. unfold gostep, gostep_gen. rewrite Hc, Hsd, Hb, close_prog_eq. cbn [negb nth_error Z.eqb Pos.eqb]. repeat split; reflexivity.
Qed.
Lemma go_drain ntok s : ss_called s = true -> ss_sd s = 0%nat -> ss_begun s = true -> existsb active (ss_req s) = false ->
  let s1 := gostep ntok s in ss_called s1 = true /\ ss_sd s1 = 1%nat.
Proof.
  intros Hc Hsd Hb Hex. unfold gostep, gostep_gen. rewrite Hc, Hsd, Hb, Hex, close_prog_eq. cbn [negb nth_error Z.eqb Pos.eqb]. repeat split; reflexivity.
Qed.
Lemma go_close_chan ntok s : ss_called s = true -> ss_sd s = 1%nat -> ss_chan_closed s = false ->
  let s1 := gostep ntok s in ss_called s1 = true /\ ss_sd s1 = 1%nat /\ ss_chan_closed s1 = true.
Proof.
  intros Hc Hsd Hch. unfold gostep, gostep_gen. rewrite Hc, Hsd, Hch, waits_eq, close_prog_eq. cbn [negb nth_error Z.eqb Pos.eqb]. repeat split; reflexivity.
Qed.
Lemma go_wait_loop ntok s : ss_called s = true -> ss_sd s = 1%nat -> ss_chan_closed s = true -> ss_loop s <> LExit -> gostep ntok s = s.
Proof.
  intros Hc Hsd Hch Hl. unfold gostep, gostep_gen. rewrite Hc, Hsd, Hch, waits_eq, close_prog_eq. cbn [negb nth_error Z.eqb Pos.eqb].
  destruct (ss_loop s); try reflexivity. contradiction.
Qed.
Lemma go_close_tokens ntok s : ss_called s = true -> ss_sd s = 1%nat -> ss_chan_closed s = true -> ss_loop s = LExit ->
  let s1 := gostep ntok s in ss_called s1 = true /\ ss_sd s1 = 2%nat.
Proof.
  intros Hc Hsd Hch Hl. unfold gostep, gostep_gen. rewrite Hc, Hsd, Hch, Hl, waits_eq, close_prog_eq. cbn [negb nth_error Z.eqb Pos.eqb]. split; reflexivity.
Qed.
Lemma go_done ntok s : ss_sd s = 2%nat -> gostep ntok s = s.
Proof.
  intros Hsd. unfold gostep, gostep_gen. destruct (negb (ss_called s)); [reflexivity|]. rewrite Hsd, close_prog_eq. reflexivity.
Qed.
Lemma wait_returns line ntok s : ss_called s = true -> ss_sd s = 2%nat -> ss_returned (sstep line ntok s EWait) = true.
Proof.
  intros Hc Hsd. unfold sstep; cbn [sstep_gen]. rewrite Hc, Hsd, close_waits_eq, close_prog_eq. reflexivity.
Qed.
(* the health loop leaves within three of its own steps once the channel is closed (no timer firing in between) *)
Lemma loop_leaves ntok s : ss_chan_closed s = true ->
  let s3 := lstep ntok false (lstep ntok false (lstep ntok false s)) in
  ss_loop s3 = LExit /\ ss_called s3 = ss_called s /\ ss_sd s3 = ss_sd s /\ ss_chan_closed s3 = true.
Proof.
  intros Hch.
  assert (St : forall u, ss_chan_closed u = true ->
            ss_chan_closed (lstep ntok false u) = true /\ ss_called (lstep ntok false u) = ss_called u /\ ss_sd (lstep ntok false u) = ss_sd u /\
            match ss_loop u with
            | LWait | LExit => ss_loop (lstep ntok false u) = LExit
            | LCheck _ => ss_loop (lstep ntok false u) = LWait
            | LPing n => ss_loop (lstep ntok false u) = LCheck n
            end).
  { intros u Hu. destruct (lstep_frame health_guard ntok false u) as (_ & _ & _ & _ & F5 & F6 & F7 & _).
    fold (lstep ntok false u) in *. rewrite F7, F6, F5. repeat split; auto.
    unfold lstep, lstep_gen. rewrite guard_eq. destruct (ss_loop u) as [|[|n]|n|] eqn:El; rewrite ?Hu, ?loop_exits; cbn; auto. }
  destruct (St s Hch) as (C1 & K1 & D1 & L1).
  destruct (St _ C1) as (C2 & K2 & D2 & L2).
  destruct (St _ C2) as (C3 & K3 & D3 & L3).
  cbn zeta. rewrite K3, K2, K1, D3, D2, D1. repeat split; auto.
  destruct (ss_loop s) as [|k|n|]; rewrite L1 in L2; rewrite L2 in L3; exact L3.
Qed.

(* the goroutine begins and drains Shutdown, closes the channel, the health loop leaves, the goroutine closes the
   tokens, the caller's wait returns *)
Definition finish_sched : list sev := [EGo; EGo; EGo; EHealth false; EHealth false; EHealth false; EGo; EGo; EWait].
Lemma sstep_go line ntok u : sstep line ntok u EGo = gostep ntok u. Proof. reflexivity. Qed.
Lemma sstep_health line ntok u t : sstep line ntok u (EHealth t) = lstep ntok t u. Proof. reflexivity. Qed.

(* Shutdown is over and the channel is closed (the goroutine may be waiting for the loop), or everything is done *)
Definition closing (u : sstate) : Prop :=
  ss_called u = true /\ ((ss_sd u = 1%nat /\ ss_chan_closed u = true) \/ ss_sd u = 2%nat).
Lemma go_closes ntok v : ss_called v = true -> ss_sd v = 1%nat -> closing (gostep ntok v).
Proof.
  intros Cv Sv. unfold closing. destruct (ss_chan_closed v) eqn:Hch.
  - destruct (ss_loop v) eqn:Hl; try (rewrite (go_wait_loop ntok v Cv Sv Hch) by (rewrite Hl; discriminate); auto).
    destruct (go_close_tokens ntok v Cv Sv Hch Hl) as (C1 & S1). auto.
  - destruct (go_close_chan ntok v Cv Sv Hch) as (C1 & S1 & H1). auto.
Qed.
Lemma go_closing ntok v : closing v -> closing (gostep ntok v).
Proof. intros (Cv & [[Sv Hv]|Sv]); [apply go_closes; assumption|]. rewrite (go_done ntok v Sv). unfold closing. auto. Qed.

(* three steps of the goroutine from any reachable quiet state *)
Lemma three_go ntok s : ShInv s -> ss_called s = true -> quiet s -> closing (gostep ntok (gostep ntok (gostep ntok s))).
Proof.
  intros HI Hc Hq.
  assert (Hex : existsb active (ss_req s) = false) by (apply existsb_forallb_neg; exact Hq).
  pose proof (sh_sd_le _ HI) as Hle.
  destruct (ss_sd s) as [|[|[|sd]]] eqn:Hsd; [| | |lia].
  - destruct (ss_begun s) eqn:Hb.
    + destruct (go_drain ntok s Hc Hsd Hb Hex) as (C1 & S1). apply go_closing, go_closes; assumption.
    + destruct (go_begin ntok s Hc Hsd Hb) as (C1 & S1 & B1 & R1).
      assert (Hex1 : existsb active (ss_req (gostep ntok s)) = false) by (rewrite R1; exact Hex).
      destruct (go_drain ntok _ C1 S1 B1 Hex1) as (C2 & S2). apply go_closes; assumption.
  - apply go_closing, go_closing, go_closes; assumption.
  - rewrite !(go_done ntok s Hsd). unfold closing. auto.
Qed.

(* ---- the audit file *)
Definition render (line : nat -> list Z) (order : list nat) : list Z := concat (map (fun i => line i ++ [nl]) order).
Lemma split_nl_line l : ~ In nl l -> forall acc rest,
  split_nl acc (l ++ nl :: rest) = (let '(ls, r) := split_nl [] rest in ((acc ++ l) :: ls, r)).
Proof.
  induction l as [|b l IH]; intros Hn acc rest.
  - cbn [app split_nl]. unfold nl at 1. rewrite Z.eqb_refl. rewrite app_nil_r. reflexivity.
  - cbn [app split_nl]. assert (E : (b =? nl) = false) by (apply Z.eqb_neq; intros ->; apply Hn; left; reflexivity).
    rewrite E. rewrite IH by (intros H; apply Hn; right; exact H). rewrite <- app_assoc. reflexivity.
Qed.
Lemma read_render line order : (forall i, ~ In nl (line i)) -> read_lines (render line order) = (map line order, []).
Proof.
  intros Hn. unfold read_lines, render. induction order as [|i r IH]; [reflexivity|].
  cbn [map concat]. rewrite <- app_assoc. cbn [app]. rewrite (split_nl_line (line i) (Hn i) [] _). rewrite IH. reflexivity.
Qed.

Definition aud (p : hpc) : bool := match p with HRun k => Nat.leb 6 k | HHalf _ => true | HDone => true | _ => false end.
Lemma audited_eq p : audited p = aud p.
Proof.
  destruct p as [| |k|k| |]; try reflexivity. unfold audited, aud. rewrite serve_table.
  destruct (Nat.leb 6 k) eqn:E.
  - apply Nat.leb_le in E. apply existsb_exists. exists 5%nat. split; [apply in_seq; lia|reflexivity].
  - apply Nat.leb_gt in E. destruct (existsb _ (seq 0 k)) eqn:Ex; [|reflexivity].
    apply existsb_exists in Ex as (j & Hj & Hv). apply in_seq in Hj.
    destruct j as [|[|[|[|[|[|[|j]]]]]]]; cbn in Hv; try discriminate; [lia|destruct j; discriminate].
Qed.

Record AuInv (line : nat -> list Z) (s : sstate) : Prop := mkAuInv {
  au_file : ss_file s = render line (rev (ss_order s));
  au_nodup : NoDup (ss_order s);
  au_iff : forall i p, nth_error (ss_req s) i = Some p -> (In i (ss_order s) <-> aud p = true);
  au_len : forall i, In i (ss_order s) -> (i < length (ss_req s))%nat
}.
Lemma render_snoc line o i : render line (o ++ [i]) = render line o ++ line i ++ [nl].
Proof. unfold render. rewrite map_app, concat_app. cbn. rewrite app_nil_r. reflexivity. Qed.

Lemma next_pc_aud l ok p : (forall q, p <> HHalf q) -> aud (next_pc l ok p) = aud p || appends ok p.
Proof.
  intros Hn. destruct p as [| |[|[|[|[|[|[|[|q]]]]]]]|q| |]; cbn; try reflexivity; try (destruct l; reflexivity); try (destruct ok; reflexivity).
  exfalso. eapply Hn; reflexivity.
Qed.

Lemma auinv_step line ntok s e : ShInv s -> AuInv line s -> AuInv line (sstep line ntok s e).
Proof.
  intros HS [Af An Ai Al]. pose proof (sstep_frame line ntok s e) as F.
  destruct e as [i ok| | | |d|timer]; [|destruct F as (F1 & F2 & F3); constructor; rewrite ?F1, ?F2, ?F3; assumption ..].
  rewrite sstep_req. destruct (nth_error (ss_req s) i) as [p|] eqn:Hp; [|constructor; assumption].
  assert (Hnh : forall q, p <> HHalf q) by (intros q ->; eapply (sh_nohalf _ HS); eauto).
  assert (Hi : (i < length (ss_req s))%nat) by (apply nth_error_Some; congruence).
  constructor; cbn [ss_file ss_order ss_req]; rewrite ?length_update.
  - destruct (appends ok p); [cbn [rev]; rewrite render_snoc, Af; reflexivity|].
    destruct p; try exact Af. exfalso. eapply Hnh; reflexivity.
  - destruct (appends ok p) eqn:Ha; [|exact An]. constructor; [|exact An].
    intros Hin. apply (Ai i _ Hp) in Hin. destruct p as [| |[|[|[|[|[|[|q]]]]]]|q| |]; discriminate.
  - intros j q Hq. split_update i j Hp Hq.
    + rewrite next_pc_aud by exact Hnh. destruct (appends ok p).
      * rewrite orb_true_r. cbn [In]. tauto.
      * rewrite orb_false_r. apply Ai; exact Hp.
    + rewrite <- (Ai j q Hq). destruct (appends ok p); cbn [In]; [|tauto]. split; [intros [E|E]; [congruence|exact E]|auto].
  - intros j Hj. destruct (appends ok p); [destruct Hj as [<-|Hj]|]; auto.
Qed.

Lemma auinv_run line ntok n sched : AuInv line (srun line ntok n sched).
Proof.
  apply (fold_left_inv (fun s => ShInv s /\ AuInv line s)).
  - intros s e [S H]. split; [apply shinv_step|apply auinv_step]; assumption.
  - split; [apply shinv_init|]. constructor; cbn [sinit ss_file ss_order ss_req rev].
    + reflexivity.
    + constructor.
    + intros j p H. apply nth_error_In, repeat_spec in H. subst p. cbn. split; [contradiction|discriminate].
    + intros j [].
Qed.
