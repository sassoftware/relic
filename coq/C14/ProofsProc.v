(* C14/ProofsProc.v — the process-level shutdown model: the main goroutine returns from Daemon.Serve (and the process
   exits) only after every accepted handler has finished and after server.Close has run, under every interleaving of
   goroutine steps, handler steps, signals and clock ticks; and it does exit once the handlers are done. *)
From Relic Require Import Base.Prelude Generated.C14_gen C14.Model C14.Proofs C14.ModelProc.

(* ---- the generated programs this development is about *)
Lemma main_prog_eq : main_prog = [(2, [5]); (0, [6])]. Proof. reflexivity. Qed.
Lemma serve_prog_eq : daemon_serve_prog = [(3, [1]); (0, [4])]. Proof. reflexivity. Qed.
Lemma close_prog_eq : daemon_close_prog = [(1, [2; 3]); (0, [4])]. Proof. reflexivity. Qed.
Lemma prog_guards_eq : daemon_close_prog_guards = [] /\ daemon_serve_prog_guards = [] /\ servecmd_prog_guards = [].
Proof. repeat split; reflexivity. Qed.
Lemma serve_sign_table : serve_sign_calls = [0; 1; 2; 3; 4; 5; 6]. Proof. reflexivity. Qed.
Lemma grace_eq : grace = daemon_shutdown_timeout. Proof. reflexivity. Qed.
Lemma main_exit_code_eq : main_exit_code = 0. Proof. reflexivity. Qed.
Lemma timeout_exit_code_eq : timeout_exit_code = fail_exit_code /\ fail_exit_code = 70. Proof. split; reflexivity. Qed.
Lemma sig_loop_eq : sig_loop_forever = true. Proof. reflexivity. Qed.

(* ---- counting: the errgroup's counter is the number of live members *)
Definition cnt {A} (f : A -> bool) (l : list A) : nat := length (filter f l).
Definition b2n (b : bool) : nat := if b then 1%nat else 0%nat.
Lemma cnt_app {A} (f : A -> bool) a b : cnt f (a ++ b) = (cnt f a + cnt f b)%nat.
Proof. unfold cnt. rewrite filter_app, app_length. reflexivity. Qed.
Lemma cnt_update {A} (f : A -> bool) l i y z : nth_error l i = Some y ->
  (cnt f (update l i z) + b2n (f y) = cnt f l + b2n (f z))%nat.
Proof.
  unfold cnt. revert i; induction l as [|a l IH]; intros [|i]; cbn [nth_error update filter]; intros H; try discriminate.
  - inversion H; subst. destruct (f y), (f z); cbn [length b2n]; lia.
  - specialize (IH _ H). destruct (f a); cbn [length]; lia.
Qed.
Lemma cnt_In {A} (f : A -> bool) l x : In x l -> f x = true -> (1 <= cnt f l)%nat.
Proof.
  unfold cnt. induction l as [|a l IH]; cbn [In filter]; intros H Hf; [contradiction|].
  destruct H as [->|H]; [rewrite Hf; cbn; lia|]. destruct (f a); cbn [length]; [lia|auto].
Qed.
Lemma cnt_repeat {A} (f : A -> bool) x n : cnt f (repeat x n) = (n * b2n (f x))%nat.
Proof. unfold cnt. induction n; cbn [repeat filter]; [reflexivity|]. destruct (f x); cbn [length b2n] in *; lia. Qed.
Lemma cnt_zero_In {A} (f : A -> bool) l x : cnt f l = 0%nat -> In x l -> f x = false.
Proof. intros H Hin. destruct (f x) eqn:E; [|reflexivity]. pose proof (cnt_In f l x Hin E). lia. Qed.

(* ---- roles: the finitely many shapes a goroutine of the real programs can have *)
Inductive role :=
| M0 | M1 | M2 | M3 | M4 | M5 | M6 | MD          (* main: before go watchSignals ... waiting in Serve (M5), returned (M6), gone *)
| W                                               (* the signal watcher *)
| L0 | L1 | LD                                    (* a listener's http.Server.Serve: running, returned, left the group *)
| C0 | C1 | C2 | C3 | CD                          (* the caller of Daemon.Close: before d.eg.Go, before Wait, waiting, returned *)
| G0 | G1 | G2 | GD.                              (* the closure Close hands to the errgroup: Shutdown, server.Close, return *)
Definition thr_of (r : role) : thread :=
  match r with
  | M0 => mkT false false [] [(2, [5]); (0, [6])] | M1 => mkT false false [] [(0, [6])] | M2 => mkT false false [6] []
  | M3 => mkT false false [] [(3, [1]); (0, [4])] | M4 => mkT false false [] [(0, [4])] | M5 => mkT false false [4] []
  | M6 => mkT false false [] [] | MD => mkT false true [] []
  | W => mkT false false [5] []
  | L0 => mkT true false [1] [] | L1 => mkT true false [] [] | LD => mkT true true [] []
  | C0 => mkT false false [] [(1, [2; 3]); (0, [4])] | C1 => mkT false false [] [(0, [4])] | C2 => mkT false false [4] []
  | C3 => mkT false false [] [] | CD => mkT false true [] []
  | G0 => mkT true false [2; 3] [] | G1 => mkT true false [3] [] | G2 => mkT true false [] [] | GD => mkT true true [] []
  end.
Definition is_main (r : role) : bool := match r with M0 | M1 | M2 | M3 | M4 | M5 | M6 | MD => true | _ => false end.
Definition past_spawn (r : role) : bool := match r with M4 | M5 | M6 | MD => true | _ => false end.
Definition returned (r : role) : bool := match r with M6 | MD => true | _ => false end.
Definition lmem (r : role) : bool := match r with L0 | L1 | G0 | G1 | G2 => true | _ => false end.   (* live member of the group *)
Definition closer_role (r : role) : bool := match r with C0 | C1 | C2 | C3 | CD | G0 | G1 | G2 | GD => true | _ => false end.

Lemma lmem_spec r : lmem r = live (thr_of r) && t_member (thr_of r). Proof. destruct r; reflexivity. Qed.

(* ---- what a step of thread i does, role by role *)
Definition role_step (nlis : nat) (s : pstate) (i : nat) (roles : list role) (r : role) : pstate :=
  let upd z extra eg := set_thr s (map thr_of (update roles i z ++ extra)) eg in
  match r with
  | M0 => upd M1 [W] (p_eg s)
  | M1 => upd M2 [] (p_eg s)
  | M2 => upd M3 [] (p_eg s)
  | M3 => upd M4 (repeat L0 nlis) (nlis + p_eg s)%nat
  | M4 => upd M5 [] (p_eg s)
  | M5 => if Nat.eqb (p_eg s) 0 then upd M6 [] (p_eg s) else s
  | M6 => let s1 := upd MD [] (p_eg s) in if Nat.eqb i 0 then exit_proc s1 1 (if p_forced s then timeout_exit_code else main_exit_code) else s1
  | W => set_sig s true (p_already s) (p_pending s) (p_closing s)
  | L0 => if p_insh s then upd L1 [] (p_eg s) else s
  | L1 => upd LD [] (pred (p_eg s))
  | C0 => upd C1 [G0] (S (p_eg s))
  | C1 => upd C2 [] (p_eg s)
  | C2 => if Nat.eqb (p_eg s) 0 then upd C3 [] (p_eg s) else s
  | C3 => upd CD [] (p_eg s)
  | G0 =>
      if negb (p_insh s) then set_srv s true (p_now s) (p_drained s) (p_tok_closed s) (p_forced s)
      else if negb (existsb pactive (p_req s)) then set_srv (upd G1 [] (p_eg s)) true (p_shut_at s) true (p_tok_closed s) (p_forced s)
      else if grace <=? p_now s - p_shut_at s then set_srv (upd G1 [] (p_eg s)) true (p_shut_at s) true (p_tok_closed s) true
      else s
  | G1 => set_srv (upd G2 [] (p_eg s)) (p_insh s) (p_shut_at s) (p_drained s) true (p_forced s)
  | G2 => upd GD [] (pred (p_eg s))
  | MD | LD | CD | GD => s
  end.

Lemma tstep_roles nlis s i roles r :
  p_thr s = map thr_of roles -> nth_error roles i = Some r -> is_main r = Nat.eqb i 0 ->
  tstep real_progs nlis s i = role_step nlis s i roles r.
Proof.
  intros Ht Hr Hi. unfold tstep. rewrite Ht, (map_nth_error thr_of _ _ Hr).
  unfold real_progs; cbn [pg_serve pg_close pg_main]. rewrite serve_prog_eq.
  destruct r; cbn -[grace main_exit_code timeout_exit_code Nat.eqb] in *; unfold role_step;
    rewrite ?map_app, ?map_update, ?map_repeat, ?app_nil_r, <- ?Hi; reflexivity.
Qed.

(* ---- the invariant *)
Record PI (nlis : nat) (s : pstate) (roles : list role) : Prop := mkPI {
  pi_n : (1 <= nlis)%nat;
  pi_thr : p_thr s = map thr_of roles;
  pi_main : exists m rest, roles = m :: rest /\ is_main m = true /\ forallb (fun r => negb (is_main r)) rest = true;
  pi_eg : p_eg s = cnt lmem roles;
  (* once main has started the listeners, one of them is serving until Shutdown begins *)
  pi_lis : forall m, hd_error roles = Some m -> past_spawn m = true -> p_insh s = false -> In L0 roles;
  (* main gets past the errgroup's Wait only after the tokens were closed *)
  pi_m6 : forall m, hd_error roles = Some m -> returned m = true -> p_tok_closed s = true;
  pi_md : In MD roles -> p_alive s = false;
  (* between the beginning of Shutdown and the closing of the tokens a member of the errgroup is at work *)
  pi_clo : p_insh s = true -> p_tok_closed s = false -> In G0 roles \/ In G1 roles;
  pi_g1 : In G1 roles -> p_drained s = true;
  pi_gc : forall r, In r roles -> closer_role r = true -> p_closing s = true;
  pi_ic : p_insh s = true -> p_closing s = true;
  pi_d2 : p_drained s = true -> p_insh s = true /\ (p_forced s = true \/ existsb pactive (p_req s) = false);
  pi_d3 : p_tok_closed s = true -> p_drained s = true;
  pi_req : p_forced s = false -> forallb req_ok (p_req s) = true;
  pi_x : p_alive s = false ->
         existsb pactive (p_req s) = false /\ (p_how s = 1 -> p_tok_closed s = true /\ p_code s = (if p_forced s then timeout_exit_code else 0) /\ In MD roles);
  pi_prog : p_closing s = true -> p_insh s = false -> In C0 roles \/ In G0 roles
}.

Lemma mono_false (a b : bool) : (a = true -> b = true) -> b = false -> a = false.
Proof. destruct a, b; intros H E; auto; try discriminate. specialize (H eq_refl). discriminate. Qed.

Lemma main_index roles i r :
  (exists m rest, roles = m :: rest /\ is_main m = true /\ forallb (fun r => negb (is_main r)) rest = true) ->
  nth_error roles i = Some r -> is_main r = Nat.eqb i 0.
Proof.
  intros (m & rest & -> & Hm & Hr) Hn. destruct i as [|i]; cbn in Hn.
  - inversion Hn; subst. exact Hm.
  - exact (forallb_negb_nth _ _ _ _ Hr Hn).
Qed.

(* the master preservation lemma: thread i changes role from y to z, new goroutines [extra] appear, the server flags
   move to I' D' T' F' *)
Lemma pi_step nlis s roles i y z extra eg' I' at' D' T' F' :
  PI nlis s roles -> p_alive s = true -> nth_error roles i = Some y ->
  is_main z = is_main y -> forallb (fun r => negb (is_main r)) extra = true ->
  (eg' + b2n (lmem y) = p_eg s + b2n (lmem z) + cnt lmem extra)%nat ->
  (p_insh s = true -> I' = true) -> (p_drained s = true -> D' = true) -> (p_tok_closed s = true -> T' = true) -> (p_forced s = true -> F' = true) ->
  (y = L0 -> z = L0 \/ I' = true) ->
  (is_main y = true -> past_spawn z = true -> I' = false -> past_spawn y = true \/ In L0 extra) ->
  (is_main y = true -> returned z = true -> T' = true) ->
  z <> MD -> ~ In MD extra ->
  (I' = true -> T' = false -> (z = G0 \/ z = G1) \/ In G0 extra \/ (p_insh s = true /\ y <> G0 /\ y <> G1)) ->
  (z = G1 \/ In G1 extra -> D' = true) ->
  (closer_role z = true -> p_closing s = true) -> (forall r, In r extra -> closer_role r = true -> p_closing s = true) ->
  (I' = true -> p_insh s = true \/ p_closing s = true) ->
  (D' = true -> p_drained s = true \/ (I' = true /\ (F' = true \/ existsb pactive (p_req s) = false))) ->
  (T' = true -> p_tok_closed s = true \/ D' = true) ->
  (y = C0 \/ y = G0 -> z = C0 \/ z = G0 \/ In G0 extra \/ I' = true) ->
  PI nlis (set_srv (set_thr s (map thr_of (update roles i z ++ extra)) eg') I' at' D' T' F') (update roles i z ++ extra).
Proof.
  intros [Hn Ht Hm He Hl H6 Hd Hc Hg Hgc Hic Hd2 Hd3 Hrq Hx Hp] Hal Hy Hmz Hex Heg mI mD mT mF cL cS cR cM cMx cC cG cZ cE cI cD cT cP.
  pose proof (main_index _ _ _ Hm Hy) as Hmi.
  destruct Hm as (m & rest & Hroles & Hmm & Hrest).
  assert (Hhd : hd_error (update roles i z ++ extra) = Some (if Nat.eqb i 0 then z else m)) by (rewrite Hroles; destruct i; reflexivity).
  assert (Hi0 : Nat.eqb i 0 = true -> y = m).
  { intros E. apply Nat.eqb_eq in E. subst i roles. cbn in Hy. inversion Hy; reflexivity. }
  assert (InKeep : forall x, In x roles -> x = y \/ In x (update roles i z ++ extra)).
  { intros x Hin. destruct (In_update_keep roles i y z x Hy Hin); auto using in_or_app. }
  assert (InInv : forall x, In x (update roles i z ++ extra) -> x = z \/ In x roles \/ In x extra).
  { intros x Hin. apply in_app_or in Hin as [Hin|Hin]; [|auto]. apply In_update_inv in Hin as [->|Hin]; auto. }
  assert (InNew : In z (update roles i z ++ extra)) by (apply in_or_app; left; eapply In_update_new; eauto).
  assert (InExtra : forall x, In x extra -> In x (update roles i z ++ extra)) by (intros; apply in_or_app; auto).
  constructor; cbn [set_srv set_thr p_thr p_eg p_insh p_tok_closed p_alive p_drained p_closing p_forced p_req p_how p_code].
  - exact Hn.
  - reflexivity.
  - subst roles. destruct i as [|i]; cbn [update app].
    + cbn in Hy. inversion Hy; subst y. exists z, (rest ++ extra). repeat split; [congruence|]. rewrite forallb_app, Hrest, Hex. reflexivity.
    + exists m, (update rest i z ++ extra). repeat split; auto. rewrite forallb_app, Hex, andb_true_r.
      cbn in Hy. apply forallb_update; auto. rewrite Hmz. exact (forallb_nth _ _ _ _ Hrest Hy).
  - rewrite cnt_app. pose proof (cnt_update lmem roles i y z Hy) as U. clear - Heg He U. lia.
  - intros m' Hm' Hps HI. rewrite Hhd in Hm'. inversion Hm'; subst m'; clear Hm'.
    assert (HIs : p_insh s = false) by (eapply mono_false; eauto).
    destruct i as [|i]; cbn [Nat.eqb] in *.
    + pose proof (Hi0 eq_refl) as ->.
      destruct (cS Hmi Hps HI) as [Hpy|Hin]; [|auto].
      destruct (InKeep L0) as [<-|Hin]; [apply (Hl m); subst roles; auto|discriminate|exact Hin].
    + destruct (InKeep L0) as [<-|Hin]; [apply (Hl m); subst roles; auto| |exact Hin].
      destruct (cL eq_refl) as [->|HI']; [exact InNew|congruence].
  - intros m' Hm' Hr. rewrite Hhd in Hm'. inversion Hm'; subst m'; clear Hm'.
    destruct i as [|i]; cbn [Nat.eqb] in *.
    + apply cR; auto.
    + apply mT. apply (H6 m); subst roles; auto.
  - intros Hin. destruct (InInv _ Hin) as [E|[Hr|Hr]]; [congruence| |contradiction].
    rewrite (Hd Hr) in Hal. discriminate.
  - intros HI HT. destruct (cC HI HT) as [[->| ->]|[Hin|(Hs & n0 & n1)]]; auto.
    assert (HTs : p_tok_closed s = false) by (eapply mono_false; eauto).
    destruct (Hc Hs HTs) as [Hin|Hin]; destruct (InKeep _ Hin) as [<-|Hin']; auto; contradiction.
  - intros Hin. destruct (InInv _ Hin) as [E|[Hr|Hr]]; auto.
  - intros r Hin Hcr. destruct (InInv _ Hin) as [->|[Hr|Hr]]; [exact (cZ Hcr)|exact (Hgc _ Hr Hcr)|exact (cE _ Hr Hcr)].
  - intros HI. destruct (cI HI); auto.
  - intros HD. destruct (cD HD) as [Hs|Hs]; [|exact Hs]. destruct (Hd2 Hs) as (A & B). split; [auto|]. destruct B; auto.
  - intros HT. destruct (cT HT) as [Hs|Hs]; auto.
  - intros HF. apply Hrq. eapply mono_false; eauto.
  - intros Hf. rewrite Hf in Hal. discriminate.
  - intros Hcl HI.
    assert (HIs : p_insh s = false) by (eapply mono_false; eauto).
    destruct (Hp Hcl HIs) as [Hin|Hin].
    + destruct (InKeep _ Hin) as [<-|Hin']; [|auto].
      destruct (cP (or_introl eq_refl)) as [->|[->|[H|H]]]; auto; congruence.
    + destruct (InKeep _ Hin) as [<-|Hin']; [|auto].
      destruct (cP (or_intror eq_refl)) as [->|[->|[H|H]]]; auto; congruence.
Qed.

Lemma set_srv_id s : set_srv s (p_insh s) (p_shut_at s) (p_drained s) (p_tok_closed s) (p_forced s) = s.
Proof. destruct s; reflexivity. Qed.
Lemma set_thr_id s : set_thr s (p_thr s) (p_eg s) = s.
Proof. destruct s; reflexivity. Qed.

(* for concrete roles the premises of pi_step and pi_upd are facts about constructors, small sums, hypotheses, or the
   one new goroutine *)
Ltac side := auto; try discriminate; cbn; try tauto; try lia; try (intros [?|[]]; discriminate); try (intros ? [<-|[]]; discriminate).

(* a step that only changes the goroutines *)
Lemma pi_upd nlis s roles i y z extra eg' :
  PI nlis s roles -> p_alive s = true -> nth_error roles i = Some y ->
  is_main z = is_main y -> forallb (fun r => negb (is_main r)) extra = true ->
  (eg' + b2n (lmem y) = p_eg s + b2n (lmem z) + cnt lmem extra)%nat ->
  (y = L0 -> z = L0 \/ p_insh s = true) ->
  (is_main y = true -> past_spawn z = true -> p_insh s = false -> past_spawn y = true \/ In L0 extra) ->
  (is_main y = true -> returned z = true -> p_tok_closed s = true) ->
  z <> MD -> ~ In MD extra -> y <> G0 -> y <> G1 -> z <> G1 -> ~ In G1 extra ->
  (closer_role z = true -> p_closing s = true) -> (forall r, In r extra -> closer_role r = true -> p_closing s = true) ->
  (y = C0 -> In G0 extra \/ p_insh s = true) ->
  PI nlis (set_thr s (map thr_of (update roles i z ++ extra)) eg') (update roles i z ++ extra).
Proof.
  intros HI Hal Hy Hm Hex Heg cL cS cR cM cMx n0 n1 z1 x1 cZ cE cP.
  rewrite <- (set_srv_id (set_thr s _ eg')). cbn [set_thr p_insh p_shut_at p_drained p_tok_closed p_forced].
  apply (pi_step nlis s roles i y z extra eg' _ _ _ _ _ HI Hal Hy Hm Hex Heg); auto.
  - intros [E|E]; contradiction.
  - intros [->|E]; [|contradiction]. destruct (cP eq_refl); auto.
Qed.

(* a step that leaves the goroutines as they are *)
Lemma pi_stay nlis s roles i y I' at' D' T' F' :
  p_thr s = map thr_of roles -> nth_error roles i = Some y ->
  PI nlis (set_srv (set_thr s (map thr_of (update roles i y ++ [])) (p_eg s)) I' at' D' T' F') (update roles i y ++ []) ->
  PI nlis (set_srv s I' at' D' T' F') roles.
Proof. intros Ht Hy. rewrite app_nil_r, (update_same _ _ _ Hy), <- Ht, set_thr_id. auto. Qed.

(* states that differ only in the clock, the watcher's flag, channel and handler installation *)
Lemma pi_ext nlis s s' roles :
  PI nlis s roles ->
  p_alive s' = p_alive s -> p_how s' = p_how s -> p_code s' = p_code s -> p_insh s' = p_insh s -> p_drained s' = p_drained s ->
  p_tok_closed s' = p_tok_closed s -> p_forced s' = p_forced s -> p_eg s' = p_eg s -> p_closing s' = p_closing s ->
  p_thr s' = p_thr s -> p_req s' = p_req s -> PI nlis s' roles.
Proof.
  intros [Hn Ht Hm He Hl H6 Hd Hc Hg Hgc Hic Hd2 Hd3 Hrq Hx Hp] E1 E2 E3 E4 E5 E6 E7 E8 E9 E10 E11.
  constructor; rewrite ?E1, ?E2, ?E3, ?E4, ?E5, ?E6, ?E7, ?E8, ?E9, ?E10, ?E11; auto.
Qed.

Lemma cut_quiet l : existsb pactive (map cut l) = false.
Proof. induction l as [|p l IH]; cbn; auto. rewrite IH. destruct p; reflexivity. Qed.
Lemma cut_id l : existsb pactive l = false -> map cut l = l.
Proof. induction l as [|p l IH]; cbn; auto. intros H. apply orb_false_iff in H as [H1 H2]. rewrite IH by auto. destruct p; try discriminate; reflexivity. Qed.

(* the process ends by os.Exit or by a signal nobody handles *)
Lemma pi_exit_other nlis s roles how code :
  PI nlis s roles -> p_alive s = true -> how <> 1 -> PI nlis (exit_proc s how code) roles.
Proof.
  intros [Hn Ht Hm He Hl H6 Hd Hc Hg Hgc Hic Hd2 Hd3 Hrq Hx Hp] Hal Hh.
  assert (Eh : (how =? 1) = false) by (apply Z.eqb_neq; exact Hh).
  constructor; cbn [exit_proc p_thr p_eg p_insh p_tok_closed p_alive p_drained p_closing p_forced p_req p_how p_code]; auto.
  - intros HD. destruct (Hd2 HD) as (A & B). split; [exact A|]. right. apply cut_quiet.
  - rewrite Eh. cbn [negb andb]. intros HF. apply orb_false_iff in HF as [F1 F2]. rewrite (cut_id _ F2). auto.
  - intros _. split; [apply cut_quiet|]. intros; contradiction.
Qed.

(* the main goroutine returns from Serve: the process exits *)
Lemma pi_exit_main nlis s roles :
  PI nlis s roles -> p_alive s = true -> nth_error roles 0 = Some M6 ->
  PI nlis (exit_proc (set_thr s (map thr_of (update roles 0 MD ++ [])) (p_eg s)) 1 (if p_forced s then timeout_exit_code else main_exit_code)) (update roles 0 MD ++ []).
Proof.
  intros [Hn Ht Hm He Hl H6 Hd Hc Hg Hgc Hic Hd2 Hd3 Hrq Hx Hp] Hal Hy.
  destruct Hm as (m & rest & -> & Hmm & Hrest). cbn in Hy. inversion Hy; subst m; clear Hy.
  cbn [update app]. rewrite app_nil_r.
  assert (HT : p_tok_closed s = true) by (apply (H6 M6); reflexivity).
  assert (HD : p_drained s = true) by auto.
  destruct (Hd2 HD) as (HIs & HFQ).
  constructor; cbn [exit_proc set_thr p_thr p_eg p_insh p_tok_closed p_alive p_drained p_closing p_forced p_req p_how p_code Z.eqb Pos.eqb negb andb]; auto.
  - exists MD, rest. auto.
  - intros m' Hm' _ HI. rewrite HI in HIs. discriminate.
  - intros _ HTf. rewrite HTf in HT. discriminate.
  - intros _. split; [exact HIs|]. right. apply cut_quiet.
  - rewrite orb_false_r. intros HF. destruct HFQ as [F|Q]; [congruence|]. rewrite (cut_id _ Q). auto.
  - intros _. split; [apply cut_quiet|]. intros _. split; [exact HT|]. split; [rewrite orb_false_r; destruct (p_forced s); [reflexivity|apply main_exit_code_eq]|left; reflexivity].
  - intros Hcl HI. rewrite HI in HIs. discriminate.
Qed.

(* a new goroutine calls Daemon.Close *)
Lemma pi_spawn_closer nlis s roles w a pend :
  PI nlis s roles ->
  PI nlis (set_thr (set_sig s w a pend true) (p_thr s ++ [mkT false false [] (pg_close real_progs)]) (p_eg s)) (roles ++ [C0]).
Proof.
  intros [Hn Ht Hm He Hl H6 Hd Hc Hg Hgc Hic Hd2 Hd3 Hrq Hx Hp].
  destruct Hm as (m & rest & -> & Hmm & Hrest).
  constructor; cbn [set_thr set_sig p_thr p_eg p_insh p_tok_closed p_alive p_drained p_closing p_forced p_req p_how p_code]; auto.
  - rewrite Ht, map_app. cbn [pg_close real_progs map]. rewrite close_prog_eq. reflexivity.
  - exists m, (rest ++ [C0]). repeat split; auto. rewrite forallb_app, Hrest. reflexivity.
  - rewrite cnt_app, He. cbn. lia.
  - intros m' Hm' Hps HI. apply in_or_app. left. eapply Hl; eauto.
  - intros Hin. apply Hd. apply in_app_or in Hin as [Hin|[E|[]]]; [exact Hin|discriminate].
  - intros HI HT. destruct (Hc HI HT); [left|right]; apply in_or_app; auto.
  - intros Hin. apply Hg. apply in_app_or in Hin as [Hin|[E|[]]]; [exact Hin|discriminate].
  - intros Hal. destruct (Hx Hal) as (A & B). split; [exact A|]. intros Hh. destruct (B Hh) as (B1 & B2 & B3). repeat split; auto. apply in_or_app; auto.
  - intros _ _. left. apply in_or_app. right. left. reflexivity.
Qed.

(* ---- every step of a goroutine preserves the invariant *)
Lemma cnt_pos_eg nlis s roles r : PI nlis s roles -> In r roles -> lmem r = true -> (1 <= p_eg s)%nat.
Proof. intros HI Hin Hl. rewrite (pi_eg _ _ _ HI). eapply cnt_In; eauto. Qed.

(* the goroutines after a step of thread i, which has role r *)
Definition next_roles (nlis : nat) (s : pstate) (i : nat) (roles : list role) (r : role) : list role :=
  let upd z extra := update roles i z ++ extra in
  match r with
  | M0 => upd M1 [W] | M1 => upd M2 [] | M2 => upd M3 [] | M3 => upd M4 (repeat L0 nlis) | M4 => upd M5 []
  | M5 => if Nat.eqb (p_eg s) 0 then upd M6 [] else roles
  | M6 => upd MD []
  | L0 => if p_insh s then upd L1 [] else roles
  | L1 => upd LD []
  | C0 => upd C1 [G0] | C1 => upd C2 []
  | C2 => if Nat.eqb (p_eg s) 0 then upd C3 [] else roles
  | C3 => upd CD []
  | G0 => if negb (p_insh s) then roles
          else if negb (existsb pactive (p_req s)) then upd G1 []
          else if grace <=? p_now s - p_shut_at s then upd G1 [] else roles
  | G1 => upd G2 [] | G2 => upd GD []
  | W | MD | LD | CD | GD => roles
  end.

Lemma pinv_thr_roles nlis s roles i r :
  PI nlis s roles -> p_alive s = true -> nth_error roles i = Some r ->
  PI nlis (tstep real_progs nlis s i) (next_roles nlis s i roles r).
Proof.
  intros HI Hal Hr. pose proof HI as [Hn Ht Hm He Hl H6 Hd Hc Hg Hgc Hic Hd2 Hd3 Hrq Hx Hp].
  pose proof (main_index _ _ _ Hm Hr) as Hmi.
  assert (Hin : In r roles) by (eapply nth_error_In; eauto).
  assert (Hcl : closer_role r = true -> p_closing s = true) by (apply Hgc; exact Hin).
  rewrite (tstep_roles nlis s i roles r Ht Hr Hmi).
  destruct r; cbn [role_step next_roles]; try specialize (Hcl eq_refl).
  - (* M0 *) apply (pi_upd _ _ _ _ M0 M1 [W]); side.
  - (* M1 *) apply (pi_upd _ _ _ _ M1 M2 []); side.
  - (* M2 *) apply (pi_upd _ _ _ _ M2 M3 []); side.
  - (* M3 *) apply (pi_upd _ _ _ _ M3 M4 (repeat L0 nlis)); auto; try discriminate.
    + apply forallb_forall. intros x Hx'. apply repeat_spec in Hx'. subst x. reflexivity.
    + rewrite cnt_repeat. cbn. lia.
    + intros _ _ _. right. destruct nlis; [lia|left; reflexivity].
    + intros Hx'. apply repeat_spec in Hx'. discriminate.
    + intros Hx'. apply repeat_spec in Hx'. discriminate.
    + intros r Hx'. apply repeat_spec in Hx'. subst r. discriminate.
  - (* M4 *) apply (pi_upd _ _ _ _ M4 M5 []); side.
  - (* M5: the errgroup's Wait *)
    destruct (Nat.eqb (p_eg s) 0) eqn:Eg; [|exact HI]. apply Nat.eqb_eq in Eg.
    assert (Hhd : hd_error roles = Some M5).
    { cbn in Hmi. symmetry in Hmi. apply Nat.eqb_eq in Hmi. subst i. destruct roles; [discriminate|]. cbn in Hr. inversion Hr. reflexivity. }
    assert (Z0 : cnt lmem roles = 0%nat) by (rewrite <- He; exact Eg).
    assert (HIs : p_insh s = true).
    { destruct (p_insh s) eqn:E; [reflexivity|]. pose proof (Hl M5 Hhd eq_refl eq_refl) as Q. pose proof (cnt_zero_In _ _ _ Z0 Q). discriminate. }
    assert (HT : p_tok_closed s = true).
    { destruct (p_tok_closed s) eqn:E; [reflexivity|]. destruct (Hc HIs eq_refl) as [Q|Q]; pose proof (cnt_zero_In _ _ _ Z0 Q); discriminate. }
    apply (pi_upd _ _ _ _ M5 M6 []); side.
  - (* M6: return from Serve *)
    cbn in Hmi. symmetry in Hmi. rewrite Hmi. apply Nat.eqb_eq in Hmi. subst i.
    apply pi_exit_main; auto.
  - (* MD *) exact HI.
  - (* W *) eapply pi_ext; eauto.
  - (* L0 *) destruct (p_insh s) eqn:HIs; [|exact HI].
    apply (pi_upd _ _ _ _ L0 L1 []); side.
  - (* L1 *) pose proof (cnt_pos_eg _ _ _ _ HI Hin eq_refl).
    apply (pi_upd _ _ _ _ L1 LD []); side.
  - (* LD *) exact HI.
  - (* C0 *) apply (pi_upd _ _ _ _ C0 C1 [G0]); side.
  - (* C1 *) apply (pi_upd _ _ _ _ C1 C2 []); side.
  - (* C2 *) destruct (Nat.eqb (p_eg s) 0) eqn:Eg; [|exact HI].
    apply (pi_upd _ _ _ _ C2 C3 []); side.
  - (* C3 *) apply (pi_upd _ _ _ _ C3 CD []); side.
  - (* CD *) exact HI.
  - (* G0: http.Server.Shutdown *)
    destruct (p_insh s) eqn:HIs; cbn [negb].
    + destruct (existsb pactive (p_req s)) eqn:Hact; cbn [negb].
      * destruct (grace <=? p_now s - p_shut_at s); [|exact HI].
        apply (pi_step nlis s roles i G0 G1 [] _ _ _ _ _ _ HI Hal Hr); side.
      * apply (pi_step nlis s roles i G0 G1 [] _ _ _ _ _ _ HI Hal Hr); side.
    + apply (pi_stay nlis s roles i G0 _ _ _ _ _ Ht Hr).
      apply (pi_step nlis s roles i G0 G0 [] _ _ _ _ _ _ HI Hal Hr); side.
  - (* G1: server.Close *)
    assert (HD : p_drained s = true) by auto.
    apply (pi_step nlis s roles i G1 G2 [] _ _ _ _ _ _ HI Hal Hr); side.
  - (* G2 *) pose proof (cnt_pos_eg _ _ _ _ HI Hin eq_refl).
    apply (pi_upd _ _ _ _ G2 GD []); side.
  - (* GD *) exact HI.
Qed.

Lemma pinv_thr nlis s roles i :
  PI nlis s roles -> p_alive s = true -> exists roles', PI nlis (tstep real_progs nlis s i) roles'.
Proof.
  intros HI Hal. destruct (nth_error roles i) as [r|] eqn:Hr; [eexists; eapply pinv_thr_roles; eauto|].
  exists roles. unfold tstep. rewrite (pi_thr _ _ _ HI). rewrite (proj2 (nth_error_None _ _)); [exact HI|].
  rewrite map_length. apply nth_error_None. exact Hr.
Qed.

(* ---- handler steps *)
Lemma rnext_quiet tokc p : pactive p = false -> pactive (rnext false tokc p) = false.
Proof. destruct p; cbn; auto; discriminate. Qed.
Lemma rnext_ok listen p : req_ok p = true -> req_ok (rnext listen false p) = true.
Proof.
  destruct p as [| |k| | |]; cbn; intros H; auto; [destruct listen; reflexivity|].
  destruct (nth_error serve_sign_calls k) as [c|]; [|reflexivity].
  destruct ((c =? 3) || (c =? 4)); [reflexivity|]. destruct (c =? 6); reflexivity.
Qed.
Lemma rnext_ok_quiet listen tokc p : req_ok p = true -> pactive p = false -> req_ok (rnext listen tokc p) = true.
Proof. destruct p; cbn; intros H A; auto; try discriminate. destruct listen; reflexivity. Qed.

Lemma pinv_req nlis s roles i : PI nlis s roles -> p_alive s = true -> PI nlis (rstep s i) roles.
Proof.
  intros HI Hal. pose proof HI as [Hn Ht Hm He Hl H6 Hd Hc Hg Hgc Hic Hd2 Hd3 Hrq Hx Hp]. unfold rstep.
  destruct (nth_error (p_req s) i) as [p|] eqn:Hp'; [|exact HI].
  constructor; cbn [set_req p_thr p_eg p_insh p_tok_closed p_alive p_drained p_closing p_forced p_req p_how p_code]; auto.
  - intros HD. destruct (Hd2 HD) as (A & B). split; [exact A|]. destruct B as [B|B]; [auto|right].
    apply existsb_update; [exact B|].
    assert (Hli : listening s = false) by (unfold listening; rewrite A; reflexivity). rewrite Hli.
    apply rnext_quiet. exact (existsb_nth _ _ _ _ B Hp').
  - intros HF. apply forallb_update; [auto|].
    pose proof (forallb_nth _ _ _ _ (Hrq HF) Hp') as Ok.
    destruct (p_tok_closed s) eqn:HT; [|apply rnext_ok; exact Ok].
    destruct (Hd2 (Hd3 eq_refl)) as (A & [B|B]); [congruence|].
    apply rnext_ok_quiet; [exact Ok|].
    exact (existsb_nth _ _ _ _ B Hp').
  - intros Hf. rewrite Hf in Hal. discriminate.
Qed.

(* ---- every event preserves the invariant *)
Definition PInv (nlis : nat) (s : pstate) : Prop := exists roles, PI nlis s roles.

Lemma pinv_step nlis s e : PInv nlis s -> PInv nlis (pstep real_progs nlis s e).
Proof.
  intros (roles & HI). unfold pstep. destruct (p_alive s) eqn:Hal; cbn [negb]; [|exists roles; exact HI].
  destruct e as [i|i|sig| |d].
  - eapply pinv_thr; eauto.
  - exists roles. apply pinv_req; auto.
  - destruct (p_watch s && existsb (Z.eqb sig) sig_notified).
    + destruct (zlen (p_pending s) <? sig_chan_cap); [|exists roles; exact HI]. exists roles. eapply pi_ext; eauto.
    + exists roles. apply pi_exit_other; auto. discriminate.
  - destruct (p_watch s); [|exists roles; exact HI]. destruct (p_pending s) as [|sig rest]; [exists roles; exact HI|].
    destruct (sig_action sig (p_already s)) as [act al].
    destruct ((act =? 1) || (act =? 3)).
    + exists (roles ++ [C0]). apply pi_spawn_closer. exact HI.
    + destruct (act =? 2).
      * exists roles. apply pi_exit_other; [eapply pi_ext; eauto|exact Hal|discriminate].
      * exists roles. eapply pi_ext; eauto.
  - exists roles. eapply pi_ext; eauto.
Qed.

Lemma pinv_init nlis n : (1 <= nlis)%nat -> PInv nlis (pinit real_progs n).
Proof.
  intros Hn. exists [M0].
  constructor; cbn [pinit p_thr p_eg p_insh p_tok_closed p_alive p_drained p_closing p_forced p_req p_how p_code]; side.
  - exists M0, []. auto.
  - intros m E. inversion E; subst. discriminate.
  - intros m E. inversion E; subst. discriminate.
  - intros _. clear. induction n; cbn; auto.
Qed.
Lemma pinv_run nlis n sched : (1 <= nlis)%nat -> PInv nlis (prun nlis n sched).
Proof. intros Hn. apply (fold_left_inv (PInv nlis)); [intros s e; apply pinv_step|apply pinv_init, Hn]. Qed.

(* THE PROPERTY, process level. For every number of listeners and handlers and every schedule: unless the operator forced
   the exit (a second signal: os.Exit), the process was killed by a signal that arrived before signal.Notify had run, or
   a handler outlived the grace period, no accepted request is ever cut off or loses its token, and when the process has
   gone away nothing was left running and the tokens had been closed first. *)
Lemma proc_shutdown_lets_requests_finish : forall nlis n sched, (1 <= nlis)%nat ->
  let s := prun nlis n sched in p_forced s = false -> spec_ok s = true.
Proof.
  intros nlis n sched Hn s HF. destruct (pinv_run nlis n sched Hn) as (roles & HI). fold s in HI.
  unfold spec_ok. rewrite (pi_req _ _ _ HI HF). cbn [andb].
  destruct (p_alive s) eqn:Hal; [reflexivity|]. cbn [orb].
  destruct (pi_x _ _ _ HI Hal) as (A & B). apply existsb_forallb_neg in A. rewrite A. cbn [andb].
  destruct (p_how s =? 1) eqn:Eh; [|reflexivity]. apply Z.eqb_eq in Eh. destruct (B Eh) as (B1 & _). rewrite B1. reflexivity.
Qed.

(* Serve returns last: when the main goroutine has returned from Daemon.Serve — the moment the process exits — server.Close
   has run, Shutdown had returned before that, and (within the grace period) no handler is running or was cut *)
Lemma serve_returns_last : forall nlis n sched t0, (1 <= nlis)%nat ->
  let s := prun nlis n sched in
  nth_error (p_thr s) 0 = Some t0 -> t_done t0 = true \/ (t_ops t0 = [] /\ t_items t0 = []) ->
  p_tok_closed s = true /\ p_drained s = true /\ p_insh s = true /\
  (p_forced s = false -> existsb pactive (p_req s) = false /\ forallb req_ok (p_req s) = true).
Proof.
  intros nlis n sched t0 Hn s Ht0 Hsh. destruct (pinv_run nlis n sched Hn) as (roles & HI). fold s in HI.
  pose proof HI as [_ Ht Hm He Hl H6 Hd Hc Hg Hgc Hic Hd2 Hd3 Hrq Hx Hp].
  destruct Hm as (m & rest & -> & Hmm & Hrest).
  rewrite Ht in Ht0. cbn in Ht0. inversion Ht0; subst t0; clear Ht0.
  assert (Hr : returned m = true) by (destruct m; cbn in Hsh, Hmm; destruct Hsh as [E|[E1 E2]]; try discriminate; reflexivity).
  assert (HT : p_tok_closed s = true) by (apply (H6 m); auto).
  pose proof (Hd3 HT) as HD. destruct (Hd2 HD) as (HIs & HFQ).
  repeat split; auto. destruct HFQ; [congruence|assumption].
Qed.

(* what is left to do, counted so that every step of a goroutine that is not blocked lowers it *)
Definition rw (nlis : nat) (r : role) : nat :=
  match r with
  | M0 => 7 + 2 * nlis | M1 => 6 + 2 * nlis | M2 => 5 + 2 * nlis | M3 => 4 + 2 * nlis | M4 => 3 | M5 => 2 | M6 => 1 | MD => 0
  | W => 0 | L0 => 2 | L1 => 1 | LD => 0
  | C0 => 7 | C1 => 3 | C2 => 2 | C3 => 1 | CD => 0
  | G0 => 3 | G1 => 2 | G2 => 1 | GD => 0
  end%nat.
Definition sumw (nlis : nat) (l : list role) : nat := fold_right (fun r a => (rw nlis r + a)%nat) 0%nat l.
Definition mu (nlis : nat) (s : pstate) (roles : list role) : nat := (sumw nlis roles + b2n (negb (p_insh s)))%nat.
Lemma sumw_app nlis a b : sumw nlis (a ++ b) = (sumw nlis a + sumw nlis b)%nat.
Proof. induction a as [|x a IH]; cbn [app sumw fold_right]; [reflexivity|]. fold (sumw nlis (a ++ b)). fold (sumw nlis a). lia. Qed.
Lemma sumw_update nlis l i y z : nth_error l i = Some y -> (sumw nlis (update l i z) + rw nlis y = sumw nlis l + rw nlis z)%nat.
Proof.
  revert i; induction l as [|a l IH]; intros [|i]; cbn [nth_error update sumw fold_right]; intros H; try discriminate.
  - inversion H; subst. fold (sumw nlis l). lia.
  - specialize (IH _ H). fold (sumw nlis l). fold (sumw nlis (update l i z)). lia.
Qed.
Lemma sumw_repeat nlis x n : sumw nlis (repeat x n) = (n * rw nlis x)%nat.
Proof. induction n; cbn [repeat sumw fold_right]; [reflexivity|]. fold (sumw nlis (repeat x n)). lia. Qed.
Lemma sumw_In nlis l x : In x l -> (rw nlis x <= sumw nlis l)%nat.
Proof. induction l as [|a l IH]; cbn [In sumw fold_right]; intros H; [contradiction|]. fold (sumw nlis l). destruct H as [->|H]; [lia|]. specialize (IH H). lia. Qed.
(* the others weigh k, whatever role thread i takes next and whichever goroutines [extra] it starts *)
Lemma sumw_step nlis l i y : nth_error l i = Some y ->
  exists k, sumw nlis l = (k + rw nlis y)%nat /\
            forall z extra, sumw nlis (update l i z ++ extra) = (k + rw nlis z + sumw nlis extra)%nat.
Proof.
  intros H. exists (sumw nlis l - rw nlis y)%nat. pose proof (sumw_In nlis l y (nth_error_In _ _ H)). split; [lia|].
  intros z extra. rewrite sumw_app. pose proof (sumw_update nlis l i y z H). lia.
Qed.

Definition role_enabled (s : pstate) (r : role) : bool :=
  match r with
  | M5 | C2 => Nat.eqb (p_eg s) 0
  | L0 => p_insh s
  | G0 => negb (p_insh s) || negb (existsb pactive (p_req s)) || (grace <=? p_now s - p_shut_at s)
  | W => negb (p_watch s)
  | MD | LD | CD | GD => false
  | _ => true
  end.
Lemma enabled_role s roles i r : p_thr s = map thr_of roles -> nth_error roles i = Some r -> enabled s i = role_enabled s r.
Proof. intros Ht Hr. unfold enabled. rewrite Ht, (map_nth_error thr_of _ _ Hr). destruct r; reflexivity. Qed.

Lemma cnt_pos_In {A} (f : A -> bool) l : (1 <= cnt f l)%nat -> exists x, In x l /\ f x = true.
Proof.
  unfold cnt. induction l as [|a l IH]; cbn [filter length]; intros H; [lia|].
  destruct (f a) eqn:E; [exists a; split; [left; reflexivity|exact E]|]. destruct (IH H) as (x & Hin & Hx). exists x. split; [right; exact Hin|exact Hx].
Qed.

(* NO DEADLOCK: once a graceful shutdown has been started and no handler is running, some goroutine can move *)
Lemma live_choice nlis s roles :
  PI nlis s roles -> p_alive s = true -> p_closing s = true -> existsb pactive (p_req s) = false ->
  exists i r, nth_error roles i = Some r /\ role_enabled s r = true /\ r <> W.
Proof.
  intros HI Hal Hcl Hq.
  enough (exists r, In r roles /\ role_enabled s r = true /\ r <> W) as (r & Hin & Hen & Hw)
    by (apply In_nth_error in Hin as (i & Hi); eauto).
  pose proof HI as [Hn Ht Hm He Hl H6 Hd Hc Hg Hgc Hic Hd2 Hd3 Hrq Hx Hp].
  destruct Hm as (m & rest & -> & Hmm & Hrest).
  (* main can move, unless it is waiting in Serve or gone *)
  destruct m; try discriminate; try (eexists; split; [left; reflexivity|split; [reflexivity|discriminate]]).
  - destruct (Nat.eqb (p_eg s) 0) eqn:Eg; [exists M5; split; [left; reflexivity|split; [exact Eg|discriminate]]|].
    apply Nat.eqb_neq in Eg. assert (Hc1 : (1 <= cnt lmem (M5 :: rest))%nat) by lia.
    destruct (cnt_pos_In _ _ Hc1) as (x & Hin & Hx').
    (* a live member of the group can move, unless it is a listener still serving: then Close has not got to Shutdown yet *)
    destruct (role_enabled s x) eqn:Ex; [exists x; repeat split; auto; intros ->; discriminate|].
    destruct x; cbn [role_enabled] in Ex; try discriminate.
    + destruct (Hp Hcl Ex) as [Hin'|Hin']; [exists C0|exists G0]; repeat split; auto; try discriminate.
      cbn [role_enabled]. rewrite Hq, orb_true_r. reflexivity.
    + rewrite Hq, orb_true_r in Ex. discriminate.
  - rewrite Hd in Hal; [discriminate|left; reflexivity].
Qed.

Lemma step_decreases nlis s roles i r :
  PI nlis s roles -> p_alive s = true -> existsb pactive (p_req s) = false -> p_forced s = false ->
  nth_error roles i = Some r -> role_enabled s r = true -> r <> W ->
  let s' := tstep real_progs nlis s i in
  (mu nlis s' (next_roles nlis s i roles r) < mu nlis s roles)%nat /\ p_closing s' = p_closing s /\
  existsb pactive (p_req s') = false /\ p_forced s' = false /\ (p_alive s' = true \/ (p_how s' = 1 /\ p_code s' = 0)).
Proof.
  intros HI Hal Hq HF Hr Hen Hw. pose proof (pi_thr _ _ _ HI) as Ht. pose proof (main_index _ _ _ (pi_main _ _ _ HI) Hr) as Hmi.
  cbn zeta. rewrite (tstep_roles nlis s i roles r Ht Hr Hmi).
  destruct (sumw_step nlis roles i r Hr) as (k & Ek & Eu).
  unfold mu. rewrite Ek. destruct r; cbn [role_enabled] in Hen; try discriminate; try contradiction; cbn [role_step next_roles];
    rewrite ?Hen; cbn [negb];
    (* all but main's return and Shutdown touch only the goroutines: compare the weights *)
    try (cbn [set_thr set_srv p_insh p_closing p_req p_alive p_how p_code p_forced];
         rewrite ?Hen; repeat split; auto; rewrite Eu, ?sumw_repeat; cbn [sumw fold_right rw negb b2n]; lia).
  - (* M6 *) cbn in Hmi. rewrite <- Hmi. rewrite HF.
    cbn [exit_proc set_thr p_insh p_closing p_req p_alive p_how p_code p_forced].
    split; [rewrite Eu; cbn [sumw fold_right rw]; lia|]. split; [reflexivity|]. split; [apply cut_quiet|].
    split; [rewrite HF; reflexivity|]. right; split; [reflexivity|apply main_exit_code_eq].
  - (* G0 *) destruct (p_insh s) eqn:HIs; cbn [negb].
    + rewrite Hq. cbn [negb].
      cbn [set_thr set_srv p_insh p_closing p_req p_alive p_how p_code p_forced]. repeat split; auto.
      rewrite Eu. cbn [sumw fold_right rw negb b2n]. lia.
    + cbn [set_srv p_insh p_closing p_req p_alive p_how p_code p_forced]. cbn [negb b2n]. repeat split; auto. lia.
Qed.

(* THE PROCESS EXITS: from every reachable state in which a graceful shutdown has been started and no handler is running,
   letting goroutines that are not blocked take steps (in any such order that is chosen here) ends the process through
   main's return with exit code 0 *)
Definition is_thr (e : pev) : Prop := exists i, e = PThr i.
Lemma proc_exits_aux : forall k nlis s roles,
  PI nlis s roles -> (mu nlis s roles <= k)%nat -> p_alive s = true -> p_closing s = true -> existsb pactive (p_req s) = false ->
  p_forced s = false ->
  exists sched, Forall is_thr sched /\
    let s' := fold_left (pstep real_progs nlis) sched s in p_alive s' = false /\ p_how s' = 1 /\ p_code s' = 0.
Proof.
  induction k as [|k IH]; intros nlis s roles HI Hmu Hal Hcl Hq HF;
    destruct (live_choice _ _ _ HI Hal Hcl Hq) as (i & r & Hr & Hen & Hw);
    destruct (step_decreases _ _ _ _ _ HI Hal Hq HF Hr Hen Hw) as (Hlt & Hc' & Hq' & HF' & Hal'); [lia|].
  pose proof (pinv_thr_roles _ _ _ _ _ HI Hal Hr) as HI'.
  assert (Est : pstep real_progs nlis s (PThr i) = tstep real_progs nlis s i) by (unfold pstep; rewrite Hal; reflexivity).
  destruct (p_alive (tstep real_progs nlis s i)) eqn:Hal2.
  - destruct (IH nlis _ _ HI') as (sched & Hf & Hres); auto; [lia|congruence|].
    exists (PThr i :: sched). split; [constructor; [exists i; reflexivity|exact Hf]|]. cbn [fold_left]. rewrite Est. exact Hres.
  - exists [PThr i]. split; [constructor; [exists i; reflexivity|constructor]|].
    cbn [fold_left]. rewrite Est. destruct Hal' as [E|(E1 & E2)]; [congruence|]. auto.
Qed.

(* ---- where the full statement does not hold: schedules and programs of the witnesses in Properties.v *)
Definition startup : list pev := [PThr 0; PThr 0; PThr 0; PThr 0; PThr 0; PThr 1].   (* main up to the Wait in Serve; handler installed *)

(* WHY Shutdown runs inside the errgroup: were Daemon.Close to call Shutdown / server.Close / Wait directly on its own
   goroutine (programs as srcgen translates that variant), main would return from Serve as soon as the listeners are
   closed and a request in flight would be cut off — with no second signal, no kill and no timeout involved *)
Definition direct_close_progs : progs := mkPg main_prog daemon_serve_prog [(0, [2]); (0, [3]); (0, [4])].

