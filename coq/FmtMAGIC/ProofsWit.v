(* FmtMAGIC/ProofsWit.v — concrete witnesses (overlaps resolved by ORDER, deviations from the published magics, instabilities) and the
   checks that Properties.v decides by computation on the generated tables. *)
From Coq Require Import String Ascii.
From Relic Require Import Base.Prelude FmtMAGIC.Lib Generated.FmtMAGIC_gen FmtMAGIC.Model FmtMAGIC.ProofsSpec FmtMAGIC.ProofsZip.

Fixpoint bs (s : string) : bytes := match s with EmptyString => [] | String c r => Z.of_N (N_of_ascii c) :: bs r end.
Definition rep (n b : Z) : bytes := repeat b (Z.to_nat n).
Definition PE00 : bytes := [80; 69; 0; 0].
Definition TLV_CTL : bytes := 6 :: 9 :: OID_CTL.
Definition TLV_SD : bytes := 6 :: 9 :: OID_SIGNED_DATA.

(* ---- byte-prefix formats *)
Definition w_pe64 : bytes := [77; 90] ++ rep 58 0 ++ [64; 0; 0; 0] ++ PE00 ++ rep 200 0.
Definition w_pe_far : bytes := [77; 90] ++ rep 58 0 ++ [253; 15; 0; 0] ++ rep (4093 - 64) 0 ++ PE00 ++ rep 100 0.      (* e_lfanew = 4093 *)
Definition w_pe_with_ctl_oid : bytes := [77; 90] ++ rep 58 0 ++ [128; 0; 0; 0] ++ TLV_CTL ++ rep (128 - 64 - 11) 0 ++ PE00 ++ rep 100 0.
(* signing a PE file rewrites its checksum field; if the field sits in the first 256 bytes the new value can complete an OID there *)
Definition w_pe_pre_sign : bytes := [77; 90] ++ rep 58 0 ++ [64; 0; 0; 0] ++ PE00 ++ rep (145 - 68) 0 ++ [6; 9; 43; 6; 1; 4; 1] ++ [0; 0; 0; 0] ++ rep 150 0.
Definition w_pe_post_sign : bytes := [77; 90] ++ rep 58 0 ++ [64; 0; 0; 0] ++ PE00 ++ rep (145 - 68) 0 ++ [6; 9; 43; 6; 1; 4; 1] ++ [130; 55; 10; 1] ++ rep 150 0.
Definition w_java : bytes := [202; 254; 186; 190; 0; 0; 0; 52] ++ rep 24 0.
Definition w_fat : bytes := [202; 254; 186; 190; 0; 0; 0; 2] ++ rep 24 0.
Definition w_cfb_2bytes : bytes := [208; 207; 0; 0] ++ rep 60 0.
Definition w_pgp_0x88 : bytes := [136; 117; 4; 0; 19; 8] ++ rep 113 0.      (* old-format signature packet, one-octet length: what gpg writes for a short (ECDSA / EdDSA) signature *)
Definition w_png : bytes := [137; 80; 78; 71; 13; 10; 26; 10] ++ rep 24 0.
Definition w_macho_be : bytes := [254; 237; 250; 207] ++ rep 28 0.
Definition w_short_pgp : bytes := [194; 60; 4; 0; 1; 8] ++ rep 56 0.
Definition w_tail_with_oid : bytes := rep 10 0 ++ TLV_SD.
Definition w_mz_assembly : bytes := [77; 90] ++ rep 68 0 ++ bs "<assembly" ++ rep 40 0.
Definition w_ps1_assembly : bytes := bs "# loads [reflection:assembly] helpers" ++ [10].
Definition w_cab_with_oid : bytes := bs "MSCF" ++ rep 36 0 ++ TLV_SD ++ rep 20 0.

(* ---- ZIP family *)
Definition zn_jar : list bytes := [bs "META-INF/MANIFEST.MF"; bs "a/B.class"].

(* the suffixes of the names relic's JAR / APK (v1) signer writes: every string literal of sigNames that starts with "." *)
Definition jar_sig_suffixes : list bytes := filter (fun l => hd 0 l =? DOT) jar_sig_literals.
Lemma jar_suffixes_safe : forallb (fun s => sfx_safe s && (3 <=? zlen s) && negb (existsb (Z.eqb SLASH) s)) jar_sig_suffixes = true.
Proof. vm_compute. reflexivity. Qed.

Definition SFX_PSDSXS : bytes := bs ".psdsxs".
Definition SFX_RELS : bytes := bs ".rels".

(* ---- file names *)
Definition spec_ps_exts : list bytes := [bs ".ps1"; bs ".psm1"; bs ".psd1"; bs ".ps1xml"; bs ".psc1"; bs ".cdxml"; bs ".mof"].

(* ---- which prefix tests of a decision list can fire together *)
Definition incompatible (p q : bytes) : bool := negb (is_prefix p q || is_prefix q p).
Fixpoint clause_prefixes (cases : list (list mtest * mres)) : list (list bytes) :=
  match cases with [] => [] | (ts, r) :: rest => map fst (test_prefixes ts 0) :: clause_prefixes rest end.
Fixpoint cross_ok (cls : list (list bytes)) : bool :=
  match cls with [] => true | c :: r => forallb (fun p => forallb (fun c' => forallb (incompatible p) c') r) c && cross_ok r end.
