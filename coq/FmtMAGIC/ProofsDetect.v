(* FmtMAGIC/ProofsDetect.v — the generated decision list of lib/magic.Detect equals the hand-written reference cascade; no panic;
   bounded read. *)
From Relic Require Import Base.Prelude Base.Enc Base.Lists Base.Slice FmtMAGIC.Lib Generated.FmtMAGIC_gen FmtMAGIC.Model FmtMAGIC.ProofsLib.

Lemma le16_range l : all_bytes l = true -> 62 <= zlen l -> 0 <= le_dec (zslice 60 62 l) < 65536.
Proof.
  intros Hb Hl. pose proof (le_dec_range _ (all_bytes_zslice 60 62 l Hb)) as H.
  rewrite zlen_zslice in H by lia. exact H.
Qed.

(* the body of the "MZ" clause *)
Lemma pe_probe_spec l : all_bytes l = true ->
  pe_probe (mkReader l 4096) = Ok (if pe_core l then Some 6 else None).
Proof.
  intros Hb. unfold pe_probe, pe_core. rewrite peek_mk. unfold magic_pe_peek1, magic_pe_cond1.
  change (Z.min 62 4096) with 62. rewrite zlen_ztake_min by lia.
  replace (Z.min 62 (zlen l) =? 62) with (62 <=? zlen l) by lia.
  destruct (62 <=? zlen l) eqn:E62; [|reflexivity]. cbn [andb].
  unfold magic_pe_reloc_lo, magic_pe_reloc_hi. rewrite buf_slice_mk by lia. cbn [bind].
  unfold go_uint16, magic_pe_reloc_little_endian. rewrite zlen_zslice by lia.
  change (62 - 60 <? 2) with false. cbv iota. rewrite ztake_all by (rewrite zlen_zslice; lia). cbn [bind].
  pose proof (le16_range l Hb ltac:(lia)) as He. set (e := le_dec (zslice 60 62 l)) in *. cbv zeta.
  unfold magic_pe_cond2, magic_pe_peek2, rd_peek_ok. rewrite peek_mk. rewrite zlen_ztake_min by lia.
  replace (0 <=? e + 4) with true by lia. cbn [andb].
  unfold at_off. change (zlen [80; 69; 0; 0]) with 4.
  (* the second Peek returns e + 4 bytes exactly when they fit the buffer and the input *)
  replace (Z.min (Z.min (e + 4) 4096) (zlen l) =? e + 4) with ((e + 4 <=? 4096) && (4 + e <=? zlen l)) by lia.
  destruct (e + 4 <=? 4096) eqn:E1; [|reflexivity]. destruct (4 + e <=? zlen l) eqn:E2; [|reflexivity]. cbn [andb].
  unfold magic_pe_sig_lo, magic_pe_sig_hi. rewrite buf_slice_mk by lia. cbn [bind].
  rewrite zslice_as_take. unfold magic_pe_sig, magic_pe_type. change 4 with (zlen [80; 69; 0; 0]). rewrite eqb_take_prefix.
  destruct (is_prefix [80; 69; 0; 0] (zdrop e l)); reflexivity.
Qed.

(* one clause of the decision list against one clause of the cascade *)
Lemma ok_if {A} (c : bool) (a b : A) r : r = Ok b -> (if c then Ok a else r) = Ok (if c then a else b).
Proof. intros ->. destruct c; reflexivity. Qed.

(* the whole of Detect: the generated, ordered decision list interpreted over a fresh 4096-byte bufio.Reader answers what the
   reference cascade answers *)
Theorem detect_eq_ref l : all_bytes l = true -> detect_bytes l = Ok (detect_ref l).
Proof.
  intros Hb. unfold detect_bytes, detect, magic_detect_cases. change magic_detect_bufsize with 4096.
  cbn [run_cases existsb eval_test].
  rewrite !hasprefix_spec by (apply Z.leb_le; reflexivity).
  rewrite !contains_spec by lia.
  rewrite istar_spec by lia.
  rewrite pe_probe_spec by exact Hb.
  rewrite !orb_false_r, orb_assoc.
  unfold detect_ref, rel_rpm, rel_deb, rel_pgp_armor, rel_cat, rel_pkcs7, rel_tar, rel_pe, rel_cfb, rel_cab, rel_manifest, rel_macho, rel_fat, rel_xar, rel_pgp_bin, in256,
    OID_CTL, OID_SIGNED_DATA, rel_mz, magic_detectTar, magic_detect_default.
  (* both sides now test the same conditions in the same order; only the "MZ" clause has a body *)
  do 6 apply ok_if.
  destruct (is_prefix [77; 90] l).
  { cbn [andb bind]. destruct (pe_core l); reflexivity. }
  do 7 apply ok_if. reflexivity.
Qed.

(* ---- bounded read: nothing behind the reader's buffer matters,
   for ANY decision list built from the four helpers and the PE probe (not only today's) *)
Lemma reader_ext a b : rd_buf a = rd_buf b -> ztake (rd_buf a) (rd_data a) = ztake (rd_buf b) (rd_data b) ->
  (forall n, rd_peek a n = rd_peek b n) /\ rd_window a = rd_window b.
Proof.
  intros HB HD. split.
  - intros n. unfold rd_peek. rewrite <- HB.
    replace (Z.min n (rd_buf a)) with (Z.min (Z.min n (rd_buf a)) (rd_buf a)) by lia.
    rewrite <- !ztake_ztake. rewrite HD, <- HB. reflexivity.
  - unfold rd_window. rewrite HD, <- HB. reflexivity.
Qed.
Lemma eval_test_ext a b t : (forall n, rd_peek a n = rd_peek b n) -> eval_test a t = eval_test b t.
Proof.
  intros H. destruct t; cbn [eval_test]; unfold magic_hasPrefix, magic_isTar, magic_atPosition, magic_contains; rewrite ?H; reflexivity.
Qed.
Lemma pe_probe_ext a b : rd_buf a = rd_buf b -> (forall n, rd_peek a n = rd_peek b n) -> rd_window a = rd_window b -> pe_probe a = pe_probe b.
Proof.
  intros HB HP HW. unfold pe_probe, rd_peek_ok, buf_slice. rewrite HW, HB. rewrite HP.
  destruct (magic_pe_cond1 (zlen (rd_peek b magic_pe_peek1))); [|reflexivity].
  destruct ((0 <=? magic_pe_reloc_lo) && (magic_pe_reloc_lo <=? magic_pe_reloc_hi) && (magic_pe_reloc_hi <=? rd_buf b)); [|reflexivity].
  cbn [bind]. destruct (go_uint16 _ _) as [reloc| |]; cbn [bind]; [|reflexivity|reflexivity].
  rewrite HP. reflexivity.
Qed.
Lemma run_cases_ext a b cases : rd_buf a = rd_buf b -> ztake (rd_buf a) (rd_data a) = ztake (rd_buf b) (rd_data b) ->
  run_cases a cases = run_cases b cases.
Proof.
  intros HB HD. destruct (reader_ext a b HB HD) as [HP HW].
  induction cases as [|[ts r] rest IH]; [reflexivity|]. cbn [run_cases].
  rewrite (existsb_ext_in (eval_test a) (eval_test b)) by (intros t _; exact (eval_test_ext a b t HP)).
  destruct (existsb (eval_test b) ts); [|exact IH].
  destruct r; try reflexivity. rewrite (pe_probe_ext a b HB HP HW). reflexivity.
Qed.

Definition detect_answers : list Z := [0; 1; 2; 3; 5; 6; 7; 8; 9; 10; 15; 16; 18].
Lemma detect_ref_range l : In (detect_ref l) detect_answers.
Proof.
  unfold detect_ref, detect_answers.
  repeat match goal with |- context [if ?c then _ else _] => destruct c end; cbn; tauto.
Qed.
