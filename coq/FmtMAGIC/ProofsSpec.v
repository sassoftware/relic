(* FmtMAGIC/ProofsSpec.v — relic's ordered decision vs the published magic numbers; which published magics imply relic's tests;
   what keeps the detected type unchanged (the leading magic; the head of the file that the tests read, so also bytes appended). *)
From Relic Require Import Base.Prelude Base.Enc Base.Slice FmtMAGIC.Lib Generated.FmtMAGIC_gen FmtMAGIC.Model FmtMAGIC.ProofsLib FmtMAGIC.ProofsDetect.

(* the answer of an ordered decision list: the id of the first test that fires *)
Fixpoint first_hit (tbl : list (Z * (bytes -> bool))) (l : bytes) : option Z :=
  match tbl with [] => None | (i, f) :: r => if f l then Some i else first_hit r l end.
Lemma first_hit_matches tbl l : first_hit tbl l = hd_error (map fst (filter (fun e => snd e l) tbl)).
Proof. induction tbl as [|[i f] r IH]; [reflexivity|]. cbn [first_hit filter snd]. destruct (f l); [reflexivity|exact IH]. Qed.

Lemma agree_matches s r l : agree_tables s r l = true -> map fst s = map fst r ->
  map fst (filter (fun e => snd e l) s) = map fst (filter (fun e : Z * (bytes -> bool) => snd e l) r).
Proof.
  revert r; induction s as [|[i f] s IH]; intros [|[j g] r] Ha Hm; try discriminate; [reflexivity|].
  cbn [agree_tables] in Ha. apply andb_true_iff in Ha as [Hfg Ha]. apply Bool.eqb_prop in Hfg.
  cbn [map fst] in Hm. injection Hm as -> Hm. cbn [filter snd]. rewrite Hfg.
  destruct (g l); cbn [map fst]; [f_equal|]; apply IH; assumption.
Qed.

(* the reference cascade is rel_table read as an ordered decision list, once an "MZ" file is a PE file: the catalog clause
   comes before the PKCS7 clause, so testing rel_pkcs7 there is testing rel_pkcs7_only *)
Lemma detect_ref_first_hit l : negb (rel_mz l) || rel_pe l = true ->
  detect_ref l = match first_hit rel_table l with Some s => relic_code s | None => 0 end.
Proof.
  intros Hmz. unfold detect_ref, rel_table. cbn [first_hit]. unfold rel_pkcs7_only.
  destruct (rel_rpm l); [reflexivity|]. destruct (rel_deb l); [reflexivity|]. destruct (rel_pgp_armor l); [reflexivity|].
  destruct (rel_cat l); [reflexivity|]. destruct (rel_pkcs7 l); [reflexivity|]. destruct (rel_tar l); [reflexivity|].
  unfold rel_pe in *. destruct (rel_mz l); cbn [negb orb andb] in *; [rewrite Hmz; reflexivity|].
  destruct (rel_cfb l); [reflexivity|]. destruct (rel_cab l); [reflexivity|]. destruct (rel_manifest l); [reflexivity|].
  destruct (rel_macho l); [reflexivity|]. destruct (rel_fat l); [reflexivity|]. destruct (rel_xar l); [reflexivity|].
  destruct (rel_pgp_bin l); reflexivity.
Qed.

(* on quirk-free input relic answers the first published magic that matches, in the order of the table *)
Theorem detect_first_spec l : quirk_free l = true ->
  detect_ref l = match spec_matches l with s :: _ => relic_code s | [] => 0 end.
Proof.
  intros Hq. unfold quirk_free in Hq. apply andb_true_iff in Hq as [Ha Hmz].
  rewrite (detect_ref_first_hit l Hmz), first_hit_matches. unfold spec_matches. rewrite (agree_matches _ _ _ Ha eq_refl).
  destruct (map fst (filter (fun e => snd e l) rel_table)); reflexivity.
Qed.
(* in particular relic's ORDER does not matter where exactly one published magic matches *)
Theorem detect_eq_spec l t : spec_matches l = [t] -> quirk_free l = true -> detect_ref l = relic_code t.
Proof. intros Hs Hq. rewrite (detect_first_spec l Hq), Hs. reflexivity. Qed.

(* ---- published magic => relic's test (per type) *)
Lemma spec_rpm_exact l : spec_rpm l = rel_rpm l. Proof. reflexivity. Qed.
Lemma spec_cab_exact l : spec_cab l = rel_cab l. Proof. reflexivity. Qed.
Lemma spec_xar_exact l : spec_xar l = rel_xar l. Proof. reflexivity. Qed.
Lemma spec_tar_exact l : spec_tar l = rel_tar l. Proof. reflexivity. Qed.

Lemma is_prefix_weaken a b l : is_prefix (a ++ b) l = true -> is_prefix a l = true.
Proof. rewrite is_prefix_app. intros H. apply andb_true_iff in H as [H _]. exact H. Qed.
Lemma spec_deb_implies l : spec_deb l = true -> rel_deb l = true.
Proof.
  unfold spec_deb, rel_deb. intros H. apply andb_true_iff in H as [H1 H2].
  change [33; 60; 97; 114; 99; 104; 62; 10; 100; 101; 98; 105; 97; 110] with ([33; 60; 97; 114; 99; 104; 62; 10] ++ [100; 101; 98; 105; 97; 110]).
  rewrite is_prefix_app, H1. cbn [andb]. change (zlen [33; 60; 97; 114; 99; 104; 62; 10]) with 8.
  apply (is_prefix_weaken [100; 101; 98; 105; 97; 110] [45; 98; 105; 110; 97; 114; 121]). exact H2.
Qed.
Lemma spec_pgp_armor_implies l : spec_pgp_armor l = true -> rel_pgp_armor l = true.
Proof. unfold spec_pgp_armor, rel_pgp_armor. apply (is_prefix_weaken [45; 45; 45; 45; 45; 66; 69; 71; 73; 78; 32; 80; 71; 80] [32]). Qed.
Lemma spec_cfb_implies l : spec_cfb l = true -> rel_cfb l = true.
Proof. unfold spec_cfb, rel_cfb. apply (is_prefix_weaken [208; 207] [17; 224; 161; 177; 26; 225]). Qed.
Lemma spec_fat_implies l : spec_fat l = true -> rel_fat l = true.
Proof. unfold spec_fat, rel_fat. intros H. apply andb_true_iff in H as [H _]. apply andb_true_iff in H as [H _]. exact H. Qed.
(* Mach-O: only the little-endian byte order (Intel, ARM) is known to relic *)
Lemma spec_macho_implies l : spec_macho l = true -> is_prefix [254; 237; 250] l = false -> rel_macho l = true.
Proof.
  unfold spec_macho, rel_macho. intros H Hbe.
  destruct (is_prefix [207; 250; 237; 254] l); [reflexivity|]. destruct (is_prefix [206; 250; 237; 254] l); [reflexivity|]. cbn [orb] in *.
  apply orb_true_iff in H as [H|H]; [apply (is_prefix_weaken [254; 237; 250] [207]) in H|apply (is_prefix_weaken [254; 237; 250] [206]) in H]; congruence.
Qed.
(* binary OpenPGP: only three of the first octets a signature can start with are known to relic *)
Lemma pgp_bin_first_octet l : In (hd 0 l) [137; 194; 196] -> rel_pgp_bin l = true.
Proof.
  intros H. unfold rel_pgp_bin. destruct l as [|o r]; cbn [hd In] in H.
  - destruct H as [H|[H|[H|[]]]]; discriminate.
  - cbn [is_prefix]. destruct H as [<-|[<-|[<-|[]]]]; reflexivity.
Qed.

(* DER header: what follows it starts 2..6 bytes into the input *)
Lemma der_hdr_rest l t n r1 : der_hdr l = Some (t, n, r1) -> exists k, 2 <= k <= 6 /\ r1 = zdrop k l.
Proof.
  destruct l as [|t0 [|n0 r]]; try discriminate. unfold der_hdr.
  destruct (n0 <? 128) eqn:E0.
  - intros H. injection H as _ _ <-. exists 2. split; [lia|reflexivity].
  - set (k := n0 - 128). destruct ((k =? 0) || (4 <? k) || (zlen r <? k)) eqn:E; [discriminate|].
    destruct ((be_dec (ztake k r) <? 128) || (hd 0 r =? 0)); [discriminate|].
    intros H. injection H as _ _ <-. exists (2 + k). split; [lia|].
    replace (2 + k) with (1 + (1 + k)) by lia. rewrite !zdrop_cons by lia. reflexivity.
Qed.
(* every CMS SignedData (catalogs included) carries the signedData OID where relic looks for it *)
Lemma spec_cms_implies l o : spec_cms_econtent l = Some o -> rel_pkcs7 l = true.
Proof.
  unfold spec_cms_econtent. destruct (der_hdr l) as [[[t n] r1]|] eqn:E; [|discriminate].
  destruct (t =? 48) eqn:Et; [apply Z.eqb_eq in Et; subst t|destruct t as [|p|p]; try discriminate; repeat (destruct p as [p|p|]; try discriminate)].
  destruct (is_prefix (6 :: 9 :: OID_SIGNED_DATA) r1) eqn:Ep; [|discriminate]. intros _.
  apply der_hdr_rest in E as [k [Hk ->]]. unfold rel_pkcs7, in256.
  apply (contains_in_window _ _ k); [lia| |exact Ep]. change (zlen (6 :: 9 :: OID_SIGNED_DATA)) with 11. lia.
Qed.
Lemma spec_pkcs7_implies l : spec_pkcs7 l = true -> rel_pkcs7 l = true.
Proof. unfold spec_pkcs7. destruct (spec_cms_econtent l) as [o|] eqn:E; [intros _; exact (spec_cms_implies l o E)|discriminate]. Qed.
Lemma spec_cat_implies_pkcs7 l : spec_cat l = true -> rel_pkcs7 l = true.
Proof. unfold spec_cat. destruct (spec_cms_econtent l) as [o|] eqn:E; [intros _; exact (spec_cms_implies l o E)|discriminate]. Qed.

(* PE: relic reads 16 of the 32 bits of e_lfanew and needs the PE signature inside the reader's buffer *)
Lemma spec_pe_implies l : all_bytes l = true -> spec_pe l = true -> le_dec (zslice 60 64 l) + 4 <= 4096 -> rel_pe l = true.
Proof.
  intros Hb H He. unfold spec_pe in H. apply andb_true_iff in H as [H Hat]. apply andb_true_iff in H as [Hmz Hl].
  unfold rel_pe, rel_mz, pe_core. rewrite Hmz. cbn [andb].
  assert (H64 : 64 <= zlen l) by lia. replace (62 <=? zlen l) with true by lia. cbn [andb]. cbv zeta.
  rewrite (zslice_split 60 62 64) in He, Hat by lia. rewrite le_dec_app in He, Hat. rewrite zlen_zslice in He, Hat by lia.
  pose proof (le_dec_range _ (all_bytes_zslice 60 62 l Hb)) as R1. rewrite zlen_zslice in R1 by lia.
  pose proof (le_dec_range _ (all_bytes_zslice 62 64 l Hb)) as R2. rewrite zlen_zslice in R2 by lia.
  change (256 ^ (62 - 60)) with 65536 in *. change (256 ^ (64 - 62)) with 65536 in *.
  assert (Hz : le_dec (zslice 62 64 l) = 0) by lia. rewrite Hz in *. rewrite Z.mul_0_r, Z.add_0_r in *.
  rewrite Hat. replace (le_dec (zslice 60 62 l) + 4 <=? 4096) with true by lia. reflexivity.
Qed.

(* ---- what keeps the detected type: the leading magic *)
Fixpoint test_prefixes (ts : list mtest) (t : Z) : list (bytes * Z) :=
  match ts with [] => [] | TPrefix b :: r => (b, t) :: test_prefixes r t | _ :: r => test_prefixes r t end.
Fixpoint table_prefixes (cases : list (list mtest * mres)) : list (bytes * Z) :=
  match cases with
  | [] => []
  | (ts, RType t) :: rest => test_prefixes ts t ++ table_prefixes rest
  | _ :: rest => table_prefixes rest
  end.
(* the (prefix, type) pairs of the GENERATED decision list, split by what precedes them in relic's order *)
Definition first_magics : list (bytes * Z) := firstn 3 (table_prefixes magic_detect_cases).
Definition mid_magics : list (bytes * Z) := firstn 2 (skipn 3 (table_prefixes magic_detect_cases)).
Definition late_magics : list (bytes * Z) := skipn 5 (table_prefixes magic_detect_cases).

(* PE: "MZ", the e_lfanew field and the PE signature it points to (inside the buffer), pre-empted by the floating tests *)
Theorem stable_pe g : rel_mz g = true -> pe_core g = true -> rel_cat g = false -> rel_pkcs7 g = false -> rel_tar g = false -> detect_ref g = 6.
Proof.
  unfold rel_mz. intros [r ->]%is_prefix_iff Hpe H1 H2 H3. unfold detect_ref, rel_pe. rewrite H1, H2, H3, Hpe.
  (* the file is "MZ" ++ r: the three prefix tests before the "MZ" clause compare other bytes *)
  reflexivity.
Qed.

(* ---- what keeps the detected type: each test reads a bounded head of the file *)
Lemma is_prefix_same_head p f g w : ztake w g = ztake w f -> zlen p <= w -> is_prefix p g = is_prefix p f.
Proof. intros Hw H. rewrite <- (is_prefix_ztake p g w), <- (is_prefix_ztake p f w), Hw by exact H. reflexivity. Qed.
Lemma in256_same_head f g w : ztake w g = ztake w f -> 256 <= w -> forall p, in256 p g = in256 p f.
Proof. intros Hw H p. unfold in256. replace 256 with (Z.min 256 w) by lia. rewrite <- !ztake_ztake, Hw. reflexivity. Qed.
Lemma at_off_same_head off p f g w : ztake w g = ztake w f -> 0 <= off -> off + zlen p <= w -> at_off off p g = at_off off p f.
Proof. intros Hw H0 H. rewrite <- (at_off_ztake off p g w), <- (at_off_ztake off p f w), Hw by lia. reflexivity. Qed.
Lemma zslice_same_head {A} lo hi (f g : list A) w : ztake w g = ztake w f -> 0 <= lo -> hi <= w -> zslice lo hi g = zslice lo hi f.
Proof. intros Hw Hlo Hhi. rewrite <- (zslice_ztake lo hi w g), <- (zslice_ztake lo hi w f), Hw by lia. reflexivity. Qed.
Lemma zlen_same_head {A} k (f g : list A) w : ztake w g = ztake w f -> 0 <= k <= w -> (k <=? zlen g) = (k <=? zlen f).
Proof. intros Hw H. apply (f_equal zlen) in Hw. rewrite !zlen_ztake_min in Hw by lia. lia. Qed.
(* the PE probe reads the e_lfanew field and the four bytes it points to *)
Lemma pe_core_same_head f g w : ztake w g = ztake w f ->
  62 <= w -> 0 <= le_dec (zslice 60 62 f) -> le_dec (zslice 60 62 f) + 4 <= w -> pe_core g = pe_core f.
Proof.
  intros Hw H62 He0 He. unfold pe_core. rewrite (zslice_same_head 60 62 f g w Hw) by lia. cbv zeta.
  rewrite (at_off_same_head _ _ f g w Hw) by (change (zlen [80; 69; 0; 0]) with 4; lia).
  rewrite (zlen_same_head 62 f g w Hw) by lia. reflexivity.
Qed.
(* every other test reads at most the 262 bytes up to the end of "ustar" *)
Lemma detect_ref_same_head f g w : ztake w g = ztake w f -> 262 <= w -> (rel_mz f = true -> pe_core g = pe_core f) -> detect_ref g = detect_ref f.
Proof.
  intros Hw Hl Hpe. unfold detect_ref, rel_rpm, rel_deb, rel_pgp_armor, rel_cat, rel_pkcs7, rel_tar, rel_pe, rel_cfb, rel_cab, rel_manifest, rel_macho, rel_fat, rel_xar, rel_pgp_bin.
  unfold rel_mz in *. rewrite !(in256_same_head f g w Hw ltac:(lia)).
  rewrite (at_off_same_head _ _ f g w Hw) by (change (zlen [117; 115; 116; 97; 114]) with 5; lia).
  rewrite !(is_prefix_same_head _ f g w Hw) by (apply Z.le_trans with 262; [apply Z.leb_le; reflexivity|exact Hl]).
  destruct (is_prefix [77; 90] f); [rewrite (Hpe eq_refl)|]; reflexivity.
Qed.

(* ---- appended bytes *)
Lemma stable_append f x : 262 <= zlen f -> (rel_mz f = true -> pe_core (f ++ x) = pe_core f) -> detect_ref (f ++ x) = detect_ref f.
Proof. intros Hl. apply (detect_ref_same_head f (f ++ x) (zlen f)); [apply ztake_app_l; lia|exact Hl]. Qed.
(* the header of a PE file lies inside the file *)
Lemma pe_core_inside l : pe_core l = true -> 62 <= zlen l /\ le_dec (zslice 60 62 l) + 4 <= zlen l.
Proof.
  unfold pe_core, at_off. cbv zeta. change (zlen [80; 69; 0; 0]) with 4. rewrite !andb_true_iff.
  intros [H62 [_ [Hlen _]]]. split; lia.
Qed.
Lemma pe_core_app f x : all_bytes f = true -> pe_core f = true -> pe_core (f ++ x) = true.
Proof.
  intros Hb Hpe. destruct (pe_core_inside f Hpe) as [H62 Hlen]. rewrite <- Hpe.
  apply (pe_core_same_head f (f ++ x) (zlen f)); [apply ztake_app_l; lia|lia|exact (le_dec_nonneg _ (all_bytes_zslice 60 62 f Hb))|lia].
Qed.
