(* FmtMAGIC/Properties.v — file type detection (lib/magic) and signer dispatch (signers.By*, `relic sign`, `relic remote sign`,
   `relic verify`, the server's sign handler): the theorems of the unit.  Every definition prefixed magic_ / signers_ / verify_ / token_ /
   remote_ / server_ / ps_ / dmg_ / jar_ / appx_ / vsix_ is GENERATED from the current Go source (Generated/FmtMAGIC_gen.v).
   detect_bytes / zip_detect / detect_compressed / by_* / by_file / verify_route interpret the generated tables; detect_ref is the
   hand-written reference cascade, spec_* the published magic numbers. *)
From Coq Require Import String.
From Relic Require Import Base.Prelude Base.Enc Base.Slice FmtMAGIC.Lib Generated.FmtMAGIC_gen FmtMAGIC.Model.
From Relic Require Import FmtMAGIC.ProofsLib FmtMAGIC.ProofsDetect FmtMAGIC.ProofsSpec FmtMAGIC.ProofsZip FmtMAGIC.ProofsDispatch FmtMAGIC.ProofsWit.
From Coq Require Import Permutation.

(* ================================================================== C11: Detect on arbitrary bytes *)
(* C11: for EVERY byte string Detect returns one of thirteen answers; no slice or index goes out of range (the PE probe slices
   a Peek result by a 16-bit field of the input: in range because the second Peek must succeed first) *)
Theorem magic_detect_total_no_panic : forall l, all_bytes l = true -> exists t, detect_bytes l = Ok t /\ In t detect_answers.
Proof. intros l H. exists (detect_ref l). split; [apply detect_eq_ref; exact H|apply detect_ref_range]. Qed.
(* C11: bounded read, for ANY decision list built from the four helpers and the PE probe: two inputs that agree on the first
   magic_detect_bufsize (= bufio's default, 4096) bytes get the same answer, panics included *)
Theorem magic_detect_bounded_peek : forall l l', ztake magic_detect_bufsize l = ztake magic_detect_bufsize l' -> detect_bytes l = detect_bytes l'.
Proof. intros l l' H. unfold detect_bytes, detect. apply run_cases_ext; [reflexivity|exact H]. Qed.

(* ================================================================== C05 / C01: what Detect decides *)
(* the generated, ORDERED decision list (14 clauses, their byte strings and peek sizes, the translated helpers, the PE probe)
   is the reference cascade detect_ref of Model.v *)
Theorem magic_detect_eq_ref : forall l, all_bytes l = true -> detect_bytes l = Ok (detect_ref l).
Proof. exact detect_eq_ref. Qed.
(* where exactly one published magic matches and every per-type test of relic says what the published magic says (quirk_free),
   relic answers that type: on this class the ORDER of the clauses is immaterial *)
Theorem magic_detect_eq_spec : forall l t, spec_matches l = [t] -> quirk_free l = true -> detect_ref l = relic_code t.
Proof. exact detect_eq_spec. Qed.
(* per type: the published magic implies relic's test (equal for RPM, CAB, xar, tar; relic's test is looser for DEB, armored PGP,
   compound files, fat Mach-O, CMS; narrower for Mach-O (little-endian only), binary PGP (three first octets) and PE (e_lfanew + 4
   must fit a 16-bit field and the 4096-byte buffer)) *)
Theorem magic_spec_implies_test : forall l,
  spec_rpm l = rel_rpm l /\ spec_cab l = rel_cab l /\ spec_xar l = rel_xar l /\ spec_tar l = rel_tar l /\
  (spec_deb l = true -> rel_deb l = true) /\ (spec_pgp_armor l = true -> rel_pgp_armor l = true) /\
  (spec_cfb l = true -> rel_cfb l = true) /\ (spec_fat l = true -> rel_fat l = true) /\
  (spec_pkcs7 l = true -> rel_pkcs7 l = true) /\ (spec_cat l = true -> rel_pkcs7 l = true) /\
  (spec_macho l = true -> is_prefix [254; 237; 250] l = false -> rel_macho l = true) /\
  (spec_pgp_bin l = true -> In (hd 0 l) [137; 194; 196] -> rel_pgp_bin l = true) /\
  (all_bytes l = true -> spec_pe l = true -> le_dec (zslice 60 64 l) + 4 <= 4096 -> rel_pe l = true).
Proof.
  intros l. repeat apply conj;
    [apply spec_rpm_exact|apply spec_cab_exact|apply spec_xar_exact|apply spec_tar_exact|apply spec_deb_implies|apply spec_pgp_armor_implies|
     apply spec_cfb_implies|apply spec_fat_implies|apply spec_pkcs7_implies|apply spec_cat_implies_pkcs7|apply spec_macho_implies|
     intros _; apply pgp_bin_first_octet|apply spec_pe_implies].
Qed.
(* no two clauses of Detect (and no clause of DetectCompressed against any clause of Detect) can fire through their byte PREFIX tests
   on the same input: the overlaps are exactly those that involve the floating tests (OIDs / element names anywhere in the first 256
   bytes, "ustar" at 257) and the ZIP member rules *)
Theorem magic_prefix_clauses_disjoint :
  cross_ok (clause_prefixes magic_detect_cases) = true /\
  cross_ok (clause_prefixes (map (fun e => (fst e, RTar)) magic_dc_cases) ++ clause_prefixes magic_detect_cases) = true /\
  forall p q l, is_prefix p l = true -> is_prefix q l = true -> incompatible p q = false.
Proof.
  split; [vm_compute; reflexivity|]. split; [vm_compute; reflexivity|].
  intros p q l Hp Hq. unfold incompatible. rewrite (is_prefix_comparable p q l Hp Hq). reflexivity.
Qed.
(* the overlaps and how relic's ORDER resolves them, and the deviations from the published magics, with witnesses:
   PE with e_lfanew = 4093 -> unknown; PE whose DOS stub contains the catalog OID -> CAT; Java class file -> fat Mach-O; D0 CF + anything ->
   MSI; gpg's short signature (first octet 0x88) -> unknown; PNG -> PGP; big-endian Mach-O -> unknown; "MZ" non-PE with <assembly ->
   unknown (the MZ clause swallows it); cabinet with the signedData OID in its header -> PKCS7 *)
Theorem magic_order_resolves_overlaps :
  detect_ref w_pe64 = 6 /\ spec_matches w_pe64 = [S_PE] /\
  detect_ref w_pe_far = 0 /\ spec_matches w_pe_far = [S_PE] /\
  detect_ref w_pe_with_ctl_oid = 10 /\ spec_matches w_pe_with_ctl_oid = [S_PE] /\
  detect_ref w_java = 16 /\ spec_matches w_java = [S_JAVA] /\ detect_ref w_fat = 16 /\ spec_matches w_fat = [S_FAT] /\
  detect_ref w_cfb_2bytes = 7 /\ spec_matches w_cfb_2bytes = [] /\
  detect_ref w_pgp_0x88 = 0 /\ spec_matches w_pgp_0x88 = [S_PGP_BIN] /\
  detect_ref w_png = 3 /\ spec_matches w_png = [] /\
  detect_ref w_macho_be = 0 /\ spec_matches w_macho_be = [S_MACHO] /\
  detect_ref w_mz_assembly = 0 /\ spec_matches w_mz_assembly = [S_MANIFEST] /\
  detect_ref w_cab_with_oid = 5 /\ spec_matches w_cab_with_oid = [S_CAB].
Proof. vm_compute. repeat split; reflexivity. Qed.
(* ZIP family: APK beats JAR wherever the manifests sit; between APK / APPX / VSIX / XAP the FIRST member in directory order wins;
   names are normalised first (./x, /x, a/../x and a directory entry x/ all count as x); any member ending in .app/Info.plist makes an IPA *)
Theorem magic_zip_order_resolves_overlaps :
  zip_detect (Some zn_jar) = 4 /\
  zip_detect (Some (zn_jar ++ [bs "AndroidManifest.xml"])) = 14 /\
  zip_detect (Some [bs "AppxManifest.xml"; bs "AndroidManifest.xml"]) = 11 /\
  zip_detect (Some [bs "AndroidManifest.xml"; bs "AppxManifest.xml"]) = 14 /\
  zip_detect (Some [bs "extension.vsixmanifest"; bs "AppManifest.xaml"]) = 12 /\
  zip_detect (Some [bs "AppManifest.xaml"; bs "extension.vsixmanifest"]) = 13 /\
  zip_detect (Some [bs "./AndroidManifest.xml"]) = 14 /\ zip_detect (Some [bs "/AndroidManifest.xml"]) = 14 /\
  zip_detect (Some [bs "x/../AndroidManifest.xml"]) = 14 /\ zip_detect (Some [bs "AndroidManifest.xml/"]) = 14 /\
  zip_detect (Some [bs "res/AndroidManifest.xml"]) = 0 /\ zip_detect (Some [bs "androidmanifest.xml"]) = 0 /\
  zip_detect (Some (zn_jar ++ [bs "docs/sample.app/Info.plist"])) = 17 /\ spec_zip_type (zn_jar ++ [bs "docs/sample.app/Info.plist"]) = Some S_JAR /\
  zip_detect (Some [bs "Payload/Demo.app/Info.plist"]) = 17 /\ spec_zip_type [bs "Payload/Demo.app/Info.plist"] = Some S_IPA /\
  zip_detect (Some []) = 0 /\ zip_detect None = 0.
Proof. vm_compute. repeat split; reflexivity. Qed.

(* ZIP family vs the manifest that defines the package type: on archives whose member names are in the plain form every packaging tool
   writes (relative, no empty, "." or ".." component: then the normalisation is the identity), whose only *.app/Info.plist members are
   Payload/<x>.app/Info.plist, and that carry at most one of the specific manifests, detectZip answers the type of that manifest, JAR if there
   is only META-INF/MANIFEST.MF, unknown otherwise — wherever the members sit in the directory *)
Theorem magic_zip_eq_spec : forall names t,
  (forall n, In n names -> plain_name n = true) -> ipa_strict names -> spec_zip_type names = Some t -> zip_detect (Some names) = t.
Proof. intros names t Hp. apply zip_eq_spec. intros n Hin. apply plain_is_normalised. exact (Hp n Hin). Qed.

(* ================================================================== C01 / C03 / C08: the signed output has the type of the input *)
(* byte-prefix formats (FmtPGP, FmtMSI, FmtCAB, FmtMACHO, FmtXAR; RPM, DEB): ANY file that starts with the magic of a clause is
   detected as that clause's type unless an earlier floating test fires; relic's signers never touch the leading magic *)
Theorem magic_stable_under_signing :
  (forall p t g, In (p, t) first_magics -> is_prefix p g = true -> detect_ref g = t) /\
  (forall p t g, In (p, t) mid_magics -> is_prefix p g = true -> rel_cat g = false -> rel_pkcs7 g = false -> rel_tar g = false -> detect_ref g = t) /\
  (forall p t g, In (p, t) late_magics -> is_prefix p g = true -> rel_cat g = false -> rel_pkcs7 g = false -> rel_tar g = false -> rel_manifest g = false -> detect_ref g = t) /\
  first_magics ++ mid_magics ++ late_magics = table_prefixes magic_detect_cases /\ length (table_prefixes magic_detect_cases) = 12%nat.
Proof.
  (* in each group: g is p ++ r, and the prefix tests of the other clauses compare other bytes, no two prefixes of the list being comparable *)
  split; [|split; [|split; [|split; reflexivity]]].
  - intros p t g Hin [r ->]%is_prefix_iff. vm_compute in Hin.
    destruct Hin as [H|[H|[H|[]]]]; injection H as <- <-; reflexivity.
  - intros p t g Hin [r ->]%is_prefix_iff H1 H2 H3. unfold detect_ref. rewrite H1, H2, H3. vm_compute in Hin.
    destruct Hin as [H|[H|[]]]; injection H as <- <-; reflexivity.
  - intros p t g Hin [r ->]%is_prefix_iff H1 H2 H3 H4. unfold detect_ref. rewrite H1, H2, H3, H4. vm_compute in Hin.
    destruct Hin as [H|[H|[H|[H|[H|[H|[H|[]]]]]]]]; injection H as <- <-; reflexivity.
Qed.
(* FmtPE: a file g that keeps the bytes of a PE file f up to the end of the PE signature (signing changes the checksum, the certificate
   table entry and appends) is a PE file for Detect, unless one of the three floating tests fires on g *)
Theorem magic_stable_under_signing_pe : forall f g, all_bytes f = true -> rel_mz f = true -> pe_core f = true ->
  (let w := Z.max 62 (le_dec (zslice 60 62 f) + 4) in ztake w g = ztake w f) ->
  rel_cat g = false -> rel_pkcs7 g = false -> rel_tar g = false -> detect_ref g = 6.
Proof.
  intros f g Hb Hmz Hpe Hw H1 H2 H3. cbv zeta in Hw. pose proof (le_dec_nonneg _ (all_bytes_zslice 60 62 f Hb)) as He.
  (* g has the head of f that the "MZ" test and the probe read *)
  apply stable_pe; [rewrite <- Hmz; apply (is_prefix_same_head _ f g _ Hw); change (zlen [77; 90]) with 2; lia|
                    rewrite <- Hpe; apply (pe_core_same_head f g _ Hw); lia|exact H1|exact H2|exact H3].
Qed.
(* ... and the floating tests are a real condition: a PE file whose checksum field lies in the first 256 bytes, next to seven bytes of the
   catalog OID; the same file with another checksum (what signing writes) is a catalog for Detect *)
Theorem magic_pe_checksum_flips_refuted : exists f g,
  detect_ref f = 6 /\ detect_ref g = 10 /\ ztake 152 g = ztake 152 f /\ zdrop 156 g = zdrop 156 f /\ zlen g = zlen f.
Proof. exists w_pe_pre_sign, w_pe_post_sign. vm_compute. repeat split; reflexivity. Qed.
(* FmtPS (signature block appended; module chosen by file name) and every appending signer: bytes appended to a file of at least 262
   bytes that is not an MZ file, to a PE file whose header lies inside the file, or to any file of at least 4096 bytes change nothing *)
Theorem magic_stable_under_append :
  (forall f x, 262 <= zlen f -> rel_mz f = false -> detect_ref (f ++ x) = detect_ref f) /\
  (forall f x, all_bytes f = true -> 262 <= zlen f -> rel_mz f = true -> pe_core f = true -> detect_ref (f ++ x) = detect_ref f) /\
  (forall f x, magic_detect_bufsize <= zlen f -> detect_bytes (f ++ x) = detect_bytes f).
Proof.
  split; [|split].
  - intros f x Hl Hmz. apply stable_append; [exact Hl|]. rewrite Hmz. discriminate.
  - intros f x Hb Hl _ Hpe. apply stable_append; [exact Hl|]. intros _. rewrite Hpe. exact (pe_core_app f x Hb Hpe).
  - intros f x H. apply magic_detect_bounded_peek. rewrite ztake_app_l by exact H. reflexivity.
Qed.
(* C02: ... but a SHORT file can be re-routed by an appended tail: a 62-byte binary PGP signature followed by bytes containing the
   signedData OID is a PKCS#7 file for Detect *)
Theorem magic_append_flips_short_refuted : exists f x, detect_ref f = 3 /\ detect_ref (f ++ x) = 5 /\ zlen f = 62.
Proof. exists w_short_pgp, w_tail_with_oid. vm_compute. repeat split; reflexivity. Qed.

(* ZIP family (FmtJAR, FmtAPK, FmtAPPX, FmtVSIX; XAP appends a trailer and changes no member): the type is a function of the first
   member with a returning rule and of whether some member is the JAR manifest; members that trigger no rule can be added, removed,
   renamed, moved *)
Theorem magic_zip_only_triggers : forall a b,
  (triggers a = triggers b -> zip_detect (Some a) = zip_detect (Some b)) /\
  (first_ret a = first_ret b -> has_jar a = has_jar b -> zip_detect (Some a) = zip_detect (Some b)).
Proof.
  intros a b. split; [|apply zip_detect_normal].
  intros H. cbn [zip_detect]. rewrite (zip_loop_filter a), (zip_loop_filter b), H. reflexivity.
Qed.
(* every member name relic's signers add triggers no rule — for EVERY key alias (JAR, APK v1: META-INF/<ALIAS>.SF / .RSA / .EC / .SIG,
   literals taken from lib/signjar.sigNames) and every signature part name (VSIX); the fixed names of APPX and VSIX by computation;
   the JAR manifest the signer rewrites is the JAR rule itself *)
Theorem magic_stable_under_signing_zip :
  (forall alias s, In s jar_sig_suffixes -> no_slash alias -> neutral (jar_metaInf ++ alias ++ s) = true) /\
  neutral jar_metaInf = true /\ zip_member_action jar_manifestName = ZJar /\
  (forall g, no_slash g -> neutral (vsix_xmlSigPath ++ SLASH :: g ++ SFX_PSDSXS) = true /\
                           neutral (vsix_xmlSigPath ++ bs "/_rels" ++ SLASH :: g ++ bs ".psdsxs.rels") = true) /\
  forallb neutral [appx_appxSignature; appx_appxCodeIntegrity; appx_appxBlockMap; appx_appxContentTypes;
                   vsix_contentTypesPath; vsix_originPath; vsix_rootRelsPath ++ bs "/.rels"; vsix_digSigPath ++ bs "/_rels/origin.psdor.rels"] = true /\
  (forall names added, Forall (fun n => neutral n = true) added -> zip_detect (Some (names ++ added)) = zip_detect (Some names)).
Proof.
  split; [|split; [vm_compute; reflexivity|split; [vm_compute; reflexivity|split; [|split; [vm_compute; reflexivity|]]]]].
  - intros alias s Hs Ha. pose proof (proj1 (forallb_forall _ _) jar_suffixes_safe s Hs) as Hall.
    apply andb_true_iff in Hall as [Hall Hns]. apply andb_true_iff in Hall as [Hsafe Hlen]. apply negb_true_iff in Hns.
    change jar_metaInf with ([77; 69; 84; 65; 45; 73; 78; 70] ++ [SLASH]). rewrite <- app_assoc. cbn [app].
    apply (added_name_neutral [77; 69; 84; 65; 45; 73; 78; 70] alias s Hsafe); [lia|exact Ha|exact (no_slash_test s Hns)|reflexivity].
  - intros g Hg. split; [|rewrite app_assoc];
      (apply added_name_neutral; [vm_compute; reflexivity|apply Z.leb_le; reflexivity|exact Hg|apply no_slash_test; reflexivity|reflexivity]).
  - intros names added H. destruct (first_ret_neutral_app names added H) as [H1 H2]. apply zip_detect_normal; assumption.
Qed.
(* C02: ... while ONE added member re-routes the archive: a (signed) JAR plus a member AndroidManifest.xml is an APK for relic *)
Theorem magic_zip_added_member_flips_refuted : exists names n, zip_detect (Some names) = 4 /\ zip_detect (Some (names ++ [n])) = 14.
Proof. exists zn_jar, (bs "AndroidManifest.xml"). destruct magic_zip_order_resolves_overlaps as [H1 [H2 _]]. split; assumption. Qed.

(* ================================================================== C01: dispatch *)
(* the Magic fields of the registered modules are pairwise different, names and aliases are pairwise different, the set of Magic
   values IS the set of types Detect / detectZip can answer (no type without a module, no module that can never be chosen), and the
   FileType enumeration has no further member *)
Theorem magic_dispatch_consistent :
  nodup_z nonzero_magics = true /\ nodup_b all_names = true /\
  subset_z detect_types nonzero_magics = true /\ subset_z nonzero_magics detect_types = true /\
  Z.of_nat (length (nodup Z.eq_dec (0 :: nonzero_magics))) = magic_FileType_count /\
  forall m, In m signers_table ->
    by_name (m_name m) = Some m /\ (forall a, In a (m_aliases m) -> by_name a = Some m) /\ (m_magic m <> 0 -> by_magic (m_magic m) = Some m) /\
    server_route (m_name m) = (if token_sign_refuses_verify_only (m_has_sign m) then Refused E_NO_SIGNER else Chosen m).
Proof. do 5 (split; [vm_compute; reflexivity|]). exact table_self_lookup. Qed.
(* ByMagic and ByName do not depend on the order in which the modules' init functions ran *)
Theorem magic_lookup_order_independent : forall tbl',
  Permutation signers_table tbl' ->
  (forall m, m <> 0 -> by_magic_in signers_table m = by_magic_in tbl' m) /\ (forall n, by_name_in signers_table n = by_name_in tbl' n).
Proof.
  intros tbl' P. split; [intros m Hm; apply by_magic_order_independent; [exact table_unique_magic|exact P|exact Hm]|
                         intros n; apply by_name_order_independent; [exact table_unique_names|exact P]].
Qed.
(* without -T, `relic sign` / `relic remote sign` and `relic verify` choose the same module for the same content and name;
   signing refuses compressed input, verifying accepts it exactly for modules with a stream verifier; with -T the content is not looked at;
   the client sends the NAME of the module it chose and the server looks exactly that module up (it never inspects the content);
   the server refuses exactly the (verify-only) types the command line refuses *)
Theorem magic_route_consistent :
  (forall name t, signers_byfile_stdin name = false -> route_mod (by_file [] name true (Ok (t, 0))) = vroute_mod (verify_route name (Ok (t, 0)))) /\
  (forall name t c, signers_byfile_stdin name = false -> c <> 0 -> by_file [] name true (Ok (t, c)) = Refused E_COMPRESSED) /\
  (forall name t c, c <> 0 -> verify_route name (Ok (t, c)) =
     match (match by_magic t with Some m => Some m | None => by_filename name end) with
     | None => VRefused E_UNKNOWN | Some m => if m_has_stream m then VStream m c else VRefused E_COMPRESSED end) /\
  (forall sigtype n1 n2 o1 o2 d1 d2, sigtype <> [] -> by_file sigtype n1 o1 d1 = by_file sigtype n2 o2 d2) /\
  (forall sigtype name o det m, sign_route sigtype name o det = Chosen m -> server_route (m_name m) = Chosen m) /\
  (forall m, In m signers_table -> (exists e, server_route (m_name m) = Refused e) <-> token_sign_refuses_verify_only (m_has_sign m) = true).
Proof.
  split; [|split; [|split; [|split; [|split]]]].
  - intros name t Hs. unfold by_file, verify_route. rewrite Hs.
    unfold signers_byfile_explicit, signers_byfile_refuses_compression, signers_byfile_magic_found, signers_byfile_name_found,
      verify_falls_back_to_name, verify_unknown, verify_uses_stream, verify_refuses_compression. cbn [bytes_eqb list_eqb negb].
    change (0 =? magic_CompressedNone) with true. cbn [negb].
    destruct (by_magic t) as [m|]; cbn [is_some negb route_mod].
    + destruct (m_has_stream m); reflexivity.
    + destruct (by_filename name) as [m|]; cbn [is_some negb route_mod vroute_mod]; [destruct (m_has_stream m); reflexivity|reflexivity].
  - intros name t c Hs Hc. unfold by_file. rewrite Hs. unfold signers_byfile_explicit, signers_byfile_refuses_compression. cbn [bytes_eqb list_eqb negb].
    change magic_CompressedNone with 0. replace (c =? 0) with false by lia. reflexivity.
  - intros name t c Hc. unfold verify_route, verify_falls_back_to_name, verify_unknown, verify_uses_stream, verify_refuses_compression.
    change magic_CompressedNone with 0. replace (c =? 0) with false by lia. cbn [negb].
    destruct (by_magic t) as [m|]; cbn [is_some negb]; [reflexivity|]. destruct (by_filename name); reflexivity.
  - intros sigtype n1 n2 o1 o2 d1 d2 H. unfold by_file, signers_byfile_explicit.
    replace (bytes_eqb sigtype []) with false; [reflexivity|]. symmetry. apply bytes_eqb_neq. exact H.
  - intros sigtype name o det m H. destruct (sign_route_can_sign _ _ _ _ _ H) as [Hin Hv].
    destruct (table_self_lookup m Hin) as [_ [_ [_ Hs]]]. rewrite Hs, Hv. reflexivity.
  - intros m Hin. destruct (table_self_lookup m Hin) as [_ [_ [_ Hs]]]. rewrite Hs.
    destruct (token_sign_refuses_verify_only (m_has_sign m)); split; [intros _; reflexivity|intros _; eauto|intros [e He]; discriminate|discriminate].
Qed.
(* the per-module fields: only the pgp module may read standard input; deb, pgp and rpm sign with PGP keys, every other module with X.509;
   mach-o-fat, ipa and pkcs7 are verify-only; `relic sign -f -` is refused without -T, goes to pgp with -T pgp, and is refused for every other
   type; a verify-only type is refused whatever the input *)
Theorem magic_module_fields :
  (map m_name (filter m_stdin signers_table) = [bs "pgp"] /\
   map m_name (filter (fun m => negb (Z.land (m_cert m) signers_CertTypePgp =? 0)) signers_table) = [bs "deb"; bs "pgp"; bs "rpm"] /\
   forallb (fun m => (m_cert m =? signers_CertTypeX509) || (m_cert m =? signers_CertTypePgp)) signers_table = true /\
   map m_name (filter (fun m => negb (m_has_sign m)) signers_table) = [bs "mach-o-fat"; bs "ipa"; bs "pkcs7"] /\
   forallb (fun m => m_has_verify m || m_has_stream m || bytes_eqb (m_name m) (bs "cosign")) signers_table = true) /\
  (forall det, sign_route [] (bs "-") true det = Refused E_STDIN) /\
  (forall det, option_map m_name (route_mod (sign_route (bs "pgp") (bs "-") true det)) = Some (bs "pgp")) /\
  (forall m det, In m signers_table -> m_has_sign m = true -> m_stdin m = false -> sign_route (m_name m) (bs "-") true det = Refused E_NO_STDIN) /\
  (forall m name det, In m signers_table -> m_has_sign m = false -> sign_route (m_name m) name true det = Refused E_VERIFY_ONLY).
Proof.
  split; [vm_compute; repeat split; reflexivity|].
  split; [intros det; reflexivity|]. split; [intros det; reflexivity|]. split.
  - intros m det H Hs Hi. rewrite (sign_route_by_name m _ det H), Hs, Hi. reflexivity.
  - intros m name det H Hs. rewrite (sign_route_by_name m name det H), Hs. reflexivity.
Qed.
(* the shapes these models rely on (step list of ByFile, call order of verifyOne, first-match loops, which statements are present) *)
Theorem magic_callers_reviewed :
  signers_byfile_steps = [1; 2; 3; 3; 4; 5; 6; 7; 8] /\ verify_calls = [0; 1; 2; 3; 4; 5; 6] /\
  signers_byname_first_match = true /\ signers_bymagic_first_match = true /\ signers_byfilename_first_match = true /\
  verify_detects_compressed = true /\ verify_by_magic_first = true /\ verify_then_by_filename = true /\ verify_rewinds = true /\ verify_decompresses_for_stream = true /\
  token_sign_uses_byfile = true /\ remote_sign_uses_byfile = true /\ token_sign_probe_same_module = true /\ remote_sign_probe_same_module = true /\
  remote_sign_sends_module_name = true /\ server_sign_reads_sigtype = true /\ server_sign_by_name = true /\ server_sign_sniffs = false /\
  signers_issigned_prefers_stream = true /\ signers_testpath_known = true /\ magic_zip_cleans = true /\
  (forall b, token_sign_refuses_verify_only b = remote_sign_refuses_verify_only b) /\ (forall b, token_sign_refuses_stdin b = remote_sign_refuses_stdin b).
Proof. repeat split; reflexivity. Qed.

(* file names: the ps module for exactly the seven PowerShell extensions (as filepath.Ext sees them: last element, last dot,
   CASE-SENSITIVE), the dmg module for names ending in ".dmg", nothing else; the extension table is the documented list *)
Theorem magic_filename_rules :
  (forall path, by_filename path = if is_some (lookup_exact ps_ext_table (path_ext path)) then ps_module
                                   else if has_suffix path [46; 100; 109; 103] then dmg_module else None) /\
  forallb (fun e => existsb (bytes_eqb e) (map fst ps_ext_table)) spec_ps_exts = true /\
  forallb (fun e => existsb (bytes_eqb e) spec_ps_exts) (map fst ps_ext_table) = true /\
  by_filename (bs "script.ps1") = ps_module /\ by_filename (bs "SCRIPT.PS1") = None /\ by_filename (bs "dir.ps1/readme") = None /\
  by_filename (bs "image.dmg") = dmg_module /\ by_filename (bs "image.DMG") = None /\ by_filename (bs "a.dmg.ps1") = ps_module /\
  is_some ps_module = true /\ is_some dmg_module = true.
Proof.
  split; [|vm_compute; repeat split; reflexivity].
  intros path. unfold by_filename, signers_table. cbn [by_filename_in m_testpath]. unfold signers_byfilename_match, testpath_eval.
  cbn [Z.eqb negb andb signers_testpath_ps signers_testpath_dmg]. unfold dmg_testPath.
  destruct (has_suffix path [46; 100; 109; 103]) eqn:Hd.
  - (* the dmg module is registered before the ps module, but ".dmg" is not a PowerShell extension *)
    apply has_suffix_iff in Hd as [y ->]. rewrite ext_of_dmg. reflexivity.
  - destruct (is_some (lookup_exact ps_ext_table (path_ext path))); reflexivity.
Qed.
(* C01: the content is looked at BEFORE the name, by sign and by verify alike: a PowerShell script whose first 256 bytes contain
   ":assembly" is routed to the ClickOnce manifest module although its name says .ps1 (with -T ps it can be signed, and then not verified) *)
Theorem magic_content_shadows_filename_refuted : exists l name,
  detect_ref l = 9 /\
  option_map m_name (route_mod (by_file [] name true (Ok (detect_ref l, 0)))) = Some (bs "appmanifest") /\
  option_map m_name (by_filename name) = Some (bs "ps") /\
  option_map m_name (vroute_mod (verify_route name (Ok (detect_ref l, 0)))) = Some (bs "appmanifest").
Proof. exists w_ps1_assembly, (bs "load.ps1"). vm_compute. repeat split; reflexivity. Qed.

(* ================================================================== C08: the is-signed probe *)
(* IsSigned runs the chosen module's verifier (stream verifier first) without digests and chain: signed iff it succeeds or lacks only
   the key; unsigned iff it reports NotSignedError; any other error is passed on; `--if-unsigned` asks the module ByFile chose *)
Theorem magic_is_signed_spec : forall m outcome,
  is_signed_result m outcome =
  if m_has_stream m || m_has_verify m then Some ((outcome =? 0) || (outcome =? 2), negb ((outcome =? 0) || (outcome =? 1) || (outcome =? 2))) else None.
Proof. exact is_signed_spec. Qed.

(* non-vacuity *)
Example ex_quirk_free_pe : spec_matches w_pe64 = [S_PE] /\ quirk_free w_pe64 = true. Proof. vm_compute. split; reflexivity. Qed.
Example ex_detect_pe : detect_bytes w_pe64 = Ok 6. Proof. vm_compute. reflexivity. Qed.
Example ex_detect_compressed_zip : detect_compressed (mkEnv None None (Some zn_jar)) ([80; 75; 3; 4] ++ rep 30 0) = Ok (4, 0). Proof. vm_compute. reflexivity. Qed.
Example ex_detect_compressed_gz : detect_compressed (mkEnv (Some (rep 257 0 ++ bs "ustar")) None None) [31; 139; 8; 0] = Ok (0, 1). Proof. vm_compute. reflexivity. Qed.
Example ex_zip_spec_hyp : forallb plain_name zn_jar = true /\ spec_zip_type zn_jar = Some S_JAR /\ lookup_suffix magic_zip_suffix (bs "a/B.class") = None. Proof. vm_compute. repeat split; reflexivity. Qed.
Example ex_jar_alias : neutral (bs "META-INF/RELIC.SF") = true /\ In (bs ".SF") jar_sig_suffixes. Proof. split; [vm_compute; reflexivity|left; reflexivity]. Qed.
Example ex_pe_kept_hyp : all_bytes w_pe64 = true /\ rel_mz w_pe64 = true /\ pe_core w_pe64 = true. Proof. vm_compute. repeat split; reflexivity. Qed.
