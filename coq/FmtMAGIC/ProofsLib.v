(* FmtMAGIC/ProofsLib.v — byte-string lemmas and the reduction of the generated helpers (hasPrefix / contains / atPosition / isTar
   over a fresh bufio.Reader) to plain predicates on the input. *)
From Relic Require Import Base.Prelude Base.Slice FmtMAGIC.Lib Generated.FmtMAGIC_gen FmtMAGIC.Model.

Lemma is_prefix_iff p l : is_prefix p l = true <-> exists r, l = p ++ r.
Proof.
  revert l; induction p as [|x p IH]; intros l; cbn [is_prefix].
  - split; [intros _; exists l; reflexivity|reflexivity].
  - destruct l as [|y l]; [split; [discriminate|intros [r H]; discriminate]|].
    rewrite andb_true_iff, Z.eqb_eq, IH. split.
    + intros [-> [r ->]]. exists r. reflexivity.
    + intros [r H]. cbn in H. injection H as -> ->. split; [reflexivity|exists r; reflexivity].
Qed.
Lemma is_prefix_len p l : is_prefix p l = true -> zlen p <= zlen l.
Proof. intros H. apply is_prefix_iff in H as [r ->]. rewrite zlen_app. pose proof (zlen_nonneg r). lia. Qed.
Lemma is_prefix_app a b l : is_prefix (a ++ b) l = is_prefix a l && is_prefix b (zdrop (zlen a) l).
Proof.
  revert l; induction a as [|x a IH]; intros l; cbn [app is_prefix].
  - rewrite zlen_nil, zdrop_0. reflexivity.
  - destruct l as [|y l]; [reflexivity|]. rewrite IH, andb_assoc, zlen_cons, zdrop_cons by apply zlen_nonneg. reflexivity.
Qed.
Lemma is_prefix_ztake p l n : zlen p <= n -> is_prefix p (ztake n l) = is_prefix p l.
Proof.
  revert l n; induction p as [|x p IH]; intros l n H; [reflexivity|].
  rewrite zlen_cons in H. pose proof (zlen_nonneg p).
  unfold ztake. replace (Z.to_nat n) with (S (Z.to_nat (n - 1))) by lia.
  destruct l as [|y l]; [reflexivity|]. cbn [firstn is_prefix]. f_equal. apply (IH l (n - 1)). lia.
Qed.
(* two prefixes of the same string are comparable *)
Lemma is_prefix_comparable p q l : is_prefix p l = true -> is_prefix q l = true -> is_prefix p q || is_prefix q p = true.
Proof.
  revert q l; induction p as [|x p IH]; intros q l Hp Hq; [reflexivity|].
  destruct q as [|y q]; [reflexivity|].
  destruct l as [|z l]; [discriminate|]. cbn [is_prefix] in *.
  apply andb_true_iff in Hp as [Hx Hp]. apply andb_true_iff in Hq as [Hy Hq].
  apply Z.eqb_eq in Hx, Hy. subst. rewrite Z.eqb_refl. cbn [andb]. exact (IH _ _ Hp Hq).
Qed.
Lemma has_suffix_iff m s : has_suffix m s = true <-> exists y, m = y ++ s.
Proof.
  unfold has_suffix. rewrite is_prefix_iff. split; intros [r H]; exists (rev r).
  - rewrite <- (rev_involutive m), H, rev_app_distr, rev_involutive. reflexivity.
  - rewrite H, rev_app_distr. reflexivity.
Qed.
Lemma has_suffix_app y c : has_suffix (y ++ c) c = true.
Proof. apply has_suffix_iff. exists y. reflexivity. Qed.
(* comparing the first zlen p bytes with p is the prefix test *)
Lemma eqb_take_prefix p x : bytes_eqb (ztake (zlen p) x) p = is_prefix p x.
Proof.
  apply eq_true_iff_eq. rewrite bytes_eqb_eq, is_prefix_iff. split.
  - intros H. exists (zdrop (zlen p) x). rewrite <- H at 1. symmetry. apply ztake_zdrop.
  - intros [r ->]. apply ztake_app_exact.
Qed.

Lemma contains_iff d p : bytes_contains d p = true <-> exists a b, d = a ++ p ++ b.
Proof.
  induction d as [|x d IH]; cbn [bytes_contains]; rewrite orb_true_iff, is_prefix_iff.
  - split.
    + intros [[r H]|H]; [exists [], r; exact H|discriminate].
    + intros [[|y a] [b H]]; [left; exists b; exact H|discriminate].
  - rewrite IH. split.
    + intros [[r H]|[a [b H]]]; [exists [], r; exact H|exists (x :: a), b; rewrite H; reflexivity].
    + intros [[|y a] [b H]]; [left; exists b; exact H|right; exists a, b; injection H as _ H; exact H].
Qed.
Lemma contains_len d p : bytes_contains d p = true -> zlen p <= zlen d.
Proof. intros [a [b ->]]%contains_iff. rewrite !zlen_app. pose proof (zlen_nonneg a). pose proof (zlen_nonneg b). lia. Qed.
(* a pattern that starts at offset k and ends inside the first n bytes is found in those n bytes *)
Lemma contains_in_window p l k n : 0 <= k -> k + zlen p <= n -> is_prefix p (zdrop k l) = true -> bytes_contains (ztake n l) p = true.
Proof.
  intros Hk Hn H. rewrite <- (is_prefix_ztake _ _ (n - k)), <- zdrop_ztake in H by lia.
  apply is_prefix_iff in H as [r H]. apply contains_iff. exists (ztake k (ztake n l)), r. rewrite <- H. symmetry. apply ztake_zdrop.
Qed.

(* ---- the generated helpers on a fresh reader *)
Lemma peek_mk l B n : rd_peek (mkReader l B) n = ztake (Z.min n B) l.
Proof. reflexivity. Qed.

Lemma atpos_spec l B p n : 0 <= n -> n + zlen p <= B ->
  magic_atPosition (mkReader l B) p n = at_off n p l.
Proof.
  intros Hn HB. pose proof (zlen_nonneg p) as Hp. unfold magic_atPosition, at_off. rewrite peek_mk.
  rewrite Z.min_l by lia. rewrite zlen_ztake_min by lia.
  destruct (Z.min (n + zlen p) (zlen l) <? n + zlen p) eqn:E.
  - replace (zlen p + n <=? zlen l) with false by lia. reflexivity.
  - replace (zlen p + n <=? zlen l) with true by lia. cbn [andb].
    rewrite zdrop_ztake by lia. replace (n + zlen p - n) with (zlen p) by lia.
    apply eqb_take_prefix.
Qed.
Lemma at_off_0 p l : at_off 0 p l = is_prefix p l.
Proof.
  unfold at_off. rewrite zdrop_0. destruct (is_prefix p l) eqn:E; [|apply andb_false_r].
  apply is_prefix_len in E. rewrite andb_true_r. lia.
Qed.
Lemma at_off_ztake off p l n : 0 <= off -> off + zlen p <= n -> at_off off p (ztake n l) = at_off off p l.
Proof.
  intros H0 H. pose proof (zlen_nonneg p). unfold at_off.
  rewrite zlen_ztake_min, zdrop_ztake, is_prefix_ztake by lia. f_equal. lia.
Qed.
Lemma hasprefix_spec l B p : zlen p <= B -> magic_hasPrefix (mkReader l B) p = is_prefix p l.
Proof. intros H. unfold magic_hasPrefix. rewrite atpos_spec by lia. apply at_off_0. Qed.
Lemma contains_spec l B p n : 0 <= n <= B -> magic_contains (mkReader l B) p n = bytes_contains (ztake n l) p.
Proof.
  intros H. unfold magic_contains. rewrite peek_mk, Z.min_l by lia.
  destruct (zlen (ztake n l) <? zlen p) eqn:E; [|reflexivity].
  destruct (bytes_contains (ztake n l) p) eqn:C; [|reflexivity]. apply contains_len in C. lia.
Qed.
Lemma istar_spec l B : 262 <= B -> magic_isTar (mkReader l B) = at_off 257 [117; 115; 116; 97; 114] l.
Proof. intros H. unfold magic_isTar, bytes_of. apply atpos_spec; [lia|]. change (zlen [117; 115; 116; 97; 114]) with 5. lia. Qed.

(* ---- the window behind a Peek *)
Lemma window_slice l B lo hi : 0 <= lo -> hi <= B -> hi <= zlen l -> zslice lo hi (rd_window (mkReader l B)) = zslice lo hi l.
Proof.
  intros Hlo HB Hl. unfold rd_window. cbn [rd_buf rd_data].
  destruct (Z.le_gt_cases hi lo) as [H|H]; [unfold zslice; rewrite !ztake_neg by lia; reflexivity|].
  rewrite zslice_app_l; [apply zslice_ztake; lia|lia|]. rewrite zlen_ztake_min by lia. lia.
Qed.
(* slicing a Peek result inside both the buffer and the input *)
Lemma buf_slice_mk l B lo hi : 0 <= lo <= hi -> hi <= B -> hi <= zlen l -> buf_slice (mkReader l B) lo hi = Ok (zslice lo hi l).
Proof.
  intros H HB Hl. unfold buf_slice. cbn [rd_buf]. replace ((0 <=? lo) && (lo <=? hi) && (hi <=? B)) with true by lia.
  rewrite window_slice by lia. reflexivity.
Qed.
Lemma zslice_as_take {A} lo k (l : list A) : zslice lo (lo + k) l = ztake k (zdrop lo l).
Proof. unfold zslice. f_equal. lia. Qed.
