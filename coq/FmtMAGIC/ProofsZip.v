(* FmtMAGIC/ProofsZip.v — lib/magic.detectZip on member names: only "trigger" members matter; the names relic's ZIP-family signers
   add are not triggers (for every key alias / part name); the answer against the manifest that defines the package type. *)
From Relic Require Import Base.Prelude Base.Lists Base.Slice FmtMAGIC.Lib Generated.FmtMAGIC_gen FmtMAGIC.Model FmtMAGIC.ProofsLib.

Definition neutral (n : bytes) : bool := match zip_member_action n with ZNone => true | _ => false end.
Definition triggers (names : list bytes) : list bytes := filter (fun n => negb (neutral n)) names.

Lemma zip_loop_filter names j : zip_loop names j = zip_loop (triggers names) j.
Proof.
  revert j; induction names as [|n r IH]; intros j; [reflexivity|].
  unfold triggers. cbn [zip_loop filter]. unfold neutral. destruct (zip_member_action n) eqn:E; cbn [negb zip_loop]; rewrite ?E; try reflexivity; apply IH.
Qed.

Lemma has_suffix_trans m c s : has_suffix m c = true -> has_suffix c s = true -> has_suffix m s = true.
Proof. intros [y ->]%has_suffix_iff [z ->]%has_suffix_iff. rewrite app_assoc. apply has_suffix_app. Qed.
Lemma has_suffix_app_l p m c : has_suffix m c = true -> has_suffix (p ++ m) c = true.
Proof. intros [y ->]%has_suffix_iff. rewrite app_assoc. apply has_suffix_app. Qed.
Lemma has_suffix_comparable m a b : has_suffix m a = true -> has_suffix m b = true -> has_suffix a b || has_suffix b a = true.
Proof. unfold has_suffix. intros H1 H2. rewrite orb_comm. exact (is_prefix_comparable _ _ _ H1 H2). Qed.
Lemma has_suffix_eq k s : has_suffix k s = false -> forall m, has_suffix m s = true -> m <> k.
Proof. intros H m Hm E. subst. congruence. Qed.

(* a suffix no trigger name ends with, and that is not comparable with any trigger suffix *)
Definition sfx_safe (s : bytes) : bool :=
  forallb (fun e => negb (has_suffix (fst e) s)) magic_zip_exact &&
  forallb (fun e => negb (has_suffix (fst e) s || has_suffix s (fst e))) magic_zip_suffix.
Lemma lookup_exact_none tbl m (P : bytes -> bool) : forallb (fun e : bytes * Z => negb (P (fst e))) tbl = true -> P m = true -> lookup_exact tbl m = None.
Proof.
  intros H Hm. induction tbl as [|[k v] r IH]; [reflexivity|]. cbn [forallb fst] in H. apply andb_true_iff in H as [Hk Hr].
  cbn [lookup_exact]. destruct (bytes_eqb m k) eqn:E; [|exact (IH Hr)].
  apply bytes_eqb_eq in E. subst. rewrite Hm in Hk. discriminate.
Qed.
Lemma lookup_suffix_none tbl m s : forallb (fun e : bytes * Z => negb (has_suffix (fst e) s || has_suffix s (fst e))) tbl = true -> has_suffix m s = true -> lookup_suffix tbl m = None.
Proof.
  intros H Hm. induction tbl as [|[k v] r IH]; [reflexivity|]. cbn [forallb fst] in H. apply andb_true_iff in H as [Hk Hr].
  cbn [lookup_suffix]. destruct (has_suffix m k) eqn:E; [|exact (IH Hr)].
  rewrite (has_suffix_comparable m k s E Hm) in Hk. discriminate.
Qed.
Lemma neutral_by_suffix n s : sfx_safe s = true -> has_suffix (zip_norm n) s = true -> neutral n = true.
Proof.
  unfold sfx_safe, neutral, zip_member_action. intros H Hs. apply andb_true_iff in H as [H1 H2].
  rewrite (lookup_exact_none _ _ (fun m => has_suffix m s) H1 Hs), (lookup_suffix_none _ _ _ H2 Hs). reflexivity.
Qed.

(* ---- path.Clean keeps a regular last component *)
Definition no_slash (c : bytes) : Prop := ~ In SLASH c.
Lemma no_slash_test s : existsb (Z.eqb SLASH) s = false -> no_slash s.
Proof. intros H Hin%existsb_Zeqb_In. congruence. Qed.
Definition regular (c : bytes) : Prop := c <> [] /\ is_dot c = false /\ is_dotdot c = false.
Lemma split_aux_noslash c cur : no_slash c -> split_slash_aux c cur = [rev cur ++ c].
Proof.
  revert cur; induction c as [|x c IH]; intros cur H; cbn [split_slash_aux]; [rewrite app_nil_r; reflexivity|].
  destruct (x =? SLASH) eqn:E; [apply Z.eqb_eq in E; subst; exfalso; apply H; left; reflexivity|].
  rewrite IH by (intros Hin; apply H; right; exact Hin). cbn [rev]. rewrite <- app_assoc. reflexivity.
Qed.
Lemma split_aux_snoc pre c cur : no_slash c -> split_slash_aux (pre ++ SLASH :: c) cur = split_slash_aux pre cur ++ [c].
Proof.
  intros Hc. revert cur; induction pre as [|x pre IH]; intros cur; cbn [app split_slash_aux].
  - rewrite Z.eqb_refl. rewrite (split_aux_noslash c [] Hc). reflexivity.
  - destruct (x =? SLASH); [rewrite IH; reflexivity|apply IH].
Qed.
Lemma clean_comps_snoc cs c st : regular c -> exists st', clean_comps (cs ++ [c]) st = rev st' ++ [c].
Proof.
  intros [Hne [Hd Hdd]]. revert st; induction cs as [|x cs IH]; intros st.
  - cbn [app clean_comps]. destruct c as [|c0 c']; [contradiction|]. rewrite Hd, Hdd. cbn [clean_comps rev]. exists st. reflexivity.
  - cbn [app clean_comps]. destruct x as [|x0 x']; [apply IH|].
    destruct (is_dot (x0 :: x')); [apply IH|]. destruct (is_dotdot (x0 :: x')); [|apply IH].
    destruct st as [|top below]; [apply IH|]. destruct (is_dotdot top); apply IH.
Qed.
Lemma join_cons2 x y ys : join_slash (x :: y :: ys) = (x ++ [SLASH]) ++ join_slash (y :: ys).
Proof. cbn [join_slash]. rewrite <- app_assoc. reflexivity. Qed.
Lemma join_snoc xs c : has_suffix (join_slash (xs ++ [c])) c = true.
Proof.
  induction xs as [|x xs IH]; [cbn [app join_slash]; apply (has_suffix_app [] c)|].
  cbn [app]. destruct (xs ++ [c]) as [|y ys] eqn:E; [destruct xs; discriminate|].
  rewrite join_cons2. apply has_suffix_app_l. exact IH.
Qed.
Theorem clean_keeps_last pre c : no_slash c -> regular c -> has_suffix (path_clean_rel (pre ++ SLASH :: c)) c = true.
Proof.
  intros Hs Hr. unfold path_clean_rel, split_slash. rewrite split_aux_snoc by exact Hs.
  destruct (clean_comps_snoc (split_slash_aux pre []) c [] Hr) as [st' ->].
  destruct (rev st' ++ [c]) as [|y ys] eqn:E; [destruct (rev st'); discriminate|]. rewrite <- E. apply join_snoc.
Qed.

(* a name  dir "/" x sfx  with a slash-free x and a suffix sfx of at least three bytes without "/" *)
Lemma regular_with_suffix x s : 3 <= zlen s -> regular (x ++ s).
Proof.
  intros H. assert (Hl : 3 <= zlen (x ++ s)) by (rewrite zlen_app; pose proof (zlen_nonneg x); lia).
  destruct (x ++ s) as [|a [|b [|c r]]]; [exfalso; unfold zlen in Hl; cbn [length] in Hl; lia ..|].
  unfold regular. split; [discriminate|]. split; reflexivity.
Qed.
Theorem added_name_neutral dir x s : sfx_safe s = true -> 3 <= zlen s -> no_slash x -> no_slash s ->
  has_prefix (dir ++ SLASH :: x ++ s) magic_zip_abs_prefix = false -> neutral (dir ++ SLASH :: x ++ s) = true.
Proof.
  intros Hsafe Hlen Hx Hs Habs. apply (neutral_by_suffix _ s Hsafe). unfold zip_norm. rewrite Habs.
  change magic_zip_cleans with true. cbv iota.
  apply (has_suffix_trans _ (x ++ s)); [|apply has_suffix_app].
  apply clean_keeps_last; [|apply regular_with_suffix; exact Hlen].
  intros Hin. apply in_app_or in Hin as [Hin|Hin]; [exact (Hx Hin)|exact (Hs Hin)].
Qed.

(* ---- normal form of the loop: the first member with a returning rule decides;
   otherwise JAR if any member is the JAR manifest *)
Fixpoint first_ret (names : list bytes) : option Z :=
  match names with [] => None | n :: r => match zip_member_action n with ZRet t => Some t | _ => first_ret r end end.
Definition has_jar (names : list bytes) : bool := existsb (fun n => match zip_member_action n with ZJar => true | _ => false end) names.
Lemma zip_loop_normal names j :
  zip_loop names j = match first_ret names with Some t => t | None => if j || has_jar names then magic_zip_deferred_type else magic_zip_default end.
Proof.
  revert j; induction names as [|n r IH]; intros j; cbn [zip_loop first_ret has_jar existsb]; [rewrite orb_false_r; reflexivity|].
  destruct (zip_member_action n); [reflexivity| |]; rewrite IH; unfold has_jar; [rewrite orb_true_r|]; reflexivity.
Qed.
(* where the JAR manifest sits, and how many there are, does not matter *)
Theorem zip_detect_normal a b : first_ret a = first_ret b -> has_jar a = has_jar b -> zip_detect (Some a) = zip_detect (Some b).
Proof. intros H1 H2. cbn [zip_detect]. rewrite !zip_loop_normal, H1, H2. reflexivity. Qed.
Lemma first_ret_neutral_app a x : Forall (fun n => neutral n = true) x -> first_ret (a ++ x) = first_ret a /\ has_jar (a ++ x) = has_jar a.
Proof.
  intros Hx. induction a as [|n r [IH1 IH2]].
  - cbn [app]. induction Hx as [|y ys Hy _ [IHa IHb]]; [split; reflexivity|].
    unfold neutral in Hy. cbn [first_ret has_jar existsb]. destruct (zip_member_action y); try discriminate. split; [exact IHa|exact IHb].
  - cbn [app first_ret has_jar existsb]. unfold has_jar in IH2. rewrite IH1, IH2. split; reflexivity.
Qed.

(* ---- detectZip vs the manifest that defines the package type *)
Definition normalised (names : list bytes) : Prop := forall n, In n names -> zip_norm n = n.
(* the only members ending in .app/Info.plist or .app/Contents/Info.plist are Payload/<x>.app/Info.plist *)
Definition ipa_strict (names : list bytes) : Prop := forall n, In n names -> lookup_suffix magic_zip_suffix n <> None -> is_ipa_plist n = true.

Lemma has_name_in n names : In n names -> has_name n names = true.
Proof. intros H. unfold has_name. apply existsb_exists. exists n. split; [exact H|apply bytes_eqb_refl]. Qed.
Lemma has_name_out n names : has_name n names = true -> In n names.
Proof. unfold has_name. intros H. apply existsb_exists in H as [x [Hx E]]. apply bytes_eqb_eq in E. subst. exact Hx. Qed.
Lemma in_spec_apk names : has_name N_ANDROID names = true -> In S_APK (spec_zip names).
Proof. intros H. unfold spec_zip. rewrite H. left. reflexivity. Qed.
Lemma in_spec_xap names : has_name N_XAP names = true -> In S_XAP (spec_zip names).
Proof. intros H. unfold spec_zip. apply in_or_app. right. rewrite H. left. reflexivity. Qed.
Lemma in_spec_appx names : has_name N_APPX names || has_name N_BUNDLE names = true -> In S_APPX (spec_zip names).
Proof. intros H. unfold spec_zip. apply in_or_app. right. apply in_or_app. right. rewrite H. left. reflexivity. Qed.
Lemma in_spec_vsix names : has_name N_VSIX names = true -> In S_VSIX (spec_zip names).
Proof. intros H. unfold spec_zip. do 3 (apply in_or_app; right). rewrite H. left. reflexivity. Qed.
Lemma in_spec_ipa names : existsb is_ipa_plist names = true -> In S_IPA (spec_zip names).
Proof. intros H. unfold spec_zip. do 4 (apply in_or_app; right). rewrite H. left. reflexivity. Qed.

(* the generated rule tables, keyed by the names the specification uses *)
Lemma zip_exact_names : magic_zip_exact = [(N_ANDROID, 14); (N_XAP, 13); (N_APPX, 11); (N_BUNDLE, 11); (N_VSIX, 12); (N_JAR, -1)].
Proof. reflexivity. Qed.
Lemma action_spec names n : normalised names -> ipa_strict names -> In n names ->
  match zip_member_action n with ZRet t => In t (spec_zip names) | ZJar => n = N_JAR | ZNone => True end.
Proof.
  intros Hn Hi Hin. unfold zip_member_action. rewrite (Hn n Hin), zip_exact_names. cbn [lookup_exact].
  destruct (bytes_eqb n N_ANDROID) eqn:E1; [apply bytes_eqb_eq in E1; subst; cbn; apply in_spec_apk, has_name_in, Hin|].
  destruct (bytes_eqb n N_XAP) eqn:E2; [apply bytes_eqb_eq in E2; subst; cbn; apply in_spec_xap, has_name_in, Hin|].
  destruct (bytes_eqb n N_APPX) eqn:E3; [apply bytes_eqb_eq in E3; subst; cbn; apply in_spec_appx; rewrite (has_name_in _ _ Hin); reflexivity|].
  destruct (bytes_eqb n N_BUNDLE) eqn:E4; [apply bytes_eqb_eq in E4; subst; cbn; apply in_spec_appx; rewrite (has_name_in _ _ Hin); apply orb_true_r|].
  destruct (bytes_eqb n N_VSIX) eqn:E5; [apply bytes_eqb_eq in E5; subst; cbn; apply in_spec_vsix, has_name_in, Hin|].
  destruct (bytes_eqb n N_JAR) eqn:E6; [apply bytes_eqb_eq in E6; subst; cbn; reflexivity|].
  (* only the suffix rules are left, and they return the IPA type *)
  pose proof (Hi n Hin) as Hs. destruct (lookup_suffix magic_zip_suffix n) as [t|] eqn:Es; [|exact I].
  assert (t = 17) as ->.
  { unfold magic_zip_suffix in Es. cbn [lookup_suffix] in Es. repeat match type of Es with (if ?c then _ else _) = _ => destruct c; [injection Es as <-; reflexivity|] end. discriminate. }
  apply in_spec_ipa. apply existsb_exists. exists n. split; [exact Hin|apply Hs; discriminate].
Qed.

Lemma first_ret_spec names :
  match first_ret names with
  | Some t => exists n, In n names /\ zip_member_action n = ZRet t
  | None => forall n t, In n names -> zip_member_action n <> ZRet t
  end.
Proof.
  induction names as [|n r IH]; cbn [first_ret]; [intros n t []|].
  destruct (zip_member_action n) as [t| |] eqn:E; [exists n; split; [left; reflexivity|exact E]| |];
    (destruct (first_ret r) as [t'|];
     [destruct IH as (k & Hk & Ek); exists k; split; [right; exact Hk|exact Ek]|intros k t' [<-|Hk]; [rewrite E; discriminate|exact (IH k t' Hk)]]).
Qed.
Lemma ipa_plist_action n : zip_norm n = n -> is_ipa_plist n = true -> zip_member_action n = ZRet 17.
Proof.
  intros Hn H. unfold is_ipa_plist in H. apply andb_true_iff in H as [H _]. apply andb_true_iff in H as [Hp Hs].
  unfold zip_member_action. rewrite Hn.
  (* no exact name starts with "Payload/" *)
  rewrite (lookup_exact_none magic_zip_exact n (fun m => has_prefix m N_PAYLOAD) eq_refl Hp).
  unfold magic_zip_suffix. cbn [lookup_suffix]. unfold N_APP_PLIST in Hs. rewrite Hs. reflexivity.
Qed.

(* every specific manifest is a member with a returning rule: a manifest name is in normal form as it stands, its action is decided by evaluation *)
Lemma spec_has_ret names : normalised names -> spec_zip names <> [] -> exists n t, In n names /\ zip_member_action n = ZRet t.
Proof.
  intros Hn Hs. unfold spec_zip in Hs.
  destruct (has_name N_ANDROID names) eqn:F1; [exists N_ANDROID, 14; split; [exact (has_name_out _ _ F1)|reflexivity]|].
  destruct (has_name N_XAP names) eqn:F2; [exists N_XAP, 13; split; [exact (has_name_out _ _ F2)|reflexivity]|].
  destruct (has_name N_APPX names) eqn:F3; [exists N_APPX, 11; split; [exact (has_name_out _ _ F3)|reflexivity]|].
  destruct (has_name N_BUNDLE names) eqn:F4; [exists N_BUNDLE, 11; split; [exact (has_name_out _ _ F4)|reflexivity]|].
  destruct (has_name N_VSIX names) eqn:F5; [exists N_VSIX, 12; split; [exact (has_name_out _ _ F5)|reflexivity]|].
  destruct (existsb is_ipa_plist names) eqn:F6; [|exfalso; apply Hs; reflexivity].
  apply existsb_exists in F6 as [n [Hin Hp]]. exists n, 17. split; [exact Hin|exact (ipa_plist_action n (Hn n Hin) Hp)].
Qed.
(* the JAR flag is raised by the JAR manifest and by nothing else *)
Lemma has_jar_name names : normalised names -> ipa_strict names -> has_jar names = has_name N_JAR names.
Proof.
  intros Hn Hi. apply eq_true_iff_eq. unfold has_jar, has_name. rewrite !existsb_exists. split; intros [n [Hin E]].
  - exists n. split; [exact Hin|]. pose proof (action_spec names n Hn Hi Hin) as Ha.
    destruct (zip_member_action n); try discriminate. subst n. apply bytes_eqb_refl.
  - apply bytes_eqb_eq in E. subst n. exists N_JAR. split; [exact Hin|reflexivity].
Qed.

Theorem zip_eq_spec names t : normalised names -> ipa_strict names -> spec_zip_type names = Some t -> zip_detect (Some names) = t.
Proof.
  intros Hn Hi Hs. cbn [zip_detect]. rewrite zip_loop_normal, (has_jar_name names Hn Hi). cbn [orb].
  unfold spec_zip_type in Hs. pose proof (first_ret_spec names) as Hf. destruct (first_ret names) as [t'|].
  - (* some member returns t': t' is one of the specific manifests, so the only one *)
    destruct Hf as (n & Hin & E). pose proof (action_spec names n Hn Hi Hin) as Ha. rewrite E in Ha.
    destruct (spec_zip names) as [|s [|s2 rest]]; [destruct Ha|destruct Ha as [<-|[]]; injection Hs as <-; reflexivity|discriminate].
  - (* no member returns: there is no specific manifest *)
    destruct (spec_zip names) as [|s rest] eqn:Esp; [destruct (has_name N_JAR names); injection Hs as <-; reflexivity|].
    destruct (spec_has_ret names Hn) as (n & t' & Hin & E); [rewrite Esp; discriminate|]. destruct (Hf n t' Hin E).
Qed.

(* ---- plain member names are left alone by the normalisation *)
Lemma split_aux_nonempty l cur : split_slash_aux l cur <> [].
Proof. revert cur; induction l as [|c r IH]; intros cur; cbn [split_slash_aux]; [discriminate|]. destruct (c =? SLASH); [discriminate|apply IH]. Qed.
Lemma join_split_aux l cur : join_slash (split_slash_aux l cur) = rev cur ++ l.
Proof.
  revert cur; induction l as [|c r IH]; intros cur; cbn [split_slash_aux]; [cbn [join_slash]; rewrite app_nil_r; reflexivity|].
  destruct (c =? SLASH) eqn:E.
  - apply Z.eqb_eq in E. subst c. pose proof (split_aux_nonempty r []) as Hne. specialize (IH []).
    destruct (split_slash_aux r []) as [|y ys]; [contradiction|]. rewrite join_cons2, IH. cbn [rev app]. rewrite <- app_assoc. reflexivity.
  - rewrite IH. cbn [rev]. rewrite <- app_assoc. reflexivity.
Qed.
Definition comp_ok (c : bytes) : bool := negb (bytes_eqb c []) && negb (is_dot c) && negb (is_dotdot c).
Lemma clean_comps_regular cs st : forallb comp_ok cs = true -> clean_comps cs st = rev st ++ cs.
Proof.
  revert st; induction cs as [|c r IH]; intros st H; [cbn [clean_comps]; rewrite app_nil_r; reflexivity|].
  cbn [forallb] in H. apply andb_true_iff in H as [Hc Hr]. unfold comp_ok in Hc. apply andb_true_iff in Hc as [Hc Hdd]. apply andb_true_iff in Hc as [Hne Hd].
  cbn [clean_comps]. destruct c as [|c0 c']; [discriminate Hne|].
  destruct (is_dot (c0 :: c')); [discriminate Hd|]. destruct (is_dotdot (c0 :: c')); [discriminate Hdd|].
  rewrite IH by exact Hr. cbn [rev]. rewrite <- app_assoc. reflexivity.
Qed.
Theorem plain_is_normalised n : plain_name n = true -> zip_norm n = n.
Proof.
  unfold plain_name. intros H. apply andb_true_iff in H as [Hne Hall]. change (forallb comp_ok (split_slash n) = true) in Hall.
  unfold zip_norm.
  assert (Habs : has_prefix n magic_zip_abs_prefix = false).
  { (* a leading "/" would make the first component empty *)
    destruct n as [|c r]; [reflexivity|]. unfold has_prefix, magic_zip_abs_prefix. cbn [is_prefix]. destruct (47 =? c) eqn:E; [|reflexivity].
    apply Z.eqb_eq in E. subst c. discriminate Hall. }
  rewrite Habs. change magic_zip_cleans with true. cbv iota. unfold path_clean_rel.
  rewrite clean_comps_regular by exact Hall. cbn [rev app].
  pose proof (split_aux_nonempty n []) as Hs. unfold split_slash in *. destruct (split_slash_aux n []) as [|y ys] eqn:E; [contradiction|].
  rewrite <- E. rewrite join_split_aux. reflexivity.
Qed.
