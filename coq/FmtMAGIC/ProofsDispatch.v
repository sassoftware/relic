(* FmtMAGIC/ProofsDispatch.v — the registered module table and the look-ups of signers/signers.go and its callers. *)
From Coq Require Import Permutation.
From Relic Require Import Base.Prelude Base.Lists Base.Slice FmtMAGIC.Lib Generated.FmtMAGIC_gen FmtMAGIC.Model FmtMAGIC.ProofsLib.

(* ---- the three look-ups are first-match searches *)
Lemma by_magic_in_find tbl m : by_magic_in tbl m = find (fun s => signers_bymagic_match (m_magic s) m) tbl.
Proof. induction tbl as [|x r IH]; [reflexivity|]. cbn [by_magic_in find]. rewrite IH. reflexivity. Qed.
Lemma by_name_in_find tbl n :
  by_name_in tbl n = find (fun s => signers_byname_match_name (m_name s) n || existsb (fun a => signers_byname_match_alias a n) (m_aliases s)) tbl.
Proof.
  induction tbl as [|x r IH]; [reflexivity|]. cbn [by_name_in find]. rewrite IH.
  destruct (signers_byname_match_name (m_name x) n); reflexivity.
Qed.
Lemma by_filename_in_find tbl path :
  by_filename_in tbl path = find (fun s => signers_byfilename_match (negb (m_testpath s =? 0)) (testpath_eval (m_testpath s) path)) tbl.
Proof. induction tbl as [|x r IH]; [reflexivity|]. cbn [by_filename_in find]. rewrite IH. reflexivity. Qed.

Lemma by_magic_in_table t m : by_magic t = Some m -> In m signers_table.
Proof. unfold by_magic. destruct (signers_bymagic_refuses t); [discriminate|]. rewrite by_magic_in_find. intros H. exact (proj1 (find_some _ _ H)). Qed.
Lemma by_name_in_table n m : by_name n = Some m -> In m signers_table.
Proof. unfold by_name. rewrite by_name_in_find. intros H. exact (proj1 (find_some _ _ H)). Qed.
Lemma by_filename_in_table path m : by_filename path = Some m -> In m signers_table.
Proof. unfold by_filename. rewrite by_filename_in_find. intros H. exact (proj1 (find_some _ _ H)). Qed.

(* ---- a first-match search finds m under a key no other entry has, whatever the order of the table
   (the registration order is the order of the init functions, decided by the Go linker) *)
Lemma find_only {A} (p : A -> bool) tbl m : In m tbl -> p m = true -> (forall a, In a tbl -> p a = true -> a = m) -> find p tbl = Some m.
Proof.
  intros Hin Hp U. destruct (find p tbl) as [a|] eqn:E.
  - apply find_some in E as [Ha Pa]. f_equal. exact (U a Ha Pa).
  - rewrite (find_none _ _ E m Hin) in Hp. discriminate.
Qed.
Lemma find_perm {A} (p : A -> bool) tbl tbl' : Permutation tbl tbl' ->
  (forall a b, In a tbl -> In b tbl -> p a = true -> p b = true -> a = b) -> find p tbl = find p tbl'.
Proof.
  intros P U. destruct (find p tbl) as [a|] eqn:E.
  - apply find_some in E as [Ha Pa]. symmetry. apply find_only; [exact (Permutation_in _ P Ha)|exact Pa|].
    intros b Hb Pb. apply U; [exact (Permutation_in _ (Permutation_sym P) Hb)|exact Ha|exact Pb|exact Pa].
  - destruct (find p tbl') as [b|] eqn:E'; [|reflexivity].
    apply find_some in E' as [Hb Pb]. rewrite (find_none _ _ E b (Permutation_in _ (Permutation_sym P) Hb)) in Pb. discriminate.
Qed.

Definition unique_magic (tbl : list smod) : Prop := forall a b, In a tbl -> In b tbl -> m_magic a = m_magic b -> m_magic a <> 0 -> a = b.
Lemma by_magic_in_self tbl m : unique_magic tbl -> In m tbl -> m_magic m <> 0 -> by_magic_in tbl (m_magic m) = Some m.
Proof.
  intros U Hin N. rewrite by_magic_in_find. unfold signers_bymagic_match. apply find_only; [exact Hin|apply Z.eqb_refl|].
  intros a Ha E. apply U; [exact Ha|exact Hin|lia|lia].
Qed.
Theorem by_magic_order_independent tbl tbl' m : unique_magic tbl -> Permutation tbl tbl' -> m <> 0 -> by_magic_in tbl m = by_magic_in tbl' m.
Proof.
  intros U P Hm. rewrite !by_magic_in_find. apply (find_perm _ _ _ P). unfold signers_bymagic_match.
  intros a b Ha Hb Ea Eb. apply U; [exact Ha|exact Hb|lia|lia].
Qed.

Definition names_of (s : smod) : list bytes := m_name s :: m_aliases s.
Lemma name_match_iff s n :
  signers_byname_match_name (m_name s) n || existsb (fun a => signers_byname_match_alias a n) (m_aliases s) = true <-> In n (names_of s).
Proof.
  unfold signers_byname_match_name, signers_byname_match_alias, names_of. cbn [In].
  rewrite orb_true_iff, bytes_eqb_eq, existsb_exists. split; (intros [H|H]; [left; exact H|right]).
  - destruct H as [a [Hin E]]. apply bytes_eqb_eq in E. subst. exact Hin.
  - exists n. split; [exact H|apply bytes_eqb_refl].
Qed.
Definition unique_names (tbl : list smod) : Prop := forall a b n, In a tbl -> In b tbl -> In n (names_of a) -> In n (names_of b) -> a = b.
Lemma by_name_in_self tbl m n : unique_names tbl -> In m tbl -> In n (names_of m) -> by_name_in tbl n = Some m.
Proof.
  intros U Hin Hn. rewrite by_name_in_find. apply find_only; [exact Hin|apply name_match_iff; exact Hn|].
  intros a Ha E. apply (U a m n); [exact Ha|exact Hin|apply name_match_iff; exact E|exact Hn].
Qed.
Theorem by_name_order_independent tbl tbl' n : unique_names tbl -> Permutation tbl tbl' -> by_name_in tbl n = by_name_in tbl' n.
Proof.
  intros U P. rewrite !by_name_in_find. apply (find_perm _ _ _ P).
  intros a b Ha Hb Ea Eb. apply (U a b n); [exact Ha|exact Hb|apply name_match_iff; exact Ea|apply name_match_iff; exact Eb].
Qed.

(* ---- the keys of a table are unique when the list of them has no duplicate *)
Fixpoint nodup_z (l : list Z) : bool := match l with [] => true | x :: r => negb (existsb (Z.eqb x) r) && nodup_z r end.
Fixpoint nodup_b (l : list bytes) : bool := match l with [] => true | x :: r => negb (existsb (bytes_eqb x) r) && nodup_b r end.
Lemma nodup_z_NoDup l : nodup_z l = true -> NoDup l.
Proof.
  induction l as [|x r IH]; cbn [nodup_z]; [constructor|]. intros [Hx Hr]%andb_true_iff. constructor; [|exact (IH Hr)].
  intros Hin%existsb_Zeqb_In. rewrite Hin in Hx. discriminate.
Qed.
Lemma nodup_b_NoDup l : nodup_b l = true -> NoDup l.
Proof.
  induction l as [|x r IH]; cbn [nodup_b]; [constructor|]. intros [Hx Hr]%andb_true_iff. constructor; [|exact (IH Hr)].
  intros Hin. assert (E : existsb (bytes_eqb x) r = true) by (apply existsb_exists; exists x; split; [exact Hin|apply bytes_eqb_refl]).
  rewrite E in Hx. discriminate.
Qed.
Lemma nodup_unique_magic tbl : nodup_z (filter (fun m => negb (m =? 0)) (map m_magic tbl)) = true -> unique_magic tbl.
Proof.
  intros H%nodup_z_NoDup a b Ha Hb E N. rewrite filter_map_comm in H.
  apply (NoDup_map_inj m_magic _ a b H); [apply filter_In; split; [exact Ha|lia]|apply filter_In; split; [exact Hb|lia]|exact E].
Qed.
Lemma nodup_unique_names tbl : nodup_b (flat_map names_of tbl) = true -> unique_names tbl.
Proof.
  intros H%nodup_b_NoDup. induction tbl as [|s r IH]; intros a b n Ha Hb Na Nb; [destruct Ha|].
  cbn [flat_map] in H. apply NoDup_app_iff in H as (_ & Hr & Hd).
  (* a name of s is not a name of a later module *)
  assert (Hs : forall c, In c r -> In n (names_of s) -> In n (names_of c) -> False).
  { intros c Hc Ns Nc. apply (Hd n Ns). apply in_flat_map. exists c. split; assumption. }
  destruct Ha as [<-|Ha], Hb as [<-|Hb]; [reflexivity|destruct (Hs b Hb Na Nb)|destruct (Hs a Ha Nb Na)|exact (IH Hr a b n Ha Hb Na Nb)].
Qed.

(* ---- the generated table *)
Definition nonzero_magics : list Z := filter (fun m => negb (m =? 0)) (map m_magic signers_table).
Definition all_names : list bytes := flat_map names_of signers_table.
Lemma table_unique_magic : unique_magic signers_table.
Proof. apply nodup_unique_magic. vm_compute. reflexivity. Qed.
Lemma table_unique_names : unique_names signers_table.
Proof. apply nodup_unique_names. vm_compute. reflexivity. Qed.

(* ... so every registered module is what ByName finds under its name and its aliases and what ByMagic finds under its Magic; the
   server accepts its name exactly when it can sign *)
Lemma by_name_of_names m n : In m signers_table -> In n (names_of m) -> by_name n = Some m.
Proof. exact (by_name_in_self signers_table m n table_unique_names). Qed.
Lemma table_self_lookup m : In m signers_table ->
  by_name (m_name m) = Some m /\ (forall a, In a (m_aliases m) -> by_name a = Some m) /\ (m_magic m <> 0 -> by_magic (m_magic m) = Some m) /\
  server_route (m_name m) = (if token_sign_refuses_verify_only (m_has_sign m) then Refused E_NO_SIGNER else Chosen m).
Proof.
  intros H. pose proof (by_name_of_names m (m_name m) H (or_introl eq_refl)) as Hname.
  split; [exact Hname|]. split; [intros a Ha; apply (by_name_of_names m a H); right; exact Ha|]. split.
  - intros N. unfold by_magic, signers_bymagic_refuses. change magic_FileTypeUnknown with 0. replace (m_magic m =? 0) with false by lia.
    exact (by_magic_in_self signers_table m table_unique_magic H N).
  - unfold server_route. rewrite Hname. reflexivity.
Qed.

(* ---- types detection can answer = Magic fields of the registered modules *)
Fixpoint case_types (cases : list (list mtest * mres)) : list Z :=
  match cases with
  | [] => []
  | (_, RType t) :: r => t :: case_types r
  | (_, RPE) :: r => magic_pe_type :: case_types r
  | (_, RTar) :: r => magic_detectTar :: case_types r
  end.
Definition zip_types : list Z := map (fun e => if snd e =? -1 then magic_zip_deferred_type else snd e) magic_zip_exact ++ map snd magic_zip_suffix.
Definition detect_types : list Z := filter (fun t => negb (t =? 0)) (case_types magic_detect_cases ++ zip_types ++ [magic_detect_default; magic_zip_default; magic_zip_open_error_type]).
Definition subset_z (a b : list Z) : bool := forallb (fun x => existsb (Z.eqb x) b) a.

(* whatever ByFile chooses is a registered module, and `relic sign` goes on only with one that can sign *)
Lemma by_file_in_table sigtype name o det m : by_file sigtype name o det = Chosen m -> In m signers_table.
Proof.
  unfold by_file. intros H. destruct (signers_byfile_explicit sigtype).
  - destruct (signers_byfile_explicit_missing _); [discriminate|].
    destruct (by_name sigtype) eqn:E; [|discriminate]. injection H as <-. exact (by_name_in_table _ _ E).
  - destruct (signers_byfile_stdin name); [discriminate|]. destruct (negb o); [discriminate|].
    destruct det as [[t c]| |]; [|discriminate|discriminate].
    destruct (signers_byfile_refuses_compression c); [discriminate|].
    destruct (signers_byfile_magic_found _).
    + destruct (by_magic t) eqn:E; [|discriminate]. injection H as <-. exact (by_magic_in_table _ _ E).
    + destruct (signers_byfile_name_found _); [|discriminate].
      destruct (by_filename name) eqn:E; [|discriminate]. injection H as <-. exact (by_filename_in_table _ _ E).
Qed.
Lemma sign_route_can_sign sigtype name o det m : sign_route sigtype name o det = Chosen m -> In m signers_table /\ token_sign_refuses_verify_only (m_has_sign m) = false.
Proof.
  unfold sign_route. destruct (by_file sigtype name o det) as [m'|e] eqn:E; [|discriminate].
  destruct (token_sign_refuses_verify_only (m_has_sign m')) eqn:Ev; [discriminate|].
  destruct (signers_byfile_stdin name && token_sign_refuses_stdin (m_stdin m')); [discriminate|].
  intros H. injection H as <-. split; [exact (by_file_in_table _ _ _ _ _ E)|exact Ev].
Qed.

(* `relic sign -T <name of a registered module>`: the content is not looked at; what decides is whether the module can sign and
   whether it may read standard input *)
Lemma table_names_explicit m : In m signers_table -> signers_byfile_explicit (m_name m) = true.
Proof. exact (proj1 (forallb_forall (fun m => signers_byfile_explicit (m_name m)) signers_table) eq_refl m). Qed.
Lemma sign_route_by_name m name det : In m signers_table ->
  sign_route (m_name m) name true det =
  if token_sign_refuses_verify_only (m_has_sign m) then Refused E_VERIFY_ONLY
  else if signers_byfile_stdin name && token_sign_refuses_stdin (m_stdin m) then Refused E_NO_STDIN else Chosen m.
Proof.
  intros Hin. unfold sign_route, by_file. rewrite (table_names_explicit m Hin).
  destruct (table_self_lookup m Hin) as [-> _]. reflexivity.
Qed.

(* Signer.IsSigned *)
Theorem is_signed_spec m outcome :
  is_signed_result m outcome =
  if m_has_stream m || m_has_verify m then Some ((outcome =? 0) || (outcome =? 2), negb ((outcome =? 0) || (outcome =? 1) || (outcome =? 2))) else None.
Proof.
  unfold is_signed_result. destruct (m_has_stream m || m_has_verify m); [|reflexivity].
  unfold signers_issigned_table, signers_issigned_default. cbn [lookup_z].
  destruct (outcome =? 0) eqn:E0; [reflexivity|]. destruct (outcome =? 1) eqn:E1; [replace (outcome =? 2) with false by lia; reflexivity|].
  destruct (outcome =? 2); reflexivity.
Qed.

(* ---- ByFileName *)
Lemma ext_of_dmg y : path_ext (y ++ [46; 100; 109; 103]) = [46; 100; 109; 103].
Proof. unfold path_ext. rewrite rev_app_distr. reflexivity. Qed.
Definition ps_module : option smod := by_name [112; 115].
Definition dmg_module : option smod := by_name [100; 109; 103].
