(* FmtAPK/ProofsDomain.v — the class wfb: relic's digest input = the documentation's sections, tamper protection in the
   documentation's terms, payload kept. *)
From Relic Require Import Base.Prelude Base.Enc Generated.C11_gen Generated.FmtAPK_gen FmtAPK.Model FmtAPK.Lib FmtAPK.ProofsZip FmtAPK.ProofsBlock FmtAPK.ProofsLaws Base.Slice.
From Relic Require C11.Model.
Import C11.Model.

Lemma contigb_spec pos xs : contigb pos xs = true <-> contig pos xs.
Proof.
  revert pos. induction xs as [|[o s] r IH]; intros pos; cbn [contigb contig]; [tauto|].
  rewrite !andb_true_iff, IH, Z.eqb_eq, Z.leb_le. tauto.
Qed.

Record wf_view (szs : list Z) (f : bytes) (d : zdir) (xs : list (Z * Z)) : Prop := mkWf {
  wv_read : read_zip f = Ok d;
  wv_ext : extents (zd_files d) szs = Ok xs;
  wv_contig : contig 0 xs;
  wv_nonempty : zd_files d <> [];
  wv_end : zd_end d = fresh_for (zd_files d) (zd_dirloc d);
  wv_spec : spec_content_end f = Some (ext_end 0 xs) }.

Lemma wfb_view szs f : wfb szs f = true <-> exists d xs, wf_view szs f d xs.
Proof.
  unfold wfb. split.
  - destruct (read_zip f) as [d| |] eqn:Er; try discriminate.
    destruct (extents (zd_files d) szs) as [xs| |] eqn:Ex; try discriminate.
    rewrite !andb_true_iff, contigb_spec, bytes_eqb_eq, nfo_eq. intros [[[H1 H2] H3] H4]. exists d, xs. constructor; try assumption.
    + intros E. rewrite E in H2. discriminate.
    + destruct (spec_content_end f) as [s|]; [|discriminate]. f_equal. lia.
  - intros (d & xs & [Er Ex Hc Hn He Hs]). rewrite Er, Ex, Hs, nfo_eq, Z.eqb_refl, !andb_true_iff, contigb_spec, bytes_eqb_eq.
    repeat split; try assumption. now rewrite zlen_eqb_0.
Qed.

Lemma spec_sections_of_end f s : spec_content_end f = Some s ->
  exists off sz e, spec_eocd f = Some (off, sz, e) /\
    spec_sections f = Some (ztake s f, zslice off (off + sz) f, ztake 16 e ++ le_enc 4 s ++ zdrop 20 e).
Proof.
  unfold spec_content_end, spec_sections. destruct (spec_eocd f) as [[[off sz] e]|]; [|discriminate].
  destruct (spec_block f off) as [| |st p]; intros [= <-]; now exists off, sz, e.
Qed.

Lemma spec_sections_wf szs f d xs : wf_view szs f d xs ->
  spec_sections f = Some (ztake (ext_end 0 xs) f, cdir_bytes (zd_files d), fresh_for (zd_files d) (ext_end 0 xs)).
Proof.
  intros [Er Ex Hc Hn He Hs]. destruct (spec_sections_of_end _ _ Hs) as (off & sz & e & Eo & Es).
  rewrite (spec_eocd_read _ _ Er He) in Eo. destruct (_ =? _); [|discriminate]. injection Eo as <- <- <-.
  rewrite Es, (read_zip_cdir _ _ Er). change (ztake 16 ?e ++ le_enc 4 ?v ++ zdrop 20 ?e) with (set_cdoff e v).
  rewrite He. unfold fresh_for. now rewrite set_cdoff_fresh.
Qed.

(* C05: on the class, the bytes relic digests when signing are the documentation's sections 1, 3, 4 *)
Lemma hashin_sign_eq_spec szs f s : wfb szs f = true -> hashin_sign szs f = Ok s -> spec_sections f = Some s.
Proof.
  intros Hw Hh. apply wfb_view in Hw. destruct Hw as (d & xs & V). rewrite (spec_sections_wf _ _ _ _ V). destruct V as [Er Ex Hc Hn He Hs].
  destruct (hashin_sign_inv _ _ _ Hh) as (d' & xs' & Er' & Ex' & Ho & Hl & Hwd & ->).
  rewrite Er in Er'. apply Ok_inj in Er'. subst d'. rewrite Ex in Ex'. apply Ok_inj in Ex'. subst xs'.
  rewrite (slices_contig f 0 xs) by (assumption || lia). now rewrite zslice_0.
Qed.

(* C05 / C02: on the class, the bytes relic's VERIFIER digests are the documentation's sections *)
Lemma hashin_verify_eq_spec szs g s : wfb szs g = true -> hashin_verify szs g = Ok s -> spec_sections g = Some s.
Proof.
  intros Hw Hh. apply wfb_view in Hw. destruct Hw as (d & xs & V). rewrite (spec_sections_wf _ _ _ _ V). destruct V as [Er Ex Hc Hn He Hs].
  destruct (read_zip_inv _ _ Er) as (_ & _ & Lf & _). pose proof (zlen_nonneg (cdir_bytes (zd_files d))).
  pose proof (contig_ordered _ _ Hc) as Ho. pose proof (ordered_end _ _ Ho).
  rewrite (hashin_verify_eq _ _ _ _ Er Ex) in Hh. apply bind_ok in Hh as (s1 & Ed & Hh).
  destruct (zd_dirloc d >=? 4294967296); [discriminate|].
  apply bind_ok in Hh as (w & Ew & Hh).
  destruct (_ || _) eqn:Edl; [discriminate|]. apply Ok_inj in Hh. subst s.
  destruct (write_directory_inv _ _ _ Ew) as [_ ->]. cbn [fst]. rewrite He. unfold fresh_for. rewrite set_cdoff_fresh.
  rewrite (dump_ok Random g 0 xs) in Ed by (assumption || lia). apply Ok_inj in Ed. subst s1.
  rewrite (slices_contig g 0 xs) by (assumption || lia). now rewrite zslice_0.
Qed.

(* C02: two files of the class with the same verifier digest input agree on everything the scheme protects *)
Lemma protect szs1 szs2 g1 g2 s : wfb szs1 g1 = true -> wfb szs2 g2 = true ->
  hashin_verify szs1 g1 = Ok s -> hashin_verify szs2 g2 = Ok s -> spec_sections g1 = spec_sections g2.
Proof. intros W1 W2 H1 H2. rewrite (hashin_verify_eq_spec _ _ _ W1 H1), (hashin_verify_eq_spec _ _ _ W2 H2). reflexivity. Qed.

(* signing a file of the class, seen at the class's own view of the input *)
Lemma wf_embed_at szs f b g d xs : wf_view szs f d xs -> embed szs f b = Ok g ->
  embed_dom szs f b d xs /\ g = signed_nf f d (ext_end 0 xs) b.
Proof. intros [Er Ex _ _ _ _]. now apply embed_inv_at. Qed.

Lemma payload_kept szs f b g : wfb szs f = true -> embed szs f b = Ok g -> spec_sections g = spec_sections f.
Proof.
  intros Hw He. apply wfb_view in Hw. destruct Hw as (d & xs & V). destruct (wf_embed_at _ _ _ _ _ _ V He) as [D Eg].
  rewrite (spec_sections_wf _ _ _ _ V). apply (spec_view D Eg).
Qed.
