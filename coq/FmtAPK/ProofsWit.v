(* FmtAPK/ProofsWit.v — the concrete archives the witness theorems of Properties.v are about: what the faithful model does
   outside the class of ProofsDomain, and what the format leaves unprotected. *)
From Relic Require Import Base.Prelude Base.Enc Generated.C11_gen Generated.FmtAPK_gen FmtAPK.Model FmtAPK.Lib.
From Relic Require C11.Model.
Import C11.Model.

Definition w_lfh : bytes := [80; 75; 3; 4; 20; 0; 0; 0; 0; 0; 0; 0; 0; 0; 0; 0; 0; 0; 0; 0; 0; 0; 0; 0; 0; 0; 1; 0; 0; 0; 97].
Definition w_cd0 : bytes := [80; 75; 1; 2; 20; 0; 20; 0; 0; 0; 0; 0; 0; 0; 0; 0; 0; 0; 0; 0; 0; 0; 0; 0; 0; 0; 0; 0; 1; 0; 0; 0; 0; 0; 0; 0; 0; 0; 0; 0; 0; 0; 0; 0; 0; 0; 97].   (* one central directory entry, member at offset 0 *)
Definition w_cd1 : bytes := [80; 75; 1; 2; 20; 0; 20; 0; 0; 0; 0; 0; 0; 0; 0; 0; 0; 0; 0; 0; 0; 0; 0; 0; 0; 0; 0; 0; 1; 0; 0; 0; 0; 0; 0; 0; 0; 0; 0; 0; 0; 0; 1; 0; 0; 0; 97].   (* the same entry, member at offset 1 *)
Definition w_end (dn off : Z) : bytes := [80; 75; 5; 6; dn; 0; 0; 0; 1; 0; 1; 0; 47; 0; 0; 0; off; 0; 0; 0; 0; 0].
Definition w_empty : bytes := [80; 75; 5; 6; 0; 0; 0; 0; 0; 0; 0; 0; 0; 0; 0; 0; 0; 0; 0; 0; 0; 0].   (* an archive without members *)

(* a well-formed one-member archive; the same with one byte x in front of the member; the same with disk number dn in the end record *)
Definition w_plain : bytes := w_lfh ++ w_cd0 ++ w_end 0 31.
Definition w_gap (x : Z) : bytes := [x] ++ w_lfh ++ w_cd1 ++ w_end 0 32.
Definition w_disk (dn : Z) : bytes := w_lfh ++ w_cd0 ++ w_end dn 31.
Definition w_szs : list Z := [31].

(* a file of the class whose signing block carries a second pair, with an ID nobody interprets, besides the v2 pair *)
Definition w_padded (x : Z) : bytes :=
  let blk := spec_write_block [(V2_ID, [1; 2; 3]); (1114793335, [x])] in
  w_lfh ++ blk ++ w_cd0 ++ fresh_end 1 47 (31 + zlen blk).

(* C05: a signed data block with an additional attribute as the documentation frames it (ID, value = rest of the item; here
   stripping protection, value uint32 3) *)
Definition w_sd_doc : bytes :=
  spec_lp (spec_lp (le_enc 4 259 ++ spec_lp [9; 9])) ++ spec_lp (spec_lp [7]) ++ spec_lp (spec_attr STRIPPING_PROTECTION_ID (le_enc 4 3)).
(* an attribute written by relic's marshal (never done by Digest.Sign, which writes none) is read by the documentation's reader
   with the inner length prefix as part of the value *)
Lemma attribute_framing_converse :
  spec_signed_data (zdrop 4 (enc (AStruct [ASlice []; ASlice []; ASlice [AStruct [AU32 7; ABytes [1]]]]))) = Some (mkSsd [] [] [(7, [1; 0; 0; 0; 1])]).
Proof. vm_compute. reflexivity. Qed.
