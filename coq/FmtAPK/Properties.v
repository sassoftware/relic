(* FmtAPK/Properties.v — Android APK Signature Scheme v2 as relic implements it (signers/apk + the zipslicer calls it drives +
   the v1 marker of lib/signjar).  A result that the Proofs* files use themselves is proved there and cited here; the others are
   proved under their statements.
   `szs` is the table of member sizes (File.GetTotalSize, unit C17) in directory order; a signed file is read with the same table
   (members are not touched).  `secs` = the three byte strings the 1 MiB chunk digest of unit C09 is applied to. *)
From Relic Require Import Base.Prelude Base.Enc Generated.C11_gen Generated.FmtAPK_gen FmtAPK.Model.
From Relic Require C11.Model Laws.Pipeline.
From Relic Require Import Base.Slice FmtAPK.Lib FmtAPK.ProofsZip FmtAPK.ProofsBlock FmtAPK.ProofsLaws FmtAPK.ProofsDomain FmtAPK.ProofsWit FmtAPK.ProofsSer FmtAPK.Proofs.
From Relic Require C11.Proofs.
Import C11.Model.

(* C01 C05: the block makeSigBlock writes is the documentation's block with the single pair (0x7109871a, sblob): size | pair |
   size | magic, both size fields equal, magic last *)
Theorem apk_sigblock_is_spec : forall b, mk_sig_block b = spec_write_block [(V2_ID, b)].
Proof. intros b. rewrite mk_sig_block_nf. apply block_is_spec. Qed.
(* C01 C05: in the signed file the documentation's reader (EOCD -> directory offset -> magic and size in front of it -> size at the
   block start) finds exactly that pair, the block starts where the members end, and the three protected sections are the bytes
   in front of it, the directory, and the end record with its offset set back to the block start *)
Theorem apk_sigblock_roundtrip : forall szs f b g, embed szs f b = Ok g ->
  exists d xs, read_zip f = Ok d /\ extents (zd_files d) szs = Ok xs /\
    spec_read_pairs g = Some [(V2_ID, b)] /\
    spec_sections g = Some (ztake (ext_end 0 xs) f, cdir_bytes (zd_files d), FmtAPK.ProofsLaws.fresh_for (zd_files d) (ext_end 0 xs)) /\
    spec_content_end g = Some (ext_end 0 xs).
Proof.
  intros szs f b g H. destruct (embed_inv _ _ _ _ H) as (d & xs & D & Eg). exists d, xs.
  split; [apply D|]. split; [apply D|]. exact (spec_view D Eg).
Qed.
(* C01 C11: relic's locator and pair loop read EVERY pair list the documentation's writer can produce *)
Theorem apk_reader_reads_spec_blocks : forall ps n sl, Forall FmtAPK.ProofsBlock.pair_ok ps ->
  let P := concat (map spec_pair ps) in
  zlen P < 4611686018427387904 -> zlen P + 32 <= n -> 0 <= sl ->
  spec_write_block ps = FmtAPK.ProofsBlock.region_block P /\
  gsb n sl (sl + (zlen P + 32)) (spec_write_block ps) = Ok (Some P) /\ pairs_raw (S (length P)) P = Ok ps.
Proof.
  intros ps n sl Hp P H1 H2 H3. split; [reflexivity|]. split.
  - apply gsb_region; lia.
  - apply pairs_raw_spec; [exact Hp|apply Nat.lt_succ_diag_r].
Qed.
(* C01: the verifier's locator finds exactly the embedded value *)
Theorem apk_law_extract : forall szs f b g, embed szs f b = Ok g -> forall d, read_zip f = Ok d -> zd_files d <> [] -> extract szs g = Ok (Some b).
Proof. exact law_extract. Qed.
(* C01 C08: the signer's digest input does not see the block *)
Theorem apk_law_hashin : forall szs f b g, embed szs f b = Ok g -> hashin_sign szs g = hashin_sign szs f.
Proof. exact law_hashin_sign. Qed.
(* C01: signer and verifier use the same convention: Finish(modified) with DirLoc redirected to the block start and
   GetOriginalDirectory(trim) of the signed file yield the same three sections, for every archive layout embed accepts *)
Theorem apk_verify_convention : forall szs f b g, embed szs f b = Ok g -> hashin_verify szs g = hashin_sign szs f.
Proof. exact verify_convention. Qed.
(* C01: exactly when signing succeeds (the refusals: ZIP layer errors, ZIP64 needed, members not in stream order, member past
   the directory) *)
Theorem apk_embed_domain : forall szs f b g, embed szs f b = Ok g ->
  exists d xs, read_zip f = Ok d /\ extents (zd_files d) szs = Ok xs /\ FmtAPK.ProofsZip.ordered 0 xs /\ ext_end 0 xs <= zd_dirloc d /\
    FmtAPK.ProofsLaws.wd_ok (zd_files d) (ext_end 0 xs) /\ FmtAPK.ProofsLaws.wd_ok (zd_files d) (ext_end 0 xs + (zlen b + 44)) /\
    zlen b < 4611686018427387904 /\ g = FmtAPK.ProofsLaws.signed_nf f d (ext_end 0 xs) b.
Proof.
  intros szs f b g H. destruct (embed_inv _ _ _ _ H) as (d & xs & [Er Ex Ho Hsl Hw Hw2 Hb] & Eg). now exists d, xs.
Qed.
Theorem apk_embed_defined : forall szs f b d xs, read_zip f = Ok d -> extents (zd_files d) szs = Ok xs -> FmtAPK.ProofsZip.ordered 0 xs ->
  ext_end 0 xs <= zd_dirloc d -> FmtAPK.ProofsLaws.wd_ok (zd_files d) (ext_end 0 xs) ->
  FmtAPK.ProofsLaws.wd_ok (zd_files d) (ext_end 0 xs + (zlen b + 44)) -> zlen b < 4611686018427387904 ->
  embed szs f b = Ok (FmtAPK.ProofsLaws.signed_nf f d (ext_end 0 xs) b).
Proof. intros. apply embed_ok. now constructor. Qed.
(* C01: marshal then unmarshal (C11's model of the parser) is the identity on EVERY well-typed value whose lengths fit 32 bits *)
Theorem apk_marshal_roundtrip : forall s v, FmtAPK.ProofsSer.wt s v -> unmarshal s (enc v) = Ok v.
Proof. exact unmarshal_enc. Qed.
(* C01 C05: what Digest.Sign assembles (one digest, the chain, no attributes; one signer, one signature) parses back with the
   schemas generated from structs.go, and the documentation's reader sees the same digests, certificates, signature, key *)
Theorem apk_signed_data_roundtrip : forall sigid digest certs sigv pubkey, 0 <= sigid < 4294967296 ->
  FmtAPK.ProofsSer.sign_sizes_ok digest certs sigv pubkey ->
  unmarshal g_signer_list (enc (v_signer_list sigid digest certs sigv pubkey)) = Ok (v_signer_list sigid digest certs sigv pubkey) /\
  unmarshal g_signed_data (enc (v_signed_data sigid digest certs)) = Ok (v_signed_data sigid digest certs) /\
  spec_v2_value (enc (v_signer_list sigid digest certs sigv pubkey)) =
    Some [mkSsg (FmtAPK.ProofsSer.sd_body sigid digest certs) (mkSsd [(sigid, digest)] certs []) [(sigid, sigv)] pubkey].
Proof.
  intros sigid digest certs sigv pubkey Hi Hs. destruct schemas_match as [-> ->].
  split; [now apply unmarshal_enc, wt_signer_list|]. unfold sign_sizes_ok in Hs.
  pose proof (zlen_nonneg digest). pose proof (certs_len_nonneg certs). pose proof (zlen_nonneg sigv). pose proof (zlen_nonneg pubkey).
  split; [apply unmarshal_enc, wt_signed_data; lia|]. pose proof (zlen_sd_body sigid digest certs) as Lb.
  rewrite v_signer_list_eq, enc_slice. cbn [map concat]. rewrite enc_AStruct, signer_fields_eq, app_nil_r.
  unfold spec_v2_value. rewrite spec_lp_take_lp_end, spec_seq_lp by (autorewrite with apk_len; lia). cbn [map opt_all].
  unfold spec_signer_of. rewrite !spec_lp_take_lp, spec_lp_take_lp_end by (autorewrite with apk_len; lia).
  rewrite spec_signed_data_relic, spec_seq_lp by (autorewrite with apk_len; lia). cbn [map opt_all]. rewrite spec_id_lpvalue_ok by lia. reflexivity.
Qed.
(* C01: the signature type Digest.Sign selects is found again by sigTypeByID, has the requested digest, and VerifySignature has a
   branch for RSA and ECDSA; signature and verification cover the same bytes (signed data without its length prefix) *)
Theorem apk_sigtype_selected : forall hash alg t, select_type hash alg = Some t ->
  st_hash t = hash /\ st_alg t = alg /\ st_pss t = false /\ type_by_id (st_id t) = Some t.
Proof.
  intros hash alg t. unfold select_type. destruct (find _ apk_sig_types) as [t'|] eqn:Ef; [|discriminate].
  destruct (apk_sign_no_type (st_id t')); intros [= ->]. apply find_some in Ef as [Hin Hm].
  apply andb_true_iff in Hm as [[Hh Ha]%andb_true_iff Hp]. split; [now apply Z.eqb_eq|]. split; [now apply Z.eqb_eq|]. split; [now apply negb_true_iff|].
  (* the identifiers of the table are pairwise different and none is 0 *)
  cbn [apk_sig_types In] in Hin. repeat destruct Hin as [<-|Hin]; try reflexivity. contradiction.
Qed.
Theorem apk_sigtype_defined : forall hash alg, (hash = 5 \/ hash = 7) -> (alg = 1 \/ alg = 3) ->
  exists t, select_type hash alg = Some t /\ verifiable_alg alg = true.
Proof. intros hash alg [-> | ->] [-> | ->]; eexists; split; reflexivity. Qed.
Theorem apk_signature_covers : sign_and_verify_cover_same_bytes = true /\ apk_raw_body_off = 4.
Proof. split; reflexivity. Qed.
(* C01 witness: an archive WITHOUT members is signed and the result is then refused by getSigBlock *)
Theorem apk_empty_archive_refuted : exists g, embed [] FmtAPK.ProofsWit.w_empty [] = Ok g /\ extract [] g = Err E_NOFILES.
Proof. eexists. split; [vm_compute; reflexivity|reflexivity]. Qed.

(* C08: signing a signed file gives byte for byte what signing the original gives: the old block is replaced *)
Theorem apk_resign_replaces : forall szs f b1 b2 g1 g2, embed szs f b1 = Ok g1 -> embed szs f b2 = Ok g2 -> embed szs g1 b2 = Ok g2.
Proof.
  intros szs f b1 b2 g1 g2 H1 H2. destruct (embed_inv _ _ _ _ H1) as (d & xs & D1 & Eg1).
  destruct (embed_inv_at _ _ _ _ _ _ (ed_read _ _ _ _ _ D1) (ed_ext _ _ _ _ _ D1) H2) as [D2 Eg2].
  pose proof (signed_bounds D1). pose proof (zlen_nonneg b1).
  eassert (D : embed_dom szs g1 b2 _ xs).
  { destruct D2. constructor; [exact (read_zip_signed D1 Eg1)|..]; cbn [zd_files zd_dirloc]; try assumption. lia. }
  rewrite (embed_ok _ _ _ _ _ D), Eg2. unfold signed_nf. cbn [zd_files]. now rewrite (ztake_signed D1 Eg1).
Qed.
(* C08: the is-signed probe: nothing between members and directory = not signed; relic's output = signed (apk_law_extract) *)
Theorem apk_is_signed_spec : forall szs f d xs, read_zip f = Ok d -> zd_files d <> [] -> extents (zd_files d) szs = Ok xs ->
  ext_end 0 xs = zd_dirloc d -> extract szs f = Ok None.
Proof.
  intros szs f d xs Er Hn Ex He. unfold extract, extract_all, locate. rewrite Er. cbn [bind]. unfold apk_sb_no_files.
  rewrite (zlen_eqb_0 _ Hn), Ex. cbn [bind]. rewrite nfo_eq, He. unfold gsb, apk_sb_unsigned. rewrite Z.eqb_refl. reflexivity.
Qed.

(* C03 C08: the class (members back to back from 0, at least one, canonical end record, documentation's reader agrees on the
   content end) is closed under signing, and the payload — everything of the file that is not signature, as the documentation's
   reader sees it — is kept *)
Theorem apk_wf_closed : forall szs f b g, wfb szs f = true -> embed szs f b = Ok g -> wfb szs g = true.
Proof.
  intros szs f b g Hw He. apply wfb_view in Hw. destruct Hw as (d & xs & V). destruct (wf_embed_at _ _ _ _ _ _ V He) as [D Eg].
  destruct (spec_view D Eg) as (_ & _ & Hce). destruct V as [Er Ex Hc Hn Hend Hs].
  apply wfb_view. eexists. exists xs. constructor; [exact (read_zip_signed D Eg)|..]; cbn [zd_files zd_dirloc zd_end]; trivial.
Qed.
Theorem apk_law_payload : forall szs f b g, wfb szs f = true -> embed szs f b = Ok g -> spec_sections g = spec_sections f.
Proof. exact payload_kept. Qed.
(* C03: for EVERY input embed accepts: members and directory bytes are copied, the bytes between the last member and the
   directory are replaced by the block, the end record is rebuilt *)
Theorem apk_only_these_ranges_differ : forall szs f b g, embed szs f b = Ok g ->
  exists d xs, read_zip f = Ok d /\ extents (zd_files d) szs = Ok xs /\
    f = ztake (ext_end 0 xs) f ++ zslice (ext_end 0 xs) (zd_dirloc d) f ++ cdir_bytes (zd_files d) ++ zd_end d /\
    g = ztake (ext_end 0 xs) f ++ mk_sig_block b ++ cdir_bytes (zd_files d) ++
        FmtAPK.ProofsLaws.fresh_for (zd_files d) (ext_end 0 xs + zlen (mk_sig_block b)).
Proof.
  intros szs f b g He. destruct (embed_inv _ _ _ _ He) as (d & xs & D & Eg). pose proof (signed_bounds D). destruct D as [Er Ex _ Hsl _ _ _].
  exists d, xs. split; [exact Er|]. split; [exact Ex|]. rewrite mk_sig_block_nf, zlen_block_nf. split; [|exact Eg].
  rewrite app_assoc, <- !zslice_0, <- zslice_split, zslice_0 by lia. apply (read_zip_inv _ _ Er).
Qed.
(* C03: the end record of the signed file is the old one with ONLY the directory offset changed, to content end + block length
   (old offset + block length for an unsigned input); the directory bytes in front of it are unchanged *)
Theorem apk_eocd_fixup : forall szs f b g, wfb szs f = true -> embed szs f b = Ok g ->
  exists d xs, read_zip f = Ok d /\ extents (zd_files d) szs = Ok xs /\
    zdrop (zlen g - 22) g = set_cdoff (zd_end d) (ext_end 0 xs + zlen (mk_sig_block b)) /\
    zslice (zlen g - 22 - zlen (cdir_bytes (zd_files d))) (zlen g - 22) g = cdir_bytes (zd_files d) /\
    (ext_end 0 xs = zd_dirloc d -> end_cdoff (zdrop (zlen g - 22) g) = end_cdoff (zd_end d) + zlen (mk_sig_block b)).
Proof.
  intros szs f b g Hw He. apply wfb_view in Hw. destruct Hw as (d & xs & V). destruct (wf_embed_at _ _ _ _ _ _ V He) as [D Eg].
  destruct V as [Er Ex _ _ Hend _]. exists d, xs. split; [exact Er|]. split; [exact Ex|].
  pose proof (read_zip_signed D Eg) as Erg. pose proof (zlen_signed D Eg) as Lg.
  pose proof (read_zip_cdir _ _ Erg) as Ec. cbn [zd_files zd_dirloc] in Ec.
  rewrite mk_sig_block_nf, zlen_block_nf, (read_zip_end _ _ Erg). cbn [zd_end]. split; [|split].
  - rewrite Hend. unfold fresh_for. now rewrite set_cdoff_fresh.
  - etransitivity; [|exact Ec]. f_equal; lia.
  - intros Hu. destruct (read_zip_inv _ _ Er) as (_ & _ & _ & _ & (_ & _ & _ & ->)). pose proof (signed_bounds D). pose proof (zlen_nonneg b).
    destruct (wd_ok_bounds _ _ (ed_wd' _ _ _ _ _ D)) as (_ & _ & B). unfold fresh_for. rewrite fresh_end_cdoff, le_dec_enc4; lia.
Qed.
(* ... outside the class the record is rebuilt, not patched: a disk number is lost (members are not affected) *)
Theorem apk_eocd_fixup_refuted : exists g,
  embed FmtAPK.ProofsWit.w_szs (FmtAPK.ProofsWit.w_disk 5) [] = Ok g /\
  zdrop (zlen g - 22) g <> set_cdoff (FmtAPK.ProofsWit.w_end 5 31) (31 + zlen (mk_sig_block [])) /\
  zdrop (zlen g - 22) g = set_cdoff (FmtAPK.ProofsWit.w_end 0 31) (31 + zlen (mk_sig_block [])).
Proof. eexists. split; [vm_compute; reflexivity|]. split; [vm_compute; intros H; discriminate H|vm_compute; reflexivity]. Qed.

(* C05: on the class, the bytes relic digests when signing / when verifying are the documentation's sections 1, 3, 4 *)
Theorem apk_hashin_eq_spec : forall szs f s, wfb szs f = true -> hashin_sign szs f = Ok s -> spec_sections f = Some s.
Proof. exact hashin_sign_eq_spec. Qed.
Theorem apk_verify_hashin_eq_spec : forall szs g s, wfb szs g = true -> hashin_verify szs g = Ok s -> spec_sections g = Some s.
Proof. exact hashin_verify_eq_spec. Qed.
(* C05 C02 witness: one byte in front of the member (section 1 of the scheme, no member): relic's digest input skips it when
   signing and when verifying; the documentation's sections of the signed file differ from what was digested *)
Theorem apk_hashin_gap_refuted : exists g s s',
  embed FmtAPK.ProofsWit.w_szs (FmtAPK.ProofsWit.w_gap 35) [] = Ok g /\ hashin_sign FmtAPK.ProofsWit.w_szs (FmtAPK.ProofsWit.w_gap 35) = Ok s /\
  hashin_verify FmtAPK.ProofsWit.w_szs g = Ok s /\ spec_sections g = Some s' /\ s <> s'.
Proof.
  eexists. eexists. eexists. split; [vm_compute; reflexivity|]. split; [vm_compute; reflexivity|]. split; [vm_compute; reflexivity|].
  split; [vm_compute; reflexivity|]. intros H. discriminate H.
Qed.
(* C05 witness: an additional attribute framed as the documentation says (stripping protection, value uint32 3) is rejected by
   relic's parser (which wants a second length prefix); relic itself never writes attributes *)
Theorem apk_attr_framing_refuted :
  spec_signed_data FmtAPK.ProofsWit.w_sd_doc = Some (mkSsd [(259, [9; 9])] [[7]] [(STRIPPING_PROTECTION_ID, [3; 0; 0; 0])]) /\
  unmarshal g_signed_data (spec_lp FmtAPK.ProofsWit.w_sd_doc) = Err E_EOF.
Proof. split; vm_compute; reflexivity. Qed.
(* the schemas generated from structs.go are those of C11's no-panic theorems *)
Theorem apk_schemas_match : g_signer_list = s_signer_list /\ g_signed_data = s_signed_data.
Proof. exact schemas_match. Qed.

(* C02: two files of the class whose verifier digest input is the same agree on every byte in front of the block, on the central
   directory and on the end record (offset set to the block start): the scheme's sections 1, 3, 4 *)
Theorem apk_protect : forall szs1 szs2 g1 g2 s, wfb szs1 g1 = true -> wfb szs2 g2 = true ->
  hashin_verify szs1 g1 = Ok s -> hashin_verify szs2 g2 = Ok s -> spec_sections g1 = spec_sections g2.
Proof. exact protect. Qed.
(* C02: apkSigner.Verify compares every signed digest with the recomputed one over its whole length, and takes as leaf a certificate
   whose SubjectPublicKeyInfo is the signer's public key *)
Theorem apk_digest_compared : forall signed computed, digests_match signed computed = true -> signed = computed.
Proof.
  unfold digests_match. change apk_vf_compares_digests with true. cbv iota.
  induction signed as [|a s IH]; intros [|b c] H; cbn [list_eqb] in H; try discriminate; [reflexivity|].
  apply andb_true_iff in H as [H1 H2]. apply bytes_eqb_eq in H1. subst b. f_equal. apply IH. exact H2.
Qed.
Theorem apk_leaf_has_signer_key : forall certs pubkey i, leaf_of certs pubkey = Some i -> In pubkey certs.
Proof.
  intros certs pubkey i. unfold leaf_of. change apk_vf_leaf_by_public_key with true. cbv iota. intros H.
  (* the loop keeps the last match: what it returns was the accumulator or is in the list *)
  enough (G : @None Z = Some i \/ In pubkey certs) by (destruct G; [discriminate|assumption]).
  revert H. generalize (@None Z). generalize 0. induction certs as [|c r IH]; intros j acc H; [left; exact H|].
  destruct (IH _ _ H) as [E|E]; [|right; right; exact E].
  destruct (bytes_eqb c pubkey) eqn:B; [right; left; now apply bytes_eqb_eq|left; exact E].
Qed.
(* C02 witness (outside the class): two signed files that differ in a byte in front of the block that belongs to no member have
   the same verifier digest input and the same embedded value *)
Theorem apk_protect_gap_refuted : exists g1 g2 s,
  embed FmtAPK.ProofsWit.w_szs (FmtAPK.ProofsWit.w_gap 35) [] = Ok g1 /\ embed FmtAPK.ProofsWit.w_szs (FmtAPK.ProofsWit.w_gap 36) [] = Ok g2 /\
  hashin_verify FmtAPK.ProofsWit.w_szs g1 = Ok s /\ hashin_verify FmtAPK.ProofsWit.w_szs g2 = Ok s /\
  extract FmtAPK.ProofsWit.w_szs g1 = extract FmtAPK.ProofsWit.w_szs g2 /\ spec_sections g1 <> spec_sections g2.
Proof.
  eexists. eexists. eexists. split; [vm_compute; reflexivity|]. split; [vm_compute; reflexivity|]. split; [vm_compute; reflexivity|].
  split; [vm_compute; reflexivity|]. split; [vm_compute; reflexivity|]. vm_compute. intros H. discriminate H.
Qed.
(* C02 (inherent to the format): ID-value pairs other than the v2 pair are neither digested nor interpreted *)
Theorem apk_other_pairs_unprotected : exists s v,
  FmtAPK.ProofsWit.w_padded 0 <> FmtAPK.ProofsWit.w_padded 1 /\
  wfb FmtAPK.ProofsWit.w_szs (FmtAPK.ProofsWit.w_padded 0) = true /\ wfb FmtAPK.ProofsWit.w_szs (FmtAPK.ProofsWit.w_padded 1) = true /\
  hashin_verify FmtAPK.ProofsWit.w_szs (FmtAPK.ProofsWit.w_padded 0) = Ok s /\ hashin_verify FmtAPK.ProofsWit.w_szs (FmtAPK.ProofsWit.w_padded 1) = Ok s /\
  extract FmtAPK.ProofsWit.w_szs (FmtAPK.ProofsWit.w_padded 0) = Ok (Some v) /\ extract FmtAPK.ProofsWit.w_szs (FmtAPK.ProofsWit.w_padded 1) = Ok (Some v).
Proof.
  eexists. eexists. split; [vm_compute; intros H; discriminate H|]. split; [vm_compute; reflexivity|]. split; [vm_compute; reflexivity|].
  split; [vm_compute; reflexivity|]. split; [vm_compute; reflexivity|]. split; vm_compute; reflexivity.
Qed.
(* C02: v1 / v2 binding.  With apkV2 the main section DigestManifest writes carries X-Android-APK-Signed: 2 as the JAR
   specification's reader sees it (for every list of other attributes), without the flag it does not; verify rejects a v1 signature
   whose header names '2' exactly when no v2 signature was found; the header name verify asks for is the one written.
   (The apk signer itself never touches the .SF — apk_only_these_ranges_differ — so the binding exists only if the jar signer was
   run with --apk-v2-present, as doc/android.md prescribes.) *)
Theorem apk_v1_v2_binding : forall others, Forall FmtAPK.Proofs.attr_ok others -> Forall (fun nv => fst nv <> apk_sf_marker_name) others ->
  spec_sf_lookup (sf_main true others) apk_v1_header_name = Some apk_sf_marker_value /\
  spec_sf_lookup (sf_main false others) apk_v1_header_name = None.
Proof.
  intros others Hok Hno.
  assert (Hm : attr_ok (apk_sf_marker_name, apk_sf_marker_value)).
  { repeat split; now apply not_In_b. }
  assert (Hskip : forall tail, find (fun nv => bytes_eqb (fst nv) apk_v1_header_name) (others ++ tail) =
                               find (fun nv => bytes_eqb (fst nv) apk_v1_header_name) tail).
  { intros tail. clear Hok. induction Hno as [|nv others Hn _ IH]; [reflexivity|]. cbn [app find].
    destruct (bytes_eqb _ _) eqn:E; [|exact IH]. apply bytes_eqb_eq in E. exfalso. exact (Hn E). }
  unfold sf_main, sf_main_attrs.
  change (apk_sf_marker_guard_is_flag && true && (apk_sf_ix_version <? apk_sf_ix_marker) && (apk_sf_ix_marker <? apk_sf_ix_blank)) with true.
  change (apk_sf_marker_guard_is_flag && false && (apk_sf_ix_version <? apk_sf_ix_marker) && (apk_sf_ix_marker <? apk_sf_ix_blank)) with false.
  cbv iota. rewrite !sf_lookup_written, !Hskip by (apply Forall_app; split; [assumption|]; constructor; trivial). split; reflexivity.
Qed.
Theorem apk_strip_detected : forall hdr n, v1_check hdr n = true <-> (In 50 hdr /\ n = 0).
Proof.
  intros hdr n. unfold v1_check, apk_v1_stripped, apk_v2_present, contains_rune. rewrite andb_true_iff, existsb_exists, negb_true_iff, negb_false_iff, Z.eqb_eq.
  split; [intros [[x [Hx <-%Z.eqb_eq]] Hn]|intros [Hx Hn]; split; [exists 50|]]; auto.
Qed.
Theorem apk_v1_header_names_agree : header_names_agree = true /\ In 50 apk_sf_marker_value.
Proof. split; [reflexivity|left; reflexivity]. Qed.

(* C11: the block locator and the pair loop on ARBITRARY bytes and an arbitrary member size table never panic ... *)
Theorem apk_locator_no_panic : forall szs f p, extract szs f <> Panic p.
Proof.
  intros szs f p. unfold extract. apply bind_no_panic; [|discriminate]. unfold extract_all. apply bind_no_panic.
  - unfold locate. apply bind_no_panic; [apply read_zip_no_panic|intros d Er]. destruct (apk_sb_no_files _); [discriminate|].
    apply bind_no_panic; [apply extents_no_panic|intros xs _]. pose proof (read_zip_dirloc _ _ Er).
    apply gsb_no_panic; [|lia]. intros Hs. apply zlen_zslice; lia.
  - intros [block|] _; [|discriminate]. apply bind_no_panic; [apply pairs_raw_no_panic; lia|discriminate].
Qed.
(* ... the getSigBlock of this unit is the one of C11, and C11's theorem about (sig_loc, dir_loc, gap) lifts to file bytes: the
   guards of the ZIP reader establish its hypotheses *)
Theorem apk_gsb_is_c11 : forall n sl dl gap, gsb n sl dl gap = sig_block n sl dl gap.
Proof.
  intros n sl dl gap. unfold gsb, sig_block.
  change (apk_sb_unsigned sl dl) with (c11_sb_unsigned sl dl). change (apk_sb_out_of_range sl dl) with (c11_sb_out_of_range sl dl).
  change (apk_sb_blob_len sl dl) with (dl - sl). change apk_sb_checks_magic_suffix with true. change apk_sig_magic with sig_magic.
  change (apk_sb_too_short (zlen gap) (zlen sig_magic)) with (c11_sb_too_short (zlen gap) (zlen sig_magic)).
  unfold apk_sb_size1_off, apk_sb_size2_off, apk_sb_expected, apk_sb_pairs_lo, apk_sb_pairs_hi.
  destruct (c11_sb_unsigned sl dl); [reflexivity|]. destruct (c11_sb_out_of_range sl dl); [reflexivity|].
  destruct (alloc n (dl - sl)); cbn [bind]; try reflexivity. cbn [andb].
  destruct (negb (has_suffix_b gap sig_magic)); [reflexivity|]. destruct (c11_sb_too_short (zlen gap) (zlen sig_magic)); [reflexivity|].
  (* this unit's model slices blob[0:] before the first read; of a whole blob that is the blob *)
  pose proof (zlen_nonneg gap). rewrite (C11.Proofs.cslice_ok 0 (zlen gap) gap), zslice_full by lia. reflexivity.
Qed.
Theorem apk_parse_no_panic : forall vok szs f p, all_bytes f = true -> FmtAPK.Proofs.parse_file vok szs f <> Panic p.
Proof.
  intros vok szs f p Hb. unfold parse_file. apply bind_no_panic; [apply read_zip_no_panic|intros d Er].
  destruct (apk_sb_no_files _); [discriminate|]. apply bind_no_panic; [apply extents_no_panic|intros xs _].
  pose proof (read_zip_dirloc _ _ Er).
  apply C11.Proofs.apk_v2_parse_no_panic; [now apply all_bytes_zslice|lia|lia|]. intros Hs. apply zlen_zslice; lia.
Qed.

(* the instance of Laws/Pipeline.v (C01 C08 C02) *)
Section Crypto.
  Variables key pubk sigv : Type.
  Variable H : Z -> bytes -> bytes.
  Variable pub : key -> pubk.
  Variable sign : key -> bytes -> sigv.
  Variable vrfy : pubk -> bytes -> sigv -> bool.
  Hypothesis sign_correct : forall k m, vrfy (pub k) m (sign k m) = true.
  Variable tbs : Z -> bytes -> bytes.
  Variable ser : Laws.Pipeline.sigblob pubk sigv -> bytes.
  Variable deser : bytes -> option (Laws.Pipeline.sigblob pubk sigv).
  Hypothesis deser_ser : forall b, deser (ser b) = Some b.
  Variable szs : list Z.

  (* the signer's format (digest input of digestApkStream) and the verifier's (apkSigner.Verify), on the class *)
  Definition Fs : Laws.Pipeline.format (option secs) :=
    Laws.Pipeline.mkFormat (option secs) (fun f => rmap enc_secs (hashin_sign szs f)) (embed_wf szs) (extract szs) (fun f => Ok (spec_sections f)).
  Definition Fv : Laws.Pipeline.format (option secs) :=
    Laws.Pipeline.mkFormat (option secs) (fun f => rmap enc_secs (hashin_verify szs f)) (embed_wf szs) (extract szs) (fun f => Ok (spec_sections f)).

  Lemma embed_wf_inv f b g : embed_wf szs f b = Ok g -> wfb szs f = true /\ embed szs f b = Ok g.
  Proof. unfold embed_wf. destruct (wfb szs f); [intros E; split; [reflexivity|exact E]|discriminate]. Qed.

  Theorem apk_format_laws : Laws.Pipeline.law_extract (option secs) Fs /\ Laws.Pipeline.law_hashin (option secs) Fs /\ Laws.Pipeline.law_payload (option secs) Fs.
  Proof.
    split; [|split]; intros f b g E; cbn [Laws.Pipeline.f_embed Laws.Pipeline.f_extract Laws.Pipeline.f_hashin Laws.Pipeline.f_payload Fs] in *;
      destruct (embed_wf_inv _ _ _ E) as [W E'].
    - apply wfb_view in W. destruct W as (d & xs & V). destruct V. eapply law_extract; eassumption.
    - now rewrite (law_hashin_sign _ _ _ _ E').
    - now rewrite (payload_kept _ _ _ _ W E').
  Qed.
  (* on relic's outputs the verifier's view is the signer's view *)
  Theorem apk_verifier_view : forall f b g, embed_wf szs f b = Ok g ->
    Laws.Pipeline.verify_file pubk sigv H vrfy tbs deser (option secs) Fv g =
    Laws.Pipeline.verify_file pubk sigv H vrfy tbs deser (option secs) Fs g.
  Proof.
    intros f b g E. destruct (embed_wf_inv _ _ _ E) as [W E']. unfold Laws.Pipeline.verify_file.
    cbn [Laws.Pipeline.f_extract Laws.Pipeline.f_hashin Fv Fs].
    now rewrite (verify_convention _ _ _ _ E'), (law_hashin_sign _ _ _ _ E').
  Qed.
  (* C01: whatever is signed (digestApkStream, Sign, Apply) verifies (getSigBlock, pair loop, apkSigner.Verify's recomputation)
     and names the configured certificate and the requested digest *)
  Theorem apk_sign_then_verify : forall k a f g,
    Laws.Pipeline.sign_file key pubk sigv H pub sign tbs ser (option secs) Fs k a f = Ok g ->
    Laws.Pipeline.verify_file pubk sigv H vrfy tbs deser (option secs) Fv g = Laws.Pipeline.Accept pubk (pub k) a.
  Proof.
    intros k a f g E. destruct apk_format_laws as (L1 & L2 & L3).
    pose proof (Laws.Pipeline.sign_then_verify key pubk sigv H pub sign vrfy sign_correct tbs ser deser deser_ser (option secs) Fs L1 L2 k a f g E) as V.
    apply bind_ok in E as (pre & _ & E).
    cbn [Laws.Pipeline.f_embed Fs] in E. rewrite (apk_verifier_view _ _ _ E). exact V.
  Qed.
  (* C08: any history of re-signing with differing keys and digests: verifiable under the last key, signed, original payload,
     original digest input *)
  Theorem apk_resign_history : forall hist f g k a,
    Laws.Pipeline.resign key pubk sigv H pub sign tbs ser (option secs) Fs (hist ++ [(k, a)]) f = Ok g ->
    Laws.Pipeline.verify_file pubk sigv H vrfy tbs deser (option secs) Fs g = Laws.Pipeline.Accept pubk (pub k) a /\
    Laws.Pipeline.is_signed (option secs) Fs g = true /\
    Laws.Pipeline.f_payload (option secs) Fs g = Laws.Pipeline.f_payload (option secs) Fs f /\
    Laws.Pipeline.f_hashin (option secs) Fs g = Laws.Pipeline.f_hashin (option secs) Fs f.
  Proof.
    destruct apk_format_laws as (L1 & L2 & L3).
    exact (Laws.Pipeline.resign_history key pubk sigv H pub sign vrfy sign_correct tbs ser deser deser_ser (option secs) Fs L1 L2 L3).
  Qed.
  (* C02: an accepted file carries a digest its signer issued over the file's verifier digest input *)
  Theorem apk_tamper_rejected : forall (issued : key -> Z -> bytes -> Prop),
    (forall k a d s, vrfy (pub k) (tbs a d) s = true -> issued k a d) ->
    forall g' k a, Laws.Pipeline.verify_file pubk sigv H vrfy tbs deser (option secs) Fv g' = Laws.Pipeline.Accept pubk (pub k) a ->
    exists pre, Laws.Pipeline.f_hashin (option secs) Fv g' = Ok pre /\ issued k a (H a pre).
  Proof.
    intros issued Hunf. exact (Laws.Pipeline.tamper_rejected key pubk sigv H pub vrfy tbs deser (option secs) Fv issued Hunf).
  Qed.
End Crypto.

(* non-vacuity *)
Example apk_class_inhabited : wfb FmtAPK.ProofsWit.w_szs FmtAPK.ProofsWit.w_plain = true.
Proof. vm_compute. reflexivity. Qed.
Example apk_embed_example : exists g, embed FmtAPK.ProofsWit.w_szs FmtAPK.ProofsWit.w_plain [1; 2; 3] = Ok g /\ zlen g = zlen FmtAPK.ProofsWit.w_plain + 47.
Proof. eexists. split; [vm_compute; reflexivity|reflexivity]. Qed.
Example apk_block_example : mk_sig_block [7] =
  [37; 0; 0; 0; 0; 0; 0; 0; 5; 0; 0; 0; 0; 0; 0; 0; 26; 135; 9; 113; 7; 37; 0; 0; 0; 0; 0; 0; 0; 65; 80; 75; 32; 83; 105; 103; 32; 66; 108; 111; 99; 107; 32; 52; 50].
Proof. vm_compute. reflexivity. Qed.
