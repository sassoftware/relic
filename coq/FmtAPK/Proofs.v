(* FmtAPK/Proofs.v — no step of the block locator panics, on any byte string (C11's theorem lifted from (sig_loc, dir_loc, gap)
   to file bytes); the documentation's reader of a signature file on what DigestManifest writes. *)
From Relic Require Import Base.Prelude Base.Enc Base.Lists Generated.C11_gen Generated.FmtAPK_gen FmtAPK.Model FmtAPK.Lib FmtAPK.ProofsZip FmtAPK.ProofsBlock Base.Slice.
From Relic Require C11.Model C11.Proofs.
Import C11.Model C11.Proofs.

Lemma walk_no_panic k : forall cd p, walk k cd <> Panic p.
Proof.
  induction k as [|k IH]; intros cd p; cbn [walk]; [discriminate|].
  repeat match goal with |- (if ?c then _ else _) <> _ => destruct c; try discriminate end.
  apply bind_no_panic; [apply IH|discriminate].
Qed.
Lemma read_zip_no_panic f p : read_zip f <> Panic p.
Proof.
  unfold read_zip. apply bind_no_panic.
  - unfold find_directory. repeat match goal with |- (if ?c then _ else _) <> _ => destruct c; try discriminate end.
  - intros loc _. destruct (apk_z_loc_oob _ _); [discriminate|]. apply bind_no_panic; [apply walk_no_panic|intros r _].
    repeat match goal with |- (if ?c then _ else _) <> _ => destruct c; try discriminate end.
Qed.
Lemma extents_no_panic es : forall szs p, extents es szs <> Panic p.
Proof.
  induction es as [|e es IH]; intros [|s szs] p; cbn [extents]; try discriminate. apply bind_no_panic; [apply IH|discriminate].
Qed.

(* getSigBlock on a gap of the length the offsets announce (what ReadAt returned for [sig_loc, dir_loc)) *)
Lemma gsb_no_panic n sl dl gap p : (0 <= sl <= dl -> zlen gap = dl - sl) -> dl <= n -> gsb n sl dl gap <> Panic p.
Proof.
  intros Hg Hn. unfold gsb, apk_sb_unsigned, apk_sb_out_of_range, apk_sb_blob_len, apk_sb_too_short, apk_sb_expected, apk_sb_size1_off,
    apk_sb_size2_off, apk_sb_size_bad, apk_sb_pairs_lo, apk_sb_pairs_hi.
  destruct (sl =? dl); [discriminate|]. destruct ((sl <? 0) || (sl >? dl)) eqn:E1; [discriminate|]. specialize (Hg ltac:(lia)).
  rewrite (alloc_ok n (dl - sl)) by (unfold alloc_limit; lia). cbn [bind].
  destruct (_ && _); [discriminate|]. rewrite zlen_magic. destruct (zlen gap <? 8 + 8 + 16) eqn:E2; [discriminate|].
  rewrite cslice_ok by lia. cbn [bind]. rewrite zslice_full, cle_ok by lia. cbn [bind].
  rewrite cslice_ok by lia. cbn [bind]. rewrite cle_ok by (try lia; rewrite zlen_zslice by lia; lia). cbn [bind].
  destruct (negb _ || negb _); [discriminate|]. rewrite cslice_ok by lia. discriminate.
Qed.

Lemma pairs_raw_no_panic : forall fuel block p, (length block < fuel)%nat -> pairs_raw fuel block <> Panic p.
Proof.
  induction fuel as [|k IH]; intros block p Hf; [lia|]. cbn [pairs_raw].
  unfold apk_pair_more, apk_pair_short, apk_pair_after_size, apk_pair_size_bad, apk_pair_value_lo, apk_pair_value_hi, apk_pair_next.
  destruct (zlen block >? 0) eqn:E0; [|discriminate]. destruct (zlen block <? 12) eqn:E1; [discriminate|].
  rewrite cle_ok by lia. cbn [bind]. set (ps := le_dec (zslice 0 (0 + 8) block)).
  rewrite cslice_ok by lia. cbn [bind]. set (b1 := zslice 8 (zlen block) block).
  assert (L1 : zlen b1 = zlen block - 8) by (apply zlen_zslice; lia).
  destruct ((ps <? 4) || (ps >? zlen b1)) eqn:E2; [discriminate|].
  rewrite cle_ok by lia. cbn [bind]. rewrite cslice_ok by lia. cbn [bind]. rewrite cslice_ok by lia. cbn [bind].
  (* the next round starts at least 4 bytes further on: the fuel lasts *)
  apply bind_no_panic; [|discriminate]. apply IH. pose proof (zlen_zslice ps (zlen b1) b1 ltac:(lia) ltac:(lia)) as L2. unfold zlen in *. lia.
Qed.

(* C11: the block locator, the ID-value pair loop and the parse of every v2 signer list, on ARBITRARY file bytes and an arbitrary
   member size table: the guards of the ZIP reader establish what C11's theorem apk_v2_parse_no_panic needs *)
Definition parse_file (vok : aval -> bool) (szs : list Z) (f : bytes) : result (list aval) :=
  d <- read_zip f ;;
  if apk_sb_no_files (zlen (zd_files d)) then Err E_NOFILES else
  xs <- extents (zd_files d) szs ;;
  apk_v2_parse vok (zlen f) (next_file_offset xs) (zd_dirloc d) (zslice (next_file_offset xs) (zd_dirloc d) f).

(* the table also offers DSA with SHA-256; VerifySignature has no branch for it *)
Lemma dsa_selected_not_verifiable : exists t, select_type 5 2 = Some t /\ verifiable_alg 2 = false.
Proof. eexists. split; reflexivity. Qed.

Definition no13 (l : bytes) : Prop := ~ In 13 l.
Definition attr_ok (nv : bytes * bytes) : Prop := no13 (fst nv) /\ no13 (snd nv) /\ ~ In 58 (fst nv).
Lemma not_In_b x l : existsb (Z.eqb x) l = false -> ~ In x l.
Proof. rewrite <- existsb_Zeqb_In. congruence. Qed.
Definition line_of (nv : bytes * bytes) : bytes := fst nv ++ [58; 32] ++ snd nv.
Lemma write_attr_line nv : write_attr nv = line_of nv ++ [13; 10].
Proof. unfold write_attr, line_of. now rewrite <- !app_assoc. Qed.

(* the two readers match on byte literals; a byte that is not the literal falls through (case analysis on its binary digits) *)
Lemma spec_lines_other fuel c r cur : c <> 13 -> spec_lines (S fuel) (c :: r) cur = spec_lines fuel r (c :: cur).
Proof.
  intros Hc. cbn [spec_lines]. destruct c as [|pc|pc]; try reflexivity.
  do 4 (destruct pc as [pc|pc|]; try reflexivity). contradiction Hc. reflexivity.
Qed.
Lemma split_colon_other c r acc : c <> 58 -> split_colon (c :: r) acc = split_colon r (c :: acc).
Proof.
  intros Hc. cbn [split_colon]. destruct c as [|pc|pc]; try reflexivity.
  do 6 (destruct pc as [pc|pc|]; try reflexivity). contradiction Hc. reflexivity.
Qed.

Lemma spec_lines_line x : no13 x -> forall acc r fuel, (length x + 2 <= fuel)%nat ->
  spec_lines fuel (x ++ 13 :: 10 :: r) acc = (rev acc ++ x) :: spec_lines (fuel - length x - 1) r [].
Proof.
  induction x as [|c x IH]; intros Hn acc r [|fuel] Hf; cbn [length] in Hf; try lia; cbn [app].
  - cbn [spec_lines length]. rewrite app_nil_r. replace (S fuel - 0 - 1)%nat with fuel by lia. reflexivity.
  - rewrite spec_lines_other by (intros ->; apply Hn; now left).
    rewrite (IH (fun H => Hn (or_intror H)) (c :: acc) r fuel) by lia. cbn [rev length]. rewrite <- app_assoc. reflexivity.
Qed.
Lemma split_colon_line n v acc : ~ In 58 n -> split_colon (n ++ [58; 32] ++ v) acc = Some (rev acc ++ n, v).
Proof.
  revert acc. induction n as [|c n IH]; intros acc Hn; cbn [app].
  - cbn [split_colon]. rewrite app_nil_r. reflexivity.
  - rewrite split_colon_other by (intros ->; apply Hn; now left).
    fold (app [58; 32] v). rewrite (IH (c :: acc) (fun H => Hn (or_intror H))). cbn [rev]. rewrite <- app_assoc. reflexivity.
Qed.

Lemma no13_line nv : attr_ok nv -> no13 (line_of nv).
Proof.
  intros (H1 & H2 & _) H. unfold line_of in H. rewrite !in_app_iff in H. destruct H as [H|[H|H]]; [exact (H1 H)| |exact (H2 H)].
  cbn in H. destruct H as [H|[H|[]]]; discriminate.
Qed.
Lemma lines_of_attrs attrs : Forall attr_ok attrs -> forall fuel, (length (concat (map write_attr attrs)) + 3 <= fuel)%nat ->
  spec_main_lines (spec_lines fuel (concat (map write_attr attrs) ++ [13; 10]) []) = map line_of attrs.
Proof.
  induction 1 as [|nv attrs Hnv Hrest IH]; intros fuel Hf.
  - cbn [map concat app length] in *. destruct fuel as [|fuel]; [lia|]. reflexivity.
  - cbn [map concat] in *. rewrite write_attr_line, <- !app_assoc in *. cbn [app] in *. rewrite app_length in Hf. cbn [length] in Hf.
    rewrite (spec_lines_line (line_of nv) (no13_line nv Hnv) [] _ fuel) by lia. cbn [rev app].
    assert (Hne : line_of nv <> []) by (unfold line_of; destruct (fst nv); discriminate).
    destruct (line_of nv) as [|c l] eqn:El; [contradiction|]. cbn [spec_main_lines]. f_equal.
    apply IH. cbn [length] in *. lia.
Qed.

(* looking a name up in the main section DigestManifest writes is looking it up in the attribute list *)
Theorem sf_lookup_written attrs name : Forall attr_ok attrs ->
  spec_sf_lookup (concat (map write_attr attrs) ++ [13; 10]) name = option_map snd (find (fun nv => bytes_eqb (fst nv) name) attrs).
Proof.
  intros Hok. unfold spec_sf_lookup. rewrite (lines_of_attrs _ Hok) by (rewrite app_length; cbn [length]; lia).
  induction Hok as [|[n v] attrs (_ & _ & H58) _ IH]; [reflexivity|]. cbn [map find fst].
  replace (split_colon (line_of (n, v)) []) with (Some (n, v)) by (symmetry; apply (split_colon_line n v []), H58).
  destruct (bytes_eqb n name); [reflexivity|exact IH].
Qed.
