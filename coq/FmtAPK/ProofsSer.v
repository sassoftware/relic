(* FmtAPK/ProofsSer.v — marshal (serializer.go) followed by C11's model of unmarshal is the identity on every well-typed value
   whose lengths fit 32 bits; what Digest.Sign assembles is well-typed, and its encoding in the documentation's terms. *)
From Relic Require Import Base.Prelude Base.Enc Generated.C11_gen Generated.FmtAPK_gen FmtAPK.Model FmtAPK.Lib FmtAPK.ProofsBlock Base.Slice.
From Relic Require C11.Model C11.Proofs.
Import C11.Model.

(* a uint32 length prefix, as the documentation writes it; marshal's prefix (end - start - 4, written after the fact) is the same *)
Definition lp' (x : bytes) : bytes := le_enc 4 (zlen x) ++ x.
Lemma lp_eq b : lp b = lp' b.
Proof. unfold lp, lp', apk_m_prefix_width, apk_m_prefix_val. do 2 f_equal. lia. Qed.
Lemma zlen_lp' b : zlen (lp' b) = 4 + zlen b.
Proof. unfold lp'. rewrite zlen_app, zlen_le_enc4. reflexivity. Qed.
Global Hint Rewrite zlen_lp' : apk_len.

(* well-typed values in range *)
Inductive wt : schema -> aval -> Prop :=
| wt_u32 z : 0 <= z < 4294967296 -> wt SU32 (AU32 z)
| wt_bytes b : zlen b < 4294967296 -> wt SBytes (ABytes b)
| wt_raw inner : zlen inner < 4294967296 -> wt SRaw (ARaw (le_enc 4 (zlen inner) ++ inner))
| wt_slice e l : Forall (wt e) l -> zlen (concat (map enc l)) < 4294967296 -> wt (SSlice e) (ASlice l)
| wt_struct fs l : Forall2 wt fs l -> zlen (concat (map enc l)) < 4294967296 -> wt (SStruct fs) (AStruct l).

Lemma enc_raw raw : enc (ARaw raw) = raw. Proof. reflexivity. Qed.
Lemma enc_slice l : enc (ASlice l) = lp' (concat (map enc l)). Proof. apply lp_eq. Qed.
Lemma enc_AStruct l : enc (AStruct l) = lp' (concat (map enc l)). Proof. apply lp_eq. Qed.
Lemma enc_bytes b : enc (ABytes b) = lp' b. Proof. apply lp_eq. Qed.
Lemma enc_u32 z : enc (AU32 z) = le_enc 4 z. Proof. reflexivity. Qed.
Lemma lp'_len b : 4 <= zlen (lp' b).
Proof. rewrite zlen_lp'. pose proof (zlen_nonneg b). lia. Qed.
Lemma enc_len s v : wt s v -> 4 <= zlen (enc v).
Proof.
  intros [z _|b _|inner _|e l _ _|fs l _ _]; rewrite ?enc_bytes, ?enc_slice, ?enc_AStruct;
    [rewrite enc_u32, zlen_le_enc4; lia|apply lp'_len..].
Qed.

(* one-step equations of C11's parser *)
Lemma um_items_S rec n b : um_items rec (S n) b =
  if c11_um_slice_more (zlen b) then (x <- rec b ;; r <- um_items rec n (snd x) ;; Ok (fst x :: r)) else Ok [].
Proof. reflexivity. Qed.
Lemma um_fields_nil rec b : um_fields rec [] b = if c11_um_struct_trailing (zlen b) then Err E_TRAILING else Ok [].
Proof. reflexivity. Qed.
Lemma um_fields_cons rec f fs b : um_fields rec (f :: fs) b = (x <- rec f b ;; r <- um_fields rec fs (snd x) ;; Ok (fst x :: r)).
Proof. reflexivity. Qed.

Lemma um_u32 k z rest : 0 <= z < 4294967296 -> um (S k) SU32 (le_enc 4 z ++ rest) = Ok (AU32 z, rest).
Proof.
  intros Hz. cbn [um]. unfold c11_um_scalar_short. pose proof (zlen_nonneg rest). rewrite zlen_app, zlen_le_enc4.
  replace (4 + zlen rest <? 4) with false by lia. rewrite cle_enc4 by lia. cbn [bind].
  rewrite cslice_tail by (rewrite ?zlen_le_enc4; lia). reflexivity.
Qed.

(* the common front of every length-prefixed type *)
Definition after_prefix (k : nat) (s : schema) (body rest : bytes) : result (aval * bytes) :=
  match s with
  | SU32 => Ok (AU32 0, rest)
  | SBytes => Ok (ABytes body, rest)
  | SRaw => Ok (ARaw (lp' body), rest)
  | SSlice e => rmap (fun l => (ASlice l, rest)) (um_items (um k e) (S (length body)) body)
  | SStruct fs => rmap (fun l => (AStruct l, rest)) (um_fields (um k) fs body)
  end.
Lemma um_prefixed k s body rest : s <> SU32 -> zlen body < 4294967296 -> um (S k) s (lp' body ++ rest) = after_prefix k s body rest.
Proof.
  intros Hs Hb. pose proof (zlen_nonneg body). pose proof (zlen_nonneg rest). unfold lp'. rewrite <- app_assoc.
  set (blob := le_enc 4 (zlen body) ++ body ++ rest).
  assert (Lb : zlen blob = 4 + zlen body + zlen rest) by (unfold blob; rewrite !zlen_app, zlen_le_enc4; lia).
  (* the four branches share the reads of size, remainder, raw and inner; K is what a branch does with them *)
  assert (Hcommon : forall (K : bytes -> bytes -> bytes -> result (aval * bytes)),
    (if c11_um_prefix_short (zlen blob) then Err E_EOF else
     size <- cle 4 0 blob ;; if c11_um_size_exceeds size (zlen blob) then Err E_EOF else
     remainder <- cslice (4 + size) (zlen blob) blob ;; raw <- cslice 0 (4 + size) blob ;; inner <- cslice 4 (zlen raw) raw ;; K remainder raw inner)
    = K rest (le_enc 4 (zlen body) ++ body) body).
  { intros K. unfold c11_um_prefix_short, c11_um_size_exceeds. rewrite Lb. replace (4 + zlen body + zlen rest <? 4) with false by lia.
    unfold blob. rewrite cle_enc4 by lia. cbn [bind]. replace (zlen body >? 4 + zlen body + zlen rest - 4) with false by lia.
    rewrite app_assoc, cslice_tail, cslice_head by (rewrite ?zlen_app, ?zlen_le_enc4; lia). cbn [bind].
    rewrite cslice_tail by (rewrite ?zlen_app, ?zlen_le_enc4; lia). reflexivity. }
  destruct s as [| | |e|fs]; [contradiction| | | |]; cbn [um]; fold blob; rewrite Hcommon; reflexivity.
Qed.

Lemma depth_pos s : (1 <= depth s)%nat.
Proof. destruct s; cbn [depth]; lia. Qed.

Lemma items_ok (rec : bytes -> result (aval * bytes)) e l :
  Forall (wt e) l -> (forall v rest, In v l -> rec (enc v ++ rest) = Ok (v, rest)) ->
  forall n, (length l < n)%nat -> um_items rec n (concat (map enc l)) = Ok l.
Proof.
  intros Hw Hr. induction l as [|v l IH]; intros [|n] Hn; cbn [length] in Hn; try lia; rewrite um_items_S; [reflexivity|].
  cbn [map concat]. inversion Hw as [|? ? Hv Hl]; subst. pose proof (enc_len _ _ Hv). pose proof (zlen_nonneg (concat (map enc l))).
  unfold c11_um_slice_more. rewrite zlen_app. replace (zlen (enc v) + zlen (concat (map enc l)) >? 0) with true by lia.
  rewrite (Hr v _ (or_introl eq_refl)). cbn [bind fst snd].
  rewrite (IH Hl (fun v' rest' Hin => Hr v' rest' (or_intror Hin)) n ltac:(lia)). reflexivity.
Qed.

Lemma fields_ok (rec : schema -> bytes -> result (aval * bytes)) fs l :
  Forall2 wt fs l -> (forall f v rest, In f fs -> wt f v -> rec f (enc v ++ rest) = Ok (v, rest)) ->
  um_fields rec fs (concat (map enc l)) = Ok l.
Proof.
  intros Hw. induction Hw as [|f v fs l Hv Hl IH]; intros Hr.
  - rewrite um_fields_nil. reflexivity.
  - rewrite um_fields_cons. cbn [map concat]. rewrite (Hr f v _ (or_introl eq_refl) Hv). cbn [bind fst snd].
    rewrite IH by (intros f' v' rest' Hin; apply Hr; right; exact Hin). reflexivity.
Qed.

Lemma items_fuel l e : Forall (wt e) l -> (length l <= length (concat (map enc l)))%nat.
Proof.
  induction 1 as [|v l Hv Hl IH]; [cbn; lia|]. cbn [map concat length]. rewrite app_length.
  pose proof (enc_len _ _ Hv) as L. unfold zlen in L. lia.
Qed.

Theorem um_enc : forall k s v rest, (depth s <= k)%nat -> wt s v -> um k s (enc v ++ rest) = Ok (v, rest).
Proof.
  induction k as [|k IH]; intros s v rest Hd Hw; [pose proof (depth_pos s); lia|].
  destruct Hw as [z Hz|b Hb|inner Hi|e l Hl Hlen|fs l Hl Hlen].
  - apply um_u32. exact Hz.
  - rewrite enc_bytes, um_prefixed by (discriminate || assumption). reflexivity.
  - rewrite enc_raw. fold (lp' inner). rewrite um_prefixed by (discriminate || assumption). reflexivity.
  - rewrite enc_slice, um_prefixed by (discriminate || assumption). cbn [after_prefix]. cbn [depth] in Hd.
    rewrite (items_ok (um k e) e l Hl); [reflexivity| |pose proof (items_fuel l e Hl); lia].
    intros v rest' Hin. apply IH; [lia|]. rewrite Forall_forall in Hl. apply Hl. exact Hin.
  - rewrite enc_AStruct, um_prefixed by (discriminate || assumption). cbn [after_prefix]. cbn [depth] in Hd.
    rewrite (fields_ok (um k) fs l Hl); [reflexivity|].
    intros f v rest' Hin Hv. apply IH; [|exact Hv]. pose proof (C11.Proofs.depth_in f fs Hin). lia.
Qed.

Theorem unmarshal_enc s v : wt s v -> unmarshal s (enc v) = Ok v.
Proof.
  intros Hw. unfold unmarshal. rewrite <- (app_nil_r (enc v)). rewrite (um_enc (depth s) s v [] (le_n _) Hw). reflexivity.
Qed.

(* the schemas generated from structs.go are the ones C11 proves panic freedom for *)
Lemma schemas_match : g_signer_list = s_signer_list /\ g_signed_data = s_signed_data.
Proof. split; reflexivity. Qed.

Definition certs_len (certs : list bytes) : Z := fold_right (fun c s => 4 + zlen c + s) 0 certs.
(* sizes of what Digest.Sign builds: everything is far below 4 GiB for real certificates; stated as a bound on the total *)
Definition sign_sizes_ok (digest : bytes) (certs : list bytes) (sigv pubkey : bytes) : Prop :=
  zlen digest + certs_len certs + zlen sigv + zlen pubkey + 100 < 4294967296.
(* the body of the signed data Digest.Sign writes, as the documentation's reader sees it: one digest, the chain, no attributes *)
Definition sd_body (sigid : Z) (digest : bytes) (certs : list bytes) : bytes :=
  lp' (lp' (le_enc 4 sigid ++ le_enc 4 (zlen digest) ++ digest)) ++ lp' (concat (map lp' certs)) ++ lp' [].

Lemma certs_len_nonneg certs : 0 <= certs_len certs.
Proof. induction certs as [|c r IH]; cbn [certs_len fold_right]; [lia|]. pose proof (zlen_nonneg c). fold (certs_len r). lia. Qed.
Lemma zlen_lps certs : zlen (concat (map lp' certs)) = certs_len certs.
Proof. induction certs as [|c r IH]; [reflexivity|]. cbn [map concat certs_len fold_right]. rewrite zlen_app, zlen_lp', IH. reflexivity. Qed.
Lemma enc_certs_eq certs : concat (map enc (map ABytes certs)) = concat (map lp' certs).
Proof. induction certs as [|c r IH]; [reflexivity|]. cbn [map concat]. rewrite enc_bytes, IH. reflexivity. Qed.

(* an ID-value item (digest, signature, attribute) and the one-item sequences Digest.Sign writes *)
Lemma enc_attr_eq id v : enc (v_attr id v) = lp' (le_enc 4 id ++ lp' v).
Proof. unfold v_attr. rewrite enc_AStruct. cbn [map concat]. now rewrite enc_u32, enc_bytes, app_nil_r. Qed.
Lemma enc_attrs_eq id v : enc (ASlice [v_attr id v]) = lp' (lp' (le_enc 4 id ++ lp' v)).
Proof. rewrite enc_slice. cbn [map concat]. now rewrite enc_attr_eq, app_nil_r. Qed.
Lemma v_signed_data_eq sigid digest certs :
  v_signed_data sigid digest certs = AStruct [ASlice [v_attr sigid digest]; ASlice (map ABytes certs); ASlice []].
Proof. reflexivity. Qed.
Lemma sd_fields_eq sigid digest certs :
  concat (map enc [ASlice [v_attr sigid digest]; ASlice (map ABytes certs); ASlice []]) = sd_body sigid digest certs.
Proof. unfold sd_body. cbn [map concat]. now rewrite enc_attrs_eq, !enc_slice, enc_certs_eq, app_nil_r. Qed.
Lemma enc_sd_eq sigid digest certs : enc (v_signed_data sigid digest certs) = lp' (sd_body sigid digest certs).
Proof. now rewrite v_signed_data_eq, enc_AStruct, sd_fields_eq. Qed.
Lemma zlen_sd_body sigid digest certs : zlen (sd_body sigid digest certs) = 24 + zlen digest + certs_len certs.
Proof. unfold sd_body. autorewrite with apk_len. rewrite zlen_lps. cbn [zlen length Z.of_nat]. lia. Qed.

Lemma wt_attr id value : 0 <= id < 4294967296 -> zlen value + 8 < 4294967296 -> wt s_attribute (v_attr id value).
Proof.
  intros Hi Hv. pose proof (zlen_nonneg value). constructor.
  - repeat constructor; lia.
  - cbn [map concat]. rewrite enc_u32, enc_bytes, app_nil_r. autorewrite with apk_len. lia.
Qed.
Lemma wt_attrs id value : 0 <= id < 4294967296 -> zlen value + 12 < 4294967296 -> wt (SSlice s_attribute) (ASlice [v_attr id value]).
Proof.
  intros Hi Hv. constructor; [constructor; [apply wt_attr; lia|constructor]|].
  cbn [map concat]. rewrite enc_attr_eq, app_nil_r. autorewrite with apk_len. lia.
Qed.
Lemma wt_certs certs : certs_len certs < 4294967296 -> wt (SSlice SBytes) (ASlice (map ABytes certs)).
Proof.
  intros H. constructor; [|rewrite enc_certs_eq, zlen_lps; exact H].
  induction certs as [|c r IH]; [constructor|]. cbn [map]. cbn [certs_len fold_right] in H. fold (certs_len r) in H.
  pose proof (certs_len_nonneg r). pose proof (zlen_nonneg c). constructor; [constructor; lia|apply IH; lia].
Qed.
Lemma wt_signed_data sigid digest certs : 0 <= sigid < 4294967296 -> zlen digest + certs_len certs + 40 < 4294967296 ->
  wt s_signed_data (v_signed_data sigid digest certs).
Proof.
  intros Hi Hs. pose proof (zlen_nonneg digest). pose proof (certs_len_nonneg certs).
  rewrite v_signed_data_eq. constructor; [|rewrite sd_fields_eq, zlen_sd_body; lia].
  constructor; [apply wt_attrs; lia|]. constructor; [apply wt_certs; lia|]. constructor; [|constructor]. constructor; [constructor|cbn; lia].
Qed.

Lemma v_signer_list_eq sigid digest certs sigv pubkey :
  v_signer_list sigid digest certs sigv pubkey =
  ASlice [AStruct [ARaw (enc (v_signed_data sigid digest certs)); ASlice [v_attr sigid sigv]; ABytes pubkey]].
Proof. reflexivity. Qed.
Lemma signer_fields_eq sigid digest certs sigv pubkey :
  concat (map enc [ARaw (enc (v_signed_data sigid digest certs)); ASlice [v_attr sigid sigv]; ABytes pubkey]) =
  lp' (sd_body sigid digest certs) ++ lp' (lp' (le_enc 4 sigid ++ lp' sigv)) ++ lp' pubkey.
Proof. cbn [map concat]. now rewrite enc_raw, enc_sd_eq, enc_attrs_eq, enc_bytes, app_nil_r. Qed.
Lemma wt_signer_list sigid digest certs sigv pubkey : 0 <= sigid < 4294967296 -> sign_sizes_ok digest certs sigv pubkey ->
  wt s_signer_list (v_signer_list sigid digest certs sigv pubkey).
Proof.
  intros Hi Hs. unfold sign_sizes_ok in Hs. pose proof (zlen_nonneg digest). pose proof (certs_len_nonneg certs). pose proof (zlen_nonneg sigv). pose proof (zlen_nonneg pubkey).
  pose proof (signer_fields_eq sigid digest certs sigv pubkey) as E. pose proof (f_equal (@zlen Z) E) as L.
  autorewrite with apk_len in L. rewrite zlen_sd_body in L. rewrite v_signer_list_eq, enc_sd_eq in *. constructor.
  - constructor; [|constructor]. constructor; [|lia].
    constructor; [apply wt_raw; rewrite zlen_sd_body; lia|]. constructor; [apply wt_attrs; lia|]. constructor; [constructor; lia|constructor].
  - cbn [map concat]. rewrite app_nil_r, enc_AStruct, zlen_lp'. lia.
Qed.

Definition in32 (b : bytes) : Prop := zlen b < 4294967296.
Lemma spec_lp_take_lp b r : zlen b < 4294967296 -> spec_lp_take (lp' b ++ r) = Some (b, r).
Proof.
  intros Hb. pose proof (zlen_nonneg b). pose proof (zlen_nonneg r). unfold spec_lp_take, lp'. rewrite <- app_assoc.
  rewrite !zlen_app, zlen_le_enc4. replace (4 + (zlen b + zlen r) <? 4) with false by lia.
  rewrite (ztake_app_len 4), le_dec_enc4 by (apply zlen_le_enc4 || lia).
  replace (4 + (zlen b + zlen r) - 4 <? zlen b) with false by lia. do 2 f_equal.
  - apply zslice_app_mid; rewrite ?zlen_le_enc4; lia.
  - rewrite app_assoc. apply zdrop_app_len. rewrite zlen_app, zlen_le_enc4. reflexivity.
Qed.
Lemma spec_lp_take_lp_end b : zlen b < 4294967296 -> spec_lp_take (lp' b) = Some (b, []).
Proof. intros H. rewrite <- (app_nil_r (lp' b)). apply spec_lp_take_lp. exact H. Qed.
Lemma spec_lp_seq_lps xs : Forall in32 xs -> forall k, (length xs < k)%nat -> spec_lp_seq k (concat (map lp' xs)) = Some xs.
Proof.
  induction 1 as [|x xs Hx Hxs IH]; intros [|k] Hk; cbn [length] in Hk; try lia; [reflexivity|]. cbn [map concat spec_lp_seq].
  pose proof (zlen_nonneg x). pose proof (zlen_nonneg (concat (map lp' xs))).
  rewrite zlen_app, zlen_lp'. replace (4 + zlen x + zlen (concat (map lp' xs)) =? 0) with false by lia.
  rewrite spec_lp_take_lp, IH by (assumption || lia). reflexivity.
Qed.
Lemma lps_fuel xs : (length xs <= length (concat (map lp' xs)))%nat.
Proof. induction xs as [|x xs IH]; [cbn; lia|]. cbn [map concat length]. unfold lp' at 1. rewrite !app_length, le_enc_length. lia. Qed.
Lemma spec_seq_lps xs : Forall in32 xs -> spec_seq (concat (map lp' xs)) = Some xs.
Proof. intros H. unfold spec_seq. apply spec_lp_seq_lps; [exact H|]. pose proof (lps_fuel xs). lia. Qed.
Lemma spec_seq_lp x : zlen x < 4294967296 -> spec_seq (lp' x) = Some [x].
Proof. intros H. rewrite <- (app_nil_r (lp' x)). apply (spec_seq_lps [x]). now repeat constructor. Qed.

Lemma spec_id_lpvalue_ok id v : 0 <= id < 4294967296 -> zlen v < 4294967296 -> spec_id_lpvalue (le_enc 4 id ++ lp' v) = Some (id, v).
Proof.
  intros Hi Hv. pose proof (zlen_nonneg v). unfold spec_id_lpvalue. rewrite zlen_app, zlen_lp', zlen_le_enc4. replace (4 + (4 + zlen v) <? 4) with false by lia.
  rewrite (zdrop_app_len 4), spec_lp_take_lp_end, (ztake_app_len 4), le_dec_enc4 by (apply zlen_le_enc4 || lia). reflexivity.
Qed.
Lemma certs_in32 certs : certs_len certs < 4294967296 -> Forall in32 certs.
Proof.
  induction certs as [|c r IH]; intros H; [constructor|]. cbn [certs_len fold_right] in H. fold (certs_len r) in H.
  pose proof (certs_len_nonneg r). pose proof (zlen_nonneg c). constructor; [unfold in32; lia|apply IH; lia].
Qed.

Lemma spec_signed_data_relic sigid digest certs : 0 <= sigid < 4294967296 -> zlen digest + certs_len certs + 40 < 4294967296 ->
  spec_signed_data (sd_body sigid digest certs) = Some (mkSsd [(sigid, digest)] certs []).
Proof.
  intros Hi Hs. pose proof (zlen_nonneg digest). pose proof (certs_len_nonneg certs).
  unfold spec_signed_data, sd_body. fold (lp' digest).
  rewrite !spec_lp_take_lp, spec_lp_take_lp_end by (autorewrite with apk_len; rewrite ?zlen_lps; cbn [zlen length Z.of_nat]; lia).
  rewrite spec_seq_lp, spec_seq_lps by (apply certs_in32 || autorewrite with apk_len; lia).
  change (spec_seq []) with (Some (@nil bytes)). cbn [map opt_all]. rewrite spec_id_lpvalue_ok by lia. reflexivity.
Qed.
