(* FmtAPK/ProofsBlock.v — makeSigBlock in normal form; getSigBlock and the pair loop on it; the documentation's reader on it. *)
From Relic Require Import Base.Prelude Base.Enc Generated.C11_gen Generated.FmtAPK_gen FmtAPK.Model FmtAPK.Lib Base.Slice.
From Relic Require C11.Model C11.Proofs.
Import C11.Model C11.Proofs.

Lemma zeros_app a b : 0 <= a -> 0 <= b -> zeros (a + b) = zeros a ++ zeros b.
Proof. intros Ha Hb. unfold zeros. rewrite Z2Nat.inj_add by lia. apply repeat_app. Qed.
Lemma zlen_zeros n : 0 <= n -> zlen (zeros n) = n.
Proof. intros H. unfold zeros. rewrite zlen_repeat. lia. Qed.

Lemma zlen_magic : zlen apk_sig_magic = 16. Proof. reflexivity. Qed.
Lemma zlen_spec_pair id v : zlen (spec_pair (id, v)) = 12 + zlen v.
Proof. unfold spec_pair. rewrite !zlen_app, zlen_le_enc8, zlen_le_enc4. cbn [snd]. lia. Qed.

(* Lengths of concatenations are computed by rewriting with this set, then lia. *)
Global Hint Rewrite @zlen_app zlen_le_enc8 zlen_le_enc4 zlen_magic zlen_spec_pair : apk_len.

(* copy into a run of zeros of the source's length; the result is left-nested so that the next copy finds the same shape *)
Lemma poke_zeros a k c off src : off = zlen a -> zlen src = k -> poke (a ++ zeros k ++ c) off src = (a ++ src) ++ c.
Proof.
  intros -> <-. unfold poke. pose proof (zlen_nonneg a). pose proof (zlen_nonneg c). pose proof (zlen_nonneg src).
  rewrite !zlen_app, zlen_zeros by lia. replace ((zlen a <? 0) || (zlen a + (zlen src + zlen c) <? zlen a)) with false by lia.
  replace (Z.min (zlen src) (zlen a + (zlen src + zlen c) - zlen a)) with (zlen src) by lia.
  rewrite ztake_app_exact, (ztake_all (zlen src) src), <- app_assoc by lia. do 2 f_equal.
  rewrite app_assoc. apply zdrop_app_len. rewrite zlen_app, zlen_zeros; lia.
Qed.

Definition block_nf (b : bytes) : bytes :=
  le_enc 8 (zlen b + 36) ++ le_enc 8 (zlen b + 4) ++ le_enc 4 apk_sig_v2_id ++ b ++ le_enc 8 (zlen b + 36) ++ apk_sig_magic.

Lemma mk_sig_block_nf b : mk_sig_block b = block_nf b.
Proof.
  unfold mk_sig_block, block_nf. set (n := zlen b). pose proof (zlen_nonneg b) as Hn. fold n in Hn.
  unfold apk_mb_len, apk_mb_size_off, apk_mb_size_val, apk_mb_pair_off, apk_mb_pair_val, apk_mb_id_off, apk_mb_id_val, apk_mb_blob_off,
    apk_mb_suffix_off, apk_mb_again_dst, apk_mb_again_src_lo, apk_mb_again_src_hi, apk_mb_magic_dst.
  change apk_mb_copies_blob with true. change apk_mb_copies_size with true. change apk_mb_copies_magic with true. cbv iota.
  replace (8 + 4 + n + 8 + 16) with (n + 36) by lia. replace (4 + n) with (n + 4) by lia.
  (* the buffer as one run of zeros per field; every copy then fills exactly one run *)
  replace (8 + 12 + n + 24) with (8 + (8 + (4 + (n + (8 + 16))))) by lia. rewrite !zeros_app by lia.
  rewrite <- (app_nil_r (zeros 16)), <- (app_nil_l (zeros 8 ++ _)).
  rewrite !poke_zeros by (rewrite ?zlen_app, ?(@zlen_nil Z), ?zlen_le_enc8, ?zlen_le_enc4, ?zlen_magic; lia).
  (* block[:8], copied to the suffix, is the size field written first *)
  replace (zslice 0 8 _) with (le_enc 8 (n + 36)) by (cbn [app]; rewrite <- !app_assoc; symmetry; apply zslice_app_head, zlen_le_enc8).
  rewrite !poke_zeros by (rewrite ?zlen_app, ?(@zlen_nil Z), ?zlen_le_enc8, ?zlen_le_enc4, ?zlen_magic; lia).
  rewrite <- !app_assoc, app_nil_r. reflexivity.
Qed.

Lemma zlen_block_nf b : zlen (block_nf b) = zlen b + 44.
Proof. unfold block_nf. autorewrite with apk_len. lia. Qed.

Definition region_block (P : bytes) : bytes := le_enc 8 (zlen P + 24) ++ P ++ le_enc 8 (zlen P + 24) ++ apk_sig_magic.
Definition pair_ok (p : Z * bytes) : Prop := 0 <= fst p < 4294967296 /\ zlen (snd p) < 4611686018427387904.

Lemma v2_id_same : V2_ID = apk_sig_v2_id. Proof. reflexivity. Qed.

Lemma block_is_spec b : block_nf b = spec_write_block [(V2_ID, b)].
Proof.
  unfold block_nf, spec_write_block, spec_pair. cbn [map concat fst snd]. rewrite app_nil_r, !zlen_app, zlen_le_enc8, zlen_le_enc4.
  replace (8 + (4 + zlen b) + 24) with (zlen b + 36) by lia. replace (4 + zlen b) with (zlen b + 4) by lia.
  rewrite <- !app_assoc. reflexivity.
Qed.
Lemma block_nf_region b : block_nf b = region_block (spec_pair (V2_ID, b)).
Proof. rewrite block_is_spec. unfold spec_write_block. cbn [map concat]. rewrite app_nil_r. reflexivity. Qed.

(* C11's checked primitives on concatenations whose parts have the lengths asked for *)
Lemma cle_enc w n r : 0 <= n < 256 ^ Z.of_nat w -> cle (Z.of_nat w) 0 (le_enc w n ++ r) = Ok n.
Proof.
  intros Hn. pose proof (zlen_nonneg r). rewrite cle_ok by (rewrite ?zlen_app, ?le_enc_zlen; lia).
  now rewrite (zslice_app_head (Z.of_nat w)), le_dec_enc by (assumption || apply le_enc_zlen).
Qed.
Lemma cle_enc8 n r : 0 <= n < 18446744073709551616 -> cle 8 0 (le_enc 8 n ++ r) = Ok n.
Proof. apply (cle_enc 8). Qed.
Lemma cle_enc4 n r : 0 <= n < 4294967296 -> cle 4 0 (le_enc 4 n ++ r) = Ok n.
Proof. apply (cle_enc 4). Qed.
Lemma cslice_mid p q a b c : zlen a = p -> zlen a + zlen b = q -> cslice p q (a ++ b ++ c) = Ok b.
Proof.
  intros Hp Hq. pose proof (zlen_nonneg a). pose proof (zlen_nonneg b). pose proof (zlen_nonneg c).
  rewrite cslice_ok by (rewrite ?zlen_app; lia). now rewrite (zslice_app_mid p q a b c).
Qed.
Lemma cslice_tail p q a b : zlen a = p -> zlen a + zlen b = q -> cslice p q (a ++ b) = Ok b.
Proof. intros Hp Hq. rewrite <- (app_nil_r b) at 1. now apply cslice_mid. Qed.
Lemma cslice_head q a b : zlen a = q -> cslice 0 q (a ++ b) = Ok a.
Proof. intros Hq. now apply (cslice_mid 0 q [] a b). Qed.

Lemma has_suffix_app x suf : has_suffix_b (x ++ suf) suf = true.
Proof.
  unfold has_suffix_b. rewrite zlen_app. pose proof (zlen_nonneg x). replace (zlen x + zlen suf <? zlen suf) with false by lia.
  replace (zlen x + zlen suf - zlen suf) with (zlen x) by lia. rewrite zdrop_app_exact.
  induction suf as [|c r IH]; [reflexivity|]. rewrite Z.eqb_refl. exact IH.
Qed.

Lemma gsb_region n sl dl P : zlen P + 24 < 18446744073709551616 -> 0 <= sl -> dl = sl + (zlen P + 32) -> dl - sl <= n ->
  gsb n sl dl (region_block P) = Ok (Some P).
Proof.
  intros Hb Hs -> Hn. pose proof (zlen_nonneg P) as H0.
  assert (LB : zlen (region_block P) = zlen P + 32) by (unfold region_block; autorewrite with apk_len; lia).
  unfold gsb. unfold apk_sb_unsigned, apk_sb_out_of_range, apk_sb_blob_len, apk_sb_too_short, apk_sb_expected, apk_sb_size1_off, apk_sb_size2_off,
    apk_sb_size_bad, apk_sb_pairs_lo, apk_sb_pairs_hi.
  replace (sl =? sl + (zlen P + 32)) with false by lia.
  replace ((sl <? 0) || (sl >? sl + (zlen P + 32))) with false by lia.
  unfold alloc, alloc_limit. replace (sl + (zlen P + 32) - sl <? 0) with false by lia.
  replace (64 * n + 1048576 <? sl + (zlen P + 32) - sl) with false by lia. cbn [bind].
  change apk_sb_checks_magic_suffix with true.
  replace (has_suffix_b (region_block P) apk_sig_magic) with true by (unfold region_block; rewrite !app_assoc; symmetry; apply has_suffix_app).
  cbn [negb andb]. rewrite zlen_magic. replace (zlen (region_block P) <? 8 + 8 + 16) with false by lia.
  rewrite cslice_ok, zslice_full by lia. cbn [bind]. rewrite LB. unfold region_block.
  rewrite cle_enc8 by lia. cbn [bind].
  rewrite (app_assoc _ P), cslice_tail by (autorewrite with apk_len; lia). cbn [bind].
  rewrite cle_enc8 by lia. cbn [bind].
  replace (negb (zlen P + 24 =? zlen P + 32 - 8) || negb (zlen P + 24 =? zlen P + 32 - 8)) with false by lia.
  rewrite <- app_assoc, cslice_mid by (rewrite ?zlen_le_enc8; lia). reflexivity.
Qed.

Lemma spec_pair_nonempty p : (0 < length (spec_pair p))%nat.
Proof. unfold spec_pair. rewrite app_length, le_enc_length. lia. Qed.

Lemma pairs_raw_pair p R k : pair_ok p -> pairs_raw (S k) (spec_pair p ++ R) = (r <- pairs_raw k R ;; Ok (p :: r)).
Proof.
  destruct p as [id v]. intros [Hid Hv]. cbn [fst snd] in Hid, Hv. pose proof (zlen_nonneg v). pose proof (zlen_nonneg R).
  unfold spec_pair. cbn [fst snd]. rewrite <- !app_assoc. cbn [pairs_raw].
  unfold apk_pair_more, apk_pair_short, apk_pair_after_size, apk_pair_size_bad, apk_pair_value_lo, apk_pair_value_hi, apk_pair_next.
  assert (LB : zlen (le_enc 8 (4 + zlen v) ++ le_enc 4 id ++ v ++ R) = 12 + zlen v + zlen R) by (autorewrite with apk_len; lia).
  rewrite LB. replace (12 + zlen v + zlen R >? 0) with true by lia. replace (12 + zlen v + zlen R <? 12) with false by lia.
  rewrite cle_enc8 by lia. cbn [bind].
  rewrite cslice_tail by (autorewrite with apk_len; lia). cbn [bind].
  assert (L1 : zlen (le_enc 4 id ++ v ++ R) = 4 + zlen v + zlen R) by (autorewrite with apk_len; lia).
  rewrite L1. replace ((4 + zlen v <? 4) || (4 + zlen v >? 4 + zlen v + zlen R)) with false by lia.
  rewrite cle_enc4 by lia. cbn [bind].
  rewrite cslice_mid by (rewrite ?zlen_le_enc4; lia). cbn [bind].
  rewrite (app_assoc (le_enc 4 id) v R), cslice_tail by (autorewrite with apk_len; lia). reflexivity.
Qed.
(* the fuel is measured in bytes, as relic's callers supply it; every pair uses up at least one *)
Lemma pairs_raw_spec ps : Forall pair_ok ps -> forall k, (length (concat (map spec_pair ps)) < k)%nat ->
  pairs_raw k (concat (map spec_pair ps)) = Ok ps.
Proof.
  induction 1 as [|p ps Hp Hps IH]; intros [|k] Hk; try lia; [reflexivity|]. cbn [map concat] in *.
  rewrite (pairs_raw_pair p _ k Hp), IH; [reflexivity|]. rewrite app_length in Hk. pose proof (spec_pair_nonempty p). lia.
Qed.

Lemma spec_block_region A P R s cd : zlen P + 24 < 18446744073709551616 -> zlen A = s -> cd = s + (zlen P + 32) ->
  spec_block (A ++ region_block P ++ R) cd = Block s P.
Proof.
  intros Hb <- Ecd. pose proof (zlen_nonneg P) as H0. pose proof (zlen_nonneg A) as HA.
  set (X := le_enc 8 (zlen P + 24)). assert (LX : zlen X = 8) by apply zlen_le_enc8.
  assert (DX : le_dec X = zlen P + 24) by (apply le_dec_enc8; lia).
  replace (A ++ region_block P ++ R) with (A ++ X ++ P ++ X ++ apk_sig_magic ++ R) by (unfold region_block; fold X; now rewrite <- !app_assoc).
  set (f := A ++ X ++ P ++ X ++ apk_sig_magic ++ R).
  assert (M : zslice (cd - 16) cd f = spec_magic).
  { unfold f. change spec_magic with apk_sig_magic. rewrite (app_assoc A), (app_assoc (A ++ X)), (app_assoc ((A ++ X) ++ P)).
    apply zslice_app_mid; rewrite ?zlen_app, ?LX, ?zlen_magic; lia. }
  assert (S2 : zslice (cd - 24) (cd - 16) f = X).
  { unfold f. rewrite (app_assoc A), (app_assoc (A ++ X)). apply zslice_app_mid; rewrite ?zlen_app, ?LX; lia. }
  assert (S1 : zslice (zlen A) (zlen A + 8) f = X) by (apply zslice_app_mid; lia).
  unfold spec_block. cbv zeta. replace (cd <? 32) with false by lia.
  rewrite M, bytes_eqb_refl, !S2, !DX. cbn [negb].
  replace ((zlen P + 24 <? 24) || (cd <? zlen P + 24 + 8)) with false by lia.
  replace (cd - (zlen P + 24) - 8) with (zlen A) by lia. rewrite S1, DX, Z.eqb_refl. cbn [negb].
  f_equal. unfold f. rewrite (app_assoc A). apply zslice_app_mid; rewrite ?zlen_app, ?LX; lia.
Qed.

Lemma spec_pairs_pair p R k : pair_ok p ->
  spec_pairs (S k) (spec_pair p ++ R) = match spec_pairs k R with Some r => Some (p :: r) | None => None end.
Proof.
  destruct p as [id v]. intros [Hid Hv]. cbn [fst snd] in Hid, Hv. pose proof (zlen_nonneg v). pose proof (zlen_nonneg R).
  unfold spec_pair. cbn [fst snd]. rewrite <- !app_assoc. set (l := le_enc 8 (4 + zlen v) ++ le_enc 4 id ++ v ++ R).
  assert (LB : zlen l = 12 + zlen v + zlen R) by (unfold l; autorewrite with apk_len; lia).
  cbn [spec_pairs]. rewrite LB. replace (12 + zlen v + zlen R =? 0) with false by lia. replace (12 + zlen v + zlen R <? 12) with false by lia.
  replace (ztake 8 l) with (le_enc 8 (4 + zlen v)) by (symmetry; apply ztake_app_len, zlen_le_enc8). rewrite le_dec_enc8 by lia.
  replace ((4 + zlen v <? 4) || (12 + zlen v + zlen R - 8 <? 4 + zlen v)) with false by lia.
  replace (zdrop (8 + (4 + zlen v)) l) with R
    by (unfold l; rewrite !app_assoc; symmetry; apply zdrop_app_len; autorewrite with apk_len; lia).
  replace (zslice 8 12 l) with (le_enc 4 id) by (symmetry; apply zslice_app_mid; rewrite ?zlen_le_enc8, ?zlen_le_enc4; lia).
  replace (zslice 12 (8 + (4 + zlen v)) l) with v
    by (unfold l; rewrite (app_assoc (le_enc 8 _)); symmetry; apply zslice_app_mid; autorewrite with apk_len; lia).
  rewrite le_dec_enc4 by lia. reflexivity.
Qed.
Lemma spec_pairs_spec ps : Forall pair_ok ps -> forall k, (length (concat (map spec_pair ps)) < k)%nat ->
  spec_pairs k (concat (map spec_pair ps)) = Some ps.
Proof.
  induction 1 as [|p ps Hp Hps IH]; intros [|k] Hk; try lia; [reflexivity|]. cbn [map concat] in *.
  rewrite (spec_pairs_pair p _ k Hp), IH; [reflexivity|]. rewrite app_length in Hk. pose proof (spec_pair_nonempty p). lia.
Qed.

(* the block with the v2 pair alone *)
Lemma pair_ok_v2 b : zlen b < 4611686018427387904 -> Forall pair_ok [(V2_ID, b)].
Proof. intros Hb. constructor; [|constructor]. split; [unfold V2_ID; cbn [fst]; lia|exact Hb]. Qed.
Lemma pairs_raw_single b : zlen b < 4611686018427387904 ->
  pairs_raw (S (length (spec_pair (V2_ID, b)))) (spec_pair (V2_ID, b)) = Ok [(apk_sig_v2_id, b)].
Proof. intros Hb. rewrite <- (app_nil_r (spec_pair _)). exact (pairs_raw_spec _ (pair_ok_v2 b Hb) _ (Nat.lt_succ_diag_r _)). Qed.
Lemma spec_pairs_single b : zlen b < 4611686018427387904 ->
  spec_pairs (S (length (spec_pair (V2_ID, b)))) (spec_pair (V2_ID, b)) = Some [(V2_ID, b)].
Proof. intros Hb. rewrite <- (app_nil_r (spec_pair _)). exact (spec_pairs_spec _ (pair_ok_v2 b Hb) _ (Nat.lt_succ_diag_r _)). Qed.
Lemma v2_values_single b : v2_values [(apk_sig_v2_id, b)] = [b].
Proof. unfold v2_values, apk_pair_other. cbn [filter fst]. rewrite Z.eqb_refl. reflexivity. Qed.
