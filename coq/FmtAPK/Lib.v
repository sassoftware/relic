(* FmtAPK/Lib.v — little-endian fields of the widths the ZIP and APK structures use; a few list facts. *)
From Relic Require Import Base.Prelude Base.Enc Base.Slice.

Lemma zslice_app_r {A} (a b : list A) p q : zlen a <= p -> zslice p q (a ++ b) = zslice (p - zlen a) (q - zlen a) b.
Proof. apply Slice.zslice_app_r. Qed.

Lemma zlen_concat_map {A} (f : A -> bytes) l : zlen (concat (map f l)) = fold_right (fun x s => zlen (f x) + s) 0 l.
Proof. induction l as [|x l IH]; cbn [map concat fold_right]; [reflexivity|]. rewrite zlen_app, IH. reflexivity. Qed.

Lemma app_inv_len {A} (a b c d : list A) : a ++ b = c ++ d -> zlen a = zlen c -> a = c /\ b = d.
Proof. apply Slice.app_inv_len. Qed.

Lemma zlen_eqb_0 {A} (l : list A) : l <> [] -> (zlen l =? 0) = false.
Proof. intros H. apply Z.eqb_neq. intros E. now apply H, zlen_0_nil. Qed.

Lemma zlen_le_enc4 n : zlen (le_enc 4 n) = 4. Proof. apply le_enc_zlen. Qed.
Lemma zlen_le_enc8 n : zlen (le_enc 8 n) = 8. Proof. apply le_enc_zlen. Qed.
Lemma zlen_le_enc2 n : zlen (le_enc 2 n) = 2. Proof. apply le_enc_zlen. Qed.

Lemma le_enc_inj w a b : 0 <= a < 256 ^ Z.of_nat w -> 0 <= b < 256 ^ Z.of_nat w -> le_enc w a = le_enc w b -> a = b.
Proof. intros Ha Hb H. rewrite <- (le_dec_enc w a Ha), <- (le_dec_enc w b Hb), H. reflexivity. Qed.
