(* FmtAPK/ProofsLaws.v — embed in normal form; the verifier's and the signer's view of a signed file; the format laws. *)
From Relic Require Import Base.Prelude Base.Enc Generated.C11_gen Generated.FmtAPK_gen FmtAPK.Model FmtAPK.Lib FmtAPK.ProofsZip FmtAPK.ProofsBlock Base.Slice.
From Relic Require C11.Model.
Import C11.Model.

Lemma fresh_end_len c s o : zlen (fresh_end c s o) = 22. Proof. reflexivity. Qed.
Lemma fresh_end_sig c s o : fld 0 4 (fresh_end c s o) = apk_z_end_sig. Proof. reflexivity. Qed.
Lemma fresh_end_total c s o : end_total (fresh_end c s o) = le_dec (le_enc 2 c). Proof. reflexivity. Qed.
Lemma fresh_end_size c s o : end_cdsize (fresh_end c s o) = le_dec (le_enc 4 s). Proof. reflexivity. Qed.
Lemma fresh_end_cdoff c s o : end_cdoff (fresh_end c s o) = le_dec (le_enc 4 o). Proof. reflexivity. Qed.
Lemma set_cdoff_fresh c s o v : set_cdoff (fresh_end c s o) v = fresh_end c s v. Proof. reflexivity. Qed.

Definition wd_ok (es : list cdent) (dl : Z) : Prop :=
  apk_z_wd_needs_zip64 (zlen es) (zlen (cdir_bytes es)) dl false = false /\ (min_version es =? apk_z_zip45) = false.
Definition fresh_for (es : list cdent) (dl : Z) : bytes := fresh_end (zlen es) (zlen (cdir_bytes es)) dl.

Lemma zlen_fresh_for es dl : zlen (fresh_for es dl) = 22. Proof. reflexivity. Qed.

Lemma wd_ok_bounds es dl : wd_ok es dl -> zlen es < 65535 /\ zlen (cdir_bytes es) < 4294967295 /\ dl < 4294967295.
Proof. intros [H _]. revert H. unfold apk_z_wd_needs_zip64. rewrite !orb_false_iff. unfold apk_z_u16max, apk_z_u32max. lia. Qed.

Lemma write_directory_inv es dl w : write_directory es dl false = Ok w -> wd_ok es dl /\ w = (cdir_bytes es, fresh_for es dl).
Proof.
  unfold write_directory, wd_ok, fresh_for, apk_z_wd_cdoff, apk_z_wd_zip64_branch. change apk_z_gdh_returns_raw with true.
  destruct (apk_z_wd_needs_zip64 (zlen es) (zlen (cdir_bytes es)) dl false) eqn:E1.
  - rewrite Z.eqb_refl. discriminate.
  - destruct (min_version es =? apk_z_zip45) eqn:E2; [discriminate|]. intros [= <-]. repeat split.
Qed.
Lemma write_directory_ok es dl : wd_ok es dl -> write_directory es dl false = Ok (cdir_bytes es, fresh_for es dl).
Proof.
  intros [E1 E2]. unfold write_directory, fresh_for, apk_z_wd_cdoff, apk_z_wd_zip64_branch. change apk_z_gdh_returns_raw with true.
  rewrite E1, E2. reflexivity.
Qed.

Lemma end_ok_fresh es dl : wd_ok es dl -> 0 <= dl -> end_ok (fresh_for es dl) dl.
Proof.
  intros Hw Hd. destruct (wd_ok_bounds _ _ Hw) as (B1 & B2 & B3). pose proof (zlen_nonneg es). pose proof (zlen_nonneg (cdir_bytes es)).
  unfold end_ok, fresh_for. rewrite fresh_end_len, fresh_end_sig, fresh_end_total, fresh_end_size, fresh_end_cdoff.
  rewrite le_dec_enc2, !le_dec_enc4 by lia. repeat split.
  unfold apk_z_fd_zip64, apk_z_u16max, apk_z_u32max. lia.
Qed.

(* the documentation's end record of a file whose record is the one WriteDirectory would write: everything fits, except
   that the 32-bit size field may have wrapped *)
Lemma spec_eocd_read f d : read_zip f = Ok d -> zd_end d = fresh_for (zd_files d) (zd_dirloc d) ->
  spec_eocd f = if le_dec (le_enc 4 (zlen (cdir_bytes (zd_files d)))) =? zlen (cdir_bytes (zd_files d))
                then Some (zd_dirloc d, zlen (cdir_bytes (zd_files d)), zd_end d) else None.
Proof.
  intros Er He. destruct (read_zip_inv _ _ Er) as (_ & Hd & Lf & _ & (_ & _ & _ & Off)). pose proof (zlen_nonneg (cdir_bytes (zd_files d))).
  unfold spec_eocd. cbv zeta. rewrite (read_zip_end _ _ Er). replace (zlen f <? 22) with false by lia.
  change (le_dec (zslice 16 20 (zd_end d))) with (end_cdoff (zd_end d)). rewrite Off.
  replace (le_dec (ztake 4 (zd_end d))) with 101010256 by (rewrite He; reflexivity).
  replace (le_dec (zslice 20 22 (zd_end d))) with 0 by (rewrite He; reflexivity).
  replace (le_dec (zslice 12 16 (zd_end d))) with (le_dec (le_enc 4 (zlen (cdir_bytes (zd_files d))))) by (rewrite He; reflexivity).
  cbn [Z.eqb Pos.eqb negb].
  destruct (le_dec (le_enc 4 _) =? _) eqn:E.
  - apply Z.eqb_eq in E. rewrite E. replace (zd_dirloc d + _ =? zlen f - 22) with true by lia. reflexivity.
  - replace (zd_dirloc d + _ =? zlen f - 22) with false by lia. reflexivity.
Qed.

Lemma finish_modified d dl ce : finish true d dl ce = if dl >=? 4294967296 then Err E_ZIP64 else write_directory (zd_files d) dl false.
Proof. reflexivity. Qed.
(* unmodified: GetOriginalDirectory(trim) moves the record's directory offset back by DirLoc - content end *)
Lemma finish_original d dl ce : fld 0 4 (zd_end d) = apk_z_end_sig ->
  finish false d dl ce =
    if dl >=? 4294967296 then Err E_ZIP64 else
    w <- write_directory (zd_files d) dl false ;;
    if (dl - ce <? 0) || (dl - ce >? 4294967295) then Err E_ORIG
    else Ok (fst w, set_cdoff (zd_end d) (end_cdoff (zd_end d) - (dl - ce))).
Proof.
  intros Sg. unfold finish. change apk_fin_original_when_unmodified with true. change apk_fin_trim with true. cbv iota.
  unfold get_original. cbn [zd_files zd_dirloc zd_end]. rewrite end_sig_fld, Sg. change (apk_z_go_new_zip apk_z_end_sig) with false.
  unfold apk_z_go_adjust_end. rewrite Z.eqb_refl, orb_true_r. reflexivity.
Qed.

Lemma hashin_sign_inv szs f s : hashin_sign szs f = Ok s ->
  exists d xs, read_zip f = Ok d /\ extents (zd_files d) szs = Ok xs /\ ordered 0 xs /\ ext_end 0 xs <= zlen f /\
    wd_ok (zd_files d) (ext_end 0 xs) /\
    s = (slices f xs, cdir_bytes (zd_files d), fresh_for (zd_files d) (ext_end 0 xs)).
Proof.
  unfold hashin_sign. change ds_redirects with true. change apk_ds_finish_modified with true. cbv iota. intros H.
  apply bind_ok in H as (d & Er & H). apply bind_ok in H as (xs & Ex & H). apply bind_ok in H as (s1 & Ed & H).
  rewrite nfo_eq, finish_modified in H. destruct (ext_end 0 xs >=? 4294967296); [discriminate|].
  apply bind_ok in H as (w & Ew & [= <-]). pose proof (zlen_nonneg f).
  destruct (dump_stream_ordered f 0 xs s1 ltac:(lia) Ed) as [Ho He]. destruct (write_directory_inv _ _ _ Ew) as [Hw ->].
  rewrite (dump_ok Stream f 0 xs) in Ed by (assumption || lia). injection Ed as <-. now exists d, xs.
Qed.
Lemma hashin_sign_ok szs f d xs : read_zip f = Ok d -> extents (zd_files d) szs = Ok xs -> ordered 0 xs -> ext_end 0 xs <= zlen f ->
  wd_ok (zd_files d) (ext_end 0 xs) ->
  hashin_sign szs f = Ok (slices f xs, cdir_bytes (zd_files d), fresh_for (zd_files d) (ext_end 0 xs)).
Proof.
  intros Er Ex Ho He Hw. unfold hashin_sign. change ds_redirects with true. change apk_ds_finish_modified with true. cbv iota.
  rewrite Er. cbn [bind]. rewrite Ex. cbn [bind]. rewrite (dump_ok Stream f 0 xs) by (assumption || lia). cbn [bind].
  rewrite nfo_eq, finish_modified, (write_directory_ok _ _ Hw). destruct (wd_ok_bounds _ _ Hw) as (_ & _ & B).
  replace (ext_end 0 xs >=? 4294967296) with false by lia. reflexivity.
Qed.

Lemma hashin_verify_eq szs g d xs : read_zip g = Ok d -> extents (zd_files d) szs = Ok xs ->
  hashin_verify szs g =
    (s1 <- dump_all Random g 0 xs ;;
     if zd_dirloc d >=? 4294967296 then Err E_ZIP64 else
     w <- write_directory (zd_files d) (zd_dirloc d) false ;;
     if (zd_dirloc d - ext_end 0 xs <? 0) || (zd_dirloc d - ext_end 0 xs >? 4294967295) then Err E_ORIG
     else Ok (s1, fst w, set_cdoff (zd_end d) (ext_end 0 xs))).
Proof.
  intros Er Ex. destruct (read_zip_inv _ _ Er) as (_ & _ & _ & _ & (_ & Sg & _ & Off)).
  unfold hashin_verify. rewrite Er. cbn [bind]. rewrite Ex. cbn [bind]. change apk_vf_finish_modified with false.
  rewrite nfo_eq, (finish_original _ _ _ Sg), Off. destruct (dump_all Random g 0 xs); cbn [bind]; try reflexivity.
  destruct (zd_dirloc d >=? 4294967296); [reflexivity|]. destruct (write_directory _ _ _); cbn [bind]; try reflexivity.
  destruct (_ || _); [reflexivity|]. cbn [bind fst snd]. do 3 f_equal. lia.
Qed.

Definition signed_nf (f : bytes) (d : zdir) (sl : Z) (b : bytes) : bytes :=
  ztake sl f ++ block_nf b ++ cdir_bytes (zd_files d) ++ fresh_for (zd_files d) (sl + (zlen b + 44)).

(* the inputs embed accepts: members in stream order, none past the directory, no ZIP64 needed before or after *)
Record embed_dom (szs : list Z) (f b : bytes) (d : zdir) (xs : list (Z * Z)) : Prop := mkDom {
  ed_read : read_zip f = Ok d;
  ed_ext : extents (zd_files d) szs = Ok xs;
  ed_ord : ordered 0 xs;
  ed_end : ext_end 0 xs <= zd_dirloc d;
  ed_wd : wd_ok (zd_files d) (ext_end 0 xs);
  ed_wd' : wd_ok (zd_files d) (ext_end 0 xs + (zlen b + 44));
  ed_len : zlen b < 4611686018427387904 }.

(* Apply on the two patches of Digest.Sign: the bytes between content end and directory become the block, the end record is replaced *)
Lemma splice_block f d sl B E : read_zip f = Ok d -> 0 <= sl -> zlen E = 22 ->
  splice f 0 [(sl, zd_dirloc d - sl, B); (zd_dirloc d + zlen (cdir_bytes (zd_files d)), zlen E, E)] =
  if zd_dirloc d <? sl then Err E_PATCH else Ok (ztake sl f ++ B ++ cdir_bytes (zd_files d) ++ E).
Proof.
  intros Er Hs LE. destruct (read_zip_inv _ _ Er) as (_ & Hd & Lf & _). pose proof (zlen_nonneg (cdir_bytes (zd_files d))).
  set (dl := zd_dirloc d) in *. set (C := cdir_bytes (zd_files d)) in *. cbn [splice]. rewrite LE.
  replace ((sl <? 0) || (dl - sl <? 0) || (zlen f <? sl + (dl - sl))) with (dl <? sl) by lia. destruct (dl <? sl) eqn:E1; [reflexivity|].
  replace ((dl + zlen C <? sl + (dl - sl)) || (22 <? 0) || (zlen f <? dl + zlen C + 22)) with false by lia. cbn [bind].
  rewrite zslice_0, (zdrop_all (dl + zlen C + 22) f), app_nil_r by lia.
  replace (sl + (dl - sl)) with dl by lia. unfold dl, C. rewrite (read_zip_cdir _ _ Er). reflexivity.
Qed.

Lemma embed_eq szs f b d xs s : hashin_sign szs f = Ok s -> read_zip f = Ok d -> extents (zd_files d) szs = Ok xs -> 0 <= ext_end 0 xs ->
  embed szs f b =
    if 4611686018427387904 <=? zlen b then Err E_OOM else
    _ <- write_directory (zd_files d) (ext_end 0 xs + (zlen b + 44)) false ;;
    if zd_dirloc d <? ext_end 0 xs then Err E_PATCH else Ok (signed_nf f d (ext_end 0 xs) b).
Proof.
  intros Eh Er Ex Hs. unfold embed. rewrite Eh, Er. cbn [bind]. rewrite Ex. cbn [bind].
  destruct (4611686018427387904 <=? zlen b); [reflexivity|]. change apk_sign_block_from_sblob with true. cbn [negb].
  rewrite nfo_eq, mk_sig_block_nf. unfold sign_patches, apk_new_dirloc. rewrite zlen_block_nf. change apk_sign_force_zip64 with false.
  destruct (write_directory _ _ false) as [w| |] eqn:Ew; cbn [bind]; try reflexivity.
  destruct (write_directory_inv _ _ _ Ew) as [_ ->]. cbn [fst snd].
  change (apk_p1_blob_is_block && apk_p2_blob_is_eod) with true. cbv iota. cbn [bind].
  unfold apk_p1_off, apk_p1_old, apk_p2_off, apk_p2_old. now apply splice_block.
Qed.

Lemma embed_inv szs f b g : embed szs f b = Ok g -> exists d xs, embed_dom szs f b d xs /\ g = signed_nf f d (ext_end 0 xs) b.
Proof.
  intros H. destruct (bind_ok _ _ _ H) as (s & Eh & _). destruct (hashin_sign_inv _ _ _ Eh) as (d & xs & Er & Ex & Ho & _ & Hw & _). pose proof (ordered_end _ _ Ho).
  rewrite (embed_eq _ _ _ _ _ _ Eh Er Ex) in H by assumption.
  destruct (4611686018427387904 <=? zlen b) eqn:Eb; [discriminate|].
  apply bind_ok in H as (w & Ew & H).
  destruct (zd_dirloc d <? ext_end 0 xs) eqn:Ed; [discriminate|]. apply Ok_inj in H.
  exists d, xs. split; [constructor; try assumption; try lia|now symmetry]. exact (proj1 (write_directory_inv _ _ _ Ew)).
Qed.

Lemma embed_ok szs f b d xs : embed_dom szs f b d xs -> embed szs f b = Ok (signed_nf f d (ext_end 0 xs) b).
Proof.
  intros [Er Ex Ho Hsl Hw Hw2 Hb]. destruct (read_zip_inv _ _ Er) as (_ & _ & Lf & _). pose proof (zlen_nonneg (cdir_bytes (zd_files d))).
  pose proof (ordered_end _ _ Ho).
  rewrite (embed_eq _ _ _ _ _ _ (hashin_sign_ok szs f d xs Er Ex Ho ltac:(lia) Hw) Er Ex), (write_directory_ok _ _ Hw2) by assumption.
  replace (4611686018427387904 <=? zlen b) with false by lia. replace (zd_dirloc d <? ext_end 0 xs) with false by lia. reflexivity.
Qed.

Lemma embed_inv_at szs f b g d xs : read_zip f = Ok d -> extents (zd_files d) szs = Ok xs -> embed szs f b = Ok g ->
  embed_dom szs f b d xs /\ g = signed_nf f d (ext_end 0 xs) b.
Proof.
  intros Er Ex H. destruct (embed_inv _ _ _ _ H) as (d' & xs' & D & Eg). destruct D as [Er' Ex' Ho Hsl Hw Hw2 Hb].
  rewrite Er in Er'. apply Ok_inj in Er'. subst d'. rewrite Ex in Ex'. apply Ok_inj in Ex'. subst xs'. split; [now constructor|exact Eg].
Qed.

Section Signed.
  Context {szs : list Z} {f b g : bytes} {d : zdir} {xs : list (Z * Z)}.
  Hypothesis D : embed_dom szs f b d xs.
  Hypothesis Eg : g = signed_nf f d (ext_end 0 xs) b.

  Lemma signed_bounds : 0 <= ext_end 0 xs <= zlen f.
  Proof.
    destruct D as [Er _ Ho Hsl _ _ _]. destruct (read_zip_inv _ _ Er) as (_ & _ & Lf & _).
    pose proof (ordered_end _ _ Ho). pose proof (zlen_nonneg (cdir_bytes (zd_files d))). lia.
  Qed.
  Lemma ztake_signed : ztake (ext_end 0 xs) g = ztake (ext_end 0 xs) f.
  Proof. rewrite Eg. apply ztake_app_len, zlen_ztake, signed_bounds. Qed.
  Lemma zlen_signed : zlen g = ext_end 0 xs + (zlen b + 44) + zlen (cdir_bytes (zd_files d)) + 22.
  Proof. rewrite Eg. unfold signed_nf. rewrite !zlen_app, zlen_ztake, zlen_block_nf, zlen_fresh_for by apply signed_bounds. lia. Qed.
  Lemma block_signed : zslice (ext_end 0 xs) (ext_end 0 xs + (zlen b + 44)) g = block_nf b.
  Proof. rewrite Eg. apply zslice_app_mid; rewrite zlen_ztake, ?zlen_block_nf by apply signed_bounds; reflexivity. Qed.

  Lemma read_zip_signed :
    read_zip g = Ok (mkZd (zd_files d) (ext_end 0 xs + (zlen b + 44)) (fresh_for (zd_files d) (ext_end 0 xs + (zlen b + 44)))).
  Proof.
    pose proof signed_bounds. pose proof (zlen_nonneg b). destruct D as [Er _ _ _ _ Hw2 _]. destruct (read_zip_inv _ _ Er) as (_ & _ & _ & Hc & _).
    rewrite Eg. unfold signed_nf. rewrite (app_assoc (ztake _ f) (block_nf b)).
    assert (Lp : zlen (ztake (ext_end 0 xs) f ++ block_nf b) = ext_end 0 xs + (zlen b + 44)) by (rewrite zlen_app, zlen_ztake, zlen_block_nf by lia; reflexivity).
    rewrite <- Lp. apply read_zip_build; [exact Hc|]. rewrite Lp. apply end_ok_fresh; [exact Hw2|lia].
  Qed.
  Lemma slices_signed : slices g xs = slices f xs.
  Proof. pose proof signed_bounds. apply (slices_agree (ext_end 0 xs) g f 0 xs); [lia|apply D|lia|apply ztake_signed]. Qed.
  Lemma hashin_sign_input : hashin_sign szs f = Ok (slices f xs, cdir_bytes (zd_files d), fresh_for (zd_files d) (ext_end 0 xs)).
  Proof. destruct D. apply hashin_sign_ok; try assumption. apply signed_bounds. Qed.

  (* C08 / C01: the signer's digest input of the signed file is that of the input *)
  Lemma law_hashin_sign_at : hashin_sign szs g = hashin_sign szs f.
  Proof.
    rewrite hashin_sign_input, <- slices_signed. pose proof signed_bounds. pose proof (zlen_nonneg b). pose proof (zlen_nonneg (cdir_bytes (zd_files d))).
    apply (hashin_sign_ok szs g _ xs read_zip_signed); cbn [zd_files]; try apply D. rewrite zlen_signed. lia.
  Qed.

  (* C01: the verifier recomputes exactly the bytes the signer digested (the end record's offset points at the block start) *)
  Lemma verify_convention_at : hashin_verify szs g = hashin_sign szs f.
  Proof.
    rewrite hashin_sign_input, <- slices_signed. pose proof signed_bounds. pose proof (zlen_nonneg b). pose proof (zlen_nonneg (cdir_bytes (zd_files d))).
    destruct D as [_ Ex Ho _ _ Hw2 _]. destruct (wd_ok_bounds _ _ Hw2) as (_ & _ & B).
    rewrite (hashin_verify_eq szs g _ xs read_zip_signed Ex). cbn [zd_files zd_dirloc zd_end].
    rewrite (dump_ok Random g 0 xs), (write_directory_ok _ _ Hw2) by (assumption || rewrite ?zlen_signed; lia). cbn [bind fst].
    replace (_ >=? 4294967296) with false by lia. replace (_ || _) with false by lia. reflexivity.
  Qed.

  (* C01: the verifier's locator finds exactly the embedded value (an archive without members is refused by getSigBlock) *)
  Lemma law_extract_at : zd_files d <> [] -> extract szs g = Ok (Some b).
  Proof.
    intros Hne. pose proof signed_bounds. pose proof (zlen_nonneg b). pose proof (zlen_nonneg (cdir_bytes (zd_files d))).
    pose proof (ed_len _ _ _ _ _ D).
    unfold extract, extract_all, locate. rewrite read_zip_signed. cbn [bind zd_files zd_dirloc]. unfold apk_sb_no_files.
    rewrite (zlen_eqb_0 _ Hne), (ed_ext _ _ _ _ _ D). cbn [bind]. rewrite nfo_eq. unfold apk_sb_read_at.
    rewrite block_signed, block_nf_region, gsb_region by (rewrite ?zlen_spec_pair, ?zlen_signed; lia). cbn [bind].
    rewrite pairs_raw_single by assumption. cbn [bind]. rewrite v2_values_single. reflexivity.
  Qed.

  (* C05 / C03: what the documentation's reader finds in the signed file *)
  Lemma spec_view :
    spec_read_pairs g = Some [(V2_ID, b)] /\
    spec_sections g = Some (ztake (ext_end 0 xs) f, cdir_bytes (zd_files d), fresh_for (zd_files d) (ext_end 0 xs)) /\
    spec_content_end g = Some (ext_end 0 xs).
  Proof.
    pose proof signed_bounds. pose proof (zlen_nonneg b). pose proof (zlen_nonneg (cdir_bytes (zd_files d))).
    pose proof (ed_len _ _ _ _ _ D). destruct (wd_ok_bounds _ _ (ed_wd' _ _ _ _ _ D)) as (_ & B & _).
    assert (Eo : spec_eocd g = Some (ext_end 0 xs + (zlen b + 44), zlen (cdir_bytes (zd_files d)), fresh_for (zd_files d) (ext_end 0 xs + (zlen b + 44)))).
    { rewrite (spec_eocd_read _ _ read_zip_signed eq_refl). cbn [zd_files zd_dirloc zd_end]. now rewrite le_dec_enc4, Z.eqb_refl by lia. }
    assert (Eblk : spec_block g (ext_end 0 xs + (zlen b + 44)) = Block (ext_end 0 xs) (spec_pair (V2_ID, b))).
    { rewrite Eg. unfold signed_nf. rewrite block_nf_region. apply spec_block_region; rewrite ?zlen_spec_pair, ?zlen_ztake; lia. }
    unfold spec_read_pairs, spec_sections, spec_content_end. rewrite Eo, Eblk. repeat split.
    - now apply spec_pairs_single.
    - rewrite ztake_signed. pose proof (read_zip_cdir _ _ read_zip_signed) as Ec. cbn [zd_files zd_dirloc] in Ec. rewrite Ec.
      change (ztake 16 ?e ++ le_enc 4 ?v ++ zdrop 20 ?e) with (set_cdoff e v). unfold fresh_for. now rewrite set_cdoff_fresh.
  Qed.
End Signed.

Lemma law_hashin_sign szs f b g : embed szs f b = Ok g -> hashin_sign szs g = hashin_sign szs f.
Proof. intros H. destruct (embed_inv _ _ _ _ H) as (d & xs & D & Eg). exact (law_hashin_sign_at D Eg). Qed.
Lemma verify_convention szs f b g : embed szs f b = Ok g -> hashin_verify szs g = hashin_sign szs f.
Proof. intros H. destruct (embed_inv _ _ _ _ H) as (d & xs & D & Eg). exact (verify_convention_at D Eg). Qed.
Lemma law_extract szs f b g : embed szs f b = Ok g -> forall d, read_zip f = Ok d -> zd_files d <> [] -> extract szs g = Ok (Some b).
Proof.
  intros H d Er Hne. destruct (embed_inv _ _ _ _ H) as (d' & xs & D & Eg). rewrite (ed_read _ _ _ _ _ D) in Er. apply Ok_inj in Er. subst d'.
  exact (law_extract_at D Eg Hne).
Qed.
