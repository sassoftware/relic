(* FmtAPK/ProofsZip.v — the ZIP layer as far as the APK code needs it: the directory walk, read_zip as a decomposition
   f = pre ++ directory ++ end record, member dumps. *)
From Relic Require Import Base.Prelude Base.Enc Generated.C11_gen Generated.FmtAPK_gen FmtAPK.Model FmtAPK.Lib Base.Slice.

Lemma fld_app_l off w (a b : bytes) : 0 <= off -> off + w <= zlen a -> fld off w (a ++ b) = fld off w a.
Proof. intros H1 H2. unfold fld. rewrite zslice_app_l by lia. reflexivity. Qed.

(* a central directory header as ReadWithDirectory accepts it, and a run of them with the entries they yield *)
Definition hdr_ok (H : bytes) : Prop :=
  46 <= zlen H /\ fld 0 4 H = apk_z_cdh_sig /\ hdr_len H = zlen H /\ hdr_saturated H = false.
Inductive cd_headers : bytes -> list cdent -> Prop :=
| cdh_nil : cd_headers [] []
| cdh_cons H C es : hdr_ok H -> cd_headers C es -> cd_headers (H ++ C) (mkCd H (hdr_off H) (hdr_rv H) :: es).

Lemma hdr_fields_app H X : 46 <= zlen H ->
  hdr_fn (H ++ X) = hdr_fn H /\ hdr_ex (H ++ X) = hdr_ex H /\ hdr_cm (H ++ X) = hdr_cm H /\ hdr_off (H ++ X) = hdr_off H /\
  hdr_rv (H ++ X) = hdr_rv H /\ hdr_saturated (H ++ X) = hdr_saturated H /\ fld 0 4 (H ++ X) = fld 0 4 H /\ hdr_len (H ++ X) = hdr_len H.
Proof.
  intros L. unfold hdr_len, hdr_saturated, hdr_fn, hdr_ex, hdr_cm, hdr_off, hdr_rv.
  (* every field lies inside the fixed 46 bytes: checked by evaluation on the generated offsets *)
  assert (F : forall off w, (0 <=? off) && (off + w <=? 46) = true -> fld off w (H ++ X) = fld off w H) by (intros off w C; apply fld_app_l; lia).
  rewrite !F by reflexivity. repeat split; reflexivity.
Qed.

Lemma cd_headers_bytes C es : cd_headers C es -> C = cdir_bytes es.
Proof. induction 1 as [|H C es Hh Hc IH]; [reflexivity|]. unfold cdir_bytes in *. cbn [map concat cd_raw]. now rewrite <- IH. Qed.
Lemma cd_headers_count C es : cd_headers C es -> (length es <= length C)%nat.
Proof.
  induction 1 as [|H C es [L _] Hc IH]; [cbn; lia|]. cbn [length]. rewrite app_length. unfold zlen in L. lia.
Qed.

Lemma walk_header k H rest : hdr_ok H ->
  walk (S k) (H ++ rest) = (r <- walk k rest ;; Ok (mkCd H (hdr_off H) (hdr_rv H) :: fst r, snd r)).
Proof.
  intros (L & Sg & Hl & Sat). destruct (hdr_fields_app H rest L) as (Efn & Eex & Ecm & Eoff & Erv & Esat & Esig & Elen).
  cbn [walk]. rewrite Efn, Eex, Ecm, Eoff, Erv, Esat, Esig, Elen, Sg, Sat, Hl, Z.eqb_refl, zdrop_app_exact, ztake_app_exact.
  unfold apk_z_rw_short, apk_z_rw_hdr_short, apk_z_rw_entry_short, apk_z_cdh_len. unfold hdr_len, apk_z_cdh_len in Hl.
  rewrite zlen_app. pose proof (zlen_nonneg rest).
  replace (zlen H + zlen rest <? 4) with false by lia. replace (zlen H + zlen rest <? 46) with false by lia.
  replace (zlen H + zlen rest <? 46 + hdr_fn H + hdr_ex H + hdr_cm H) with false by lia. replace (zlen H <? 46) with false by lia.
  reflexivity.
Qed.
Lemma walk_stop k e : 4 <= zlen e -> (fld 0 4 e =? apk_z_cdh_sig) = false -> walk (S k) e = Ok ([], e).
Proof. intros Le Se. cbn [walk]. unfold apk_z_rw_short. replace (zlen e <? 4) with false by lia. rewrite Se. reflexivity. Qed.

Lemma walk_build C es : cd_headers C es -> forall e k, 4 <= zlen e -> (fld 0 4 e =? apk_z_cdh_sig) = false -> (length es < k)%nat ->
  walk k (C ++ e) = Ok (es, e).
Proof.
  induction 1 as [|H C es Hh Hc IH]; intros e [|k] Le Se Hk; cbn [length] in Hk; try lia.
  - apply walk_stop; assumption.
  - rewrite <- app_assoc, (walk_header k H _ Hh), (IH e k Le Se) by lia. reflexivity.
Qed.

Lemma walk_inv k : forall cd es e, walk k cd = Ok (es, e) ->
  exists C, cd = C ++ e /\ cd_headers C es /\ 4 <= zlen e /\ (fld 0 4 e =? apk_z_cdh_sig) = false.
Proof.
  induction k as [|k IH]; intros cd es e Hw; [discriminate|].
  cbn [walk] in Hw. unfold apk_z_rw_short, apk_z_rw_stops_at_other_sig, apk_z_rw_hdr_short, apk_z_rw_entry_short in Hw.
  destruct (zlen cd <? 4) eqn:E1; [discriminate|]. cbn [andb] in Hw.
  destruct (fld 0 4 cd =? apk_z_cdh_sig) eqn:E2; cbn [negb] in Hw.
  - destruct (zlen cd <? 46) eqn:E3; [discriminate|].
    destruct (zlen cd <? 46 + hdr_fn cd + hdr_ex cd + hdr_cm cd) eqn:E4; [discriminate|].
    destruct (hdr_saturated cd) eqn:E5; [discriminate|].
    destruct (hdr_len cd <? apk_z_cdh_len) eqn:E6; [discriminate|]. unfold apk_z_cdh_len in E6.
    apply bind_ok in Hw as ([es' e'] & Hr & Hw). cbn [fst snd] in Hw. injection Hw as <- <-.
    destruct (IH _ _ _ Hr) as (C & Ec & Hc & Le & Se).
    (* cd = H ++ C ++ e' with H a header: the guards say so of cd, and the accessors read only H *)
    assert (Hlen : hdr_len cd = 46 + hdr_fn cd + hdr_ex cd + hdr_cm cd) by reflexivity.
    set (H := ztake (hdr_len cd) cd) in *.
    assert (LH : zlen H = hdr_len cd) by (apply zlen_ztake; lia).
    assert (Ecd : cd = H ++ C ++ e') by (rewrite <- Ec; symmetry; apply ztake_zdrop).
    destruct (hdr_fields_app H (C ++ e') ltac:(lia)) as (_ & _ & _ & Eoff & Erv & Esat & Esig & Elen). rewrite <- Ecd in *.
    exists (H ++ C). rewrite <- app_assoc, Eoff, Erv. repeat split; try assumption.
    constructor; [|exact Hc]. repeat split; [lia|apply Z.eqb_eq; congruence|congruence|congruence].
  - injection Hw as <- <-. exists []. repeat split; [constructor|lia|exact E2].
Qed.

Definition end_ok (e : bytes) (dirloc : Z) : Prop :=
  zlen e = 22 /\ fld 0 4 e = apk_z_end_sig /\ apk_z_fd_zip64 (end_total e) (end_cdsize e) (end_cdoff e) = false /\ end_cdoff e = dirloc.

Lemma end_sig_fld e : end_sig e = fld 0 4 e.
Proof. reflexivity. Qed.

Lemma read_zip_inv f d : read_zip f = Ok d ->
  f = ztake (zd_dirloc d) f ++ cdir_bytes (zd_files d) ++ zd_end d /\ 0 <= zd_dirloc d /\
  zlen f = zd_dirloc d + zlen (cdir_bytes (zd_files d)) + 22 /\
  cd_headers (cdir_bytes (zd_files d)) (zd_files d) /\ end_ok (zd_end d) (zd_dirloc d).
Proof.
  unfold read_zip, find_directory. unfold apk_z_fd_pos, apk_z_loc64_len, apk_z_end_len, apk_z_fd_bad_sig, apk_z_loc_oob, apk_z_rw_dirloc.
  replace (zlen f - 22 - 20 + 20) with (zlen f - 22) by lia. set (e0 := zdrop (zlen f - 22) f). rewrite end_sig_fld.
  destruct (zlen f <? 22) eqn:E0; [discriminate|].
  destruct (fld 0 4 e0 =? apk_z_end_sig) eqn:E1; [|discriminate].
  destruct (apk_z_fd_zip64 (end_total e0) (end_cdsize e0) (end_cdoff e0)) eqn:E2; [discriminate|].
  cbn [negb bind]. set (loc := end_cdoff e0).
  destruct ((loc <? 0) || (loc >? zlen f)) eqn:E3; [discriminate|].
  set (cd := zdrop loc f).
  destruct (walk (S (length cd)) cd) as [[es rem]| |] eqn:Hw; cbn [bind fst snd]; try discriminate.
  destruct (fld 0 4 rem =? apk_z_end64_sig); [discriminate|].
  destruct (negb (fld 0 4 rem =? apk_z_end_sig)); [discriminate|].
  destruct (negb (zlen rem =? 22)) eqn:E6; [discriminate|].
  intros [= <-]. cbn [zd_dirloc zd_files zd_end].
  destruct (walk_inv _ _ _ _ Hw) as (C & Ec & Hc & _ & _). pose proof (cd_headers_bytes _ _ Hc). subst C.
  assert (Lcd : zlen cd = zlen f - loc) by (apply zlen_zdrop; lia).
  assert (Lf : zlen cd = zlen (cdir_bytes es) + zlen rem) by (rewrite Ec; apply zlen_app).
  replace (zlen f - zlen cd) with loc by lia.
  assert (Ef : f = ztake loc f ++ cdir_bytes es ++ rem) by (rewrite <- Ec; symmetry; apply ztake_zdrop).
  (* the record after the entries is the one FindDirectory read: both are the last 22 bytes *)
  assert (Erem : rem = e0).
  { unfold e0. rewrite Ef at 2. rewrite app_assoc. symmetry. apply zdrop_app_len. rewrite zlen_app, zlen_ztake; lia. }
  subst rem. repeat split; try assumption; lia.
Qed.

Lemma read_zip_dirloc f d : read_zip f = Ok d -> 0 <= zd_dirloc d <= zlen f.
Proof. intros Er. destruct (read_zip_inv _ _ Er) as (_ & Hd & Lf & _). pose proof (zlen_nonneg (cdir_bytes (zd_files d))). lia. Qed.
Lemma read_zip_end f d : read_zip f = Ok d -> zdrop (zlen f - 22) f = zd_end d.
Proof.
  intros Er. destruct (read_zip_inv _ _ Er) as (Ef & Hd & Lf & _). pose proof (zlen_nonneg (cdir_bytes (zd_files d))).
  rewrite Ef at 2. rewrite app_assoc. apply zdrop_app_len. rewrite zlen_app, zlen_ztake; lia.
Qed.
Lemma read_zip_cdir f d : read_zip f = Ok d ->
  zslice (zd_dirloc d) (zd_dirloc d + zlen (cdir_bytes (zd_files d))) f = cdir_bytes (zd_files d).
Proof.
  intros Er. destruct (read_zip_inv _ _ Er) as (Ef & Hd & Lf & _). pose proof (zlen_nonneg (cdir_bytes (zd_files d))).
  rewrite Ef at 1. apply zslice_app_mid; rewrite zlen_ztake; lia.
Qed.

Lemma read_zip_build pre es e : cd_headers (cdir_bytes es) es -> end_ok e (zlen pre) ->
  read_zip (pre ++ cdir_bytes es ++ e) = Ok (mkZd es (zlen pre) e).
Proof.
  intros Hc (Le & Sg & Z64 & Off). set (C := cdir_bytes es) in *. set (f := pre ++ C ++ e).
  assert (Lf : zlen f = zlen pre + zlen C + 22) by (unfold f; rewrite !zlen_app; lia).
  pose proof (zlen_nonneg pre). pose proof (zlen_nonneg C).
  unfold read_zip, find_directory. unfold apk_z_fd_pos, apk_z_loc64_len, apk_z_end_len, apk_z_fd_bad_sig, apk_z_loc_oob, apk_z_rw_dirloc.
  replace (zlen f - 22 - 20 + 20) with (zlen f - 22) by lia.
  assert (E0 : zdrop (zlen f - 22) f = e) by (unfold f; rewrite app_assoc; apply zdrop_app_len; rewrite !zlen_app; lia).
  rewrite E0, end_sig_fld, Sg, Z.eqb_refl, Z64, Off. replace (zlen f <? 22) with false by lia. cbn [negb bind].
  replace ((zlen pre <? 0) || (zlen pre >? zlen f)) with false by lia.
  replace (zdrop (zlen pre) f) with (C ++ e) by (symmetry; apply zdrop_app_exact).
  rewrite (walk_build C es Hc e); [|lia|rewrite Sg; reflexivity|pose proof (cd_headers_count _ _ Hc); rewrite app_length; lia].
  cbn [bind fst snd]. rewrite Sg, Z.eqb_refl. change (apk_z_end_sig =? apk_z_end64_sig) with false. cbn [negb].
  replace (zlen e =? 22) with true by lia. cbn [negb]. do 2 f_equal. rewrite zlen_app. lia.
Qed.

Lemma extents_length es szs xs : extents es szs = Ok xs -> length xs = length es.
Proof.
  revert szs xs. induction es as [|e es IH]; intros [|s szs] xs H; cbn [extents] in H; try discriminate.
  - injection H as <-. reflexivity.
  - apply bind_ok in H as (r & E & [= <-]). cbn [length]. f_equal. eapply IH. exact E.
Qed.

Lemma nfo_eq xs : next_file_offset xs = ext_end 0 xs.
Proof.
  unfold next_file_offset, apk_z_nfo_empty. change (apk_z_nfo_last_end && apk_z_nfo_uses_last) with true. cbv iota.
  destruct xs as [|x r]; [reflexivity|]. now rewrite zlen_eqb_0.
Qed.

(* every extent lies in [pos, ext_end], in order: what a successful streamed dump establishes *)
Fixpoint ordered (pos : Z) (xs : list (Z * Z)) : Prop :=
  match xs with [] => True | (o, s) :: r => pos <= o /\ 0 <= s /\ ordered (o + s) r end.
Lemma ordered_end pos xs : ordered pos xs -> pos <= ext_end pos xs.
Proof.
  revert pos. induction xs as [|[o s] r IH]; intros pos H; cbn [ext_end]; [lia|].
  destruct H as (H1 & H2 & H3). specialize (IH _ H3). lia.
Qed.
Lemma dump_stream_ordered f pos xs s1 : 0 <= pos <= zlen f -> dump_all Stream f pos xs = Ok s1 -> ordered pos xs /\ ext_end pos xs <= zlen f.
Proof.
  revert pos s1. induction xs as [|[o s] r IH]; intros pos s1 Hp H; cbn [dump_all ordered ext_end] in *.
  - split; [exact I|lia].
  - destruct ((o <? 0) || (s <? 0) || (zlen f <? o + s)) eqn:E1; [discriminate|].
    destruct (o <? pos) eqn:E2; [discriminate|].
    apply bind_ok in H as (rest & E3 & _).
    destruct (IH (o + s) rest ltac:(lia) E3) as [H1 H2]. repeat split; try lia; assumption.
Qed.

Definition slices (f : bytes) (xs : list (Z * Z)) : bytes := concat (map (fun x => zslice (fst x) (fst x + snd x) f) xs).
Lemma dump_ok m f pos xs : 0 <= pos -> ordered pos xs -> ext_end pos xs <= zlen f -> dump_all m f pos xs = Ok (slices f xs).
Proof.
  revert pos. induction xs as [|[o s] r IH]; intros pos Hp Ho He; cbn [dump_all ordered ext_end slices map concat fst snd] in *; [reflexivity|].
  destruct Ho as (H1 & H2 & H3). pose proof (ordered_end _ _ H3).
  replace ((o <? 0) || (s <? 0) || (zlen f <? o + s)) with false by lia.
  replace (match m with Stream => o <? pos | Random => false end) with false by (destruct m; lia).
  rewrite (IH (o + s)) by (try assumption; lia). reflexivity.
Qed.
Lemma slices_agree n f f' pos xs : 0 <= pos -> ordered pos xs -> ext_end pos xs <= n -> ztake n f = ztake n f' -> slices f xs = slices f' xs.
Proof.
  revert pos. induction xs as [|[o s] r IH]; intros pos Hp Ho He Ha; cbn [ordered ext_end slices map concat fst snd] in *; [reflexivity|].
  destruct Ho as (H1 & H2 & H3). pose proof (ordered_end _ _ H3). f_equal.
  - rewrite <- (zslice_ztake o (o + s) n f), <- (zslice_ztake o (o + s) n f') by lia. now rewrite Ha.
  - apply (IH (o + s)); try assumption; lia.
Qed.
(* members back to back from pos *)
Fixpoint contig (pos : Z) (xs : list (Z * Z)) : Prop :=
  match xs with [] => True | (o, s) :: r => o = pos /\ 0 <= s /\ contig (o + s) r end.
Lemma contig_ordered pos xs : contig pos xs -> ordered pos xs.
Proof. revert pos. induction xs as [|[o s] r IH]; intros pos H; cbn [contig ordered] in *; [exact I|]. destruct H as (-> & H2 & H3). repeat split; try lia. apply IH. exact H3. Qed.
Lemma slices_contig f pos xs : 0 <= pos -> contig pos xs -> ext_end pos xs <= zlen f -> slices f xs = zslice pos (ext_end pos xs) f.
Proof.
  revert pos. induction xs as [|[o s] r IH]; intros pos Hp Hc He; cbn [contig ext_end slices map concat fst snd] in *.
  - unfold zslice. rewrite Z.sub_diag. reflexivity.
  - destruct Hc as (-> & H2 & H3). pose proof (ordered_end _ _ (contig_ordered _ _ H3)).
    fold (slices f r). rewrite (IH (pos + s)) by (try assumption; lia). symmetry. apply zslice_split; lia.
Qed.
