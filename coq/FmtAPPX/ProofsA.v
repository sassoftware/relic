(* FmtAPPX/ProofsA.v — the digest blob (marshal / parse / spec reader) and the tee underneath the inflater. *)
From Relic Require Import Base.Prelude Base.Enc Base.Slice Generated.C17_gen C17.Model Generated.FmtAPPX_gen FmtAPPX.Model.
From Relic Require Generated.C09_gen C09.Model.

Lemma zlen_ztake_min {A} n (l : list A) : 0 <= n -> zlen (ztake n l) = Z.min n (zlen l).
Proof. apply Slice.zlen_ztake_min. Qed.

Lemma has_prefix_split p l : has_prefix p l = true -> l = p ++ zdrop (zlen p) l.
Proof. unfold has_prefix. intros H. apply bytes_eqb_eq in H. rewrite <- H at 1. symmetry. apply ztake_zdrop. Qed.
Lemma has_prefix_len p l : has_prefix p l = true -> zlen p <= zlen l.
Proof. intros H. rewrite (has_prefix_split p l H), zlen_app. pose proof (zlen_nonneg (zdrop (zlen p) l)). lia. Qed.
Lemma has_prefix_app p r : has_prefix p (p ++ r) = true.
Proof. unfold has_prefix. rewrite ztake_app_exact. apply bytes_eqb_refl. Qed.

Lemma cslice_ok lo hi l : 0 <= lo <= hi -> hi <= zlen l -> cslice lo hi l = Ok (zslice lo hi l).
Proof.
  intros H1 H2. unfold cslice. replace (hi =? -1) with false by lia.
  now replace ((0 <=? lo) && (lo <=? hi) && (hi <=? zlen l)) with true by lia.
Qed.
Lemma cslice_open lo l : 0 <= lo <= zlen l -> cslice lo (-1) l = Ok (zdrop lo l).
Proof.
  intros H. unfold cslice. cbn [Z.eqb Pos.eqb]. rewrite zslice_to_end.
  now replace ((0 <=? lo) && (lo <=? zlen l) && (zlen l <=? zlen l)) with true by lia.
Qed.

Lemma blob_marshal_eq axpc axcd axct axbm axci :
  blob_marshal axpc axcd axct axbm axci =
  T_APPX ++ T_AXPC ++ axpc ++ T_AXCD ++ axcd ++ T_AXCT ++ axct ++ T_AXBM ++ axbm ++ (if zlen axci =? 0 then [] else T_AXCI ++ axci).
Proof.
  unfold blob_marshal, appx_blob_program. cbn [map concat blob_item blob_src hd Z.eqb andb negb].
  unfold appx_blob_axci_present. destruct (zlen axci =? 0); cbn [negb andb Z.eqb blob_src hd];
    rewrite ?app_nil_r; repeat rewrite <- app_assoc; reflexivity.
Qed.

(* a record of the blob: 4-byte tag, hs-byte value *)
Definition rec_ok (hs : Z) (r : bytes * bytes) : Prop := zlen (fst r) = 4 /\ zlen (snd r) = hs.
Definition rec_bytes (r : bytes * bytes) : bytes := fst r ++ snd r.
Definition canon_records (axpc axcd axct axbm axci : bytes) : list (bytes * bytes) :=
  [(T_AXPC, axpc); (T_AXCD, axcd); (T_AXCT, axct); (T_AXBM, axbm)] ++ (if zlen axci =? 0 then [] else [(T_AXCI, axci)]).

Lemma blob_marshal_canon axpc axcd axct axbm axci :
  blob_marshal axpc axcd axct axbm axci = T_APPX ++ concat (map rec_bytes (canon_records axpc axcd axct axbm axci)).
Proof.
  rewrite blob_marshal_eq. unfold canon_records. destruct (zlen axci =? 0); cbn [app map concat rec_bytes fst snd];
    rewrite ?app_nil_r; repeat rewrite <- app_assoc; reflexivity.
Qed.
Lemma canon_records_ok hs axpc axcd axct axbm axci :
  zlen axpc = hs -> zlen axcd = hs -> zlen axct = hs -> zlen axbm = hs -> (zlen axci = 0 \/ zlen axci = hs) ->
  Forall (rec_ok hs) (canon_records axpc axcd axct axbm axci).
Proof.
  intros H1 H2 H3 H4 H5. unfold canon_records. destruct (Z.eqb_spec (zlen axci) 0); repeat constructor; cbn [fst snd]; lia.
Qed.
Lemma canon_lookup axpc axcd axct axbm axci : let m := canon_records axpc axcd axct axbm axci in
  dm_get T_AXPC m = Some axpc /\ dm_get T_AXCD m = Some axcd /\ dm_get T_AXCT m = Some axct /\ dm_get T_AXBM m = Some axbm /\
  dm_get T_AXCI m = (if zlen axci =? 0 then None else Some axci).
Proof.
  unfold canon_records, dm_get. change appx_parse_map_last_wins with true. cbn iota.
  destruct (zlen axci =? 0); cbn; repeat split; reflexivity.
Qed.

Lemma record_slices {A} hs (t v rest : list A) : zlen t = 4 -> zlen v = hs ->
  ztake 4 (t ++ v ++ rest) = t /\ zslice 4 (4 + hs) (t ++ v ++ rest) = v /\ zdrop (4 + hs) (t ++ v ++ rest) = rest.
Proof.
  intros Ht Hv. split; [now apply ztake_app_len|]. split; [apply zslice_app_mid; lia|].
  rewrite app_assoc. apply zdrop_app_len. rewrite zlen_app. lia.
Qed.

(* one turn of readSignature's loop *)
Lemma blob_loop_S k hs d acc : 0 <= hs ->
  blob_loop (S k) hs d acc =
  if zlen d =? 0 then Ok acc else if zlen d <? 4 + hs then Err AE_BADSIG
  else blob_loop k hs (zdrop (4 + hs) d) (acc ++ [(ztake 4 d, zslice 4 (4 + hs) d)]).
Proof.
  intros Hh. pose proof (zlen_nonneg d). cbn [blob_loop].
  unfold appx_parse_more, appx_parse_short, appx_parse_name_lo, appx_parse_name_hi, appx_parse_value_lo, appx_parse_value_hi,
    appx_parse_next_lo, appx_parse_next_hi.
  destruct (Z.eqb_spec (zlen d) 0) as [->|]; [reflexivity|]. replace (zlen d >? 0) with true by lia. cbn [negb].
  destruct (Z.ltb_spec (zlen d) (4 + hs)); [reflexivity|].
  rewrite (cslice_ok 0 4), (cslice_ok 4 (4 + hs)), cslice_open by lia. cbn [bind]. now rewrite zslice_0.
Qed.

Lemma blob_loop_records hs : 0 <= hs -> forall recs acc fuel, Forall (rec_ok hs) recs ->
  (length (concat (map rec_bytes recs)) < fuel)%nat ->
  blob_loop fuel hs (concat (map rec_bytes recs)) acc = Ok (acc ++ recs).
Proof.
  intros Hh. induction recs as [|[t v] r IH]; intros acc [|k] Hok Hf; try (cbn in Hf; lia).
  - rewrite app_nil_r. reflexivity.
  - apply Forall_cons_iff in Hok as [[Ht Hv] Hr]. cbn [fst snd] in Ht, Hv.
    cbn [map concat] in *. unfold rec_bytes at 1 in Hf. unfold rec_bytes at 1. cbn [fst snd] in *. rewrite <- app_assoc in *.
    destruct (record_slices hs t v (concat (map rec_bytes r)) Ht Hv) as (E1 & E2 & E3).
    rewrite blob_loop_S, E1, E2, E3 by assumption. pose proof (zlen_nonneg (concat (map rec_bytes r))).
    replace (zlen (t ++ v ++ concat (map rec_bytes r)) =? 0) with false by (rewrite !zlen_app; lia).
    replace (zlen (t ++ v ++ concat (map rec_bytes r)) <? 4 + hs) with false by (rewrite !zlen_app; lia).
    rewrite IH, <- app_assoc; [reflexivity|assumption|]. rewrite !app_length in Hf. unfold zlen in Ht. lia.
Qed.

Lemma blob_parse_records hs recs : 0 <= hs -> Forall (rec_ok hs) recs ->
  blob_parse hs (T_APPX ++ concat (map rec_bytes recs)) = Ok recs.
Proof.
  intros Hh Hok. unfold blob_parse. change appx_parse_magic with T_APPX. rewrite has_prefix_app. cbn [negb].
  unfold appx_parse_magic_skip_lo, appx_parse_magic_skip_hi.
  rewrite cslice_open by (rewrite zlen_app; pose proof (zlen_nonneg (concat (map rec_bytes recs))); change (zlen T_APPX) with 4; lia).
  cbn [bind]. rewrite (zdrop_app_len 4) by reflexivity. apply (blob_loop_records hs Hh recs []); [assumption|lia].
Qed.

Lemma blob_roundtrip hs axpc axcd axct axbm axci :
  0 <= hs -> zlen axpc = hs -> zlen axcd = hs -> zlen axct = hs -> zlen axbm = hs -> (zlen axci = 0 \/ zlen axci = hs) ->
  blob_parse hs (blob_marshal axpc axcd axct axbm axci) = Ok (canon_records axpc axcd axct axbm axci).
Proof. intros. rewrite blob_marshal_canon. apply blob_parse_records; [assumption|]. now apply canon_records_ok. Qed.

(* readSignature returns the records or "invalid appx signature": it never slices out of range and never runs out of fuel *)
Lemma blob_loop_total hs : 0 <= hs -> forall fuel d acc, (length d < fuel)%nat ->
  blob_loop fuel hs d acc = Err AE_BADSIG \/ exists m, blob_loop fuel hs d acc = Ok m.
Proof.
  intros Hh. induction fuel as [|k IH]; intros d acc Hf; [lia|]. rewrite blob_loop_S by assumption.
  destruct (Z.eqb_spec (zlen d) 0); [eauto|]. destruct (Z.ltb_spec (zlen d) (4 + hs)); [auto|].
  apply IH. unfold zdrop. rewrite skipn_length. unfold zlen in *. lia.
Qed.
Lemma blob_parse_total hs d : 0 <= hs -> blob_parse hs d = Err AE_BADSIG \/ exists m, blob_parse hs d = Ok m.
Proof.
  intros Hh. unfold blob_parse. destruct (has_prefix appx_parse_magic d) eqn:Hp; cbn [negb]; [|auto].
  apply has_prefix_len in Hp. change (zlen appx_parse_magic) with 4 in Hp.
  unfold appx_parse_magic_skip_lo, appx_parse_magic_skip_hi. rewrite cslice_open by lia. cbn [bind].
  apply blob_loop_total; [assumption|lia].
Qed.

Lemma spec_records_nil hs d : spec_records hs [] d = Some ([], d).
Proof. reflexivity. Qed.
Lemma spec_records_one hs t v rest : 0 <= hs -> zlen t = 4 -> zlen v = hs ->
  forall ts, spec_records hs (t :: ts) (t ++ v ++ rest) =
             match spec_records hs ts rest with Some (vs, r) => Some (v :: vs, r) | None => None end.
Proof.
  intros Hh Ht Hv ts. cbn [spec_records]. rewrite has_prefix_app.
  replace (4 + hs <=? zlen (t ++ v ++ rest)) with true by (rewrite !zlen_app; pose proof (zlen_nonneg rest); lia).
  destruct (record_slices hs t v rest Ht Hv) as (_ & -> & ->). reflexivity.
Qed.

Lemma spec_blob_marshal hs axpc axcd axct axbm axci :
  0 <= hs -> zlen axpc = hs -> zlen axcd = hs -> zlen axct = hs -> zlen axbm = hs -> (zlen axci = 0 \/ zlen axci = hs) ->
  spec_blob hs (blob_marshal axpc axcd axct axbm axci) = Some (mkDg axpc axcd axct axbm (if zlen axci =? 0 then None else Some axci)).
Proof.
  intros Hh H1 H2 H3 H4 H5. rewrite blob_marshal_eq. unfold spec_blob.
  rewrite has_prefix_app, (zdrop_app_len 4) by reflexivity. cbn [negb].
  rewrite !spec_records_one, spec_records_nil by (try reflexivity; assumption).
  destruct (Z.eqb_spec (zlen axci) 0); [reflexivity|].
  (* the reader asks whether anything follows the four records before it looks for AXCI *)
  destruct (T_AXCI ++ axci) eqn:E; [discriminate|]. rewrite <- E, <- (app_nil_r axci).
  rewrite spec_records_one, app_nil_r by (try reflexivity; lia). reflexivity.
Qed.

(* what the specification's reader accepts is a sequence of records under the tags it was asked for *)
Lemma spec_records_inv hs : 0 <= hs -> forall tags d vs rest, Forall (fun t => zlen t = 4) tags ->
  spec_records hs tags d = Some (vs, rest) ->
  d = concat (map rec_bytes (combine tags vs)) ++ rest /\ Forall (fun v => zlen v = hs) vs /\ length vs = length tags.
Proof.
  intros Hh. induction tags as [|t ts IH]; intros d vs rest Ht H.
  - injection H as <- <-. repeat split; constructor.
  - cbn [spec_records] in H. destruct (has_prefix t d) eqn:Hp; cbn [andb] in H; [|discriminate].
    destruct (Z.leb_spec (4 + hs) (zlen d)); [|discriminate].
    destruct (spec_records hs ts (zdrop (4 + hs) d)) as [[vs' r']|] eqn:Hr; [|discriminate].
    assert (vs = zslice 4 (4 + hs) d :: vs' /\ rest = r') as [-> ->] by (split; congruence). clear H.
    apply Forall_cons_iff in Ht as [Ht1 Ht2]. destruct (IH _ _ _ Ht2 Hr) as (E & Fv & Ln).
    split; [|split; [constructor; [rewrite zlen_zslice by lia; lia|assumption]|cbn [length]; lia]].
    cbn [combine map concat]. unfold rec_bytes at 1. cbn [fst snd]. rewrite <- !app_assoc, <- E.
    rewrite (has_prefix_split _ _ Hp) at 1. rewrite Ht1. f_equal.
    rewrite <- (ztake_zdrop hs (zdrop 4 d)) at 1. unfold zslice. rewrite zdrop_zdrop by lia. do 2 f_equal; lia.
Qed.

(* invariant of the puller: what went through the tee and what is still unread make up the member's raw bytes; the tee is
   ahead of the inflater by exactly the buffered bytes; c = bytes consumed by the inflater so far *)
Definition pinv (raw : bytes) (c : Z) (s : pst) : Prop :=
  p_teed s ++ p_rest s = raw /\ zlen (p_teed s) = c + p_buf s /\ 0 <= p_buf s /\ 0 <= c.

Lemma pinv_init raw script : pinv raw 0 (pst_init raw script).
Proof. unfold pinv, pst_init. cbn. repeat split; lia. Qed.

Lemma fill_size_range s : p_rest s <> [] -> 1 <= fill_size s <= zlen (p_rest s).
Proof.
  intros H. unfold fill_size, appx_bufio_size.
  assert (1 <= zlen (p_rest s)) by (destruct (p_rest s) as [|x0 t0]; [congruence|rewrite zlen_cons; pose proof (zlen_nonneg t0); lia]).
  destruct (p_script s); lia.
Qed.

Lemma consume_ok raw : forall fuel n s c, pinv raw c s -> 0 <= n -> c + n <= zlen raw ->
  (Z.to_nat n + (if (p_buf s =? 0)%Z then 1 else 0) < fuel)%nat ->
  exists s', consume fuel n s = Ok s' /\ pinv raw (c + n) s'.
Proof.
  induction fuel as [|k IH]; intros n s c (H1 & H2 & H3 & H4) Hn Hc Hf; [lia|].
  cbn [consume]. destruct (n <=? p_buf s) eqn:En.
  - eexists. split; [reflexivity|].
    unfold pinv. cbn [p_rest p_teed p_buf]. repeat split; try assumption; lia.
  - destruct (p_rest s) as [|x t] eqn:Er.
    + exfalso. rewrite app_nil_r in H1. subst raw. lia.
    + rewrite <- Er in *. assert (Hne : p_rest s <> []) by (rewrite Er; discriminate).
      pose proof (fill_size_range s Hne) as Hfs.
      set (f := fill_size s) in *.
      set (s1 := mkP (zdrop f (p_rest s)) (p_teed s ++ ztake f (p_rest s)) f (tl (p_script s))).
      assert (I1 : pinv raw (c + p_buf s) s1).
      { unfold pinv, s1. cbn [p_rest p_teed p_buf]. repeat split; try lia.
        - rewrite <- app_assoc, ztake_zdrop. exact H1.
        - rewrite zlen_app, zlen_ztake by lia. lia. }
      destruct (IH (n - p_buf s) s1 (c + p_buf s) I1) as (s' & E & I'); try lia.
      { unfold s1 at 1. cbn [p_buf]. replace (f =? 0) with false by lia. destruct (p_buf s =? 0) eqn:Eb; lia. }
      exists s'. split; [exact E|].
      replace (c + n) with (c + p_buf s + (n - p_buf s)) by lia. exact I'.
Qed.

Lemma inflate_run_eof raw : forall segs out s c usize, pinv raw c s -> c + zlen (concat (map sg_raw segs)) <= zlen raw ->
  exists s', inflate_run ToEOF usize segs out s = Ok (out ++ concat (map sg_out segs), s') /\
             pinv raw (c + zlen (concat (map sg_raw segs))) s'.
Proof.
  induction segs as [|g r IH]; intros out s c usize I Hc.
  - cbn [inflate_run map concat]. exists s. rewrite app_nil_r, zlen_nil, Z.add_0_r. split; [reflexivity|exact I].
  - cbn [inflate_run map concat] in *. rewrite zlen_app in *.
    pose proof (zlen_nonneg (sg_raw g)). pose proof (zlen_nonneg (concat (map sg_raw r))).
    destruct (consume_ok raw (S (S (length (sg_raw g)))) (zlen (sg_raw g)) s c I) as (s1 & E & I1); try lia.
    { unfold zlen. destruct (p_buf s =? 0); lia. }
    rewrite E. cbn [bind]. destruct (IH (out ++ sg_out g) s1 (c + zlen (sg_raw g)) usize I1) as (s' & E' & I'); [lia|].
    exists s'. rewrite E', <- app_assoc, Z.add_assoc. split; [reflexivity|exact I'].
Qed.

(* a stored or deflated member read to EOF: every raw byte goes through the tee, whatever the read script and whatever follows
   the final deflate block (at EOF of the decompressed stream the reader pulls the rest through the tee) *)
Lemma member_read_eof m script : am_ok m ->
  member_read m ToEOF script = Ok (am_raw m, am_out m).
Proof.
  intros (Hm & Hc & Hu & Hs & Hcrc). unfold member_read.
  assert (Hmeth : existsb (Z.eqb (am_method m)) appx_methods = true) by (destruct Hm as [-> | ->]; reflexivity).
  change tee_shape_ok with true. rewrite Hmeth. cbn [negb].
  assert (Hfin : forall t, (if appx_reader_size_mismatch (zlen (am_out m)) (e_usize (am_ent m)) then Err AE_UEOF
             else if appx_reader_crc_mismatch (e_crc (am_ent m)) (am_crc m) then @Err (bytes * bytes) AE_CRC else Ok (t, am_out m)) = Ok (t, am_out m)).
  { intros t. unfold appx_reader_size_mismatch, appx_reader_crc_mismatch. rewrite Hu, Z.eqb_refl. cbn [negb].
    destruct Hcrc as [-> | ->]; [reflexivity|]. rewrite Z.eqb_refl. cbn [negb]. now rewrite andb_false_r. }
  unfold am_out in *. destruct (am_method m =? 0) eqn:E0; [apply Hfin|].
  assert (Hs' : concat (map sg_raw (am_segs m)) ++ am_trail m = am_raw m) by (apply Hs; lia).
  destruct (inflate_run_eof (am_raw m) (am_segs m) [] (pst_init (am_raw m) script) 0 (e_usize (am_ent m)) (pinv_init _ _)) as (s' & E & I).
  { rewrite <- Hs', zlen_app. pose proof (zlen_nonneg (am_trail m)). lia. }
  rewrite E. cbn [bind fst snd app]. change reader_drains with true. cbv iota. destruct I as (-> & _). apply Hfin.
Qed.
