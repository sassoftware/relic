(* FmtAPPX/ProofsB.v — AXPC accumulation of signer and verifier, Directory.Truncate on a directory relic wrote, block map. *)
From Relic Require Import Base.Prelude Base.Lists Base.Enc Generated.C17_gen C17.Model C17.Bytes Base.Slice Generated.FmtAPPX_gen FmtAPPX.Model FmtAPPX.ProofsA.
From Relic Require Generated.C09_gen C09.Model C09.Properties.

Definition am_listed (m : amember) : bool := appx_addfile_listed (in_names (am_name m) appx_nohash_names) (am_name m).
Definition plain_bfile (m : amember) : bfile :=
  mkBF (zip_to_dos (am_name m)) (zlen (am_out m)) (zlen (am_lfh m)) (map (fun b => mkBB b 0) (C09.Model.chunks 65536 (am_out m))).

Lemma add_file_appx_ok m s os : am_ok m ->
  add_file_appx m s os = Ok (mkAR (am_extent m) (am_out m) (if am_listed m then Some (plain_bfile m) else None)
                                 (am_listed m && appx_addfile_sizes_unverified (am_method m))).
Proof.
  intros Hok. unfold add_file_appx. change (list_eqb Z.eqb appx_addfile_calls [0; 1; 2; 3; 4; 5; 1]) with true. cbn [negb].
  change addfile_demand with (Some ToEOF). cbv iota. rewrite (member_read_eof m s Hok). cbn [bind fst snd].
  change (list_eqb Z.eqb appx_addfile_tee_arg [1]) with true. cbv iota.
  change (nth 0 appx_addfile_raw_writes 99) with 0. change (nth 1 appx_addfile_raw_writes 99) with 2.
  unfold raw_piece. cbn [Z.eqb]. change (2 =? 0) with false. change (2 =? 2) with true. cbv iota.
  rewrite C09.Properties.blockmap_split_indep. cbn [C09.Model.r_data].
  change appx_addfile_size_accumulates with true. change appx_addfile_lfhsize_is_len with true. cbv iota.
  unfold am_extent, am_listed, plain_bfile. reflexivity.
Qed.

Lemma signer_axpc_spec : forall ms scripts, Forall am_ok ms -> signer_axpc ms scripts = Ok (spec_axpc ms).
Proof.
  induction ms as [|m r IH]; intros scripts Hok; [reflexivity|].
  inversion Hok as [|? ? Ho1 Ho2]; subst.
  cbn [signer_axpc]. rewrite add_file_appx_ok by assumption. cbn [bind ar_raw]. rewrite IH by assumption. reflexivity.
Qed.

Lemma verifier_axpc_spec : forall ms pre post, laid_out (zlen pre) ms ->
  verifier_axpc (pre ++ spec_axpc ms ++ post) ms = spec_axpc ms.
Proof.
  induction ms as [|m r IH]; intros pre post Hl; [reflexivity|].
  cbn [laid_out] in Hl. destruct Hl as [Ho Hr]. cbn [verifier_axpc spec_axpc map concat]. rewrite Ho. unfold am_total.
  f_equal.
  - rewrite <- app_assoc. apply zslice_app_mid; reflexivity.
  - replace (pre ++ (am_extent m ++ concat (map am_extent r)) ++ post) with ((pre ++ am_extent m) ++ spec_axpc r ++ post)
      by (unfold spec_axpc; now rewrite <- !app_assoc).
    apply IH. rewrite zlen_app. exact Hr.
Qed.

(* Truncate patches fields of the end records in place; on an encoded struct that is re-encoding with the field replaced *)
Lemma width_nonneg ws : widths_ok ws = true -> forall i, 0 <= nth i ws 0.
Proof.
  induction ws as [|w ws IH]; intros Hw [|i]; cbn [nth]; try lia; apply andb_true_iff in Hw as [Hw0 Hw]; [lia|now apply IH].
Qed.
Lemma splice_enc_struct : forall ws vs i v, length ws = length vs -> widths_ok ws = true -> (i < length ws)%nat ->
  splice (enc_struct ws vs) (off_of i ws, nth i ws 0, v) = enc_struct ws (set_nth i v vs).
Proof.
  induction ws as [|w ws IH]; intros [|x vs] i v Hl Hw Hi; try discriminate; [cbn in Hi; lia|].
  apply andb_true_iff in Hw as [Hw1 Hw2]. rewrite enc_struct_cons. destruct i as [|i]; cbn [off_of nth set_nth]; rewrite enc_struct_cons.
  - unfold splice. rewrite ztake_0, Z.add_0_l, zdrop_app_len by (rewrite le_enc_zlen; lia). reflexivity.
  - rewrite <- (IH vs i v) by (auto; cbn in Hl, Hi; lia). pose proof (off_of_nonneg ws Hw2 i). pose proof (width_nonneg ws Hw2 i).
    unfold splice. rewrite ztake_app_r, zdrop_app_r, le_enc_zlen, Z2Nat.id by (rewrite ?le_enc_zlen; lia).
    replace (w + off_of i ws - w) with (off_of i ws) by lia.
    replace (w + off_of i ws + nth i ws 0 - w) with (off_of i ws + nth i ws 0) by lia.
    now rewrite <- app_assoc.
Qed.
(* the same with the field named by offset and width, as Truncate names it: `erewrite !splice_field by reflexivity` *)
Lemma splice_field ws vs off w i v : field_ix ws off w = Some i -> length ws = length vs -> widths_ok ws = true ->
  splice (enc_struct ws vs) (off, w, v) = enc_struct ws (set_nth i v vs).
Proof. intros Hi Hl Hw. apply field_ix_spec in Hi as (-> & -> & Hi). now apply splice_enc_struct. Qed.

Lemma end64_updates mv N S O n size cdo :
  splices (enc_struct e64_widths (wd_end64 mv N S O)) (appx_trunc_end64_updates n size cdo) = enc_struct e64_widths (wd_end64 mv n size cdo).
Proof.
  unfold appx_trunc_end64_updates, splices, wd_end64. cbn [fold_left]. erewrite !splice_field by reflexivity. reflexivity.
Qed.
Lemma loc_updates X n size cdo :
  splices (enc_struct l64_widths (wd_loc64 X)) (appx_trunc_loc_updates n size cdo) = enc_struct l64_widths (wd_loc64 (cdo + size)).
Proof.
  unfold appx_trunc_loc_updates, splices, wd_loc64. cbn [fold_left]. erewrite splice_field by reflexivity. reflexivity.
Qed.

(* a cached raw entry is what GetDirectoryHeader returns: the header relic generates is never empty *)
Lemma set_field_nonnil ws vs cur off v : vs <> [] -> set_field ws vs cur off v <> [].
Proof. destruct ws, vs; cbn; congruence. Qed.
Lemma enc_struct_pos ws vs : 0 < hd 0 ws -> vs <> [] -> 0 < zlen (enc_struct ws vs).
Proof.
  destruct ws as [|w ws]; cbn [hd]; [lia|]. destruct vs as [|x vs]; [congruence|]. intros H _.
  rewrite enc_struct_cons, zlen_app, le_enc_zlen, Z2Nat.id by lia. pose proof (zlen_nonneg (enc_struct ws vs)). lia.
Qed.
Lemma regen_header_pos f : 0 < zlen (regen_header f).
Proof.
  assert (P : forall vs r, vs <> [] -> 0 < zlen (enc_struct cdh_widths vs ++ r)).
  { intros vs r Hv. rewrite zlen_app. pose proof (enc_struct_pos cdh_widths vs eq_refl Hv). pose proof (zlen_nonneg r). lia. }
  unfold regen_header. destruct (gdh_promote _ _ _); apply P; repeat apply set_field_nonnil; discriminate.
Qed.
Lemma dir_header_pos f : 0 < zlen (dir_header f).
Proof.
  unfold dir_header. destruct (gdh_use_raw (zlen (e_raw f))) eqn:E; [unfold gdh_use_raw in E; lia|apply regen_header_pos].
Qed.
Lemma dir_header_written f : dir_header (written_ent f) = dir_header f.
Proof.
  unfold dir_header at 1. unfold written_ent at 1. cbn [e_raw]. pose proof (dir_header_pos f).
  unfold gdh_use_raw. replace (zlen (dir_header f) >? 0) with true by lia. reflexivity.
Qed.
Lemma cd_bytes_written fs : cd_bytes (map written_ent fs) = cd_bytes fs.
Proof. unfold cd_bytes. rewrite map_map. f_equal. apply map_ext. intros. apply dir_header_written. Qed.

Lemma wd_tail_forced files dirloc :
  wd_tail files dirloc true =
  enc_struct e64_widths (wd_end64 wd_forced_version (zlen files) (zlen (cd_bytes files)) (wd_cdoff dirloc)) ++
  enc_struct l64_widths (wd_loc64 (wd_end64off (wd_cdoff dirloc) (zlen (cd_bytes files)))) ++
  enc_struct eocd_widths wd_end_sat.
Proof.
  unfold wd_tail. unfold wd_need_zip64. rewrite orb_true_r. change (wd_emit_zip64 wd_forced_version) with true. cbv iota.
  change wd_write_order with [3; 1; 2]. cbn [map concat pick find fst snd Z.eqb]. rewrite app_nil_r. reflexivity.
Qed.

Lemma to_nat_zlen {A} (l : list A) : Z.to_nat (zlen l) = length l.
Proof. apply Nat2Z.id. Qed.

Lemma truncate_reread files sg dirloc size :
  truncate_dir (reread_dir (files ++ [sg]) dirloc size) (zlen files) = Ok (cd_bytes files ++ wd_tail files (e_offset sg) true).
Proof.
  unfold truncate_dir, reread_dir. cbn [d_files d_end64 d_loc64 d_end].
  rewrite map_app, <- (zlen_map written_ent files). cbn [map]. pose proof (zlen_nonneg (map written_ent files)).
  replace (zlen (map written_ent files ++ [written_ent sg]) <=? zlen (map written_ent files)) with false
    by (rewrite zlen_app, zlen_cons, zlen_nil; lia).
  replace (zlen (map written_ent files) <? 0) with false by lia. cbn [orb].
  rewrite to_nat_zlen, nth_middle, ztake_app_exact, cd_bytes_written.
  assert (Hz : forall mv N S O, appx_trunc_is_zip64 (fld e64_off_Signature e64_w_Signature (enc_struct e64_widths (wd_end64 mv N S O))) = true).
  { intros. erewrite fld_at0 by reflexivity. reflexivity. }
  rewrite Hz, end64_updates, loc_updates.
  change appx_trunc_write_order with [3; 1; 2]. cbn [map concat pick find fst snd Z.eqb]. rewrite app_nil_r.
  rewrite wd_tail_forced, zlen_map. reflexivity.
Qed.

Lemma axcd_is_spec files off :
  cd_bytes files ++ wd_tail files off true = spec_axcd (map dir_header files) off.
Proof.
  rewrite wd_tail_forced. unfold spec_axcd, cd_bytes. rewrite zlen_map. reflexivity.
Qed.

Lemma copy_blocks_spec : forall chunks bs d,
  copy_blocks (spec_blocks chunks bs d) (map (fun b => mkBB b 0) chunks) = Ok (spec_blocks chunks bs d).
Proof.
  induction chunks as [|c cs IH]; intros bs d; [reflexivity|].
  cbn [spec_blocks map copy_blocks]. rewrite IH. cbn [bind bb_data bb_size]. change appx_copysizes_copies_size with true. reflexivity.
Qed.
Lemma copy_blocks_no_panic : forall olds news, zlen olds <= zlen news -> no_panic (copy_blocks olds news).
Proof.
  induction olds as [|o os IH]; intros news H p; [discriminate|].
  destruct news as [|n ns]; [rewrite zlen_cons in H; change (zlen (@nil bblock)) with 0 in H; pose proof (zlen_nonneg os); lia|].
  cbn [copy_blocks]. rewrite !zlen_cons in H. specialize (IH ns ltac:(lia)).
  destruct (copy_blocks os ns) eqn:E; cbn [bind]; try discriminate. intro X. exact (IH _ eq_refl).
Qed.
Lemma set_nth_mid {A} (pre : list A) x y r : set_nth (length pre) y (pre ++ x :: r) = pre ++ y :: r.
Proof. induction pre as [|a pre IH]; [reflexivity|]. cbn [length app set_nth]. now rewrite IH. Qed.

Definition old_skipped (o : bfile) : Prop := appx_copysizes_skip (dos_to_zip (bf_name o)) = true.
Definition not_manifest_like (m : amember) : Prop := appx_copysizes_skip (dos_to_zip (zip_to_dos (am_name m))) = false.

Lemma copy_sizes_loop_skipped : forall tail i files, Forall old_skipped tail -> copy_sizes_loop tail i files = Ok files.
Proof.
  induction tail as [|o t IH]; intros i files Ht; [reflexivity|].
  apply Forall_cons_iff in Ht as [Ho Ht]. cbn [copy_sizes_loop]. unfold old_skipped in Ho. rewrite Ho. now apply IH.
Qed.

(* one turn of the loop on an old entry that is not skipped and matches the new entry at its index *)
Lemma copy_sizes_loop_hit o r (pre : list bfile) nf rest bl :
  appx_copysizes_skip (dos_to_zip (bf_name o)) = false -> bf_name nf = bf_name o ->
  zlen (bf_blocks o) <= zlen (bf_blocks nf) -> copy_blocks (bf_blocks o) (bf_blocks nf) = Ok bl ->
  copy_sizes_loop (o :: r) (zlen pre) (pre ++ nf :: rest) =
  copy_sizes_loop r (zlen pre + 1) (pre ++ mkBF (bf_name nf) (bf_size nf) (bf_lfh nf) bl :: rest).
Proof.
  intros Hs Hn Hb Hc. cbn [copy_sizes_loop]. rewrite Hs.
  unfold appx_copysizes_too_many, appx_copysizes_name_differs, appx_copysizes_more_blocks. pose proof (zlen_nonneg rest).
  replace (zlen pre >=? zlen (pre ++ nf :: rest)) with false by (rewrite zlen_app, zlen_cons; lia).
  rewrite to_nat_zlen, Lists.nth_error_mid, Hn, bytes_eqb_refl. replace (zlen (bf_blocks o) >? zlen (bf_blocks nf)) with false by lia.
  cbn [negb]. rewrite Hc. cbn [bind]. now rewrite set_nth_mid.
Qed.

Lemma zlen_spec_blocks : forall cs b d, zlen (spec_blocks cs b d) = zlen cs.
Proof. induction cs as [|c cs IH]; intros b d; [reflexivity|]. cbn [spec_blocks]. now rewrite !zlen_cons, IH. Qed.

Lemma copy_sizes_loop_spec : forall ms bss pre tail, length ms = length bss -> Forall not_manifest_like ms -> Forall old_skipped tail ->
  copy_sizes_loop (map (fun p => spec_bfile (fst p) (snd p)) (combine ms bss) ++ tail) (zlen pre) (pre ++ map plain_bfile ms) =
  Ok (pre ++ map (fun p => spec_bfile (fst p) (snd p)) (combine ms bss)).
Proof.
  induction ms as [|m r IH]; intros [|bs bss] pre tail Hl Hn Ht; try discriminate.
  - cbn [combine map app]. rewrite app_nil_r. now apply copy_sizes_loop_skipped.
  - apply Forall_cons_iff in Hn as [Hn1 Hn2]. cbn [combine map app fst snd].
    rewrite (copy_sizes_loop_hit _ _ _ _ _ (spec_blocks (C09.Model.chunks 65536 (am_out m)) bs (negb (am_method m =? 0))));
      [|exact Hn1|reflexivity|cbn [spec_bfile plain_bfile bf_blocks]; rewrite zlen_spec_blocks, zlen_map; lia|apply copy_blocks_spec].
    change (pre ++ ?x :: ?l) with (pre ++ [x] ++ l). rewrite app_assoc.
    replace (zlen pre + 1) with (zlen (pre ++ [spec_bfile m bs])) by (rewrite zlen_app; reflexivity).
    rewrite IH, <- app_assoc by (try assumption; cbn in Hl; lia). reflexivity.
Qed.

Lemma copy_sizes_loop_no_panic : forall olds i files, 0 <= i -> no_panic (copy_sizes_loop olds i files).
Proof.
  induction olds as [|o r IH]; intros i files Hi p; [discriminate|].
  cbn [copy_sizes_loop]. destruct (appx_copysizes_skip _); [apply IH; lia|].
  destruct (appx_copysizes_too_many i (zlen files)) eqn:Et; [discriminate|].
  unfold appx_copysizes_too_many in Et.
  destruct (nth_error files (Z.to_nat i)) as [nf|] eqn:En.
  - destruct (appx_copysizes_name_differs _ _); [discriminate|].
    destruct (appx_copysizes_more_blocks _ _) eqn:Em; [discriminate|]. unfold appx_copysizes_more_blocks in Em.
    pose proof (copy_blocks_no_panic (bf_blocks o) (bf_blocks nf) ltac:(lia)) as Hc.
    destruct (copy_blocks (bf_blocks o) (bf_blocks nf)) eqn:Ec; cbn [bind]; try discriminate.
    + apply IH. lia.
    + exfalso. exact (Hc _ eq_refl).
  - exfalso. apply nth_error_None in En. unfold zlen in Et. lia.
Qed.
