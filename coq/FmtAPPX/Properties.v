(* FmtAPPX/Properties.v — the APPX / MSIX signature layer (lib/signappx + the AXPC tee and Truncate of lib/zipslicer).
   The property each theorem serves is named above it; the lemmas they rest on are in FmtAPPX/Proofs*.v. *)
From Relic Require Import Base.Prelude Base.Enc Base.Slice Generated.C17_gen C17.Model Generated.FmtAPPX_gen FmtAPPX.Model.
From Relic Require Generated.C09_gen C09.Model.
From Relic Require Import FmtAPPX.ProofsA FmtAPPX.ProofsB FmtAPPX.ProofsC FmtAPPX.ProofsD FmtAPPX.ProofsW.

(* ================================================================== the digest blob inside AppxSignature.p7x *)
(* C01 C05: what writeSignature marshals is read back by readSignature as exactly the five digests under their tags — and by
   the specification's reader (tags and order fixed by the format; AXCI only when there is a catalog) as the same five *)
Theorem appx_digest_blob_roundtrip : forall hs axpc axcd axct axbm axci,
  0 <= hs -> zlen axpc = hs -> zlen axcd = hs -> zlen axct = hs -> zlen axbm = hs -> (zlen axci = 0 \/ zlen axci = hs) ->
  let blob := blob_marshal axpc axcd axct axbm axci in
  (exists m, blob_parse hs blob = Ok m /\ dm_get T_AXPC m = Some axpc /\ dm_get T_AXCD m = Some axcd /\ dm_get T_AXCT m = Some axct /\
             dm_get T_AXBM m = Some axbm /\ dm_get T_AXCI m = (if zlen axci =? 0 then None else Some axci)) /\
  spec_blob hs blob = Some (mkDg axpc axcd axct axbm (if zlen axci =? 0 then None else Some axci)).
Proof.
  intros hs axpc axcd axct axbm axci Hh H1 H2 H3 H4 H5 blob. split; [|now apply spec_blob_marshal].
  exists (canon_records axpc axcd axct axbm axci). split; [now apply blob_roundtrip | apply canon_lookup].
Qed.
(* C05: every blob the specification's reader accepts is a blob relic's marshaller writes (so relic reads it as the same digests) *)
Theorem appx_blob_spec_is_canonical : forall hs d g, 0 <= hs -> spec_blob hs d = Some g -> (dg_axci g = None \/ 0 < hs) ->
  let x := match dg_axci g with Some x => x | None => [] end in
  d = blob_marshal (dg_axpc g) (dg_axcd g) (dg_axct g) (dg_axbm g) x /\
  zlen (dg_axpc g) = hs /\ zlen (dg_axcd g) = hs /\ zlen (dg_axct g) = hs /\ zlen (dg_axbm g) = hs /\
  (zlen x = 0 \/ zlen x = hs) /\ dg_axci g = (if zlen x =? 0 then None else Some x).
Proof.
  intros hs d g Hh H Hci x. unfold spec_blob in H. destruct (has_prefix T_APPX d) eqn:Hp; cbn [negb] in H; [|discriminate].
  apply has_prefix_split in Hp. change (zlen T_APPX) with 4 in Hp.
  destruct (spec_records hs [T_AXPC; T_AXCD; T_AXCT; T_AXBM] (zdrop 4 d)) as [[vs rest]|] eqn:Hr; [|discriminate].
  apply (spec_records_inv hs Hh) in Hr as (E & Fv & Ln); [|repeat constructor].
  destruct vs as [|a [|b [|c [|e [|? ?]]]]]; try discriminate Ln.
  rewrite !Forall_cons_iff in Fv. destruct Fv as (Ha & Hb & Hc & He & _).
  rewrite blob_marshal_canon. unfold canon_records.
  destruct rest as [|r0 rr].
  - injection H as <-. subst x. cbn [dg_axci dg_axpc dg_axcd dg_axct dg_axbm]. rewrite Hp, E, app_nil_r.
    change (zlen (@nil Z) =? 0) with true. cbn [combine app]. auto 10.
  - destruct (spec_records hs [T_AXCI] (r0 :: rr)) as [[vs2 rest2]|] eqn:Hr2; [|discriminate].
    apply (spec_records_inv hs Hh) in Hr2 as (E2 & Fv2 & Ln2); [|repeat constructor].
    destruct vs2 as [|xx [|? ?]]; try discriminate Ln2. destruct rest2; [|discriminate].
    apply Forall_inv in Fv2. injection H as <-. subst x. cbn [dg_axci dg_axpc dg_axcd dg_axct dg_axbm] in *.
    destruct Hci as [|Hci]; [discriminate|]. replace (zlen xx =? 0) with false by lia.
    rewrite Hp, E, E2, map_app, concat_app, app_nil_r. cbn [combine]. auto 10.
Qed.
(* C11: the blob parser never slices out of range and its loop terminates, for every byte string and digest size *)
Theorem appx_blob_parse_no_panic : forall hs d, 0 <= hs -> no_panic (blob_parse hs d) /\ blob_parse hs d <> Err AE_FUEL.
Proof. intros hs d Hh. destruct (blob_parse_total hs d Hh) as [E|[m E]]; rewrite E; split; try intros p; discriminate. Qed.
(* C02 (leniency, witness): relic's reader accepts a blob with a repeated tag and takes the last record; the format has one *)
Theorem appx_blob_parser_lenient_refuted :
  exists hs d, (exists m, blob_parse hs d = Ok m /\ dm_get T_AXPC m = Some [2]) /\ spec_blob hs d = None.
Proof. exists 1, w_dup_blob. split; [eexists; split|]; vm_compute; reflexivity. Qed.

(* ================================================================== AXPC *)
(* C01 C02 C05 C08: for EVERY member the ZIP layer accepts — also one whose CompressedSize reaches beyond the final deflate block —
   and EVERY way the source splits its reads, a member read to EOF through the tee underneath the inflater delivers every raw
   byte to the AXPC hash: the inflater stops asking after the final block, the buffer in between only reads ahead, and at EOF
   the reader pulls the rest of the compressed extent through the tee (relic 71d8dc1); AddFile reads to EOF *)
Theorem appx_tee_sees_every_raw_byte : forall m script, am_ok m ->
  member_read m ToEOF script = Ok (am_raw m, am_out m) /\ addfile_demand = Some ToEOF /\ reader_drains = true.
Proof. intros. split; [now apply member_read_eof | split; reflexivity]. Qed.
(* ... so what the signer accumulates over any list of members = local header ++ raw bytes ++ descriptor of each, in order
   (the specification's AXPC) = what Directory.Truncate copies out of the file, wherever the members lie back to back *)
Theorem appx_axpc_is_all_raw_bytes : forall ms scripts pre post, Forall am_ok ms -> laid_out (zlen pre) ms ->
  signer_axpc ms scripts = Ok (spec_axpc ms) /\ verifier_axpc (pre ++ spec_axpc ms ++ post) ms = spec_axpc ms.
Proof. intros. split; [now apply signer_axpc_spec | now apply verifier_axpc_spec]. Qed.
(* the class of the seeded change C09-r2, which the drain at EOF does NOT repair: a caller that stops at UncompressedSize never
   drives the reader to its EOF, so neither the inflater nor the drain pulls the tail of the stream through the tee; reading to
   EOF does (empty deflated member, raw bytes 03 00; and the member with 4096 bytes behind its final block) *)
Theorem appx_axpc_needs_eof_demand : exists m, am_ok m /\ am_tight m /\
  member_read m ToSize [] = Ok ([], []) /\ member_read m ToEOF [] = Ok (am_raw m, []) /\ am_raw m = [3; 0].
Proof. exists w_empty. destruct w_empty_ok as [H1 H2]. split; [exact H1|]. split; [exact H2|]. repeat split. Qed.
(* regression for FMTAPPX:appx:axpc-signer-differs@trailing-bytes (fixed): the former counterexample — a deflated member whose
   CompressedSize reaches a buffer length beyond its final block — now has all 4098 raw bytes hashed *)
Example appx_axpc_trailing_bytes_regression : am_ok FmtAPPX.ProofsW.w_trail /\ am_trail FmtAPPX.ProofsW.w_trail <> [] /\
  member_read FmtAPPX.ProofsW.w_trail ToEOF [] = Ok (am_raw FmtAPPX.ProofsW.w_trail, []) /\ zlen (am_raw FmtAPPX.ProofsW.w_trail) = 4098 /\
  member_read FmtAPPX.ProofsW.w_trail ToSize [] = Ok ([], []).
Proof.
  assert (Hok : am_ok w_trail) by (unfold am_ok; repeat split; auto).
  split; [exact Hok|]. split; [discriminate|]. split; [exact (member_read_eof w_trail [] Hok)|]. split; reflexivity.
Qed.

(* ================================================================== AXCD *)
(* C01 C05: the directory the signer hashes (WriteDirectory of everything but the signature, ZIP64 forced, located where the
   signature member will start) is the specification's AXCD, and it is byte for byte what Directory.Truncate reconstructs from
   the directory that is finally written (which also lists the signature and lies behind it): the entries of the appended
   members included, the signature's entry and the real count / size / offset excluded *)
Theorem appx_axcd_is_written_directory : forall files sg dirloc size,
  let pre := cd_bytes files ++ wd_tail files (e_offset sg) true in
  pre = spec_axcd (map dir_header files) (e_offset sg) /\
  truncate_dir (reread_dir (files ++ [sg]) dirloc size) (zlen files) = Ok pre.
Proof. intros. split; [apply axcd_is_spec | apply truncate_reread]. Qed.
(* C11: Truncate indexes d.File[n]: in range it never panics; verifyMeta passes sigIdx = -1 when the slicer's directory has no
   signature entry (not reachable through Verify, which finds the member first) *)
Theorem appx_truncate_no_panic : forall d n, 0 <= n < zlen (d_files d) -> no_panic (truncate_dir d n).
Proof.
  intros d n H p. unfold truncate_dir. replace ((n <? 0) || (zlen (d_files d) <=? n)) with false by lia.
  destruct (appx_trunc_is_zip64 _); [discriminate|]. destruct (appx_trunc_too_big _ _); discriminate.
Qed.
Theorem appx_truncate_without_signature_refuted : forall d, truncate_dir d (-1) = Panic P_INDEX.
Proof. reflexivity. Qed.

(* ================================================================== block map *)
(* C03 C05: AddFile records, for every read split, the 64 KiB blocks of the uncompressed data (C09 blockmap_split_indep), the DOS
   name, the uncompressed size and the local header size; CopySizes against the block map of the input package (the
   specification's: compressed block sizes for deflated members, none for stored ones; the manifest entry is skipped) yields the
   specification's block map of the kept members *)
Theorem appx_blockmap_spec : forall ms bss tail s os, length ms = length bss ->
  Forall am_ok ms -> Forall FmtAPPX.ProofsB.not_manifest_like ms -> Forall FmtAPPX.ProofsB.old_skipped tail ->
  (forall m, In m ms -> exists a, add_file_appx m s os = Ok a /\ ar_raw a = am_extent m /\
                                  (FmtAPPX.ProofsB.am_listed m = true -> ar_file a = Some (FmtAPPX.ProofsB.plain_bfile m))) /\
  copy_sizes (map (fun p => spec_bfile (fst p) (snd p)) (combine ms bss) ++ tail) (map FmtAPPX.ProofsB.plain_bfile ms) =
  Ok (map (fun p => spec_bfile (fst p) (snd p)) (combine ms bss)).
Proof.
  intros ms bss tail s os Hl Hok Hn Hs. split.
  - intros m Hin. rewrite Forall_forall in Hok. eexists. split; [apply add_file_appx_ok; auto|].
    cbn [ar_raw ar_file]. split; [reflexivity|]. intros ->. reflexivity.
  - unfold copy_sizes. change appx_copysizes_by_index with true. cbv iota. exact (copy_sizes_loop_spec ms bss [] tail Hl Hn Hs).
Qed.
(* C11: CopySizes never indexes out of range, whatever the old block map lists *)
Theorem appx_copysizes_no_panic : forall olds files, no_panic (copy_sizes olds files).
Proof.
  intros olds files p. unfold copy_sizes. destruct appx_copysizes_by_index; [|discriminate].
  apply copy_sizes_loop_no_panic. lia.
Qed.
(* C05 (witness): CopySizes does not require the old block map to cover the new one: with an old map that lists nothing, the flag
   that makes Marshal refuse is cleared and a deflated member's Block keeps no Size (the specification's has one) *)
Theorem appx_blockmap_sizes_unchecked_refuted : exists m bs,
  copy_sizes [] [FmtAPPX.ProofsB.plain_bfile m] = Ok [FmtAPPX.ProofsB.plain_bfile m] /\ appx_copysizes_clears_flag = true /\
  map bb_size (bf_blocks (FmtAPPX.ProofsB.plain_bfile m)) = [0] /\ map bb_size (bf_blocks (spec_bfile m bs)) = [5].
Proof. exists w_defl, [5]. repeat apply conj; vm_compute; reflexivity. Qed.

(* ================================================================== content types *)
(* C03 (witnesses; the first is the known finding C03:spec:appx:payload-changed@content-types): the content type the package
   declared for a payload file, or for a footprint part, is replaced by relic's table when [Content_Types].xml is regenerated *)
Theorem appx_content_type_default_overwritten_refuted : exists c n, ct_find n (ct_regen c [n] 0) <> ct_find n c.
Proof. exists w_ct0, w_name. vm_compute. discriminate. Qed.
Theorem appx_content_type_override_overwritten_refuted : exists c n, ct_find n (ct_regen c [n] 0) <> ct_find n c.
Proof. exists w_ct1, appx_n_blockmap. vm_compute. discriminate. Qed.

(* ================================================================== DigestAppxTar, Sign, Verify *)
(* C01 C08: DigestAppxTar on a package — well-formed payload members lying back to back from offset 0, then the first footprint
   member — keeps exactly the payload members, has accumulated the specification's AXPC over them, has them in the output
   directory at their offsets, and patches from the first footprint member to the end of the file *)
Theorem appx_digest_establishes : forall parse_bm parse_ct kept f rest size scripts st,
  Forall am_ok kept -> Forall FmtAPPX.ProofsD.not_footprint kept -> laid_out 0 kept ->
  in_names (am_name f) appx_footprint_names = true -> e_offset (am_ent f) = zlen (spec_axpc kept) ->
  digest_appx parse_bm parse_ct (kept ++ f :: rest) size scripts = Ok st ->
  FmtAPPX.ProofsC.dinv st /\ di_kept st = kept /\ di_patch_start st = e_offset (am_ent f) /\ di_patch_len st = size - e_offset (am_ent f).
Proof.
  intros parse_bm parse_ct kept f rest size scripts st Hok Hnf Hl Hf Ho Hs. unfold digest_appx in Hs.
  change (list_eqb Z.eqb appx_digest_calls [0; 1; 2; 3; 4; 5]) with true in Hs. cbn [negb] in Hs.
  destruct (digest_copy_prefix kept f rest size 0 di_init scripts Hok Hnf Hl Hf ltac:(rewrite Ho; lia) eq_refl)
    as (st1 & E & K1 & K2 & K3 & K4 & _ & K6 & K7).
  rewrite E in Hs. cbn [bind fst snd] in Hs. change appx_footprint_starts_after_kept with true in Hs. cbv iota in Hs.
  destruct (digest_footprint parse_bm parse_ct (f :: rest) st1) as [st2| |] eqn:E2; cbn [bind] in Hs; try discriminate.
  destruct (appx_missing_manifest _ _); [discriminate|]. injection Hs as <-.
  destruct (digest_footprint_keeps _ _ _ _ _ E2) as (F1 & F2 & F3 & F4 & _ & F6 & F7).
  cbn [di_init di_kept di_axpc di_files app] in K1, K2, K3. cbn in K4.
  unfold dinv. rewrite F1, F2, F3, F4, F6, F7, K1, K2, K3, K4, K6, K7. repeat split; auto.
Qed.

(* C01 C05: sign then verify.  For every package DigestAppxTar accepted (invariant above), whatever the library functions return
   (deflate, CRC-32, the XML serialisers, the manifest rewrite, the catalog, the PKCS#7 wrapper) and for every digest function of
   fixed positive size: the signed package is the kept members, the regenerated footprint, the signature LAST; the blob inside
   the signature parses; and each of the five digests in it is the digest of what the verifier recomputes from the signed file:
   AXPC over the members in front of the signature as Truncate copies them out of the file, AXCD over Truncate's reconstruction of
   the directory from the directory that was finally written, AXBM / AXCT / AXCI over the plain block map / content types /
   catalog members (AXCI absent exactly when there is no catalog) *)
Theorem appx_sign_then_verify : forall H deflate crc32 ser_bm ser_ct repub mkcat mksig st man sg hs,
  FmtAPPX.ProofsC.dinv st -> di_manifest st = Some man -> di_unverified st = false ->
  (forall x, zlen (H x) = hs) -> 0 < hs ->
  sign_appx H deflate crc32 ser_bm ser_ct repub mkcat mksig st = Ok sg ->
  let file := spec_axpc (sg_members sg) ++ sg_directory sg in
  exists front sigm dm dirb,
    sg_members sg = front ++ [sigm] /\ am_name sigm = appx_n_signature /\ am_out sigm = appx_pkcx_magic ++ mksig (sg_blob sg) /\
    blob_parse hs (sg_blob sg) = Ok dm /\
    truncate_dir (reread_dir (sg_files sg) (sg_dirloc sg) (zlen file)) (zlen front) = Ok dirb /\
    dm_get T_AXPC dm = Some (H (verifier_axpc file front)) /\
    dm_get T_AXCD dm = Some (H dirb) /\
    (exists mB, In mB front /\ am_name mB = appx_n_blockmap /\ dm_get T_AXBM dm = Some (H (am_out mB)) /\ am_out mB = ser_bm (sg_bm sg)) /\
    (exists mC, In mC front /\ am_name mC = appx_n_contenttypes /\ dm_get T_AXCT dm = Some (H (am_out mC))) /\
    match sg_axci sg with
    | Some _ => exists mK, In mK front /\ am_name mK = appx_n_codeintegrity /\ dm_get T_AXCI dm = Some (H (am_out mK))
    | None => dm_get T_AXCI dm = None
    end.
Proof.
  intros H deflate crc32 ser_bm ser_ct repub mkcat mksig st man sg hs Hd Hman Hunv Hlen Hhs Hs file.
  destruct (sign_shape H deflate crc32 ser_bm ser_ct repub mkcat mksig st man sg Hd Hman Hunv Hs)
    as (mM & mB & mC & opt & sigm & Em & Fl & Ef & _ & _ & NB & OB & EB & NC & OC & HK & Ns & Os & Eaxpc & Eaxcd & Eblob & _).
  set (front := di_kept st ++ [mM; mB; mC] ++ opt) in *.
  set (axci := match sg_axci sg with Some c => H c | None => [] end) in *.
  assert (Hci : zlen axci = 0 \/ zlen axci = hs) by (unfold axci; destruct (sg_axci sg); [right; apply Hlen|left; reflexivity]).
  assert (Hrt : blob_parse hs (sg_blob sg) = Ok (canon_records (H (sg_axpc sg)) (H (sg_axcd sg)) (H (sg_axct sg)) (H (sg_axbm sg)) axci))
    by (rewrite Eblob; apply blob_roundtrip; auto; lia).
  destruct (canon_lookup (H (sg_axpc sg)) (H (sg_axcd sg)) (H (sg_axct sg)) (H (sg_axbm sg)) axci) as (L1 & L2 & L3 & L4 & L5).
  exists front, sigm, (canon_records (H (sg_axpc sg)) (H (sg_axcd sg)) (H (sg_axct sg)) (H (sg_axbm sg)) axci),
         (cd_bytes (map am_ent front) ++ wd_tail (map am_ent front) (e_offset (am_ent sigm)) true).
  assert (InB : In mB front) by (apply in_or_app; right; cbn [app In]; auto).
  assert (InC : In mC front) by (apply in_or_app; right; cbn [app In]; auto).
  repeat apply conj; try assumption.
  - rewrite Ef, map_app, <- (zlen_map am_ent front). apply truncate_reread.
  - (* the verifier's AXPC preimage is the file in front of the signature member *)
    rewrite L1, Eaxpc. do 2 f_equal. unfold file. rewrite Em, spec_axpc_app, <- app_assoc. symmetry. apply (verifier_axpc_spec front [] _ Fl).
  - now rewrite L2, Eaxcd.
  - exists mB. rewrite L4, OB. auto.
  - exists mC. rewrite L3, OC. auto.
  - rewrite L5. unfold axci. destruct (sg_axci sg) as [c|]; [|reflexivity]. destruct HK as (mK & -> & NK & OK).
    exists mK. rewrite OK. replace (zlen (H c) =? 0) with false by (rewrite Hlen; lia). repeat split; auto. apply in_or_app. right. cbn [app In]. auto.
Qed.
(* C01: verifyBlockMap's walk accepts a block map whose entries describe the listed members in order (DOS name, uncompressed
   size, one entry per 64 KiB block with the digest of that block): the count test (size+65535)/65536 and the 64 KiB reads of
   the verifier agree with the chunking of the signer for every size *)
Theorem appx_verify_blockmap_accepts : forall Hv ms fs extra, Forall am_ok ms ->
  Forall (fun m => appx_vbm_skips (in_names (am_name m) appx_nohash_names) false (am_name m) = negb (FmtAPPX.ProofsB.am_listed m)) ms ->
  Forall2 (FmtAPPX.ProofsD.describes) (filter FmtAPPX.ProofsB.am_listed ms) fs ->
  vbm_walk Hv ms false (map (FmtAPPX.ProofsD.vpfile Hv) fs ++ extra) = Ok tt.
Proof.
  intros Hv. induction ms as [|m r IH]; intros fs extra Hok Hsk Hd; [reflexivity|].
  apply Forall_cons_iff in Hok as [Ho1 Ho2]. apply Forall_cons_iff in Hsk as [Hs1 Hs2].
  cbn [vbm_walk filter] in *. rewrite Hs1. destruct (am_listed m) eqn:El; cbn [negb]; [|now apply IH].
  inversion Hd as [|? f ? fs' (Dn & Ds & Db) Hd']; subst. cbn [map app].
  unfold appx_vbm_unhashed. rewrite zlen_cons. pose proof (zlen_nonneg (map (vpfile Hv) fs' ++ extra)).
  replace (1 + zlen (map (vpfile Hv) fs' ++ extra) =? 0) with false by lia.
  destruct Ho1 as (_ & _ & Hu & _).
  unfold appx_vbm_name_differs, appx_vbm_size_differs, C09_gen.bm_count_bad. cbn [vpfile pf_name pf_size pf_blocks].
  rewrite Dn, bytes_eqb_refl, Ds, Hu, Z.eqb_refl. cbn [negb].
  (* the count test (size+65535)/65536 agrees with the number of chunks *)
  rewrite zlen_map, <- (zlen_map bb_data), Db, (chunks_count 65536 ltac:(lia)), Z.eqb_refl. cbn [negb].
  rewrite (vbm_blocks_ok Hv _ _ Db). cbn [bind]. now apply IH.
Qed.

(* C03: signing keeps every payload member — same directory entry, same offset, same local header, raw bytes and descriptor —
   and the file in front of the patch; what is regenerated starts with AppxManifest.xml where the input's first footprint member
   started and ends with AppxSignature.p7x and the directory: the patch is exactly that *)
Theorem appx_payload_kept : forall H deflate crc32 ser_bm ser_ct repub mkcat mksig st man sg,
  FmtAPPX.ProofsC.dinv st -> di_manifest st = Some man -> di_unverified st = false ->
  sign_appx H deflate crc32 ser_bm ser_ct repub mkcat mksig st = Ok sg ->
  exists mM midr sigm, sg_members sg = di_kept st ++ (mM :: midr) ++ [sigm] /\ am_name mM = appx_n_manifest /\ am_name sigm = appx_n_signature /\
    e_offset (am_ent mM) = zlen (spec_axpc (di_kept st)) /\
    ztake (zlen (spec_axpc (di_kept st))) (spec_axpc (sg_members sg) ++ sg_directory sg) = spec_axpc (di_kept st) /\
    sg_patch_start sg = di_patch_start st /\
    spec_axpc (sg_members sg) ++ sg_directory sg = spec_axpc (di_kept st) ++ sg_patch sg.
Proof. exact payload_kept. Qed.

(* C08: re-signing.  Two packages with the same payload prefix and their first footprint member at the same place — a package
   and what relic made of it by signing (appx_payload_kept), any number of times — leave the digest loop with the same kept
   members, the same AXPC preimage (the specification's over the payload), the same output directory, block map entries and
   patch start: nothing of an existing signature, block map, content types or catalog enters them; the old footprint is
   inside the patched range and is replaced *)
Theorem appx_resign : forall kept f1 rest1 f2 rest2 size1 size2 scripts1 scripts2,
  Forall am_ok kept -> Forall FmtAPPX.ProofsD.not_footprint kept -> laid_out 0 kept ->
  in_names (am_name f1) appx_footprint_names = true -> in_names (am_name f2) appx_footprint_names = true ->
  e_offset (am_ent f1) = zlen (spec_axpc kept) -> e_offset (am_ent f2) = zlen (spec_axpc kept) ->
  exists s1 s2, digest_copy (kept ++ f1 :: rest1) size1 0 di_init scripts1 = Ok (s1, f1 :: rest1) /\
                digest_copy (kept ++ f2 :: rest2) size2 0 di_init scripts2 = Ok (s2, f2 :: rest2) /\
                di_kept s1 = kept /\ di_kept s2 = kept /\ di_axpc s1 = di_axpc s2 /\ di_axpc s1 = spec_axpc kept /\ di_files s1 = di_files s2 /\
                di_dirloc s1 = di_dirloc s2 /\ di_bm s1 = di_bm s2 /\ di_patch_start s1 = di_patch_start s2.
Proof.
  intros kept f1 rest1 f2 rest2 size1 size2 sc1 sc2 Hok Hnf Hl H1 H2 O1 O2.
  destruct (digest_copy_prefix kept f1 rest1 size1 0 di_init sc1 Hok Hnf Hl H1 ltac:(rewrite O1; lia) eq_refl) as (s1 & E1 & A1 & A2 & A3 & A4 & A5 & A6 & _).
  destruct (digest_copy_prefix kept f2 rest2 size2 0 di_init sc2 Hok Hnf Hl H2 ltac:(rewrite O2; lia) eq_refl) as (s2 & E2 & B1 & B2 & B3 & B4 & B5 & B6 & _).
  exists s1, s2. cbn [di_init di_kept di_axpc di_files di_bm app] in *. repeat split; auto; congruence.
Qed.

(* C02: what the digests cover.  The AXPC preimage the verifier recomputes IS the file in front of the signature member, so with a
   collision-free digest every byte of every payload member (local header, data as stored, descriptor) and of the regenerated
   manifest / block map / content types / catalog members is fixed by AXPC; the uncompressed data is fixed a second time by the
   block map under AXBM.  Not covered (witness): where the directory lies — Truncate rebuilds count, size and offsets — so bytes
   between the signature member and the directory change no digest (replayed on the real code: accepted) *)
Theorem appx_protect : forall front post, laid_out 0 front ->
  verifier_axpc (spec_axpc front ++ post) front = ztake (zlen (spec_axpc front)) (spec_axpc front ++ post).
Proof.
  intros front post Hl. change (spec_axpc front ++ post) with ([] ++ spec_axpc front ++ post) at 1.
  rewrite (verifier_axpc_spec front [] post Hl). symmetry. apply ztake_app_exact.
Qed.
Theorem appx_directory_position_unprotected_refuted : forall files sg d1 s1 d2 s2,
  truncate_dir (reread_dir (files ++ [sg]) d1 s1) (zlen files) = truncate_dir (reread_dir (files ++ [sg]) d2 s2) (zlen files).
Proof. intros. now rewrite !truncate_reread. Qed.

(* non-vacuity *)
Example blob_example : blob_marshal [1] [2] [3] [4] [] = T_APPX ++ T_AXPC ++ [1] ++ T_AXCD ++ [2] ++ T_AXCT ++ [3] ++ T_AXBM ++ [4].
Proof. reflexivity. Qed.
Example sign_hypotheses_satisfiable : exists st sg, FmtAPPX.ProofsW.ex_digest = Ok st /\ FmtAPPX.ProofsW.ex_sign st = Ok sg /\
  di_manifest st = Some [9; 9] /\ di_unverified st = false /\
  map am_name (sg_members sg) = [[97]; appx_n_manifest; appx_n_blockmap; appx_n_contenttypes; appx_n_signature] /\ sg_patch_start sg = 34.
Proof.
  eexists. eexists. split; [vm_compute; reflexivity|]. split; [vm_compute; reflexivity|]. repeat apply conj; reflexivity.
Qed.
Example empty_deflated_member_ok : am_ok FmtAPPX.ProofsW.w_empty /\ am_tight FmtAPPX.ProofsW.w_empty.
Proof. exact w_empty_ok. Qed.
