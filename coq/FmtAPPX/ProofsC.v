(* FmtAPPX/ProofsC.v — Sign appends well-formed members behind the kept ones: the invariant of the output while it does,
   and the shape of the signed package with its five preimages. *)
From Relic Require Import Base.Prelude Base.Enc Generated.C17_gen C17.Model Generated.FmtAPPX_gen FmtAPPX.Model FmtAPPX.ProofsA FmtAPPX.ProofsB.
From Relic Require Generated.C09_gen C09.Model.

Lemma am_total_go_ok m : am_ok m -> am_total_go m = am_total m.
Proof. intros (_ & Hc & _). unfold am_total_go, am_total, am_extent. rewrite Hc, !zlen_app. lia. Qed.

Lemma spec_axpc_app a b : spec_axpc (a ++ b) = spec_axpc a ++ spec_axpc b.
Proof. unfold spec_axpc. now rewrite map_app, concat_app. Qed.
Lemma spec_axpc_one m : spec_axpc [m] = am_extent m.
Proof. apply app_nil_r. Qed.
Lemma laid_out_app : forall a b p, laid_out p (a ++ b) <-> laid_out p a /\ laid_out (p + zlen (spec_axpc a)) b.
Proof.
  induction a as [|m a IH]; intros b p.
  - cbn [app laid_out spec_axpc map concat]. rewrite zlen_nil, Z.add_0_r. tauto.
  - cbn [app laid_out]. rewrite IH. unfold spec_axpc. cbn [map concat]. rewrite zlen_app, Z.add_assoc. unfold am_total. tauto.
Qed.

(* members ms lie back to back from offset 0; axpc, files, dirloc are the AXPC preimage, the output directory and its
   position that the signer has accumulated over them *)
Definition pkg_inv (ms : list amember) (axpc : bytes) (files : list cdent) (dirloc : Z) : Prop :=
  Forall am_ok ms /\ axpc = spec_axpc ms /\ files = map am_ent ms /\ laid_out 0 ms /\ dirloc = zlen (spec_axpc ms).

Lemma pkg_inv_snoc ms axpc files dirloc m : pkg_inv ms axpc files dirloc -> am_ok m -> e_offset (am_ent m) = dirloc ->
  pkg_inv (ms ++ [m]) (axpc ++ am_extent m) (files ++ [am_ent m]) (dirloc + am_total m).
Proof.
  intros (I1 & -> & -> & I4 & ->) Hok Hoff. unfold pkg_inv. rewrite spec_axpc_app, spec_axpc_one, map_app, zlen_app.
  repeat split; auto.
  - apply Forall_app. auto.
  - apply laid_out_app. cbn [laid_out]. rewrite Z.add_0_l. auto.
Qed.

(* what DigestAppxTar leaves behind for a package whose kept members are well-formed: pkg_inv of its kept members, AXPC
   preimage, output directory and directory position, written out *)
Definition dinv (st : dinfo) : Prop :=
  Forall am_ok (di_kept st) /\ di_axpc st = spec_axpc (di_kept st) /\
  di_files st = map am_ent (di_kept st) /\ laid_out 0 (di_kept st) /\ di_dirloc st = zlen (spec_axpc (di_kept st)).

Section SignProofs.
  Variable H : bytes -> bytes.
  Variable deflate : bytes -> bytes.
  Variable crc32 : bytes -> Z.
  Variable ser_bm : list bfile -> bytes.
  Variable ser_ct : ctypes -> bytes.
  Variable repub : bytes -> bytes.
  Variable mkcat : bytes.
  Variable mksig : bytes -> bytes.

  (* the member addZipEntry appends when the directory ends at dirloc *)
  Definition placed (name contents : bytes) (mt : Z * Z) (dirloc : Z) : amember :=
    let m0 := new_member deflate crc32 name contents mt in
    mkAM (last (fst (add_file [] dirloc (am_ent m0) (am_total_go m0))) ent0) (am_lfh m0) (am_raw m0) (am_dd m0) (am_segs m0) (am_trail m0) (am_crc m0).

  Lemma placed_facts name contents mt dirloc : let m := placed name contents mt dirloc in
    am_ok m /\ e_offset (am_ent m) = dirloc /\ am_name m = name /\ am_out m = contents.
  Proof.
    intros m. unfold m, placed, new_member, add_file, new_file. cbn [fst snd am_ent app last].
    change (af_offset dirloc) with dirloc.
    unfold am_ok, am_name, am_method, am_out, seg_raw.
    cbn [am_ent am_lfh am_raw am_dd am_segs am_trail am_crc e_method e_csize e_usize e_crc e_offset e_name].
    unfold nf_file_method. destruct (appx_entry_deflate name); cbn [Z.eqb map concat sg_raw sg_out];
      rewrite ?app_nil_r; repeat split; auto; intros; discriminate.
  Qed.

  Lemma add_zip_entry_ok name contents mt (st : sstate) : let m := placed name contents mt (ss_dirloc st) in
    add_zip_entry deflate crc32 name contents mt st =
    Ok (mkSS (ss_new st ++ [m]) (ss_axpc st ++ am_extent m) (if am_listed m then ss_bm st ++ [plain_bfile m] else ss_bm st)
             (ss_files st ++ [am_ent m]) (ss_dirloc st + am_total m)).
  Proof.
    intros m. destruct (placed_facts name contents mt (ss_dirloc st)) as (Hok & _). fold m in Hok.
    unfold add_zip_entry. change (appx_entry_newfile_args && appx_entry_feeds_axpc) with true. cbn [negb].
    unfold add_file. cbn [fst snd]. rewrite last_last. change (mkAM _ _ _ _ _ _ _) with m.
    rewrite (add_file_appx_ok m [] [] Hok). cbn [bind ar_raw ar_file]. change af_advances_dirloc with true. cbv iota.
    change (am_total_go (new_member deflate crc32 name contents mt)) with (am_total_go m). rewrite (am_total_go_ok m Hok).
    destruct (am_listed m); reflexivity.
  Qed.

  (* pkg_inv while Sign appends members behind the kept ones *)
  Definition sinv (kept : list amember) (s : sstate) : Prop := pkg_inv (kept ++ ss_new s) (ss_axpc s) (ss_files s) (ss_dirloc s).

  Lemma sinv_step kept s name contents mt : sinv kept s -> let m := placed name contents mt (ss_dirloc s) in
    exists s', add_zip_entry deflate crc32 name contents mt s = Ok s' /\ sinv kept s' /\ ss_new s' = ss_new s ++ [m] /\
               am_name m = name /\ am_out m = contents /\ e_offset (am_ent m) = ss_dirloc s.
  Proof.
    intros I m. destruct (placed_facts name contents mt (ss_dirloc s)) as (Hok & Hoff & Hn & Ho). fold m in Hok, Hoff, Hn, Ho.
    eexists. split; [apply add_zip_entry_ok|]. fold m. cbn [ss_new]. split; [|auto].
    unfold sinv. cbn [ss_new ss_axpc ss_files ss_dirloc]. rewrite app_assoc. now apply pkg_inv_snoc.
  Qed.
  (* writeCodeIntegrity: the catalog member is appended only when there are PE files *)
  Lemma sinv_step_opt (skip : bool) kept s name contents mt : sinv kept s ->
    exists s', (if skip then Ok s else add_zip_entry deflate crc32 name contents mt s) = Ok s' /\ sinv kept s' /\
               ss_new s' = ss_new s ++ (if skip then [] else [placed name contents mt (ss_dirloc s)]).
  Proof.
    intros I. destruct skip.
    - exists s. now rewrite app_nil_r.
    - destruct (sinv_step kept s name contents mt I) as (s' & E & I' & N & _). eauto.
  Qed.

  (* the signed package: kept members, then manifest, block map, content types, [catalog], signature; the five preimages;
     the patch is everything behind the kept members *)
  Theorem sign_shape st man sg : dinv st -> di_manifest st = Some man -> di_unverified st = false ->
    sign_appx H deflate crc32 ser_bm ser_ct repub mkcat mksig st = Ok sg ->
    exists mM mB mC opt sigm, let front := di_kept st ++ [mM; mB; mC] ++ opt in
      sg_members sg = front ++ [sigm] /\ laid_out 0 front /\ sg_files sg = map am_ent (front ++ [sigm]) /\
      am_name mM = appx_n_manifest /\ e_offset (am_ent mM) = zlen (spec_axpc (di_kept st)) /\
      am_name mB = appx_n_blockmap /\ am_out mB = sg_axbm sg /\ sg_axbm sg = ser_bm (sg_bm sg) /\
      am_name mC = appx_n_contenttypes /\ am_out mC = sg_axct sg /\
      match sg_axci sg with
      | Some c => exists mK, opt = [mK] /\ am_name mK = appx_n_codeintegrity /\ am_out mK = c
      | None => opt = []
      end /\
      am_name sigm = appx_n_signature /\ am_out sigm = appx_pkcx_magic ++ mksig (sg_blob sg) /\
      sg_axpc sg = spec_axpc front /\
      sg_axcd sg = cd_bytes (map am_ent front) ++ wd_tail (map am_ent front) (e_offset (am_ent sigm)) true /\
      sg_blob sg = blob_marshal (H (sg_axpc sg)) (H (sg_axcd sg)) (H (sg_axct sg)) (H (sg_axbm sg)) (match sg_axci sg with Some c => H c | None => [] end) /\
      sg_patch_start sg = di_patch_start st /\
      sg_patch sg = spec_axpc ([mM; mB; mC] ++ opt ++ [sigm]) ++ sg_directory sg.
  Proof.
    intros D Hman Hunv Hs. unfold sign_appx in Hs.
    match type of Hs with (if negb ?c then _ else _) = _ => change c with true in Hs end. cbn [negb] in Hs.
    rewrite Hman, Hunv in Hs. change (appx_manifest_is_package false) with true in Hs. change (appx_marshal_refuses false) with false in Hs.
    change appx_axct_is_plain_ctypes with true in Hs. change appx_axbm_is_plain_blockmap with true in Hs. change appx_axci_is_plain_catalog with true in Hs.
    cbv iota in Hs. set (mt := di_mtime st) in *.
    set (s0 := mkSS [] (di_axpc st) (di_bm st) (di_files st) (di_dirloc st)) in *.
    assert (I0 : sinv (di_kept st) s0) by (unfold sinv, s0; cbn [ss_new ss_axpc ss_files ss_dirloc]; rewrite app_nil_r; exact D).
    destruct (sinv_step _ s0 appx_n_manifest (repub man) mt I0) as (s1 & E1 & I1 & N1 & NM & _ & FM). rewrite E1 in Hs. cbn [bind] in Hs.
    set (mM := placed appx_n_manifest (repub man) mt (ss_dirloc s0)) in *.
    destruct (sinv_step _ s1 appx_n_blockmap (ser_bm (ss_bm s1)) mt I1) as (s2 & E2 & I2 & N2 & NB & OB & _). rewrite E2 in Hs. cbn [bind] in Hs.
    set (mB := placed appx_n_blockmap (ser_bm (ss_bm s1)) mt (ss_dirloc s1)) in *.
    set (ct := ct_regen (di_ct st) (map e_name (ss_files s2)) (di_npe st)) in *.
    destruct (sinv_step _ s2 appx_n_contenttypes (ser_ct ct) mt I2) as (s3 & E3 & I3 & N3 & NC & OC & _). rewrite E3 in Hs. cbn [bind] in Hs.
    set (mC := placed appx_n_contenttypes (ser_ct ct) mt (ss_dirloc s2)) in *.
    destruct (sinv_step_opt (appx_no_catalog (di_npe st)) _ s3 appx_n_codeintegrity mkcat mt I3) as (s4 & E4 & I4 & N4). rewrite E4 in Hs. cbn [bind] in Hs.
    set (opt := if appx_no_catalog (di_npe st) then [] else [placed appx_n_codeintegrity mkcat mt (ss_dirloc s3)]) in *.
    match type of Hs with context [add_zip_entry _ _ appx_n_signature ?c mt s4] =>
      destruct (sinv_step _ s4 appx_n_signature c mt I4) as (s5 & E5 & I5 & N5 & NS & OS & FS); set (sigm := placed appx_n_signature c mt (ss_dirloc s4)) in * end.
    rewrite E5 in Hs. cbn [bind] in Hs. injection Hs as <-.
    cbn [sg_members sg_files sg_directory sg_patch_start sg_patch sg_axpc sg_axcd sg_axct sg_axbm sg_axci sg_blob sg_bm].
    destruct D as (_ & _ & _ & _ & D5). destruct I4 as (_ & J2 & J3 & J4 & _). destruct I5 as (_ & _ & K3 & _).
    assert (N : ss_new s4 = [mM; mB; mC] ++ opt) by (rewrite N4, N3, N2, N1; reflexivity).
    rewrite N in J2, J3, J4. rewrite N5, N, (app_assoc (di_kept st)) in K3 |- *.
    exists mM, mB, mC, opt, sigm. rewrite FM, FS. repeat apply conj; try assumption; try reflexivity.
    - unfold opt. destruct (appx_no_catalog (di_npe st)); [reflexivity|].
      destruct (placed_facts appx_n_codeintegrity mkcat mt (ss_dirloc s3)) as (_ & _ & NK & OK). eauto.
    - now rewrite J3.
  Qed.
End SignProofs.
