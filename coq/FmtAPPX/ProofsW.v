(* FmtAPPX/ProofsW.v — the concrete witnesses of FmtAPPX/Properties.v: where the full statements fail for the code as it is, and
   what the alternative shapes of the source would do. *)
From Relic Require Import Base.Prelude Base.Enc Generated.C17_gen C17.Model Generated.FmtAPPX_gen FmtAPPX.Model.

Definition w_ent (method usize crc csize : Z) : cdent := mkEnt 45 20 0 method 0 0 crc csize usize [] [] [] 0 0 0 [].
(* an empty deflated member the way MakeAppx stores it: the two bytes of an empty final block *)
Definition w_empty : amember := mkAM (w_ent 8 0 0 2) [] [3; 0] [] [mkSeg [3; 0] []] [] 0.
(* the same stream followed by 4096 bytes that belong to no deflate block (CompressedSize counts them); before the reader
   drained the tee at EOF (relic 71d8dc1) only the first buffer fill (4096 of 4098 bytes) was hashed *)
Definition w_trail : amember := mkAM (w_ent 8 0 0 4098) [] ([3; 0] ++ repeat 0 4096) [] [mkSeg [3; 0] []] (repeat 0 4096) 0.

Lemma w_empty_ok : am_ok w_empty /\ am_tight w_empty.
Proof. unfold am_ok, am_tight. cbn. repeat split; auto. Qed.

(* two AXPC records: relic's reader takes the last one, the format has exactly one *)
Definition w_dup_blob : bytes := T_APPX ++ T_AXPC ++ [1] ++ T_AXPC ++ [2].

(* a deflated member for CopySizes against an old block map that lists nothing *)
Definition w_defl : amember := mkAM (w_ent 8 3 0 5) (repeat 0 31) [1; 2; 3; 4; 5] [] [mkSeg [1; 2; 3; 4; 5] [7; 8; 9]] [] 0.

(* content types: what the package declared is replaced *)
Definition s_png : bytes := [112; 110; 103].
Definition w_ct0 : ctypes := mkCT [(s_png, [105; 109; 97; 103; 101; 47; 120; 45; 112; 110; 103])] [].      (* png -> image/x-png; relic's table: image/png *)
Definition w_name : bytes := [97; 46; 112; 110; 103].                                                         (* a.png *)
Definition w_ct1 : ctypes := mkCT [] [(47 :: appx_n_blockmap, [116; 101; 120; 116; 47; 120; 109; 108])].     (* /AppxBlockMap.xml -> text/xml *)

(* a tiny package — one stored payload member, then the manifest — goes through DigestAppxTar and Sign: the hypotheses of the
   sign / verify theorems are satisfiable *)
Definition ex_payload : amember := mkAM (mkEnt 45 20 0 0 0 0 0 3 3 [97] [] [] 0 0 0 []) (repeat 0 31) [1; 2; 3] [] [] [] 0.
Definition ex_manifest : amember := mkAM (mkEnt 45 20 0 0 0 0 0 2 2 appx_n_manifest [] [] 0 0 34 []) (repeat 0 46) [9; 9] [] [] [] 0.
Definition ex_digest := digest_appx (fun _ => None) (fun _ => None) [ex_payload; ex_manifest] 200 [].
Definition ex_sign (st : dinfo) := sign_appx (fun x => [zlen x mod 256]) (fun x => x) (fun _ => 0) (fun _ => [1]) (fun _ => [2]) (fun x => x) [3] (fun b => b) st.
