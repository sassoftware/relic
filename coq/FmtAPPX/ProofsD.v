(* FmtAPPX/ProofsD.v — the verifier's side: verifyBlockMap's walk over 64 KiB blocks; what a re-sign keeps; DigestAppxTar's two
   loops. *)
From Relic Require Import Base.Prelude Base.Enc Base.Slice Generated.C17_gen C17.Model Generated.FmtAPPX_gen FmtAPPX.Model FmtAPPX.ProofsA FmtAPPX.ProofsB FmtAPPX.ProofsC.
From Relic Require Generated.C09_gen C09.Model C09.Proofs.

Lemma chunks_count B : 0 < B -> forall l, zlen (C09.Model.chunks B l) = (zlen l + B - 1) ÷ B.
Proof.
  intros HB. apply (C09.Proofs.chunks_ind B HB).
  - rewrite C09.Proofs.chunks_nil. cbn. rewrite Z.quot_small; lia.
  - intros l Hl IH. rewrite (C09.Proofs.chunks_step B HB), zlen_cons, IH, zlen_zdrop_gen by (assumption || lia).
    clear IH. (* else every lia below interprets its ÷ *) apply C09.Proofs.zlen_pos_iff in Hl. set (k := zlen l) in *.
    rewrite !Z.quot_div_nonneg by lia. destruct (Z_le_gt_dec k B).
    + replace (Z.max 0 (k - B)) with 0 by lia. rewrite (Z.div_small (0 + B - 1)) by lia. apply Z.div_unique with (r := k - 1); lia.
    + replace (Z.max 0 (k - B)) with (k - B) by lia.
      replace (k + B - 1) with ((k - B + B - 1) + 1 * B) by lia. rewrite Z.div_add by lia. lia.
Qed.

(* a block map entry that describes a member *)
Definition describes (m : amember) (f : bfile) : Prop :=
  bf_name f = zip_to_dos (am_name m) /\ bf_size f = zlen (am_out m) /\ map bb_data (bf_blocks f) = C09.Model.chunks 65536 (am_out m).

Section Walk.
  Variable Hv : bytes -> bytes.
  Definition vpfile (f : bfile) : pfile := mkPF (bf_name f) (bf_size f) (map (fun b => (Hv (bb_data b), bb_size b)) (bf_blocks f)).

  (* the verifier's reads (min(remaining, 64 KiB) at a time) meet the signer's blocks: both are ztake / zdrop 65536 *)
  Lemma vbm_blocks_ok : forall data (bl : list bblock), map bb_data bl = C09.Model.chunks 65536 data ->
    vbm_blocks Hv (map (fun b => (Hv (bb_data b), bb_size b)) bl) data (zlen data) = Ok 0.
  Proof.
    assert (HB : 0 < 65536) by lia. intros data. pattern data. apply (C09.Proofs.chunks_ind 65536 HB); clear data.
    - intros [|b r] Hc; [reflexivity|discriminate].
    - intros data Hd IH bl Hc. rewrite (C09.Proofs.chunks_step 65536 HB) in Hc by exact Hd.
      destruct bl as [|b r]; [discriminate|]. injection Hc as Hb Hr.
      cbn [map vbm_blocks]. unfold C09_gen.bm_verify_clip, C09_gen.blockMapSize.
      set (count := if zlen data >? 65536 then 65536 else zlen data).
      assert (Hn : count <= zlen data /\ ztake count data = ztake 65536 data /\ zdrop count data = zdrop 65536 data).
      { unfold count. destruct (Z.gtb_spec (zlen data) 65536); [split; [lia|auto]|]. rewrite !ztake_all, !zdrop_all by lia. auto with zarith. }
      destruct Hn as (Hn & -> & ->). replace (zlen data <? count) with false by lia. rewrite Hb, bytes_eqb_refl. cbn [negb].
      replace (zlen data - count) with (zlen (zdrop 65536 data)); [now apply IH|].
      rewrite zlen_zdrop_gen by lia. unfold count. destruct (Z.gtb_spec (zlen data) 65536); lia.
  Qed.
End Walk.

Definition not_footprint (m : amember) : Prop := in_names (am_name m) appx_footprint_names = false.
Definition unverified_of (ms : list amember) : bool := existsb (fun m => am_listed m && appx_addfile_sizes_unverified (am_method m)) ms.
Definition npe_of (ms : list amember) : Z := fold_left (fun a m => a + (if is_pe (am_name m) then 2 else 0)) ms 0.
Definition bm_of (ms : list amember) : list bfile := map plain_bfile (filter am_listed ms).

Section Kept.
  Variable H : bytes -> bytes.
  Variable deflate : bytes -> bytes.
  Variable crc32 : bytes -> Z.
  Variable ser_bm : list bfile -> bytes.
  Variable ser_ct : ctypes -> bytes.
  Variable repub : bytes -> bytes.
  Variable mkcat : bytes.
  Variable mksig : bytes -> bytes.

  (* C03: the signed package = the kept members as they were, then the regenerated footprint; the file in front of the patch is
     the input's; the patch starts where the input's first footprint member started and is everything behind the kept members *)
  Theorem payload_kept st man sg : dinv st -> di_manifest st = Some man -> di_unverified st = false ->
    sign_appx H deflate crc32 ser_bm ser_ct repub mkcat mksig st = Ok sg ->
    exists mM midr sigm, sg_members sg = di_kept st ++ (mM :: midr) ++ [sigm] /\ am_name mM = appx_n_manifest /\ am_name sigm = appx_n_signature /\
      e_offset (am_ent mM) = zlen (spec_axpc (di_kept st)) /\
      ztake (zlen (spec_axpc (di_kept st))) (spec_axpc (sg_members sg) ++ sg_directory sg) = spec_axpc (di_kept st) /\
      sg_patch_start sg = di_patch_start st /\
      spec_axpc (sg_members sg) ++ sg_directory sg = spec_axpc (di_kept st) ++ sg_patch sg.
  Proof.
    intros Hd Hman Hunv Hs.
    destruct (sign_shape H deflate crc32 ser_bm ser_ct repub mkcat mksig st man sg Hd Hman Hunv Hs)
      as (mM & mB & mC & opt & sigm & Em & _ & _ & NM & OM & _ & _ & _ & _ & _ & _ & Ns & _ & _ & _ & _ & Eps & Ep).
    exists mM, ([mB; mC] ++ opt), sigm. rewrite Em, Ep, !spec_axpc_app, <- !app_assoc. repeat split; auto. apply ztake_app_exact.
  Qed.
End Kept.

Lemma ent_eta f : mkEnt (e_creator f) (e_reader f) (e_flags f) (e_method f) (e_mtime f) (e_mdate f) (e_crc f) (e_csize f) (e_usize f)
                        (e_name f) (e_extra f) (e_comment f) (e_iattrs f) (e_eattrs f) (e_offset f) (e_raw f) = f.
Proof. destruct f. reflexivity. Qed.

(* the kept prefix: digested, appended to the output directory at the same offsets, until the first footprint member *)
Lemma digest_copy_prefix : forall kept f rest size pos st scripts,
  Forall am_ok kept -> Forall not_footprint kept -> laid_out pos kept ->
  in_names (am_name f) appx_footprint_names = true -> e_offset (am_ent f) = pos + zlen (spec_axpc kept) ->
  di_dirloc st = pos ->
  exists st', digest_copy (kept ++ f :: rest) size pos st scripts = Ok (st', f :: rest) /\
    di_kept st' = di_kept st ++ kept /\ di_axpc st' = di_axpc st ++ spec_axpc kept /\
    di_files st' = di_files st ++ map am_ent kept /\ di_dirloc st' = pos + zlen (spec_axpc kept) /\
    di_bm st' = di_bm st ++ bm_of kept /\ di_patch_start st' = e_offset (am_ent f) /\ di_patch_len st' = size - e_offset (am_ent f).
Proof.
  induction kept as [|m r IH]; intros f rest size pos st scripts Hok Hnf Hl Hf Ho Hd.
  - cbn [app digest_copy]. rewrite Hf. unfold appx_footprint_gap. cbn [spec_axpc map concat] in Ho. rewrite zlen_nil in Ho.
    rewrite Ho, Z.add_0_r, Z.eqb_refl. cbn [negb]. eexists. split; [reflexivity|].
    cbn [di_kept di_axpc di_files di_dirloc di_bm di_patch_start di_patch_len spec_axpc map concat bm_of filter].
    unfold appx_patch_start, appx_patch_len. rewrite !app_nil_r, zlen_nil, Z.add_0_r. repeat split; auto.
  - apply Forall_cons_iff in Hok as [Ho1 Ho2]. apply Forall_cons_iff in Hnf as [Hn1 Hn2]. destruct Hl as [Hl1 Hl2].
    cbn [app digest_copy]. unfold not_footprint in Hn1. rewrite Hn1.
    rewrite add_file_appx_ok by assumption. cbn [bind ar_raw ar_file ar_unverified]. rewrite Hl1, Z.eqb_refl. cbn [negb].
    rewrite (am_total_go_ok m Ho1).
    (* AddFile finds the member where the output directory ends, so its entry is appended unchanged *)
    replace (add_file (di_files st) (di_dirloc st) (am_ent m) (am_total m)) with (di_files st ++ [am_ent m], pos + am_total m).
    2:{ unfold add_file. change (af_offset (di_dirloc st)) with (di_dirloc st). change af_advances_dirloc with true. cbv iota.
        rewrite Hd, <- Hl1. unfold af_drop_raw. rewrite Z.eqb_refl. cbn [negb]. now rewrite ent_eta. }
    cbn [fst snd]. set (st1 := mkDI _ _ _ _ _ _ _ _ _ _ _ _ _).
    assert (Es : spec_axpc (m :: r) = am_extent m ++ spec_axpc r) by reflexivity. rewrite Es, zlen_app, Z.add_assoc in *.
    destruct (IH f rest size (pos + am_total m) st1 (tl scripts) Ho2 Hn2 Hl2 Hf Ho eq_refl) as (st' & E & K1 & K2 & K3 & K4 & K5 & K67).
    exists st'. unfold st1 in K1, K2, K3, K5. cbn [di_kept di_axpc di_files di_bm] in K1, K2, K3, K5.
    rewrite K1, K2, K3, K5, <- !app_assoc. repeat split; auto; try apply K67.
    unfold bm_of. cbn [filter]. destruct (am_listed m); cbn [map]; rewrite <- ?app_assoc; reflexivity.
Qed.

(* the second loop reads and parses footprint members only: what the first loop established stays *)
Section Footprint.
  Variable parse_bm : bytes -> option (list bfile).
  Variable parse_ct : bytes -> option ctypes.
  Lemma digest_footprint_keeps : forall ms st st', digest_footprint parse_bm parse_ct ms st = Ok st' ->
    di_kept st' = di_kept st /\ di_axpc st' = di_axpc st /\ di_files st' = di_files st /\ di_dirloc st' = di_dirloc st /\
    di_npe st' = di_npe st /\ di_patch_start st' = di_patch_start st /\ di_patch_len st' = di_patch_len st.
  Proof.
    induction ms as [|m r IH]; intros st st' Hs.
    - cbn in Hs. injection Hs as <-. repeat split.
    - cbn [digest_footprint] in Hs. destruct (member_read m ToEOF []) as [x| |]; cbn [bind] in Hs; try discriminate.
      destruct (footprint_action (am_name m) =? 0); [apply IH in Hs; cbn in Hs; exact Hs|].
      destruct (footprint_action (am_name m) =? 1); [apply IH in Hs; cbn in Hs; exact Hs|].
      destruct (footprint_action (am_name m) =? 2).
      { destruct (parse_bm (snd x)); [|discriminate]. destruct (copy_sizes l (di_bm st)); cbn [bind] in Hs; try discriminate. apply IH in Hs; cbn in Hs; exact Hs. }
      destruct (footprint_action (am_name m) =? 3).
      { destruct (parse_ct (snd x)); [|discriminate]. apply IH in Hs; cbn in Hs; exact Hs. }
      destruct (footprint_action (am_name m) =? 4); [apply IH in Hs; exact Hs|discriminate].
  Qed.
End Footprint.
