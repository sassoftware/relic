(* FmtPGP/Properties.v — what a reader that follows RFC 4880 gets out of the OpenPGP data relic writes itself: the packet framing of
   the inline signer (lib/pgptools/inline.go), then the cleartext signature framework (lib/pgptools/clearsign.go). *)
From Relic Require Import Base.Prelude Base.Enc Base.Slice Generated.FmtPGP_gen FmtPGP.Model FmtPGP.Proofs.

(* C05 / C01: for EVERY length a 32-bit length field can hold, the length octets serializeHeader writes are read back by an
   RFC 4880 reader as a DEFINITE length equal to that length (in particular never as a partial-body-length marker 224..254,
   which is what an off-by-one at the 191/192 or 8383/8384 boundary produces) *)
Theorem pgp_len_roundtrip : forall n t rest, 0 <= n < 4294967296 ->
  spec_new_len (tl (pgp_hdr t n) ++ rest) = Some (Definite n, rest).
Proof.
  intros n t rest [Hn0 Hn]. unfold pgp_hdr, pgp_len_one_octet, pgp_len_two_octet. cbn [tl].
  destruct (Z.ltb_spec n 192) as [H1|H1]; [|destruct (Z.ltb_spec n 8384) as [H2|H2]]; cbn [app].
  - unfold pgp_one_b1, wrap8. rewrite Z.mod_mod, (Z.mod_small n 256) by lia. apply spec_new_len_one. exact H1.
  - change pgp_two_subtracts_192 with true. cbv iota.
    unfold pgp_two_b1, pgp_two_b2, wrap8. rewrite Z.shiftr_div_pow2 by discriminate. change (2 ^ 8) with 256.
    (* the quotient is below 32, so neither reduction mod 256 changes anything *)
    set (q := (n - 192) / 256).
    assert (Hq : 0 <= q < 32) by (subst q; split; [apply Z.div_pos|apply Z.div_lt_upper_bound]; lia).
    rewrite Z.mod_mod by discriminate. rewrite (Z.mod_small q), (Z.mod_small (192 + q)) by lia.
    apply spec_new_len_two; [lia|]. replace (192 + q - 192) with q by ring. subst q. rewrite div_mod_256. ring.
  - unfold pgp_five_b1, pgp_five_b2, pgp_five_b3, pgp_five_b4, pgp_five_b5, wrap8.
    rewrite !Z.shiftr_div_pow2 by discriminate. change (255 mod 256) with 255. apply spec_new_len_five.
    (* the four octets are the base-256 digits of n: put together again from the top one, which needs no reduction *)
    change (2 ^ 24) with (256 * 256 * 256). change (2 ^ 16) with (256 * 256). change (2 ^ 8) with 256.
    rewrite <- !Z.div_div, !Z.mod_mod by lia.
    rewrite (Z.mod_small (n / 256 / 256 / 256)) by (split; [repeat apply Z.div_pos|repeat apply Z.div_lt_upper_bound]; lia).
    rewrite !div_mod_256. reflexivity.
Qed.
Theorem pgp_tag_roundtrip : forall t n, 0 <= t < 64 -> hd 0 (pgp_hdr t n) = 192 + t.
Proof.
  intros t n Ht. unfold pgp_hdr. cbn [hd]. unfold pgp_tag_octet, wrap8. rewrite (Z.mod_small t) by lia.
  change (Z.lor 128 64) with 192.
  (* 192 = 3 * 2^6 and t < 2^6 have no bit in common, so "or" adds *)
  assert (H0 : Z.land 192 t = 0).
  { rewrite <- (Z.mod_small t (2 ^ 6)) by lia. rewrite <- Z.land_ones, (Z.land_comm t), Z.land_assoc by lia. reflexivity. }
  rewrite <- Z.lxor_lor, <- Z.add_nocarry_lxor by exact H0. apply Z.mod_small. lia.
Qed.
(* a whole packet: the reader gets tag, body and what follows back *)
Lemma pgp_packet_roundtrip t body rest : 0 <= t < 64 -> zlen body < 4294967296 ->
  spec_packet (pgp_hdr t (zlen body) ++ body ++ rest) = Some (t, body, rest).
Proof.
  intros Ht Hb. pose proof (zlen_nonneg body). pose proof (zlen_nonneg rest).
  change (pgp_hdr t (zlen body)) with (hd 0 (pgp_hdr t (zlen body)) :: tl (pgp_hdr t (zlen body))).
  rewrite pgp_tag_roundtrip by lia. cbn [app spec_packet].
  replace ((192 + t <? 192) || (255 <? 192 + t)) with false by lia.
  rewrite pgp_len_roundtrip, zlen_app by lia.
  replace (zlen body + zlen rest <? zlen body) with false by lia.
  rewrite ztake_app_exact, zdrop_app_exact. replace (192 + t - 192) with t by lia. reflexivity.
Qed.
(* C03 / C05: a standard reader recovers exactly (file name cut to 255 octets, content) from the literal data packet that carries
   the payload of an inline-signed message, whatever follows the packet; relic refuses (Err) only above 4 GiB *)
Theorem pgp_literal_roundtrip : forall name content g rest, pgp_literal name content = Ok g ->
  spec_read_literal (g ++ rest) = Some (ztake 255 name, content, rest).
Proof.
  intros name content g rest. unfold pgp_literal. change pgp_literal_is_tag_11 with true. cbv zeta iota.
  unfold pgp_literal_too_big. change (Z.shiftl 2 31 - 1) with 4294967295.
  destruct (_ >? _) eqn:E; [discriminate|]. intros H. apply Ok_inj in H. subst g.
  unfold spec_read_literal. rewrite <- app_assoc, pgp_packet_roundtrip by lia.
  change (11 =? 11) with true. cbv iota. rewrite spec_literal_body. reflexivity.
Qed.

(* non-vacuity, at the boundaries *)
Example len_191 : tl (pgp_hdr 11 191) = [191]. Proof. reflexivity. Qed.
Example len_192 : tl (pgp_hdr 11 192) = [192; 0]. Proof. reflexivity. Qed.
Example len_8383 : tl (pgp_hdr 11 8383) = [223; 255]. Proof. reflexivity. Qed.
Example len_8384 : tl (pgp_hdr 11 8384) = [255; 0; 0; 32; 192]. Proof. reflexivity. Qed.
Example literal_small : pgp_literal [97] [1; 2; 3] = Ok [203; 10; 98; 1; 97; 0; 0; 0; 0; 1; 2; 3]. Proof. reflexivity. Qed.

(* ================================================================== cleartext signatures (lib/pgptools/clearsign.go) *)
From Relic Require Import FmtPGP.ClearModel FmtPGP.ClearLib FmtPGP.ClearProofs.

(* C05: the text the OpenPGP encoder hashes for ANY document is the canonical text of RFC 4880 5.2.4 / 7.1 (lines cut at LF, trailing
   blanks and the CR of a CR LF ending removed, CR LF between lines, nothing after the last line) ... *)
Theorem pgp_cs_hashed_eq_spec : forall doc, enc_hashed doc = spec_canon doc.
Proof. intros doc. exact (proj1 (esc_hash_lines doc)). Qed.
(* ... and the cleartext it writes is every line of the document without its trailing blanks, dash-escaped, followed by LF *)
Theorem pgp_cs_body_eq_spec : forall doc, enc_body doc = concat (map (fun l => esc_line l ++ [LF]) (doc_lines doc)).
Proof. exact FmtPGP.ClearLib.enc_body_eq_lines. Qed.

(* C01 / C05: for EVERY document (any number of lines, every line length) and every armor the library writes: whenever the signing
   side (DetachClearSign) and the client side (MergeClearSign) both succeed, an RFC 4880 section 7 reader takes relic's output apart
   into the Hash header, the lines of the document (none broken, merged or truncated), as text exactly what was hashed, and the
   signature block exactly as the signing side delivered it, which is the library's armor line by line *)
Theorem pgp_cs_roundtrip : forall hname doc real_rest fake_rest sig M, ~ In LF hname -> ~ In CR hname ->
  detach_clearsign hname doc (armor_of real_rest) = Ok sig ->
  merge_clearsign hname doc (armor_of fake_rest) sig = Ok M ->
  sig = block_of real_rest /\
  exists c, spec_read_cleartext M = Some c /\
            ct_headers c = [rstrip (hash_hdr ++ hname)] /\
            ct_lines c = map rstrip (doc_lines doc) /\
            ct_text c = enc_hashed doc /\ ct_text c = spec_canon doc /\
            ct_sig c = split_lf sig.
Proof.
  intros hname doc real_rest fake_rest sig M Hlf Hcr Hd Hm.
  rewrite detach_eq in Hd by assumption. destruct (has_long _ _); [discriminate Hd|]. apply Ok_inj in Hd. subst sig.
  rewrite merge_eq in Hm by assumption. destruct (has_long _ _); [discriminate Hm|]. apply Ok_inj in Hm. subst M.
  split; [reflexivity|]. destruct (block_form real_rest) as [X EX]. rewrite EX, read_merged by exact Hlf.
  eexists. split; [reflexivity|]. unfold ct_text. cbn [ct_headers ct_lines ct_sig]. rewrite pgp_cs_hashed_eq_spec.
  repeat split; reflexivity.
Qed.
(* C01 / C05: hence the signature verifies for any verifier that follows the RFC (packet-level check symbolic) *)
Theorem pgp_cs_sign_then_verify : forall (sig_ok : bytes -> list bytes -> bool) hname doc real_rest fake_rest sig M,
  ~ In LF hname -> ~ In CR hname ->
  detach_clearsign hname doc (armor_of real_rest) = Ok sig ->
  merge_clearsign hname doc (armor_of fake_rest) sig = Ok M ->
  sig_ok (enc_hashed doc) (split_lf sig) = true ->
  rfc_verify sig_ok M = true.
Proof.
  intros sig_ok hname doc real_rest fake_rest sig M Hlf Hcr Hd Hm Hok.
  destruct (pgp_cs_roundtrip hname doc real_rest fake_rest sig M Hlf Hcr Hd Hm) as [_ [c [Hr [_ [_ [Ht [_ Hs]]]]]]].
  unfold rfc_verify. rewrite Hr, Ht, Hs. exact Hok.
Qed.
(* C03: the payload view *)
Theorem pgp_cs_text_preserved : forall hname doc real_rest fake_rest sig M, ~ In LF hname -> ~ In CR hname ->
  detach_clearsign hname doc (armor_of real_rest) = Ok sig ->
  merge_clearsign hname doc (armor_of fake_rest) sig = Ok M ->
  exists c, spec_read_cleartext M = Some c /\ ct_lines c = map rstrip (doc_lines doc) /\ length (ct_lines c) = length (doc_lines doc).
Proof.
  intros hname doc real_rest fake_rest sig M Hlf Hcr Hd Hm.
  destruct (pgp_cs_roundtrip hname doc real_rest fake_rest sig M Hlf Hcr Hd Hm) as [_ [c [Hr [_ [Hl _]]]]].
  exists c. split; [exact Hr|]. split; [exact Hl|]. rewrite Hl. apply map_length.
Qed.
(* C01 / C11: a document with an emitted line (trailing blanks removed, "- " added in front of a dash) as long as the token limit of
   the line reader -- the generated pgp_cs_tail_max_token / pgp_cs_head_max_token, today bufio.MaxScanTokenSize = 65536 on both
   sides -- is REFUSED with an error: by the signing side, and by the client side ... *)
Theorem pgp_cs_refuses_long_line : forall hname doc real_rest fake_rest sig, ~ In LF hname -> ~ In CR hname ->
  (Exists (fun l => pgp_cs_tail_max_token <= zlen (esc_line l)) (doc_lines doc) ->
   detach_clearsign hname doc (armor_of real_rest) = Err E_TOOLONG) /\
  (Exists (fun l => pgp_cs_head_max_token <= zlen (esc_line l)) (doc_lines doc) ->
   merge_clearsign hname doc (armor_of fake_rest) sig = Err E_TOOLONG).
Proof.
  intros hname doc real_rest fake_rest sig Hlf Hcr. split; intros He.
  - rewrite detach_eq, has_long_app, (pre_long _ _ _ He) by assumption. reflexivity.
  - rewrite merge_eq, (pre_long _ _ _ He) by assumption. reflexivity.
Qed.
(* ... and every other document is signed (the armor lines of the library are 64 characters, hash names a few) *)
Theorem pgp_cs_signs_short_lines : forall hname doc real_rest fake_rest, ~ In LF hname -> ~ In CR hname ->
  zlen hname + 6 < pgp_cs_tail_max_token -> zlen hname + 6 < pgp_cs_head_max_token ->
  Forall (line_fits pgp_cs_tail_max_token) (doc_lines doc) -> Forall (line_fits pgp_cs_head_max_token) (doc_lines doc) ->
  Forall (fun l => zlen l < pgp_cs_tail_max_token) (split_lf (real_rest ++ pgp_cs_crlf)) ->
  exists M, detach_clearsign hname doc (armor_of real_rest) = Ok (block_of real_rest) /\
            merge_clearsign hname doc (armor_of fake_rest) (block_of real_rest) = Ok M.
Proof.
  intros hname doc real_rest fake_rest Hlf Hcr Hht Hhh Hdt Hdh Ha. eexists.
  rewrite detach_eq, merge_eq, has_long_app, has_long_cons by assumption.
  rewrite (pre_short _ _ _ tail_max_big Hht Hdt), (pre_short _ _ _ head_max_big Hhh Hdh).
  rewrite sig_short_tail, (has_long_false _ _ Ha). split; reflexivity.
Qed.
(* C11: neither call can block for ever, whatever the document and whatever the encoder writes *)
Theorem pgp_cs_no_hang : forall hname doc armor fake_armor sig,
  (forall p, detach_clearsign hname doc armor <> Panic p) /\ (forall p, merge_clearsign hname doc fake_armor sig <> Panic p).
Proof.
  intros hname doc armor fake_armor sig. split; intros p.
  - unfold detach_clearsign, pipe_result. change pgp_cs_detach_closes_pipe with true. rewrite orb_true_r.
    unfold tail_clearsign. destruct (read_lines _ _ _ _) as [toks err]. destruct (err && _); discriminate.
  - unfold merge_clearsign, pipe_result. change pgp_cs_merge_closes_pipe with true. destruct (head_clearsign _) as [o st].
    rewrite orb_true_r. destruct (_ || _); discriminate.
Qed.

(* non-vacuity: a small document with a dash line, trailing blanks, CR LF, a lone CR and no final newline; both sides succeed *)
Definition ex_sha256 : bytes := [83; 72; 65; 50; 53; 54].
Definition ex_rest : bytes := [10; 65; 66; 67; 68; 10; 61; 69; 70; 71; 72; 10; 45; 45; 45; 45; 45; 69; 78; 68].
Definition ex_doc : bytes := [45; 97; 32; 10; 32; 32; 10; 98; 13; 99; 13; 10; 100].
Example cs_small_detach : detach_clearsign ex_sha256 ex_doc (armor_of ex_rest) = Ok (block_of ex_rest).
Proof. vm_compute. reflexivity. Qed.
Example cs_small_merge : exists M, merge_clearsign ex_sha256 ex_doc (armor_of ex_rest) (block_of ex_rest) = Ok M /\
  option_map ct_text (spec_read_cleartext M) = Some [45; 97; 13; 10; 13; 10; 98; 13; 99; 13; 10; 100].
Proof. eexists. split; [vm_compute; reflexivity|]. vm_compute. reflexivity. Qed.
(* the limit (today 65536 on both sides): a line one byte below it is signed, a line of exactly that many bytes is refused *)
Definition ex_line (n : Z) : bytes := repeat 97 (Z.to_nat n).

(* Running the model on a line of 64 KiB is slow to check.  A document of n > 0 letters "a" is one line that the
   encoder leaves as it is, so the two theorems above decide by comparing n with the limit. *)
Lemma ex_line_lines n : 0 < n -> doc_lines (ex_line n) = [ex_line n] /\ zlen (esc_line (ex_line n)) = n.
Proof.
  intros Hn. unfold ex_line. destruct (Z.to_nat n) as [|k] eqn:Ek; [lia|].
  assert (Hlf : ~ In LF (repeat 97 (S k))) by (intros H; apply repeat_spec in H; discriminate H).
  assert (Hs : rstrip (repeat 97 (S k)) = repeat 97 (S k)).
  { clear. induction (S k) as [|m IH]; [reflexivity|]. cbn [repeat]. rewrite rstrip_cons_nonblank, IH; reflexivity. }
  split.
  - unfold doc_lines. rewrite split_lf_nolf by exact Hlf. reflexivity.
  - unfold esc_line. rewrite Hs. cbn [repeat]. change (97 =? 45) with false. cbv iota.
    change (97 :: repeat 97 k) with (repeat 97 (S k)). rewrite zlen_repeat. lia.
Qed.
Lemma ex_line_fits max n : 0 < n < max -> Forall (line_fits max) (doc_lines (ex_line n)).
Proof. intros Hn. destruct (ex_line_lines n) as [-> E]; [lia|]. repeat constructor. unfold line_fits. lia. Qed.
Lemma ex_line_long max n : 0 < n -> max <= n -> Exists (fun l => max <= zlen (esc_line l)) (doc_lines (ex_line n)).
Proof. intros Hn Hm. destruct (ex_line_lines n) as [-> E]; [lia|]. left. lia. Qed.
Lemma ex_sha256_plain : ~ In LF ex_sha256 /\ ~ In CR ex_sha256.
Proof. split; apply notin_dec; reflexivity. Qed.

Example cs_limit_below : let n := Z.min pgp_cs_tail_max_token pgp_cs_head_max_token - 1 in
  is_ok (detach_clearsign ex_sha256 (ex_line n) (armor_of ex_rest)) = true /\
  is_ok (merge_clearsign ex_sha256 (ex_line n) (armor_of ex_rest) (block_of ex_rest)) = true.
Proof.
  intros n. pose proof tail_max_big. pose proof head_max_big. destruct ex_sha256_plain as [Hlf Hcr].
  destruct (pgp_cs_signs_short_lines ex_sha256 (ex_line n) ex_rest ex_rest Hlf Hcr) as [M [-> ->]].
  - reflexivity.
  - reflexivity.
  - apply ex_line_fits. lia.
  - apply ex_line_fits. lia.
  - unfold ex_rest. cbn [app split_lf Z.eqb Pos.eqb pgp_cs_crlf LF]. repeat constructor.
  - split; reflexivity.
Qed.
Example cs_limit_hyp : Exists (fun l => pgp_cs_tail_max_token <= zlen (esc_line l)) (doc_lines (ex_line pgp_cs_tail_max_token)).
Proof. pose proof tail_max_big. apply ex_line_long; lia. Qed.
Example cs_limit_at : detach_clearsign ex_sha256 (ex_line pgp_cs_tail_max_token) (armor_of ex_rest) = Err E_TOOLONG /\
                      merge_clearsign ex_sha256 (ex_line pgp_cs_head_max_token) (armor_of ex_rest) (block_of ex_rest) = Err E_TOOLONG.
Proof.
  pose proof head_max_big. destruct ex_sha256_plain as [Hlf Hcr]. split.
  - apply (proj1 (pgp_cs_refuses_long_line ex_sha256 (ex_line pgp_cs_tail_max_token) ex_rest ex_rest [] Hlf Hcr)). exact cs_limit_hyp.
  - apply (proj2 (pgp_cs_refuses_long_line ex_sha256 (ex_line pgp_cs_head_max_token) ex_rest ex_rest (block_of ex_rest) Hlf Hcr)). apply ex_line_long; lia.
Qed.
