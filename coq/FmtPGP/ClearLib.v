(* FmtPGP/ClearLib.v — lemmas about lines (split_lf / join / rstrip / drop_cr) and the equivalence of the encoder's byte-level
   state machine (go-crypto dashEscaper, ClearModel.esc_out / esc_hash) with the line-level description of RFC 4880 7.1. *)
From Relic Require Import Base.Prelude Generated.FmtPGP_gen FmtPGP.ClearModel.

(* ------------------------------------------------------------------ split_lf *)
Lemma split_lf_nonempty l : split_lf l <> [].
Proof.
  destruct l as [|b r]; cbn [split_lf]; [discriminate|].
  destruct (split_lf r); [discriminate|]. destruct (b =? LF); discriminate.
Qed.
Lemma split_lf_cons_lf r : split_lf (LF :: r) = [] :: split_lf r.
Proof.
  cbn [split_lf]. pose proof (split_lf_nonempty r). destruct (split_lf r); [contradiction|].
  change (LF =? LF) with true. reflexivity.
Qed.
(* split_lf returns at least one piece: its result is written hd :: tl, which spares a case distinction at every use *)
Lemma split_lf_cons_other b r : b <> LF -> split_lf (b :: r) = (b :: hd [] (split_lf r)) :: tl (split_lf r).
Proof.
  intros Hb. cbn [split_lf]. pose proof (split_lf_nonempty r). destruct (split_lf r); [contradiction|].
  destruct (Z.eqb_spec b LF); [contradiction|reflexivity].
Qed.
Lemma split_lf_app_lf a b : ~ In LF a -> split_lf (a ++ LF :: b) = a :: split_lf b.
Proof.
  induction a as [|x a IH]; intros Hn; cbn [app]; [apply split_lf_cons_lf|].
  apply not_in_cons in Hn as [Hx Hn]. rewrite split_lf_cons_other, IH by auto. reflexivity.
Qed.
Lemma split_lf_nolf a : ~ In LF a -> split_lf a = [a].
Proof.
  induction a as [|x a IH]; intros Hn; [reflexivity|].
  apply not_in_cons in Hn as [Hx Hn]. rewrite split_lf_cons_other, IH by auto. reflexivity.
Qed.
Lemma split_lf_pieces_nolf d : Forall (fun l => ~ In LF l) (split_lf d).
Proof.
  induction d as [|b r IH]; [constructor; [intros []|constructor]|].
  destruct (Z.eqb_spec b LF) as [->|Hb].
  - rewrite split_lf_cons_lf. constructor; [intros []|exact IH].
  - rewrite split_lf_cons_other by exact Hb. pose proof (split_lf_nonempty r). destruct (split_lf r) as [|cur rest]; [contradiction|].
    inversion IH as [|? ? H1 H2]; subst. constructor; [|exact H2].
    intros [E|Hin]; [congruence|exact (H1 Hin)].
Qed.
(* lines, each followed by LF, then something else *)
Lemma split_lf_lines ls t : Forall (fun l => ~ In LF l) ls ->
  split_lf (concat (map (fun l => l ++ [LF]) ls) ++ t) = ls ++ split_lf t.
Proof.
  induction 1 as [|l ls Hl _ IH]; [reflexivity|].
  cbn [map concat app]. rewrite <- !app_assoc. cbn [app]. rewrite split_lf_app_lf by exact Hl. rewrite IH. reflexivity.
Qed.

(* ------------------------------------------------------------------ drop_last_empty, join *)
Lemma dle_cons (l : bytes) r : l <> [] \/ r <> [] -> drop_last_empty (l :: r) = l :: drop_last_empty r.
Proof.
  intros H. cbn [drop_last_empty]. destruct r; [|reflexivity]. destruct l; [destruct H; contradiction|reflexivity].
Qed.
Lemma dle_app a b : b <> [] -> drop_last_empty (a ++ b) = a ++ drop_last_empty b.
Proof.
  intros Hb. induction a as [|x a IH]; [reflexivity|].
  cbn [app]. rewrite dle_cons by (right; destruct a; [exact Hb|discriminate]). rewrite IH. reflexivity.
Qed.
Lemma dle_Forall (P : bytes -> Prop) ls : Forall P ls -> Forall P (drop_last_empty ls).
Proof.
  induction 1 as [|l r Hl Hr IH]; [constructor|].
  cbn [drop_last_empty]. destruct r; [destruct l; constructor; [exact Hl|constructor]|constructor; assumption].
Qed.
Lemma dle_split_cons_nonempty b r : drop_last_empty (split_lf (b :: r)) <> [].
Proof.
  pose proof (split_lf_nonempty r) as Hn.
  destruct (Z.eqb_spec b LF) as [->|Hb].
  - rewrite split_lf_cons_lf, dle_cons by (right; exact Hn). discriminate.
  - rewrite split_lf_cons_other, dle_cons by (exact Hb || (left; discriminate)). discriminate.
Qed.
Lemma join_cons sep x r : join sep (x :: r) = x ++ match r with [] => [] | _ => sep ++ join sep r end.
Proof. cbn [join]. destruct r; [symmetry; apply app_nil_r|reflexivity]. Qed.

(* ------------------------------------------------------------------ rstrip *)
Lemma rstrip_cons b r : rstrip (b :: r) = match rstrip r with [] => if is_blank b then [] else [b] | r' => b :: r' end.
Proof. reflexivity. Qed.
Lemma rstrip_cons_nonblank b r : is_blank b = false -> rstrip (b :: r) = b :: rstrip r.
Proof. intros Hb. rewrite rstrip_cons, Hb. destruct (rstrip r); reflexivity. Qed.
Lemma rstrip_cons_blank b r : is_blank b = true -> rstrip (b :: r) = match rstrip r with [] => [] | r' => b :: r' end.
Proof. intros Hb. rewrite rstrip_cons, Hb. reflexivity. Qed.
Lemma rstrip_In x l : In x (rstrip l) -> In x l.
Proof.
  induction l as [|b r IH]; [intros []|].
  rewrite rstrip_cons. destruct (rstrip r) as [|y r'].
  - destruct (is_blank b); [intros []|]. intros [H|[]]. left. exact H.
  - intros [H|H]; [left; exact H|right; apply IH; exact H].
Qed.
Lemma rstrip_app_blank l b : is_blank b = true -> rstrip (l ++ [b]) = rstrip l.
Proof.
  intros Hb. induction l as [|x l IH]; cbn [app]; rewrite !rstrip_cons.
  - rewrite Hb. reflexivity.
  - rewrite IH. reflexivity.
Qed.
Lemma rstrip_idem l : rstrip (rstrip l) = rstrip l.
Proof.
  induction l as [|b r IH]; [reflexivity|].
  rewrite rstrip_cons. destruct (rstrip r) as [|y r'].
  - destruct (is_blank b) eqn:Hb; [reflexivity|]. rewrite rstrip_cons, Hb. reflexivity.
  - rewrite rstrip_cons, IH. reflexivity.
Qed.
(* a line without trailing blanks does not end in CR *)
Lemma drop_cr_stripped x : rstrip x = x -> drop_cr x = x.
Proof.
  induction x as [|b r IH]; [reflexivity|].
  rewrite rstrip_cons. intros H. cbn [drop_cr]. destruct r as [|c r'].
  - cbn [rstrip] in H. destruct (is_blank b) eqn:Hb; [discriminate H|].
    destruct (Z.eqb_spec b CR) as [->|]; [discriminate Hb|reflexivity].
  - f_equal. apply IH. destruct (rstrip (c :: r')) as [|z q].
    + destruct (is_blank b); discriminate H.
    + congruence.
Qed.
Lemma drop_cr_noCR l : ~ In CR l -> drop_cr l = l.
Proof.
  induction l as [|b r IH]; [reflexivity|]. intros Hn. apply not_in_cons in Hn as [Hb Hn]. cbn [drop_cr]. destruct r as [|c r'].
  - destruct (Z.eqb_spec b CR); [congruence|reflexivity].
  - f_equal. apply IH. exact Hn.
Qed.

(* ------------------------------------------------------------------ esc_line *)
Lemma esc_line_nolf l : ~ In LF l -> ~ In LF (esc_line l).
Proof.
  intros Hn. unfold esc_line. destruct (rstrip l) as [|b r] eqn:E; [intros []|].
  assert (Hs : forall x, In x (b :: r) -> In x l) by (intros x Hx; apply rstrip_In; rewrite E; exact Hx).
  destruct (b =? 45).
  - intros [H|[H|H]]; [discriminate H|discriminate H|]. apply Hn. apply Hs. exact H.
  - intros H. apply Hn. apply Hs. exact H.
Qed.
Lemma esc_line_stripped l : rstrip (esc_line l) = esc_line l.
Proof.
  unfold esc_line. pose proof (rstrip_idem l) as Hi. destruct (rstrip l) as [|b r] eqn:E; [reflexivity|].
  destruct (b =? 45) eqn:Hb; [|exact Hi].
  apply Z.eqb_eq in Hb. subst b.
  rewrite (rstrip_cons_nonblank 45), (rstrip_cons_blank 32), Hi by reflexivity. reflexivity.
Qed.
(* undash matches on the numeral 45, which is a nest of matches on the bits of b *)
Lemma undash_other b r : (b =? 45) = false -> undash (b :: r) = b :: r.
Proof.
  intros Hb. cbn [undash]. destruct b as [|p|p]; try reflexivity.
  do 6 (destruct p as [p|p|]; try reflexivity). discriminate Hb.
Qed.
Lemma esc_line_undash l : rstrip (undash (esc_line l ++ [CR])) = rstrip l.
Proof.
  unfold esc_line. pose proof (rstrip_idem l) as Hi. destruct (rstrip l) as [|b r] eqn:E; [reflexivity|].
  destruct (b =? 45) eqn:Hb.
  - apply Z.eqb_eq in Hb. subst b. cbn [app undash].
    change (45 :: r ++ [CR]) with ((45 :: r) ++ [CR]). rewrite rstrip_app_blank by reflexivity. exact Hi.
  - cbn [app]. rewrite undash_other, app_comm_cons, rstrip_app_blank by (exact Hb || reflexivity). exact Hi.
Qed.
Lemma esc_line_not_marker l : bytes_eqb (esc_line l) spec_begin_sig = false.
Proof.
  unfold esc_line. destruct (rstrip l) as [|b r]; [reflexivity|].
  destruct (b =? 45) eqn:Hb; [reflexivity|].
  unfold bytes_eqb, spec_begin_sig. cbn [list_eqb]. rewrite Hb. reflexivity.
Qed.

(* ------------------------------------------------------------------ the encoder, line by line *)
Lemma esc_tests b : pgp_esc_is_ws b = is_blank b /\ pgp_esc_is_dash b = (b =? 45) /\ pgp_esc_is_lf b = (b =? LF).
Proof. repeat apply conj; reflexivity. Qed.
Lemma esc_consts : pgp_esc_dash_escape = [45; 32] /\ pgp_esc_crlf = [CR; LF].
Proof. split; reflexivity. Qed.

(* what comes out for the rest cur of a line when the blanks ws before it were held back: nothing if cur is blank as well *)
Definition mid (ws cur : bytes) : bytes := match rstrip cur with [] => [] | s => ws ++ s end.

Lemma mid_nil_ws cur : mid [] cur = rstrip cur.
Proof. unfold mid. destruct (rstrip cur); reflexivity. Qed.
Lemma mid_nil ws : mid ws [] = [].
Proof. reflexivity. Qed.
Lemma mid_cons ws b cur : mid ws (b :: cur) = if is_blank b then mid (ws ++ [b]) cur else ws ++ b :: rstrip cur.
Proof.
  unfold mid. rewrite rstrip_cons. destruct (is_blank b), (rstrip cur); try reflexivity.
  rewrite <- app_assoc. reflexivity.
Qed.
Lemma blank_not_dash b : is_blank b = true -> (b =? 45) = false.
Proof. intros H. destruct (Z.eqb_spec b 45) as [->|]; [discriminate H|reflexivity]. Qed.
Lemma esc_line_cons b cur :
  esc_line (b :: cur) = if is_blank b then mid [b] cur else (if b =? 45 then [45; 32] else []) ++ b :: rstrip cur.
Proof.
  unfold esc_line, mid. destruct (is_blank b) eqn:Hb.
  - rewrite rstrip_cons_blank by exact Hb. destruct (rstrip cur); [reflexivity|]. rewrite (blank_not_dash b Hb). reflexivity.
  - rewrite rstrip_cons_nonblank by exact Hb. destruct (b =? 45); reflexivity.
Qed.

Definition body_of (ls : list bytes) : bytes := concat (map (fun l => esc_line l ++ [LF]) (drop_last_empty ls)).

Lemma body_of_cons l r : l <> [] \/ r <> [] -> body_of (l :: r) = esc_line l ++ [LF] ++ body_of r.
Proof.
  intros H. unfold body_of. rewrite dle_cons by exact H. cbn [map concat]. rewrite <- app_assoc. reflexivity.
Qed.

(* what the encoder writes: every line of the document without its trailing blanks, dash-escaped, followed by LF.
   Second part: in the middle of a line, with blanks ws held back. *)
Lemma esc_out_lines data :
  esc_out true [] data = body_of (split_lf data) /\
  (forall ws, esc_out false ws data = mid ws (hd [] (split_lf data)) ++ [LF] ++ body_of (tl (split_lf data))).
Proof.
  induction data as [|b r [IHb IHm]]; [split; [reflexivity|intros ws; reflexivity]|].
  destruct (esc_tests b) as (Ews & Edash & Elf). destruct esc_consts as [Ede _].
  cbn [esc_out]. rewrite Ews, Edash, Elf, Ede.
  destruct (Z.eqb_spec b LF) as [->|Hlf].
  - change (is_blank LF) with false. change (LF =? 45) with false. cbv iota.
    rewrite split_lf_cons_lf, IHb. cbn [hd tl]. rewrite body_of_cons by (right; apply split_lf_nonempty). split; reflexivity.
  - rewrite split_lf_cons_other by exact Hlf. cbn [hd tl]. rewrite body_of_cons by (left; discriminate). split.
    + rewrite esc_line_cons. destruct (is_blank b); rewrite IHm; [reflexivity|]. rewrite mid_nil_ws. destruct (b =? 45); reflexivity.
    + intros ws. rewrite mid_cons. destruct (is_blank b); rewrite IHm; [reflexivity|]. rewrite mid_nil_ws, <- !app_assoc. reflexivity.
Qed.

(* the canonical text of lines that are not the first: CR LF in front of each *)
Definition canon_rest (rest : list bytes) : bytes :=
  match drop_last_empty rest with [] => [] | ls => [CR; LF] ++ join [CR; LF] (map rstrip ls) end.
Definition canon_of (ls : list bytes) : bytes := join [CR; LF] (map rstrip (drop_last_empty ls)).

Lemma join_canon_rest x rest : join [CR; LF] (x :: map rstrip (drop_last_empty rest)) = x ++ canon_rest rest.
Proof. rewrite join_cons. unfold canon_rest. destruct (drop_last_empty rest); reflexivity. Qed.
Lemma canon_of_cons l r : l <> [] \/ r <> [] -> canon_of (l :: r) = rstrip l ++ canon_rest r.
Proof.
  intros H. unfold canon_of. rewrite dle_cons by exact H. apply join_canon_rest.
Qed.

(* what the encoder hashes: the lines without trailing blanks, joined with CR LF, nothing after the last one.
   Second part: at the beginning of a line that is not the first; third: in the middle of a line. *)
Lemma esc_hash_lines data :
  esc_hash true true [] data = canon_of (split_lf data) /\
  esc_hash true false [] data = canon_rest (split_lf data) /\
  (forall ws, esc_hash false false ws data = mid ws (hd [] (split_lf data)) ++ canon_rest (tl (split_lf data))).
Proof.
  induction data as [|b r [IH1 [IH2 IHm]]]; [repeat split|].
  destruct (esc_tests b) as (Ews & Edash & Elf). destruct esc_consts as [_ Ecrlf].
  assert (Hfirst : esc_hash true true [] (b :: r) = canon_of (split_lf (b :: r))).
  { cbn [esc_hash andb negb app]. rewrite Ews, Edash, Elf. destruct (Z.eqb_spec b LF) as [->|Hlf].
    - change (is_blank LF) with false. change (LF =? 45) with false. cbv iota.
      rewrite split_lf_cons_lf, canon_of_cons by (right; apply split_lf_nonempty). exact IH2.
    - rewrite split_lf_cons_other, canon_of_cons by (exact Hlf || (left; discriminate)).
      rewrite <- (mid_nil_ws (b :: _)), mid_cons. destruct (is_blank b); rewrite IHm; [reflexivity|].
      rewrite mid_nil_ws. destruct (b =? 45); reflexivity. }
  split; [exact Hfirst|]. split.
  - change (esc_hash true false [] (b :: r)) with (pgp_esc_crlf ++ esc_hash true true [] (b :: r)).
    rewrite Hfirst, Ecrlf. unfold canon_rest, canon_of.
    pose proof (dle_split_cons_nonempty b r). destruct (drop_last_empty (split_lf (b :: r))); [contradiction|reflexivity].
  - intros ws. cbn [esc_hash andb negb app]. rewrite Ews, Elf. destruct (Z.eqb_spec b LF) as [->|Hlf].
    + change (is_blank LF) with false. cbv iota. rewrite split_lf_cons_lf. exact IH2.
    + rewrite split_lf_cons_other by exact Hlf. cbn [hd tl]. rewrite mid_cons.
      destruct (is_blank b); rewrite IHm; [reflexivity|]. rewrite mid_nil_ws, <- !app_assoc. reflexivity.
Qed.

Lemma enc_body_eq_lines doc : enc_body doc = concat (map (fun l => esc_line l ++ [LF]) (doc_lines doc)).
Proof. exact (proj1 (esc_out_lines doc)). Qed.
