(* FmtPGP/ClearProofs.v — relic's cleartext signature path (ClearModel.detach_clearsign / merge_clearsign) against the RFC 4880
   reader: lines are never broken, merged or truncated; documents with a line the reader cannot hold are refused; nothing hangs.
   The two calls are brought to closed form (detach_eq, merge_eq): an error exactly when a line of the encoder's stream is too
   long for the scanner, the expected bytes otherwise. *)
From Relic Require Import Base.Prelude Base.Lists Base.Slice Generated.FmtPGP_gen FmtPGP.ClearModel FmtPGP.ClearLib.

Lemma notin_dec c l : existsb (Z.eqb c) l = false -> ~ In c l.
Proof. intros E H. apply existsb_Zeqb_In in H. congruence. Qed.
Lemma notin_app {A} (c : A) a b : ~ In c a -> ~ In c b -> ~ In c (a ++ b).
Proof. intros Ha Hb H. apply in_app_or in H as [H|H]; [exact (Ha H)|exact (Hb H)]. Qed.

(* ------------------------------------------------------------------ the scanner on a list of raw lines *)
(* a buffer of max bytes that is full has reached the token limit: the scanner's test is len(buf) >= max || ..., taken at max *)
Lemma scan_too_long_eq max n : scan_too_long max n = (max <=? n).
Proof. unfold scan_too_long, go_bufio_scan_full_is_error. rewrite Z.geb_leb, Z.leb_refl. apply andb_true_r. Qed.

Definition has_long (max : Z) (ls : list bytes) : bool := existsb (fun l => scan_too_long max (zlen l)) ls.

Lemma has_long_cons max l ls : has_long max (l :: ls) = scan_too_long max (zlen l) || has_long max ls.
Proof. reflexivity. Qed.
Lemma has_long_app max a b : has_long max (a ++ b) = has_long max a || has_long max b.
Proof. apply existsb_app. Qed.
Lemma has_long_false max ls : Forall (fun l => zlen l < max) ls -> has_long max ls = false.
Proof.
  induction 1 as [|l ls Hl _ IH]; [reflexivity|].
  rewrite has_long_cons, IH, scan_too_long_eq. lia.
Qed.
Lemma has_long_true max ls : Exists (fun l => max <= zlen l) ls -> has_long max ls = true.
Proof.
  induction 1 as [l ls Hl|l ls _ IH]; rewrite has_long_cons.
  - rewrite scan_too_long_eq. lia.
  - rewrite IH. apply orb_true_r.
Qed.
Lemma scan_raw_err max raw : snd (scan_raw max raw) = has_long max raw.
Proof.
  induction raw as [|l rest IH]; [reflexivity|].
  cbn [scan_raw has_long existsb]. destruct (scan_too_long max (zlen l)); [reflexivity|].
  destruct rest as [|y q]; [reflexivity|]. destruct (scan_raw max (y :: q)). exact IH.
Qed.
Lemma scan_raw_ok max raw : has_long max raw = false -> fst (scan_raw max raw) = map drop_cr (drop_last_empty raw).
Proof.
  induction raw as [|l rest IH]; [reflexivity|]. intros H. apply orb_false_iff in H as [Hl H].
  cbn [scan_raw]. rewrite Hl. destruct rest as [|y q].
  - destruct l as [|z l]; [reflexivity|].
    replace (zlen (z :: l) =? 0) with false by (rewrite zlen_cons; pose proof (zlen_nonneg l); lia). reflexivity.
  - rewrite (dle_cons l (y :: q)) by (right; discriminate). cbn [map]. rewrite <- (IH H).
    destruct (scan_raw max (y :: q)). reflexivity.
Qed.
(* a prefix of lines that fit is passed on as it is *)
Lemma scan_raw_short max a b : has_long max a = false -> b <> [] ->
  scan_raw max (a ++ b) = (map drop_cr a ++ fst (scan_raw max b), snd (scan_raw max b)).
Proof.
  intros Ha Hb. induction a as [|l a IH]; cbn [app map].
  - destruct (scan_raw max b); reflexivity.
  - apply orb_false_iff in Ha as [Hl Ha]. cbn [scan_raw]. rewrite Hl, (IH Ha).
    destruct (a ++ b) eqn:E; [apply app_eq_nil in E as [_ E]; contradiction|reflexivity].
Qed.
(* the scanner never gets past a line that is too long *)
Lemma scan_raw_stops max a b : has_long max a = true -> scan_raw max (a ++ b) = scan_raw max a.
Proof.
  induction a as [|l a IH]; [discriminate|]. cbn [has_long existsb app scan_raw].
  destruct (scan_too_long max (zlen l)); [reflexivity|]. cbn [orb]. intros Ha. rewrite (IH Ha).
  destruct a as [|y q]; [discriminate Ha|reflexivity].
Qed.
Lemma scan_raw_tokens (P : bytes -> Prop) max raw : Forall P (map drop_cr raw) -> Forall P (fst (scan_raw max raw)).
Proof.
  induction raw as [|l rest IH]; [constructor|]. cbn [map scan_raw]. intros H. inversion H as [|? ? Hl Hr]; subst.
  destruct (scan_too_long max (zlen l)); [constructor|]. destruct rest as [|y q].
  - destruct (zlen l =? 0); repeat constructor. exact Hl.
  - specialize (IH Hr). destruct (scan_raw max (y :: q)). constructor; [exact Hl|exact IH].
Qed.

(* ------------------------------------------------------------------ headClearSign / tailClearSign on tokens *)
Definition nosig (t : bytes) : Prop := bytes_eqb t pgp_cs_sig_header = false.

Lemma head_body_eq t :
  head_body pgp_cs_head_steps t = if bytes_eqb t pgp_cs_sig_header then ([], true) else (t ++ pgp_cs_crlf, false).
Proof.
  cbv [head_body pgp_cs_head_steps Z.eqb Pos.eqb pgp_cs_head_is_sig].
  destruct (bytes_eqb t pgp_cs_sig_header); [reflexivity|]. cbn [app]. rewrite app_nil_r. reflexivity.
Qed.
Lemma head_loop_nosig ts r : Forall nosig ts ->
  head_loop (ts ++ r) = (concat (map (fun t => t ++ pgp_cs_crlf) ts) ++ fst (head_loop r), snd (head_loop r)).
Proof.
  induction 1 as [|t ts Ht _ IH].
  - cbn [app map concat]. destruct (head_loop r); reflexivity.
  - cbn [app head_loop map concat]. rewrite head_body_eq. unfold nosig in Ht. rewrite Ht. rewrite IH.
    cbn [fst snd]. rewrite <- !app_assoc. reflexivity.
Qed.
Lemma head_loop_sig r : head_loop (pgp_cs_sig_header :: r) = ([], true).
Proof. cbn [head_loop]. rewrite head_body_eq, bytes_eqb_refl. reflexivity. Qed.
Lemma head_loop_nosig_only ts : Forall nosig ts -> snd (head_loop ts) = false.
Proof. intros H. rewrite <- (app_nil_r ts). rewrite head_loop_nosig by exact H. reflexivity. Qed.

Lemma tail_emit_eq t : tail_emit t = t ++ [CR; LF].
Proof. cbv [tail_emit pgp_cs_tail_writes map concat fst snd Z.eqb]. rewrite app_nil_r. reflexivity. Qed.
Lemma tail_loop_cons copying t r :
  tail_loop copying (t :: r) =
  (if copying || bytes_eqb t pgp_cs_sig_header then t ++ [CR; LF] else []) ++ tail_loop (copying || bytes_eqb t pgp_cs_sig_header) r.
Proof.
  cbn [tail_loop]. rewrite tail_emit_eq.
  change (existsb (Z.eqb 5) pgp_cs_tail_steps) with true. cbn [andb].
  unfold pgp_cs_tail_copy_cond. change pgp_cs_tail_sets_copying with true. rewrite andb_true_r.
  destruct copying; [reflexivity|]. cbn [orb]. destruct (bytes_eqb t pgp_cs_sig_header); reflexivity.
Qed.
Lemma tail_loop_skip ts r : Forall nosig ts -> tail_loop false (ts ++ r) = tail_loop false r.
Proof.
  induction 1 as [|t ts Ht _ IH]; [reflexivity|].
  cbn [app]. rewrite tail_loop_cons. unfold nosig in Ht. rewrite Ht. cbn [orb app]. exact IH.
Qed.
Lemma tail_loop_copy ts : tail_loop true ts = concat (map (fun t => t ++ [CR; LF]) ts).
Proof.
  induction ts as [|t ts IH]; [reflexivity|]. rewrite tail_loop_cons. cbn [orb map concat]. rewrite IH. reflexivity.
Qed.

(* ------------------------------------------------------------------ the lines of the encoder's stream *)
Definition raw_pre (hname doc : bytes) : list bytes :=
  tl pgp_esc_start :: (hash_hdr ++ hname) :: [] :: map esc_line (doc_lines doc).
Definition armor_of (arest : bytes) : bytes := pgp_cs_sig_header ++ LF :: arest.

Lemma pre_nolf hname doc : ~ In LF hname -> Forall (fun l => ~ In LF l) (raw_pre hname doc).
Proof.
  intros Hn. unfold raw_pre. constructor; [apply notin_dec; reflexivity|].
  constructor; [apply notin_app; [apply notin_dec; reflexivity|exact Hn]|]. constructor; [intros []|].
  apply Forall_map. eapply Forall_impl; [|apply dle_Forall, split_lf_pieces_nolf]. intros l Hl. apply esc_line_nolf. exact Hl.
Qed.
Lemma stream_lines hname doc arest : ~ In LF hname ->
  split_lf (clearsign_stream hname doc (armor_of arest)) =
  raw_pre hname doc ++ pgp_cs_sig_header :: split_lf (arest ++ pgp_cs_crlf).
Proof.
  intros Hn.
  assert (E : clearsign_stream hname doc (armor_of arest) =
              concat (map (fun l => l ++ [LF]) (raw_pre hname doc)) ++ pgp_cs_sig_header ++ LF :: arest ++ pgp_cs_crlf).
  { unfold clearsign_stream, enc_stream, raw_pre, armor_of. change pgp_cs_clearsign_writes_crlf with true. cbv iota.
    rewrite enc_body_eq_lines. cbn [map concat]. rewrite map_map, <- !app_assoc. reflexivity. }
  rewrite E, split_lf_lines by (apply pre_nolf; exact Hn).
  rewrite split_lf_app_lf by (apply notin_dec; reflexivity). reflexivity.
Qed.
Lemma pre_tokens hname doc : ~ In CR hname -> map drop_cr (raw_pre hname doc) = raw_pre hname doc.
Proof.
  intros Hn. unfold raw_pre. cbn [map]. change (drop_cr (tl pgp_esc_start)) with (tl pgp_esc_start). change (drop_cr []) with (@nil Z).
  rewrite drop_cr_noCR by (apply notin_app; [apply notin_dec; reflexivity|exact Hn]).
  rewrite map_map. do 3 f_equal. apply map_ext. intros l. apply drop_cr_stripped, esc_line_stripped.
Qed.
Lemma pre_nosig hname doc : Forall nosig (raw_pre hname doc).
Proof.
  unfold raw_pre, nosig. constructor; [reflexivity|]. constructor; [reflexivity|]. constructor; [reflexivity|].
  apply Forall_map. apply Forall_forall. intros l _. change pgp_cs_sig_header with spec_begin_sig. apply esc_line_not_marker.
Qed.

(* ------------------------------------------------------------------ headClearSign on the encoder's stream *)
Lemma sig_short_head : scan_too_long pgp_cs_head_max_token (zlen pgp_cs_sig_header) = false.
Proof. reflexivity. Qed.
Lemma sig_short_tail : scan_too_long pgp_cs_tail_max_token (zlen pgp_cs_sig_header) = false.
Proof. reflexivity. Qed.

Lemma head_clearsign_eq s :
  let r := scan_raw pgp_cs_head_max_token (split_lf s) in
  head_clearsign s =
  (fst (head_loop (fst r)), if snd (head_loop (fst r)) then 0 else if snd r then E_TOOLONG else E_NOSIG).
Proof.
  unfold head_clearsign, read_lines, scan_lines. change (pgp_cs_head_reader =? 1) with true. cbv iota zeta.
  destruct (scan_raw _ _) as [toks err]. cbn [fst snd]. destruct (head_loop toks). cbn [fst snd].
  change pgp_cs_head_returns_scan_err with true. rewrite andb_true_r. reflexivity.
Qed.
(* lines after the marker are never looked at *)
Lemma head_ok hname doc arest : ~ In LF hname -> ~ In CR hname ->
  has_long pgp_cs_head_max_token (raw_pre hname doc) = false ->
  head_clearsign (clearsign_stream hname doc (armor_of arest)) =
  (concat (map (fun t => t ++ pgp_cs_crlf) (raw_pre hname doc)), 0).
Proof.
  intros Hlf Hcr Hs. rewrite head_clearsign_eq, stream_lines by exact Hlf.
  change (pgp_cs_sig_header :: ?L) with ([pgp_cs_sig_header] ++ L). rewrite app_assoc, scan_raw_short.
  2:{ rewrite has_long_app, Hs. cbn [has_long existsb orb]. rewrite sig_short_head. reflexivity. }
  2:{ apply split_lf_nonempty. }
  cbn [fst]. rewrite map_app, pre_tokens, <- app_assoc by exact Hcr.
  rewrite head_loop_nosig by apply pre_nosig. cbn [map app]. change (drop_cr pgp_cs_sig_header) with pgp_cs_sig_header.
  rewrite head_loop_sig. cbn [fst snd]. rewrite app_nil_r. reflexivity.
Qed.
(* a line too long before the marker: the tokens returned so far do not contain the marker *)
Lemma head_long hname doc arest : ~ In LF hname -> ~ In CR hname ->
  has_long pgp_cs_head_max_token (raw_pre hname doc) = true ->
  snd (head_clearsign (clearsign_stream hname doc (armor_of arest))) = E_TOOLONG.
Proof.
  intros Hlf Hcr Hs. rewrite head_clearsign_eq, stream_lines, scan_raw_stops by assumption. cbn [snd].
  rewrite scan_raw_err, Hs, head_loop_nosig_only; [reflexivity|].
  apply scan_raw_tokens. rewrite pre_tokens by exact Hcr. apply pre_nosig.
Qed.

(* ------------------------------------------------------------------ DetachClearSign / MergeClearSign *)
(* the signature block relic hands to the client: the armor lines of the encoder, each terminated by CR LF *)
Definition block_of (arest : bytes) : bytes :=
  concat (map (fun t => t ++ [CR; LF]) (pgp_cs_sig_header :: map drop_cr (drop_last_empty (split_lf (arest ++ pgp_cs_crlf))))).

Lemma tail_clearsign_eq s :
  tail_clearsign s = if has_long pgp_cs_tail_max_token (split_lf s) then Err E_TOOLONG
                     else Ok (tail_loop false (map drop_cr (drop_last_empty (split_lf s)))).
Proof.
  unfold tail_clearsign, read_lines, scan_lines. change (pgp_cs_tail_reader =? 1) with true. cbv iota.
  pose proof (scan_raw_err pgp_cs_tail_max_token (split_lf s)) as He.
  pose proof (scan_raw_ok pgp_cs_tail_max_token (split_lf s)) as Ht.
  destruct (scan_raw _ _) as [toks err]. cbn [fst snd] in He, Ht. subst err.
  change pgp_cs_tail_returns_scan_err with true. rewrite andb_true_r.
  destruct (has_long _ _); [reflexivity|]. rewrite Ht by reflexivity. reflexivity.
Qed.
Lemma detach_eq hname doc arest : ~ In LF hname -> ~ In CR hname ->
  detach_clearsign hname doc (armor_of arest) =
  if has_long pgp_cs_tail_max_token (raw_pre hname doc ++ pgp_cs_sig_header :: split_lf (arest ++ pgp_cs_crlf))
  then Err E_TOOLONG else Ok (block_of arest).
Proof.
  intros Hlf Hcr. unfold detach_clearsign, pipe_result. change pgp_cs_detach_closes_pipe with true. rewrite orb_true_r.
  rewrite tail_clearsign_eq, stream_lines by exact Hlf. destruct (has_long _ _); [reflexivity|]. f_equal.
  rewrite dle_app by discriminate. rewrite dle_cons by (right; apply split_lf_nonempty).
  rewrite map_app, pre_tokens by exact Hcr. rewrite tail_loop_skip by apply pre_nosig.
  cbn [map]. change (drop_cr pgp_cs_sig_header) with pgp_cs_sig_header.
  rewrite tail_loop_cons, bytes_eqb_refl. cbn [orb]. rewrite tail_loop_copy. reflexivity.
Qed.
Lemma merge_eq hname doc arest sig : ~ In LF hname -> ~ In CR hname ->
  merge_clearsign hname doc (armor_of arest) sig =
  if has_long pgp_cs_head_max_token (raw_pre hname doc) then Err E_TOOLONG
  else Ok (concat (map (fun t => t ++ pgp_cs_crlf) (raw_pre hname doc)) ++ sig).
Proof.
  intros Hlf Hcr. unfold merge_clearsign, pipe_result. change pgp_cs_merge_closes_pipe with true.
  change pgp_cs_merge_returns_head_err with true. change (existsb (Z.eqb 3) pgp_cs_merge_calls) with true. cbn [negb].
  destruct (has_long _ _) eqn:E.
  - pose proof (head_long hname doc arest Hlf Hcr E) as Hst.
    destruct (head_clearsign _) as [o st]. cbn [snd] in Hst. subst st. rewrite orb_true_r. reflexivity.
  - rewrite head_ok by assumption. rewrite orb_true_r. reflexivity.
Qed.

(* ------------------------------------------------------------------ the RFC reader on relic's output *)
Lemma spec_body_lines ls s0 srest : bytes_eqb (rstrip s0) spec_begin_sig = true ->
  spec_body (map (fun t => t ++ [CR]) (map esc_line ls) ++ s0 :: srest) = Some (map rstrip ls, s0 :: srest).
Proof.
  intros Hs. induction ls as [|l ls IH].
  - cbn [map app spec_body]. rewrite Hs. reflexivity.
  - cbn [map app spec_body]. rewrite rstrip_app_blank by reflexivity. rewrite esc_line_stripped, esc_line_not_marker.
    rewrite IH. rewrite esc_line_undash. reflexivity.
Qed.
Lemma crlf_lines ls : concat (map (fun t => t ++ pgp_cs_crlf) ls) = concat (map (fun l => l ++ [LF]) (map (fun t => t ++ [CR]) ls)).
Proof.
  rewrite map_map. f_equal. apply map_ext. intros t. rewrite <- app_assoc. reflexivity.
Qed.
Lemma read_merged hname doc X : ~ In LF hname ->
  spec_read_cleartext (concat (map (fun t => t ++ pgp_cs_crlf) (raw_pre hname doc)) ++ pgp_cs_sig_header ++ [CR; LF] ++ X) =
  Some (mkClear [rstrip (hash_hdr ++ hname)] (map rstrip (doc_lines doc)) (split_lf (pgp_cs_sig_header ++ [CR; LF] ++ X))).
Proof.
  intros Hn. unfold spec_read_cleartext. rewrite crlf_lines. rewrite split_lf_lines.
  2:{ apply Forall_map. eapply Forall_impl; [|apply pre_nolf; exact Hn]. intros l Hl. apply notin_app; [exact Hl|apply notin_dec; reflexivity]. }
  assert (Es : split_lf (pgp_cs_sig_header ++ [CR; LF] ++ X) = (pgp_cs_sig_header ++ [CR]) :: split_lf X).
  { change (pgp_cs_sig_header ++ [CR; LF] ++ X) with (pgp_cs_sig_header ++ [CR] ++ LF :: X). rewrite app_assoc.
    apply split_lf_app_lf. apply notin_dec. reflexivity. }
  rewrite Es. unfold raw_pre. cbn [map app].
  replace (bytes_eqb (rstrip (tl pgp_esc_start ++ [CR])) spec_begin_msg) with true by reflexivity.
  cbn [spec_headers]. rewrite rstrip_app_blank by reflexivity.
  assert (Eh : rstrip (hash_hdr ++ hname) = 72 :: rstrip (tl hash_hdr ++ hname)) by (unfold hash_hdr; cbn [app tl]; apply rstrip_cons_nonblank; reflexivity).
  rewrite Eh. change (rstrip [CR]) with (@nil Z). cbv beta iota.
  rewrite spec_body_lines by reflexivity. reflexivity.
Qed.
Lemma block_form arest : exists X, block_of arest = pgp_cs_sig_header ++ [CR; LF] ++ X.
Proof. unfold block_of. cbn [map concat]. rewrite <- app_assoc. eexists. reflexivity. Qed.

(* ------------------------------------------------------------------ which lines are too long: the limit is the scanner's token size *)
Definition line_fits (max : Z) (l : bytes) : Prop := zlen (esc_line l) < max.

Lemma head_max_big : 40 < pgp_cs_head_max_token. Proof. reflexivity. Qed.
Lemma tail_max_big : 40 < pgp_cs_tail_max_token. Proof. reflexivity. Qed.

Lemma pre_short max hname doc : 40 < max -> zlen hname + 6 < max ->
  Forall (line_fits max) (doc_lines doc) -> has_long max (raw_pre hname doc) = false.
Proof.
  intros Hmax Hh Hd. apply has_long_false. unfold raw_pre.
  constructor; [change (zlen (tl pgp_esc_start)) with 34; lia|].
  constructor; [rewrite zlen_app; change (zlen hash_hdr) with 6; lia|].
  constructor; [change (zlen (@nil Z)) with 0; lia|].
  apply Forall_map. exact Hd.
Qed.
Lemma pre_long max hname doc :
  Exists (fun l => max <= zlen (esc_line l)) (doc_lines doc) -> has_long max (raw_pre hname doc) = true.
Proof. intros He. apply has_long_true. unfold raw_pre. do 3 right. apply Exists_map. exact He. Qed.

(* symbolic cryptography: the packet-level check of a verifier that follows RFC 4880 *)
Section Verify.
  Variable sig_ok : bytes -> list bytes -> bool.     (* canonical text -> armor lines of the signature -> verdict of the packet-level check *)
  Definition rfc_verify (msg : bytes) : bool :=
    match spec_read_cleartext msg with Some c => sig_ok (ct_text c) (ct_sig c) | None => false end.
End Verify.
