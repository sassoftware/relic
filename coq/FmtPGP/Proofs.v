(* FmtPGP/Proofs.v — the RFC 4880 reader of Model.v on the octet patterns serializeHeader and serializeLiteral produce. *)
From Relic Require Import Base.Prelude Base.Enc Base.Slice Generated.FmtPGP_gen FmtPGP.Model.

Lemma div_mod_256 a : a / 256 * 256 + a mod 256 = a.
Proof. rewrite Z.mul_comm. symmetry. apply Z.div_mod. discriminate. Qed.

(* the three shapes of a definite length, each with the length it stands for *)
Lemma spec_new_len_one o r : o < 192 -> spec_new_len (o :: r) = Some (Definite o, r).
Proof. intros H. cbn [spec_new_len]. replace (o <? 192) with true by lia. reflexivity. Qed.
Lemma spec_new_len_two o1 o2 r n : 192 <= o1 < 224 -> (o1 - 192) * 256 + o2 + 192 = n ->
  spec_new_len (o1 :: o2 :: r) = Some (Definite n, r).
Proof.
  intros H <-. cbn [spec_new_len]. replace (o1 <? 192) with false by lia. replace (o1 <? 224) with true by lia. reflexivity.
Qed.
Lemma spec_new_len_five a b c d r n : ((a * 256 + b) * 256 + c) * 256 + d = n ->
  spec_new_len (255 :: a :: b :: c :: d :: r) = Some (Definite n, r).
Proof. intros <-. reflexivity. Qed.

Lemma spec_literal_body name content :
  spec_literal (pgp_literal_body name content) = Some (98, ztake 255 name, content).
Proof.
  unfold pgp_literal_body, pgp_name_too_long. change pgp_name_cut_255 with true. cbv zeta iota.
  assert ((if zlen name >? 255 then ztake 255 name else name) = ztake 255 name) as ->
    by (destruct (zlen name >? 255) eqn:E; [reflexivity|symmetry; apply ztake_all; lia]).
  set (nm := ztake 255 name).
  assert (0 <= zlen nm <= 255) by (pose proof (zlen_nonneg name); subst nm; rewrite zlen_ztake_min; lia).
  pose proof (zlen_nonneg content).
  unfold wrap8. rewrite Z.mod_small by lia. cbn [app spec_literal].
  replace (zlen (nm ++ 0 :: 0 :: 0 :: 0 :: content) <? zlen nm + 4) with false by (rewrite zlen_app, !zlen_cons; lia).
  rewrite ztake_app_exact. change (nm ++ 0 :: 0 :: 0 :: 0 :: content) with (nm ++ [0; 0; 0; 0] ++ content).
  rewrite app_assoc, zdrop_app_len by (rewrite zlen_app; reflexivity). reflexivity.
Qed.
