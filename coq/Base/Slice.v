(* Base/Slice.v — lemmas about ztake / zdrop / zslice, zlen, all_bytes and bytes_eqb that every unit needs.
   Two shapes recur: the `_exact` lemmas have the length written in the goal (zlen a), the `_len` lemmas take it
   as an equation, for goals where the index is a computed number. *)
From Relic Require Import Base.Prelude Base.Enc Base.Lists.

(* ---- equality test on byte strings *)
Lemma bytes_eqb_eq a b : bytes_eqb a b = true <-> a = b.
Proof. apply list_eqb_Z_eq. Qed.
Lemma bytes_eqb_refl a : bytes_eqb a a = true.
Proof. now apply bytes_eqb_eq. Qed.
Lemma bytes_eqb_neq a b : bytes_eqb a b = false <-> a <> b.
Proof. rewrite <- bytes_eqb_eq. now destruct (bytes_eqb a b). Qed.
Lemma bytes_eqb_sym a b : bytes_eqb a b = bytes_eqb b a.
Proof.
  destruct (bytes_eqb b a) eqn:E; [apply bytes_eqb_eq in E as ->; apply bytes_eqb_refl|].
  apply bytes_eqb_neq. apply bytes_eqb_neq in E. congruence.
Qed.

(* ---- lengths *)
Lemma zlen_length {A} (l : list A) : zlen l = Z.of_nat (length l).
Proof. reflexivity. Qed.
Lemma zlen_0_nil {A} (l : list A) : zlen l = 0 -> l = [].
Proof. destruct l; [reflexivity|]. rewrite zlen_cons. pose proof (zlen_nonneg l). lia. Qed.
Lemma zlen_map {A B} (f : A -> B) l : zlen (map f l) = zlen l.
Proof. unfold zlen. now rewrite map_length. Qed.
Lemma zlen_rev {A} (l : list A) : zlen (rev l) = zlen l.
Proof. unfold zlen. now rewrite rev_length. Qed.
Lemma zlen_repeat {A} (x : A) n : zlen (repeat x n) = Z.of_nat n.
Proof. unfold zlen. now rewrite repeat_length. Qed.
Lemma zlen_ztake_min {A} n (l : list A) : 0 <= n -> zlen (ztake n l) = Z.min n (zlen l).
Proof. unfold zlen, ztake. rewrite firstn_length. lia. Qed.
Lemma zlen_ztake_le {A} n (l : list A) : zlen (ztake n l) <= zlen l.
Proof. unfold zlen, ztake. rewrite firstn_length. lia. Qed.
Lemma zlen_zdrop_gen {A} n (l : list A) : 0 <= n -> zlen (zdrop n l) = Z.max 0 (zlen l - n).
Proof. unfold zlen, zdrop. rewrite skipn_length. lia. Qed.
Lemma zlen_zdrop_le {A} n (l : list A) : zlen (zdrop n l) <= zlen l.
Proof. unfold zlen, zdrop. rewrite skipn_length. lia. Qed.
Lemma zlen_zslice {A} p q (l : list A) : 0 <= p <= q -> q <= zlen l -> zlen (zslice p q l) = q - p.
Proof. intros. unfold zslice. rewrite zlen_ztake; rewrite ?zlen_zdrop; lia. Qed.

(* ---- take and drop *)
Lemma ztake_0 {A} (l : list A) : ztake 0 l = [].
Proof. reflexivity. Qed.
Lemma ztake_firstn {A} n (l : list A) : ztake (Z.of_nat n) l = firstn n l.
Proof. unfold ztake. now rewrite Nat2Z.id. Qed.
Lemma zdrop_skipn {A} n (l : list A) : zdrop (Z.of_nat n) l = skipn n l.
Proof. unfold zdrop. now rewrite Nat2Z.id. Qed.
Lemma zdrop_cons {A} k (x : A) l : 0 <= k -> zdrop (1 + k) (x :: l) = zdrop k l.
Proof. intros H. unfold zdrop. replace (Z.to_nat (1 + k)) with (S (Z.to_nat k)) by lia. reflexivity. Qed.
Lemma ztake_ztake {A} a b (l : list A) : ztake a (ztake b l) = ztake (Z.min a b) l.
Proof. unfold ztake. rewrite firstn_firstn. f_equal. lia. Qed.
Lemma zdrop_ztake {A} a b (l : list A) : 0 <= a -> zdrop a (ztake b l) = ztake (b - a) (zdrop a l).
Proof.
  intros Ha. unfold zdrop, ztake. destruct (Z_le_gt_dec a b).
  - replace (Z.to_nat b) with (Z.to_nat a + Z.to_nat (b - a))%nat by lia. now rewrite firstn_skipn_comm.
  - replace (Z.to_nat (b - a)) with 0%nat by lia. apply skipn_all2. rewrite firstn_length. lia.
Qed.
Lemma ztake_app_exact {A} (a b : list A) : ztake (zlen a) (a ++ b) = a.
Proof. rewrite ztake_app_l by lia. apply ztake_all. lia. Qed.
Lemma zdrop_app_exact {A} (a b : list A) : zdrop (zlen a) (a ++ b) = b.
Proof. rewrite zdrop_app_r, Z.sub_diag by lia. apply zdrop_0. Qed.
Lemma ztake_app_len {A} n (a b : list A) : zlen a = n -> ztake n (a ++ b) = a.
Proof. intros <-. apply ztake_app_exact. Qed.
Lemma zdrop_app_len {A} n (a b : list A) : zlen a = n -> zdrop n (a ++ b) = b.
Proof. intros <-. apply zdrop_app_exact. Qed.
Lemma app_inv_len {A} (a b c d : list A) : a ++ b = c ++ d -> zlen a = zlen c -> a = c /\ b = d.
Proof. intros H L. apply app_inv_length; [exact H | unfold zlen in L; lia]. Qed.

(* ---- slices *)
Lemma zslice_0 {A} n (l : list A) : zslice 0 n l = ztake n l.
Proof. unfold zslice. now rewrite zdrop_0, Z.sub_0_r. Qed.
Lemma zslice_to_end {A} a (l : list A) : zslice a (zlen l) l = zdrop a l.
Proof.
  unfold zslice. destruct (Z_le_gt_dec 0 a); [destruct (Z_le_gt_dec a (zlen l))|].
  - apply ztake_all. rewrite zlen_zdrop; lia.
  - now rewrite ztake_neg, zdrop_all by lia.
  - rewrite zdrop_neg by lia. apply ztake_all. lia.
Qed.
Lemma zslice_full {A} (l : list A) : zslice 0 (zlen l) l = l.
Proof. now rewrite zslice_to_end. Qed.
Lemma zslice_zdrop {A} k a b (l : list A) : 0 <= k -> 0 <= a -> zslice a b (zdrop k l) = zslice (k + a) (k + b) l.
Proof. intros. unfold zslice. rewrite zdrop_zdrop by lia. f_equal; [|f_equal]; lia. Qed.
Lemma zslice_ztake {A} a b n (l : list A) : 0 <= a -> b <= n -> zslice a b (ztake n l) = zslice a b l.
Proof. intros. unfold zslice. rewrite zdrop_ztake, ztake_ztake by lia. f_equal. lia. Qed.
Lemma zslice_split {A} a b c (l : list A) : 0 <= a <= b -> b <= c -> zslice a c l = zslice a b l ++ zslice b c l.
Proof.
  intros. unfold zslice. rewrite <- (ztake_zdrop (b - a) (ztake (c - a) (zdrop a l))).
  rewrite ztake_ztake, zdrop_ztake, zdrop_zdrop by lia.
  replace (Z.min (b - a) (c - a)) with (b - a) by lia. do 2 f_equal; [|f_equal]; lia.
Qed.
Lemma ztake_split {A} k n (l : list A) : 0 <= k <= n -> ztake n l = ztake k l ++ ztake (n - k) (zdrop k l).
Proof. intros H. rewrite <- (zslice_0 n), <- (zslice_0 k). now apply zslice_split. Qed.
Lemma zslice_zslice {A} a b s e (l : list A) : 0 <= a -> 0 <= s -> b <= e - s -> zslice a b (zslice s e l) = zslice (s + a) (s + b) l.
Proof. intros. unfold zslice at 2. now rewrite zslice_ztake, zslice_zdrop by lia. Qed.
Lemma zslice_app_l {A} p q (a b : list A) : 0 <= p -> q <= zlen a -> zslice p q (a ++ b) = zslice p q a.
Proof.
  intros. unfold zslice. destruct (Z_le_gt_dec p (zlen a)).
  - rewrite zdrop_app_l by lia. apply ztake_app_l. rewrite zlen_zdrop; lia.
  - now rewrite !ztake_neg by lia.
Qed.
Lemma zslice_app_r {A} p q (a b : list A) : zlen a <= p -> zslice p q (a ++ b) = zslice (p - zlen a) (q - zlen a) b.
Proof. intros. unfold zslice. rewrite zdrop_app_r by lia. f_equal. lia. Qed.
Lemma zslice_app_head {A} n (a b : list A) : zlen a = n -> zslice 0 n (a ++ b) = a.
Proof. intros. rewrite zslice_0. now apply ztake_app_len. Qed.
Lemma zslice_app_mid {A} p q (a b c : list A) : zlen a = p -> zlen a + zlen b = q -> zslice p q (a ++ b ++ c) = b.
Proof. intros <- <-. unfold zslice. rewrite zdrop_app_exact. apply ztake_app_len. lia. Qed.
Lemma zslice_app_tail {A} p q (a b : list A) : zlen a = p -> zlen a + zlen b = q -> zslice p q (a ++ b) = b.
Proof. intros <- <-. unfold zslice. rewrite zdrop_app_exact. apply ztake_all. lia. Qed.

(* ---- byte strings stay byte strings *)
Lemma all_bytes_ztake n l : all_bytes l = true -> all_bytes (ztake n l) = true.
Proof. rewrite <- (ztake_zdrop n l) at 1. rewrite all_bytes_app. now intros [? _]%andb_true_iff. Qed.
Lemma all_bytes_zdrop n l : all_bytes l = true -> all_bytes (zdrop n l) = true.
Proof. rewrite <- (ztake_zdrop n l) at 1. rewrite all_bytes_app. now intros [_ ?]%andb_true_iff. Qed.
Lemma all_bytes_zslice a b l : all_bytes l = true -> all_bytes (zslice a b l) = true.
Proof. intros. now apply all_bytes_ztake, all_bytes_zdrop. Qed.
Lemma all_bytes_repeat x n : is_byte x = true -> all_bytes (repeat x n) = true.
Proof. intros Hx. induction n; cbn; [reflexivity|]. now rewrite Hx. Qed.
