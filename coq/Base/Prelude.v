(* Base/Prelude.v — shared definitions: bytes as lists of Z, three-valued results with bind, slices ztake / zdrop / zslice
   with their basic lemmas, bytes_eqb; the set-up of lia. *)
From Coq Require Export List ZArith Lia Bool Arith.
From Coq Require Export ZifyBool ZifyNat ZifyN.
Export ListNotations.
Open Scope Z_scope.

(* lia does not preprocess division and modulo by default: the step is quadratic in the context and nearly no goal of the
   development needs it.  A file whose arithmetic involves / or mod switches it on for itself (see Base/Enc.v). *)
Ltac Zify.zify_post_hook ::= idtac.
Ltac Zify.zify_convert_to_euclidean_division_equations_flag ::= constr:(false).

Definition byte := Z.
Definition bytes := list Z.

Definition is_byte (b : Z) : bool := (0 <=? b) && (b <? 256).
Definition all_bytes (l : bytes) : bool := forallb is_byte l.

(* Go's byte(x) conversion of a non-negative int (target of srcgen for `byte(...)` where the wrap-around matters) *)
Definition wrap8 (x : Z) : Z := x mod 256.

Definition zlen {A} (l : list A) : Z := Z.of_nat (length l).

(* three-valued results: Ok, an ordinary error (class as a small number), or a Go panic *)
Inductive result (A : Type) : Type :=
| Ok (a : A)
| Err (e : Z)
| Panic (e : Z).
Arguments Ok {A} a.
Arguments Err {A} e.
Arguments Panic {A} e.

Definition bind {A B} (r : result A) (f : A -> result B) : result B :=
  match r with Ok a => f a | Err e => Err e | Panic e => Panic e end.
Notation "x <- r ;; k" := (bind r (fun x => k)) (at level 61, r at next level, right associativity).

Definition is_ok {A} (r : result A) : bool := match r with Ok _ => true | _ => false end.

Lemma Ok_inj {A} (a b : A) : Ok a = Ok b -> a = b.
Proof. now intros [= ->]. Qed.
Lemma bind_ok {A B} (r : result A) (k : A -> result B) b : bind r k = Ok b -> exists a, r = Ok a /\ k a = Ok b.
Proof. destruct r; [eauto|discriminate..]. Qed.
Lemma bind_no_panic {A B} (r : result A) (k : A -> result B) p :
  r <> Panic p -> (forall a, r = Ok a -> k a <> Panic p) -> bind r k <> Panic p.
Proof. destruct r; cbn [bind]; intros Hr Hk; [now apply Hk|discriminate|congruence]. Qed.

(* slicing with Z indices (total; the checked versions live beside the models that need them) *)
Definition ztake {A} (n : Z) (l : list A) : list A := firstn (Z.to_nat n) l.
Definition zdrop {A} (n : Z) (l : list A) : list A := skipn (Z.to_nat n) l.
Definition zslice {A} (a b : Z) (l : list A) : list A := ztake (b - a) (zdrop a l).

Lemma zlen_app {A} (a b : list A) : zlen (a ++ b) = zlen a + zlen b.
Proof. unfold zlen. rewrite app_length. lia. Qed.
Lemma zlen_nonneg {A} (l : list A) : 0 <= zlen l.
Proof. unfold zlen. lia. Qed.
Lemma zlen_nil {A} : zlen (@nil A) = 0.
Proof. reflexivity. Qed.
Lemma zlen_cons {A} (x : A) l : zlen (x :: l) = 1 + zlen l.
Proof. unfold zlen. cbn [length]. lia. Qed.

Lemma zlen_ztake {A} n (l : list A) : 0 <= n <= zlen l -> zlen (ztake n l) = n.
Proof. unfold zlen, ztake. intros H. rewrite firstn_length. lia. Qed.
Lemma zlen_zdrop {A} n (l : list A) : 0 <= n <= zlen l -> zlen (zdrop n l) = zlen l - n.
Proof. unfold zlen, zdrop. intros H. rewrite skipn_length. lia. Qed.
Lemma ztake_zdrop {A} n (l : list A) : ztake n l ++ zdrop n l = l.
Proof. apply firstn_skipn. Qed.
Lemma ztake_all {A} n (l : list A) : zlen l <= n -> ztake n l = l.
Proof. unfold zlen, ztake. intros H. apply firstn_all2. lia. Qed.
Lemma zdrop_all {A} n (l : list A) : zlen l <= n -> zdrop n l = [].
Proof. unfold zlen, zdrop. intros H. apply skipn_all2. lia. Qed.
Lemma zdrop_0 {A} (l : list A) : zdrop 0 l = l.
Proof. reflexivity. Qed.
Lemma zdrop_neg {A} n (l : list A) : n <= 0 -> zdrop n l = l.
Proof. unfold zdrop. intros H. replace (Z.to_nat n) with 0%nat by lia. reflexivity. Qed.
Lemma ztake_neg {A} n (l : list A) : n <= 0 -> ztake n l = [].
Proof. unfold ztake. intros H. replace (Z.to_nat n) with 0%nat by lia. reflexivity. Qed.
Lemma zdrop_zdrop {A} a b (l : list A) : 0 <= a -> 0 <= b -> zdrop a (zdrop b l) = zdrop (a + b) l.
Proof.
  unfold zdrop. intros Ha Hb. replace (Z.to_nat (a + b)) with (Z.to_nat b + Z.to_nat a)%nat by lia.
  generalize (Z.to_nat a) (Z.to_nat b). clear. intros x y. revert l.
  induction y as [|y IH]; intros l; cbn [Nat.add skipn]; [reflexivity|].
  destruct l as [|h t]; [rewrite !skipn_nil; reflexivity|]. apply IH.
Qed.
Lemma ztake_app_l {A} n (a b : list A) : n <= zlen a -> ztake n (a ++ b) = ztake n a.
Proof.
  unfold ztake, zlen. intros H. rewrite firstn_app.
  replace (Z.to_nat n - length a)%nat with 0%nat by lia. cbn. apply app_nil_r.
Qed.
Lemma zdrop_app_l {A} n (a b : list A) : 0 <= n <= zlen a -> zdrop n (a ++ b) = zdrop n a ++ b.
Proof.
  unfold zdrop, zlen. intros H. rewrite skipn_app.
  replace (Z.to_nat n - length a)%nat with 0%nat by lia. reflexivity.
Qed.
Lemma zdrop_app_r {A} n (a b : list A) : zlen a <= n -> zdrop n (a ++ b) = zdrop (n - zlen a) b.
Proof.
  unfold zdrop, zlen. intros H. rewrite skipn_app.
  rewrite skipn_all2 by lia. cbn. f_equal. lia.
Qed.
Lemma ztake_app_r {A} n (a b : list A) : zlen a <= n -> ztake n (a ++ b) = a ++ ztake (n - zlen a) b.
Proof.
  unfold ztake, zlen. intros H. rewrite firstn_app.
  rewrite firstn_all2 by lia. f_equal. f_equal. lia.
Qed.

Fixpoint list_eqb {A} (eqb : A -> A -> bool) (a b : list A) : bool :=
  match a, b with
  | [], [] => true
  | x :: a', y :: b' => eqb x y && list_eqb eqb a' b'
  | _, _ => false
  end.
Definition bytes_eqb : bytes -> bytes -> bool := list_eqb Z.eqb.
Lemma list_eqb_Z_eq a b : list_eqb Z.eqb a b = true <-> a = b.
Proof.
  revert b; induction a as [|x a IH]; intros [|y b]; cbn; split; intro H; try congruence; try discriminate.
  - apply andb_true_iff in H as [H1 H2]. apply Z.eqb_eq in H1. apply IH in H2. congruence.
  - inversion H; subst. rewrite Z.eqb_refl. cbn. apply IH. reflexivity.
Qed.
