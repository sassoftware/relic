(* Base/Lists.v — facts about filter, NoDup, existsb / forallb and positions in a list that the standard library lacks
   and the units share. *)
From Coq Require Import List Permutation ZArith Lia Bool.
Import ListNotations.

(* ---- filter *)
Lemma filter_all {A} (f : A -> bool) l : (forall x, In x l -> f x = true) -> filter f l = l.
Proof. induction l as [|x l IH]; cbn; intros H; [reflexivity|]. rewrite (H x), IH by auto. reflexivity. Qed.
Lemma filter_none {A} (f : A -> bool) l : (forall x, In x l -> f x = false) -> filter f l = [].
Proof. induction l as [|x l IH]; cbn; intros H; [reflexivity|]. rewrite (H x) by auto. apply IH. auto. Qed.
Lemma filter_filter {A} (f g : A -> bool) l : filter f (filter g l) = filter (fun x => g x && f x) l.
Proof.
  induction l as [|x l IH]; cbn; [reflexivity|]. destruct (g x); cbn; [destruct (f x); cbn; rewrite IH; reflexivity | exact IH].
Qed.
Lemma filter_idem {A} (f : A -> bool) l : filter f (filter f l) = filter f l.
Proof. rewrite filter_filter. apply filter_ext. intros x. apply andb_diag. Qed.
Lemma filter_map_comm {A B} (h : A -> B) (g : B -> bool) l : filter g (map h l) = map h (filter (fun x => g (h x)) l).
Proof. induction l as [|x l IH]; [reflexivity|]. cbn. destruct (g (h x)); cbn; now rewrite IH. Qed.
Lemma Permutation_filter {A} (f : A -> bool) l l' : Permutation l l' -> Permutation (filter f l) (filter f l').
Proof.
  induction 1; cbn.
  - constructor.
  - destruct (f x); [now constructor | assumption].
  - destruct (f x), (f y); try reflexivity. apply perm_swap.
  - etransitivity; eassumption.
Qed.

(* ---- NoDup *)
Lemma NoDup_app_iff {A} (a b : list A) : NoDup (a ++ b) <-> NoDup a /\ NoDup b /\ (forall x, In x a -> ~ In x b).
Proof.
  induction a as [|x a IH]; cbn [app].
  - split; [intros H; split; [constructor | split; [exact H | intros ? []]] | tauto].
  - rewrite !NoDup_cons_iff, IH, in_app_iff. split.
    + intros (Hn & Ha & Hb & Hd). split; [tauto|]. split; [exact Hb|]. intros y [<-|Hy]; [tauto | apply Hd, Hy].
    + intros ((Hn & Ha) & Hb & Hd). split; [intros [H|H]; [exact (Hn H) | exact (Hd x (or_introl eq_refl) H)]|].
      split; [exact Ha|]. split; [exact Hb|]. intros y Hy. apply Hd. right. exact Hy.
Qed.
Lemma NoDup_map_filter {A B} (f : A -> B) (g : A -> bool) l : NoDup (map f l) -> NoDup (map f (filter g l)).
Proof.
  induction l as [|x l IH]; cbn; intros H; [constructor|]. inversion H as [|? ? Hn Hd]; subst.
  destruct (g x); cbn; [constructor|]; auto.
  intros Hin. apply Hn. apply in_map_iff in Hin as (y & Hy & Hin). apply filter_In in Hin as [Hin _].
  apply in_map_iff. exists y. split; assumption.
Qed.
Lemma NoDup_map_inj {A B} (f : A -> B) l x y : NoDup (map f l) -> In x l -> In y l -> f x = f y -> x = y.
Proof.
  induction l as [|a l IH]; cbn; intros Hnd Hx Hy E; [destruct Hx|]. inversion Hnd as [|? ? Hn Hd]; subst.
  destruct Hx as [<-|Hx], Hy as [<-|Hy]; try reflexivity.
  - exfalso. apply Hn. rewrite E. apply in_map. exact Hy.
  - exfalso. apply Hn. rewrite <- E. apply in_map. exact Hx.
  - apply IH; assumption.
Qed.

(* ---- existsb, forallb, Forall *)
Lemma existsb_ext_in {A} (f g : A -> bool) l : (forall x, In x l -> f x = g x) -> existsb f l = existsb g l.
Proof. induction l as [|x l IH]; cbn; intros H; [reflexivity|]. rewrite (H x), IH by auto. reflexivity. Qed.
Lemma existsb_Zeqb_In x l : existsb (Z.eqb x) l = true <-> In x l.
Proof.
  rewrite existsb_exists. split; [intros (y & Hy & ->%Z.eqb_eq); exact Hy | intros H; exists x; split; [exact H | apply Z.eqb_refl]].
Qed.
Lemma forallb_Forall {A} (f : A -> bool) l : forallb f l = true <-> Forall (fun x => f x = true) l.
Proof. rewrite forallb_forall, Forall_forall. reflexivity. Qed.
Lemma Forall_firstn {A} (P : A -> Prop) n l : Forall P l -> Forall P (firstn n l).
Proof. rewrite <- (firstn_skipn n l) at 1. now intros [H _]%Forall_app. Qed.
Lemma Forall_skipn {A} (P : A -> Prop) n l : Forall P l -> Forall P (skipn n l).
Proof. rewrite <- (firstn_skipn n l) at 1. now intros [_ H]%Forall_app. Qed.
Lemma forallb_firstn {A} (f : A -> bool) n l : forallb f l = true -> forallb f (firstn n l) = true.
Proof. rewrite !forallb_Forall. apply Forall_firstn. Qed.
Lemma forallb_skipn {A} (f : A -> bool) n l : forallb f l = true -> forallb f (skipn n l) = true.
Proof. rewrite !forallb_Forall. apply Forall_skipn. Qed.

(* ---- positions *)
Lemma app_inv_length {A} (a b c d : list A) : a ++ b = c ++ d -> length a = length c -> a = c /\ b = d.
Proof.
  revert c; induction a as [|x a IH]; intros [|y c] H L; try discriminate L; [now split|].
  injection H as -> H. injection L as L. now destruct (IH c H L) as [-> ->].
Qed.
Lemma split_at_nth {A} (l : list A) n x : nth_error l n = Some x -> l = firstn n l ++ x :: skipn (S n) l.
Proof.
  revert l; induction n as [|n IH]; intros [|y l] H; try discriminate H; cbn in H.
  - now injection H as ->.
  - cbn [firstn skipn app]. f_equal. apply IH, H.
Qed.
Lemma nth_error_mid {A} (l : list A) y r : nth_error (l ++ y :: r) (length l) = Some y.
Proof. induction l; [reflexivity | assumption]. Qed.
Lemma last_cons {A} (x : A) l d : last (x :: l) d = last l x.
Proof. revert x d; induction l as [|y l IH]; intros x d; [reflexivity|]. change (last (y :: l) d = last (y :: l) x). now rewrite !IH. Qed.

(* ---- induction two elements at a time *)
Lemma list_ind2 {A} (P : list A -> Prop) : P [] -> (forall x, P [x]) -> (forall x y l, P l -> P (x :: y :: l)) -> forall l, P l.
Proof. intros H0 H1 H2. fix IH 1. intros [|x [|y l]]; [exact H0|apply H1|apply H2, IH]. Qed.
