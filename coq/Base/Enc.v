(* Base/Enc.v — fixed-width little/big endian integers over bytes (Z), with round trips. *)
From Relic Require Import Base.Prelude.
(* the digits of an integer are quotients and remainders by 256: here lia has to know about / and mod *)
Local Ltac Zify.zify_post_hook ::= Z.div_mod_to_equations.
Local Ltac Zify.zify_convert_to_euclidean_division_equations_flag ::= constr:(true).

Fixpoint le_enc (w : nat) (n : Z) : bytes :=
  match w with O => [] | S k => (n mod 256) :: le_enc k (n / 256) end.
Fixpoint le_dec (l : bytes) : Z :=
  match l with [] => 0 | b :: r => b + 256 * le_dec r end.
Definition be_enc (w : nat) (n : Z) : bytes := rev (le_enc w n).
Definition be_dec (l : bytes) : Z := le_dec (rev l).

Lemma le_enc_length w n : length (le_enc w n) = w.
Proof. revert n; induction w as [|w IH]; intros n; cbn; [reflexivity|]. now rewrite IH. Qed.
Lemma be_enc_length w n : length (be_enc w n) = w.
Proof. unfold be_enc. rewrite rev_length. apply le_enc_length. Qed.
Lemma le_enc_zlen w n : zlen (le_enc w n) = Z.of_nat w.
Proof. unfold zlen. now rewrite le_enc_length. Qed.
Lemma be_enc_zlen w n : zlen (be_enc w n) = Z.of_nat w.
Proof. unfold zlen. now rewrite be_enc_length. Qed.

Lemma le_dec_enc_mod w n : le_dec (le_enc w n) = n mod 256 ^ Z.of_nat w.
Proof.
  revert n; induction w as [|w IH]; intros n.
  - cbn. now rewrite Z.mod_1_r.
  - cbn [le_enc le_dec]. rewrite IH, Nat2Z.inj_succ, Z.pow_succ_r by lia.
    rewrite (Z.rem_mul_r n 256 (256 ^ Z.of_nat w)) by (try lia; apply Z.pow_pos_nonneg; lia). reflexivity.
Qed.
Lemma le_dec_enc w n : 0 <= n < 256 ^ Z.of_nat w -> le_dec (le_enc w n) = n.
Proof. intros H. rewrite le_dec_enc_mod. now apply Z.mod_small. Qed.
Lemma be_dec_enc_mod w n : be_dec (be_enc w n) = n mod 256 ^ Z.of_nat w.
Proof. unfold be_dec, be_enc. rewrite rev_involutive. apply le_dec_enc_mod. Qed.
Lemma be_dec_enc w n : 0 <= n < 256 ^ Z.of_nat w -> be_dec (be_enc w n) = n.
Proof. unfold be_dec, be_enc. rewrite rev_involutive. apply le_dec_enc. Qed.
(* the usual widths, with the bound as a numeral *)
Lemma le_dec_enc2 n : 0 <= n < 65536 -> le_dec (le_enc 2 n) = n.
Proof. apply (le_dec_enc 2). Qed.
Lemma le_dec_enc4 n : 0 <= n < 4294967296 -> le_dec (le_enc 4 n) = n.
Proof. apply (le_dec_enc 4). Qed.
Lemma le_dec_enc8 n : 0 <= n < 18446744073709551616 -> le_dec (le_enc 8 n) = n.
Proof. apply (le_dec_enc 8). Qed.
Lemma le_dec_app a b : le_dec (a ++ b) = le_dec a + 256 ^ zlen a * le_dec b.
Proof.
  induction a as [|x a IH]; cbn [app le_dec]; [change (zlen (@nil Z)) with 0; lia|].
  rewrite IH, zlen_cons, Z.pow_add_r by (pose proof (zlen_nonneg a); lia). lia.
Qed.

Lemma all_bytes_cons b l : all_bytes (b :: l) = true <-> 0 <= b < 256 /\ all_bytes l = true.
Proof. unfold all_bytes. cbn [forallb]. unfold is_byte at 1. rewrite andb_true_iff. intuition lia. Qed.
Lemma all_bytes_forall l : all_bytes l = true <-> Forall (fun b => 0 <= b < 256) l.
Proof.
  unfold all_bytes. rewrite forallb_forall, Forall_forall. unfold is_byte.
  split; intros H x Hx; specialize (H x Hx); lia.
Qed.

Lemma le_dec_range l : all_bytes l = true -> 0 <= le_dec l < 256 ^ zlen l.
Proof.
  induction l as [|b r IH]; intros H.
  - cbn. lia.
  - cbn [all_bytes forallb] in H. apply andb_true_iff in H as [Hb Hr].
    specialize (IH Hr). unfold is_byte in Hb. rewrite zlen_cons.
    rewrite Z.pow_add_r by (pose proof (zlen_nonneg r); lia). cbn [le_dec]. lia.
Qed.

Lemma le_dec_nonneg l : all_bytes l = true -> 0 <= le_dec l.
Proof. intros H. apply le_dec_range, H. Qed.

Lemma le_enc_dec l : all_bytes l = true -> le_enc (length l) (le_dec l) = l.
Proof.
  induction l as [|b r IH]; intros H; [reflexivity|].
  cbn [all_bytes forallb] in H. apply andb_true_iff in H as [Hb Hr]. unfold is_byte in Hb.
  cbn [length le_enc le_dec]. f_equal.
  - replace (b + 256 * le_dec r) with (b + le_dec r * 256) by lia.
    rewrite Z_mod_plus_full. apply Z.mod_small. lia.
  - replace ((b + 256 * le_dec r) / 256) with (le_dec r) by lia. exact (IH Hr).
Qed.

Lemma le_enc_bytes w n : all_bytes (le_enc w n) = true.
Proof.
  revert n; induction w as [|w IH]; intros n; cbn; [reflexivity|].
  rewrite IH. unfold is_byte. pose proof (Z.mod_pos_bound n 256). lia.
Qed.
Lemma all_bytes_app a b : all_bytes (a ++ b) = all_bytes a && all_bytes b.
Proof. unfold all_bytes. apply forallb_app. Qed.
Lemma all_bytes_rev a : all_bytes (rev a) = all_bytes a.
Proof.
  induction a as [|x a IH]; [reflexivity|]. cbn [rev]. rewrite all_bytes_app, IH.
  cbn [all_bytes forallb]. unfold all_bytes. destruct (is_byte x), (forallb is_byte a); reflexivity.
Qed.
Lemma be_dec_range l : all_bytes l = true -> 0 <= be_dec l < 256 ^ zlen l.
Proof.
  intros H. unfold be_dec. replace (zlen l) with (zlen (rev l)) by (unfold zlen; now rewrite rev_length).
  apply le_dec_range. now rewrite all_bytes_rev.
Qed.
Lemma be_dec_nonneg l : all_bytes l = true -> 0 <= be_dec l.
Proof. intros H. apply be_dec_range, H. Qed.
Lemma be_enc_bytes w n : all_bytes (be_enc w n) = true.
Proof. unfold be_enc. rewrite all_bytes_rev. apply le_enc_bytes. Qed.
Lemma be_enc_dec l : all_bytes l = true -> be_enc (length l) (be_dec l) = l.
Proof.
  intros H. unfold be_enc, be_dec. rewrite <- (rev_length l).
  rewrite le_enc_dec by (now rewrite all_bytes_rev). apply rev_involutive.
Qed.
