(* C20/ScopeProofs.v — the timeout context of the token pings: one per token (ping_per_token, round_per_token), and the
   timed rounds run inside the concurrent system (rounds_published). *)
From Relic Require Import Base.Prelude Base.Lists Generated.C20_gen C20.Model C20.Proofs C20.Lock C20.LockProofs C20.Scope.
Require Import Coq.Sorting.Permutation.

Lemma forallb_map {A B} (f : B -> bool) (g : A -> B) l : forallb f (map g l) = forallb (fun x => f (g x)) l.
Proof. induction l as [|x l IH]; cbn [map forallb]; [reflexivity|]. rewrite IH. reflexivity. Qed.
Lemma forallb_perm {A} (f : A -> bool) l l' : Permutation l l' -> forallb f l = forallb f l'.
Proof.
  induction 1; cbn [forallb]; try congruence.
  destruct (f x), (f y); reflexivity.
Qed.
Lemma zsum_perm l l' : Permutation l l' -> zsum l = zsum l'.
Proof. unfold zsum. induction 1; cbn [fold_right] in *; lia. Qed.
Lemma zlen_perm {A} (l l' : list A) : Permutation l l' -> zlen l = zlen l'.
Proof. intros H. unfold zlen. rewrite (Permutation_length H). reflexivity. Qed.

(* pingOne reports failure exactly when Ping returned an error; healthCheck counts exactly those tokens *)
Lemma counted_ok_spec err expired : tok_counted_ok err expired = negb err.
Proof. destruct err, expired; reflexivity. Qed.

Lemma per_token_shift chain rs start :
  all_per_token chain = true ->
  ping_deadline chain rs start = match ping_deadline chain 0 0 with Some d => Some (start + d) | None => None end.
Proof.
  induction chain as [|[[site dur] live] rest IH]; intros H; cbn [ping_deadline]; [reflexivity|].
  unfold all_per_token in H. cbn [forallb fst] in H. apply andb_prop in H. destruct H as [Hs Hr].
  rewrite (IH Hr). unfold elem_deadline. rewrite Hs.
  destruct (ping_deadline rest 0 0) as [d|]; cbn [opt_min]; destruct live; f_equal; lia.
Qed.
Lemma per_token_deadline chain T rs start :
  chain_timeout chain = Some T -> ping_deadline chain rs start = Some (start + T).
Proof.
  unfold chain_timeout. destruct (all_per_token chain) eqn:E; [|discriminate].
  intros H. rewrite (per_token_shift chain rs start E), H. reflexivity.
Qed.
Lemma single_per_token d : chain_timeout [(1, d, true)] = Some d.
Proof. reflexivity. Qed.

(* the current source: one context per token, token_check_timeout seconds, for every configuration *)
Lemma source_scope_per_token timeout_s interval_s n :
  chain_timeout (cfg_chain timeout_s interval_s n) = Some (spec_timeout timeout_s).
Proof. apply single_per_token. Qed.
Lemma spec_timeout_nonneg timeout_s : 0 <= timeout_s -> 0 <= spec_timeout timeout_s.
Proof. unfold spec_timeout, ns_per_s. lia. Qed.

(* a ping whose deadline is T after its own start: whether it returns, when, and what is recorded are the token's own *)
Lemma ping_per_token p now T :
  0 <= T ->
  match ping_run p now (Some (now + T)) with
  | Some (t', err, _) => tok_returns p = true /\ t' = now + spec_tok_dur T p /\ negb err = spec_tok_ok T p
  | None => tok_returns p = false
  end.
Proof.
  intros HT. unfold ping_run, tok_returns, spec_tok_dur, spec_tok_ok.
  destruct p as [[l|] res [|]]; cbn [k_lat k_res k_honours orb]; rewrite ?Z.max_r by lia.
  - replace (now + l <? now + T) with (l <? T) by lia.
    destruct (l <? T), res; repeat split; reflexivity.
  - destruct res; repeat split; reflexivity.
  - destruct res; repeat split; reflexivity.
  - reflexivity.
Qed.

Lemma trace_per_token chain T rs ps : forall now,
  chain_timeout chain = Some T -> 0 <= T ->
  round_trace chain rs now ps = if forallb tok_returns ps then Some (spec_trace T now ps) else None.
Proof.
  induction ps as [|p rest IH]; intros now HC HT; cbn [round_trace forallb spec_trace]; [reflexivity|].
  rewrite (per_token_deadline chain T rs now HC). pose proof (ping_per_token p now T HT) as Hp.
  destruct (ping_run p now _) as [[[t' err] expired]|]; [destruct Hp as (-> & -> & <-)|rewrite Hp; reflexivity].
  rewrite (IH _ HC HT), counted_ok_spec. destruct (forallb tok_returns rest); reflexivity.
Qed.

Lemma spec_trace_oks T ps : forall now, map snd (spec_trace T now ps) = map (spec_tok_ok T) ps.
Proof. induction ps as [|p r IH]; intros now; cbn [spec_trace map snd]; [reflexivity|]. rewrite IH. reflexivity. Qed.
Lemma spec_trace_length T ps : forall now, length (spec_trace T now ps) = length ps.
Proof. induction ps as [|p r IH]; intros now; cbn [spec_trace length]; [reflexivity|]. rewrite IH. reflexivity. Qed.
Lemma spec_trace_end T ps : forall now, last (map fst (spec_trace T now ps)) now = now + spec_round_dur T ps.
Proof.
  unfold spec_round_dur, zsum. induction ps as [|p r IH]; intros now; cbn [spec_trace map fst fold_right]; [cbn; lia|].
  rewrite last_cons, IH. lia.
Qed.

(* THE per-token characterisation: whenever every context on the chain is created per token, a round over ANY tokens is
   decided token by token — its outcomes are the tokens' own (answer ok, within T of the start of their own ping), it ends
   after the sum of the individual check times, and it hangs iff some token neither answers nor can be interrupted *)
Lemma round_per_token chain T rs ps :
  chain_timeout chain = Some T -> 0 <= T ->
  run_round chain rs ps =
  if forallb tok_returns ps then Some (map (spec_tok_ok T) ps, rs + spec_round_dur T ps) else None.
Proof.
  intros HC HT. unfold run_round. rewrite (trace_per_token chain T rs ps rs HC HT).
  destruct (forallb tok_returns ps); [|reflexivity].
  rewrite spec_trace_oks, spec_trace_end. reflexivity.
Qed.

Lemma source_round timeout_s interval_s rs ps :
  0 <= timeout_s ->
  run_round (cfg_chain timeout_s interval_s (zlen ps)) rs ps =
  if forallb tok_returns ps
  then Some (map (spec_tok_ok (spec_timeout timeout_s)) ps, rs + spec_round_dur (spec_timeout timeout_s) ps) else None.
Proof. intros H. apply round_per_token; [apply source_scope_per_token|apply spec_timeout_nonneg, H]. Qed.

(* a round is ok iff every token answers ok within the timeout ON ITS OWN *)
Lemma round_ok_iff_each_in_time timeout_s interval_s rs ps :
  0 <= timeout_s -> forallb tok_returns ps = true ->
  exists oks tend, run_round (cfg_chain timeout_s interval_s (zlen ps)) rs ps = Some (oks, tend) /\
                   round_ok (mkR oks tend) = forallb (spec_tok_ok (spec_timeout timeout_s)) ps.
Proof.
  intros H Hr. rewrite (source_round timeout_s interval_s rs ps H), Hr. eexists. eexists. split; [reflexivity|].
  unfold round_ok. cbn [r_oks]. rewrite forallb_map. reflexivity.
Qed.

(* order (map iteration order!) does not matter: not for the outcome, not for the end time, not for whether it ends *)
Definition round_verdict (r : option (list bool * Z)) : option (bool * Z) :=
  match r with Some (oks, tend) => Some (forallb (fun b => b) oks, tend) | None => None end.
Lemma round_order_independent timeout_s interval_s rs ps ps' :
  0 <= timeout_s -> Permutation ps ps' ->
  round_verdict (run_round (cfg_chain timeout_s interval_s (zlen ps)) rs ps) =
  round_verdict (run_round (cfg_chain timeout_s interval_s (zlen ps')) rs ps').
Proof.
  intros H HP. rewrite !source_round by assumption.
  rewrite (forallb_perm tok_returns ps ps' HP).
  destruct (forallb tok_returns ps'); [|reflexivity]. cbn [round_verdict].
  rewrite !forallb_map. rewrite (forallb_perm _ ps ps' HP).
  unfold spec_round_dur. rewrite (zsum_perm _ _ (Permutation_map (spec_tok_dur (spec_timeout timeout_s)) HP)). reflexivity.
Qed.

Lemma timed_from_refines chain T failures rounds : forall st,
  (forall n, chain_timeout (chain n) = Some T) -> 0 <= T ->
  h_run_timed_from chain failures st rounds =
  fold_left (fun st r => h_check failures st (not_ok_count (r_oks r)) (r_time r)) (spec_hist T rounds) st.
Proof.
  induction rounds as [|r rest IH]; intros st HC HT; cbn [h_run_timed_from spec_hist fold_left]; [reflexivity|].
  rewrite (round_per_token _ T _ _ (HC _) HT).
  destruct (forallb tok_returns (tr_toks r)); [|reflexivity].
  apply IH; assumption.
Qed.
Lemma timed_run_refines chain T failures t0 rounds :
  (forall n, chain_timeout (chain n) = Some T) -> 0 <= T ->
  h_run_timed chain failures t0 rounds = h_run failures t0 (spec_hist T rounds).
Proof. apply timed_from_refines. Qed.
Lemma source_timed_run timeout_s interval_s failures t0 rounds :
  0 <= timeout_s ->
  h_run_timed (cfg_chain timeout_s interval_s) failures t0 rounds =
  h_run failures t0 (spec_hist (spec_timeout timeout_s) rounds).
Proof.
  intros HT. apply timed_run_refines; [|apply spec_timeout_nonneg, HT].
  intros n. apply source_scope_per_token.
Qed.

(* tokens that each answer ok in time never trip the failure counter — any number of tokens, any latencies below the
   timeout, any number of rounds: the countdown stays at N *)
Definition all_in_time (T : Z) (rounds : list tround) : Prop :=
  forall r, In r rounds -> forallb (spec_tok_ok T) (tr_toks r) = true.
Lemma in_time_ok_returns T p : spec_tok_ok T p = true -> tok_returns p = true.
Proof.
  unfold spec_tok_ok, tok_returns. destruct (k_res p); cbn [andb]; [|discriminate].
  destruct (k_lat p); [intros _; apply orb_true_r|discriminate].
Qed.
(* a round that hangs cuts the history short, but the rounds before it are still ok *)
Lemma in_time_trailing T rounds : all_in_time T rounds -> trailing_failures (spec_hist T rounds) = 0.
Proof.
  intros H. apply all_ok_no_trailing.
  induction rounds as [|x rest IH]; cbn [spec_hist]; [constructor|].
  destruct (forallb tok_returns (tr_toks x)); constructor.
  - unfold round_ok, spec_round. cbn [r_oks]. rewrite forallb_map. apply H. left. reflexivity.
  - apply IH. intros r Hr. apply H. right. exact Hr.
Qed.
Lemma in_time_never_trips failures timeout_s interval_s t0 rounds :
  1 <= failures -> 0 <= timeout_s -> all_in_time (spec_timeout timeout_s) rounds ->
  h_status (h_run_timed (cfg_chain timeout_s interval_s) failures t0 rounds) = failures.
Proof.
  intros HN HT H. rewrite source_timed_run by exact HT.
  rewrite (proj1 (run_invariant failures t0 _ HN)), (in_time_trailing _ _ H). lia.
Qed.

(* the pings still to be made in the round in flight, played out: the round is published with exactly the recorded
   outcomes, stamped with the moment the last ping returns (at once when none is left) *)
Lemma pings_publish P Q C tr : forall s now notok ll,
  s_now s = now -> s_leaked s = false -> s_closed s = false ->
  let s' := fst (run_sys P Q C (next_ping P C s (length tr) notok ll) (sched_of_trace now tr)) in
  s_hist s' = s_hist s ++ [mkR (s_cur s ++ map snd tr) (last (map fst tr) now)] /\
  s_phase s' = CIdle /\ s_now s' = last (map fst tr) now /\ s_closed s' = false.
Proof.
  induction tr as [|[t ok] rest IH]; intros s now notok ll <- Hl Hc; cbn [length next_ping].
  - unfold publish. rewrite Hl, andb_false_r. cbn. rewrite app_nil_r. auto.
  - rewrite Hc, andb_false_r. cbn [sched_of_trace]. rewrite !run_sys_cons_fst.
    cbn [step fst s_st s_now s_closed s_held s_leaked s_phase s_hist s_cur s_late map snd].
    rewrite last_cons.
    replace (s_cur s ++ ok :: map snd rest) with ((s_cur s ++ [ok]) ++ map snd rest) by (rewrite <- app_assoc; reflexivity).
    apply IH; cbn [s_now s_leaked s_closed]; (assumption || lia).
Qed.

(* one whole round of the concurrent model, its pings timed by the scope model: what gets published is the round the
   specification describes *)
Lemma round_published P Q C chain T s r :
  s_leaked s = false -> s_phase s = CIdle -> s_closed s = false ->
  c_tokens C = length (tr_toks r) -> chain_timeout chain = Some T -> 0 <= T -> forallb tok_returns (tr_toks r) = true ->
  let s' := fst (run_sys P Q C s (round_sched chain (s_now s) (tr_start r) (tr_toks r))) in
  s_hist s' = s_hist s ++ [spec_round T r] /\
  s_phase s' = CIdle /\ s_now s' = tr_start r + spec_round_dur T (tr_toks r) /\ s_closed s' = false.
Proof.
  destruct r as [rs ps]. unfold spec_round. cbn [tr_start tr_toks].
  intros Hl Hph Hc Hn HC HT Hret.
  unfold round_sched. rewrite (trace_per_token chain T rs ps rs HC HT), Hret.
  rewrite !run_sys_cons_fst. cbn [step fst s_st s_now s_closed s_held s_leaked s_phase s_hist s_cur s_late].
  rewrite Hph, Hl. cbn [fst].
  rewrite Hn, <- (spec_trace_length T ps rs), <- (spec_trace_oks T ps rs), <- (spec_trace_end T ps rs).
  apply (pings_publish P Q C (spec_trace T rs ps)); cbn [s_now s_leaked s_closed]; (assumption || lia).
Qed.

(* a round with a ping that never returns publishes nothing *)
Lemma round_hangs P Q C chain T s r :
  s_leaked s = false -> s_phase s = CIdle ->
  c_tokens C = length (tr_toks r) -> chain_timeout chain = Some T -> 0 <= T -> forallb tok_returns (tr_toks r) = false ->
  s_hist (fst (run_sys P Q C s (round_sched chain (s_now s) (tr_start r) (tr_toks r)))) = s_hist s.
Proof.
  intros Hl Hph Hn HC HT Hret.
  unfold round_sched. rewrite (trace_per_token chain T _ _ _ HC HT), Hret.
  rewrite !run_sys_cons_fst. cbn [run_sys step fst s_phase s_leaked]. rewrite Hph, Hl. cbn [fst].
  rewrite next_ping_hist, Hn by reflexivity. destruct (tr_toks r); [discriminate|reflexivity].
Qed.

(* any number of rounds, one after the other: the published history is the specification's history of the timed rounds.
   The plans are good only so that `inv`, and with it a free mutex, reaches the start of every round *)
Lemma rounds_published P Q C t0 chain T rounds : forall s,
  good_plan P -> good_qplan Q -> inv C t0 s -> s_phase s = CIdle -> s_closed s = false ->
  (forall r, In r rounds -> c_tokens C = length (tr_toks r)) ->
  (forall n, chain_timeout (chain n) = Some T) -> 0 <= T ->
  s_hist (fst (run_sys P Q C s (rounds_sched chain (s_now s) rounds))) = s_hist s ++ spec_hist T rounds.
Proof.
  induction rounds as [|r rest IH]; intros s GP GQ Hi Hph Hc Hn HC HT; cbn [rounds_sched spec_hist].
  - symmetry. apply app_nil_r.
  - rewrite run_sys_app_fst, (round_per_token _ T _ _ (HC _) HT).
    set (chn := chain (zlen (tr_toks r))).
    set (s1 := fst (run_sys P Q C s (round_sched chn (s_now s) (tr_start r) (tr_toks r)))).
    assert (Hi1 : inv C t0 s1) by (apply run_inv; assumption).
    assert (Hr : c_tokens C = length (tr_toks r)) by (apply Hn; left; reflexivity).
    pose proof Hi as (_ & Hl & _).
    destruct (forallb tok_returns (tr_toks r)) eqn:Hret.
    + destruct (round_published P Q C chn T s r Hl Hph Hc Hr (HC _) HT Hret) as (I1 & I2 & I3 & I4).
      fold s1 in I1, I2, I3, I4. rewrite <- I3, IH, I1, <- app_assoc by auto using in_cons. reflexivity.
    + rewrite app_nil_r. exact (round_hangs P Q C chn T s r Hl Hph Hr (HC _) HT Hret).
Qed.
