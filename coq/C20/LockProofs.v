(* C20/LockProofs.v — the lock discipline of healthCheck / Healthy as event lists, and the concurrent system of checker,
   queries and Close: an invariant of every schedule (run_inv), what a query answers (query_spec), Close (run_late). *)
From Relic Require Import Base.Prelude Generated.C20_gen C20.Model C20.Proofs C20.Lock.

(* what the analysis makes of the current source *)
Lemma hc_analysis : analyze hc_events = Some (mkPlan false true false false).
Proof. vm_compute. reflexivity. Qed.
Lemma healthy_analysis : analyze_q healthy_events = Some (mkQ true true false false).
Proof. vm_compute. reflexivity. Qed.
Lemma close_joins : close_joins_loop = true.
Proof. reflexivity. Qed.

Lemma pings_held_app h a b :
  pings_held h (a ++ b) = pings_held h a ++ pings_held (fold_left held_after a h) b.
Proof.
  revert h. induction a as [|c a IH]; intros h; cbn [app pings_held fold_left]; [reflexivity|].
  rewrite IH, app_assoc. reflexivity.
Qed.
Lemma pings_held_length h evs : zlen (pings_held h evs) = count 8 evs.
Proof.
  unfold count. revert h. induction evs as [|c evs IH]; intros h; cbn [pings_held filter]; [reflexivity|].
  rewrite zlen_app, IH, (Z.eqb_sym 8 c). destruct (c =? 8); rewrite ?zlen_cons, zlen_nil; lia.
Qed.
(* a loop body that leaves the lock as it found it sees the same lock state in every iteration *)
Lemma held_after_repeat h body n :
  fold_left held_after body h = h -> fold_left held_after (repeat_list body n) h = h.
Proof.
  intros Hb. induction n as [|n IH]; cbn [repeat_list]; [reflexivity|].
  rewrite fold_left_app, Hb. exact IH.
Qed.
Lemma pings_held_repeat h body n :
  fold_left held_after body h = h -> pings_held h (repeat_list body n) = repeat_list (pings_held h body) n.
Proof.
  intros Hb. induction n as [|n IH]; cbn [repeat_list]; [reflexivity|].
  rewrite pings_held_app, Hb, IH. reflexivity.
Qed.
Lemma pings_held_unrolled h pre body post n :
  fold_left held_after pre h = h -> fold_left held_after body h = h ->
  pings_held h (pre ++ repeat_list body n ++ post) =
  pings_held h pre ++ repeat_list (pings_held h body) n ++ pings_held h post.
Proof.
  intros Hpre Hbody. rewrite !pings_held_app, Hpre, held_after_repeat, pings_held_repeat by exact Hbody. reflexivity.
Qed.

Lemma run_sys_cons_fst P Q C s a rest :
  fst (run_sys P Q C s (a :: rest)) = fst (run_sys P Q C (fst (step P Q C s a)) rest).
Proof. cbn [run_sys]. destruct (step P Q C s a), (run_sys P Q C _ rest). reflexivity. Qed.
Lemma run_sys_cons_snd P Q C s a rest :
  snd (run_sys P Q C s (a :: rest)) = snd (step P Q C s a) ++ snd (run_sys P Q C (fst (step P Q C s a)) rest).
Proof. cbn [run_sys]. destruct (step P Q C s a), (run_sys P Q C _ rest). reflexivity. Qed.
Lemma run_sys_app_fst P Q C a : forall s b,
  fst (run_sys P Q C s (a ++ b)) = fst (run_sys P Q C (fst (run_sys P Q C s a)) b).
Proof.
  induction a as [|x a IH]; intros s b; [reflexivity|].
  cbn [app]. rewrite !run_sys_cons_fst. apply IH.
Qed.
Lemma run_sys_invariant (I : sys -> Prop) P Q C :
  (forall s a, I s -> I (fst (step P Q C s a))) ->
  forall sched s, I s -> I (fst (run_sys P Q C s sched)).
Proof.
  intros Hstep. induction sched as [|a rest IH]; intros s Hs; [exact Hs|].
  rewrite run_sys_cons_fst. apply IH, Hstep, Hs.
Qed.
Lemma step_obs P Q C s a :
  snd (step P Q C s a) = match a with AQuery => [snd (query Q C s)] | _ => [] end.
Proof.
  destruct a; cbn [step snd]; try reflexivity.
  - destruct (s_phase s); [destruct (s_leaked s)|..]; reflexivity.
  - destruct (s_phase s) as [|[|k] ? ?|]; reflexivity.
  - destruct (query Q C s). reflexivity.
Qed.

(* with healthMu free and a Healthy that releases it, a query changes nothing and is answered from the state (when
   Healthy returns early because the check is disabled, that is the answer the state gives as well) *)
Lemma query_free Q C s :
  q_leak Q = false -> s_held s = false -> s_leaked s = false ->
  query Q C s = (s, OAns (h_healthy (c_disabled C) (c_interval C) (s_st s) (s_now s)) (s_now s)).
Proof.
  intros HQ Hh Hl. unfold query. rewrite Hh, Hl, HQ, !andb_false_r.
  destruct (q_early Q && c_disabled C) eqn:E.
  - apply andb_prop in E as [_ ->]. reflexivity.
  - destruct s. cbn in *. subst. reflexivity.
Qed.

(* the published history grows exactly when no ping is left to make: by the round in flight, stamped with the present *)
Lemma next_ping_hist P C s k notok ll :
  s_leaked s = false ->
  s_hist (next_ping P C s k notok ll) =
  match k with O => s_hist s ++ [mkR (s_cur s) (s_now s)] | S _ => s_hist s end.
Proof.
  intros Hl. unfold next_ping, publish. rewrite Hl, andb_false_r.
  destruct k; [|destruct (p_closed_check P && s_closed s)]; reflexivity.
Qed.

Lemma init_inv C t0 now0 : inv C t0 (init C t0 now0).
Proof. repeat split. Qed.

(* next_ping does not look at the phase of the state it is given; the hypotheses are `inv` of that state with the
   phase CPing _ notok ll *)
Lemma next_ping_inv P C t0 s k notok ll :
  good_plan P ->
  s_held s = false -> s_leaked s = false -> s_st s = h_run (c_failures C) t0 (s_hist s) ->
  ll = h_status (s_st s) -> notok = not_ok_count (s_cur s) ->
  inv C t0 (next_ping P C s k notok ll).
Proof.
  intros (_ & G2 & G3) Hh Hl Hst -> ->. unfold next_ping, publish. rewrite Hh, Hl.
  destruct k as [|k]; [|destruct (p_closed_check P && s_closed s)]; repeat split;
    cbn [s_held s_leaked s_st s_hist s_phase s_cur negb andb orb]; try assumption.
  rewrite h_run_snoc, <- Hst. apply h_check_status_only.
Qed.

Lemma step_inv P Q C t0 s a :
  good_plan P -> good_qplan Q -> inv C t0 s -> inv C t0 (fst (step P Q C s a)).
Proof.
  intros GP (_ & Q2) Hi. pose proof Hi as (Hh & Hl & Hst & Hph). destruct a as [d| |ok| |]; cbn [step fst].
  - exact Hi.
  - destruct (s_phase s); try exact Hi. rewrite Hl. cbn [fst].
    apply next_ping_inv; try assumption; try reflexivity. apply GP.
  - destruct (s_phase s) as [|[|k] notok ll|]; try exact Hi. destruct Hph as [-> ->]. cbn [fst].
    apply next_ping_inv; cbn [s_cur]; try assumption; try reflexivity.
    rewrite not_ok_count_snoc. destruct ok; reflexivity.
  - rewrite query_free by assumption. exact Hi.
  - exact Hi.
Qed.

Lemma run_inv P Q C t0 sched s :
  good_plan P -> good_qplan Q -> inv C t0 s -> inv C t0 (fst (run_sys P Q C s sched)).
Proof. intros GP GQ. apply run_sys_invariant. intros s' a. apply step_inv; assumption. Qed.
Lemma reachable_inv P Q C t0 now0 sched :
  good_plan P -> good_qplan Q -> inv C t0 (fst (run_sys P Q C (init C t0 now0) sched)).
Proof. intros GP GQ. apply run_inv; try assumption. apply init_inv. Qed.

Lemma query_spec Q C t0 s :
  good_qplan Q -> 1 <= c_failures C -> inv C t0 s -> query Q C s = (s, spec_answer C t0 s).
Proof.
  intros (_ & Q2) HN (Hh & Hl & Hst & _). rewrite query_free by assumption.
  unfold spec_answer. rewrite Hst, health_refines_spec by assumption. reflexivity.
Qed.

Lemma run_obs_spec P Q C t0 sched : forall s,
  good_plan P -> good_qplan Q -> 1 <= c_failures C -> inv C t0 s ->
  snd (run_sys P Q C s sched) = spec_obs P Q C t0 s sched.
Proof.
  induction sched as [|a rest IH]; intros s GP GQ HN Hi; [reflexivity|].
  rewrite run_sys_cons_snd. cbn [spec_obs].
  rewrite step_obs, (query_spec Q C t0 s GQ HN Hi), IH by (try apply step_inv; assumption).
  reflexivity.
Qed.

Lemma spec_obs_answers P Q C t0 sched : forall s, forallb is_answer (spec_obs P Q C t0 s sched) = true.
Proof.
  induction sched as [|a rest IH]; intros s; cbn [spec_obs]; [reflexivity|].
  rewrite forallb_app, IH. destruct a; reflexivity.
Qed.

Lemma queries_never_block P Q C t0 now0 sched :
  good_plan P -> good_qplan Q -> 1 <= c_failures C ->
  forallb is_answer (snd (run_sys P Q C (init C t0 now0) sched)) = true.
Proof.
  intros GP GQ HN. rewrite (run_obs_spec P Q C t0 sched _ GP GQ HN (init_inv C t0 now0)).
  apply spec_obs_answers.
Qed.

(* the staleness clause is reachable while a round is in flight: whatever the checker is doing, a query made more than
   three intervals after the last PUBLISHED round is answered, and the answer is failure *)
Lemma stale_reported_in_flight P Q C t0 now0 sched :
  good_plan P -> good_qplan Q -> 1 <= c_failures C ->
  let s := fst (run_sys P Q C (init C t0 now0) sched) in
  s_now s - last_completed t0 (s_hist s) > 3 * c_interval C ->
  snd (query Q C s) = OAns false (s_now s).
Proof.
  intros GP GQ HN s Hs. rewrite (query_spec Q C t0 s GQ HN (reachable_inv P Q C t0 now0 sched GP GQ)).
  unfold spec_answer, spec_healthy. cbn [snd]. f_equal. lia.
Qed.

(* Close: with the Closed test in the token loop no ping is STARTED after the server has been closed *)
Lemma next_ping_late P C s k notok ll :
  p_closed_check P = true -> s_late (next_ping P C s k notok ll) = s_late s.
Proof.
  intros Hc. unfold next_ping. destruct k as [|k].
  - unfold publish. destruct (negb (s_held s) && s_leaked s); reflexivity.
  - rewrite Hc. destruct (s_closed s); cbn [andb s_late]; lia.
Qed.
Lemma step_late P Q C s a :
  p_closed_check P = true -> s_late (fst (step P Q C s a)) = s_late s.
Proof.
  intros Hc. destruct a; cbn [step fst]; try reflexivity.
  - destruct (s_phase s); [destruct (s_leaked s)|..]; cbn [fst]; try reflexivity. rewrite next_ping_late by exact Hc. reflexivity.
  - destruct (s_phase s) as [|[|k] ? ?|]; cbn [fst]; try reflexivity. rewrite next_ping_late by exact Hc. reflexivity.
  - unfold query. destruct (q_early Q && c_disabled C); [reflexivity|]. destruct (q_locks Q && (s_held s || s_leaked s)); reflexivity.
Qed.
Lemma run_late P Q C sched s :
  p_closed_check P = true -> s_late (fst (run_sys P Q C s sched)) = s_late s.
Proof.
  intros Hc. apply (run_sys_invariant (fun s' => s_late s' = s_late s)); [|reflexivity].
  intros s' a <-. apply step_late, Hc.
Qed.
Lemma no_ping_started_after_close P Q C t0 now0 sched :
  p_closed_check P = true -> s_late (fst (run_sys P Q C (init C t0 now0) sched)) = 0.
Proof. apply run_late. Qed.

(* while healthMu is held, time may pass as it likes: the next query finds the mutex taken *)
Lemma held_blocks_query P Q C ticks : forall s,
  s_held s = true -> q_locks Q = true -> q_early Q && c_disabled C = false ->
  exists t, snd (run_sys P Q C s (map ATick ticks ++ [AQuery])) = [OBlocked t].
Proof.
  induction ticks as [|d ticks IH]; intros s Hh Hlk Hq; cbn [map app]; rewrite run_sys_cons_snd.
  - rewrite step_obs. unfold query. rewrite Hq, Hlk, Hh. eexists. reflexivity.
  - apply IH; assumption.
Qed.
