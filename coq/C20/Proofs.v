(* C20/Proofs.v — the health state after any history of rounds (run_invariant) and the three theorems read off it. *)
From Relic Require Import Base.Prelude Generated.C20_gen C20.Model.

Lemma h_run_snoc f t0 hist r :
  h_run f t0 (hist ++ [r]) = h_check f (h_run f t0 hist) (not_ok_count (r_oks r)) (r_time r).
Proof. unfold h_run. rewrite fold_left_app. reflexivity. Qed.
(* a round reads nothing of the state but healthStatus *)
Lemma h_check_status_only f st x n t : h_check f (mkH (h_status st) x) n t = h_check f st n t.
Proof. reflexivity. Qed.
Lemma not_ok_count_snoc l ok : not_ok_count (l ++ [ok]) = if ok then not_ok_count l else not_ok_count l + 1.
Proof.
  unfold not_ok_count. rewrite filter_app, zlen_app. destruct ok; cbn [filter negb]; rewrite ?zlen_cons, zlen_nil; lia.
Qed.
Lemma trailing_failures_snoc hist r :
  trailing_failures (hist ++ [r]) = if round_ok r then 0 else 1 + trailing_failures hist.
Proof. unfold trailing_failures. rewrite rev_unit. reflexivity. Qed.
Lemma last_completed_snoc t0 hist r : last_completed t0 (hist ++ [r]) = r_time r.
Proof. unfold last_completed. rewrite rev_unit. reflexivity. Qed.

Lemma trailing_failures_nonneg hist : 0 <= trailing_failures hist.
Proof.
  unfold trailing_failures. induction (rev hist) as [|r l IH]; cbn [trailing_failures_rev]; [lia|].
  destruct (round_ok r); lia.
Qed.

Lemma all_ok_no_trailing hist : Forall (fun r => round_ok r = true) hist -> trailing_failures hist = 0.
Proof.
  intros H. apply Forall_rev in H. unfold trailing_failures.
  destruct H as [|r l Hr _]; cbn [trailing_failures_rev]; [|rewrite Hr]; reflexivity.
Qed.

(* healthCheck's test `len(notOK) == 0` is the specification's "the round is ok" *)
Lemma all_ok_round_ok r : hc_all_ok (not_ok_count (r_oks r)) = round_ok r.
Proof.
  unfold hc_all_ok, not_ok_count, round_ok. induction (r_oks r) as [|b l IH]; [reflexivity|].
  destruct b; cbn [filter forallb negb andb]; [exact IH|].
  rewrite zlen_cons. pose proof (zlen_nonneg (filter negb l)). lia.
Qed.

(* invariant: remaining tolerance = N - min N (trailing failures) *)
Lemma run_invariant failures t0 hist :
  1 <= failures ->
  h_status (h_run failures t0 hist) = failures - Z.min failures (trailing_failures hist) /\
  h_last (h_run failures t0 hist) = last_completed t0 hist.
Proof.
  intros HN. induction hist as [|r hist [IHs _]] using rev_ind.
  - cbn. unfold health_init_status. split; lia.
  - rewrite h_run_snoc, trailing_failures_snoc, last_completed_snoc.
    unfold h_check. cbn [h_status h_last]. split; [|reflexivity].
    rewrite all_ok_round_ok, IHs. unfold hc_reset_value, hc_can_decrement, hc_decrements, hc_start_value.
    pose proof (trailing_failures_nonneg hist).
    destruct (round_ok r); [lia|]. destruct (_ >? 0) eqn:E; lia.
Qed.

Lemma health_refines_spec disabled interval failures t0 hist now :
  1 <= failures ->
  h_healthy disabled interval (h_run failures t0 hist) now = spec_healthy disabled interval failures t0 hist now.
Proof.
  intros HN. destruct (run_invariant failures t0 hist HN) as [Hs Hl].
  unfold h_healthy, healthy_gen, spec_healthy. rewrite Hs, Hl.
  pose proof (trailing_failures_nonneg hist).
  destruct disabled; [reflexivity|]. destruct (_ >? 3 * interval) eqn:E; lia.
Qed.

Lemma one_success_restores disabled interval failures t0 hist oks t :
  1 <= failures -> forallb (fun b => b) oks = true -> disabled = false -> 0 <= interval ->
  h_healthy disabled interval (h_run failures t0 (hist ++ [mkR oks t])) t = true.
Proof.
  intros HN Hok -> Hi. rewrite health_refines_spec by assumption.
  unfold spec_healthy. rewrite last_completed_snoc, trailing_failures_snoc.
  unfold round_ok. cbn [r_oks r_time]. rewrite Hok. lia.
Qed.

Lemma close_exits : loop_on_closed = Exit.
Proof. reflexivity. Qed.
