(* C20/Properties.v — the property theorems: hysteresis of the health state, lock discipline and answers under every
   schedule of checker, queries and Close, the timeout scope of the token pings. *)
From Relic Require Import Base.Prelude Generated.C20_gen C20.Model C20.Proofs C20.Lock C20.LockProofs C20.Scope C20.ScopeProofs.
Require Import Coq.Sorting.Permutation.

(* the endpoint reports failure exactly when disabled, stale for three intervals, or the last N checks all failed —
   for every threshold N >= 1, every history of rounds over any number of tokens, every query time *)
Theorem health_refines_spec : forall disabled interval failures t0 hist now,
  1 <= failures ->
  h_healthy disabled interval (h_run failures t0 hist) now = spec_healthy disabled interval failures t0 hist now.
Proof. exact C20.Proofs.health_refines_spec. Qed.

(* one successful check restores health *)
Theorem one_success_restores : forall disabled interval failures t0 hist oks t,
  1 <= failures -> forallb (fun b => b) oks = true -> disabled = false -> 0 <= interval ->
  h_healthy disabled interval (h_run failures t0 (hist ++ [mkR oks t])) t = true.
Proof. exact C20.Proofs.one_success_restores. Qed.

(* closing the server ends the background loop (the generated select-arm table says the arm leaves the loop) *)
Theorem close_exits : loop_on_closed = Exit.
Proof. exact C20.Proofs.close_exits. Qed.

Example three_failures_trip :
  let hist := [mkR [true; true] 10; mkR [true; false] 20; mkR [false] 30; mkR [false; false] 40] in
  spec_healthy false 10 3 0 hist 41 = false /\ spec_healthy false 10 3 0 (removelast hist) 31 = true /\
  h_healthy false 10 (h_run 3 0 hist) 41 = false.
Proof. vm_compute. repeat split. Qed.

(* lock discipline and concurrency: the model is C20/Lock.v *)

(* the source has the shape the dynamic model assumes; healthCheck never starts a ping while it holds healthMu, releases
   it on every return, and tests s.Closed before each ping *)
Theorem hc_plan_good : good_plan hc_plan /\ p_closed_check hc_plan = true.
Proof. unfold hc_plan. rewrite hc_analysis. repeat split. Qed.
(* Healthy neither pings nor blocks under healthMu and releases it on every return *)
Theorem healthy_plan_good : good_qplan healthy_plan.
Proof. unfold healthy_plan. rewrite healthy_analysis. split; reflexivity. Qed.
(* every read and write of healthStatus / healthLastPing in healthCheck, Healthy and serveHealth is made under healthMu *)
Theorem shared_state_locked :
  locked_access hc_events = true /\ locked_access healthy_events = true /\ locked_access serve_health_events = true.
Proof. vm_compute. repeat split. Qed.
(* none of healthCheck, Healthy, serveHealth, pingOne pings or blocks while holding healthMu or returns with it locked;
   pingOne does not touch the mutex at all *)
Theorem lock_released_and_never_held_over_a_ping :
  lock_clean hc_events = true /\ lock_clean healthy_events = true /\ lock_clean serve_health_events = true /\
  lock_clean ping_one_events = true /\ count 1 ping_one_events = 0.
Proof. vm_compute. repeat split. Qed.
(* step level, for every number of tokens n: the unrolled round makes exactly n pings, healthMu free at each of them *)
Theorem no_ping_under_lock : forall n,
  forallb negb (pings_held false (unroll hc_events n)) = true /\
  zlen (pings_held false (unroll hc_events n)) = Z.of_nat n.
Proof.
  intros n. unfold unroll.
  change (split_loop hc_events) with (Some ([1; 4; 2], [9; 13; 10; 14; 8], [1; 3; 6; 7; 10])).
  cbv iota beta.
  rewrite pings_held_unrolled by reflexivity. cbn [pings_held Z.eqb Pos.eqb held_after app].
  (* what is left is n copies of [false], one per iteration *)
  induction n as [|n [IH1 IH2]]; [split; reflexivity|].
  cbn [repeat_list app forallb negb andb]. rewrite zlen_cons, IH2. split; [exact IH1|lia].
Qed.

(* for every configuration, every interleaving of time, round starts, ping returns (each after an arbitrary time or
   never), queries and Close: every query is answered — never blocked — and the answer is what the property demands of
   the rounds PUBLISHED at that moment (spec_healthy over the ghost history, at the query's own time) *)
Theorem queries_answered_from_published : forall P Q C t0 now0 sched,
  good_plan P -> good_qplan Q -> 1 <= c_failures C ->
  snd (run_sys P Q C (init C t0 now0) sched) = spec_obs P Q C t0 (init C t0 now0) sched.
Proof. intros. apply run_obs_spec; try assumption. apply init_inv. Qed.
Theorem queries_never_block : forall P Q C t0 now0 sched,
  good_plan P -> good_qplan Q -> 1 <= c_failures C ->
  forallb is_answer (snd (run_sys P Q C (init C t0 now0) sched)) = true.
Proof. exact C20.LockProofs.queries_never_block. Qed.
(* instantiated with the plans computed from the current source *)
Theorem health_endpoint_concurrent : forall C t0 now0 sched, 1 <= c_failures C ->
  snd (run_sys hc_plan healthy_plan C (init C t0 now0) sched) = spec_obs hc_plan healthy_plan C t0 (init C t0 now0) sched.
Proof.
  intros. apply queries_answered_from_published; try assumption.
  - exact (proj1 hc_plan_good).
  - exact healthy_plan_good.
Qed.
(* the published history grows only when the last ping of a round returns, stamped with that moment *)
Theorem published_on_completion : forall P Q C t0 s a,
  good_plan P -> good_qplan Q -> inv C t0 s ->
  let s' := fst (step P Q C s a) in
  s_hist s' = s_hist s \/
  (exists ok notok ll, a = APing ok /\ s_phase s = CPing 1 notok ll /\ s_hist s' = s_hist s ++ [mkR (s_cur s ++ [ok]) (s_now s)]) \/
  (a = ABegin /\ s_phase s = CIdle /\ c_tokens C = O /\ s_hist s' = s_hist s ++ [mkR [] (s_now s)]).
Proof.
  intros P Q C t0 s a _ (_ & Q2) (Hh & Hl & _). cbn zeta.
  destruct a as [d| |ok| |]; cbn [step fst]; try (left; reflexivity).
  - destruct (s_phase s); try (left; reflexivity). rewrite Hl. cbn [fst].
    rewrite next_ping_hist by reflexivity. destruct (c_tokens C); [right; right; auto|left; reflexivity].
  - destruct (s_phase s) as [|[|[|k]] notok ll|]; try (left; reflexivity); cbn [fst]; rewrite next_ping_hist by exact Hl.
    + right. left. exists ok, notok, ll. auto.
    + left. reflexivity.
  - left. rewrite query_free by assumption. reflexivity.
Qed.
(* the staleness clause fires while a round is in flight, after any interleaving *)
Theorem stale_reported_in_flight : forall P Q C t0 now0 sched,
  good_plan P -> good_qplan Q -> 1 <= c_failures C ->
  let s := fst (run_sys P Q C (init C t0 now0) sched) in
  s_now s - last_completed t0 (s_hist s) > 3 * c_interval C ->
  snd (query Q C s) = OAns false (s_now s).
Proof. exact C20.LockProofs.stale_reported_in_flight. Qed.
(* and not before: fresh published state with fewer than N trailing failures answers healthy, round in flight or not *)
Theorem fresh_healthy_in_flight : forall P Q C t0 now0 sched,
  good_plan P -> good_qplan Q -> 1 <= c_failures C -> c_disabled C = false ->
  let s := fst (run_sys P Q C (init C t0 now0) sched) in
  s_now s - last_completed t0 (s_hist s) <= 3 * c_interval C ->
  trailing_failures (s_hist s) < c_failures C ->
  snd (query Q C s) = OAns true (s_now s).
Proof.
  intros P Q C t0 now0 sched GP GQ HN Hd s Hs Ht.
  rewrite (query_spec Q C t0 s GQ HN (reachable_inv P Q C t0 now0 sched GP GQ)).
  unfold spec_answer, spec_healthy. cbn [snd]. rewrite Hd. f_equal. lia.
Qed.
(* Close: no ping is started once the server is closed; Close itself returns only after the loop has returned *)
Theorem no_ping_started_after_close : forall P Q C t0 now0 sched,
  p_closed_check P = true -> s_late (fst (run_sys P Q C (init C t0 now0) sched)) = 0.
Proof. exact C20.LockProofs.no_ping_started_after_close. Qed.
Theorem close_joins : close_joins_loop = true.
Proof. exact C20.LockProofs.close_joins. Qed.
Theorem checker_never_stuck : forall P Q C t0 now0 sched,
  good_plan P -> good_qplan Q -> s_phase (fst (run_sys P Q C (init C t0 now0) sched)) <> CStuck.
Proof.
  intros P Q C t0 now0 sched GP GQ E.
  pose proof (reachable_inv P Q C t0 now0 sched GP GQ) as (_ & _ & _ & H). rewrite E in H. exact H.
Qed.
(* necessity: ANY healthCheck that pings under healthMu blocks every query made while its first ping is in flight,
   for as long as that takes *)
Theorem ping_under_lock_blocks : forall P Q C t0 now0 ticks,
  p_ping_locked P = true -> (1 <= c_tokens C)%nat -> q_locks Q = true -> q_early Q && c_disabled C = false ->
  exists t, snd (run_sys P Q C (init C t0 now0) (ABegin :: map ATick ticks ++ [AQuery])) = [OBlocked t].
Proof.
  intros P Q C t0 now0 ticks Hp Ht Hlk Hq. rewrite run_sys_cons_snd. cbn [snd step init s_phase s_leaked app].
  apply held_blocks_query; try assumption.
  unfold next_ping. destruct (c_tokens C); [lia|]. cbn [s_closed]. rewrite andb_false_r. exact Hp.
Qed.

(* non-vacuity.  One slow token among three, N = 2, interval 1000: the round is in flight from t = 0; the last published
   state is 2700 old.  A query at once is answered healthy, one 600 later is answered unhealthy (stale), and after the
   slow ping returns ok the round is published and the next query is healthy again. *)
Example slow_token_scenario :
  let C := mkCfg 2 false 1000 3 in
  snd (run_sys hc_plan healthy_plan C (init C (-2700) 0)
        [ABegin; APing true; AQuery; ATick 600; AQuery; APing true; AQuery; APing false; AQuery; AClose; ABegin; AQuery])
  = [OAns true 0; OAns false 600; OAns false 600; OAns true 600; OAns true 600].
Proof. vm_compute. reflexivity. Qed.
(* the shape of a healthCheck that holds healthMu for the whole round (lock; defer unlock; read; pings; write) is
   understood by the analysis, is flagged, and the dynamic model then blocks the same queries *)
Example whole_round_under_lock_blocks :
  let evs := [1; 3; 4; 11; 9; 13; 10; 14; 8; 12; 6; 7; 10] in
  analyze evs = Some (mkPlan true true false false) /\
  let C := mkCfg 2 false 1000 1 in
  snd (run_sys (mkPlan true true false false) healthy_plan C (init C (-2700) 0) [ABegin; AQuery; ATick 600; AQuery; APing true; AQuery])
  = [OBlocked 0; OBlocked 600; OAns true 600].
Proof. vm_compute. split; reflexivity. Qed.
(* shapes the analysis rejects or flags: unlock missing on the Closed return; write outside the lock; second Lock while held *)
Example flagged_shapes :
  analyze [1; 4; 11; 9; 13; 10; 14; 8; 12; 6; 7; 2; 10] = Some (mkPlan true true true false) /\
  locked_access [1; 4; 2; 11; 8; 12; 6; 7; 10] = false /\
  analyze [1; 4; 11; 8; 12; 1; 6; 7; 2; 10] = None.
Proof. vm_compute. repeat split. Qed.

(* timeout scope of the token pings: the model is C20/Scope.v *)

(* the generated decisions of pingOne / healthCheck: a token is recorded ok exactly when its Ping returned nil *)
Theorem counted_ok_spec : forall err expired, tok_counted_ok err expired = negb err.
Proof. exact C20.ScopeProofs.counted_ok_spec. Qed.
(* the context that reaches Token.Ping is created once per token with token_check_timeout seconds, for every
   configuration and every number of tokens (statement over the generated chain) *)
Theorem source_scope_per_token : forall timeout_s interval_s n,
  chain_timeout (cfg_chain timeout_s interval_s n) = Some (spec_timeout timeout_s).
Proof. exact C20.ScopeProofs.source_scope_per_token. Qed.
(* ANY chain whose contexts are all created per token: the round is decided token by token, ends after the sum of the
   individual check times, and hangs iff some token neither answers nor can be interrupted *)
Theorem round_per_token : forall chain T rs ps,
  chain_timeout chain = Some T -> 0 <= T ->
  run_round chain rs ps =
  if forallb tok_returns ps then Some (map (spec_tok_ok T) ps, rs + spec_round_dur T ps) else None.
Proof. exact C20.ScopeProofs.round_per_token. Qed.
(* the current source: all configurations, all rounds over any number of tokens with any latencies *)
Theorem source_round : forall timeout_s interval_s rs ps,
  0 <= timeout_s ->
  run_round (cfg_chain timeout_s interval_s (zlen ps)) rs ps =
  if forallb tok_returns ps
  then Some (map (spec_tok_ok (spec_timeout timeout_s)) ps, rs + spec_round_dur (spec_timeout timeout_s) ps) else None.
Proof. exact C20.ScopeProofs.source_round. Qed.
(* a round is ok iff every token answers ok within the timeout on its own *)
Theorem round_ok_iff_each_in_time : forall timeout_s interval_s rs ps,
  0 <= timeout_s -> forallb tok_returns ps = true ->
  exists oks tend, run_round (cfg_chain timeout_s interval_s (zlen ps)) rs ps = Some (oks, tend) /\
                   round_ok (mkR oks tend) = forallb (spec_tok_ok (spec_timeout timeout_s)) ps.
Proof. exact C20.ScopeProofs.round_ok_iff_each_in_time. Qed.
(* the order in which the tokens are pinged (map iteration order) changes neither the verdict, nor the end time, nor
   whether the round ends *)
Theorem round_order_independent : forall timeout_s interval_s rs ps ps',
  0 <= timeout_s -> Permutation ps ps' ->
  round_verdict (run_round (cfg_chain timeout_s interval_s (zlen ps)) rs ps) =
  round_verdict (run_round (cfg_chain timeout_s interval_s (zlen ps')) rs ps').
Proof. exact C20.ScopeProofs.round_order_independent. Qed.
(* what is recorded for a token does not depend on the tokens pinged before or after it *)
Theorem token_outcome_independent : forall timeout_s interval_s rs before p after oks tend,
  0 <= timeout_s ->
  run_round (cfg_chain timeout_s interval_s (zlen (before ++ p :: after))) rs (before ++ p :: after) = Some (oks, tend) ->
  nth (length before) oks false = spec_tok_ok (spec_timeout timeout_s) p.
Proof.
  intros timeout_s interval_s rs before p after oks tend H. rewrite source_round by assumption.
  destruct (forallb tok_returns (before ++ p :: after)); [|discriminate].
  intros E. injection E as <- _. rewrite map_app, app_nth2; rewrite map_length; [|lia].
  rewrite Nat.sub_diag. reflexivity.
Qed.
(* hysteresis over timed histories: /health is what the property demands of the per-token outcomes *)
Theorem timed_health_refines_spec : forall disabled interval failures timeout_s interval_s t0 rounds now,
  1 <= failures -> 0 <= timeout_s ->
  h_healthy disabled interval (h_run_timed (cfg_chain timeout_s interval_s) failures t0 rounds) now =
  spec_healthy disabled interval failures t0 (spec_hist (spec_timeout timeout_s) rounds) now.
Proof. intros. rewrite source_timed_run by assumption. apply health_refines_spec. assumption. Qed.
(* tokens that each answer ok in time never trip the failure counter: any number of tokens, rounds, latencies *)
Theorem in_time_never_trips : forall failures timeout_s interval_s t0 rounds,
  1 <= failures -> 0 <= timeout_s -> all_in_time (spec_timeout timeout_s) rounds ->
  h_status (h_run_timed (cfg_chain timeout_s interval_s) failures t0 rounds) = failures.
Proof. exact C20.ScopeProofs.in_time_never_trips. Qed.
Theorem in_time_healthy : forall disabled interval failures timeout_s interval_s t0 rounds now,
  1 <= failures -> 0 <= timeout_s -> all_in_time (spec_timeout timeout_s) rounds ->
  h_healthy disabled interval (h_run_timed (cfg_chain timeout_s interval_s) failures t0 rounds) now =
  negb disabled && (now - last_completed t0 (spec_hist (spec_timeout timeout_s) rounds) <=? 3 * interval).
Proof.
  intros disabled interval failures timeout_s interval_s t0 rounds now HN HT H.
  rewrite timed_health_refines_spec by assumption. unfold spec_healthy. rewrite (in_time_trailing _ _ H).
  replace (0 <? failures) with true by lia. apply andb_true_r.
Qed.
(* necessity: with a context created once per round, two tokens that each answer ok in time fail the round as soon as
   their latencies add up to the timeout *)
Theorem per_round_scope_cuts_healthy_tokens : forall T l1 l2 rs,
  0 < l1 -> 0 < l2 -> l1 < T -> l2 < T -> T <= l1 + l2 ->
  run_round [(2, T, true)] rs [mkTok (Some l1) true true; mkTok (Some l2) true true] = Some ([true; false], rs + T) /\
  forallb (spec_tok_ok T) [mkTok (Some l1) true true; mkTok (Some l2) true true] = true.
Proof.
  intros T l1 l2 rs H1 H2 H3 H4 H5. unfold run_round.
  cbn [round_trace ping_deadline opt_min elem_deadline Z.eqb Pos.eqb ping_run k_lat k_res k_honours].
  replace (rs + l1 <? rs + T) with true by lia. replace (rs + l1 + l2 <? rs + T) with false by lia.
  rewrite !counted_ok_spec. cbn [negb map snd fst last]. rewrite Z.max_r by lia.
  split; [reflexivity|]. cbn [forallb spec_tok_ok k_lat k_res k_honours andb].
  replace (l1 <? T) with true by lia. replace (l2 <? T) with true by lia. reflexivity.
Qed.
(* the concurrent model, its pings timed by the scope model: after any timed rounds the published history is the
   specification's, and a query made any time later is answered with what the property demands *)
Theorem timed_rounds_concurrent : forall C timeout_s interval_s t0 rounds,
  1 <= c_failures C -> 0 <= timeout_s ->
  (forall r, In r rounds -> c_tokens C = length (tr_toks r)) ->
  let s := fst (run_sys hc_plan healthy_plan C (init C t0 t0) (rounds_sched (cfg_chain timeout_s interval_s) t0 rounds)) in
  s_hist s = spec_hist (spec_timeout timeout_s) rounds /\
  forall d, snd (run_sys hc_plan healthy_plan C s [ATick d; AQuery]) =
            [OAns (spec_healthy (c_disabled C) (c_interval C) (c_failures C) t0
                     (spec_hist (spec_timeout timeout_s) rounds) (s_now s + d)) (s_now s + d)].
Proof.
  intros C timeout_s interval_s t0 rounds HN HT Hn s.
  pose proof (proj1 hc_plan_good) as GP. pose proof healthy_plan_good as GQ.
  assert (H1 : s_hist s = spec_hist (spec_timeout timeout_s) rounds)
    by exact (rounds_published hc_plan healthy_plan C t0 (cfg_chain timeout_s interval_s) _ rounds (init C t0 t0)
                GP GQ (init_inv C t0 t0) eq_refl eq_refl Hn
                (source_scope_per_token timeout_s interval_s) (spec_timeout_nonneg timeout_s HT)).
  split; [exact H1|]. intros d.
  rewrite (run_obs_spec hc_plan healthy_plan C t0 [ATick d; AQuery] s GP GQ HN) by (apply reachable_inv; assumption).
  cbn [spec_obs step fst app]. unfold spec_answer. cbn [s_hist s_now]. rewrite H1. reflexivity.
Qed.

(* non-vacuity.  token_check_timeout = 1 s; times in ns.  Two tokens that answer ok after 650 ms each: the round is ok
   and takes 1.3 s; with a per-round context the second one is cut at 1 s.  One token above the timeout among fast ones,
   in each position: the round fails after 1.1 s.  A token that ignores its context and answers ok after 1.3 s counts
   as ok; one that never answers and honours the context costs exactly the timeout. *)
Definition ms (x : Z) : Z := x * 1000000.
Example two_slow_but_healthy_tokens :
  let ps := [mkTok (Some (ms 650)) true true; mkTok (Some (ms 650)) true true] in
  run_round (cfg_chain 1 60 2) 0 ps = Some ([true; true], ms 1300) /\
  run_round [(2, spec_timeout 1, true)] 0 ps = Some ([true; false], ms 1000) /\
  all_in_time (spec_timeout 1) [mkTR 0 ps; mkTR (ms 5000) ps; mkTR (ms 9000) ps] /\
  h_healthy false (ms 3000) (h_run_timed (cfg_chain 1 60) 2 0 [mkTR 0 ps; mkTR (ms 5000) ps; mkTR (ms 9000) ps]) (ms 10400) = true /\
  h_healthy false (ms 3000) (h_run_timed (fun _ => [(2, spec_timeout 1, true)]) 2 0 [mkTR 0 ps; mkTR (ms 5000) ps]) (ms 6100) = false.
Proof.
  cbv zeta. split; [vm_compute; reflexivity|]. split; [vm_compute; reflexivity|].
  split; [intros r [<-|[<-|[<-|[]]]]; vm_compute; reflexivity|].
  split; vm_compute; reflexivity.
Qed.
Example one_slow_among_fast :
  let f := mkTok (Some (ms 50)) true true in
  let sl := mkTok (Some (ms 1400)) true true in
  run_round (cfg_chain 1 60 3) 0 [sl; f; f] = Some ([false; true; true], ms 1100) /\
  run_round (cfg_chain 1 60 3) 0 [f; sl; f] = Some ([true; false; true], ms 1100) /\
  run_round (cfg_chain 1 60 3) 0 [f; f; sl] = Some ([true; true; false], ms 1100) /\
  run_round (cfg_chain 1 60 2) 0 [mkTok (Some (ms 1300)) true false; f] = Some ([true; true], ms 1350) /\
  run_round (cfg_chain 1 60 2) 0 [mkTok None true true; f] = Some ([false; true], ms 1050) /\
  run_round (cfg_chain 1 60 2) 0 [mkTok None true false; f] = None.
Proof. vm_compute. repeat split. Qed.
Example timed_round_in_concurrent_model :
  let ps := [mkTok (Some (ms 650)) true true; mkTok (Some (ms 650)) true true] in
  let C := mkCfg 2 false (ms 3000) 2 in
  snd (run_sys hc_plan healthy_plan C (init C 0 0) (rounds_sched (cfg_chain 1 60) 0 [mkTR 0 ps; mkTR (ms 4300) ps] ++ [AQuery]))
  = [OAns true (ms 5600)].
Proof. vm_compute. reflexivity. Qed.
