(* FmtXAR/Properties.v — the property theorems of the two Apple container formats of this unit:
   xar_  flat packages (lib/fruit/xar, signers/xar),  dmg_  disk images (lib/fruit/dmg, signers/dmg).
   They rest on the lemmas of FmtXAR/ProofsHdr.v, ProofsDMG.v and ProofsXAR.v; the witnesses are evaluated on the inputs of
   WitnessXAR.v and ProofsDMG.v.  Grouped by the property served (C01 C02 C03 C05 C08 C11); checks/fmtxar.py ASPECT_THEOREMS lists
   the same names.  Where the faithful model violates a statement at
   full strength the theorem `*_refuted` exhibits a concrete witness (replayed on the real code by checks/fmtxar.py) and the theorem
   itself is stated on the exact domain where it holds (xar_dom / dmg_dom).

   Opaque in this unit: zlib + the XML document of a xar table of contents (a decoder `dec` / encoder `enc` to the abstract table of
   contents of Model.v, assumed to round-trip on the tables of contents `good` that occur), digests (`Hf`), the RSA signature (`csig`),
   the CMS blob (unit C16) and the CodeDirectory / superblob (unit FmtMACHO).  xar_hypotheses_satisfiable shows the assumptions have a
   model. *)
From Relic Require Import Base.Prelude Base.Enc Base.Slice Generated.FmtXAR_gen FmtXAR.Model FmtXAR.Codec FmtXAR.ProofsHdr FmtXAR.ProofsDMG FmtXAR.ProofsXAR FmtXAR.WitnessXAR.
From Relic Require Laws.Pipeline.

(* C01 C05: parse (marshal h) = h for every field value in range (sizes as int64, two's complement); the header is 28 bytes; a reader
   written from the xar format description reads relic's header back (magic 0, size 4, version 6, compressed length 8, uncompressed
   length 16, checksum algorithm 24, big endian) *)
Theorem xar_header_roundtrip : forall h rest hid, xhdr_ok h -> xh_magic h = xar_magic -> xh_version h = 1 ->
  assoc_z (xh_htype h) xar_hash_of_enum = Some hid ->
  xar_parse_header (xar_marshal_header h ++ rest) = Ok (h, hid) /\ zlen (xar_marshal_header h) = 28 /\
  (all_bytes rest = true -> 0 <= xh_clen h -> 0 <= xh_ulen h -> spec_xar_header (xar_marshal_header h ++ rest) = Some h).
Proof.
  intros h rest hid H1 H2 H3 H4. split; [now apply header_roundtrip|]. split; [now apply marshal_header_zlen|].
  intros. now apply (header_spec_reads_relic h rest hid).
Qed.
(* C05: whatever parseHeader accepts, the specification reader reads the same values at the published offsets, and relic's hash
   enumeration is the format's (1 SHA-1, 3 SHA-256, 4 SHA-512) *)
Theorem xar_header_spec_agree : forall b h hid, all_bytes b = true -> xar_parse_header b = Ok (h, hid) -> 0 <= xh_clen h -> 0 <= xh_ulen h ->
  spec_xar_header b = Some h /\ spec_cksum_hash (xh_htype h) = Some hid.
Proof. exact FmtXAR.ProofsHdr.header_spec_agree. Qed.
(* C11: the header parser never panics on any byte string and looks at 28 bytes only *)
Theorem xar_parse_header_no_panic : forall b p, xar_parse_header b <> Panic p /\ xar_parse_header (ztake 28 b) = xar_parse_header b.
Proof. intros b p. split; [apply parse_header_no_panic|apply parse_header_prefix]. Qed.

(* C01 C05: the UDIF trailer: parse (marshal k) = k for every trailer value in range; 512 bytes *)
Theorem dmg_koly_roundtrip : forall k rest, koly_ok k -> dmg_parse_koly (dmg_marshal_koly k ++ rest) = Ok k /\ zlen (dmg_marshal_koly k) = 512.
Proof. intros k rest H. split; [now apply koly_roundtrip|now apply marshal_koly_zlen]. Qed.
(* C05: relic's struct layout IS the published layout of the koly block (field by field: signature 0 ... reserved 500..512) *)
Theorem dmg_koly_layout_is_published : forall b, split_w dmg_koly_widths b = spec_koly_slices b.
Proof. exact FmtXAR.ProofsHdr.koly_positions. Qed.
(* C05 C02: re-serialising a parsed trailer reproduces every field's bytes at its place, except the three reserved areas, which come
   out as zeros (so they are not part of anything relic hashes: dmg_reserved_unprotected) *)
Theorem dmg_koly_marshal_parse : forall b k, all_bytes b = true -> zlen b = 512 -> dmg_parse_koly b = Ok k ->
  spec_koly_slices (dmg_marshal_koly k) = blank_parts dmg_koly_widths dmg_koly_blank (spec_koly_slices b) /\ koly_ok k.
Proof.
  intros b k Hb Hl Hp. split; [|now apply (parse_koly_ok b)]. rewrite <- !koly_positions. now apply koly_marshal_parse.
Qed.

(* dmg_format = (dmg_hashin, dmg_embed_wf, dmg_extract, spec_dmg_payload); dmg_embed_wf = dmg_embed when dmg_dom f && dmg_blob_ok blob,
   Err E_DOMAIN otherwise.  dmg_dom (ProofsDMG.v): all bytes; a trailer with the koly magic; the end of the property list
   (XMLOffset + XMLLength, where relic cuts the image) lies in the file in front of the trailer; data fork, resource fork and property
   list lie in front of that point.  dmg_blob_ok: 1 .. 10^7 bytes. *)

(* ---- C01 *)
Theorem dmg_law_extract : forall f blob g, dmg_embed_wf f blob = Ok g -> dmg_extract g = Ok (Some blob).
Proof. exact FmtXAR.ProofsDMG.dmg_law_extract. Qed.
(* C01 + C08: the digest input (single code page = the bytes in front of the signature, and the trailer with the signature length
   blanked) does not see the signature just written nor one that was there *)
Theorem dmg_law_hashin : forall f blob g, dmg_embed_wf f blob = Ok g -> dmg_hashin g = dmg_hashin f.
Proof. exact FmtXAR.ProofsDMG.dmg_law_hashin. Qed.
(* the verifier (DMG.Verify: trailer as found in the file, pages up to the end of the property list) recomputes the signer's input *)
Theorem dmg_verifier_recomputes : forall f blob g, dmg_embed_wf f blob = Ok g -> dmg_vhashin g = dmg_hashin f.
Proof. intros f blob g (k & pre & k2 & _ & _ & _ & _ & -> & Hly & _ & ->)%wf_shape. now apply vhashin_signed. Qed.
Theorem dmg_embed_total : forall f blob, dmg_dom f = true -> dmg_blob_ok blob = true ->
  (exists g, dmg_embed_wf f blob = Ok g) \/
  (dmg_embed_wf f blob = Err E_GAP /\ exists k, dmg_parse_koly (zdrop (zlen f - 512) f) = Ok k /\
     kget dmg_koly_idx_SignatureOffset k <> 0 /\ kget dmg_koly_idx_SignatureOffset k <> kget dmg_koly_idx_XMLOffset k + kget dmg_koly_idx_XMLLength k).
Proof.
  intros f blob Hd Hb. unfold dmg_embed_wf. rewrite Hd, Hb. cbn [andb]. apply dmg_dom_spec in Hd as (k & [_ Hfl Hp _ _ Hbd _ _ _]).
  unfold dmg_embed. rewrite (dmg_sign_eq f blob k Hfl Hp). cbn zeta. destruct (negb _ && negb _) eqn:Eg.
  - right. split; [reflexivity|]. exists k. split; [exact Hp|]. lia.
  - left. destruct (_ || _) eqn:Er; [lia|]. eexists. reflexivity.
Qed.
(* refusals of dmg.Sign for EVERY input: shorter than a trailer; an existing signature that does not start at the end of the property
   list; a property list end outside the file.  (Nothing else is refused: in particular not a wrong magic, see the report.) *)
Theorem dmg_refuses_clean : forall f blob e, dmg_embed f blob = Err e ->
  (e = E_EOF /\ zlen f < 512) \/
  exists k, dmg_parse_koly (zdrop (zlen f - 512) f) = Ok k /\
    let bundle := kget dmg_koly_idx_XMLOffset k + kget dmg_koly_idx_XMLLength k in
    (e = E_GAP /\ kget dmg_koly_idx_SignatureOffset k <> 0 /\ kget dmg_koly_idx_SignatureOffset k <> bundle) \/
    (e = E_PATCH /\ (bundle < 0 \/ zlen f < bundle)).
Proof.
  intros f blob e. destruct (Z_lt_ge_dec (zlen f) 512) as [Hs|Hl].
  - unfold dmg_embed, dmg_sign, dmg_sign_pre, dmg_trailer_of, dmg_transform_seek. replace (zlen f + - 512 <? 0) with true by lia.
    intros [= <-]. left. split; [reflexivity|lia].
  - pose proof (parse_koly_some (zdrop (zlen f - 512) f) ltac:(rewrite zlen_zdrop; lia)) as Hp.
    unfold dmg_embed. rewrite (dmg_sign_eq f blob _ ltac:(lia) Hp). cbn zeta. intros He. right. eexists. split; [exact Hp|]. cbn zeta.
    destruct (negb _ && negb _) eqn:Eg; cbn [bind] in He; [left; split; [congruence|lia]|].
    destruct (_ || _) eqn:Er; cbn [bind] in He; [right; split; [congruence|lia]|discriminate].
Qed.

(* ---- C08 *)
Theorem dmg_dom_preserved : forall f blob g, dmg_embed_wf f blob = Ok g -> dmg_dom g = true.
Proof.
  intros f blob g (k & pre & k2 & Hdt & Hbb & Hpre & _ & -> & Hly & Hoth & _)%wf_shape.
  apply dmg_dom_spec. exists k2. now apply (signed_dom f k).
Qed.
Theorem dmg_is_signed_spec : forall f, dmg_dom f = true -> (dmg_extract f = Ok None <-> spec_dmg_signature f = Some None).
Proof.
  intros f (k & Hdt)%dmg_dom_spec. pose proof (dom_parsed f k Hdt) as Hpa. destruct Hdt as [_ Hfl Hp _ Hmag _ _ _ _].
  rewrite (extract_none f k Hfl Hp Hmag), (kget_zero _ k dmg_koly_idx_SignatureLength Hpa eq_refl) by idx.
  unfold spec_dmg_signature. rewrite (spec_trailer_parsed f k Hfl Hp Hmag). cbn zeta. cbn [sk_siglen sk_sigoff].
  destruct (Z.eqb_spec (be_dec (nth 17 (spec_koly_slices (zdrop (zlen f - 512) f)) [])) 0) as [E|E]; [now split|].
  split; [contradiction|]. destruct (spec_range f _ _); discriminate.
Qed.

(* ---- C03 *)
(* law_payload: data fork, resource fork, property list and every trailer field except the code signature's offset / length and the
   reserved areas, as a reader of the published layout finds them, are unchanged *)
Theorem dmg_law_payload : forall f blob g, dmg_embed_wf f blob = Ok g -> spec_dmg_payload g = spec_dmg_payload f.
Proof. exact FmtXAR.ProofsDMG.dmg_law_payload. Qed.
(* full statement without dmg_dom: fails.  Witness: the property list IN FRONT of the data fork: relic cuts the image at the end of
   the property list, the data fork is gone, signing reports success and the result verifies *)
Theorem dmg_payload_refuted : exists g,
  dmg_embed w_dmg_xml_first [9; 9] = Ok g /\ dmg_extract g = Ok (Some [9; 9]) /\
  (exists it, spec_dmg_payload w_dmg_xml_first = Ok it /\ di_data it = Some [1; 2; 3]) /\
  (exists it, spec_dmg_payload g = Ok it /\ di_data it <> Some [1; 2; 3]) /\
  zlen g < zlen w_dmg_xml_first + 2.
Proof.
  eexists. split; [vm_compute; reflexivity|]. split; [vm_compute; reflexivity|]. split.
  - eexists. split; [vm_compute; reflexivity|]. reflexivity.
  - split; [|vm_compute; reflexivity]. eexists. split; [vm_compute; reflexivity|]. cbn [di_data]. discriminate.
Qed.

(* ---- C05 C02 *)
(* what is hashed for a disk image is exactly what lies in front of the code signature offset the rewritten trailer declares; the
   file is pages ++ blob ++ trailer and nothing else; the specification reader finds the blob at that offset with that length *)
Theorem dmg_code_size_is_data_end : forall f blob g, dmg_embed_wf f blob = Ok g ->
  exists sk pages rep trailer,
    spec_dmg_trailer g = Some sk /\ sk_sigoff sk = zlen pages /\ sk_siglen sk = zlen blob /\
    spec_dmg_signature g = Some (Some blob) /\
    dmg_hashin f = Ok (pages ++ rep) /\ dmg_vhashin g = Ok (pages ++ rep) /\ zlen rep = 512 /\ zlen trailer = 512 /\
    pages = ztake (sk_sigoff sk) g /\ pages = ztake (zlen pages) f /\ g = pages ++ blob ++ trailer /\
    sk_xmloff sk + sk_xmllen sk = sk_sigoff sk.
Proof.
  intros f blob g (k & pre & k2 & Hdt & Hbb & Hpre & Hzp & -> & Hly & Hoth & Hh)%wf_shape.
  pose proof Hly as [Hk2 Hmag2 Hso Hbu Hsl Hbl]. pose proof (zlen_nonneg pre) as Hp0. pose proof (layout_len _ _ _ Hly) as Hgl.
  pose proof (dt_xml _ _ Hdt) as Hf3. unfold fork_in in Hf3. rewrite <- !Hoth in Hf3 by idx.
  assert (Hk0 : koly_ok (kset dmg_koly_idx_SignatureLength 0 k2)) by (apply koly_ok_set_siglen; [assumption|unfold int64_ok; lia]).
  assert (Hsg : exists p d1 d2 r1 r2, spec_dmg_trailer (pre ++ blob ++ dmg_marshal_koly k2) =
             Some (mkSK p 1802464377 d1 d2 r1 r2 (kget dmg_koly_idx_XMLOffset k2) (kget dmg_koly_idx_XMLLength k2) (zlen pre) (zlen blob))).
  { rewrite spec_trailer_parsed with (k := k2), (layout_tail _ _ _ Hly) by (lia || assumption || apply (layout_trailer _ _ _ Hly)). cbn zeta.
    pose proof (fun j => kget_unsigned _ k2 j (marshal_parsed k2 Hk2)) as Hu. unfold dmg_koly_idx_XMLOffset, dmg_koly_idx_XMLLength, dmg_koly_idx_SignatureOffset, dmg_koly_idx_SignatureLength in *.
    rewrite (Hu 16%nat), (Hu 17%nat), (Hu 13%nat), (Hu 14%nat), Hso, Hsl by (reflexivity || lia). repeat eexists. }
  destruct Hsg as (p & d1 & d2 & r1 & r2 & Hsg).
  eexists. exists pre, (dmg_marshal_koly (kset dmg_koly_idx_SignatureLength 0 k2)), (dmg_marshal_koly k2).
  split; [exact Hsg|]. cbn [sk_sigoff sk_siglen sk_xmloff sk_xmllen]. split; [reflexivity|]. split; [reflexivity|]. split.
  { unfold spec_dmg_signature. rewrite Hsg. cbn [sk_siglen sk_sigoff]. replace (zlen blob =? 0) with false by lia.
    unfold spec_range. rewrite Hgl.
    replace ((zlen pre <? 0) || (zlen blob <? 0) || (zlen pre + zlen blob + 512 - 512 <? zlen pre + zlen blob)) with false by lia.
    now rewrite (layout_blob pre blob). }
  split; [exact Hh|]. split; [now apply vhashin_signed|]. split; [now apply marshal_koly_zlen|]. split; [now apply marshal_koly_zlen|].
  split; [symmetry; apply layout_pre|]. split; [exact Hpre|]. split; [reflexivity|]. exact Hbu.
Qed.
(* C02: two images with the same verifier digest input agree on every byte in front of the end of the property list and on every
   trailer field relic parses, except the signature length *)
Theorem dmg_protect : forall g1 g2 p, all_bytes g1 = true -> all_bytes g2 = true -> dmg_vhashin g1 = Ok p -> dmg_vhashin g2 = Ok p ->
  exists k1 k2, dmg_parse_koly (zdrop (zlen g1 + dmg_open_seek) g1) = Ok k1 /\ dmg_parse_koly (zdrop (zlen g2 + dmg_open_seek) g2) = Ok k2 /\
    (forall i, i <> dmg_koly_idx_SignatureLength -> kget i k1 = kget i k2) /\
    let n := kget dmg_koly_idx_XMLOffset k1 + kget dmg_koly_idx_XMLLength k1 in ztake n g1 = ztake n g2.
Proof. exact FmtXAR.ProofsDMG.dmg_protect. Qed.
(* recorded finding (C02:spec:dmg:koly-reserved): reserved trailer bytes are outside the digest input *)
Theorem dmg_reserved_unprotected : exists g1 g2,
  g1 <> g2 /\ dmg_vhashin g1 = dmg_vhashin g2 /\ dmg_extract g1 = dmg_extract g2 /\ dmg_extract g1 = Ok (Some [9; 9]) /\
  zlen g1 = zlen g2 /\ nth 240 (zdrop (zlen g1 - 512) g1) 0 <> nth 240 (zdrop (zlen g2 - 512) g2) 0.
Proof.
  pose (g1 := [1; 2; 3; 60; 62; 9; 9] ++ dmg_marshal_koly (w_koly 0 3 3 2 5 2)).
  pose (g2 := ztake (5 + 2 + 240) g1 ++ [77] ++ zdrop (5 + 2 + 241) g1).
  exists g1, g2. vm_compute. repeat split; try reflexivity; discriminate.
Qed.

(* ---- C11: dmg.Open and the signer never panic on any byte string; the only allocation sized by the input is bounded by a constant *)
Theorem dmg_open_no_panic : forall f p, dmg_open f <> Panic p.
Proof.
  intros f p. unfold dmg_open. destruct (zlen f + dmg_open_seek <? 0); [discriminate|].
  apply bind_no_panic; [apply parse_koly_no_panic|]. intros k _.
  destruct (dmg_open_bad_magic _); [discriminate|]. destruct (dmg_open_has_sig _) eqn:Eh; [|discriminate].
  destruct (dmg_open_sig_unreasonable _) eqn:Eu; [discriminate|].
  unfold dmg_open_sig_unreasonable, dmg_open_alloc in *. match goal with |- context [?x <? 0] => replace (x <? 0) with false by lia end.
  apply bind_no_panic; [apply go_readat_no_panic|discriminate].
Qed.
Theorem dmg_open_allocs_bounded : forall f o, dmg_open f = Ok o -> Forall (fun n => 0 < n <= 10000000) (do_allocs o).
Proof.
  intros f o. unfold dmg_open. destruct (zlen f + dmg_open_seek <? 0); [discriminate|].
  destruct (dmg_parse_koly _) as [k| |]; cbn [bind]; try discriminate.
  destruct (dmg_open_bad_magic _); [discriminate|]. destruct (dmg_open_has_sig _) eqn:Eh; [|intros [= <-]; constructor].
  destruct (dmg_open_sig_unreasonable _) eqn:Eu; [discriminate|]. unfold dmg_open_sig_unreasonable, dmg_open_has_sig, dmg_open_alloc in *.
  match goal with |- context [?x <? 0] => replace (x <? 0) with false by lia end.
  destruct (go_readat _ _ _); cbn [bind]; try discriminate. intros [= <-]. cbn [do_allocs]. constructor; [lia|constructor].
Qed.
Theorem dmg_sign_no_panic : forall f blob p, dmg_sign f blob <> Panic p.
Proof.
  intros f blob p. unfold dmg_sign. apply bind_no_panic; [|intros [[[k1 bundle] pages] rep] _; destruct (_ || _ || _); discriminate].
  unfold dmg_sign_pre, dmg_trailer_of. destruct (_ <? 0); cbn [bind]; [discriminate|].
  apply bind_no_panic; [apply parse_koly_no_panic|]. intros k _. destruct (_ && _); discriminate.
Qed.

(* ---- C01 C08: the pipeline of Laws/Pipeline.v, cryptography symbolic *)
Section DMGCrypto.
  Variables key pubk sigv : Type.
  Variable H : Z -> bytes -> bytes.
  Variable pub : key -> pubk.
  Variable sign : key -> bytes -> sigv.
  Variable vrfy : pubk -> bytes -> sigv -> bool.
  Hypothesis sign_correct : forall k m, vrfy (pub k) m (sign k m) = true.
  Variable tbs : Z -> bytes -> bytes.
  Variable ser : Pipeline.sigblob pubk sigv -> bytes.
  Variable deser : bytes -> option (Pipeline.sigblob pubk sigv).
  Hypothesis deser_ser : forall b, deser (ser b) = Some b.
  Theorem dmg_sign_then_verify : forall k a f g,
    Pipeline.sign_file key pubk sigv H pub sign tbs ser dmg_items dmg_format k a f = Ok g ->
    Pipeline.verify_file pubk sigv H vrfy tbs deser dmg_items dmg_format g = Pipeline.Accept pubk (pub k) a.
  Proof.
    apply (Pipeline.sign_then_verify key pubk sigv H pub sign vrfy sign_correct tbs ser deser deser_ser dmg_items dmg_format).
    - exact dmg_law_extract_F.
    - exact dmg_law_hashin_F.
  Qed.
  Theorem dmg_resign_history : forall hist f g k a,
    Pipeline.resign key pubk sigv H pub sign tbs ser dmg_items dmg_format (hist ++ [(k, a)]) f = Ok g ->
    Pipeline.verify_file pubk sigv H vrfy tbs deser dmg_items dmg_format g = Pipeline.Accept pubk (pub k) a
    /\ Pipeline.is_signed dmg_items dmg_format g = true
    /\ spec_dmg_payload g = spec_dmg_payload f /\ dmg_hashin g = dmg_hashin f.
  Proof.
    apply (Pipeline.resign_history key pubk sigv H pub sign vrfy sign_correct tbs ser deser deser_ser dmg_items dmg_format).
    - exact dmg_law_extract_F.
    - exact dmg_law_hashin_F.
    - exact dmg_law_payload_F.
  Qed.
End DMGCrypto.

(* non-vacuity: the example image is in the domain, signs, re-signs, and every law holds on it by computation *)
Example dmg_dom_inhabited : dmg_dom w_dmg = true /\ dmg_dom w_dmg_xml_first = false.
Proof. vm_compute. split; reflexivity. Qed.
Example dmg_laws_computed :
  match dmg_embed_wf w_dmg [7; 7; 7] with
  | Ok g => dmg_extract g = Ok (Some [7; 7; 7]) /\ dmg_hashin g = dmg_hashin w_dmg /\ dmg_vhashin g = dmg_hashin w_dmg /\
            spec_dmg_payload g = spec_dmg_payload w_dmg /\ dmg_dom g = true /\ zlen g = zlen w_dmg + 3 /\
            match dmg_embed_wf g [8] with Ok g2 => dmg_extract g2 = Ok (Some [8]) /\ zlen g2 = zlen w_dmg + 1 /\ spec_dmg_payload g2 = spec_dmg_payload w_dmg | _ => False end
  | _ => False
  end.
Proof. vm_compute. repeat split; reflexivity. Qed.

Section Xar.
  Variable Hf : Z -> bytes -> bytes.          (* digest function by Go hash number *)
  Variable dec : bytes -> option xtoc.        (* inflate + read the table of contents *)
  Variable enc : xtoc -> bytes.               (* write + deflate *)
  Variable usize : xtoc -> Z.
  Variable csig : bytes -> bytes.             (* RSA signature over a digest *)
  Variable good : xtoc -> Prop.               (* the tables of contents on which the codec is assumed to round-trip, in relic's size class *)
  Hypothesis dec_enc : forall t, good t -> dec (enc t) = Some t.
  Hypothesis Hf_len : forall hid x, zlen (Hf hid x) = hash_size hid.
  Hypothesis enc_small : forall t, good t -> zlen (enc t) <= 1000000.
  Hypothesis usize_ok : forall t, good t -> 0 <= usize t <= 10000000.
  Hypothesis enc_bytes : forall t, good t -> all_bytes (enc t) = true.
  Hypothesis Hf_bytes : forall hid x, all_bytes (Hf hid x) = true.
  Hypothesis csig_bytes : forall x, all_bytes (csig x) = true.

  Notation xar_embed := (xar_embed Hf dec enc usize csig).
  Notation xar_sign := (xar_sign Hf dec enc usize csig).
  Notation xar_dom := (xar_dom dec).
  Notation params_ok := (params_ok csig).
  Notation new_toc := ProofsXAR.new_toc.

  (* ---- C03 C01 *)
  (* the slot plan of reserveSignatures: checksum at 0 with the digest size, the classic signature (RSA leaf only), the CMS slot of
     6144 + certificates bytes; contiguous from 0; the old slots are all removed and their sizes summed *)
  Theorem xar_plan_layout : forall P t, toc_wf t = true ->
    xar_new_toc P t = (toc_orig t, plan_total P, mkToc (plan_slots P) (map (xar_adjust_ref (plan_total P - toc_orig t)) (t_refs t)) (t_strict t)) /\
    zsum (map (fun s => if sl_has_size s then sl_size s else 0) (plan_slots P)) = plan_total P.
  Proof. intros P t H. split; [|apply plan_slots_sum]. unfold xar_new_toc. now rewrite (remove_all t H), reserve_plan. Qed.
  (* the heap as a reader following the rewritten table of contents finds it: declared slots = planned slots; checksum slot = digest of
     the emitted compressed table of contents; classic slot = RSA signature over it; CMS slot = blob + zero padding; every data
     reference moved behind the slots and naming the same bytes as before *)
  Theorem xar_heap_layout : forall P f h hid t cms g, good (new_toc P t) -> params_ok P -> xar_dom f h hid t -> xar_embed P f cms = Ok g ->
    exists hdr' z' heap',
      spec_xar_split g = Some (hdr', z', heap') /\ dec z' = Some (new_toc P t) /\ t_slots (new_toc P t) = plan_slots P /\
      xh_hsize hdr' = 28 /\ xh_clen hdr' = zlen z' /\ spec_cksum_hash (xh_htype hdr') = Some (sp_hash P) /\
      (let hs := hash_size (sp_hash P) in let ck := Hf (sp_hash P) z' in
       spec_slot_bytes heap' (mkSlot K_CHECKSUM 0 true hs 0) = Some ck /\
       (sp_rsa P = true -> spec_slot_bytes heap' (mkSlot K_SIGNATURE hs true (sp_classic P) (sp_ncerts P)) = Some (csig ck)) /\
       spec_slot_bytes heap' (mkSlot K_XSIGNATURE (hs + (if sp_rsa P then sp_classic P else 0)) true (6144 + sp_certsum P) (sp_ncerts P)) = Some (cms_slot P cms)) /\
      Forall (fun r' => is_data_kind (fr_kind r') = true -> plan_total P <= fr_off r') (t_refs (new_toc P t)) /\
      map (spec_ref_bytes heap') (t_refs (new_toc P t)) = map (spec_ref_bytes (heap_of f h)) (t_refs t).
  Proof.
    intros P f h hid t cms g Hgood HP Hd He. eapply embed_file in He as (Hfit & _ & ->); try eassumption.
    destruct (enum_of_hash csig P HP) as (_ & _ & _ & Hspec).
    do 3 eexists. split; [eapply signed_split; eassumption|]. split; [now apply dec_enc|]. do 3 (split; [reflexivity|]). split; [exact Hspec|].
    split; [eapply signed_slots; eassumption|]. split; [|eapply moved_refs; eassumption].
    cbn [new_toc t_refs]. erewrite new_refs_move by eassumption. rewrite Forall_map. eapply Forall_impl; [|exact (xd_refs _ _ _ _ _ Hd)].
    intros r (_ & _ & ? & _) _. cbn [move fr_off]. lia.
  Qed.
  (* law_payload on the domain *)
  Theorem xar_law_payload : forall P f h hid t cms g, good (new_toc P t) -> params_ok P -> xar_dom f h hid t -> xar_embed P f cms = Ok g ->
    spec_xar_payload dec g = spec_xar_payload dec f.
  Proof.
    intros P f h hid t cms g Hgood HP Hd He. eapply embed_file in He as (Hfit & _ & ->); try eassumption.
    unfold spec_xar_payload at 1. erewrite signed_split, dec_enc, spec_payload_of_dom by eassumption.
    f_equal. eapply moved_refs; eassumption.
  Qed.

  (* ---- C01 C02 *)
  Theorem xar_toc_checksum_covers_toc : forall P f h hid t cms g, good (new_toc P t) -> params_ok P -> xar_dom f h hid t -> xar_embed P f cms = Ok g ->
    exists z', spec_xar_ztoc g = Ok z' /\ z' = enc (new_toc P t) /\
      (exists o, xar_open Hf dec g = Ok o /\ xo_tochash_pre o = z' /\ xo_hash o = sp_hash P /\
                 xo_classic o = (if sp_rsa P then Some (csig (Hf (sp_hash P) z')) else None)) /\
      zslice (28 + zlen z') (28 + zlen z' + hash_size (sp_hash P)) g = Hf (sp_hash P) z' /\
      xar_checksum_covers = 1 /\ xar_classic_signs = 2 /\ xar_cms_content = 2 /\ xar_verify_cms_content = 0 /\ xar_verify_classic_content = 0.
  Proof.
    intros P f h hid t cms g Hgood HP Hd He. eapply embed_file in He as (Hfit & _ & ->); try eassumption.
    eexists. split; [unfold spec_xar_ztoc; erewrite signed_split by eassumption; reflexivity|]. split; [reflexivity|]. split.
    { edestruct open_layout as (notary & last & Ho); try eassumption; [exact (xd_strict _ _ _ _ _ Hd)|]. eexists. split; [exact Ho|]. repeat split. }
    split; [|repeat split; reflexivity].
    unfold signed_file. erewrite sig_area_parts by eassumption. rewrite <- !app_assoc, app_assoc.
    apply zslice_app_mid; rewrite zlen_app, marshal_header_zlen, ?Hf_len; reflexivity.
  Qed.
  Theorem xar_law_extract : forall P f h hid t cms g, good (new_toc P t) -> params_ok P -> xar_dom f h hid t -> xar_embed P f cms = Ok g ->
    xar_extract Hf dec g = Ok (Some (cms_slot P cms)).
  Proof.
    intros P f h hid t cms g Hgood HP Hd He. eapply embed_file in He as (Hfit & _ & ->); try eassumption.
    edestruct open_layout as (notary & last & Ho); try eassumption; [exact (xd_strict _ _ _ _ _ Hd)|]. unfold xar_extract. now rewrite Ho.
  Qed.
  (* relic's own verifier accepts the structure of what Sign wrote (Open succeeds, CMS route, digest of the stored table of contents,
     every member check passes) — on archives whose verifier-selected members all carry an archived checksum (verify_covered) *)
  Theorem xar_sign_then_verify_struct : forall P f h hid t cms g, good (new_toc P t) -> params_ok P -> xar_dom f h hid t -> verify_covered t ->
    xar_embed P f cms = Ok g -> xar_verify_struct Hf dec g false = Ok (2, cms_slot P cms, Hf (sp_hash P) (enc (new_toc P t))).
  Proof.
    intros P f h hid t cms g Hgood HP Hd Hcov He. eapply embed_file in He as (Hfit & Hck & ->); try eassumption.
    edestruct open_layout as (notary & last & Ho); try eassumption; [exact (xd_strict _ _ _ _ _ Hd)|].
    unfold xar_verify_struct. rewrite Ho. cbn [bind xo_hash xo_tochash_pre xo_cms xo_classic xo_base xo_toc].
    unfold xar_verify_route, xar_verify_chain. cbn [xo_cms Z.eqb Pos.eqb]. unfold xar_verify_checks_files. cbn [negb].
    rewrite signed_heap, (proj2 (verify_files_ok _ _ _)); [reflexivity|].
    (* every member the verifier selects was checked by the signer in the old heap, and was moved with its bytes *)
    rewrite Forall_forall. intros r' Hin. rewrite In_sort_refs, filter_In in Hin. destruct Hin as [Hin Hvc].
    cbn [new_toc t_refs] in Hin. erewrite new_refs_move in Hin by eassumption. apply in_map_iff in Hin as (r & <- & Hin).
    change (verify_checks r = true) in Hvc.
    eapply verify_moved; try eassumption.
    - unfold xar_check_files_sign in Hck. cbn [t_refs] in Hck. eapply stream_check_members in Hck; try eassumption; [|lia].
      rewrite Forall_forall in Hck. apply Hck. rewrite In_sort_refs, filter_In. split; [assumption|]. exact (proj1 (Forall_forall _ _) Hcov r Hin Hvc).
    - unfold verify_checks, xar_gather_takes in Hvc. lia.
  Qed.
  (* on the domain Sign succeeds exactly when the member checks pass and the signatures fit *)
  Theorem xar_sign_total : forall P f h hid t cms, params_ok P -> xar_dom f h hid t ->
    xar_check_files_sign Hf (heap_of f h) (mkToc (plan_slots P) (t_refs t) (t_strict t)) = Ok tt ->
    hash_size (sp_hash P) + (if sp_rsa P then sp_classic P else 0) + zlen cms <= plan_total P ->
    exists s, xar_sign P f cms = Ok s.
  Proof. intros P f h hid t cms HP Hd Hck Hfit. edestruct sign_ok as [nb ->]; try eassumption; [unfold plan_total in Hfit; lia|]. eexists. reflexivity. Qed.
  (* the size estimate: the reserved space is sufficient exactly for CMS blobs of at most 6144 bytes plus the certificates; a larger
     blob is refused with an error (nothing is written) *)
  Theorem xar_size_estimate : forall P ztoc ulen cms, params_ok P ->
    (xar_append Hf csig P ztoc ulen (plan_total P) cms = Err E_OVERFLOW <-> 6144 + sp_certsum P < zlen cms) /\
    (zlen cms <= 6144 + sp_certsum P -> exists nb, xar_append Hf csig P ztoc ulen (plan_total P) cms = Ok nb /\ zlen nb = 28 + zlen ztoc + plan_total P).
  Proof.
    intros P ztoc ulen cms HP. erewrite xar_append_eq by eassumption. split.
    - destruct (6144 + sp_certsum P <? zlen cms) eqn:E; split; intros; try discriminate; try reflexivity; lia.
    - intros Hle. replace (6144 + sp_certsum P <? zlen cms) with false by lia. eexists. split; [reflexivity|].
      rewrite !zlen_app, marshal_header_zlen, Hf_len. erewrite classic_len, cms_slot_len by eassumption. unfold plan_total. lia.
  Qed.

  (* ---- C08 *)
  Theorem xar_dom_preserved : forall P f h hid t cms g, good (new_toc P t) -> params_ok P -> xar_dom f h hid t -> all_bytes cms = true -> xar_embed P f cms = Ok g ->
    exists h', xar_dom g h' (sp_hash P) (new_toc P t) /\ toc_orig (new_toc P t) = plan_total P /\
      heap_of g h' = sig_area Hf enc csig P t cms ++ zdrop (toc_orig t) (heap_of f h).
  Proof.
    intros P f h hid t cms g Hgood HP Hd Hcb He. eapply embed_file in He as (Hfit & _ & ->); try eassumption.
    pose proof (plan_total_min csig P HP) as Htot. pose proof Hd as [Hfb Hh Hhsz Hcl Hul Hlen Hdec Hwf Hst Horig Hrefs].
    assert (Hhl : zlen (heap_of f h) = zlen f - 28 - xh_clen h) by (eapply heap_of_len; eassumption).
    set (tail := zdrop (toc_orig t) (heap_of f h)). assert (Htl : zlen tail = zlen (heap_of f h) - toc_orig t) by (unfold tail; rewrite zlen_zdrop; lia).
    set (z := enc (new_toc P t)). pose proof (zlen_nonneg z) as Hz0. pose proof (enc_small _ Hgood) as Hzs. fold z in Hzs.
    assert (Hgl : zlen (signed_file Hf enc usize csig P t cms tail) = 28 + zlen z + plan_total P + zlen tail) by (eapply signed_len; eassumption).
    exists (new_hdr enc usize P t). split; [|split; [apply plan_slots_sum|apply signed_heap]]. constructor.
    - unfold signed_file, xar_marshal_header. erewrite sig_area_parts by eassumption. unfold cms_slot, tail, heap_of.
      rewrite !all_bytes_app, enc_fields_bytes, enc_bytes, Hf_bytes, Hcb, all_bytes_zeros, (all_bytes_zdrop _ _ (all_bytes_zdrop _ _ Hfb)) by assumption.
      destruct (sp_rsa P); [rewrite csig_bytes|]; reflexivity.
    - eapply signed_parse; eassumption.
    - reflexivity.
    - cbn [new_hdr xh_clen]. fold z. lia.
    - cbn [new_hdr xh_ulen]. now apply usize_ok.
    - cbn [new_hdr xh_clen]. fold z. lia.
    - cbn [new_hdr xh_clen]. rewrite signed_ztoc. now apply dec_enc.
    - apply plan_slots_wf.
    - exact Hst.
    - unfold toc_orig. cbn [new_toc t_slots new_hdr xh_clen]. rewrite plan_slots_sum. fold z. lia.
    - unfold toc_orig. cbn [new_toc t_slots t_refs new_hdr xh_clen]. rewrite plan_slots_sum. fold z.
      erewrite new_refs_move by eassumption. rewrite Forall_map. eapply Forall_impl; [|exact Hrefs]. intros r (? & ? & ? & ? & ?).
      unfold ref_ok. cbn [move fr_kind fr_off_ok fr_off fr_len]. repeat split; try assumption; lia.
  Qed.
  (* signing a signed archive again with any key / digest / chain succeeds whenever the new CMS fits, removes exactly the slots of the
     previous signing, keeps the members, and the verifier finds the new CMS *)
  Theorem xar_resign : forall P1 P2 f h hid t cms1 cms2 g1, good (new_toc P1 t) -> good (new_toc P2 (new_toc P1 t)) ->
    params_ok P1 -> params_ok P2 -> xar_dom f h hid t -> all_bytes cms1 = true -> xar_embed P1 f cms1 = Ok g1 ->
    hash_size (sp_hash P2) + (if sp_rsa P2 then sp_classic P2 else 0) + zlen cms2 <= plan_total P2 ->
    exists g2 s2, xar_sign P2 g1 cms2 = Ok s2 /\ xs_file s2 = g2 /\ xs_orig s2 = plan_total P1 /\
      t_slots (xs_toc s2) = plan_slots P2 /\
      spec_xar_payload dec g2 = spec_xar_payload dec f /\ xar_extract Hf dec g2 = Ok (Some (cms_slot P2 cms2)).
  Proof.
    intros P1 P2 f h hid t cms1 cms2 g1 Hgd1 Hgd2 HP1 HP2 Hd Hcb He1 Hfit.
    destruct (xar_dom_preserved P1 f h hid t cms1 g1 Hgd1 HP1 Hd Hcb He1) as (h1 & Hd1 & Ho1 & Hheap1).
    pose proof He1 as He1'. eapply embed_file in He1' as (Hfit1 & Hck1 & _); try eassumption.
    edestruct sign_ok with (P := P2) (cms := cms2) as [nb Hs2]; try exact Hd1; try eassumption; [|unfold plan_total in Hfit; lia|].
    { rewrite Hheap1. cbn [new_toc t_refs t_strict]. eapply check_files_resign; eassumption. }
    do 2 eexists. split; [exact Hs2|]. cbn [xs_file xs_orig xs_toc]. do 3 (split; [reflexivity || exact Ho1|]).
    assert (He2 : xar_embed P2 g1 cms2 = Ok (nb ++ zdrop (toc_orig (new_toc P1 t)) (heap_of g1 h1))) by (unfold Model.xar_embed; now rewrite Hs2).
    split; [|now apply (xar_law_extract P2 g1 h1 (sp_hash P1) (new_toc P1 t) cms2)].
    rewrite (xar_law_payload P2 g1 h1 _ _ cms2 _ Hgd2 HP2 Hd1 He2). now apply (xar_law_payload P1 f h hid t cms1).
  Qed.
  Theorem xar_resign_history : forall hist f h hid t P c g,
    Forall (fun pc => params_ok (fst pc) /\ all_bytes (snd pc) = true) (hist ++ [(P, c)]) -> chain_good good (hist ++ [(P, c)]) t -> xar_dom f h hid t ->
    xar_history Hf dec enc usize csig (hist ++ [(P, c)]) f = Ok g ->
    spec_xar_payload dec g = spec_xar_payload dec f /\ xar_extract Hf dec g = Ok (Some (cms_slot P c)) /\
    exists h' t', xar_dom g h' (sp_hash P) t' /\ t_slots t' = plan_slots P /\ toc_orig t' = plan_total P.
  Proof.
    induction hist as [|[P0 c0] hist IH]; intros f h hid t P c g Hall Hch Hd Hr.
    - cbn [app chain_good] in Hch. destruct Hch as [Hg0 _]. cbn [app xar_history] in Hr. destruct (xar_embed P f c) as [g'| |] eqn:He; cbn [bind] in Hr; try discriminate.
      apply Ok_inj in Hr. subst g'. apply Forall_cons_iff in Hall as [[HP Hcb] _]. cbn [fst snd] in *.
      split; [now apply (xar_law_payload P f h hid t c)|]. split; [now apply (xar_law_extract P f h hid t c)|].
      destruct (xar_dom_preserved P f h hid t c g Hg0 HP Hd Hcb He) as (h' & Hd' & Ho & _). exists h', (new_toc P t). auto.
    - cbn [app chain_good] in Hch. destruct Hch as [Hg0 Hch]. cbn [app xar_history] in Hr. destruct (xar_embed P0 f c0) as [g0| |] eqn:He; cbn [bind] in Hr; try discriminate.
      cbn [app] in Hall. apply Forall_cons_iff in Hall as [[HP0 Hcb0] Hall]. cbn [fst snd] in *.
      destruct (xar_dom_preserved P0 f h hid t c0 g0 Hg0 HP0 Hd Hcb0 He) as (h0 & Hd0 & _).
      destruct (IH g0 h0 (sp_hash P0) (new_toc P0 t) P c g Hall Hch Hd0 Hr) as (Hp & Hx & Hrest).
      split; [|split; assumption]. rewrite Hp. now apply (xar_law_payload P0 f h hid t c0).
  Qed.

  (* ---- C02 *)
  (* a structurally accepted archive: the digest handed to the signature check is that of the stored compressed table of contents; every
     member the verifier selects has heap bytes whose digest is the one recorded in the table of contents *)
  Theorem xar_protect : forall g route sigb content, xar_verify_struct Hf dec g false = Ok (route, sigb, content) ->
    exists o, xar_open Hf dec g = Ok o /\ content = Hf (xo_hash o) (xo_tochash_pre o) /\
      Forall (fun r => verify_checks r = true ->
                exists hid, style_hash (fr_ck r) = Some hid /\
                  Hf hid (zslice (fr_off r) (fr_off r + fr_len r) (zdrop (xo_base o) g)) = fr_digest r) (t_refs (xo_toc o)).
  Proof. exact (ProofsXAR.xar_protect Hf dec). Qed.

  (* ---- C11 *)
  Theorem xar_sign_no_panic : forall P f cms p, xar_sign P f cms <> Panic p.
  Proof. intros. apply ProofsXAR.xar_sign_no_panic. Qed.
  (* Open never panics and never allocates beyond 64 |file| + 1 MiB (the model's P_ALLOC), for every byte string and every table of
     contents the decoder may deliver: both signature elements are checked against the file size before anything is allocated
     (relic 67d720d; before it: makeslice panic on a negative size, allocation of any declared size) *)
  Theorem xar_open_no_panic : forall f p, xar_open Hf dec f <> Panic p.
  Proof. exact (ProofsXAR.xar_open_no_panic Hf dec). Qed.

  (* ---- C01: sign, then verify, cryptography symbolic (types of Laws/Pipeline.v) *)
  Section XarCrypto.
    Variables key pubk sigv : Type.
    Variable H : Z -> bytes -> bytes.
    Variable pub : key -> pubk.
    Variable sign : key -> bytes -> sigv.
    Variable vrfy : pubk -> bytes -> sigv -> bool.
    Hypothesis sign_correct : forall k m, vrfy (pub k) m (sign k m) = true.
    Variable tbs : Z -> bytes -> bytes.
    Variable ser : Pipeline.sigblob pubk sigv -> bytes.
    Variable deser : bytes -> option (Pipeline.sigblob pubk sigv).
    Hypothesis deser_pad : forall b n, deser (ser b ++ zeros n) = Some b.
    Theorem xar_sign_then_verify : forall P f h hid t k a g, good (new_toc P t) -> params_ok P -> xar_dom f h hid t -> verify_covered t ->
      xar_sign_file Hf dec enc usize csig key pubk sigv H pub sign tbs ser P t k a f = Ok g ->
      xar_verify_file Hf dec pubk sigv H vrfy tbs deser g = Pipeline.Accept pubk (pub k) a.
    Proof.
      intros P f h hid t k a g Hgood HP Hd Hcov Hs. unfold xar_sign_file in Hs. unfold xar_verify_file.
      rewrite (xar_sign_then_verify_struct P f h hid t _ g Hgood HP Hd Hcov Hs). cbn [Z.eqb Pos.eqb].
      unfold cms_slot. rewrite deser_pad. unfold Pipeline.blob_ok, Pipeline.mksig. cbn [Pipeline.sb_alg Pipeline.sb_digest Pipeline.sb_cert Pipeline.sb_sig].
      rewrite sign_correct, bytes_eqb_refl. reflexivity.
    Qed.
  End XarCrypto.
End Xar.

(* C02 C11: the meaning of the translated decisions the theorems above are stated over: the verifier takes EVERY reachable member with a
   length other than zero; the signer skips exactly the members without archived checksum; integrity checking is on unless asked
   otherwise; a forward-only stream refuses to go back; dmg.Open refuses signature lengths outside 0..10^7; the supported member
   checksum styles are sha1 / sha256 / sha512.  (A weakened comparison in relic changes the generated definition and breaks this.) *)
Theorem xar_decisions_spec : forall len has_ck p pos siglen,
  xar_gather_takes len = negb (len =? 0) /\ xar_check_skips has_ck = negb has_ck /\ xar_verify_checks_files false = true /\
  xar_stream_backwards p pos = (p <? pos) /\ xar_stream_skips p pos = (p >? pos) /\
  dmg_open_sig_unreasonable siglen = ((siglen <? 0) || (siglen >? 10000000)) /\ dmg_open_has_sig siglen = negb (siglen =? 0) /\
  xar_file_styles = [([115; 104; 97; 49], 3); ([115; 104; 97; 50; 53; 54], 5); ([115; 104; 97; 53; 49; 50], 7)] /\
  xar_verify_chain = [0; 1] /\ xar_open_slot_guard_covers = [1; 2] /\ dmg_hashing_zeroes_siglen = true /\ dmg_sign_hashes_new_offset = true.
Proof. intros. repeat split; reflexivity. Qed.

(* ---- witnesses (toy instance of the opaque parts, WitnessXAR.v), each replayed on the real code by checks/fmtxar.py *)
(* C03: extended attribute stored in the heap: its offset is not moved *)
Theorem xar_payload_ea_refuted :
  toy_embed P_ec w_toc_ea w_heap [48; 1; 0] = Ok g_ea /\
  toy_payload P_ec w_toc_ea (toy_file w_heap) = Ok [Some [7; 8; 9]; Some [5; 6]] /\
  toy_payload P_ec w_toc_ea g_ea = Ok [Some [7; 8; 9]; Some [0; 0]].
Proof. repeat apply conj; vm_compute; reflexivity. Qed.
(* C03 C01: existing signature slot behind the member data: the member is destroyed, relic's verifier rejects its own output *)
Theorem xar_slots_behind_files_refuted :
  toy_embed P_ec w_toc_behind w_heap_behind [48; 1; 0] = Ok g_behind /\
  toy_payload P_ec w_toc_behind (toy_file w_heap_behind) = Ok [Some [7; 8; 9]] /\
  toy_payload P_ec w_toc_behind g_behind = Ok [Some [0; 0; 0]] /\
  toy_verify P_ec w_toc_behind g_behind = Err E_MISMATCH.
Proof. repeat apply conj; vm_compute; reflexivity. Qed.
(* C01: a member without archived checksum: signed, then rejected by relic's own verifier *)
Theorem xar_sign_unverifiable_refuted :
  toy_embed P_ec w_toc_nock (zeros 20 ++ [7; 8; 9]) [48; 1; 0] = Ok g_nock /\ toy_verify P_ec w_toc_nock g_nock = Err E_STYLE.
Proof. split; vm_compute; reflexivity. Qed.
(* C02: a member nested in a member with data is not checked by the verifier *)
Theorem xar_verify_unchecked_refuted :
  toy_embed P_ec w_toc_nested w_heap [48; 1; 0] = Ok g_nested /\
  toy_verify P_ec w_toc_nested g_nested' = toy_verify P_ec w_toc_nested g_nested /\ is_ok (toy_verify P_ec w_toc_nested g_nested) = true /\
  toy_payload P_ec w_toc_nested g_nested = Ok [Some [7; 8; 9]; Some [5; 6]] /\ toy_payload P_ec w_toc_nested g_nested' = Ok [Some [7; 8; 9]; Some [5; 66]].
Proof.
  assert (Hv : toy_verify P_ec w_toc_nested g_nested = Ok (2, [48; 1; 0] ++ zeros 6151, toy_H 3 [2])) by (vm_compute; reflexivity).
  rewrite Hv. repeat apply conj; vm_compute; reflexivity.
Qed.
(* C11 regression: negative / huge <signature> or <x-signature> size in a 49-byte file: refused *)
Theorem xar_open_sizes_refused :
  (exists o, xar_open toy_H (toy_dec w_toc w_toc) (toy_file (toy_H 3 [1])) = Ok o) /\
  xar_open toy_H (toy_dec w_toc_neg w_toc_neg) (toy_file (toy_H 3 [1])) = Err E_TOOBIG /\
  xar_open toy_H (toy_dec w_toc_huge w_toc_huge) (toy_file (toy_H 3 [1])) = Err E_TOOBIG /\
  zlen (toy_file (toy_H 3 [1])) = 49.
Proof. split; [eexists|]; vm_compute; repeat split; reflexivity. Qed.

(* non-vacuity *)
Example xar_hypotheses_satisfiable :
  let good := fun t => t = toy_new P_ec w_toc in
  let dec := toy_dec w_toc (toy_new P_ec w_toc) in
  (forall t, good t -> dec (toy_enc t) = Some t) /\ (forall hid x, zlen (toy_H hid x) = hash_size hid) /\
  (forall t, good t -> zlen (toy_enc t) <= 1000000) /\ (forall t, good t -> 0 <= toy_usize t <= 10000000) /\
  (forall t, good t -> all_bytes (toy_enc t) = true) /\ (forall hid x, all_bytes (toy_H hid x) = true) /\ (forall x, all_bytes (toy_csig x) = true) /\
  good (ProofsXAR.new_toc P_ec w_toc) /\ params_ok toy_csig P_ec /\ params_ok toy_csig P_rsa /\
  xar_dom dec (toy_file w_heap) (mkXhdr xar_magic 28 1 1 5 1) 3 w_toc /\ verify_covered w_toc.
Proof.
  cbn zeta. split; [intros t ->; reflexivity|]. split; [apply toy_H_len|]. split; [intros t _; unfold toy_enc; rewrite zlen_cons, zlen_nil; lia|]. split; [intros t _; unfold toy_usize; lia|].
  split; [reflexivity|]. split; [apply toy_H_bytes|]. split; [reflexivity|]. split; [reflexivity|].
  split. { unfold params_ok, P_ec. cbn [sp_hash sp_classic sp_certsum sp_ncerts sp_rsa]. repeat split; try lia; try (intros; discriminate). }
  split. { unfold params_ok, P_rsa. cbn [sp_hash sp_classic sp_certsum sp_ncerts sp_rsa]. repeat split; try lia; try reflexivity. }
  split.
  - constructor; try (vm_compute; reflexivity); try (cbn; lia).
    + vm_compute. intros; discriminate.
    + vm_compute. split; intros; discriminate.
    + unfold w_toc. cbn [t_refs]. repeat constructor; vm_compute; try reflexivity; intros; discriminate.
  - unfold verify_covered, w_toc. cbn [t_refs]. repeat constructor.
Qed.
Example xar_example_computed :
  toy_embed P_ec w_toc w_heap [48; 1; 0] = Ok g_ok /\
  toy_payload P_ec w_toc g_ok = toy_payload P_ec w_toc (toy_file w_heap) /\
  toy_payload P_ec w_toc g_ok = Ok [Some [7; 8; 9]; Some [5; 6]] /\
  toy_verify P_ec w_toc g_ok = Ok (2, [48; 1; 0] ++ zeros 6151, toy_H 3 [2]) /\
  zlen g_ok = 28 + 1 + (20 + 6154) + 5.
Proof.
  assert (Hp : toy_payload P_ec w_toc g_ok = Ok [Some [7; 8; 9]; Some [5; 6]]) by (vm_compute; reflexivity).
  rewrite Hp. repeat apply conj; vm_compute; reflexivity.
Qed.
(* the reviewed names and paths the abstract table of contents is read by (a changed path in relic changes these generated values) *)
Example xar_paths_reviewed :
  xar_remove_keys = [[99; 104; 101; 99; 107; 115; 117; 109]; [115; 105; 103; 110; 97; 116; 117; 114; 101]; [120; 45; 115; 105; 103; 110; 97; 116; 117; 114; 101]] /\
  xar_path_adjust = [47; 47; 100; 97; 116; 97; 47; 111; 102; 102; 115; 101; 116] /\ xar_path_check = [47; 47; 102; 105; 108; 101; 47; 100; 97; 116; 97] /\
  xar_path_toc = [47; 120; 97; 114; 47; 116; 111; 99] /\ xar_check_requires = [97; 114; 99; 104; 105; 118; 101; 100; 45; 99; 104; 101; 99; 107; 115; 117; 109] /\
  xar_remove_size_child = [115; 105; 122; 101] /\ xar_sign_order = [0; 1; 2; 3; 4; 5; 6; 7; 8] /\ xar_append_order = [0; 1; 2; 3; 4; 5] /\
  xar_sign_toc_len_is = 0 /\ xar_sign_toc_limit_is = 0 /\ xar_gather_descends_only_if_not_taken = true /\ xar_verify_chain_has_else = true /\
  dmg_sign_calls = [0; 1; 2; 3] /\ xar_hash_none = 0 /\ xar_hash_md5 = 2 /\ xar_hash_sha1 = 1 /\ xar_hash_sha256 = 3 /\ xar_hash_sha512 = 4 /\
  xar_enum_of_hash_default_refuses = true /\ dmg_cksum_size = 136.
Proof. repeat split; reflexivity. Qed.
