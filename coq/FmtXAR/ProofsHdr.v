(* FmtXAR/ProofsHdr.v — the xar header and the UDIF trailer: round trips of relic's codec, agreement with the specification readers. *)
From Relic Require Import Base.Prelude Base.Enc Base.Slice Generated.FmtXAR_gen FmtXAR.Model FmtXAR.Codec.

Definition xhdr_ok (h : xhdr) : Prop :=
  0 <= xh_magic h < 4294967296 /\ 0 <= xh_hsize h < 65536 /\ 0 <= xh_version h < 65536 /\
  - 9223372036854775808 <= xh_clen h < 9223372036854775808 /\ - 9223372036854775808 <= xh_ulen h < 9223372036854775808 /\
  0 <= xh_htype h < 4294967296.

Lemma xhdr_fields_ok h : xhdr_ok h -> fields_ok xar_hdr_widths xar_hdr_signed (xar_hdr_vals h).
Proof.
  intros (H1 & H2 & H3 & H4 & H5 & H6). unfold xar_hdr_widths, xar_hdr_signed, xar_hdr_vals.
  repeat (constructor; [lia| unfold field_ok; cbn; lia |]). constructor.
Qed.
Lemma hdr_of_vals h : xar_hdr_of (xar_hdr_vals h) = h.
Proof. destruct h; reflexivity. Qed.

Lemma header_roundtrip h rest hid : xhdr_ok h -> xh_magic h = xar_magic -> xh_version h = 1 ->
  assoc_z (xh_htype h) xar_hash_of_enum = Some hid ->
  xar_parse_header (xar_marshal_header h ++ rest) = Ok (h, hid).
Proof.
  intros Hok Hm Hv Hh. unfold xar_parse_header, xar_marshal_header.
  rewrite (go_read_write _ _ _ _ _ (xhdr_fields_ok h Hok) eq_refl). cbn [bind]. rewrite hdr_of_vals, Hm, Hv, Hh. reflexivity.
Qed.
Lemma marshal_header_zlen h : zlen (xar_marshal_header h) = 28.
Proof. unfold xar_marshal_header, xar_hdr_vals, xar_hdr_widths. cbn [enc_fields]. rewrite !zlen_app, !enc_field_zlen by lia. reflexivity. Qed.

Lemma xar_widths_pos : widths_pos xar_hdr_widths.
Proof. cbn. lia. Qed.
(* what parseHeader reads, in terms of positions in the file *)
Lemma header_fields_positions b :
  dec_fields xar_hdr_signed (split_w xar_hdr_widths b) =
  [be_dec (zslice 0 4 b); be_dec (zslice 4 6 b); be_dec (zslice 6 8 b);
   dec_field 1 (zslice 8 16 b); dec_field 1 (zslice 16 24 b); be_dec (zslice 24 28 b)].
Proof. rewrite (split_w_slices _ b xar_widths_pos). reflexivity. Qed.

(* C05: whatever parseHeader accepts, the specification reader reads the same field values at the published offsets *)
Lemma header_spec_agree b h hid : all_bytes b = true -> xar_parse_header b = Ok (h, hid) -> 0 <= xh_clen h -> 0 <= xh_ulen h ->
  spec_xar_header b = Some h /\ spec_cksum_hash (xh_htype h) = Some hid.
Proof.
  intros Hb Hp Hc Hu. unfold xar_parse_header, go_read_struct in Hp.
  destruct (zlen b <? xar_hdr_size) eqn:El; [discriminate|]. cbn [bind] in Hp.
  assert (Hlen : 28 <= zlen b) by (unfold xar_hdr_size in El; lia).
  rewrite header_fields_positions in Hp. unfold xar_hdr_of in Hp.
  cbn [nth xar_hdr_idx_Magic xar_hdr_idx_HeaderSize xar_hdr_idx_Version xar_hdr_idx_CompressedSize xar_hdr_idx_UncompressedSize xar_hdr_idx_HashType
       xh_magic xh_version xh_htype] in Hp.
  destruct (xar_bad_magic (be_dec (zslice 0 4 b))) eqn:Em; [discriminate|].
  destruct (xar_bad_version (be_dec (zslice 6 8 b))) eqn:Ev; [discriminate|].
  destruct (assoc_z (be_dec (zslice 24 28 b)) xar_hash_of_enum) as [hid'|] eqn:Eh; [|unfold xar_hash_of_enum_default_refuses in Hp; discriminate].
  injection Hp as <- <-. cbn [xh_clen xh_ulen xh_htype] in *.
  unfold xar_bad_magic in Em. apply negb_false_iff, Z.eqb_eq in Em.
  split.
  - unfold spec_xar_header. replace (zlen b <? 28) with false by lia. unfold spec_u. cbn [Z.add].
    rewrite Em. cbn [Z.eqb Pos.eqb]. rewrite <- Em.
    now rewrite !dec_field_nonneg by (assumption || (now apply all_bytes_zslice) || (rewrite zlen_zslice; lia)).
  - unfold xar_hash_of_enum in Eh. unfold spec_cksum_hash. cbn [assoc_z] in Eh.
    repeat (match type of Eh with (if ?x =? ?y then _ else _) = _ => destruct (Z.eqb_spec x y) as [<-|] end; [now injection Eh as <-|]).
    discriminate.
Qed.

Lemma spec_header_prefix hdr rest : zlen hdr = 28 -> spec_xar_header (hdr ++ rest) = spec_xar_header hdr.
Proof.
  intros Hl. unfold spec_xar_header. rewrite zlen_app, Hl. pose proof (zlen_nonneg rest).
  replace (28 + zlen rest <? 28) with false by lia. replace (28 <? 28) with false by lia.
  unfold spec_u. rewrite !zslice_app_l by lia. reflexivity.
Qed.
(* C01 / C05: the specification reader reads relic's header back, whatever follows it *)
Lemma header_spec_reads_relic h rest hid : xhdr_ok h -> xh_magic h = xar_magic -> xh_version h = 1 ->
  assoc_z (xh_htype h) xar_hash_of_enum = Some hid -> 0 <= xh_clen h -> 0 <= xh_ulen h ->
  spec_xar_header (xar_marshal_header h ++ rest) = Some h.
Proof.
  intros Hok Hm Hv Hh Hc Hu. rewrite spec_header_prefix by apply marshal_header_zlen.
  pose proof (header_roundtrip h [] hid Hok Hm Hv Hh) as Hp. rewrite app_nil_r in Hp.
  exact (proj1 (header_spec_agree _ h hid (enc_fields_bytes _ _) Hp Hc Hu)).
Qed.

(* C11: the header parser never panics, and reads a fixed number of bytes *)
Lemma parse_header_no_panic b p : xar_parse_header b <> Panic p.
Proof.
  unfold xar_parse_header. apply bind_no_panic; [apply go_read_struct_no_panic|]. intros fl _.
  destruct (xar_bad_magic _); [discriminate|]. destruct (xar_bad_version _); [discriminate|].
  destruct (assoc_z _ _); [discriminate|]. destruct xar_hash_of_enum_default_refuses; discriminate.
Qed.
Lemma parse_header_prefix b : xar_parse_header (ztake 28 b) = xar_parse_header b.
Proof.
  unfold xar_parse_header. change 28 with xar_hdr_size. now rewrite (go_read_struct_prefix _ _ _ b xar_widths_pos) by reflexivity.
Qed.

Lemma koly_widths_pos : widths_pos dmg_koly_widths.
Proof. cbn. lia. Qed.
Lemma koly_size_sum : zsum dmg_koly_widths = dmg_koly_size.
Proof. reflexivity. Qed.

(* koly_named over any table of blank fields *)
Definition named (bl k : list Z) : list Z := map (fun p => if snd p =? 1 then 0 else fst p) (combine k bl).
Lemma named_idem bl : forall k, named bl (named bl k) = named bl k.
Proof.
  induction bl as [|b bl IH]; intros [|x k]; try reflexivity.
  unfold named in *. cbn [combine map fst snd]. f_equal; [destruct (b =? 1); reflexivity|apply IH].
Qed.
Lemma named_ok ws sgs vs : fields_ok ws sgs vs -> forall bl, length bl = length vs -> fields_ok ws sgs (named bl vs).
Proof.
  induction 1 as [|w ws sg sgs v vs Hw Hok _ IH]; intros bl Hl.
  - destruct bl; [constructor|discriminate].
  - destruct bl as [|b bl]; [discriminate|]. unfold named. cbn [combine map fst snd]. constructor; [assumption| |apply IH; cbn in Hl; lia].
    destruct (b =? 1); [now apply field_ok_zero|assumption].
Qed.
Lemma nth_named bl : forall k j, nth j bl 1 = 0 -> (j < length k)%nat -> nth j (named bl k) 0 = nth j k 0.
Proof.
  induction bl as [|b bl IH]; intros k j Hb Hk; [destruct j; cbn in Hb; lia|].
  destruct k as [|x k]; [cbn [length] in Hk; lia|]. unfold named. destruct j as [|j]; cbn [combine map nth fst snd] in *; [now subst b|].
  cbn [length] in Hk. apply IH; [assumption|lia].
Qed.

(* a trailer value as relic holds it: every named field in range, blank fields zero *)
Definition koly_ok (k : koly) : Prop := fields_ok dmg_koly_widths dmg_koly_signed k /\ koly_named k = k.

(* C01 / C05: parse (marshal k) = k for every trailer value in range *)
Lemma koly_roundtrip k rest : koly_ok k -> dmg_parse_koly (dmg_marshal_koly k ++ rest) = Ok k.
Proof.
  intros [Hok Hn]. unfold dmg_parse_koly, dmg_marshal_koly. rewrite Hn.
  rewrite go_read_write by (try assumption; reflexivity). cbn [bind]. now rewrite Hn.
Qed.
Lemma marshal_koly_zlen k : koly_ok k -> zlen (dmg_marshal_koly k) = 512.
Proof. intros [Hok Hn]. unfold dmg_marshal_koly. rewrite Hn. now rewrite (enc_fields_zlen _ _ _ Hok). Qed.
Lemma marshal_koly_bytes k : all_bytes (dmg_marshal_koly k) = true.
Proof. apply enc_fields_bytes. Qed.

(* parsing fails on a short read only *)
Lemma parse_koly_some tb : 512 <= zlen tb -> dmg_parse_koly tb = Ok (koly_named (dec_fields dmg_koly_signed (split_w dmg_koly_widths tb))).
Proof. intros H. unfold dmg_parse_koly, go_read_struct, dmg_koly_size. now replace (zlen tb <? 512) with false by lia. Qed.
Lemma parse_koly_inv tb k : dmg_parse_koly tb = Ok k -> 512 <= zlen tb /\ k = koly_named (dec_fields dmg_koly_signed (split_w dmg_koly_widths tb)).
Proof.
  unfold dmg_parse_koly, go_read_struct, dmg_koly_size. destruct (zlen tb <? 512) eqn:E; [discriminate|]. cbn [bind]. intros [= <-]. split; [lia|reflexivity].
Qed.
Lemma parse_koly_no_panic tb p : dmg_parse_koly tb <> Panic p.
Proof. apply bind_no_panic; [apply go_read_struct_no_panic|discriminate]. Qed.

(* whatever relic parses is a trailer value in range *)
Lemma parse_koly_ok b k : all_bytes b = true -> dmg_parse_koly b = Ok k -> koly_ok k.
Proof.
  intros Hb [Hl ->]%parse_koly_inv.
  assert (Hf : fields_ok dmg_koly_widths dmg_koly_signed (dec_fields dmg_koly_signed (split_w dmg_koly_widths b))).
  { apply dec_fields_ok; [apply koly_widths_pos|reflexivity|assumption|rewrite koly_size_sum; exact Hl]. }
  split; [|apply named_idem]. apply named_ok; [exact Hf|]. now rewrite (proj1 (fields_ok_length _ _ _ Hf)).
Qed.

(* marshal (parse b): field by field the bytes of b, blank fields zero *)
Fixpoint blank_parts (ws bl : list Z) (parts : list bytes) : list bytes :=
  match ws, bl, parts with
  | w :: wr, x :: xr, p :: pr => (if x =? 1 then zeros w else p) :: blank_parts wr xr pr
  | _, _, _ => []
  end.
Lemma marshal_parse_parts ws : forall sgs bl b, widths_pos ws -> length sgs = length ws -> length bl = length ws ->
  all_bytes b = true -> zsum ws <= zlen b ->
  split_w ws (enc_fields ws (named bl (dec_fields sgs (split_w ws b)))) = blank_parts ws bl (split_w ws b).
Proof.
  induction ws as [|w ws IH]; intros sgs bl b Hp Hs Hl Hb Hlen; [reflexivity|].
  destruct sgs as [|sg sgs]; [discriminate|]. destruct bl as [|x bl]; [discriminate|]. destruct Hp as [Hw Hp].
  pose proof (widths_pos_zsum ws Hp) as Hz. cbn [zsum] in Hlen.
  assert (Htl : zlen (ztake w b) = w) by (apply zlen_ztake; lia).
  change (split_w (w :: ws) b) with (ztake w b :: split_w ws (zdrop w b)). unfold named.
  cbn [dec_fields combine map fst snd enc_fields blank_parts]. rewrite split_w_cons by (apply enc_field_zlen; lia). f_equal.
  - destruct (x =? 1); [apply be_enc_zero|]. rewrite <- Htl at 1. apply enc_dec_field; [now apply all_bytes_ztake|lia].
  - apply IH; try assumption; [cbn in Hs; lia|cbn in Hl; lia|now apply all_bytes_zdrop|rewrite zlen_zdrop by lia; lia].
Qed.

Lemma koly_marshal_parse b k : all_bytes b = true -> zlen b = 512 -> dmg_parse_koly b = Ok k ->
  split_w dmg_koly_widths (dmg_marshal_koly k) = blank_parts dmg_koly_widths dmg_koly_blank (split_w dmg_koly_widths b).
Proof.
  intros Hb Hl [_ ->]%parse_koly_inv. unfold dmg_marshal_koly. rewrite (named_idem dmg_koly_blank).
  apply marshal_parse_parts; [apply koly_widths_pos|reflexivity|reflexivity|assumption|rewrite koly_size_sum, Hl; reflexivity].
Qed.

(* the parts in terms of file positions (published layout of the koly block) *)
Lemma koly_positions b : split_w dmg_koly_widths b = spec_koly_slices b.
Proof. now rewrite (split_w_slices _ b koly_widths_pos). Qed.
