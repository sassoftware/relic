(* FmtXAR/ProofsXAR.v — flat packages: the slot plan, what Sign does on the domain, the signed file as the specification reader and
   as relic's Open see it, the member checks before and after signing, what a successful verification pins down. *)
From Relic Require Import Base.Prelude Base.Enc Base.Lists Base.Slice Generated.FmtXAR_gen FmtXAR.Model FmtXAR.Codec FmtXAR.ProofsHdr.
From Relic Require Laws.Pipeline.

Lemma hash_size_range hid : 0 <= hash_size hid <= 64.
Proof. unfold hash_size. repeat (match goal with |- context [if ?c then _ else _] => destruct c end); lia. Qed.

(* ---- the slot plan *)
Definition toc_wf (t : xtoc) : bool := forallb slot_removed (t_slots t).
Lemma remove_all t : toc_wf t = true ->
  xar_remove_sigs t = (zsum (map (fun s => if sl_has_size s then sl_size s else 0) (t_slots t)), mkToc [] (t_refs t) (t_strict t)).
Proof.
  intros H. unfold xar_remove_sigs, xar_remove_adds_size, xar_remove_removes, toc_wf in *. rewrite forallb_forall in H.
  rewrite (filter_all _ _ H), filter_none; [reflexivity|]. intros s Hs. now rewrite (H s Hs).
Qed.

Definition plan_slots (P : sparams) : list slot :=
  let hs := hash_size (sp_hash P) in
  if sp_rsa P then [mkSlot K_CHECKSUM 0 true hs 0; mkSlot K_SIGNATURE hs true (sp_classic P) (sp_ncerts P);
                    mkSlot K_XSIGNATURE (hs + sp_classic P) true (6144 + sp_certsum P) (sp_ncerts P)]
  else [mkSlot K_CHECKSUM 0 true hs 0; mkSlot K_XSIGNATURE hs true (6144 + sp_certsum P) (sp_ncerts P)].
Definition plan_total (P : sparams) : Z :=
  hash_size (sp_hash P) + (if sp_rsa P then sp_classic P else 0) + (6144 + sp_certsum P).

(* C03 / C01: reserveSignatures on a table of contents without signature elements: checksum at 0, then the classic signature (RSA leaf
   only), then the CMS slot; contiguous, in this order, total = the sum of the sizes *)
Lemma reserve_plan P refs strict :
  xar_reserve P (mkToc [] refs strict) = (plan_total P, mkToc (plan_slots P) refs strict).
Proof.
  unfold xar_reserve, xar_plan, plan_slots, plan_total, xar_reserve_rsa, xar_reserve_norsa.
  destruct (sp_rsa P); cbn [fold_left t_slots t_refs t_strict]; rewrite ?Z.add_0_r; reflexivity.
Qed.
Lemma plan_slots_wf P : forallb slot_removed (plan_slots P) = true.
Proof. unfold plan_slots. destruct (sp_rsa P); reflexivity. Qed.
Lemma plan_slots_sum P : zsum (map (fun s => if sl_has_size s then sl_size s else 0) (plan_slots P)) = plan_total P.
Proof. unfold plan_slots, plan_total. destruct (sp_rsa P); cbn [map zsum sl_has_size sl_size]; lia. Qed.

Lemma plan_find P refs strict : let t := mkToc (plan_slots P) refs strict in let hs := hash_size (sp_hash P) in
  find_slot K_CHECKSUM t = Some (mkSlot K_CHECKSUM 0 true hs 0) /\
  find_slot K_SIGNATURE t = (if sp_rsa P then Some (mkSlot K_SIGNATURE hs true (sp_classic P) (sp_ncerts P)) else None) /\
  find_slot K_XSIGNATURE t = Some (mkSlot K_XSIGNATURE (hs + (if sp_rsa P then sp_classic P else 0)) true (6144 + sp_certsum P) (sp_ncerts P)).
Proof. unfold find_slot, plan_slots. cbn [t_slots]. destruct (sp_rsa P); cbv iota; rewrite ?Z.add_0_r; repeat split; reflexivity. Qed.

Definition toc_orig (t : xtoc) : Z := zsum (map (fun s => if sl_has_size s then sl_size s else 0) (t_slots t)).
(* a heap reference the signer can move: a data offset that parses, lies behind the signature area and inside the heap *)
Definition ref_ok (orig heaplen : Z) (r : fref) : Prop :=
  is_data_kind (fr_kind r) = true /\ fr_off_ok r = true /\ orig <= fr_off r /\ 0 <= fr_len r /\ fr_off r + fr_len r <= heaplen.

(* ---- adjustOffsets turns a movable reference into the same reference at another offset *)
Definition move (d : Z) (r : fref) : fref :=
  mkRef (fr_kind r) (fr_off_ok r) (fr_off r + d) (fr_len r) (fr_ck r) (fr_hex_ok r) (fr_digest r) (fr_reach r).
Lemma adjust_move d orig hl r : ref_ok orig hl r -> xar_adjust_ref d r = move d r.
Proof. intros (Hk & Hok & _). unfold xar_adjust_ref, move, xar_adjust_skips_unparsable, xar_adjust_adds_delta. now rewrite Hk, Hok. Qed.
(* a reference that was moved names the same bytes in the new heap *)
Lemma moved_slice (heap area : bytes) orig total r : 0 <= orig <= zlen heap -> zlen area = total -> ref_ok orig (zlen heap) r ->
  zslice (fr_off r + (total - orig)) (fr_off r + (total - orig) + fr_len r) (area ++ zdrop orig heap) = zslice (fr_off r) (fr_off r + fr_len r) heap.
Proof. intros Ho Ha (_ & _ & ? & ? & ?). rewrite zslice_app_r, Ha, zslice_zdrop by lia. f_equal; lia. Qed.
Lemma moved_ref_bytes (heap area : bytes) orig total r : 0 <= orig <= zlen heap -> zlen area = total -> 0 <= total ->
  ref_ok orig (zlen heap) r ->
  spec_ref_bytes (area ++ zdrop orig heap) (move (total - orig) r) = spec_ref_bytes heap r.
Proof.
  intros Ho Ha Ht Hr. pose proof Hr as (_ & Hok & Hoff & Hlen & Hend).
  unfold spec_ref_bytes. cbn [move fr_off_ok fr_off fr_len]. rewrite Hok, zlen_app, Ha, zlen_zdrop, (moved_slice heap area orig total r) by (assumption || lia). cbn [negb orb].
  replace ((fr_off r + (total - orig) <? 0) || (fr_len r <? 0) || (total + (zlen heap - orig) <? fr_off r + (total - orig) + fr_len r)) with false by lia.
  now replace ((fr_off r <? 0) || (fr_len r <? 0) || (zlen heap <? fr_off r + fr_len r)) with false by lia.
Qed.

(* a slot declared at the sum of the lengths in front of it holds the part that follows *)
Lemma spec_slot_bytes_mid (a b c : bytes) k nc : spec_slot_bytes (a ++ b ++ c) (mkSlot k (zlen a) true (zlen b) nc) = Some b.
Proof.
  unfold spec_slot_bytes. cbn [sl_off sl_size]. pose proof (zlen_nonneg a). pose proof (zlen_nonneg b). pose proof (zlen_nonneg c). rewrite !zlen_app.
  replace ((zlen a <? 0) || (zlen b <? 0) || (zlen a + (zlen b + zlen c) <? zlen a + zlen b)) with false by lia. now rewrite zslice_app_mid.
Qed.

(* relic's ReadAt of a slot finds what the specification reader finds *)
Lemma readat_slot f base s b : 0 <= base -> spec_slot_bytes (zdrop base f) s = Some b -> go_readat f (base + sl_off s) (sl_size s) = Ok b.
Proof.
  intros Hb. unfold spec_slot_bytes, go_readat. rewrite zlen_zdrop_gen by lia. destruct (_ || _ || _) eqn:E; [discriminate|]. intros [= <-].
  replace (base + sl_off s <? 0) with false by lia. rewrite zslice_zdrop, Z.add_assoc by lia.
  destruct (sl_size s =? 0) eqn:E0; [|now replace (zlen f <? base + sl_off s + sl_size s) with false by lia].
  unfold zslice. replace (base + sl_off s + sl_size s - (base + sl_off s)) with 0 by lia. now rewrite ztake_0.
Qed.

Lemma In_insert_ref r x l : In r (insert_ref x l) <-> r = x \/ In r l.
Proof.
  induction l as [|y l IH]; cbn [insert_ref In]; [intuition (subst; auto)|].
  destruct (fr_off x <=? fr_off y); cbn [In]; [intuition (subst; auto)|]. rewrite IH. intuition (subst; auto).
Qed.
Lemma In_sort_refs r l : In r (sort_refs l) <-> In r l.
Proof. unfold sort_refs. induction l as [|y l IH]; cbn [fold_right In]; [tauto|]. rewrite In_insert_ref, IH. intuition (subst; auto). Qed.
Lemma Forall_insert_ref (Q : fref -> Prop) x l : Q x -> Forall Q l -> Forall Q (insert_ref x l).
Proof. intros Hx Hl. rewrite Forall_forall in *. intros r Hin. rewrite In_insert_ref in Hin. destruct Hin as [->|Hin]; auto. Qed.
Lemma Forall_sort_refs (Q : fref -> Prop) l : Forall Q l -> Forall Q (sort_refs l).
Proof. intros Hl. rewrite Forall_forall in *. intros r Hin. rewrite In_sort_refs in Hin. auto. Qed.
Lemma Forall_filter {A} (Q : A -> Prop) p l : Forall Q l -> Forall Q (filter p l).
Proof. intros H. rewrite Forall_forall in *. intros x Hin. apply filter_In in Hin. now apply H. Qed.
(* moving every reference by the same amount commutes with sorting by offset and with the signer's selection *)
Lemma insert_map_move d x l : insert_ref (move d x) (map (move d) l) = map (move d) (insert_ref x l).
Proof.
  induction l as [|y l IH]; [reflexivity|]. cbn [map insert_ref].
  change (fr_off (move d x) <=? fr_off (move d y)) with (fr_off x + d <=? fr_off y + d). replace (fr_off x + d <=? fr_off y + d) with (fr_off x <=? fr_off y) by lia.
  destruct (fr_off x <=? fr_off y); cbn [map]; [reflexivity|]. now rewrite IH.
Qed.
Lemma sort_map_move d l : sort_refs (map (move d) l) = map (move d) (sort_refs l).
Proof. unfold sort_refs. induction l as [|x l IH]; [reflexivity|]. cbn [map fold_right]. rewrite IH. apply insert_map_move. Qed.
Lemma filter_map_move d l : filter sign_checks (map (move d) l) = map (move d) (filter sign_checks l).
Proof.
  induction l as [|x l IH]; [reflexivity|]. cbn [map filter]. change (sign_checks (move d x)) with (sign_checks x).
  destruct (sign_checks x); cbn [map]; now rewrite IH.
Qed.

(* the class in which relic's own verifier checks nothing the signer has not checked: every file the verifier selects
   (data directly in a <file>, all enclosing files without data, length not zero) carries an archived checksum *)
Definition verify_covered (t : xtoc) : Prop := Forall (fun r => verify_checks r = true -> sign_checks r = true) (t_refs t).

Lemma last_offset_ge rs : forall cur, cur <= last_offset rs cur.
Proof.
  induction rs as [|r rs IH]; intros cur; cbn [last_offset]; [lia|].
  unfold xar_last_takes_file, xar_last_file_end. destruct ((fr_kind r =? 0) && (fr_off r + fr_len r >? cur)) eqn:E; [|apply IH].
  specialize (IH (fr_off r + fr_len r)). lia.
Qed.

(* relic: the end of Open: what lies behind the last member is read as the notarization ticket if it is shorter than 1 MB; behind a
   position that is not negative this never fails *)
Lemma ticket_read {A} f lo (k : bytes -> result A) : 0 <= lo ->
  (if xar_open_has_trailer (xar_open_trailer (zlen f) lo)
   then _ <- go_make (zlen f) (xar_open_trailer_alloc (xar_open_trailer (zlen f) lo)) ;;
        tk <- go_readat f (xar_open_trailer_at lo) (xar_open_trailer_alloc (xar_open_trailer (zlen f) lo)) ;; k tk
   else k []) = k (if xar_open_has_trailer (zlen f - lo) then zdrop lo f else []).
Proof.
  intros Hlo. unfold xar_open_trailer, xar_open_has_trailer, xar_open_trailer_alloc, xar_open_trailer_at.
  destruct ((zlen f - lo >? 0) && (zlen f - lo <? 1000000)) eqn:Et; [|reflexivity].
  rewrite go_make_ok by (unfold alloc_limit; lia). cbn [bind]. unfold go_readat.
  replace (lo <? 0) with false by lia. replace (zlen f - lo =? 0) with false by lia. replace (zlen f <? lo + (zlen f - lo)) with false by lia.
  cbn [bind]. replace (lo + (zlen f - lo)) with (zlen f) by lia. now rewrite zslice_to_end.
Qed.

(* ---- the member checks *)
Section Members.
  Variable Hf : Z -> bytes -> bytes.
  Notation stream_check := (stream_check Hf).

  (* relic: one step of the signer's checkFiles over the forward-only stream; the two reads of the model (after skipping, without
     skipping) coincide because a skip that runs past the end fails like the read behind it *)
  Lemma stream_check_cons heap pos r rs : stream_check heap pos (r :: rs) =
    match style_hash (fr_ck r) with
    | None => Err E_STYLE
    | Some hid =>
        if negb (fr_hex_ok r) then Err E_HEX else if fr_len r <? 0 then Err E_EOF
        else if fr_len r =? 0 then (if file_digest_ok Hf hid [] r then stream_check heap pos rs else Err E_MISMATCH)
        else if fr_off r <? pos then Err E_BACK
        else if zlen heap <? fr_off r + fr_len r then Err E_EOF
        else if file_digest_ok Hf hid (zslice (fr_off r) (fr_off r + fr_len r) heap) r then stream_check heap (fr_off r + fr_len r) rs else Err E_MISMATCH
    end.
  Proof.
    cbn [Model.stream_check]. destruct (style_hash _); [|reflexivity]. destruct (negb _); [reflexivity|].
    destruct (fr_len r <? 0) eqn:El; [reflexivity|]. unfold xar_file_short, xar_stream_skips, xar_stream_backwards, xar_stream_skip_len.
    destruct (fr_len r =? 0) eqn:E0; [now replace (negb (0 =? fr_len r)) with false by lia|].
    destruct (fr_off r >? pos) eqn:Eg; [|reflexivity]. replace (fr_off r <? pos) with false by lia.
    destruct (zlen heap <? pos + (fr_off r - pos)) eqn:Es; [|reflexivity]. now replace (zlen heap <? fr_off r + fr_len r) with true by lia.
  Qed.
  Lemma stream_check_no_panic heap rs : forall pos p, stream_check heap pos rs <> Panic p.
  Proof.
    induction rs as [|r rs IH]; intros pos p; [discriminate|]. rewrite stream_check_cons.
    repeat match goal with |- (match ?c with _ => _ end) <> _ => destruct c end; try discriminate; apply IH.
  Qed.
  (* what a member check establishes about one reference *)
  Definition member_ok (heap : bytes) (r : fref) : Prop :=
    exists hid, style_hash (fr_ck r) = Some hid /\ fr_hex_ok r = true /\ 0 <= fr_len r /\
      (0 < fr_len r -> 0 <= fr_off r /\ fr_off r + fr_len r <= zlen heap /\ file_digest_ok Hf hid (zslice (fr_off r) (fr_off r + fr_len r) heap) r = true).
  Lemma stream_check_members heap rs : forall pos, 0 <= pos -> stream_check heap pos rs = Ok tt -> Forall (member_ok heap) rs.
  Proof.
    induction rs as [|r rs IH]; intros pos Hpos; [constructor|]. rewrite stream_check_cons.
    destruct (style_hash (fr_ck r)) as [hid|] eqn:Es; [|discriminate]. destruct (fr_hex_ok r) eqn:Eh; cbn [negb]; [|discriminate].
    destruct (fr_len r <? 0) eqn:El; [discriminate|]. destruct (fr_len r =? 0) eqn:E0.
    - destruct (file_digest_ok Hf hid [] r); [|discriminate]. intros H. constructor; [|eapply IH; eassumption].
      exists hid. repeat split; try assumption; lia.
    - destruct (fr_off r <? pos) eqn:Eb; [discriminate|]. destruct (zlen heap <? fr_off r + fr_len r) eqn:Ee; [discriminate|].
      destruct (file_digest_ok Hf hid _ r) eqn:Ed; [|discriminate]. intros H. constructor; [|eapply IH; [|exact H]; lia].
      exists hid. repeat split; try assumption; lia.
  Qed.
  (* C08: the member checks pass on the moved references in the new heap if they passed before *)
  Lemma stream_transfer (heap area : bytes) orig total : 0 <= orig <= zlen heap -> zlen area = total -> 0 <= total ->
    forall rs pos pos', Forall (ref_ok orig (zlen heap)) rs -> pos' <= Z.max (pos + (total - orig)) total ->
    stream_check heap pos rs = Ok tt ->
    stream_check (area ++ zdrop orig heap) pos' (map (move (total - orig)) rs) = Ok tt.
  Proof.
    intros Ho Ha Ht. induction rs as [|r rs IH]; intros pos pos' Hall Hpp; [reflexivity|].
    apply Forall_cons_iff in Hall as [Hr Hrs]. cbn [map]. rewrite !stream_check_cons. unfold file_digest_ok. cbn [move fr_ck fr_hex_ok fr_len fr_off fr_digest].
    destruct (style_hash (fr_ck r)) as [hid|]; [|discriminate]. destruct (negb (fr_hex_ok r)); [discriminate|].
    destruct (fr_len r <? 0); [discriminate|]. destruct (fr_len r =? 0) eqn:E0.
    - destruct (bytes_eqb (Hf hid []) (fr_digest r)); [|discriminate]. now apply IH.
    - rewrite (moved_slice heap area orig total r Ho Ha Hr), zlen_app, Ha, zlen_zdrop by lia. destruct Hr as (_ & _ & ? & ? & ?).
      destruct (fr_off r <? pos) eqn:Eb; [discriminate|]. destruct (zlen heap <? fr_off r + fr_len r) eqn:Ee; [discriminate|].
      destruct (bytes_eqb _ (fr_digest r)); [|discriminate]. intros Hsc.
      replace (fr_off r + (total - orig) <? pos') with false by lia.
      replace (total + (zlen heap - orig) <? fr_off r + (total - orig) + fr_len r) with false by lia.
      apply (IH (fr_off r + fr_len r)); [assumption|lia|assumption].
  Qed.
  (* relic: the verifier's member check *)
  Lemma verify_files_ok heap rs : verify_files Hf heap rs = Ok tt <-> Forall (fun r => verify_file Hf heap r = Ok tt) rs.
  Proof.
    induction rs as [|r rs IH]; cbn [verify_files]; [now split|]. rewrite Forall_cons_iff, <- IH.
    destruct (verify_file Hf heap r) as [[]| |]; cbn [bind]; intuition discriminate.
  Qed.
  Lemma verify_file_inv heap r : verify_file Hf heap r = Ok tt ->
    exists hid, style_hash (fr_ck r) = Some hid /\ 0 <= fr_off r /\ 0 <= fr_len r /\ fr_off r + fr_len r <= zlen heap /\
      Hf hid (zslice (fr_off r) (fr_off r + fr_len r) heap) = fr_digest r.
  Proof.
    unfold verify_file. destruct (style_hash (fr_ck r)) as [hid|]; [|discriminate]. destruct (negb (fr_hex_ok r)); [discriminate|].
    destruct (_ || _ || _) eqn:Eb; [discriminate|]. unfold file_digest_ok. destruct (bytes_eqb _ _) eqn:Ed; [|discriminate]. intros _.
    exists hid. apply bytes_eqb_eq in Ed. repeat split; try assumption; lia.
  Qed.
End Members.

Section XarLaws.
  Variable Hf : Z -> bytes -> bytes.
  Variable dec : bytes -> option xtoc.
  Variable enc : xtoc -> bytes.
  Variable usize : xtoc -> Z.
  Variable csig : bytes -> bytes.
  (* the tables of contents the codec is assumed to handle: dec reads back what enc wrote, within the size class relic signs *)
  Variable good : xtoc -> Prop.
  Hypothesis dec_enc : forall t, good t -> dec (enc t) = Some t.
  Hypothesis Hf_len : forall hid x, zlen (Hf hid x) = hash_size hid.
  (* the size class of tables of contents relic accepts for signing (Sign refuses larger ones) *)
  Hypothesis enc_small : forall t, good t -> zlen (enc t) <= 1000000.
  Hypothesis usize_ok : forall t, good t -> 0 <= usize t <= 10000000.
  Hypothesis enc_bytes : forall t, good t -> all_bytes (enc t) = true.
  Hypothesis Hf_bytes : forall hid x, all_bytes (Hf hid x) = true.
  Hypothesis csig_bytes : forall x, all_bytes (csig x) = true.

  Notation xar_sign := (xar_sign Hf dec enc usize csig).
  Notation xar_embed := (xar_embed Hf dec enc usize csig).
  Notation xar_open := (xar_open Hf dec).
  Notation member_ok := (member_ok Hf).

  (* signing parameters that occur: SHA-1 / SHA-256 / SHA-512, sizes not negative, at least one certificate *)
  Definition params_ok (P : sparams) : Prop :=
    (sp_hash P = 3 \/ sp_hash P = 5 \/ sp_hash P = 7) /\ 0 <= sp_classic P /\ 0 <= sp_certsum P /\ 0 < sp_ncerts P /\
    (sp_rsa P = true -> forall x, zlen (csig x) = sp_classic P).

  (* the input class: header of 28 bytes, table of contents decodes, signature elements of the three kinds only, every heap
     reference a movable data reference *)
  Record xar_dom (f : bytes) (h : xhdr) (hid : Z) (t : xtoc) : Prop := mkDom {
    xd_bytes : all_bytes f = true;
    xd_hdr : xar_parse_header f = Ok (h, hid);
    xd_hsize : xh_hsize h = 28;
    xd_clen : 0 <= xh_clen h <= 1000000;
    xd_ulen : 0 <= xh_ulen h <= 10000000;
    xd_len : 28 + xh_clen h <= zlen f;
    xd_dec : dec (zslice 28 (28 + xh_clen h) f) = Some t;
    xd_wf : toc_wf t = true;
    xd_strict : t_strict t = true;
    xd_orig : 0 <= toc_orig t <= zlen f - 28 - xh_clen h;
    xd_refs : Forall (ref_ok (toc_orig t) (zlen f - 28 - xh_clen h)) (t_refs t)
  }.

  Definition heap_of (f : bytes) (h : xhdr) : bytes := zdrop (28 + xh_clen h) f.
  Definition new_refs (P : sparams) (t : xtoc) : list fref := map (xar_adjust_ref (plan_total P - toc_orig t)) (t_refs t).
  Definition new_toc (P : sparams) (t : xtoc) : xtoc := mkToc (plan_slots P) (new_refs P t) (t_strict t).
  Definition sig_area (P : sparams) (t : xtoc) (cms : bytes) : bytes :=
    let ck := Hf (sp_hash P) (enc (new_toc P t)) in
    let classic := if sp_rsa P then csig ck else [] in
    ck ++ classic ++ cms ++ zeros (plan_total P - (zlen ck + zlen classic + zlen cms)).
  Definition cms_slot (P : sparams) (cms : bytes) : bytes :=
    cms ++ zeros (plan_total P - (hash_size (sp_hash P) + (if sp_rsa P then sp_classic P else 0) + zlen cms)).
  (* the header and the whole file appendSignatures writes in front of the remaining heap *)
  Definition hash_enum (P : sparams) : Z := match assoc_z (sp_hash P) xar_enum_of_hash with Some en => en | None => 0 end.
  Definition new_hdr (P : sparams) (t : xtoc) : xhdr := mkXhdr xar_magic 28 1 (zlen (enc (new_toc P t))) (usize (new_toc P t)) (hash_enum P).
  Definition signed_file (P : sparams) (t : xtoc) (cms tail : bytes) : bytes :=
    xar_marshal_header (new_hdr P t) ++ enc (new_toc P t) ++ sig_area P t cms ++ tail.

  Lemma heap_of_len f h hid t : xar_dom f h hid t -> zlen (heap_of f h) = zlen f - 28 - xh_clen h.
  Proof. intros Hd. pose proof (xd_clen _ _ _ _ Hd). pose proof (xd_len _ _ _ _ Hd). unfold heap_of. rewrite zlen_zdrop; lia. Qed.
  (* the old signature area lies in the heap, every reference is movable; on such references adjustOffsets is move *)
  Lemma dom_heap f h hid t : xar_dom f h hid t ->
    0 <= toc_orig t <= zlen (heap_of f h) /\ Forall (ref_ok (toc_orig t) (zlen (heap_of f h))) (t_refs t).
  Proof. intros Hd. rewrite (heap_of_len _ _ _ _ Hd). split; apply Hd. Qed.
  Lemma new_refs_move P f h hid t : xar_dom f h hid t -> new_refs P t = map (move (plan_total P - toc_orig t)) (t_refs t).
  Proof.
    intros (_ & Hrefs)%dom_heap. apply map_ext_in. intros r Hin. rewrite Forall_forall in Hrefs. eapply adjust_move, Hrefs, Hin.
  Qed.

  Lemma enum_of_hash P : params_ok P -> assoc_z (sp_hash P) xar_enum_of_hash = Some (hash_enum P) /\ assoc_z (hash_enum P) xar_hash_of_enum = Some (sp_hash P) /\
    0 <= hash_enum P < 4294967296 /\ spec_cksum_hash (hash_enum P) = Some (sp_hash P).
  Proof. intros [[H|[H|H]] _]; unfold hash_enum; rewrite H; cbn; repeat split; lia. Qed.
  Lemma plan_total_min P : params_ok P -> 6144 <= plan_total P.
  Proof. intros (_ & Hc & Hs & _). pose proof (hash_size_range (sp_hash P)). unfold plan_total. destruct (sp_rsa P); lia. Qed.
  Lemma classic_len P x : params_ok P -> zlen (if sp_rsa P then csig x else []) = if sp_rsa P then sp_classic P else 0.
  Proof. intros (_ & _ & _ & _ & Hcs). destruct (sp_rsa P); [now apply Hcs|reflexivity]. Qed.
  Lemma sig_area_parts P t cms : params_ok P ->
    sig_area P t cms = Hf (sp_hash P) (enc (new_toc P t)) ++ (if sp_rsa P then csig (Hf (sp_hash P) (enc (new_toc P t))) else []) ++ cms_slot P cms.
  Proof. intros HP. unfold sig_area, cms_slot. cbn zeta. now rewrite Hf_len, (classic_len P _ HP). Qed.
  Lemma cms_slot_len P cms : params_ok P -> zlen cms <= 6144 + sp_certsum P -> zlen (cms_slot P cms) = 6144 + sp_certsum P.
  Proof. intros HP Hfit. unfold cms_slot. rewrite zlen_app, zeros_zlen; unfold plan_total; lia. Qed.
  Lemma sig_area_len P t cms : params_ok P -> zlen cms <= 6144 + sp_certsum P -> zlen (sig_area P t cms) = plan_total P.
  Proof. intros HP Hfit. rewrite (sig_area_parts P t cms HP), !zlen_app, Hf_len, (classic_len P _ HP), cms_slot_len by assumption. unfold plan_total. lia. Qed.
  Lemma new_hdr_ok P t : good (new_toc P t) -> params_ok P -> xhdr_ok (new_hdr P t).
  Proof.
    intros Hg HP. destruct (enum_of_hash P HP) as (_ & _ & He & _). unfold xhdr_ok, new_hdr. cbn [xh_magic xh_hsize xh_version xh_clen xh_ulen xh_htype]. unfold xar_magic.
    pose proof (zlen_nonneg (enc (new_toc P t))). pose proof (enc_small (new_toc P t) Hg). pose proof (usize_ok (new_toc P t) Hg). lia.
  Qed.

  (* ---- relic: appendSignatures with the space reserveSignatures planned: the blob is refused exactly when it is longer than the CMS slot *)
  Lemma xar_append_eq P ztoc ulen cms : params_ok P ->
    xar_append Hf csig P ztoc ulen (plan_total P) cms =
      if 6144 + sp_certsum P <? zlen cms then Err E_OVERFLOW
      else Ok (xar_marshal_header (mkXhdr xar_magic 28 1 (zlen ztoc) ulen (hash_enum P)) ++ ztoc ++ Hf (sp_hash P) ztoc ++
               (if sp_rsa P then csig (Hf (sp_hash P) ztoc) else []) ++ cms_slot P cms).
  Proof.
    intros HP. destruct (enum_of_hash P HP) as (Hen & _). unfold xar_append. rewrite Hen.
    unfold xar_used_counts_checksum, xar_used_counts_classic, xar_used_counts_cms, xar_append_overflow, xar_append_pad.
    rewrite Hf_len, (classic_len P _ HP).
    replace (hash_size (sp_hash P) + (if sp_rsa P then sp_classic P else 0) + zlen cms >? plan_total P) with (6144 + sp_certsum P <? zlen cms) by (unfold plan_total; lia).
    now destruct (_ <? _).
  Qed.

  (* ---- relic: Sign on the domain: the member checks, appendSignatures, and one patch that replaces header, table of contents and the
     old signature area *)
  Lemma xar_sign_dom P f h hid t cms : params_ok P -> xar_dom f h hid t ->
    xar_sign P f cms =
      (_ <- xar_check_files_sign Hf (heap_of f h) (mkToc (plan_slots P) (t_refs t) (t_strict t)) ;;
       nb <- xar_append Hf csig P (enc (new_toc P t)) (usize (new_toc P t)) (plan_total P) cms ;;
       Ok (mkXS (toc_orig t) (plan_total P) (new_toc P t) nb 0 (28 + xh_clen h + toc_orig t) (nb ++ zdrop (toc_orig t) (heap_of f h)))).
  Proof.
    intros HP [Hfb Hh Hhs Hcl Hul Hlen Hdec Hwf Hst Horig Hrefs].
    unfold Model.xar_sign. rewrite Hh. cbn [bind fst].
    unfold xar_sign_toc_too_large. replace ((xh_clen h >? 1000000) || (xh_ulen h >? 10000000)) with false by lia.
    unfold xar_hdr_size. rewrite zlen_zdrop by lia. replace ((xh_clen h <? 0) || (zlen f - 28 <? xh_clen h)) with false by lia.
    replace (ztake (xh_clen h) (zdrop 28 f)) with (zslice 28 (28 + xh_clen h) f) by (unfold zslice; f_equal; lia).
    rewrite Hdec, (remove_all t Hwf). fold (toc_orig t). rewrite reserve_plan.
    rewrite zdrop_zdrop by lia. replace (xh_clen h + 28) with (28 + xh_clen h) by lia. fold (heap_of f h).
    destruct (xar_check_files_sign _ _ _) as [[]| |]; cbn [bind]; try reflexivity.
    unfold xar_adjust, xar_sign_delta. cbn [t_slots t_refs t_strict]. fold (new_refs P t). fold (new_toc P t).
    destruct (xar_append _ _ _ _ _ _ _) as [nb| |]; cbn [bind]; try reflexivity.
    unfold xar_sign_orig_total, xar_sign_patch_off, xar_sign_patch_old.
    replace ((28 + xh_clen h + toc_orig t <? 0) || (zlen f <? 0 + (28 + xh_clen h + toc_orig t))) with false by lia.
    rewrite ztake_neg by lia. cbn [app]. do 3 f_equal. unfold heap_of. rewrite zdrop_zdrop by lia. f_equal. lia.
  Qed.
  Lemma sign_ok P f h hid t cms : params_ok P -> xar_dom f h hid t ->
    xar_check_files_sign Hf (heap_of f h) (mkToc (plan_slots P) (t_refs t) (t_strict t)) = Ok tt -> zlen cms <= 6144 + sp_certsum P ->
    exists nb, xar_sign P f cms = Ok (mkXS (toc_orig t) (plan_total P) (new_toc P t) nb 0 (28 + xh_clen h + toc_orig t) (nb ++ zdrop (toc_orig t) (heap_of f h))).
  Proof.
    intros HP Hd Hck Hfit. rewrite (xar_sign_dom P f h hid t cms HP Hd), Hck, (xar_append_eq P _ _ cms HP). cbn [bind].
    replace (6144 + sp_certsum P <? zlen cms) with false by lia. eexists. reflexivity.
  Qed.
  (* the file a successful signing produces, in one piece *)
  Lemma embed_file P f h hid t cms g : params_ok P -> xar_dom f h hid t -> xar_embed P f cms = Ok g ->
    zlen cms <= 6144 + sp_certsum P /\
    xar_check_files_sign Hf (heap_of f h) (mkToc (plan_slots P) (t_refs t) (t_strict t)) = Ok tt /\
    g = signed_file P t cms (zdrop (toc_orig t) (heap_of f h)).
  Proof.
    intros HP Hd. unfold Model.xar_embed. rewrite (xar_sign_dom P f h hid t cms HP Hd), (xar_append_eq P _ _ cms HP).
    destruct (xar_check_files_sign _ _ _) as [[]| |]; cbn [bind]; try discriminate.
    destruct (6144 + sp_certsum P <? zlen cms) eqn:E; cbn [bind xs_file]; [discriminate|]. intros [= <-].
    split; [lia|]. split; [reflexivity|]. unfold signed_file. now rewrite (sig_area_parts P t cms HP), <- !app_assoc.
  Qed.

  (* ---- the signed file *)
  Lemma signed_parse P t cms tail : good (new_toc P t) -> params_ok P -> xar_parse_header (signed_file P t cms tail) = Ok (new_hdr P t, sp_hash P).
  Proof. intros Hgood HP. destruct (enum_of_hash P HP) as (_ & Hback & _). apply header_roundtrip; (reflexivity || assumption || now apply new_hdr_ok). Qed.
  Lemma signed_ztoc P t cms tail : zslice 28 (28 + zlen (enc (new_toc P t))) (signed_file P t cms tail) = enc (new_toc P t).
  Proof. apply zslice_app_mid; now rewrite marshal_header_zlen. Qed.
  Lemma signed_heap P t cms tail : zdrop (28 + zlen (enc (new_toc P t))) (signed_file P t cms tail) = sig_area P t cms ++ tail.
  Proof. unfold signed_file. rewrite app_assoc. apply zdrop_app_len. now rewrite zlen_app, marshal_header_zlen. Qed.
  Lemma signed_len P t cms tail : params_ok P -> zlen cms <= 6144 + sp_certsum P ->
    zlen (signed_file P t cms tail) = 28 + zlen (enc (new_toc P t)) + plan_total P + zlen tail.
  Proof. intros HP Hfit. unfold signed_file. rewrite !zlen_app, marshal_header_zlen, sig_area_len by assumption. lia. Qed.

  (* as the SPECIFICATION reader splits it: header, compressed table of contents, heap *)
  Lemma signed_split P t cms tail : good (new_toc P t) -> params_ok P ->
    spec_xar_split (signed_file P t cms tail) = Some (new_hdr P t, enc (new_toc P t), sig_area P t cms ++ tail).
  Proof.
    intros Hgood HP. destruct (enum_of_hash P HP) as (_ & Hback & _). pose proof (usize_ok _ Hgood) as Hu. pose proof (zlen_nonneg (enc (new_toc P t))) as Hz.
    unfold spec_xar_split. unfold signed_file at 1.
    rewrite (header_spec_reads_relic (new_hdr P t) _ (sp_hash P)) by (assumption || reflexivity || (now apply new_hdr_ok) || (cbn [new_hdr xh_clen xh_ulen]; lia)).
    cbn [new_hdr xh_hsize xh_clen]. rewrite signed_ztoc, signed_heap.
    replace ((28 <? 28) || (zlen (signed_file P t cms tail) <? 28 + zlen (enc (new_toc P t)))) with false; [reflexivity|].
    unfold signed_file. rewrite !zlen_app, marshal_header_zlen. pose proof (zlen_nonneg (sig_area P t cms)). pose proof (zlen_nonneg tail). lia.
  Qed.

  (* the three slots of the rewritten table of contents, as the specification reader finds them in the new heap: the signature area is
     checksum ++ classic signature ++ CMS slot, and each slot is declared at the sum of the lengths in front of it *)
  Lemma signed_slots P t cms tail : params_ok P -> zlen cms <= 6144 + sp_certsum P ->
    let hs := hash_size (sp_hash P) in let ck := Hf (sp_hash P) (enc (new_toc P t)) in let heap' := sig_area P t cms ++ tail in
    spec_slot_bytes heap' (mkSlot K_CHECKSUM 0 true hs 0) = Some ck /\
    (sp_rsa P = true -> spec_slot_bytes heap' (mkSlot K_SIGNATURE hs true (sp_classic P) (sp_ncerts P)) = Some (csig ck)) /\
    spec_slot_bytes heap' (mkSlot K_XSIGNATURE (hs + (if sp_rsa P then sp_classic P else 0)) true (6144 + sp_certsum P) (sp_ncerts P)) = Some (cms_slot P cms).
  Proof.
    intros HP Hfit. cbn zeta. rewrite (sig_area_parts P t cms HP). set (ck := Hf (sp_hash P) (enc (new_toc P t))).
    assert (Hckl : zlen ck = hash_size (sp_hash P)) by apply Hf_len. pose proof (classic_len P ck HP) as Hcl2.
    rewrite <- !app_assoc, <- Hckl, <- Hcl2. split; [apply (spec_slot_bytes_mid [])|]. split.
    - intros Er. destruct HP as (_ & _ & _ & _ & Hcs). rewrite Er, <- (Hcs Er ck). apply (spec_slot_bytes_mid ck).
    - rewrite <- (cms_slot_len P cms HP Hfit), <- zlen_app, app_assoc. apply spec_slot_bytes_mid.
  Qed.

  (* as relic's Open finds it (C01) *)
  Lemma open_layout P t cms tail : good (new_toc P t) -> params_ok P -> t_strict t = true -> zlen cms <= 6144 + sp_certsum P ->
    let z := enc (new_toc P t) in
    exists notary last,
      xar_open (signed_file P t cms tail) = Ok (mkXO (sp_hash P) z (new_toc P t) (28 + zlen z) (if sp_rsa P then Some (csig (Hf (sp_hash P) z)) else None)
                                                   (Some (cms_slot P cms)) notary last).
  Proof.
    intros Hgood HP Hst Hfit z. set (g := signed_file P t cms tail). set (ck := Hf (sp_hash P) z).
    pose proof (plan_total_min P HP) as Htot. pose proof (hash_size_range (sp_hash P)) as Hhs. pose proof HP as (_ & Hc0 & Hs0 & Hn0 & _).
    pose proof (signed_len P t cms tail HP Hfit) as Hgl. fold z g in Hgl. pose proof (zlen_nonneg z) as Hz0. pose proof (zlen_nonneg tail) as Ht0.
    destruct (plan_find P (new_refs P t) (t_strict t)) as (Fck & Fsig & Fx). fold (new_toc P t) in Fck, Fsig, Fx.
    destruct (signed_slots P t cms tail HP Hfit) as (Sck & Ssig & Sx). rewrite <- (signed_heap P t cms tail) in Sck, Ssig, Sx.
    fold z g ck in Sck, Ssig, Sx. apply readat_slot in Sck, Sx; [|lia..]. cbn [sl_off sl_size] in Sck, Sx.
    unfold Model.xar_open, xar_open_header_len. rewrite parse_header_prefix. unfold g at 1. rewrite signed_parse by assumption. cbn [bind].
    unfold xar_open_toc_off, xar_open_toc_len, xar_open_heap_after_toc. cbn [new_hdr xh_hsize xh_clen]. fold z g.
    replace ((zlen z <? 0) || (zlen g <? 28 + zlen z)) with false by lia.
    replace (zslice 28 (28 + zlen z) g) with z by (symmetry; apply signed_ztoc). unfold z at 1. rewrite dec_enc by assumption. fold z.
    rewrite Fck, Fsig, Fx. cbn [new_toc t_strict sl_size sl_off]. rewrite Hst. cbn [negb]. fold (new_toc P t).
    unfold xar_open_bad_cksize, xar_open_ck_alloc, xar_open_ck_at. rewrite Z.eqb_refl, go_make_ok, Sck, bytes_eqb_refl by (unfold alloc_limit; lia). cbn [negb bind].
    unfold xar_open_slot_guard_covers, xar_open_slot_guard, K_SIGNATURE, K_XSIGNATURE. cbn [existsb Z.eqb Pos.eqb orb andb].
    unfold xar_open_sig_guard, xar_open_xsig_guard, xar_open_sig_alloc, xar_open_sig_at, xar_open_xsig_alloc, xar_open_xsig_at.
    pose proof (last_offset_ge (t_refs (new_toc P t)) 0) as Hlast. unfold plan_total in Hgl.
    destruct (sp_rsa P) eqn:Er; cbn [sl_size sl_off sl_ncerts read_slot bind];
      (match goal with |- context [if ?c then Err E_TOOBIG else _] => replace c with false by lia end).
    - specialize (Ssig eq_refl). apply readat_slot in Ssig; [|lia]. cbn [sl_off sl_size] in Ssig.
      rewrite go_make_ok, Ssig by (unfold alloc_limit; lia). cbn [bind]. replace (sp_ncerts P =? 0) with false by lia.
      rewrite go_make_ok, Sx by (unfold alloc_limit; lia). cbn [bind]. cbn zeta. rewrite ticket_read by (unfold xar_open_lo; lia). eexists. eexists. reflexivity.
    - rewrite go_make_ok, Sx by (unfold alloc_limit; lia). cbn [bind]. cbn zeta. rewrite ticket_read by (unfold xar_open_lo; lia). eexists. eexists. reflexivity.
  Qed.

  Lemma spec_payload_of_dom f h hid t : xar_dom f h hid t ->
    spec_xar_payload dec f = Ok (map (spec_ref_bytes (heap_of f h)) (t_refs t)).
  Proof.
    intros [Hfb Hh Hhs Hcl Hul Hlen Hdec Hwf Hst Horig Hrefs]. unfold Model.spec_xar_payload, spec_xar_split.
    destruct (header_spec_agree f h hid Hfb Hh ltac:(lia) ltac:(lia)) as [Hsp _]. rewrite Hsp. rewrite Hhs.
    replace ((28 <? 28) || (zlen f <? 28 + xh_clen h)) with false by lia. rewrite Hdec. reflexivity.
  Qed.
  (* every reference of the rewritten table of contents names, in the new heap, the bytes it named before *)
  Lemma moved_refs P f h hid t cms : params_ok P -> xar_dom f h hid t -> zlen cms <= 6144 + sp_certsum P ->
    map (spec_ref_bytes (sig_area P t cms ++ zdrop (toc_orig t) (heap_of f h))) (new_refs P t) = map (spec_ref_bytes (heap_of f h)) (t_refs t).
  Proof.
    intros HP Hd Hfit. rewrite (new_refs_move P f h hid t Hd), map_map. destruct (dom_heap _ _ _ _ Hd) as [Horig Hrefs]. pose proof (plan_total_min P HP).
    apply map_ext_in. intros r Hin. rewrite Forall_forall in Hrefs. apply moved_ref_bytes; auto using sig_area_len; lia.
  Qed.

  Lemma check_files_resign P f h hid t cms slots' : params_ok P -> xar_dom f h hid t -> zlen cms <= 6144 + sp_certsum P ->
    xar_check_files_sign Hf (heap_of f h) (mkToc (plan_slots P) (t_refs t) (t_strict t)) = Ok tt ->
    xar_check_files_sign Hf (sig_area P t cms ++ zdrop (toc_orig t) (heap_of f h)) (mkToc slots' (new_refs P t) (t_strict t)) = Ok tt.
  Proof.
    intros HP Hd Hfit Hck. unfold xar_check_files_sign in *. cbn [t_refs] in *. destruct (dom_heap _ _ _ _ Hd) as [Horig Hrefs]. pose proof (plan_total_min P HP).
    rewrite (new_refs_move P f h hid t Hd), filter_map_move, sort_map_move.
    eapply stream_transfer; try eassumption; try lia; [now apply sig_area_len|]. apply Forall_sort_refs. now apply Forall_filter.
  Qed.
  (* C01: a member the verifier selects, covered by the signer's check of the old heap, passes the verifier's check of the new heap *)
  Lemma verify_moved P f h hid t cms r : params_ok P -> xar_dom f h hid t -> zlen cms <= 6144 + sp_certsum P ->
    In r (t_refs t) -> member_ok (heap_of f h) r -> fr_len r <> 0 ->
    verify_file Hf (sig_area P t cms ++ zdrop (toc_orig t) (heap_of f h)) (move (plan_total P - toc_orig t) r) = Ok tt.
  Proof.
    intros HP Hd Hfit Hin (hidr & Hs & Hhex & Hl0 & Hpos) Hlen. destruct (Hpos ltac:(lia)) as (_ & _ & Hdig).
    destruct (dom_heap _ _ _ _ Hd) as [Horig Hrefs]. pose proof (plan_total_min P HP). pose proof (proj1 (Forall_forall _ _) Hrefs r Hin) as Hr.
    pose proof (sig_area_len P t cms HP Hfit) as Hal.
    unfold verify_file, file_digest_ok in *. cbn [move fr_ck fr_hex_ok fr_len fr_off fr_digest].
    rewrite Hs, Hhex, (moved_slice _ _ _ _ r Horig Hal Hr), Hdig, zlen_app, Hal, zlen_zdrop by lia.
    cbn [negb]. destruct Hr as (_ & _ & ? & ? & ?).
    now replace ((fr_len r <? 0) || (fr_off r + (plan_total P - toc_orig t) <? 0)
                 || (plan_total P + (zlen (heap_of f h) - toc_orig t) <? fr_off r + (plan_total P - toc_orig t) + fr_len r)) with false by lia.
  Qed.

  (* C08: any history of signing (keys, digests, certificate chains and blobs all differing from round to round) *)
  Fixpoint xar_history (hist : list (sparams * bytes)) (f : bytes) : result bytes :=
    match hist with [] => Ok f | (P, c) :: r => g <- xar_embed P f c ;; xar_history r g end.
  Fixpoint chain_good (hist : list (sparams * bytes)) (t : xtoc) : Prop :=
    match hist with [] => True | (P, _) :: r => good (new_toc P t) /\ chain_good r (new_toc P t) end.

  (* ---- C01: sign, then verify, with symbolic cryptography (the types of Laws/Pipeline.v).  The CMS blob is made over the digest of
     the compressed table of contents Sign emits (builder.SetContentData(ztocHash)); the verifier hands the digest of the stored table
     of contents to the CMS layer (psd.Content.Verify(x.TOCHash)).  The CMS reader takes the first element of the slot and ignores the
     zero padding behind it (go-asn1-ber; an assumption about the CMS layer, unit C16). *)
  Section XarCrypto.
    Variables key pubk sigv : Type.
    Variable H : Z -> bytes -> bytes.
    Variable pub : key -> pubk.
    Variable sign : key -> bytes -> sigv.
    Variable vrfy : pubk -> bytes -> sigv -> bool.
    Hypothesis sign_correct : forall k m, vrfy (pub k) m (sign k m) = true.
    Variable tbs : Z -> bytes -> bytes.
    Variable ser : Pipeline.sigblob pubk sigv -> bytes.
    Variable deser : bytes -> option (Pipeline.sigblob pubk sigv).
    Hypothesis deser_pad : forall b n, deser (ser b ++ zeros n) = Some b.

    Definition xar_verify_file (g : bytes) : Pipeline.verdict pubk :=
      match xar_verify_struct Hf dec g false with
      | Ok (route, slot, content) =>
          if route =? 2 then
            match deser slot with
            | Some b => if Pipeline.blob_ok pubk sigv vrfy tbs b && bytes_eqb (H (Pipeline.sb_alg pubk sigv b) content) (Pipeline.sb_digest pubk sigv b)
                        then Pipeline.Accept pubk (Pipeline.sb_cert pubk sigv b) (Pipeline.sb_alg pubk sigv b) else Pipeline.Reject pubk
            | None => Pipeline.Reject pubk
            end
          else Pipeline.Reject pubk
      | Err e => if e =? E_NOTSIGNED then Pipeline.NotSigned pubk else Pipeline.Reject pubk
      | Panic _ => Pipeline.Reject pubk
      end.
    Definition xar_sign_file (P : sparams) (t : xtoc) (k : key) (a : Z) (f : bytes) : result bytes :=
      xar_embed P f (ser (Pipeline.mksig key pubk sigv pub sign tbs k a (H a (Hf (sp_hash P) (enc (new_toc P t)))))).
  End XarCrypto.
End XarLaws.

(* ---- every byte string and every table of contents the decoder may deliver *)
Section AnyInput.
  Variable Hf : Z -> bytes -> bytes.
  Variable dec : bytes -> option xtoc.
  (* C02: what a successful verification pins down about the heap *)
  (* a structurally accepted archive: the digest handed to the signature check is that of the stored compressed table of contents,
     and every member the verifier selects has, in the heap, bytes whose digest is the one the table of contents records *)
  Lemma xar_protect g route sigb content : xar_verify_struct Hf dec g false = Ok (route, sigb, content) ->
    exists o, xar_open Hf dec g = Ok o /\ content = Hf (xo_hash o) (xo_tochash_pre o) /\
      Forall (fun r => verify_checks r = true ->
                exists hid, style_hash (fr_ck r) = Some hid /\
                  Hf hid (zslice (fr_off r) (fr_off r + fr_len r) (zdrop (xo_base o) g)) = fr_digest r) (t_refs (xo_toc o)).
  Proof.
    unfold xar_verify_struct. destruct (xar_open Hf dec g) as [o| |] eqn:Ho; cbn [bind]; try discriminate.
    destruct (xar_verify_route o =? 0); [discriminate|]. unfold xar_verify_checks_files. cbn [negb].
    destruct (verify_files Hf _ _) as [[]| |] eqn:Hv; cbn [bind]; try discriminate. intros H. apply Ok_inj in H.
    exists o. split; [reflexivity|]. split; [congruence|].
    apply verify_files_ok in Hv. rewrite Forall_forall in *. intros r Hin Hvc.
    assert (Hin2 : In r (sort_refs (filter verify_checks (t_refs (xo_toc o))))) by (apply In_sort_refs, filter_In; auto).
    destruct (verify_file_inv _ _ _ (Hv r Hin2)) as (hid & Hs & _ & _ & _ & Hd). exists hid. auto.
  Qed.

  (* ---- C11: no panic *)
  Lemma read_slot_no_panic size f base guard alloc at_ s p :
    (s <> None -> guard = false -> 0 <= alloc <= alloc_limit size) -> read_slot size f base guard alloc at_ s <> Panic p.
  Proof.
    intros H. unfold read_slot. destruct s as [sl|]; [|discriminate]. destruct guard; [discriminate|].
    rewrite go_make_ok by (apply H; [discriminate|reflexivity]). cbn [bind].
    pose proof (go_readat_no_panic f at_ alloc p). destruct (go_readat f at_ alloc); cbn [bind]; congruence.
  Qed.
  Lemma xar_sign_no_panic enc usize csig P f cms p : xar_sign Hf dec enc usize csig P f cms <> Panic p.
  Proof.
    unfold Model.xar_sign. apply bind_no_panic; [apply parse_header_no_panic|]. intros [h hid] _. cbn [fst].
    destruct (xar_sign_toc_too_large _ _); [discriminate|]. destruct (_ || _); [discriminate|]. destruct (dec _) as [t|]; [|discriminate].
    destruct (xar_remove_sigs t) as [orig t1]. destruct (xar_reserve P t1) as [newsz t2].
    apply bind_no_panic; [eapply stream_check_no_panic; eassumption|]. intros _ _.
    unfold xar_append. destruct (assoc_z _ _); cbn [bind]; [|discriminate]. destruct (xar_append_overflow _ _); cbn [bind]; [discriminate|].
    destruct (_ || _); discriminate.
  Qed.
  (* C11: Open never panics and never allocates more than 64 |file| + 1 MiB, for every byte string and every table of contents the
     decoder may deliver (since relic 67d720d: both signature elements are checked against the file size before anything is allocated) *)
  Lemma xar_open_no_panic f p : xar_open Hf dec f <> Panic p.
  Proof.
    unfold Model.xar_open. unfold xar_open_header_len. apply bind_no_panic; [apply parse_header_no_panic|]. intros [h hid] _.
    unfold xar_open_toc_off, xar_open_toc_len. destruct (_ || _); [discriminate|].
    destruct (dec _) as [t|] eqn:Hd; [|discriminate]. destruct (negb (t_strict t)); [discriminate|].
    destruct (xar_open_bad_cksize _ _) eqn:Eck; [discriminate|]. unfold xar_open_bad_cksize in Eck. apply negb_false_iff, Z.eqb_eq in Eck.
    unfold xar_open_ck_alloc. rewrite Eck. pose proof (hash_size_range hid) as Hr. pose proof (zlen_nonneg f) as Hf0.
    rewrite go_make_ok by (unfold alloc_limit; lia). cbn [bind].
    match goal with |- context [go_readat f ?o ?n] => pose proof (go_readat_no_panic f o n p) as Hrn; destruct (go_readat f o n) as [stored| |]; try congruence end.
    destruct (negb (bytes_eqb stored _)); [discriminate|].
    unfold xar_open_slot_guard_covers, xar_open_slot_guard, K_SIGNATURE, K_XSIGNATURE. cbn [existsb Z.eqb Pos.eqb orb andb].
    match goal with |- (if ?c then _ else _) <> _ => destruct c eqn:Eg; [discriminate|] end.
    apply orb_false_iff in Eg as [Eg1 Eg2].
    (* a slot that is present has passed the guard, so its size lies between 0 and the file size *)
    apply bind_no_panic.
    { apply read_slot_no_panic. intros Hsome _. unfold xar_open_sig_alloc. destruct (find_slot 1 t) as [s|] eqn:Efs; [|congruence].
      cbn [andb] in Eg1. unfold alloc_limit. lia. }
    intros classic _. destruct (match find_slot 1 t with Some s => sl_ncerts s =? 0 | None => false end); [discriminate|].
    apply bind_no_panic.
    { apply read_slot_no_panic. intros Hsome _. unfold xar_open_xsig_alloc. destruct (find_slot 2 t) as [s|] eqn:Efs; [|congruence].
      cbn [andb] in Eg2. unfold alloc_limit. lia. }
    intros cmsb _. cbn zeta. unfold xar_open_has_trailer, xar_open_trailer_alloc.
    match goal with |- context [if (?tr >? 0) && (?tr <? 1000000) then _ else _] => destruct ((tr >? 0) && (tr <? 1000000)) eqn:Et; [|discriminate];
      rewrite (go_make_ok (zlen f) tr) by (unfold alloc_limit; lia); cbn [bind] end.
    apply bind_no_panic; [apply go_readat_no_panic|]. intros tk _. discriminate.
  Qed.
End AnyInput.
