(* FmtXAR/WitnessXAR.v — a toy instance of the opaque parts of a flat package (digest, codec of the table of contents, classic
   signature) and the concrete archives on which the witness theorems of FmtXAR/Properties.v are evaluated. *)
From Relic Require Import Base.Prelude Base.Enc Base.Slice Generated.FmtXAR_gen FmtXAR.Model FmtXAR.Codec FmtXAR.ProofsHdr FmtXAR.ProofsXAR.

(* a toy instance of the opaque parts: the "digest" is the message reduced to bytes and cut / zero-padded to the digest size; the
   classic signature is four zero bytes; the compressed table of contents of the input is [1], of the output [2] *)
Definition toy_H (hid : Z) (x : bytes) : bytes := ztake (hash_size hid) (map (fun v => v mod 256) x ++ zeros (hash_size hid)).
Definition toy_csig (x : bytes) : bytes := zeros 4.
Definition toy_new (P : sparams) (t : xtoc) : xtoc := let '(_, _, t') := xar_new_toc P t in t'.
Definition toy_dec (t_old t_new : xtoc) (z : bytes) : option xtoc :=
  if bytes_eqb z [1] then Some t_old else if bytes_eqb z [2] then Some t_new else None.
Definition toy_enc (t : xtoc) : bytes := [2].
Definition toy_usize (t : xtoc) : Z := 5.
Definition toy_file (heap : bytes) : bytes := xar_marshal_header (mkXhdr xar_magic 28 1 1 5 1) ++ [1] ++ heap.
Definition P_ec : sparams := mkSP 3 false 0 10 1.           (* SHA-1, no RSA leaf, 10 bytes of certificates *)
Definition P_rsa : sparams := mkSP 5 true 4 10 1.           (* SHA-256, RSA leaf with a 4-byte modulus *)
Definition toy_embed (P : sparams) (t : xtoc) (heap cms : bytes) : result bytes :=
  xar_embed toy_H (toy_dec t (toy_new P t)) toy_enc toy_usize toy_csig P (toy_file heap) cms.
Definition toy_payload (P : sparams) (t : xtoc) (f : bytes) := spec_xar_payload (toy_dec t (toy_new P t)) f.
Definition toy_verify (P : sparams) (t : xtoc) (f : bytes) := xar_verify_struct toy_H (toy_dec t (toy_new P t)) f false.
Definition ck_slot : slot := mkSlot K_CHECKSUM 0 true 20 0.
Definition dref (off len : Z) (data : bytes) (reach : bool) : fref := mkRef 0 true off len 3 true (toy_H 3 data) reach.

(* the usual layout: checksum, then two members *)
Definition w_toc : xtoc := mkToc [ck_slot] [dref 20 3 [7; 8; 9] true; dref 23 2 [5; 6] true] true.
Definition w_heap : bytes := zeros 20 ++ [7; 8; 9] ++ [5; 6].
Definition unOk (r : result bytes) : bytes := match r with Ok g => g | _ => [] end.
Definition g_ok : bytes := Eval vm_compute in unOk (toy_embed P_ec w_toc w_heap [48; 1; 0]).

(* C03 witness: an extended attribute stored in the heap (<ea><offset>): adjustOffsets moves only //data/offset, so after signing the
   attribute's offset names bytes of the signature area *)
Definition w_toc_ea : xtoc := mkToc [ck_slot] [dref 20 3 [7; 8; 9] true; mkRef 1 true 23 2 0 true [] true] true.
Definition g_ea : bytes := Eval vm_compute in unOk (toy_embed P_ec w_toc_ea w_heap [48; 1; 0]).

(* C03 / C01 witness: an existing signature slot BEHIND the member data (the format allows any heap offsets): Sign removes the first
   24 heap bytes whatever they are; the member is lost and relic's own verifier rejects the result *)
Definition w_toc_behind : xtoc := mkToc [ck_slot; mkSlot K_XSIGNATURE 23 true 4 1] [dref 20 3 [7; 8; 9] true] true.
Definition w_heap_behind : bytes := zeros 20 ++ [7; 8; 9] ++ [1; 1; 1; 1].
Definition g_behind : bytes := Eval vm_compute in unOk (toy_embed P_ec w_toc_behind w_heap_behind [48; 1; 0]).

(* C01 witness: a member without archived checksum (xar --file-cksum none): the signer skips it, the verifier insists on a style *)
Definition w_toc_nock : xtoc := mkToc [ck_slot] [mkRef 0 true 20 3 0 true [] true] true.
Definition g_nock : bytes := Eval vm_compute in unOk (toy_embed P_ec w_toc_nock (zeros 20 ++ [7; 8; 9]) [48; 1; 0]).

(* C02 witness: a member nested in a member that has data itself: gatherDataFiles does not descend, the nested member's bytes can be
   changed after signing and the structural verification result is the same *)
Definition w_toc_nested : xtoc := mkToc [ck_slot] [dref 20 3 [7; 8; 9] true; dref 23 2 [5; 6] false] true.
Definition g_nested : bytes := Eval vm_compute in unOk (toy_embed P_ec w_toc_nested w_heap [48; 1; 0]).
Definition g_nested' : bytes := Eval vm_compute in ztake (zlen g_nested - 1) g_nested ++ [66].

(* C11 regression inputs: a negative and a huge <signature> / <x-signature> size: refused before anything is allocated (they were a
   makeslice panic and a 300 MB allocation for a 49-byte file before relic 67d720d) *)
Definition w_toc_neg : xtoc := mkToc [ck_slot; mkSlot K_SIGNATURE 20 true (-1) 1] [] true.
Definition w_toc_huge : xtoc := mkToc [ck_slot; mkSlot K_XSIGNATURE 20 true 300000000 1] [] true.

(* the toy digest satisfies what the theorems assume of a digest *)
Lemma toy_H_len hid x : zlen (toy_H hid x) = hash_size hid.
Proof.
  unfold toy_H. pose proof (hash_size_range hid) as Hr. apply zlen_ztake. rewrite zlen_app, zeros_zlen by lia.
  pose proof (zlen_nonneg (map (fun v => v mod 256) x)). lia.
Qed.
Lemma toy_H_bytes hid x : all_bytes (toy_H hid x) = true.
Proof.
  unfold toy_H. apply all_bytes_ztake. rewrite all_bytes_app, all_bytes_zeros, andb_true_r.
  apply all_bytes_forall, Forall_map, Forall_forall. intros v _. apply Z.mod_pos_bound. lia.
Qed.
