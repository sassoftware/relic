(* FmtXAR/ProofsDMG.v — disk images: what dmg.Sign does on a file that has a trailer, the signed image as dmg.Open, DMG.Verify and
   the specification reader see it, the laws of Laws/Pipeline.v, what the digest input protects; the example images. *)
From Relic Require Import Base.Prelude Base.Enc Base.Lists Base.Slice Generated.FmtXAR_gen FmtXAR.Model FmtXAR.Codec FmtXAR.ProofsHdr.

(* closes a goal that compares field indices of the trailer: they are closed numbers *)
Ltac idx := unfold dmg_koly_idx_Signature, dmg_koly_idx_XMLOffset, dmg_koly_idx_XMLLength, dmg_koly_idx_SignatureOffset, dmg_koly_idx_SignatureLength,
  dmg_koly_idx_DataForkOffset, dmg_koly_idx_DataForkLength, dmg_koly_idx_ResourceForkOffset, dmg_koly_idx_ResourceForkLength; lia.

Lemma kget_kset_same i v k : (i < length k)%nat -> kget i (kset i v k) = v.
Proof.
  unfold kget. revert k. induction i as [|i IH]; intros [|x k] H; cbn [length] in H; try lia; cbn [kset nth]; [reflexivity|]. apply IH. lia.
Qed.
Lemma kget_kset_other i j v k : i <> j -> kget j (kset i v k) = kget j k.
Proof.
  unfold kget. revert j k. induction i as [|i IH]; intros j [|x k] H; cbn [kset]; try reflexivity.
  - destruct j as [|j]; [congruence|reflexivity].
  - destruct j as [|j]; [reflexivity|]. cbn [nth]. apply IH. congruence.
Qed.
Lemma kset_length i v k : length (kset i v k) = length k.
Proof. revert k. induction i as [|i IH]; intros [|x k]; cbn [kset length]; try reflexivity. now rewrite IH. Qed.
Lemma kset_kget i k : (i < length k)%nat -> kset i (kget i k) k = k.
Proof.
  unfold kget. revert k. induction i as [|i IH]; intros [|x k] H; cbn [length] in H; try lia; cbn [kset nth]; [reflexivity|]. f_equal. apply IH. lia.
Qed.
Lemma kset_kset i v w k : kset i v (kset i w k) = kset i v k.
Proof. revert k. induction i as [|i IH]; intros [|x k]; cbn [kset]; try reflexivity. now rewrite IH. Qed.

(* ---- trailer values in range stay in range when a named field is set *)
Lemma fields_ok_kset ws sgs vs : fields_ok ws sgs vs -> forall i v, field_ok (nth i ws 0) (nth i sgs 0) v -> (i < length vs)%nat ->
  fields_ok ws sgs (kset i v vs).
Proof.
  induction 1 as [|w ws sg sgs x vs Hw Hok Hr IH]; intros i v Hv Hi; cbn [length] in Hi; [lia|].
  destruct i as [|i]; cbn [kset nth] in Hv |- *; constructor; try assumption. apply IH; [assumption|lia].
Qed.
Lemma named_kset bl : forall k i v, nth i bl 0 = 0 -> (i < length k)%nat -> (i < length bl)%nat -> named bl (kset i v k) = kset i v (named bl k).
Proof.
  induction bl as [|b bl IH]; intros [|x k] i v Hb Hk Hl; cbn [length] in Hk, Hl; try lia. unfold named in *.
  destruct i as [|i]; cbn [kset combine map fst snd nth] in *; [now rewrite Hb|]. f_equal. apply IH; [assumption|lia|lia].
Qed.
Lemma koly_ok_length k : koly_ok k -> length k = 23%nat.
Proof. intros [H _]. exact (proj1 (fields_ok_length _ _ _ H)). Qed.
Lemma koly_ok_kset k i v : koly_ok k -> (i < 23)%nat -> nth i dmg_koly_blank 0 = 0 ->
  field_ok (nth i dmg_koly_widths 0) (nth i dmg_koly_signed 0) v -> koly_ok (kset i v k).
Proof.
  intros Hk Hi Hb Hv. pose proof (koly_ok_length k Hk) as Hl. destruct Hk as [Hf Hn]. split.
  - apply fields_ok_kset; [assumption|assumption|lia].
  - rewrite <- Hn at 2. apply named_kset; [assumption|lia|exact Hi].
Qed.
Definition int64_ok (v : Z) : Prop := - 9223372036854775808 <= v < 9223372036854775808.
Lemma koly_ok_set_sigoff k v : koly_ok k -> int64_ok v -> koly_ok (kset dmg_koly_idx_SignatureOffset v k).
Proof. intros Hk Hv. apply koly_ok_kset; [assumption|idx|reflexivity|exact Hv]. Qed.
Lemma koly_ok_set_siglen k v : koly_ok k -> int64_ok v -> koly_ok (kset dmg_koly_idx_SignatureLength v k).
Proof. intros Hk Hv. apply koly_ok_kset; [assumption|idx|reflexivity|exact Hv]. Qed.
Lemma koly_get_range k i : koly_ok k -> nth i dmg_koly_signed 0 = 1 -> nth i dmg_koly_widths 0 = 8 -> (i < 23)%nat -> int64_ok (kget i k).
Proof.
  intros [Hf _] Hs Hw Hi. unfold kget. revert i Hs Hw Hi.
  induction Hf as [|w ws sg sgs v vs Hw0 Hok _ IH]; intros i Hs Hw Hi; [destruct i; cbn in Hw; lia|].
  destruct i as [|i]; cbn [nth] in *.
  - subst. unfold field_ok in Hok. cbn in Hok. unfold int64_ok. lia.
  - destruct ws as [|w' ws']; [destruct i; cbn in Hw; lia|]. apply IH; try assumption. lia.
Qed.

Lemma marshal_koly_inj k1 k2 : koly_ok k1 -> koly_ok k2 -> dmg_marshal_koly k1 = dmg_marshal_koly k2 -> k1 = k2.
Proof.
  intros H1 H2 He. pose proof (koly_roundtrip k1 [] H1) as R1. rewrite He, (koly_roundtrip k2 [] H2) in R1. now apply Ok_inj in R1.
Qed.

(* ---- the last 512 bytes and what relic parses from them *)
Lemma trailer_of (f : bytes) : 512 <= zlen f -> dmg_trailer_of f = Ok (zdrop (zlen f - 512) f).
Proof.
  intros H. unfold dmg_trailer_of, dmg_transform_seek, dmg_transform_len.
  replace (zlen f + - 512 <? 0) with false by lia. f_equal. replace (zlen f + - 512) with (zlen f - 512) by lia.
  apply ztake_all. rewrite zlen_zdrop by lia. lia.
Qed.
Lemma tail_of_app (pre t : bytes) : zlen t = 512 -> zdrop (zlen (pre ++ t) - 512) (pre ++ t) = t.
Proof. intros H. rewrite zlen_app, H, Z.add_simpl_r. apply zdrop_app_exact. Qed.
Lemma parse_koly_length tb k : dmg_parse_koly tb = Ok k -> length k = 23%nat.
Proof.
  intros [_ ->]%parse_koly_inv. unfold koly_named. rewrite map_length, combine_length, dec_fields_length by (now rewrite split_w_length). reflexivity.
Qed.

Definition fork_in (off len bundle : Z) : bool := (0 <=? off) && (0 <=? len) && (off + len <=? bundle).
Definition dmg_dom (f : bytes) : bool :=
  all_bytes f && (512 <=? zlen f) &&
  match dmg_parse_koly (zdrop (zlen f - 512) f) with
  | Ok k =>
      let bundle := kget dmg_koly_idx_XMLOffset k + kget dmg_koly_idx_XMLLength k in
      (kget dmg_koly_idx_Signature k =? 1802464377) && (0 <=? bundle) && (bundle <=? zlen f - 512) && (bundle <? 9223372036854775808) &&
      fork_in (kget dmg_koly_idx_DataForkOffset k) (kget dmg_koly_idx_DataForkLength k) bundle &&
      fork_in (kget dmg_koly_idx_ResourceForkOffset k) (kget dmg_koly_idx_ResourceForkLength k) bundle &&
      fork_in (kget dmg_koly_idx_XMLOffset k) (kget dmg_koly_idx_XMLLength k) bundle
  | _ => false
  end.
Definition dmg_blob_ok (b : bytes) : bool := all_bytes b && (0 <? zlen b) && (zlen b <=? 10000000).
Definition dmg_embed_wf (f blob : bytes) : result bytes :=
  if dmg_dom f && dmg_blob_ok blob then dmg_embed f blob else Err E_DOMAIN.

(* k is the trailer of an image in the domain *)
Record dom_trailer (f : bytes) (k : koly) : Prop := mkDomTrailer {
  dt_bytes : all_bytes f = true;
  dt_len : 512 <= zlen f;
  dt_parse : dmg_parse_koly (zdrop (zlen f - 512) f) = Ok k;
  dt_ok : koly_ok k;
  dt_magic : kget dmg_koly_idx_Signature k = 1802464377;
  dt_bundle : 0 <= kget dmg_koly_idx_XMLOffset k + kget dmg_koly_idx_XMLLength k <= zlen f - 512 /\
              kget dmg_koly_idx_XMLOffset k + kget dmg_koly_idx_XMLLength k < 9223372036854775808;
  dt_data : fork_in (kget dmg_koly_idx_DataForkOffset k) (kget dmg_koly_idx_DataForkLength k)
                    (kget dmg_koly_idx_XMLOffset k + kget dmg_koly_idx_XMLLength k) = true;
  dt_rsrc : fork_in (kget dmg_koly_idx_ResourceForkOffset k) (kget dmg_koly_idx_ResourceForkLength k)
                    (kget dmg_koly_idx_XMLOffset k + kget dmg_koly_idx_XMLLength k) = true;
  dt_xml : fork_in (kget dmg_koly_idx_XMLOffset k) (kget dmg_koly_idx_XMLLength k)
                   (kget dmg_koly_idx_XMLOffset k + kget dmg_koly_idx_XMLLength k) = true }.
Lemma dmg_dom_spec f : dmg_dom f = true <-> exists k, dom_trailer f k.
Proof.
  unfold dmg_dom. split.
  - intros H. repeat (apply andb_true_iff in H as [H ?]).
    destruct (dmg_parse_koly (zdrop (zlen f - 512) f)) as [k| |] eqn:Hp; try discriminate.
    repeat match goal with Hx : _ && _ = true |- _ => apply andb_true_iff in Hx as [Hx ?] end.
    exists k. constructor; try assumption; try lia. eapply parse_koly_ok; [apply all_bytes_zdrop|]; eassumption.
  - intros (k & [Hb Hl Hp _ Hmag Hbd Hf1 Hf2 Hf3]). rewrite Hb, Hp, Hmag, Hf1, Hf2, Hf3. cbn [andb Z.eqb Pos.eqb]. lia.
Qed.
Lemma dmg_blob_ok_spec b : dmg_blob_ok b = true -> all_bytes b = true /\ 0 < zlen b <= 10000000.
Proof. unfold dmg_blob_ok. intros H. repeat (apply andb_true_iff in H as [H ?]). repeat split; try assumption; lia. Qed.

(* ---- dmg.Sign on a file that has a trailer: the only refusals are a signature elsewhere than at the end of the property list and
   a property list end outside the file; otherwise the file is cut there and the blob and the rewritten trailer are appended *)
Lemma dmg_sign_pre_eq f k : 512 <= zlen f -> dmg_parse_koly (zdrop (zlen f - 512) f) = Ok k ->
  let bundle := kget dmg_koly_idx_XMLOffset k + kget dmg_koly_idx_XMLLength k in
  let k1 := kset dmg_koly_idx_SignatureOffset bundle k in
  dmg_sign_pre f = if negb (kget dmg_koly_idx_SignatureOffset k =? 0) && negb (kget dmg_koly_idx_SignatureOffset k =? bundle) then Err E_GAP
                   else Ok (k1, bundle, ztake bundle f, dmg_marshal_koly (kset dmg_koly_idx_SignatureLength 0 k1)).
Proof. intros Hl Hp. unfold dmg_sign_pre. rewrite trailer_of by lia. cbn [bind]. rewrite Hp. cbn [bind]. now rewrite ztake_c_eq. Qed.
Lemma dmg_sign_eq f blob k : 512 <= zlen f -> dmg_parse_koly (zdrop (zlen f - 512) f) = Ok k ->
  let bundle := kget dmg_koly_idx_XMLOffset k + kget dmg_koly_idx_XMLLength k in
  let k1 := kset dmg_koly_idx_SignatureOffset bundle k in
  let k2 := kset dmg_koly_idx_SignatureLength (zlen blob) k1 in
  dmg_sign f blob =
    if negb (kget dmg_koly_idx_SignatureOffset k =? 0) && negb (kget dmg_koly_idx_SignatureOffset k =? bundle) then Err E_GAP
    else if (bundle <? 0) || (zlen f <? bundle) then Err E_PATCH
    else Ok (mkDS bundle (ztake bundle f) (dmg_marshal_koly (kset dmg_koly_idx_SignatureLength 0 k1)) bundle (zlen f - bundle)
                  (blob ++ dmg_marshal_koly k2) (ztake bundle f ++ blob ++ dmg_marshal_koly k2)).
Proof.
  intros Hl Hp. cbn zeta. unfold dmg_sign. rewrite (dmg_sign_pre_eq f k Hl Hp). cbn zeta.
  destruct (negb _ && negb _); [reflexivity|]. cbn [bind]. unfold dmg_sign_patch_off, dmg_sign_patch_old, dmg_sign_new_siglen, dmg_sign_order.
  rewrite kget_kset_other by idx. rewrite kget_kset_same by (rewrite (parse_koly_length _ _ Hp); idx).
  set (bundle := kget dmg_koly_idx_XMLOffset k + kget dmg_koly_idx_XMLLength k).
  replace ((bundle <? 0) || (zlen f - bundle <? 0) || (zlen f <? bundle + (zlen f - bundle))) with ((bundle <? 0) || (zlen f <? bundle)) by lia.
  destruct (_ || _) eqn:E; [reflexivity|]. rewrite (zdrop_all (bundle + (zlen f - bundle))) by lia. now rewrite app_nil_r.
Qed.

(* ---- dmg.Open on a file that has a trailer *)
Lemma dmg_open_eq f k : 512 <= zlen f -> dmg_parse_koly (zdrop (zlen f - 512) f) = Ok k ->
  let n := kget dmg_koly_idx_SignatureLength k in
  dmg_open f = if negb (kget dmg_koly_idx_Signature k =? 1802464377) then Err E_MAGIC
               else if n =? 0 then Ok (mkDO k [] [])
               else if (n <? 0) || (n >? 10000000) then Err E_TOOBIG
               else b <- go_readat f (kget dmg_koly_idx_SignatureOffset k) n ;; Ok (mkDO k b [n]).
Proof.
  intros Hl Hp. unfold dmg_open, dmg_open_seek. replace (zlen f + - 512 <? 0) with false by lia. replace (zlen f + - 512) with (zlen f - 512) by lia.
  rewrite Hp. cbn [bind]. unfold dmg_open_bad_magic, dmg_open_has_sig, dmg_open_sig_unreasonable, dmg_open_alloc, dmg_open_blob_at.
  destruct (negb _); [reflexivity|]. destruct (_ =? 0); [reflexivity|]. cbn [negb]. destruct (_ || _) eqn:E; [reflexivity|].
  now replace (kget dmg_koly_idx_SignatureLength k <? 0) with false by lia.
Qed.
(* such an image counts as unsigned exactly when the signature length is zero: a signature that Open reads has the declared length *)
Lemma extract_none f k : 512 <= zlen f -> dmg_parse_koly (zdrop (zlen f - 512) f) = Ok k -> kget dmg_koly_idx_Signature k = 1802464377 ->
  dmg_extract f = Ok None <-> kget dmg_koly_idx_SignatureLength k = 0.
Proof.
  intros Hl Hp Hmag. unfold dmg_extract, dmg_verify_unsigned. rewrite (dmg_open_eq f k Hl Hp), Hmag. cbn zeta. cbn [negb Z.eqb Pos.eqb].
  destruct (Z.eqb_spec (kget dmg_koly_idx_SignatureLength k) 0) as [E0|E0]; [now split|].
  destruct (_ || _) eqn:Eu; [now split|]. destruct (go_readat f _ _) as [b| |] eqn:Er; cbn [bind do_blob]; try now split.
  apply go_readat_zlen in Er; [|lia]. now replace (zlen b =? 0) with false by lia.
Qed.

(* ---- a signed layout: pre ++ blob ++ trailer, the trailer pointing at the blob right behind pre, pre ending with the property list *)
Record signed_layout (pre blob : bytes) (k2 : koly) : Prop := mkLayout {
  ly_ok : koly_ok k2;
  ly_magic : kget dmg_koly_idx_Signature k2 = 1802464377;
  ly_sigoff : kget dmg_koly_idx_SignatureOffset k2 = zlen pre;
  ly_bundle : kget dmg_koly_idx_XMLOffset k2 + kget dmg_koly_idx_XMLLength k2 = zlen pre;
  ly_siglen : kget dmg_koly_idx_SignatureLength k2 = zlen blob;
  ly_blob : 0 < zlen blob <= 10000000 }.

Section SignedLayout.
  Variables (pre blob : bytes) (k2 : koly).
  Hypothesis Hly : signed_layout pre blob k2.
  Let g := pre ++ blob ++ dmg_marshal_koly k2.

  Lemma layout_len : zlen g = zlen pre + zlen blob + 512.
  Proof. unfold g. rewrite !zlen_app, (marshal_koly_zlen _ (ly_ok _ _ _ Hly)). lia. Qed.
  Lemma layout_tail : zdrop (zlen g - 512) g = dmg_marshal_koly k2.
  Proof. unfold g. rewrite app_assoc. apply tail_of_app, marshal_koly_zlen, Hly. Qed.
  Lemma layout_trailer : dmg_parse_koly (zdrop (zlen g - 512) g) = Ok k2.
  Proof. rewrite layout_tail, <- (app_nil_r (dmg_marshal_koly k2)). apply koly_roundtrip, Hly. Qed.
  Lemma layout_blob : zslice (zlen pre) (zlen pre + zlen blob) g = blob.
  Proof. now apply zslice_app_mid. Qed.
  Lemma layout_pre : ztake (zlen pre) g = pre.
  Proof. apply ztake_app_exact. Qed.

  Lemma open_signed : dmg_open g = Ok (mkDO k2 blob [zlen blob]).
  Proof.
    destruct Hly as [Hk Hmag Hso Hbu Hsl Hbl]. pose proof (zlen_nonneg pre) as Hp0. pose proof layout_len as Hgl.
    rewrite (dmg_open_eq g k2 ltac:(lia) layout_trailer), Hmag, Hsl, Hso. cbn zeta. cbn [negb Z.eqb Pos.eqb].
    replace (zlen blob =? 0) with false by lia. replace ((zlen blob <? 0) || (zlen blob >? 10000000)) with false by lia.
    unfold g. now rewrite go_readat_mid.
  Qed.
  Lemma extract_signed : dmg_extract g = Ok (Some blob).
  Proof.
    unfold dmg_extract. rewrite open_signed. cbn [bind do_blob]. unfold dmg_verify_unsigned. pose proof (ly_blob _ _ _ Hly).
    now replace (zlen blob =? 0) with false by lia.
  Qed.
  Lemma hashin_signed : dmg_hashin g = Ok (pre ++ dmg_marshal_koly (kset dmg_koly_idx_SignatureLength 0 k2)).
  Proof.
    destruct Hly as [Hk Hmag Hso Hbu Hsl Hbl]. pose proof (zlen_nonneg pre) as Hp0. pose proof layout_len as Hgl.
    unfold dmg_hashin. rewrite (dmg_sign_pre_eq g k2 ltac:(lia) layout_trailer). cbn zeta. rewrite Hbu, Hso.
    replace (negb (zlen pre =? 0) && negb (zlen pre =? zlen pre)) with false by lia. cbn [bind].
    rewrite <- Hso, kset_kget, Hso, layout_pre by (rewrite (koly_ok_length _ Hk); idx). reflexivity.
  Qed.
  Lemma vhashin_signed : dmg_vhashin g = Ok (pre ++ dmg_marshal_koly (kset dmg_koly_idx_SignatureLength 0 k2)).
  Proof.
    unfold dmg_vhashin, dmg_verify_inputs. rewrite open_signed. cbn [bind do_blob do_koly]. destruct Hly as [Hk Hmag Hso Hbu Hsl Hbl].
    unfold dmg_verify_unsigned. replace (zlen blob =? 0) with false by lia. cbn [bind].
    unfold dmg_verify_pages_len, dmg_verify_pages_from, dmg_for_hashing, dmg_hashing_zeroes_siglen. rewrite Hbu.
    rewrite ztake_c_eq, zdrop_0. now rewrite layout_pre.
  Qed.
End SignedLayout.

(* every successful embedding (on the domain) produces a signed layout: the image cut at the end of its property list, the blob, the
   trailer with the two signature fields set *)
Lemma wf_shape f blob g : dmg_embed_wf f blob = Ok g ->
  exists k pre k2, dom_trailer f k /\ all_bytes blob = true /\
    pre = ztake (zlen pre) f /\ zlen pre = kget dmg_koly_idx_XMLOffset k + kget dmg_koly_idx_XMLLength k /\
    g = pre ++ blob ++ dmg_marshal_koly k2 /\ signed_layout pre blob k2 /\
    (forall i, i <> dmg_koly_idx_SignatureOffset -> i <> dmg_koly_idx_SignatureLength -> kget i k2 = kget i k) /\
    dmg_hashin f = Ok (pre ++ dmg_marshal_koly (kset dmg_koly_idx_SignatureLength 0 k2)).
Proof.
  unfold dmg_embed_wf, dmg_embed. destruct (dmg_dom f && dmg_blob_ok blob) eqn:Ed; [|discriminate].
  apply andb_true_iff in Ed as [Hd Hb]. destruct (dmg_blob_ok_spec blob Hb) as [Hbb Hbl].
  apply dmg_dom_spec in Hd as (k & Hdt). pose proof Hdt as [Hfb Hfl Hp Hk Hmag Hbd _ _ _].
  pose proof (koly_ok_length k Hk) as Hkl. rewrite (dmg_sign_eq f blob k Hfl Hp). cbn zeta.
  unfold dmg_hashin. rewrite (dmg_sign_pre_eq f k Hfl Hp). cbn zeta.
  set (bundle := kget dmg_koly_idx_XMLOffset k + kget dmg_koly_idx_XMLLength k) in *.
  destruct (negb _ && negb _); [discriminate|]. destruct (_ || _); cbn [bind]; [discriminate|]. intros [= <-].
  set (k1 := kset dmg_koly_idx_SignatureOffset bundle k). set (k2 := kset dmg_koly_idx_SignatureLength (zlen blob) k1).
  assert (Hzp : zlen (ztake bundle f) = bundle) by (apply zlen_ztake; lia).
  assert (Hoth : forall i, i <> dmg_koly_idx_SignatureOffset -> i <> dmg_koly_idx_SignatureLength -> kget i k2 = kget i k).
  { intros i H1 H2. unfold k2, k1. rewrite !kget_kset_other by congruence. reflexivity. }
  exists k, (ztake bundle f), k2. split; [assumption|]. split; [assumption|]. rewrite Hzp. repeat (split; [reflexivity|]). split; [|split; [assumption|]].
  - constructor; rewrite ?Hzp; try assumption.
    + apply koly_ok_set_siglen; [apply koly_ok_set_sigoff; [assumption|]|]; unfold int64_ok; lia.
    + rewrite Hoth by idx. assumption.
    + unfold k2. rewrite kget_kset_other by idx. apply kget_kset_same. rewrite Hkl. idx.
    + rewrite !Hoth by idx. reflexivity.
    + apply kget_kset_same. unfold k1. rewrite kset_length, Hkl. idx.
  - unfold k2. now rewrite kset_kset.
Qed.

(* C01: law_extract *)
Lemma dmg_law_extract f blob g : dmg_embed_wf f blob = Ok g -> dmg_extract g = Ok (Some blob).
Proof. intros (k & pre & k2 & _ & _ & _ & _ & -> & Hly & _)%wf_shape. now apply extract_signed. Qed.
(* C01 + C08: law_hashin: the digest input ignores the signature just written (and any signature that was there) *)
Lemma dmg_law_hashin f blob g : dmg_embed_wf f blob = Ok g -> dmg_hashin g = dmg_hashin f.
Proof. intros (k & pre & k2 & _ & _ & _ & _ & -> & Hly & _ & ->)%wf_shape. now apply hashin_signed. Qed.
(* C08: the signed image is in the domain again *)
Lemma signed_dom f k pre blob k2 : dom_trailer f k -> all_bytes blob = true -> pre = ztake (zlen pre) f -> signed_layout pre blob k2 ->
  (forall i, i <> dmg_koly_idx_SignatureOffset -> i <> dmg_koly_idx_SignatureLength -> kget i k2 = kget i k) ->
  dom_trailer (pre ++ blob ++ dmg_marshal_koly k2) k2.
Proof.
  intros [Hfb Hfl Hp Hk Hmag Hbd Hf1 Hf2 Hf3] Hbb Hpre Hly Hoth. pose proof (ly_blob _ _ _ Hly). pose proof (ly_bundle _ _ _ Hly) as Hbu.
  rewrite !Hoth in Hbu by idx. constructor; try apply Hly; rewrite ?Hoth by idx; try assumption.
  - rewrite !all_bytes_app, Hbb, marshal_koly_bytes, Hpre. now rewrite all_bytes_ztake.
  - rewrite (layout_len _ _ _ Hly). lia.
  - now apply layout_trailer.
  - rewrite (layout_len _ _ _ Hly). lia.
Qed.

(* ---- the trailer, field by field, as the specification reader sees it *)
(* tb is a trailer of bytes that relic parses as k *)
Definition parsed (tb : bytes) (k : koly) : Prop := all_bytes tb = true /\ zlen tb = 512 /\ dmg_parse_koly tb = Ok k.
Lemma marshal_parsed k : koly_ok k -> parsed (dmg_marshal_koly k) k.
Proof.
  intros Hk. split; [apply marshal_koly_bytes|]. split; [now apply marshal_koly_zlen|].
  rewrite <- (app_nil_r (dmg_marshal_koly k)). now apply koly_roundtrip.
Qed.
Lemma dom_parsed f k : dom_trailer f k -> parsed (zdrop (zlen f - 512) f) k.
Proof. intros [Hfb Hfl Hp _ _ _ _ _ _]. split; [now apply all_bytes_zdrop|]. split; [rewrite zlen_zdrop; lia|exact Hp]. Qed.

Lemma nth_blank_parts ws : forall bl parts j, nth j bl 1 = 0 -> (j < length ws)%nat -> (j < length parts)%nat ->
  nth j (blank_parts ws bl parts) [] = nth j parts [].
Proof.
  induction ws as [|w ws IH]; intros bl parts j Hb Hw Hp; [cbn [length] in Hw; lia|].
  destruct bl as [|x bl]; [destruct j; cbn in Hb; lia|]. destruct parts as [|p parts]; [cbn [length] in Hp; lia|].
  destruct j as [|j]; cbn [blank_parts nth] in *; [now subst x|]. cbn [length] in Hw, Hp. apply IH; [assumption|lia|lia].
Qed.
Lemma slices_length b : length (spec_koly_slices b) = 23%nat.
Proof. reflexivity. Qed.

(* relic's field j of a parsed trailer is the decoding of the bytes at the published position of field j *)
Lemma parse_kget tb k j : dmg_parse_koly tb = Ok k -> nth j dmg_koly_blank 1 = 0 -> (j < 23)%nat ->
  kget j k = dec_field (nth j dmg_koly_signed 0) (nth j (spec_koly_slices tb) []).
Proof.
  intros [_ ->]%parse_koly_inv Hb Hj. unfold kget, koly_named. fold (named dmg_koly_blank (dec_fields dmg_koly_signed (split_w dmg_koly_widths tb))).
  rewrite nth_named; [|assumption|rewrite dec_fields_length by (now rewrite split_w_length); exact Hj].
  rewrite nth_dec_fields; [|exact Hj|rewrite split_w_length; exact Hj]. now rewrite koly_positions.
Qed.
Lemma slice_part_bytes tb j : all_bytes tb = true -> all_bytes (nth j (spec_koly_slices tb) []) = true.
Proof. rewrite <- koly_positions. apply nth_split_w_bytes. Qed.
Lemma slice_part_len tb j : zlen tb = 512 -> (j < 23)%nat -> zlen (nth j (spec_koly_slices tb) []) = nth j dmg_koly_widths 0.
Proof. intros Hl Hj. rewrite <- koly_positions. apply nth_split_w_zlen; [apply koly_widths_pos|now rewrite Hl|exact Hj]. Qed.
Lemma slice_part_pos tb j : zlen tb = 512 -> (j < 23)%nat -> 1 <= zlen (nth j (spec_koly_slices tb) []).
Proof. intros Hl Hj. rewrite slice_part_len by assumption. apply widths_pos_nth; [apply koly_widths_pos|exact Hj]. Qed.
(* the bytes of a named field are the encoding of the value relic holds *)
Lemma parsed_part tb k j : parsed tb k -> nth j dmg_koly_blank 1 = 0 -> (j < 23)%nat ->
  nth j (spec_koly_slices tb) [] = enc_field (nth j dmg_koly_widths 0) (kget j k).
Proof.
  intros (Hb & Hl & Hp) Hbl Hj. rewrite (parse_kget tb k j Hp Hbl Hj), <- (slice_part_len tb j Hl Hj). symmetry.
  apply enc_dec_field; [now apply slice_part_bytes|now apply slice_part_pos].
Qed.
(* a field that relic reads as a non-negative number is read as the same number by the specification reader; as zero by both or by neither *)
Lemma kget_unsigned tb k j : parsed tb k -> nth j dmg_koly_blank 1 = 0 -> (j < 23)%nat -> 0 <= kget j k ->
  be_dec (nth j (spec_koly_slices tb) []) = kget j k.
Proof.
  intros (Hb & Hl & Hp) Hbl Hj. rewrite (parse_kget tb k j Hp Hbl Hj). intros Hn. symmetry.
  apply dec_field_nonneg; [now apply slice_part_bytes|now apply slice_part_pos|exact Hn].
Qed.
Lemma kget_zero tb k j : parsed tb k -> nth j dmg_koly_blank 1 = 0 -> (j < 23)%nat ->
  kget j k = 0 <-> be_dec (nth j (spec_koly_slices tb) []) = 0.
Proof.
  intros (Hb & Hl & Hp) Hbl Hj. rewrite (parse_kget tb k j Hp Hbl Hj). apply dec_field_zero; [now apply slice_part_bytes|now apply slice_part_pos].
Qed.
(* the specification reader accepts whatever relic parses with the koly magic *)
Lemma spec_trailer_parsed f k : 512 <= zlen f -> dmg_parse_koly (zdrop (zlen f - 512) f) = Ok k -> kget dmg_koly_idx_Signature k = 1802464377 ->
  spec_dmg_trailer f = let p := spec_koly_slices (zdrop (zlen f - 512) f) in
    Some (mkSK p 1802464377 (be_dec (nth 5 p [])) (be_dec (nth 6 p [])) (be_dec (nth 7 p [])) (be_dec (nth 8 p []))
               (be_dec (nth 13 p [])) (be_dec (nth 14 p [])) (be_dec (nth 16 p [])) (be_dec (nth 17 p []))).
Proof.
  intros Hl Hp Hmag. unfold spec_dmg_trailer, spec_read_koly. replace (zlen f <? 512) with false by lia.
  rewrite zlen_zdrop by lia. replace (zlen f - (zlen f - 512) =? 512) with true by lia. cbn [negb].
  replace (be_dec (nth 0 (spec_koly_slices (zdrop (zlen f - 512) f)) [])) with 1802464377; [reflexivity|].
  rewrite <- Hmag. apply (parse_kget _ k 0 Hp eq_refl). lia.
Qed.

(* ---- C03 *)
(* the payload of an image in the domain, in terms of the trailer relic parses *)
Lemma spec_payload_dom f k : dom_trailer f k ->
  spec_dmg_payload f =
    Ok (mkDI (spec_range f (kget dmg_koly_idx_DataForkOffset k) (kget dmg_koly_idx_DataForkLength k))
             (spec_range f (kget dmg_koly_idx_ResourceForkOffset k) (kget dmg_koly_idx_ResourceForkLength k))
             (spec_range f (kget dmg_koly_idx_XMLOffset k) (kget dmg_koly_idx_XMLLength k))
             (map (fun i => nth i (spec_koly_slices (zdrop (zlen f - 512) f)) []) spec_koly_kept)).
Proof.
  intros Hdt. pose proof (dom_parsed f k Hdt) as Hpa. destruct Hdt as [_ Hfl Hp _ Hmag _ Hf1 Hf2 Hf3].
  unfold spec_dmg_payload. rewrite (spec_trailer_parsed f k Hfl Hp Hmag). cbn zeta. cbn [sk_dataoff sk_datalen sk_rsrcoff sk_rsrclen sk_xmloff sk_xmllen sk_slices].
  unfold fork_in, dmg_koly_idx_DataForkOffset, dmg_koly_idx_DataForkLength, dmg_koly_idx_ResourceForkOffset, dmg_koly_idx_ResourceForkLength,
    dmg_koly_idx_XMLOffset, dmg_koly_idx_XMLLength in *.
  now rewrite !(kget_unsigned _ k) by (assumption || reflexivity || lia).
Qed.
(* what lies in front of the end of the property list is found in the signed image where it was *)
Lemma spec_range_signed (f pre blob t : bytes) off len : pre = ztake (zlen pre) f -> zlen pre <= zlen f - 512 -> zlen t = 512 ->
  fork_in off len (zlen pre) = true -> spec_range (pre ++ blob ++ t) off len = spec_range f off len.
Proof.
  intros Hpre Hb Ht Hf. unfold fork_in in Hf. unfold spec_range. rewrite !zlen_app, Ht. pose proof (zlen_nonneg blob).
  replace ((off <? 0) || (len <? 0) || (zlen pre + (zlen blob + 512) - 512 <? off + len)) with false by lia.
  replace ((off <? 0) || (len <? 0) || (zlen f - 512 <? off + len)) with false by lia.
  f_equal. rewrite zslice_app_l, Hpre by lia. apply zslice_ztake; lia.
Qed.
(* a named field with the same value in two trailers has the same bytes in both *)
Lemma same_part tb1 k1 tb2 k2 j : parsed tb1 k1 -> parsed tb2 k2 -> nth j dmg_koly_blank 1 = 0 -> (j < 23)%nat -> kget j k1 = kget j k2 ->
  nth j (spec_koly_slices tb1) [] = nth j (spec_koly_slices tb2) [].
Proof. intros H1 H2 Hb Hj He. now rewrite (parsed_part tb1 k1), (parsed_part tb2 k2), He. Qed.
(* the fields the payload keeps are named fields other than the two signature fields: a fact about the fixed tables *)
Lemma kept_fields j : In j spec_koly_kept ->
  (j < 23)%nat /\ nth j dmg_koly_blank 1 = 0 /\ j <> dmg_koly_idx_SignatureOffset /\ j <> dmg_koly_idx_SignatureLength.
Proof.
  intros Hin. apply (proj1 (forallb_forall (fun j => (j <? 23)%nat && (nth j dmg_koly_blank 1 =? 0) && negb (j =? 16)%nat && negb (j =? 17)%nat) spec_koly_kept) eq_refl) in Hin.
  idx.
Qed.

(* C03: law_payload *)
Lemma dmg_law_payload f blob g : dmg_embed_wf f blob = Ok g -> spec_dmg_payload g = spec_dmg_payload f.
Proof.
  intros (k & pre & k2 & Hdt & Hbb & Hpre & Hzp & -> & Hly & Hoth & _)%wf_shape.
  pose proof (signed_dom f k pre blob k2 Hdt Hbb Hpre Hly Hoth) as Hdt2.
  rewrite (spec_payload_dom f k Hdt), (spec_payload_dom _ k2 Hdt2), !Hoth by idx.
  pose proof Hdt as [_ _ _ _ _ [Hbd _] Hf1 Hf2 Hf3]. rewrite <- Hzp in Hbd, Hf1, Hf2, Hf3. pose proof (marshal_koly_zlen _ (ly_ok _ _ _ Hly)) as Htl.
  do 2 f_equal; try (apply spec_range_signed; assumption || lia).
  apply map_ext_in. intros j (? & ? & ? & ?)%kept_fields. apply (same_part _ k2 _ k); auto using dom_parsed.
Qed.

(* ---- C02: what the code signature's digest input pins down *)
Lemma app_inv_len_tail {A} (a b c d : list A) : a ++ b = c ++ d -> length b = length d -> a = c /\ b = d.
Proof. intros He Hl. apply app_inv_length; [exact He|]. apply (f_equal (@length A)) in He. rewrite !app_length in He. lia. Qed.
Lemma open_koly g o : dmg_open g = Ok o -> dmg_parse_koly (zdrop (zlen g + dmg_open_seek) g) = Ok (do_koly o).
Proof.
  unfold dmg_open. destruct (zlen g + dmg_open_seek <? 0); [discriminate|]. destruct (dmg_parse_koly _) as [k| |]; cbn [bind]; try discriminate.
  destruct (dmg_open_bad_magic _); [discriminate|]. destruct (dmg_open_has_sig _); [|now intros [= <-]].
  destruct (dmg_open_sig_unreasonable _); [discriminate|]. destruct (_ <? 0); [discriminate|].
  destruct (go_readat _ _ _); cbn [bind]; try discriminate. now intros [= <-].
Qed.
Lemma vhashin_shape g p : dmg_vhashin g = Ok p ->
  exists k, dmg_parse_koly (zdrop (zlen g + dmg_open_seek) g) = Ok k /\
    p = ztake (kget dmg_koly_idx_XMLOffset k + kget dmg_koly_idx_XMLLength k) g ++ dmg_marshal_koly (kset dmg_koly_idx_SignatureLength 0 k).
Proof.
  unfold dmg_vhashin, dmg_verify_inputs. destruct (dmg_open g) as [o| |] eqn:Ho; cbn [bind]; try discriminate.
  destruct (dmg_verify_unsigned _); cbn [bind]; [discriminate|]. intros [= <-]. exists (do_koly o). split; [now apply open_koly|].
  now rewrite ztake_c_eq.
Qed.
Lemma dmg_protect g1 g2 p : all_bytes g1 = true -> all_bytes g2 = true -> dmg_vhashin g1 = Ok p -> dmg_vhashin g2 = Ok p ->
  exists k1 k2, dmg_parse_koly (zdrop (zlen g1 + dmg_open_seek) g1) = Ok k1 /\ dmg_parse_koly (zdrop (zlen g2 + dmg_open_seek) g2) = Ok k2 /\
    (forall i, i <> dmg_koly_idx_SignatureLength -> kget i k1 = kget i k2) /\
    let n := kget dmg_koly_idx_XMLOffset k1 + kget dmg_koly_idx_XMLLength k1 in ztake n g1 = ztake n g2.
Proof.
  intros Hb1 Hb2 H1 H2. destruct (vhashin_shape g1 p H1) as (k1 & Hp1 & E1). destruct (vhashin_shape g2 p H2) as (k2 & Hp2 & E2).
  assert (Hz : forall g k, all_bytes g = true -> dmg_parse_koly (zdrop (zlen g + dmg_open_seek) g) = Ok k -> koly_ok (kset dmg_koly_idx_SignatureLength 0 k)).
  { intros g k Hb Hp. apply koly_ok_set_siglen; [eapply parse_koly_ok; [apply all_bytes_zdrop|]; eassumption|unfold int64_ok; lia]. }
  pose proof (Hz g1 k1 Hb1 Hp1) as Hz1. pose proof (Hz g2 k2 Hb2 Hp2) as Hz2.
  (* the trailer part has a fixed length, so the two digest inputs split at the same place *)
  rewrite E1 in E2. apply app_inv_len_tail in E2 as [Hpages Hrep].
  2:{ pose proof (marshal_koly_zlen _ Hz1) as L1. pose proof (marshal_koly_zlen _ Hz2) as L2. unfold zlen in L1, L2. lia. }
  apply marshal_koly_inj in Hrep; try assumption.
  assert (Hall : forall i, i <> dmg_koly_idx_SignatureLength -> kget i k1 = kget i k2).
  { intros i Hi. rewrite <- (kget_kset_other dmg_koly_idx_SignatureLength i 0 k1) by congruence. rewrite Hrep. apply kget_kset_other. congruence. }
  exists k1, k2. split; [assumption|]. split; [assumption|]. split; [assumption|]. cbn zeta.
  rewrite (Hall dmg_koly_idx_XMLOffset), (Hall dmg_koly_idx_XMLLength) in Hpages by idx.
  rewrite (Hall dmg_koly_idx_XMLOffset), (Hall dmg_koly_idx_XMLLength) by idx. exact Hpages.
Qed.

(* ---- the format handed to Laws/Pipeline.v *)
From Relic Require Import Laws.Pipeline.
Definition dmg_format : format dmg_items := mkFormat dmg_items dmg_hashin dmg_embed_wf dmg_extract spec_dmg_payload.
Theorem dmg_law_extract_F : law_extract dmg_items dmg_format.
Proof. exact dmg_law_extract. Qed.
Theorem dmg_law_hashin_F : law_hashin dmg_items dmg_format.
Proof. exact dmg_law_hashin. Qed.
Theorem dmg_law_payload_F : law_payload dmg_items dmg_format.
Proof. exact dmg_law_payload. Qed.

(* a well-formed trailer value: "koly", version 4, 512 bytes, one segment; data fork [dataoff, +datalen), property list [xmloff, +xmllen) *)
Definition w_koly (dataoff datalen xmloff xmllen sigoff siglen : Z) : koly :=
  [1802464377; 4; 512; 1; 0; dataoff; datalen; 0; 0; 1; 1; 0; 0; xmloff; xmllen; 0; sigoff; siglen; 0; 0; 1; 8; 0].
(* the usual layout: 3 bytes of data fork, 2 bytes of property list, trailer *)
Definition w_dmg : bytes := [1; 2; 3] ++ [60; 62] ++ dmg_marshal_koly (w_koly 0 3 3 2 0 0).
(* the property list IN FRONT of the data fork (the trailer gives independent offsets; no Apple tool writes this) *)
Definition w_dmg_xml_first : bytes := [60; 62] ++ [1; 2; 3] ++ dmg_marshal_koly (w_koly 2 3 0 2 0 0).
