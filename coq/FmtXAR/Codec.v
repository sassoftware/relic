(* FmtXAR/Codec.v — lemmas about the big-endian struct codec of FmtXAR/Model.v (encoding/binary over fixed-width fields) and about
   its make / ReadAt. *)
From Relic Require Import Base.Prelude Base.Enc Base.Slice Generated.FmtXAR_gen FmtXAR.Model.

Lemma pow256 w : 0 <= w -> 256 ^ w = 2 ^ (8 * w).
Proof. intros H. rewrite Z.pow_mul_r by lia. reflexivity. Qed.
Lemma pow2_split n : 1 <= n -> 2 ^ n = 2 * 2 ^ (n - 1) /\ 0 < 2 ^ (n - 1).
Proof.
  intros H. split; [|apply Z.pow_pos_nonneg; lia]. replace n with (Z.succ (n - 1)) at 1 by lia. apply Z.pow_succ_r. lia.
Qed.

Lemma le_enc_mod w v : le_enc w v = le_enc w (v mod 256 ^ Z.of_nat w).
Proof.
  revert v. induction w as [|w IH]; intros v; [reflexivity|].
  rewrite Nat2Z.inj_succ, Z.pow_succ_r by lia. set (M := 256 ^ Z.of_nat w).
  assert (HM : 0 < M) by (unfold M; apply Z.pow_pos_nonneg; lia).
  cbn [le_enc]. f_equal.
  - rewrite Z.rem_mul_r by lia. rewrite (Z.mul_comm 256 ((v / 256) mod M)), Z_mod_plus_full. now rewrite Z.mod_mod by lia.
  - rewrite (IH (v / 256)). rewrite (IH ((v mod (256 * M)) / 256)). f_equal. fold M.
    rewrite Z.rem_mul_r by lia.
    replace ((v mod 256 + 256 * ((v / 256) mod M)) / 256) with ((v / 256) mod M).
    + now rewrite Z.mod_mod by lia.
    + rewrite (Z.mul_comm 256 ((v / 256) mod M)), Z.div_add by lia.
      rewrite (Z.div_small (v mod 256)) by (apply Z.mod_pos_bound; lia). lia.
Qed.
Lemma be_enc_mod w v : be_enc w v = be_enc w (v mod 256 ^ Z.of_nat w).
Proof. unfold be_enc. now rewrite le_enc_mod. Qed.
Lemma be_enc_shift w v k : be_enc w (v + k * 256 ^ Z.of_nat w) = be_enc w v.
Proof. rewrite be_enc_mod, Z_mod_plus_full, <- be_enc_mod. reflexivity. Qed.

Lemma be_enc_zero w : be_enc w 0 = repeat 0 w.
Proof.
  unfold be_enc. replace (le_enc w 0) with (repeat 0 w).
  - induction w as [|w IH]; [reflexivity|]. cbn [repeat rev]. rewrite IH. symmetry. apply repeat_cons.
  - induction w as [|w IH]; [reflexivity|]. cbn [le_enc repeat]. now rewrite Z.mod_0_l, Z.div_0_l, <- IH by lia.
Qed.
(* an unsigned value against the half range that decides its sign *)
Lemma be_dec_half p : all_bytes p = true -> 1 <= zlen p ->
  0 < 2 ^ (8 * zlen p - 1) /\ 2 ^ (8 * zlen p) = 2 * 2 ^ (8 * zlen p - 1) /\ 0 <= be_dec p < 2 ^ (8 * zlen p).
Proof.
  intros Hb Hl. destruct (pow2_split (8 * zlen p)) as [Hp Hq]; [lia|]. pose proof (be_dec_range p Hb) as Hr. rewrite pow256 in Hr by lia. auto.
Qed.

Lemma enc_field_zlen w v : 0 <= w -> zlen (enc_field w v) = w.
Proof. intros H. unfold enc_field. rewrite be_enc_zlen. lia. Qed.
Lemma enc_field_bytes w v : all_bytes (enc_field w v) = true.
Proof. apply be_enc_bytes. Qed.

(* in-range values of a field: unsigned 0 <= v < 2^(8w), signed -2^(8w-1) <= v < 2^(8w-1) *)
Definition field_ok (w sg v : Z) : Prop :=
  if sg =? 1 then - 2 ^ (8 * w - 1) <= v < 2 ^ (8 * w - 1) else 0 <= v < 2 ^ (8 * w).

Lemma field_ok_zero w sg : 1 <= w -> field_ok w sg 0.
Proof. intros Hw. destruct (pow2_split (8 * w)) as [Hp Hq]; [lia|]. unfold field_ok. destruct (sg =? 1); lia. Qed.

Lemma dec_enc_field w sg v : 1 <= w -> field_ok w sg v -> dec_field sg (enc_field w v) = v.
Proof.
  intros Hw Hok. unfold dec_field, field_ok in *. rewrite enc_field_zlen by lia. unfold enc_field.
  rewrite be_dec_enc_mod. rewrite Z2Nat.id by lia. rewrite pow256 by lia.
  destruct (pow2_split (8 * w)) as [Hp Hq]; [lia|].
  destruct (sg =? 1).
  - unfold to_signed. destruct (Z_lt_ge_dec v 0) as [Hn|Hn].
    + replace (v mod 2 ^ (8 * w)) with (v + 2 ^ (8 * w)).
      * destruct (v + 2 ^ (8 * w) <? 2 ^ (8 * w - 1)) eqn:E; lia.
      * symmetry. rewrite <- (Z_mod_plus_full v 1). rewrite Z.mod_small; lia.
    + rewrite Z.mod_small by lia. destruct (v <? 2 ^ (8 * w - 1)) eqn:E; lia.
  - apply Z.mod_small. lia.
Qed.

Lemma enc_dec_field sg p : all_bytes p = true -> 1 <= zlen p -> enc_field (zlen p) (dec_field sg p) = p.
Proof.
  intros Hb Hl. unfold enc_field, dec_field.
  assert (Hn : Z.to_nat (zlen p) = length p) by (unfold zlen; lia).
  destruct (sg =? 1).
  - unfold to_signed. destruct (be_dec p <? 2 ^ (8 * zlen p - 1)).
    + rewrite Hn. now apply be_enc_dec.
    + replace (be_dec p - 2 ^ (8 * zlen p)) with (be_dec p + (-1) * 256 ^ Z.of_nat (Z.to_nat (zlen p))).
      * rewrite be_enc_shift. rewrite Hn. now apply be_enc_dec.
      * rewrite Z2Nat.id by lia. rewrite pow256 by lia. lia.
  - rewrite Hn. now apply be_enc_dec.
Qed.

Lemma dec_field_ok sg p : all_bytes p = true -> 1 <= zlen p -> field_ok (zlen p) sg (dec_field sg p).
Proof.
  intros Hb Hl. destruct (be_dec_half p Hb Hl) as (Hq & Hp & Hr). unfold field_ok, dec_field, to_signed.
  destruct (sg =? 1); [|lia]. destruct (be_dec p <? _) eqn:E; lia.
Qed.
(* a field read as a signed number: the unsigned value when it is not negative, and zero exactly when the unsigned value is *)
Lemma dec_field_nonneg sg p : all_bytes p = true -> 1 <= zlen p -> 0 <= dec_field sg p -> dec_field sg p = be_dec p.
Proof.
  intros Hb Hl. destruct (be_dec_half p Hb Hl) as (Hq & Hp & Hr). unfold dec_field, to_signed.
  destruct (sg =? 1); [|reflexivity]. destruct (be_dec p <? _) eqn:E; lia.
Qed.
Lemma dec_field_zero sg p : all_bytes p = true -> 1 <= zlen p -> dec_field sg p = 0 <-> be_dec p = 0.
Proof.
  intros Hb Hl. destruct (be_dec_half p Hb Hl) as (Hq & Hp & Hr). unfold dec_field, to_signed.
  destruct (sg =? 1); [|reflexivity]. destruct (be_dec p <? _) eqn:E; lia.
Qed.

(* ---- structs *)
Lemma split_w_cons w ws a rest : zlen a = w -> split_w (w :: ws) (a ++ rest) = a :: split_w ws rest.
Proof. intros Hl. cbn [split_w]. now rewrite ztake_app_len, zdrop_app_len. Qed.

Inductive fields_ok : list Z -> list Z -> list Z -> Prop :=
| fok_nil : fields_ok [] [] []
| fok_cons w ws sg sgs v vs : 1 <= w -> field_ok w sg v -> fields_ok ws sgs vs -> fields_ok (w :: ws) (sg :: sgs) (v :: vs).

Lemma fields_ok_length ws sgs vs : fields_ok ws sgs vs -> length vs = length ws /\ length sgs = length ws.
Proof. induction 1 as [|? ? ? ? ? ? _ _ _ [IH1 IH2]]; cbn; split; lia. Qed.

Lemma read_write_struct ws sgs vs rest : fields_ok ws sgs vs ->
  dec_fields sgs (split_w ws (enc_fields ws vs ++ rest)) = vs.
Proof.
  induction 1 as [|w ws sg sgs v vs Hw Hok _ IH]; [reflexivity|].
  cbn [enc_fields]. rewrite <- app_assoc. rewrite split_w_cons by (apply enc_field_zlen; lia).
  cbn [dec_fields]. rewrite dec_enc_field by assumption. f_equal. exact IH.
Qed.
Lemma enc_fields_zlen ws sgs vs : fields_ok ws sgs vs -> zlen (enc_fields ws vs) = zsum ws.
Proof.
  induction 1 as [|w ws sg sgs v vs Hw _ _ IH]; [reflexivity|].
  cbn [enc_fields zsum]. rewrite zlen_app, enc_field_zlen by lia. lia.
Qed.
Lemma enc_fields_bytes ws vs : all_bytes (enc_fields ws vs) = true.
Proof.
  revert vs. induction ws as [|w ws IH]; intros [|v vs]; try reflexivity.
  cbn [enc_fields]. rewrite all_bytes_app, enc_field_bytes, IH. reflexivity.
Qed.
Lemma go_read_write ws sgs vs size rest : fields_ok ws sgs vs -> size = zsum ws ->
  go_read_struct ws sgs size (enc_fields ws vs ++ rest) = Ok vs.
Proof.
  intros H Hs. unfold go_read_struct. rewrite zlen_app, (enc_fields_zlen _ _ _ H), Hs.
  pose proof (zlen_nonneg rest). destruct (zsum ws + zlen rest <? zsum ws) eqn:E; [lia|].
  now rewrite read_write_struct.
Qed.

Lemma go_read_struct_no_panic ws sgs size b p : go_read_struct ws sgs size b <> Panic p.
Proof. unfold go_read_struct. destruct (_ <? _); discriminate. Qed.

(* the other direction: writing back what was read reproduces the bytes, field by field *)
Fixpoint widths_pos (ws : list Z) : Prop := match ws with [] => True | w :: r => 1 <= w /\ widths_pos r end.
Lemma widths_pos_zsum ws : widths_pos ws -> 0 <= zsum ws.
Proof. induction ws as [|w ws IH]; cbn [widths_pos zsum]; [lia|]. intros [Hw Hp]. specialize (IH Hp). lia. Qed.
Lemma write_read_struct ws : forall sgs b, widths_pos ws -> length sgs = length ws -> all_bytes b = true -> zsum ws <= zlen b ->
  enc_fields ws (dec_fields sgs (split_w ws b)) = ztake (zsum ws) b.
Proof.
  induction ws as [|w ws IH]; intros sgs b Hp Hl Hb Hlen; [reflexivity|].
  destruct sgs as [|sg sgs]; [discriminate|]. destruct Hp as [Hw Hp]. pose proof (widths_pos_zsum ws Hp) as Hz. cbn [zsum] in *.
  cbn [split_w dec_fields enc_fields].
  assert (Htl : zlen (ztake w b) = w) by (apply zlen_ztake; lia).
  rewrite <- Htl at 1. rewrite enc_dec_field by (try apply all_bytes_ztake; try lia; assumption).
  rewrite IH; try assumption; [|cbn in Hl; lia|now apply all_bytes_zdrop|rewrite zlen_zdrop by lia; lia].
  rewrite <- (ztake_zdrop w b) at 3. rewrite ztake_app_r by lia. rewrite Htl. do 2 f_equal. lia.
Qed.
Lemma dec_fields_ok ws : forall sgs b, widths_pos ws -> length sgs = length ws -> all_bytes b = true -> zsum ws <= zlen b ->
  fields_ok ws sgs (dec_fields sgs (split_w ws b)).
Proof.
  induction ws as [|w ws IH]; intros sgs b Hp Hl Hb Hlen.
  - destruct sgs; [constructor|discriminate].
  - destruct sgs as [|sg sgs]; [discriminate|]. destruct Hp as [Hw Hp]. pose proof (widths_pos_zsum ws Hp) as Hz. cbn [zsum] in *.
    cbn [split_w dec_fields]. constructor; [lia| |].
    + assert (Htl : zlen (ztake w b) = w) by (apply zlen_ztake; lia).
      rewrite <- Htl at 1. apply dec_field_ok; [now apply all_bytes_ztake|lia].
    + apply IH; try assumption; [cbn in Hl; lia|now apply all_bytes_zdrop|rewrite zlen_zdrop by lia; lia].
Qed.

(* ---- the parts by position: part i is the slice that starts at the sum of the widths in front of it *)
Fixpoint slices_at (a : Z) (ws : list Z) (b : bytes) : list bytes :=
  match ws with [] => [] | w :: r => zslice a (a + w) b :: slices_at (a + w) r b end.
Lemma split_w_slices_from ws : forall a b, 0 <= a -> widths_pos ws -> split_w ws (zdrop a b) = slices_at a ws b.
Proof.
  induction ws as [|w ws IH]; intros a b Ha Hp; [reflexivity|]. destruct Hp as [Hw Hp].
  cbn [split_w slices_at]. rewrite zdrop_zdrop, (Z.add_comm w a), IH by (assumption || lia). unfold zslice. do 2 f_equal. lia.
Qed.
Lemma split_w_slices ws b : widths_pos ws -> split_w ws b = slices_at 0 ws b.
Proof. intros H. rewrite <- (zdrop_0 b) at 1. now apply split_w_slices_from. Qed.

(* reading a struct looks at the first zsum ws bytes only *)
Lemma split_w_ztake ws : forall n b, widths_pos ws -> zsum ws <= n -> split_w ws (ztake n b) = split_w ws b.
Proof.
  induction ws as [|w ws IH]; intros n b Hp Hn; [reflexivity|]. destruct Hp as [Hw Hp]. pose proof (widths_pos_zsum ws Hp). cbn [zsum] in Hn.
  cbn [split_w]. rewrite ztake_ztake, zdrop_ztake, IH by (assumption || lia). now rewrite Z.min_l by lia.
Qed.
Lemma go_read_struct_prefix ws sgs size b : widths_pos ws -> zsum ws <= size ->
  go_read_struct ws sgs size (ztake size b) = go_read_struct ws sgs size b.
Proof.
  intros Hp Hs. pose proof (widths_pos_zsum ws Hp). unfold go_read_struct. rewrite zlen_ztake_min, split_w_ztake by (assumption || lia).
  now replace (Z.min size (zlen b) <? size) with (zlen b <? size) by lia.
Qed.

(* ---- the j-th part, the j-th decoded field *)
Lemma split_w_length ws b : length (split_w ws b) = length ws.
Proof. revert b. induction ws as [|w ws IH]; intros b; [reflexivity|]. cbn [split_w length]. now rewrite IH. Qed.
Lemma dec_fields_length sgs : forall parts, length sgs = length parts -> length (dec_fields sgs parts) = length sgs.
Proof.
  induction sgs as [|sg sgs IH]; intros [|p parts] H; try discriminate; [reflexivity|].
  cbn [dec_fields length]. rewrite IH; [reflexivity|]. cbn [length] in H. lia.
Qed.
Lemma nth_dec_fields sgs : forall parts j, (j < length sgs)%nat -> (j < length parts)%nat ->
  nth j (dec_fields sgs parts) 0 = dec_field (nth j sgs 0) (nth j parts []).
Proof.
  induction sgs as [|sg sgs IH]; intros [|p parts] j Hs Hp; cbn [length] in *; try lia. destruct j as [|j]; [reflexivity|].
  cbn [dec_fields nth]. apply IH; lia.
Qed.
Lemma widths_pos_nth ws : forall j, widths_pos ws -> (j < length ws)%nat -> 1 <= nth j ws 0.
Proof. induction ws as [|w ws IH]; intros j Hp Hj; cbn [length] in Hj; [lia|]. destruct Hp as [Hw Hp]. destruct j; [exact Hw|]. apply IH; [assumption|lia]. Qed.
Lemma nth_split_w_zlen ws : forall b j, widths_pos ws -> zsum ws <= zlen b -> (j < length ws)%nat -> zlen (nth j (split_w ws b) []) = nth j ws 0.
Proof.
  induction ws as [|w ws IH]; intros b j Hp Hl Hj; cbn [length] in Hj; [lia|]. destruct Hp as [Hw Hp]. pose proof (widths_pos_zsum ws Hp).
  cbn [zsum] in Hl. destruct j as [|j]; cbn [split_w nth]; [apply zlen_ztake; lia|]. apply IH; [assumption|rewrite zlen_zdrop; lia|lia].
Qed.
Lemma nth_split_w_bytes ws : forall b j, all_bytes b = true -> all_bytes (nth j (split_w ws b) []) = true.
Proof.
  induction ws as [|w ws IH]; intros b j Hb; [now destruct j|]. destruct j as [|j]; cbn [split_w nth]; [now apply all_bytes_ztake|].
  now apply IH, all_bytes_zdrop.
Qed.

Lemma ztake_c_eq {A} n (l : list A) : ztake_c n l = ztake n l.
Proof.
  unfold ztake_c. destruct (Z_le_gt_dec n (zlen l)) as [H|H].
  - now rewrite Z.min_l by lia.
  - rewrite Z.min_r by lia. rewrite !ztake_all by lia. reflexivity.
Qed.

Lemma zeros_zlen n : 0 <= n -> zlen (zeros n) = n.
Proof. intros H. unfold zeros. rewrite zlen_repeat. lia. Qed.
Lemma all_bytes_zeros n : all_bytes (zeros n) = true.
Proof. now apply all_bytes_repeat. Qed.

(* ---- make and ReadAt *)
Lemma go_make_ok size n : 0 <= n <= alloc_limit size -> go_make size n = Ok tt.
Proof. intros H. unfold go_make. replace (n <? 0) with false by lia. now replace (alloc_limit size <? n) with false by lia. Qed.
Lemma go_readat_no_panic f off n p : go_readat f off n <> Panic p.
Proof. unfold go_readat. destruct (off <? 0); [discriminate|]. destruct (n =? 0); [discriminate|]. destruct (_ <? _); discriminate. Qed.
Lemma go_readat_mid (a b c : bytes) : go_readat (a ++ b ++ c) (zlen a) (zlen b) = Ok b.
Proof.
  pose proof (zlen_nonneg a). pose proof (zlen_nonneg b). pose proof (zlen_nonneg c). unfold go_readat. replace (zlen a <? 0) with false by lia.
  destruct (zlen b =? 0) eqn:E0; [f_equal; symmetry; apply zlen_0_nil; lia|].
  rewrite !zlen_app. replace (zlen a + (zlen b + zlen c) <? zlen a + zlen b) with false by lia. now rewrite zslice_app_mid.
Qed.
Lemma go_readat_zlen f off n b : 0 <= n -> go_readat f off n = Ok b -> zlen b = n.
Proof.
  intros Hn. unfold go_readat. destruct (off <? 0) eqn:Eo; [discriminate|]. destruct (n =? 0) eqn:E0; [intros [= <-]; rewrite zlen_nil; lia|].
  destruct (zlen f <? off + n) eqn:El; [discriminate|]. intros [= <-]. rewrite zlen_zslice; lia.
Qed.

