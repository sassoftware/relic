(* FmtPE/Proofs.v — the lemmas behind FmtPE/Properties.v.

   DigestPE either refuses a file or returns a value that is a function of the file alone: `accepted f last` collects what
   it has checked by then (the header guards nt_ok, the scan of section table and sections ending at last, the certificate
   table being the tail of the file), `dg_of f` is what it returns; digest_inv and digest_intro say so in both directions.
   The rest follows from that.  What embed returns is f with three ranges replaced (shape, embed_shape); a file of that
   shape is accepted again and has the digest input of f (Section Signed); the verifier finds the one entry MakePatch wrote;
   the independent reader's view is a function of the digest input (payload_of_pre), which gives both the payload law
   and the protection statement.  The file ends with the format as an instance of Laws/Pipeline.v. *)
From Relic Require Import Base.Prelude Base.Enc Generated.FmtPE_gen C12.Model C12.Proofs FmtPE.Model Laws.Pipeline Base.Slice.

Lemma zslice_nil_ge {A} a b (l : list A) : b <= a -> zslice a b l = [].
Proof. intros H. unfold zslice. apply ztake_neg. lia. Qed.
Lemma zslice_all_past {A} a b (l : list A) : zlen l <= a -> zslice a b l = [].
Proof. intros H. unfold zslice. rewrite zdrop_all by lia. apply firstn_nil. Qed.
Lemma zslice_clip {A} a b (l : list A) : zslice a (Z.min b (zlen l)) l = zslice a b l.
Proof.
  destruct (Z_le_gt_dec b (zlen l)); [now rewrite Z.min_l by lia|].
  rewrite Z.min_r, zslice_to_end by lia. symmetry. unfold zslice, ztake, zdrop, zlen in *.
  apply firstn_all2. rewrite skipn_length. lia.
Qed.
Lemma zslice_full {A} a b (l : list A) : 0 <= a -> zslice a b l = zslice a (Z.min b (zlen l)) l.
Proof. intros _. symmetry. apply zslice_clip. Qed.
Lemma zlen_zslice_le {A} a b (l : list A) : 0 <= a <= b -> zlen (zslice a b l) <= b - a.
Proof.
  intros H. unfold zslice. rewrite zlen_ztake_min by lia. lia.
Qed.
Lemma zslice_sub {A} lo hi a b (l : list A) : 0 <= lo <= a -> b <= hi ->
  zslice (a - lo) (b - lo) (zslice lo hi l) = zslice a b l.
Proof. intros H1 H2. rewrite zslice_zslice by lia. f_equal; lia. Qed.
(* a stretch of f that sits in a concatenation at its own offset *)
Lemma zslice_at_home {A} (x y f : list A) lo hi a b : zlen x = lo -> 0 <= lo <= a -> b <= hi -> lo <= hi <= zlen f ->
  zslice a b (x ++ zslice lo hi f ++ y) = zslice a b f.
Proof.
  intros <- H1 H2 H3. rewrite zslice_app_r, zslice_app_l by (rewrite ?zlen_zslice by lia; lia). apply zslice_sub; lia.
Qed.
(* b' is a second name for b, so that `erewrite ... by lia` joins stretches whose common bound is written in two ways *)
Lemma zslice_join {A} a b b' c (l rest : list A) : b = b' -> 0 <= a <= b -> b <= c ->
  zslice a b l ++ zslice b' c l ++ rest = zslice a c l ++ rest.
Proof. intros <- H1 H2. rewrite app_assoc, <- zslice_split by lia. reflexivity. Qed.

Lemma le_dec_nonneg l : all_bytes l = true -> 0 <= le_dec l.
Proof. apply Enc.le_dec_nonneg. Qed.
Lemma le_dec_slice_range f off n : all_bytes f = true -> 0 <= n -> 0 <= le_dec (zslice off (off + n) f) < 256 ^ n.
Proof.
  intros H Hn. pose proof (le_dec_range _ (all_bytes_zslice off (off + n) f H)) as R.
  assert (L : zlen (zslice off (off + n) f) <= n).
  { unfold zslice. rewrite zlen_ztake_min by lia. lia. }
  pose proof (Z.pow_le_mono_r 256 _ n ltac:(lia) L). lia.
Qed.

Lemma bind_cons_inv {A B} (r : result (list A * B)) a l s :
  (x <- r ;; Ok (a :: fst x, snd x)) = Ok (l, s) -> exists l', r = Ok (l', s) /\ l = a :: l'.
Proof. destruct r as [[l' s']| |]; cbn [bind fst snd]; intros H; inversion H. eauto. Qed.

(* the model's clipped accessors are the plain ones *)
Lemma zsl_eq a b f : zsl a b f = zslice a b f.
Proof.
  unfold zsl. rewrite zslice_clip. destruct (Z_le_gt_dec a (zlen f)); [now rewrite Z.min_l by lia|].
  rewrite !zslice_all_past by lia. reflexivity.
Qed.
Lemma ztk_eq n f : ztk n f = ztake n f.
Proof. unfold ztk. rewrite <- !zslice_0. apply zslice_clip. Qed.
Lemma zdp_eq n f : zdp n f = zdrop n f.
Proof.
  unfold zdp. destruct (Z_le_gt_dec n (zlen f)); [now rewrite Z.min_l by lia|].
  rewrite !zdrop_all by lia. reflexivity.
Qed.

Lemma zlen_zeros n : 0 <= n -> zlen (zeros n) = n.
Proof. intros H. unfold zeros. rewrite zlen_repeat. lia. Qed.
Lemma zeros_0 : zeros 0 = [].
Proof. reflexivity. Qed.
Lemma zeros_neg n : n <= 0 -> zeros n = [].
Proof. intros H. unfold zeros. replace (Z.to_nat n) with 0%nat by lia. reflexivity. Qed.
Lemma zeros_app a b : 0 <= a -> 0 <= b -> zeros a ++ zeros b = zeros (a + b).
Proof. intros Ha Hb. unfold zeros. rewrite <- repeat_app. f_equal. lia. Qed.
Lemma all_bytes_zeros n : all_bytes (zeros n) = true.
Proof. now apply all_bytes_repeat. Qed.

Lemma u32_range f off : all_bytes f = true -> 0 <= u32 f off < 4294967296.
Proof. intros H. unfold u32. rewrite zsl_eq. apply (le_dec_slice_range f off 4 H). lia. Qed.
Lemma u16_range f off : all_bytes f = true -> 0 <= u16 f off < 65536.
Proof. intros H. unfold u16. rewrite zsl_eq. apply (le_dec_slice_range f off 2 H). lia. Qed.
Lemma sp_nsec_range f : all_bytes f = true -> 0 <= sp_nsec f < 65536.
Proof. apply u16_range. Qed.
Lemma sp_cert_size_range f : all_bytes f = true -> 0 <= sp_cert_size f < 4294967296.
Proof. apply u32_range. Qed.

Lemma byte_at_slice f i : 0 <= i -> byte_at f i = le_dec (zslice i (i + 1) f).
Proof.
  intros Hi. unfold byte_at.
  destruct (i <? zlen f) eqn:E.
  - unfold zslice, ztake, zdrop. replace (i + 1 - i) with 1 by lia. change (Z.to_nat 1) with 1%nat.
    assert (Hl : (Z.to_nat i < length f)%nat) by (unfold zlen in E; lia).
    revert Hl. generalize (Z.to_nat i). clear. intros n. revert f.
    induction n as [|n IH]; intros [|x f] Hl; cbn in Hl; try lia.
    + cbn. lia.
    + cbn [nth skipn]. apply IH. lia.
  - rewrite zslice_all_past by lia. reflexivity.
Qed.
Lemma byte_at_zdrop f k i : 0 <= k <= i -> byte_at (zdrop k f) (i - k) = byte_at f i.
Proof. intros H. rewrite !byte_at_slice, zslice_zdrop by lia. do 2 f_equal; lia. Qed.
Lemma byte_at_zeros n i : byte_at (zeros n) i = 0.
Proof. unfold byte_at, zeros. destruct (i <? _); [apply nth_repeat|reflexivity]. Qed.

(* case analysis on the first test in H; a branch where H equates different constructors is closed *)
Ltac break_if H :=
  match type of H with
  | context [if ?c then _ else _] => let E := fresh "E" in destruct c eqn:E; try discriminate H
  end.

Definition page_of (machine : Z) : Z :=
  if existsb (Z.eqb machine) pe_page_machines then pe_page_size_listed else pe_page_size_default.

(* what read_nt returns whenever it returns, in terms of the specification's readers *)
Definition hv_of (f : bytes) : hvals :=
  mkHv (sp_lfanew f) (sp_nsec f) (sp_optsize f) (if sp_plus f then 144 else 128) (sp_dd4 f) (sp_sectbl f) (sp_soh f)
       (sp_falign f) (page_of (u16 f (sp_lfanew f + 4 + coff_off_machine))) (sp_cert_va f) (sp_cert_size f).

(* ... and when it does *)
Definition nt_ok (f : bytes) : Prop :=
  64 <= zlen f /\ byte_at f 0 = 77 /\ byte_at f 1 = 90 /\ 64 <= sp_lfanew f /\
  byte_at f (sp_lfanew f) = 80 /\ byte_at f (sp_lfanew f + 1) = 69 /\ byte_at f (sp_lfanew f + 2) = 0 /\ byte_at f (sp_lfanew f + 3) = 0 /\
  (sp_magic f = 267 \/ sp_magic f = 523) /\ 5 <= sp_numrva f /\ (if sp_plus f then 240 else 224) <= sp_optsize f /\
  sp_opt f + sp_optsize f <= zlen f.

Lemma sp_cksum_eq f : sp_cksum f = sp_lfanew f + 88.
Proof. unfold sp_cksum, sp_opt. lia. Qed.
Lemma sp_dd4_eq f : sp_dd4 f = sp_lfanew f + 24 + (if sp_plus f then 144 else 128).
Proof. unfold sp_dd4, sp_ddir, sp_opt. destruct (sp_plus f); lia. Qed.
Lemma nt_geom f : nt_ok f ->
  64 <= sp_lfanew f /\ sp_cksum f = sp_lfanew f + 88 /\ sp_cksum f + 4 <= sp_dd4 f /\ sp_dd4 f + 8 <= sp_sectbl f.
Proof.
  intros (_ & _ & _ & H4 & _ & _ & _ & _ & _ & _ & H11 & _). rewrite sp_cksum_eq, sp_dd4_eq.
  unfold sp_sectbl, sp_opt. destruct (sp_plus f); lia.
Qed.

(* read_nt with the generated constants replaced by their values, e_lfanew and the page size folded back *)
Ltac unfold_read_nt f :=
  unfold read_nt, pe_dos_read_len, pe_dos_bad_magic, pe_lfanew_off, pe_lfanew_overlaps_dos, pe_dos_stub_len, pe_nt_magic_len,
    pe_nt_bad_magic, pe_coff_len, pe_opt_short, pe_optmagic_len, pe_magic_pe32, pe_magic_pe32plus, pe_no_room_32, pe_no_room_64,
    pe_dd4_start_32, pe_dd4_start_64, pe_pos_ddcert, pe_sectbl_start, coff_off_nsec, coff_off_optsize,
    opt_off_sizeofheaders, opt_off_filealign, opt_off_numrva32, opt_off_numrva64, opt32_size, opt64_size, dd_off_size;
  fold (sp_lfanew f); fold (page_of (u16 f (sp_lfanew f + 4 + coff_off_machine))).

Lemma read_nt_intro f : nt_ok f -> read_nt f = Ok (hv_of f).
Proof.
  unfold nt_ok, hv_of, sp_cert_va, sp_cert_size, sp_sectbl, sp_dd4, sp_ddir, sp_numrva, sp_plus, sp_magic, sp_optsize, sp_opt.
  intros (H1 & H2 & H3 & H4 & H5 & H6 & H7 & H8 & H9 & H10 & H11 & H12).
  unfold_read_nt f. rewrite H2, H3, H5, H6, H7, H8. cbn [Z.eqb Pos.eqb negb orb].
  destruct H9 as [M|M]; rewrite M in *; cbn [Z.eqb Pos.eqb] in *.
  (* what is left are the comparisons of lengths and sizes, all decided by nt_ok ... *)
  all: repeat match goal with |- context [?a <? ?b] => replace (a <? b) with false by lia end.
  (* ... and in the value the offsets of directory entry 4 and of the section table, and the two reads at the former *)
  all: apply f_equal; f_equal; [lia|lia|f_equal; lia|f_equal; lia].
Qed.

Lemma read_nt_inv f hv : read_nt f = Ok hv -> nt_ok f /\ hv = hv_of f.
Proof.
  intros H. assert (Hnt : nt_ok f).
  { revert H. unfold_read_nt f. intros H. repeat break_if H; clear H.
    (* one surviving path per optional-header magic: the tests passed on it are nt_ok *)
    all: match goal with M : (_ =? _) = true |- _ => apply Z.eqb_eq in M; rename M into Magic end.
    all: unfold nt_ok, sp_numrva, sp_plus, sp_magic, sp_optsize, sp_opt; rewrite Magic; cbn [Z.eqb Pos.eqb].
    all: repeat apply conj; reflexivity || lia. }
  rewrite (read_nt_intro f Hnt) in H. apply Ok_inj in H. auto.
Qed.

(* DigestPE between read_nt and readTrailer, under a name: the scan of section table and sections *)
Definition scan_body (f : bytes) (hv : hvals) : result (Z * bytes) :=
  let tblend := pe_sectbl_end (hv_sectbl hv) (pe_sectbl_size (hv_nsec hv)) in
  if pe_table_overlaps_hdr tblend (hv_soh hv) then Err E_TBLOVER else
  if zlen f <? tblend then Err E_EOF else
  adj <- adjust_secs (read_secs f (hv_sectbl hv) (Z.to_nat (hv_nsec hv)) 0) 0 (hv_nsec hv) tblend (hv_falign hv) (hv_soh hv) ;;
  let secs := fst adj in
  let soh := snd adj in
  if zlen f <? tblend + pe_hdr_padding_len soh tblend then Err E_EOF else
  let hdr := concat (header_pieces f hv soh) in
  let ptr0 := match secs with (p, _) :: _ => p | [] => 0 end in
  let gap := pe_has_gap (hv_nsec hv) ptr0 soh in
  if gap && (zlen f <? soh + pe_gap_len ptr0 soh) then Err E_GAPREAD else
  let next := if gap then ptr0 else soh in
  let gapbytes := if gap then zslice soh (soh + pe_gap_len ptr0 soh) f else [] in
  hs <- hash_secs f secs next ;;
  Ok (fst hs, hdr ++ gapbytes ++ snd hs).

Definition pad_of (orig : Z) : Z := if pe_pad_needed (pe_pad_rem orig) then pe_pad_len (pe_pad_rem orig) else 0.

Lemma digest_unfold f :
  digest_pe f =
  (hv <- read_nt f ;; s <- scan_body f hv ;;
   tr <- read_trailer f (fst s) (hv_certstart hv) (hv_certsize hv) ;;
   Ok (mkDg (fst tr) (fst tr + pad_of (fst tr)) (hv_posdd hv) (hv_certsize hv) (snd s ++ snd tr ++ zeros (pad_of (fst tr))))).
Proof.
  unfold digest_pe, scan_body, pad_of.
  destruct (read_nt f) as [hv| |]; cbn [bind]; try reflexivity.
  destruct (pe_table_overlaps_hdr _ _); try reflexivity.
  destruct (zlen f <? _); try reflexivity.
  destruct (adjust_secs _ _ _ _ _ _) as [adj| |]; cbn [bind]; try reflexivity.
  destruct (zlen f <? _); try reflexivity.
  destruct (_ && _); try reflexivity.
  destruct (hash_secs _ _ _) as [hs| |]; cbn [bind fst snd]; try reflexivity.
  destruct (read_trailer _ _ _ _) as [tr| |]; cbn [bind]; try reflexivity.
  change pe_certstart_padded with true. change pe_hashes_padding with true. cbv iota. rewrite <- !app_assoc. reflexivity.
Qed.

Definition nonneg_sizes (secs : list (Z * Z)) : Prop := Forall (fun s => 0 <= snd s) secs.

Lemma wrap32_nonneg n : 0 <= wrap32 n.
Proof. unfold wrap32. lia. Qed.
Lemma align32_nonneg a al : 0 <= a -> 0 <= align32 a al.
Proof.
  intros H. unfold align32. destruct (pe_align_zero _); [exact H|]. destruct (pe_align_needed _); [|exact H].
  apply wrap32_nonneg.
Qed.

(* readSections only ever lowers SizeOfHeaders, and not below the end of the section table *)
Lemma adjust_inv secs : forall i nsec tblend falign soh secs' soh',
  adjust_secs secs i nsec tblend falign soh = Ok (secs', soh') -> tblend <= soh -> nonneg_sizes secs ->
  tblend <= soh' <= soh /\ nonneg_sizes secs'.
Proof.
  induction secs as [|[ptr size] r IH]; intros i nsec tblend falign soh secs' soh' H Hs Hn; cbn [adjust_secs] in H.
  - injection H as <- <-. split; [lia|constructor].
  - inversion Hn as [|? ? Hx Hr]; subst. cbn [snd] in Hx.
    destruct (pe_rs_skip_empty size).
    + apply bind_cons_inv in H as (l' & E & ->). destruct (IH _ _ _ _ _ _ _ E Hs Hr) as [B N].
      split; [exact B|constructor; assumption].
    + unfold pe_sec_overlaps_table, pe_sec_before_hdr_end in H. destruct (ptr <? tblend) eqn:E2; [discriminate|].
      assert (B1 : tblend <= (if (ptr <? soh) && pe_hdr_shrinks_to_section then ptr else soh) <= soh)
        by (destruct (ptr <? soh) eqn:E3; cbn [andb pe_hdr_shrinks_to_section]; lia).
      destruct (_ && pe_aligns_mid_sections);
        apply bind_cons_inv in H as (l' & E & ->); destruct (IH _ _ _ _ _ _ _ E (proj1 B1) Hr) as [B N];
        (split; [lia|constructor; [|exact N]]); [apply align32_nonneg|]; exact Hx.
Qed.

Lemma read_secs_nonneg f tbl n : forall i, all_bytes f = true -> nonneg_sizes (read_secs f tbl n i).
Proof.
  induction n as [|n IH]; intros i H; cbn [read_secs]; constructor.
  - apply u32_range, H.
  - apply IH, H.
Qed.

(* the section loop accepts a table or not by the table and the file's length alone, and hashes the stretch it walked *)
Lemma hash_secs_spec f secs : forall next last bs,
  hash_secs f secs next = Ok (last, bs) -> 0 <= next <= zlen f -> nonneg_sizes secs ->
  next <= last <= zlen f /\ bs = zslice next last f /\
  forall g, last <= zlen g -> hash_secs g secs next = Ok (last, zslice next last g).
Proof.
  induction secs as [|[ptr size] r IH]; intros next last bs H H0 Hn; cbn [hash_secs] in *.
  - injection H as <- <-. rewrite zslice_nil_ge by lia. repeat apply conj; try reflexivity; try lia. intros g _. now rewrite zslice_nil_ge by lia.
  - inversion Hn as [|? ? Hx Hr]; subst. cbn [snd] in Hx.
    destruct (pe_dg_skip_empty size); [exact (IH _ _ _ H H0 Hr)|].
    destruct (pe_sec_not_contiguous ptr next); [discriminate|].
    destruct (zlen f <? next + size) eqn:E; [discriminate|].
    change pe_next_advances with true in *. cbv iota in *.
    destruct (hash_secs f r (next + size)) as [[l2 b2]| |] eqn:E2; cbn [bind fst snd] in H; try discriminate.
    injection H as <- <-. destruct (IH _ _ _ E2 ltac:(lia) Hr) as (B & -> & S).
    split; [lia|]. split; [symmetry; apply zslice_split; lia|].
    intros g Hg. replace (zlen g <? next + size) with false by lia. rewrite (S g Hg). cbn [bind fst snd].
    now rewrite <- zslice_split by lia.
Qed.

(* the three stretches of the file the digest covers *)
Definition lin (f : bytes) (ck dd orig : Z) : bytes := zslice 0 ck f ++ zslice (ck + 4) dd f ++ zslice (dd + 8) orig f.

Lemma lin_extend f ck dd x y : 0 <= dd -> dd + 8 <= x -> x <= y -> lin f ck dd x ++ zslice x y f = lin f ck dd y.
Proof. intros H0 H1 H2. unfold lin. rewrite <- !app_assoc, <- zslice_split by lia. reflexivity. Qed.

(* hv is laid out as a PE header is: NT headers behind the DOS header, directory entry 4 inside the optional header, the
   section table right behind that; ck and dd are the offsets of CheckSum and of directory entry 4 *)
Definition hv_layout (hv : hvals) (ck dd : Z) : Prop :=
  64 <= hv_pe hv /\ 68 <= hv_dd4 hv /\ hv_dd4 hv + 8 <= hv_optsize hv /\ hv_sectbl hv = hv_pe hv + 24 + hv_optsize hv /\
  ck = hv_pe hv + 88 /\ dd = hv_pe hv + 24 + hv_dd4 hv.

Lemma hv_of_layout f : nt_ok f -> hv_layout (hv_of f) (sp_cksum f) (sp_dd4 f).
Proof.
  intros (_ & _ & _ & H4 & _ & _ & _ & _ & _ & _ & H11 & _). unfold hv_layout. rewrite sp_cksum_eq, sp_dd4_eq.
  cbn [hv_of hv_pe hv_dd4 hv_optsize hv_sectbl]. unfold sp_sectbl, sp_opt. destruct (sp_plus f); lia.
Qed.

Lemma header_concat f hv ck dd soh : hv_layout hv ck dd -> 0 <= hv_nsec hv -> hv_sectbl hv + 40 * hv_nsec hv <= soh ->
  concat (header_pieces f hv soh) = lin f ck dd soh.
Proof.
  intros (Hpe & Hd & Ho & Hst & -> & ->) Hn Hs. unfold header_pieces, lin.
  change pe_hashes_before_cksum with true. change pe_hashes_between with true. change pe_hashes_after_dd4 with true. cbv iota.
  unfold pe_dos_read_len, pe_dos_stub_len, pe_nt_magic_len, pe_coff_len, pe_cksum_start, pe_cksum_end, pe_dd4_end, pe_sectbl_size, pe_hdr_padding_len.
  cbn [concat]. repeat (erewrite (zslice_join 0) by lia).
  repeat (erewrite (zslice_join (hv_pe hv + 4 + 20 + (hv_dd4 hv + 8))) by lia).
  rewrite app_nil_r. repeat (f_equal; try lia).
Qed.

(* The scan of headers and sections: it succeeds or not by the header values, the section table and the file's length, and
   what it feeds to the digest is the file up to the end of the last section, minus the two excluded fields.  Hence the
   last clause: a file with the same table that is long enough is scanned alike.
   (hv stays a variable: with hv_of f in its place every comparison of an unfolded test with the folded one would send
   the kernel down into the readers of f.) *)
Lemma scan_spec f hv ck dd last bs : all_bytes f = true -> hv_layout hv ck dd -> 0 <= hv_nsec hv ->
  scan_body f hv = Ok (last, bs) ->
  hv_sectbl hv + 40 * hv_nsec hv <= hv_soh hv /\ hv_sectbl hv + 40 * hv_nsec hv <= last <= zlen f /\ bs = lin f ck dd last /\
  forall g, read_secs g (hv_sectbl hv) (Z.to_nat (hv_nsec hv)) 0 = read_secs f (hv_sectbl hv) (Z.to_nat (hv_nsec hv)) 0 ->
    last <= zlen g -> scan_body g hv = Ok (last, lin g ck dd last).
Proof.
  intros Hb Hl Hn H. pose proof Hl as (Hpe & Hd & Ho & Hst & Hck & Hdd). unfold scan_body in *.
  unfold pe_sectbl_end, pe_sectbl_size, pe_table_overlaps_hdr, pe_hdr_padding_len, pe_has_gap, pe_gap_len in *.
  set (tblend := hv_sectbl hv + hv_nsec hv * 40) in *.
  destruct (tblend >? hv_soh hv) eqn:E1; [discriminate|]. destruct (zlen f <? tblend) eqn:E2; [discriminate|].
  destruct (adjust_secs _ _ _ _ _ _) as [[secs soh]| |] eqn:EA; cbn [bind fst snd] in H; try discriminate.
  destruct (adjust_inv _ _ _ _ _ _ _ _ EA ltac:(lia) (read_secs_nonneg f _ _ 0 Hb)) as [Bs Nn].
  destruct (zlen f <? tblend + (soh - tblend)) eqn:E3; [discriminate|].
  rewrite (header_concat f hv ck dd) in H by (assumption || lia).
  set (ptr0 := match secs with (p, _) :: _ => p | [] => 0 end) in *.
  (* with or without a gap between headers and first section, what is read there is the stretch from soh to next *)
  set (gap := (hv_nsec hv >? 0) && (ptr0 >? soh)) in *. set (next := if gap then ptr0 else soh) in *.
  assert (Gn : soh <= next) by (unfold next, gap; destruct (_ && _) eqn:EG; lia).
  assert (G : forall x : bytes, (if gap then zslice soh (soh + (ptr0 - soh)) x else []) = zslice soh next x).
  { intros x. unfold next. destruct gap; [f_equal; lia|]. now rewrite zslice_nil_ge by lia. }
  destruct (gap && _) eqn:E4; [discriminate|].
  destruct (hash_secs f secs next) as [[l2 b2]| |] eqn:EH; cbn [bind fst snd] in H; try discriminate.
  apply Ok_inj, pair_equal_spec in H as [-> <-].
  destruct (hash_secs_spec _ _ _ _ _ EH) as (B & -> & S); [destruct gap; cbn [andb] in E4; lia|exact Nn|].
  split; [lia|]. split; [lia|]. split.
  - rewrite G, app_assoc, !lin_extend by lia. reflexivity.
  - intros g ET Hg. rewrite ET, EA. cbn [bind fst snd]. fold ptr0 gap next.
    replace (zlen g <? tblend) with false by lia. replace (zlen g <? tblend + (soh - tblend)) with false by lia.
    replace (gap && (zlen g <? soh + (ptr0 - soh))) with false by (destruct gap; cbn [andb]; lia).
    rewrite (header_concat g hv ck dd), (S g Hg), G by (assumption || lia). cbn [bind fst snd]. rewrite app_assoc, !lin_extend by lia. reflexivity.
Qed.

Definition padlen (n : Z) : Z := (8 - n mod 8) mod 8.
Lemma pad_of_eq orig : 0 <= orig -> pad_of orig = padlen orig.
Proof.
  intros H. unfold pad_of, padlen, pe_pad_needed, pe_pad_rem, pe_pad_len. rewrite Z.rem_mod_nonneg by lia.
  destruct (orig mod 8 =? 0) eqn:E; cbn [negb]; lia.
Qed.
Lemma padlen_range n : 0 <= padlen n < 8.
Proof. unfold padlen. lia. Qed.
Lemma padlen_aligns n : (n + padlen n) mod 8 = 0.
Proof. unfold padlen. lia. Qed.
Lemma padlen_aligned n : n mod 8 = 0 -> padlen n = 0.
Proof. unfold padlen. lia. Qed.

(* readTrailer, with e for where the payload ends: the file's end, or the certificate table's start if there is one *)
Lemma trailer_inv f last cs sz e orig bs : e = (if sz =? 0 then zlen f else cs) ->
  read_trailer f last cs sz = Ok (orig, bs) -> last <= zlen f -> 0 <= sz ->
  orig = e /\ bs = zslice last e f /\ last <= e /\ e + sz = zlen f.
Proof.
  unfold read_trailer, pe_tr_unsigned, pe_tr_sig_overlaps, pe_tr_before_cert, pe_tr_garbage, pe_tr_orig_unsigned, pe_tr_orig_signed.
  intros -> H Hl Hs. repeat break_if H; injection H as <- <-.
  - rewrite zslice_to_end. repeat apply conj; reflexivity || lia.
  - repeat apply conj; reflexivity || lia.
Qed.
Lemma trailer_intro f last cs sz e : e = (if sz =? 0 then zlen f else cs) ->
  last <= e -> e + sz = zlen f -> 0 <= sz -> read_trailer f last cs sz = Ok (e, zslice last e f).
Proof.
  unfold read_trailer, pe_tr_unsigned, pe_tr_sig_overlaps, pe_tr_before_cert, pe_tr_garbage, pe_tr_orig_unsigned, pe_tr_orig_signed.
  intros ->. destruct (sz =? 0) eqn:E; intros H1 H2 H3.
  - rewrite zslice_to_end. do 2 f_equal. lia.
  - replace (cs <? last) with false by lia. replace (zlen f <? last + (cs - last)) with false by lia.
    replace (zlen f <? cs + sz) with false by lia. replace (zlen f - (cs + sz) >? 0) with false by lia. reflexivity.
Qed.

(* what DigestPE establishes about a file before it returns; last is where the last section ends *)
Record accepted (f : bytes) (last : Z) : Prop := mkAcc {
  acc_nt : nt_ok f;
  acc_scan : scan_body f (hv_of f) = Ok (last, lin f (sp_cksum f) (sp_dd4 f) last);
  acc_nsec : 0 <= sp_nsec f;
  acc_tbl : sp_sectbl f + 40 * sp_nsec f <= sp_soh f;
  acc_last : sp_sectbl f + 40 * sp_nsec f <= last <= sp_payload_end f;
  acc_size : 0 <= sp_cert_size f;
  acc_end : sp_payload_end f + sp_cert_size f = zlen f }.

(* ... and what it returns then *)
Definition dg_of (f : bytes) : dg :=
  let e := sp_payload_end f in
  mkDg e (e + padlen e) (sp_dd4 f) (sp_cert_size f) (lin f (sp_cksum f) (sp_dd4 f) e ++ zeros (padlen e)).

Lemma dg_of_orig f : dg_orig (dg_of f) = sp_payload_end f.
Proof. reflexivity. Qed.
Lemma dg_of_certstart f : dg_certstart (dg_of f) = sp_payload_end f + padlen (sp_payload_end f).
Proof. reflexivity. Qed.

Lemma acc_geom f last : accepted f last ->
  64 <= sp_lfanew f /\ sp_cksum f = sp_lfanew f + 88 /\ sp_cksum f + 4 <= sp_dd4 f /\ sp_dd4 f + 8 <= sp_sectbl f /\
  sp_sectbl f <= last /\ last <= sp_payload_end f /\ sp_payload_end f <= zlen f.
Proof. intros [Hnt _ ? _ ? ? ?]. pose proof (nt_geom f Hnt). lia. Qed.

Lemma digest_inv f d : all_bytes f = true -> digest_pe f = Ok d -> exists last, accepted f last /\ d = dg_of f.
Proof.
  intros Hb H. rewrite digest_unfold in H.
  (* the computation is taken apart with the header values still a variable, which keeps the comparisons of its stages shallow *)
  destruct (read_nt f) as [hv| |] eqn:EN; cbn [bind] in H; try discriminate. apply read_nt_inv in EN as [Hnt Ehv].
  destruct (scan_body f hv) as [[last bs]| |] eqn:ES; cbn [bind fst snd] in H; try discriminate.
  destruct (read_trailer _ _ _ _) as [[orig tb]| |] eqn:ET; cbn [bind fst snd] in H; try discriminate.
  apply Ok_inj in H as <-. subst hv.
  pose proof (sp_nsec_range f Hb) as Rn. pose proof (sp_cert_size_range f Hb) as Rz. pose proof (nt_geom f Hnt) as Gm.
  destruct (scan_spec f (hv_of f) _ _ last bs Hb (hv_of_layout f Hnt) (proj1 Rn) ES) as (S1 & S2 & -> & _).
  cbn [hv_of hv_sectbl hv_nsec hv_soh hv_certstart hv_certsize hv_posdd] in *.
  apply (trailer_inv _ _ _ _ (sp_payload_end f) _ _ eq_refl) in ET as (-> & -> & T1 & T2); [|lia..].
  exists last. split.
  - constructor; try assumption; lia.
  - unfold dg_of. cbn [fst snd]. rewrite pad_of_eq, app_assoc, lin_extend by lia. reflexivity.
Qed.

Lemma digest_intro f last : accepted f last -> digest_pe f = Ok (dg_of f).
Proof.
  intros Ha. pose proof (acc_geom f last Ha) as G. destruct Ha as [Hnt ES Hn Ht Hl Hz He].
  rewrite digest_unfold, (read_nt_intro f Hnt). cbn [bind]. rewrite ES. cbn [bind fst snd hv_of hv_certstart hv_certsize hv_posdd].
  rewrite (trailer_intro _ _ _ _ (sp_payload_end f) eq_refl) by lia. cbn [bind fst snd].
  unfold dg_of. rewrite pad_of_eq, app_assoc, lin_extend by lia. reflexivity.
Qed.

Lemma hashin_inv f pre : all_bytes f = true -> hashin f = Ok pre -> exists last, accepted f last /\ pre = dg_pre (dg_of f).
Proof.
  intros Hb H. unfold hashin in H. destruct (digest_pe f) as [d| |] eqn:ED; cbn [bind] in H; try discriminate.
  destruct (digest_inv f d Hb ED) as (last & Ha & ->). apply Ok_inj in H as <-. eauto.
Qed.
Lemma hashin_intro f last : accepted f last -> hashin f = Ok (dg_pre (dg_of f)).
Proof. intros Ha. unfold hashin. now rewrite (digest_intro f last Ha). Qed.

(* a signed file: f with CheckSum replaced by c4, directory entry 4 by d8, and everything from orig on by tail *)
Definition shape (f : bytes) (ck dd orig : Z) (c4 d8 tail : bytes) : bytes :=
  zslice 0 ck f ++ c4 ++ zslice (ck + 4) dd f ++ d8 ++ zslice (dd + 8) orig f ++ tail.

Lemma all_bytes_shape f ck dd orig c4 d8 tail : all_bytes f = true -> all_bytes c4 = true -> all_bytes d8 = true ->
  all_bytes tail = true -> all_bytes (shape f ck dd orig c4 d8 tail) = true.
Proof. intros Hf H4 H8 Ht. unfold shape. now rewrite !all_bytes_app, !all_bytes_zslice, H4, H8, Ht. Qed.

(* g coincides with f on the three stretches [0,ck) [ck+4,dd) [dd+8,lim) *)
Definition agree3 (f g : bytes) (ck dd lim : Z) : Prop :=
  forall a b, 0 <= a -> a <= b ->
    (b <= ck \/ (ck + 4 <= a /\ b <= dd) \/ (dd + 8 <= a /\ b <= lim)) -> zslice a b g = zslice a b f.

Section Shape.
  Variables (f c4 d8 tail : bytes) (ck dd orig : Z).
  Hypothesis Hc4 : zlen c4 = 4.
  Hypothesis Hd8 : zlen d8 = 8.
  Hypothesis Hck : 0 <= ck.
  Hypothesis Hdd : ck + 4 <= dd.
  Hypothesis Horig : dd + 8 <= orig <= zlen f.
  Let g := shape f ck dd orig c4 d8 tail.
  Let LA : zlen (zslice 0 ck f) = ck. Proof. rewrite zlen_zslice; lia. Qed.
  Let LB : zlen (zslice (ck + 4) dd f) = dd - ck - 4. Proof. rewrite zlen_zslice; lia. Qed.
  Let LC : zlen (zslice (dd + 8) orig f) = orig - dd - 8. Proof. rewrite zlen_zslice; lia. Qed.

  Lemma shape_len : zlen g = orig + zlen tail.
  Proof. unfold g, shape. rewrite !zlen_app, LA, LB, LC, Hc4, Hd8. lia. Qed.
  Lemma shape_agree : agree3 f g ck dd orig.
  Proof.
    intros a b H1 H2 [H|[[H H']|[H H']]]; unfold g, shape.
    - apply (zslice_at_home []); [reflexivity|lia..].
    - rewrite app_assoc. apply zslice_at_home; [rewrite zlen_app, LA, Hc4|..]; lia.
    - do 3 rewrite app_assoc. apply zslice_at_home; [rewrite !zlen_app, LA, LB, Hc4, Hd8|..]; lia.
  Qed.
  Lemma shape_dd : zslice dd (dd + 8) g = d8.
  Proof. unfold g, shape. do 2 rewrite app_assoc. apply zslice_app_mid; rewrite !zlen_app, LA, LB, Hc4, ?Hd8; lia. Qed.
  Lemma shape_take_orig : ztake orig g = zslice 0 ck f ++ c4 ++ zslice (ck + 4) dd f ++ d8 ++ zslice (dd + 8) orig f.
  Proof.
    unfold g, shape. do 4 rewrite app_assoc. rewrite ztake_app_len by (rewrite !zlen_app, LA, LB, LC, Hc4, Hd8; lia).
    now rewrite <- !app_assoc.
  Qed.
  Lemma shape_drop_orig : zdrop orig g = tail.
  Proof.
    apply (app_inv_head (ztake orig g)). rewrite ztake_zdrop, shape_take_orig. unfold g, shape. now rewrite <- !app_assoc.
  Qed.
  Lemma shape_spec : agree3 f g ck dd orig /\ zslice dd (dd + 8) g = d8 /\ zdrop orig g = tail /\ zlen g = orig + zlen tail.
  Proof. exact (conj shape_agree (conj shape_dd (conj shape_drop_orig shape_len))). Qed.
End Shape.

Lemma u32_eq f g off : zslice off (off + 4) g = zslice off (off + 4) f -> u32 g off = u32 f off.
Proof. intros H. unfold u32. now rewrite !zsl_eq, H. Qed.
Lemma u16_eq f g off : zslice off (off + 2) g = zslice off (off + 2) f -> u16 g off = u16 f off.
Proof. intros H. unfold u16. now rewrite !zsl_eq, H. Qed.
Lemma byte_at_eq f g off : 0 <= off -> zslice off (off + 1) g = zslice off (off + 1) f -> byte_at g off = byte_at f off.
Proof. intros H0 H. now rewrite !byte_at_slice, H by lia. Qed.

Lemma agree3_byte f g ck dd lim i : agree3 f g ck dd lim -> 0 <= i ->
  (i < ck \/ (ck + 4 <= i /\ i < dd) \/ (dd + 8 <= i /\ i < lim)) -> byte_at g i = byte_at f i.
Proof. intros A H0 H. apply byte_at_eq, A; lia. Qed.

Definition agree_below (f g : bytes) (n : Z) : Prop :=
  forall a b, 0 <= a -> a <= b -> b <= n -> zslice a b g = zslice a b f.
Lemma agree3_below f g ck dd lim : agree3 f g ck dd lim -> agree_below f g ck.
Proof. intros A a b H1 H2 H3. apply A; lia. Qed.

(* the scan looks at these header values only (stated for variables: on hv_of f and hv_of g the kernel would try to tell
   the other fields apart, and evaluate the readers for it) *)
Lemma scan_body_ext x hv hv' : hv_pe hv = hv_pe hv' -> hv_nsec hv = hv_nsec hv' -> hv_optsize hv = hv_optsize hv' ->
  hv_dd4 hv = hv_dd4 hv' -> hv_sectbl hv = hv_sectbl hv' -> hv_soh hv = hv_soh hv' -> hv_falign hv = hv_falign hv' ->
  scan_body x hv = scan_body x hv'.
Proof. intros E1 E2 E3 E4 E5 E6 E7. unfold scan_body, header_pieces. rewrite E1, E2, E3, E4, E5, E6, E7. reflexivity. Qed.

(* the header fields in front of CheckSum, for a g that agrees with f there *)
Section SameHeader.
  Variables f g : bytes.
  Hypothesis Hlf : 64 <= sp_lfanew f.
  Hypothesis Hag : agree_below f g (sp_cksum f).

  Lemma same_byte i : 0 <= i -> i < sp_cksum f -> byte_at g i = byte_at f i.
  Proof. intros H1 H2. apply byte_at_eq, Hag; lia. Qed.
  Lemma same_u16 off : 0 <= off -> off + 2 <= sp_cksum f -> u16 g off = u16 f off.
  Proof. intros H1 H2. apply u16_eq, Hag; lia. Qed.
  Lemma same_u32 off : 0 <= off -> off + 4 <= sp_cksum f -> u32 g off = u32 f off.
  Proof. intros H1 H2. apply u32_eq, Hag; lia. Qed.

  Lemma same_fields :
    sp_lfanew g = sp_lfanew f /\ sp_opt g = sp_opt f /\ sp_nsec g = sp_nsec f /\ sp_optsize g = sp_optsize f /\
    sp_magic g = sp_magic f /\ sp_plus g = sp_plus f /\ sp_falign g = sp_falign f /\ sp_soh g = sp_soh f /\
    sp_cksum g = sp_cksum f /\ sp_dd4 g = sp_dd4 f /\ sp_sectbl g = sp_sectbl f.
  Proof.
    pose proof (sp_cksum_eq f) as CK.
    assert (L : sp_lfanew g = sp_lfanew f) by (apply same_u32; lia).
    assert (O : sp_opt g = sp_opt f) by (unfold sp_opt; now rewrite L).
    assert (N : sp_nsec g = sp_nsec f) by (unfold sp_nsec; rewrite L; apply same_u16; lia).
    assert (S : sp_optsize g = sp_optsize f) by (unfold sp_optsize; rewrite L; apply same_u16; lia).
    assert (M : sp_magic g = sp_magic f) by (unfold sp_magic; rewrite O; apply same_u16; unfold sp_opt; lia).
    assert (P : sp_plus g = sp_plus f) by (unfold sp_plus; now rewrite M).
    assert (F : sp_falign g = sp_falign f) by (unfold sp_falign; rewrite O; apply same_u32; unfold sp_opt; lia).
    assert (H : sp_soh g = sp_soh f) by (unfold sp_soh; rewrite O; apply same_u32; unfold sp_opt; lia).
    repeat apply conj; try assumption.
    - unfold sp_cksum. now rewrite O.
    - unfold sp_dd4, sp_ddir. now rewrite O, P.
    - unfold sp_sectbl. now rewrite O, S.
  Qed.

  Lemma same_scan x : scan_body x (hv_of g) = scan_body x (hv_of f).
  Proof.
    destruct same_fields as (L & _ & N & S & _ & P & F & H & _ & _ & ST).
    apply scan_body_ext; cbn [hv_of hv_pe hv_nsec hv_optsize hv_dd4 hv_sectbl hv_soh hv_falign]; rewrite ?P; auto.
  Qed.

  Lemma same_nt_ok : nt_ok f -> sp_numrva g = sp_numrva f -> sp_opt f + sp_optsize f <= zlen g -> nt_ok g.
  Proof.
    destruct same_fields as (L & O & _ & S & M & P & _). pose proof (sp_cksum_eq f) as CK. unfold nt_ok. rewrite L, O, S, M, P.
    intros (H1 & H2 & H3 & H4 & H5 & H6 & H7 & H8 & H9 & H10 & H11 & H12) -> Hl.
    rewrite !same_byte by lia. unfold sp_opt in *. destruct (sp_plus f); repeat apply conj; try assumption; lia.
  Qed.
End SameHeader.

Lemma patched_shape f ck dd orig old d8 tbl : 0 <= ck -> ck + 4 <= dd -> dd + 8 <= orig -> orig + old = zlen f -> 0 <= old ->
  replace1 dd 8 d8 (replace1 orig old tbl f) = shape f ck dd orig (zslice ck (ck + 4) f) d8 tbl.
Proof.
  intros H1 H2 H3 H4 H5. unfold replace1, shape.
  rewrite (zdrop_all (orig + old) f), app_nil_r by lia.
  rewrite ztake_app_l, ztake_ztake, zdrop_app_l, zdrop_ztake by (rewrite ?zlen_ztake; lia).
  rewrite Z.min_l, <- zslice_0, (zslice_split 0 ck dd), (zslice_split ck (ck + 4) dd) by lia.
  now rewrite <- !app_assoc.
Qed.

Lemma replace_ck f ck dd orig c4 c4' d8 tail : zlen c4 = 4 -> 0 <= ck <= zlen f ->
  replace1 ck 4 c4' (shape f ck dd orig c4 d8 tail) = shape f ck dd orig c4' d8 tail.
Proof.
  intros H4 Hck. unfold replace1, shape.
  assert (LA : zlen (zslice 0 ck f) = ck) by (rewrite zlen_zslice; lia).
  rewrite ztake_app_len, zdrop_app_r, LA by lia. replace (ck + 4 - ck) with 4 by lia.
  now rewrite zdrop_app_len.
Qed.

Lemma fix_checksum_intro g : 64 <= zlen g -> byte_at g 0 = 77 -> byte_at g 1 = 90 -> 64 <= sp_lfanew g -> sp_cksum g + 4 <= zlen g ->
  fix_checksum g = Ok (replace1 (sp_cksum g) 4 (le_enc 4 (pe_checksum (sp_lfanew g) g)) g).
Proof.
  intros H1 H2 H3 H4 H5. rewrite sp_cksum_eq in *.
  unfold fix_checksum, pe_dos_read_len, pe_dos_bad_magic, pe_lfanew_off, pe_lfanew_overlaps_dos, pe_fix_write_off.
  fold (sp_lfanew g). rewrite H2, H3. cbn [Z.eqb Pos.eqb negb orb].
  replace (zlen g <? 64) with false by lia. replace (sp_lfanew g <? 64) with false by lia.
  rewrite write_at_same, le_enc_zlen by (rewrite ?le_enc_zlen; lia). reflexivity.
Qed.

Lemma fix_checksum_inv g g' : fix_checksum g = Ok g' -> sp_cksum g + 4 <= zlen g ->
  64 <= sp_lfanew g /\ g' = replace1 (sp_cksum g) 4 (le_enc 4 (pe_checksum (sp_lfanew g) g)) g.
Proof.
  unfold fix_checksum, pe_lfanew_off, pe_lfanew_overlaps_dos, pe_fix_write_off. fold (sp_lfanew g). rewrite sp_cksum_eq.
  intros H Hl. repeat break_if H. apply Ok_inj in H as <-.
  rewrite write_at_same, le_enc_zlen by (rewrite ?le_enc_zlen; lia). split; [lia|reflexivity].
Qed.

Lemma asc2 off1 old1 b1 off2 old2 b2 L : 0 <= off1 -> 0 <= old1 -> off1 + old1 <= off2 -> 0 <= old2 -> off2 + old2 <= L ->
  asc_disjoint 0 [mkPatch off1 old1 b1; mkPatch off2 old2 b2] L = true.
Proof. intros. cbn [asc_disjoint p_off p_old]. lia. Qed.

Lemma too_big_iff n : pe_mp_too_big n = (4294967296 <=? n).
Proof. unfold pe_mp_too_big. change (Z.shiftl 1 32) with 4294967296. lia. Qed.

(* what MakePatch and binpatch make of f: the two patches applied, CheckSum still the old one *)
Definition patched (f sig : bytes) : bytes :=
  shape f (sp_cksum f) (sp_dd4 f) (sp_payload_end f) (zslice (sp_cksum f) (sp_cksum f + 4) f)
        (dd_entry (dg_of f) sig) (cert_table (dg_of f) sig).

Lemma embed_pre_fix f last sig : accepted f last -> sp_payload_end f + padlen (sp_payload_end f) < 4294967296 ->
  embed f sig = fix_checksum (patched f sig).
Proof.
  intros Ha Hc. pose proof (acc_geom f last Ha) as G.
  unfold embed. rewrite (digest_intro f last Ha). cbn [bind]. unfold make_patch. rewrite too_big_iff.
  cbn [dg_of dg_certstart dg_posdd dg_orig dg_oldsize]. replace (_ <=? _) with false by lia.
  cbn [bind]. unfold apply_patch, pe_mp_patch1_off, pe_mp_patch1_old, pe_mp_patch2_off, pe_mp_patch2_old.
  set (cs := [mkCall _ 8 _; mkCall _ _ _]).
  assert (AS : asc_disjoint 0 (map call_patch cs) (zlen f) = true).
  { apply asc2; cbn [c_off c_old c_blob]; destruct Ha; lia. }
  destruct (add_fileorder_sound cs f AS) as [AS2 SP]. rewrite (rewrite_sorted _ _ AS2), SP.
  cbn [cs map call_patch c_off c_old c_blob splice fold_right p_off p_old p_blob].
  rewrite (patched_shape f (sp_cksum f)) by (destruct Ha; lia). reflexivity.
Qed.

Lemma zlen_dd_entry d sig : zlen (dd_entry d sig) = 8.
Proof. unfold dd_entry. rewrite zlen_app, !le_enc_zlen. reflexivity. Qed.

Lemma all_bytes_dd_entry d sig : all_bytes (dd_entry d sig) = true.
Proof. unfold dd_entry. now rewrite all_bytes_app, !le_enc_bytes. Qed.
Lemma all_bytes_cert_table d sig : all_bytes sig = true -> all_bytes (cert_table d sig) = true.
Proof.
  intros H. unfold cert_table. destruct (pe_mp_has_pad2 _); rewrite !all_bytes_app, ?all_bytes_zeros, !le_enc_bytes, H; reflexivity.
Qed.
Lemma all_bytes_patched f sig : all_bytes f = true -> all_bytes sig = true -> all_bytes (patched f sig) = true.
Proof.
  intros Hf Hs. apply all_bytes_shape; [exact Hf|apply all_bytes_zslice, Hf|apply all_bytes_dd_entry|apply all_bytes_cert_table, Hs].
Qed.

(* it still has f's DOS header and e_lfanew, and room for the CheckSum field *)
Lemma patched_header f last sig : accepted f last -> let g0 := patched f sig in
  sp_lfanew g0 = sp_lfanew f /\ sp_cksum g0 = sp_cksum f /\ byte_at g0 0 = 77 /\ byte_at g0 1 = 90 /\ sp_cksum f + 4 <= zlen g0.
Proof.
  intros Ha g0. destruct (acc_geom f last Ha) as (G1 & G).
  assert (L4 : zlen (zslice (sp_cksum f) (sp_cksum f + 4) f) = 4) by (rewrite zlen_zslice; lia).
  destruct (shape_spec f _ _ (cert_table (dg_of f) sig) (sp_cksum f) (sp_dd4 f) (sp_payload_end f) L4 (zlen_dd_entry (dg_of f) sig))
    as (A & _ & _ & Lg); [lia..|]. fold (patched f sig) in A, Lg. fold g0 in A, Lg.
  pose proof (agree3_below _ _ _ _ _ A) as AB.
  destruct (same_fields f g0 G1 AB) as (L & _ & _ & _ & _ & _ & _ & _ & CK & _).
  destruct Ha as [(N1 & N2 & N3 & _) _ _ _ _ _ _]. pose proof (zlen_nonneg (cert_table (dg_of f) sig)).
  rewrite !(same_byte f g0 AB) by lia. repeat apply conj; assumption || lia.
Qed.

Lemma embed_shape f last sig : accepted f last -> sp_payload_end f + padlen (sp_payload_end f) < 4294967296 ->
  exists c4, zlen c4 = 4 /\ all_bytes c4 = true /\
    embed f sig = Ok (shape f (sp_cksum f) (sp_dd4 f) (sp_payload_end f) c4 (dd_entry (dg_of f) sig) (cert_table (dg_of f) sig)).
Proof.
  intros Ha Hc. rewrite (embed_pre_fix f last sig Ha Hc). pose proof (acc_geom f last Ha) as G.
  destruct (patched_header f last sig Ha) as (L & CK & B0 & B1 & Lg).
  rewrite fix_checksum_intro, CK by (rewrite ?CK, ?L; lia || assumption).
  unfold patched. rewrite replace_ck by (rewrite ?zlen_zslice; lia).
  eexists. split; [|split; [|reflexivity]]; [apply le_enc_zlen|apply le_enc_bytes].
Qed.

(* the length MakePatch pads a blob to *)
Lemma padded_zlen (l : bytes) : 0 <= zlen l <= pe_mp_padded (zlen l) /\ pe_mp_padded (zlen l) < zlen l + 8 /\ pe_mp_padded (zlen l) mod 8 = 0.
Proof. pose proof (zlen_nonneg l). unfold pe_mp_padded. rewrite Z.quot_div_nonneg by lia. lia. Qed.

(* one WIN_CERTIFICATE entry as MakePatch writes it *)
Definition entry (sig : bytes) : bytes :=
  le_enc 4 (8 + pe_mp_padded (zlen sig)) ++ le_enc 2 512 ++ le_enc 2 2 ++ pad8 sig.
Definition sig_ok (sig : bytes) : Prop := zlen sig < 4294967296 - 24.

Lemma zlen_pad8 sig : zlen (pad8 sig) = pe_mp_padded (zlen sig).
Proof.
  pose proof (padded_zlen sig). unfold pad8. rewrite zlen_app, zlen_zeros; lia.
Qed.
Lemma zlen_entry sig : zlen (entry sig) = 8 + pe_mp_padded (zlen sig).
Proof. unfold entry. rewrite !zlen_app, zlen_pad8, !le_enc_zlen. lia. Qed.

(* for a digest d with original size e and certificate start e + p *)
Lemma cert_table_eq d sig e p : dg_orig d = e -> dg_certstart d = e + p -> 0 <= p -> sig_ok sig ->
  cert_table d sig = zeros p ++ entry sig.
Proof.
  intros Ho Hc Hp Hs. pose proof (padded_zlen sig) as P1. unfold sig_ok in Hs.
  unfold cert_table, entry, pad8, pe_mp_pad2, pe_mp_has_pad2, pe_mp_length, pe_mp_revision, pe_mp_certtype, pe_mp_sig_pad,
    pe_certinfo_w_Length, pe_certinfo_w_Revision, pe_certinfo_w_CertificateType.
  rewrite Ho, Hc, Z.add_simpl_l, Z.mod_small by lia. f_equal. destruct (_ =? 0) eqn:E; [|reflexivity]. now rewrite zeros_neg by lia.
Qed.
Lemma dd_entry_eq d sig e p : dg_orig d = e -> dg_certstart d = e + p -> 0 <= p < 8 -> 0 <= e + p < 4294967296 -> sig_ok sig ->
  dd_entry d sig = le_enc 4 (e + p) ++ le_enc 4 (8 + pe_mp_padded (zlen sig)).
Proof.
  intros Ho Hc Hp He Hs. pose proof (padded_zlen sig) as P1.
  unfold dd_entry. rewrite (cert_table_eq d sig e p), zlen_app, zlen_zeros, zlen_entry by (assumption || lia). unfold sig_ok in Hs.
  unfold pe_mp_dd_va, pe_mp_dd_size, pe_mp_pad2, wrap32. rewrite Ho, Hc, Z.add_simpl_l, !Z.mod_small by lia. do 2 f_equal. lia.
Qed.

Lemma walk_entry sig k : sig_ok sig -> walk_table (S k) (entry sig) = ([pad8 sig], 0).
Proof.
  intros Hs. pose proof (padded_zlen sig) as P1. unfold sig_ok in Hs. pose proof (zlen_entry sig) as LE. set (P := pe_mp_padded (zlen sig)) in *.
  cbn [walk_table]. unfold pe_cs_more, pe_cs_short, pe_cs_wlen_len, pe_cs_end, pe_cs_size, pe_cs_invalid, pe_cs_rest_lo,
    pe_cs_cert_lo, pe_cs_cert_hi. rewrite LE.
  assert (W : le_dec (ztake 4 (entry sig)) = 8 + P).
  { unfold entry. fold P. rewrite ztake_app_len by apply le_enc_zlen. apply le_dec_enc. lia. }
  rewrite W. replace (Z.quot (8 + P + 7) 8 * 8) with (8 + P) by (rewrite Z.quot_div_nonneg; lia).
  replace (negb (negb (8 + P =? 0))) with false by lia. replace (8 + P <? 4) with false by lia.
  replace ((8 + P >? 8 + P) || (8 + P - 8 <? 0)) with false by lia.
  rewrite zdrop_all by lia. replace (walk_table k []) with (@nil bytes, 0) by (destruct k; reflexivity).
  cbn [fst snd]. do 2 f_equal. unfold entry. fold P. rewrite !app_assoc.
  rewrite zslice_app_r by (rewrite !zlen_app, !le_enc_zlen; lia). rewrite !zlen_app, !le_enc_zlen, zslice_0.
  apply ztake_all. rewrite zlen_pad8. fold P. lia.
Qed.

Lemma u32_pair g off x y : 0 <= off -> zslice off (off + 8) g = le_enc 4 x ++ le_enc 4 y ->
  0 <= x < 4294967296 -> 0 <= y < 4294967296 -> u32 g off = x /\ u32 g (off + 4) = y.
Proof.
  intros H0 H Hx Hy. rewrite <- (app_nil_r (le_enc 4 y)) in H. unfold u32. rewrite !zsl_eq.
  rewrite <- (zslice_sub off (off + 8) off (off + 4)), <- (zslice_sub off (off + 8) (off + 4) (off + 4 + 4)), H by lia.
  replace (off - off) with 0 by lia. replace (off + 4 - off) with 4 by lia. replace (off + 4 + 4 - off) with (4 + 4) by lia.
  rewrite zslice_app_head, zslice_app_mid by (rewrite ?le_enc_zlen; reflexivity).
  split; apply le_dec_enc; assumption.
Qed.

Lemma read_secs_same f g tbl n : forall i,
  (forall off, tbl + 40 * i <= off -> off + 4 <= tbl + 40 * (i + Z.of_nat n) -> u32 g off = u32 f off) ->
  read_secs g tbl n i = read_secs f tbl n i.
Proof.
  induction n as [|n IH]; intros i H; [reflexivity|]. cbn [read_secs]. f_equal.
  - unfold sec_entry, pe_sectbl_size, sec_off_rawptr, sec_off_rawsize. f_equal; apply H; lia.
  - apply IH. intros off H1 H2. apply H; lia.
Qed.

(* g: f with CheckSum overwritten, directory entry 4 pointing at (va, sz), and everything from the payload end on replaced
   by zero padding to 8 and sz bytes *)
Section Signed.
  Variables (f g rest : bytes) (last va sz : Z).
  Hypothesis Hb : all_bytes f = true.
  Hypothesis Ha : accepted f last.
  Hypothesis Hag : agree3 f g (sp_cksum f) (sp_dd4 f) (sp_payload_end f).
  Hypothesis Hdd : zslice (sp_dd4 f) (sp_dd4 f + 8) g = le_enc 4 va ++ le_enc 4 sz.
  Hypothesis Htl : zdrop (sp_payload_end f) g = zeros (padlen (sp_payload_end f)) ++ rest.
  Hypothesis Hva : va = sp_payload_end f + padlen (sp_payload_end f).
  Hypothesis Hsz : zlen rest = sz.
  Hypothesis Hr : 0 < sz < 4294967296 /\ va < 4294967296.
  Let G := acc_geom f last Ha.
  Let Q := padlen_range (sp_payload_end f).
  Let AB := agree3_below _ _ _ _ _ Hag.

  Lemma signed_len : zlen g = va + sz.
  Proof.
    apply (f_equal zlen) in Htl. rewrite zlen_zdrop_gen, zlen_app, zlen_zeros in Htl; lia.
  Qed.

  Lemma signed_fields :
    sp_cksum g = sp_cksum f /\ sp_dd4 g = sp_dd4 f /\ sp_cert_va g = va /\ sp_cert_size g = sz /\ sp_payload_end g = va.
  Proof.
    destruct (same_fields f g (proj1 G) AB) as (_ & _ & _ & _ & _ & _ & _ & _ & CK & DD & _).
    destruct (u32_pair g (sp_dd4 f) va sz ltac:(lia) Hdd ltac:(lia) ltac:(lia)) as [V S].
    unfold sp_payload_end, sp_cert_va, sp_cert_size. rewrite DD, V, S. replace (sz =? 0) with false by lia. auto.
  Qed.

  Lemma signed_accepted : accepted g last.
  Proof.
    destruct G as (G1 & G2 & _).
    destruct (same_fields f g G1 AB) as (L & O & N & S & _ & P & _ & SH & CK & DD & ST).
    destruct signed_fields as (_ & _ & _ & CS & PE). pose proof signed_len as Lg.
    destruct Ha as [Hnt ES Hn Ht Hl Hz He].
    destruct (scan_spec f (hv_of f) _ _ _ _ Hb (hv_of_layout f Hnt) Hn ES) as (_ & _ & _ & SG).
    constructor; rewrite ?N, ?ST, ?SH, ?PE, ?CS, ?CK, ?DD; try lia.
    - apply (same_nt_ok f g G1 AB Hnt); [|unfold sp_sectbl in *; lia].
      unfold sp_numrva. rewrite O, P. apply u32_eq, Hag; try lia; rewrite ?sp_dd4_eq, ?G2; unfold sp_opt; destruct (sp_plus f); lia.
    - rewrite (same_scan f g G1 AB). apply SG; [|lia].
      apply read_secs_same. cbn [hv_of hv_sectbl hv_nsec]. intros off H1 H2. apply u32_eq, Hag; lia.
  Qed.

  Lemma signed_pre : dg_pre (dg_of g) = dg_pre (dg_of f).
  Proof.
    destruct signed_fields as (CK & DD & _ & _ & PE).
    unfold dg_of. cbn [dg_pre]. rewrite CK, DD, PE, (padlen_aligned va), app_nil_r by (rewrite Hva; apply padlen_aligns).
    unfold lin. rewrite (zslice_split (sp_dd4 f + 8) (sp_payload_end f) va) by lia.
    do 3 rewrite Hag by lia. rewrite <- !app_assoc. do 3 f_equal.
    replace (zslice (sp_payload_end f) va g) with (zslice 0 (padlen (sp_payload_end f)) (zdrop (sp_payload_end f) g))
      by (rewrite zslice_zdrop by lia; f_equal; lia).
    rewrite Htl. apply zslice_app_head, zlen_zeros. lia.
  Qed.

  Lemma signed_spec : accepted g last /\ zlen g = va + sz /\
    (sp_cksum g = sp_cksum f /\ sp_dd4 g = sp_dd4 f /\ sp_cert_va g = va /\ sp_cert_size g = sz /\ sp_payload_end g = va) /\
    dg_pre (dg_of g) = dg_pre (dg_of f).
  Proof. exact (conj signed_accepted (conj signed_len (conj signed_fields signed_pre))). Qed.
End Signed.

Lemma embed_too_big f last sig : accepted f last -> 4294967296 <= sp_payload_end f + padlen (sp_payload_end f) ->
  embed f sig = Err E_TOOBIG.
Proof.
  intros Ha Hc. unfold embed. rewrite (digest_intro f last Ha). cbn [bind]. unfold make_patch. rewrite too_big_iff.
  cbn [dg_of dg_certstart]. now replace (_ <=? _) with true by lia.
Qed.

Record embedded (f sig g : bytes) (last : Z) : Prop := mkEmb {
  em_acc : accepted f last;
  em_acc_g : accepted g last;
  em_small : sp_payload_end f + padlen (sp_payload_end f) < 4294967296;
  em_agree : agree3 f g (sp_cksum f) (sp_dd4 f) (sp_payload_end f);
  em_tail : zdrop (sp_payload_end f) g = zeros (padlen (sp_payload_end f)) ++ entry sig;
  em_len : zlen g = sp_payload_end f + padlen (sp_payload_end f) + (8 + pe_mp_padded (zlen sig));
  em_ck : sp_cksum g = sp_cksum f;
  em_dd : sp_dd4 g = sp_dd4 f;
  em_va : sp_cert_va g = sp_payload_end f + padlen (sp_payload_end f);
  em_sz : sp_cert_size g = 8 + pe_mp_padded (zlen sig);
  em_end : sp_payload_end g = sp_payload_end f + padlen (sp_payload_end f);
  em_pre : dg_pre (dg_of g) = dg_pre (dg_of f);
  em_bytes : all_bytes sig = true -> all_bytes g = true }.

Lemma all_bytes_pad8 sig : all_bytes sig = true -> all_bytes (pad8 sig) = true.
Proof. intros H. unfold pad8. now rewrite all_bytes_app, H, all_bytes_zeros. Qed.

Lemma embed_inv f sig g : all_bytes f = true -> sig_ok sig -> embed f sig = Ok g -> exists last, embedded f sig g last.
Proof.
  intros Hb Hs H.
  destruct (digest_pe f) as [d| |] eqn:ED; try (unfold embed in H; rewrite ED in H; discriminate H).
  destruct (digest_inv f d Hb ED) as (last & Ha & _). exists last.
  pose proof (acc_geom f last Ha) as G. pose proof (padlen_range (sp_payload_end f)) as Q1.
  pose proof (padded_zlen sig) as R1.
  assert (Hc : sp_payload_end f + padlen (sp_payload_end f) < 4294967296).
  { destruct (Z_lt_ge_dec (sp_payload_end f + padlen (sp_payload_end f)) 4294967296) as [L|L]; [exact L|].
    rewrite (embed_too_big f last sig Ha) in H by lia. discriminate H. }
  destruct (embed_shape f last sig Ha Hc) as (c4 & L4 & B4 & EQ). rewrite H in EQ. apply Ok_inj in EQ.
  destruct (shape_spec f c4 _ (cert_table (dg_of f) sig) (sp_cksum f) (sp_dd4 f) (sp_payload_end f) L4 (zlen_dd_entry (dg_of f) sig))
    as (A & D & T & _); [lia..|].
  rewrite <- EQ in A, D, T.
  rewrite (dd_entry_eq (dg_of f) sig _ _ (dg_of_orig f) (dg_of_certstart f)) in D by (assumption || lia).
  rewrite (cert_table_eq (dg_of f) sig _ _ (dg_of_orig f) (dg_of_certstart f)) in T by (assumption || lia).
  pose proof (zlen_entry sig) as LE. unfold sig_ok in Hs.
  destruct (signed_spec f g _ last _ _ Hb Ha A D T eq_refl LE ltac:(lia)) as (Hg & Lg & (F1 & F2 & F3 & F4 & F5) & PR).
  constructor; try assumption.
  intros Bs. rewrite EQ. apply all_bytes_shape; try assumption; [apply all_bytes_dd_entry|apply all_bytes_cert_table, Bs].
Qed.

(* L2: the digest input ignores the signature that was just embedded *)
Lemma law_hashin_pe f sig g : all_bytes f = true -> sig_ok sig -> embed f sig = Ok g -> hashin g = hashin f.
Proof.
  intros Hb Hs H. destruct (embed_inv f sig g Hb Hs H) as (last & E).
  now rewrite (hashin_intro g last (em_acc_g _ _ _ _ E)), (hashin_intro f last (em_acc _ _ _ _ E)), (em_pre _ _ _ _ E).
Qed.

(* L1: the verifier finds the embedded blob (zero padded to the 8-byte boundary MakePatch pads to) *)
Lemma find_table_embedded f sig g : all_bytes f = true -> sig_ok sig -> embed f sig = Ok g -> find_table g = Ok (Some (entry sig)).
Proof.
  intros Hb Hs H. destruct (embed_inv f sig g Hb Hs H) as (last & [Ha Hg Hc A T Lg CK DD VA SZ PE _ _]).
  pose proof (acc_geom f last Ha) as G. pose proof (padlen_range (sp_payload_end f)) as Q1.
  pose proof (padded_zlen sig) as R1.
  unfold find_table, pe_vf_not_signed. rewrite (read_nt_intro g (acc_nt _ _ Hg)). cbn [bind hv_of hv_certstart hv_certsize]. rewrite VA, SZ.
  replace (_ =? 0) with false by lia. replace (zlen g <? _) with false by lia. do 2 f_equal.
  rewrite <- Lg, zslice_to_end, Z.add_comm, <- zdrop_zdrop, T, zdrop_app_len by (rewrite ?zlen_zeros; lia). reflexivity.
Qed.

Lemma law_extract_pe f sig g : all_bytes f = true -> sig_ok sig -> embed f sig = Ok g ->
  extract_all g = Ok (Some [pad8 sig]) /\ extract g = Ok (Some (pad8 sig)).
Proof.
  intros Hb Hs H. assert (E : extract_all g = Ok (Some [pad8 sig])).
  { unfold extract_all. rewrite (find_table_embedded f sig g Hb Hs H). cbn [bind]. now rewrite walk_entry. }
  split; [exact E|]. unfold extract. now rewrite E.
Qed.

(* MakePatch pads: a blob and its padded form embed identically *)
Lemma padded_idem n : 0 <= n -> pe_mp_padded (pe_mp_padded n) = pe_mp_padded n.
Proof. intros H. unfold pe_mp_padded. rewrite !Z.quot_div_nonneg by lia. lia. Qed.
Lemma embed_pad8 f sig : embed f (pad8 sig) = embed f sig.
Proof.
  assert (C : forall d, cert_table d (pad8 sig) = cert_table d sig).
  { intros d. unfold cert_table, pe_mp_sig_pad. now rewrite zlen_pad8, padded_idem, Z.sub_diag, zeros_0, app_nil_r by apply zlen_nonneg. }
  unfold embed. destruct (digest_pe f) as [d| |]; cbn [bind]; try reflexivity.
  unfold make_patch, dd_entry. now rewrite C.
Qed.

(* the independent reader's view: the file up to the payload end with the two fields zeroed, zero padded to 8 *)
Lemma payload_view_shape f last : accepted f last ->
  payload_view f = shape f (sp_cksum f) (sp_dd4 f) (sp_payload_end f) (zeros 4) (zeros 8) (zeros (padlen (sp_payload_end f))).
Proof.
  intros Ha. pose proof (acc_geom f last Ha) as G.
  assert (P : protected f = shape f (sp_cksum f) (sp_dd4 f) (sp_payload_end f) (zeros 4) (zeros 8) []).
  { unfold protected, mask_fields, shape. rewrite !ztk_eq, zsl_eq, zdp_eq, ztake_ztake, zslice_ztake, zdrop_ztake by lia.
    now rewrite Z.min_l, <- zslice_0, app_nil_r by lia. }
  unfold payload_view, pad_to8. rewrite P, shape_len, zlen_nil, Z.add_0_r by (reflexivity || lia).
  unfold shape. now rewrite <- !app_assoc.
Qed.

Lemma payload_view_bytes f last : accepted f last ->
  zlen (payload_view f) = sp_payload_end f + padlen (sp_payload_end f) /\
  (forall i, sp_payload_end f <= i -> byte_at (payload_view f) i = 0) /\
  forall i, 0 <= i < sp_payload_end f -> ~ (sp_cksum f <= i < sp_cksum f + 4) -> ~ (sp_dd4 f <= i < sp_dd4 f + 8) ->
    byte_at (payload_view f) i = byte_at f i.
Proof.
  intros Ha. pose proof (acc_geom f last Ha) as G. pose proof (padlen_range (sp_payload_end f)) as Q.
  rewrite (payload_view_shape f last Ha).
  destruct (shape_spec f (zeros 4) (zeros 8) (zeros (padlen (sp_payload_end f))) (sp_cksum f) (sp_dd4 f) (sp_payload_end f) eq_refl eq_refl ltac:(lia) ltac:(lia) ltac:(lia))
    as (A & _ & T & Lg).
  split; [|split].
  - rewrite Lg, zlen_zeros; lia.
  - intros i Hi. rewrite <- (byte_at_zdrop _ (sp_payload_end f)), T by lia. apply byte_at_zeros.
  - intros i Hi N1 N2. apply (agree3_byte f _ _ _ _ i A); lia.
Qed.

Lemma lin_prefix f ck dd e z : 0 <= ck <= zlen f -> agree_below f (lin f ck dd e ++ z) ck.
Proof.
  intros H a b H1 H2 H3. unfold lin. rewrite <- !app_assoc, zslice_app_l, zslice_0 by (rewrite ?zlen_zslice; lia).
  apply zslice_ztake; lia.
Qed.

(* the digest input begins with the file's headers up to CheckSum: the field offsets can be read from it *)
Lemma pre_fields f last : accepted f last ->
  sp_cksum (dg_pre (dg_of f)) = sp_cksum f /\ sp_dd4 (dg_pre (dg_of f)) = sp_dd4 f.
Proof.
  intros Ha. destruct (acc_geom f last Ha) as (G1 & G2 & G3 & G4 & G5 & G6 & G7).
  destruct (same_fields f (dg_pre (dg_of f)) G1) as (_ & _ & _ & _ & _ & _ & _ & _ & CK & DD & _); [|now split].
  apply lin_prefix. lia.
Qed.

(* put the two excluded fields back into a digest input, as zeros *)
Definition unmask (pre : bytes) : bytes :=
  ztake (sp_cksum pre) pre ++ zeros 4 ++ zslice (sp_cksum pre) (sp_dd4 pre - 4) pre ++ zeros 8 ++ zdrop (sp_dd4 pre - 4) pre.

Theorem payload_of_pre f last : accepted f last -> payload_view f = unmask (dg_pre (dg_of f)).
Proof.
  intros Ha. pose proof (acc_geom f last Ha) as G. destruct (pre_fields f last Ha) as [CK DD].
  unfold unmask. rewrite CK, DD, (payload_view_shape f last Ha). unfold dg_of, lin, shape. cbn [dg_pre].
  assert (LA : zlen (zslice 0 (sp_cksum f) f) = sp_cksum f) by (rewrite zlen_zslice; lia).
  assert (LB : zlen (zslice (sp_cksum f + 4) (sp_dd4 f) f) = sp_dd4 f - 4 - sp_cksum f) by (rewrite zlen_zslice; lia).
  rewrite <- !app_assoc, ztake_app_len, zslice_app_mid by lia.
  rewrite (app_assoc (zslice 0 _ f) (zslice _ _ f)), zdrop_app_len by (rewrite zlen_app; lia). reflexivity.
Qed.

(* L3: the independent reader's view is unchanged *)
Lemma law_payload_pe f sig g : all_bytes f = true -> sig_ok sig -> embed f sig = Ok g -> payload_view g = payload_view f.
Proof.
  intros Hb Hs H. destruct (embed_inv f sig g Hb Hs H) as (last & E).
  now rewrite (payload_of_pre g last (em_acc_g _ _ _ _ E)), (payload_of_pre f last (em_acc _ _ _ _ E)), (em_pre _ _ _ _ E).
Qed.

(* L4: equal digest inputs force equal protected bytes (up to the zero padding in front of the certificate table) *)
Lemma protect_pe g1 g2 pre : all_bytes g1 = true -> all_bytes g2 = true -> hashin g1 = Ok pre -> hashin g2 = Ok pre ->
  pad_to8 (protected g1) = pad_to8 (protected g2).
Proof.
  intros Hb1 Hb2 H1 H2. destruct (hashin_inv g1 pre Hb1 H1) as (l1 & A1 & P1). destruct (hashin_inv g2 pre Hb2 H2) as (l2 & A2 & P2).
  change (payload_view g1 = payload_view g2). now rewrite (payload_of_pre g1 l1 A1), (payload_of_pre g2 l2 A2), <- P1, <- P2.
Qed.

(* C05: the Authenticode algorithm on its own domain *)
Lemma sp_insert_forall (P : Z * Z -> Prop) s l : P s -> Forall P l -> Forall P (sp_insert s l).
Proof.
  intros Hs Hl. induction Hl as [|t r Ht Hr IH]; cbn [sp_insert]; [repeat constructor; exact Hs|].
  destruct (fst t <? fst s); constructor; auto.
Qed.
Lemma sp_sorted_forall (P : Z * Z -> Prop) f : Forall P (sp_secs f) -> Forall P (sp_sorted f).
Proof.
  unfold sp_sorted. generalize (sp_secs f). intros l H.
  induction H as [|s r Hs Hr IH]; cbn [filter fold_right]; [constructor|].
  destruct (negb (snd s =? 0)); cbn [fold_right]; [apply sp_insert_forall; assumption|exact IH].
Qed.
Lemma sp_secs_nonneg f : all_bytes f = true -> nonneg_sizes (sp_secs f).
Proof.
  intros Hb. apply Forall_forall. intros s Hs. apply in_map_iff in Hs. destruct Hs as (i & <- & _). apply u32_range, Hb.
Qed.

(* sections that tile the file from pos on, concatenated, are one stretch of it *)
Lemma tiles_concat f l : forall pos, sp_tiles l pos = true -> nonneg_sizes l -> 0 <= pos ->
  pos <= fold_left (fun a s => a + snd s) l pos /\
  concat (map (fun s => zsl (fst s) (fst s + snd s) f) l) = zslice pos (fold_left (fun a s => a + snd s) l pos) f.
Proof.
  induction l as [|s r IH]; intros pos Ht Hn Hp; cbn [sp_tiles map concat fold_left] in *.
  - rewrite zslice_nil_ge by lia. split; [lia|reflexivity].
  - inversion Hn; subst. apply andb_true_iff in Ht as [E1 Ht]. destruct (IH (pos + snd s)) as [B E]; [assumption..|lia|].
    replace (fst s) with pos by lia. rewrite zsl_eq, E, <- zslice_split by lia. split; [lia|reflexivity].
Qed.

Lemma lin_eq_spec f last : all_bytes f = true -> accepted f last -> spec_contig f = true ->
  spec_hashin f = lin f (sp_cksum f) (sp_dd4 f) (sp_payload_end f).
Proof.
  intros Hb Ha Hc. pose proof (acc_geom f last Ha) as G. destruct Ha as [_ _ Hn Ht _ Hz He].
  unfold spec_contig in Hc. apply andb_true_iff in Hc as [Hc C3]. apply andb_true_iff in Hc as [C1 C2].
  destruct (tiles_concat f _ _ C1 (sp_sorted_forall _ f (sp_secs_nonneg f Hb))) as [Sge TC]; [lia|].
  fold (sp_sum f) in Sge, TC. unfold spec_hashin, lin. rewrite TC, !zsl_eq, (zslice_join (sp_dd4 f + 8)) by lia. do 2 f_equal.
  unfold sp_payload_end in *. destruct (sp_cert_size f =? 0) eqn:EZ.
  - replace (sp_sum f + _) with (zlen f) by lia. destruct (zlen f >? sp_sum f) eqn:EG.
    + symmetry. apply zslice_split; lia.
    + rewrite app_nil_r. f_equal. lia.
  - replace (zlen f >? sp_sum f) with true by lia. replace (sp_sum f + _) with (sp_cert_va f) by lia.
    symmetry. apply zslice_split; lia.
Qed.

(* an accepted file below 4 GiB - 8 can always be signed, whatever the blob *)
Lemma embed_defined f sig pre : all_bytes f = true -> hashin f = Ok pre -> zlen f <= 4294967296 - 8 -> exists g, embed f sig = Ok g.
Proof.
  intros Hb H Hl. destruct (hashin_inv f pre Hb H) as (last & Ha & _).
  destruct (acc_geom f last Ha) as (_ & _ & _ & _ & _ & _ & G7). pose proof (padlen_range (sp_payload_end f)).
  destruct (embed_shape f last sig Ha) as (c4 & _ & _ & E); [lia|eauto].
Qed.

(* the format, as an instance of Laws/Pipeline.v *)
Definition E_DOMAIN := 200.
(* embed restricted to the domain of the laws: byte strings, blob below 4 GiB and already 8-aligned (MakePatch pads every
   blob to 8 bytes, and the verifier returns the padded form; embed_pad8 lifts the restriction) *)
Definition blob_dom (b : bytes) : bool := (zlen b <? 4294967296 - 32) && (zlen b mod 8 =? 0).
Definition embed_dom (f b : bytes) : result bytes :=
  if all_bytes f && all_bytes b && blob_dom b then embed f b else Err E_DOMAIN.
Definition pe_format : format bytes := mkFormat bytes hashin embed_dom extract payload.

Lemma embed_dom_inv f b g : embed_dom f b = Ok g ->
  all_bytes f = true /\ all_bytes b = true /\ sig_ok b /\ pad8 b = b /\ embed f b = Ok g.
Proof.
  unfold embed_dom, blob_dom, sig_ok. destruct (all_bytes f); [|discriminate]. destruct (all_bytes b); [|discriminate].
  destruct (_ && _) eqn:E; [|discriminate]. intros H. repeat apply conj; try assumption; try lia.
  unfold pad8, pe_mp_padded. pose proof (zlen_nonneg b). rewrite Z.quot_div_nonneg by lia.
  replace (_ - zlen b) with 0 by lia. apply app_nil_r.
Qed.

Lemma pe_L1 : law_extract bytes pe_format.
Proof.
  intros f b g H. destruct (embed_dom_inv f b g H) as (Hf & Hb & Ho & Hp & E).
  cbn [f_extract pe_format]. rewrite <- Hp. exact (proj2 (law_extract_pe f b g Hf Ho E)).
Qed.
Lemma pe_L2 : law_hashin bytes pe_format.
Proof. intros f b g H. destruct (embed_dom_inv f b g H) as (Hf & Hb & Ho & Hp & E). exact (law_hashin_pe f b g Hf Ho E). Qed.
Lemma pe_L3 : law_payload bytes pe_format.
Proof.
  intros f b g H. destruct (embed_dom_inv f b g H) as (Hf & Hb & Ho & Hp & E).
  cbn [f_payload pe_format]. unfold payload. f_equal. exact (law_payload_pe f b g Hf Ho E).
Qed.

Section PEPipeline.
  (* symbolic cryptography and CMS encoding, exactly as in Laws/Pipeline.v *)
  Variables key pubk sigv : Type.
  Variable H : Z -> bytes -> bytes.
  Variable pub : key -> pubk.
  Variable sign : key -> bytes -> sigv.
  Variable vrfy : pubk -> bytes -> sigv -> bool.
  Hypothesis sign_correct : forall k m, vrfy (pub k) m (sign k m) = true.
  Variable tbs : Z -> bytes -> bytes.
  Variable ser0 : sigblob pubk sigv -> bytes.                 (* DER encoding of the SignedData *)
  Variable deser0 : bytes -> option (sigblob pubk sigv).      (* pkcs7.Unmarshal: trailing zero bytes are ignored *)
  Hypothesis deser_padded : forall b n, deser0 (ser0 b ++ zeros n) = Some b.
  Hypothesis ser_bytes : forall b, all_bytes (ser0 b) = true.
  (* NOTE: no hypothesis bounds the length of EVERY encoding (with deser_padded that would be unsatisfiable: an injective
     encoding of infinitely many blobs cannot be bounded); the bound is a premise on the blobs actually embedded *)

  Let ser (b : sigblob pubk sigv) : bytes := pad8 (ser0 b).
  Let deser_ser : forall b, deser0 (ser b) = Some b.
  Proof. intros b. unfold ser, pad8. apply deser_padded. Qed.

  (* the SignedData produced for digest input pre by key k with algorithm a fits a certificate table (< 4 GiB) *)
  Definition small_for (pre : bytes) (k : key) (a : Z) : Prop :=
    zlen (ser0 (mksig key pubk sigv pub sign tbs k a (H a pre))) < 4294967296 - 40.

  (* relic's signing and re-signing on the faithful functions *)
  Definition sign_pe (k : key) (a : Z) (f : bytes) : result bytes :=
    pre <- hashin f ;; embed f (ser0 (mksig key pubk sigv pub sign tbs k a (H a pre))).
  Fixpoint resign_pe (hist : list (key * Z)) (f : bytes) : result bytes :=
    match hist with
    | [] => Ok f
    | (k, a) :: r => g <- sign_pe k a f ;; resign_pe r g
    end.
  Definition verify_pe (g : bytes) : verdict pubk := verify_file pubk sigv H vrfy tbs deser0 bytes pe_format g.

  Lemma blob_dom_ser b : zlen (ser0 b) < 4294967296 - 40 -> blob_dom (ser b) = true.
  Proof.
    intros Hs. unfold blob_dom, ser. rewrite zlen_pad8. pose proof (padded_zlen (ser0 b)). lia.
  Qed.
  Lemma sign_file_eq k a f : all_bytes f = true -> (forall pre, hashin f = Ok pre -> small_for pre k a) ->
    sign_file key pubk sigv H pub sign tbs ser bytes pe_format k a f = sign_pe k a f.
  Proof.
    intros Hf Hs. unfold sign_file, sign_pe. cbn [f_hashin f_embed pe_format].
    destruct (hashin f) as [pre| |]; cbn [bind]; try reflexivity.
    unfold embed_dom. rewrite Hf, blob_dom_ser by (apply Hs; reflexivity). unfold ser at 1. rewrite all_bytes_pad8 by apply ser_bytes. cbn [andb].
    unfold ser. apply embed_pad8.
  Qed.
  Lemma sign_pe_inv k a f g : all_bytes f = true -> (forall pre, hashin f = Ok pre -> small_for pre k a) -> sign_pe k a f = Ok g ->
    all_bytes g = true /\ hashin g = hashin f.
  Proof.
    intros Hf Hsm Hs. unfold sign_pe in Hs. destruct (hashin f) as [pre| |] eqn:E; cbn [bind] in Hs; try discriminate.
    assert (So : sig_ok (ser0 (mksig key pubk sigv pub sign tbs k a (H a pre))))
      by (pose proof (Hsm pre eq_refl) as S; unfold sig_ok, small_for in *; lia).
    split.
    - destruct (embed_inv _ _ _ Hf So Hs) as (last & Em). apply (em_bytes _ _ _ _ Em), ser_bytes.
    - rewrite <- E. exact (law_hashin_pe _ _ _ Hf So Hs).
  Qed.
  Lemma resign_eq hist : forall f, all_bytes f = true ->
    (forall pre k a, hashin f = Ok pre -> In (k, a) hist -> small_for pre k a) ->
    resign key pubk sigv H pub sign tbs ser bytes pe_format hist f = resign_pe hist f.
  Proof.
    induction hist as [|[k a] r IH]; intros f Hf Hs; [reflexivity|].
    cbn [resign resign_pe]. rewrite sign_file_eq by (try exact Hf; intros pre E; apply (Hs pre k a E); left; reflexivity).
    destruct (sign_pe k a f) as [g| |] eqn:E; cbn [bind]; try reflexivity.
    destruct (sign_pe_inv k a f g Hf ltac:(intros pre E'; apply (Hs pre k a E'); left; reflexivity) E) as [Bg Hg].
    apply IH; [exact Bg|]. intros pre k' a' E' I. apply (Hs pre k' a'); [rewrite <- Hg; exact E'|right; exact I].
  Qed.

  (* C01 *)
  Theorem sign_then_verify_pe k a f g : all_bytes f = true -> (forall pre, hashin f = Ok pre -> small_for pre k a) ->
    sign_pe k a f = Ok g -> verify_pe g = Accept pubk (pub k) a.
  Proof.
    intros Hf Hsm Hs. rewrite <- sign_file_eq in Hs by assumption.
    exact (sign_then_verify key pubk sigv H pub sign vrfy sign_correct tbs ser deser0 deser_ser bytes pe_format pe_L1 pe_L2 k a f g Hs).
  Qed.
  (* C08 *)
  Theorem resign_history_pe hist f g k a : all_bytes f = true ->
    (forall pre k' a', hashin f = Ok pre -> In (k', a') (hist ++ [(k, a)]) -> small_for pre k' a') ->
    resign_pe (hist ++ [(k, a)]) f = Ok g ->
    verify_pe g = Accept pubk (pub k) a /\ is_signed bytes pe_format g = true /\ payload g = payload f /\ hashin g = hashin f.
  Proof.
    intros Hf Hsm Hs. rewrite <- resign_eq in Hs by assumption.
    exact (resign_history key pubk sigv H pub sign vrfy sign_correct tbs ser deser0 deser_ser bytes pe_format pe_L1 pe_L2 pe_L3 hist f g k a Hs).
  Qed.

  (* C02: under the symbolic idealisation, an accepted file has the protected bytes of the file that was signed *)
  Variable issued : key -> Z -> bytes -> Prop.
  Hypothesis unforgeable : forall k a d s, vrfy (pub k) (tbs a d) s = true -> issued k a d.
  Theorem tamper_rejected_pe g g' k a pre : all_bytes g = true -> all_bytes g' = true ->
    (forall d, issued k a d -> d = H a pre) -> (forall x y, H a x = H a y -> x = y) ->
    hashin g = Ok pre -> verify_pe g' = Accept pubk (pub k) a ->
    pad_to8 (protected g') = pad_to8 (protected g).
  Proof.
    intros Hg Hg' Honly Hinj Hh Hv.
    pose proof (tamper_rejected_preimage key pubk sigv H pub vrfy tbs deser0 bytes pe_format issued unforgeable g g' k a pre Honly Hinj Hh Hv) as Hp.
    cbn [f_hashin pe_format] in Hp. exact (protect_pe g' g pre Hg' Hg Hp Hh).
  Qed.
End PEPipeline.
