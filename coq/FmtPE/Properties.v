(* FmtPE/Properties.v — the property theorems for the PE/COFF Authenticode format module (lib/authenticode pedigest / pesign /
   peverify / checksum), each derived from the lemmas of FmtPE/Proofs.v and FmtPE/ProofsB.v.  The functions are those of
   FmtPE/Model.v: hashin / embed / extract (relic's DigestPE, MakePatch + binpatch + FixPEChecksum, VerifyPE up to the
   certificate-table walk) and the specification side sp_*, spec_hashin, spec_contig, spec_checksum, protected, payload.
   Grouped by the property served (C01 C08 C03 C02 C05); checks/fmtpe.py ASPECT_THEOREMS carries the same table. *)
From Relic Require Import Base.Prelude Base.Enc Generated.FmtPE_gen C12.Model FmtPE.Model FmtPE.Proofs FmtPE.ProofsB Laws.Pipeline Base.Slice.

(* C01 (L1, law_extract): the verifier finds exactly one entry in the output of embed: the blob, zero padded to the 8-byte
   boundary MakePatch pads to (pkcs7.Unmarshal ignores the padding) *)
Theorem pe_law_extract : forall f sig g,
  all_bytes f = true -> zlen sig < 4294967296 - 24 -> embed f sig = Ok g ->
  extract_all g = Ok (Some [pad8 sig]) /\ extract g = Ok (Some (pad8 sig)).
Proof. exact FmtPE.Proofs.law_extract_pe. Qed.

(* C01 (L1 literally): on blobs whose length is a multiple of 8 the verifier finds the blob itself *)
Theorem pe_law_extract_aligned : forall f b g,
  all_bytes f = true -> all_bytes b = true -> zlen b < 4294967296 - 32 -> zlen b mod 8 = 0 ->
  embed f b = Ok g -> extract g = Ok (Some b).
Proof.
  intros f b g Hf Hb Hl Hm H. apply (pe_L1 f b g). cbn [f_embed pe_format]. unfold embed_dom, blob_dom. rewrite Hf, Hb.
  now replace (_ && _) with true by lia.
Qed.

(* C01 / C08 (L2, law_hashin): the digest input of the signed file is the digest input of the file: DigestPE skips the
   certificate table, the directory entry and the checksum that signing has just written *)
Theorem pe_law_hashin : forall f sig g,
  all_bytes f = true -> zlen sig < 4294967296 - 24 -> embed f sig = Ok g -> hashin g = hashin f.
Proof. exact FmtPE.Proofs.law_hashin_pe. Qed.

(* C01 / C03 / C08: the three laws of Laws/Pipeline.v for the format (embed restricted to byte strings and 8-aligned blobs
   below 4 GiB: pe_format, FmtPE/Proofs.v) *)
Theorem pe_format_laws :
  law_extract bytes pe_format /\ law_hashin bytes pe_format /\ law_payload bytes pe_format.
Proof. exact (conj FmtPE.Proofs.pe_L1 (conj FmtPE.Proofs.pe_L2 FmtPE.Proofs.pe_L3)). Qed.

Section Crypto.
  (* symbolic cryptography and CMS encoding, as in Laws/Pipeline.v; pkcs7.Unmarshal ignores trailing zero bytes *)
  Variables key pubk sigv : Type.
  Variable H : Z -> bytes -> bytes.
  Variable pub : key -> pubk.
  Variable sign : key -> bytes -> sigv.
  Variable vrfy : pubk -> bytes -> sigv -> bool.
  Hypothesis sign_correct : forall k m, vrfy (pub k) m (sign k m) = true.
  Variable tbs : Z -> bytes -> bytes.
  Variable ser0 : sigblob pubk sigv -> bytes.
  Variable deser0 : bytes -> option (sigblob pubk sigv).
  Hypothesis deser_padded : forall b n, deser0 (ser0 b ++ zeros n) = Some b.
  Hypothesis ser_bytes : forall b, all_bytes (ser0 b) = true.

  (* C01 (sign_then_verify instantiated): whatever relic signs — digest of the input, SignedData for it embedded by
     MakePatch — is accepted by the verifier under the signing key's certificate and the requested digest algorithm.
     The only premise besides the symbolic crypto: the SignedData fits a certificate table (< 4 GiB) *)
  Theorem pe_sign_then_verify : forall k a f g,
    all_bytes f = true ->
    (forall pre, hashin f = Ok pre -> zlen (ser0 (mksig key pubk sigv pub sign tbs k a (H a pre))) < 4294967296 - 40) ->
    (pre <- hashin f ;; embed f (ser0 (mksig key pubk sigv pub sign tbs k a (H a pre)))) = Ok g ->
    verify_file pubk sigv H vrfy tbs deser0 bytes pe_format g = Accept pubk (pub k) a.
  Proof. exact (FmtPE.Proofs.sign_then_verify_pe key pubk sigv H pub sign vrfy sign_correct tbs ser0 deser0 deser_padded ser_bytes). Qed.

  (* C08 (resign_history instantiated): after any history of signing and re-signing the file verifies under the LAST key,
     is signed, and has the payload and the digest input of the original *)
  Theorem pe_resign_history : forall hist f g k a,
    all_bytes f = true ->
    (forall pre k' a', hashin f = Ok pre -> In (k', a') (hist ++ [(k, a)]) ->
       zlen (ser0 (mksig key pubk sigv pub sign tbs k' a' (H a' pre))) < 4294967296 - 40) ->
    resign_pe key pubk sigv H pub sign tbs ser0 (hist ++ [(k, a)]) f = Ok g ->
    verify_file pubk sigv H vrfy tbs deser0 bytes pe_format g = Accept pubk (pub k) a /\
    is_signed bytes pe_format g = true /\ payload g = payload f /\ hashin g = hashin f.
  Proof. exact (FmtPE.Proofs.resign_history_pe key pubk sigv H pub sign vrfy sign_correct tbs ser0 deser0 deser_padded ser_bytes). Qed.

  (* C02 (tamper_rejected_preimage + pe_protect): under the symbolic idealisation (unforgeable signatures, collision-free
     digest), a file accepted under k's certificate has the protected bytes of the file k signed *)
  Variable issued : key -> Z -> bytes -> Prop.
  Hypothesis unforgeable : forall k a d s, vrfy (pub k) (tbs a d) s = true -> issued k a d.
  Theorem pe_tamper_rejected : forall g g' k a pre,
    all_bytes g = true -> all_bytes g' = true ->
    (forall d, issued k a d -> d = H a pre) -> (forall x y, H a x = H a y -> x = y) ->
    hashin g = Ok pre -> verify_file pubk sigv H vrfy tbs deser0 bytes pe_format g' = Accept pubk (pub k) a ->
    pad_to8 (protected g') = pad_to8 (protected g).
  Proof. exact (FmtPE.Proofs.tamper_rejected_pe key pubk sigv H pub vrfy tbs deser0 issued unforgeable). Qed.
End Crypto.

(* C01 (refusals): (1) whatever DigestPE refuses is not signed (embed returns no file; the harness checks the input is left
   untouched); (2) the only refusal after an accepted digest is the 4 GiB limit of MakePatch; (3) the refusal class of
   DigestPE, contraposed: an accepted file has MZ, e_lfanew >= 64, "PE\0\0", a PE32/PE32+ magic, NumberOfRvaAndSizes >= 5,
   a full-size optional header inside the file, the section table inside SizeOfHeaders, and its certificate table, if any,
   is the tail of the file *)
Theorem pe_refuses_clean :
  (forall f sig, is_ok (hashin f) = false -> is_ok (embed f sig) = false) /\
  (forall f sig pre, all_bytes f = true -> hashin f = Ok pre ->
     4294967296 <= sp_payload_end f + (8 - sp_payload_end f mod 8) mod 8 -> embed f sig = Err E_TOOBIG) /\
  (forall f pre, all_bytes f = true -> hashin f = Ok pre ->
     64 <= zlen f /\ byte_at f 0 = 77 /\ byte_at f 1 = 90 /\ 64 <= sp_lfanew f /\
     byte_at f (sp_lfanew f) = 80 /\ byte_at f (sp_lfanew f + 1) = 69 /\ byte_at f (sp_lfanew f + 2) = 0 /\ byte_at f (sp_lfanew f + 3) = 0 /\
     (sp_magic f = 267 \/ sp_magic f = 523) /\ 5 <= sp_numrva f /\ (if sp_plus f then 240 else 224) <= sp_optsize f /\
     sp_opt f + sp_optsize f <= zlen f /\ sp_sectbl f + 40 * sp_nsec f <= sp_soh f /\
     sp_dd4 f + 8 <= sp_payload_end f /\ sp_payload_end f <= zlen f /\
     (sp_cert_size f = 0 \/ sp_cert_va f + sp_cert_size f = zlen f)).
Proof.
  split; [|split].
  - intros f sig. unfold hashin, embed. now destruct (digest_pe f).
  - intros f sig pre Hb H Hl. destruct (hashin_inv f pre Hb H) as (last & Ha & _). exact (embed_too_big f last sig Ha Hl).
  - intros f pre Hb H. destruct (hashin_inv f pre Hb H) as (last & Ha & _).
    pose proof (acc_geom f last Ha) as G.
    destruct (acc_nt f last Ha) as (H1 & H2 & H3 & H4 & H5 & H6 & H7 & H8 & H9 & H10 & H11 & H12).
    pose proof (acc_tbl f last Ha) as Ht. pose proof (acc_size f last Ha) as Hz. pose proof (acc_end f last Ha) as He.
    repeat (split; [assumption || lia|]). unfold sp_payload_end in He. destruct (sp_cert_size f =? 0) eqn:E; lia.
Qed.

(* C01 / C11: DigestPE (sign path, server side included) returns a digest or an ordinary error on EVERY byte string — no slice or
   divide panic (holds since relic commits 53d79ae and 19efad9; before them: optional header shorter than two bytes, FileAlignment 0) *)
Theorem pe_digest_no_panic : forall f p, digest_pe f <> Panic p.
Proof.
  intros f p. unfold digest_pe. apply bind_no_panic; [apply read_nt_no_panic|intros hv _]. cbv zeta.
  destruct (pe_table_overlaps_hdr _ _); [discriminate|]. destruct (zlen f <? _); [discriminate|].
  apply bind_no_panic; [apply adjust_secs_no_panic|intros adj _]. destruct (zlen f <? _); [discriminate|]. destruct (_ && _); [discriminate|].
  apply bind_no_panic; [apply hash_secs_no_panic|intros hs _]. apply bind_no_panic; [apply read_trailer_no_panic|discriminate].
Qed.

(* C01 (no spurious refusal): every image of class relic_dom (Model.v: well-formed headers, e_lfanew >= 64, full-size
   optional header, non-empty sections tiling the file from SizeOfHeaders on IN TABLE ORDER with FileAlignment-multiple raw
   sizes except the last table entry, certificate table = tail of the file) is accepted *)
Theorem pe_accepts_wf : forall f,
  all_bytes f = true -> relic_dom f = true -> exists pre, hashin f = Ok pre.
Proof. intros f Hb D. destruct (dom_accepted f Hb D) as [last Ha]. eexists. exact (hashin_intro f last Ha). Qed.

(* ... and the class cannot be widened to "every image the Authenticode algorithm is defined on": relic refuses (with an
   error, nothing written) a contiguous image whose section table is not in file order, and one whose non-last section has
   a raw size that is not a multiple of FileAlignment *)
Theorem pe_accepts_all_contiguous_refuted : exists f1 f2,
  all_bytes f1 = true /\ spec_wf f1 = true /\ spec_contig f1 = true /\ is_ok (hashin f1) = false /\
  all_bytes f2 = true /\ spec_wf f2 = true /\ spec_contig f2 = true /\ hashin f2 = Err E_BEGINS.
Proof. exists ex_pe_unsorted, ex_pe_unaligned. vm_compute. repeat split; reflexivity. Qed.

(* C01: an accepted file below 4 GiB - 8 can always be signed, whatever the blob *)
Theorem pe_embed_defined : forall f sig pre,
  all_bytes f = true -> hashin f = Ok pre -> zlen f <= 4294967296 - 8 -> exists g, embed f sig = Ok g.
Proof. exact FmtPE.Proofs.embed_defined. Qed.

(* C08: "signed" for the verifier (anything but NotSignedError) is exactly a non-empty certificate-table directory entry *)
Theorem pe_is_signed_spec : forall f hv,
  read_nt f = Ok hv -> (extract f = Ok None <-> sp_cert_size f = 0).
Proof.
  intros f hv Hn. apply read_nt_inv in Hn as [Hnt ->].
  unfold extract, extract_all, find_table, pe_vf_not_signed. rewrite (read_nt_intro f Hnt). cbn [bind hv_of hv_certstart hv_certsize].
  destruct (sp_cert_size f =? 0) eqn:E; cbn [bind]; [split; [lia|reflexivity]|]. split; [|lia].
  destruct (zlen f <? _); cbn [bind]; [discriminate|]. destruct (snd _ =? 0); cbn [bind]; [|discriminate].
  destruct (fst _); discriminate.
Qed.

(* C08: a certificate table that is not the tail of the file (bytes appended after a signature) is never re-signed *)
Theorem pe_refuses_trailing_garbage : forall f hv,
  all_bytes f = true -> read_nt f = Ok hv -> hv_certsize hv <> 0 ->
  hv_certstart hv + hv_certsize hv <> zlen f -> is_ok (hashin f) = false.
Proof.
  intros f hv Hb Hn Hz Ht. apply read_nt_inv in Hn as [_ ->]. cbn [hv_of hv_certstart hv_certsize] in *.
  destruct (hashin f) as [pre| |] eqn:H; [|reflexivity..]. destruct (hashin_inv f pre Hb H) as (last & [_ _ _ _ _ _ He] & _).
  unfold sp_payload_end in He. destruct (sp_cert_size f =? 0) eqn:E; lia.
Qed.

(* C03 (L3, law_payload): the independent reader's view — the image up to the certificate table with CheckSum and
   directory entry 4 blanked, brought to the 8-byte boundary — is unchanged by signing *)
Theorem pe_law_payload : forall f sig g,
  all_bytes f = true -> zlen sig < 4294967296 - 24 -> embed f sig = Ok g -> payload g = payload f.
Proof. intros f sig g Hf Hs He. unfold payload. f_equal. exact (FmtPE.Proofs.law_payload_pe f sig g Hf Hs He). Qed.

(* C03: byte for byte.  Signing keeps the header geometry, changes nothing below the old payload end except the 4 bytes of
   CheckSum and the 8 bytes of directory entry 4, and replaces everything from there on (an old certificate table) by:
   zero padding to 8, one WIN_CERTIFICATE header (length, revision 0x0200, type 2), the blob, zero padding to 8; the
   directory entry points at exactly that entry *)
Theorem pe_only_these_ranges_differ : forall f sig g,
  all_bytes f = true -> zlen sig < 4294967296 - 24 -> embed f sig = Ok g ->
  let ck := sp_cksum f in let dd := sp_dd4 f in let e := sp_payload_end f in let pad := (8 - e mod 8) mod 8 in
  sp_cksum g = ck /\ sp_dd4 g = dd /\ 0 <= ck /\ ck + 4 <= dd /\ dd + 8 <= e /\ e <= zlen f /\
  (forall i, 0 <= i < e -> ~ (ck <= i < ck + 4) -> ~ (dd <= i < dd + 8) -> byte_at g i = byte_at f i) /\
  zdrop e g = zeros pad ++ le_enc 4 (8 + pe_mp_padded (zlen sig)) ++ le_enc 2 512 ++ le_enc 2 2 ++ pad8 sig /\
  sp_cert_va g = e + pad /\ sp_cert_size g = 8 + pe_mp_padded (zlen sig) /\ sp_payload_end g = e + pad /\
  zlen g = e + pad + 8 + pe_mp_padded (zlen sig).
Proof.
  intros f sig g Hb Hs H. destruct (embed_inv f sig g Hb Hs H) as (last & [Ha Hg Hc A T Lg CK DD VA SZ PE _ _]).
  pose proof (acc_geom f last Ha) as G.
  cbv zeta. rewrite <- (eq_refl : padlen (sp_payload_end f) = (8 - sp_payload_end f mod 8) mod 8). repeat (split; [assumption || lia|]). split; [|repeat apply conj; assumption || lia].
  intros i Hi N1 N2. apply (agree3_byte f g _ _ _ i A); lia.
Qed.

(* C02: two files with the same digest input have the same protected bytes (everything up to the certificate table except
   CheckSum and directory entry 4), up to the zero padding in front of the certificate table *)
Theorem pe_protect : forall g1 g2 pre,
  all_bytes g1 = true -> all_bytes g2 = true -> hashin g1 = Ok pre -> hashin g2 = Ok pre ->
  pad_to8 (protected g1) = pad_to8 (protected g2).
Proof. exact FmtPE.Proofs.protect_pe. Qed.

(* C02, byte by byte: same header geometry, same 8-aligned payload end, equal bytes at every protected offset both files
   have, and where one payload is longer the extra bytes (fewer than 8) are zero *)
Theorem pe_protect_bytes : forall g1 g2 pre,
  all_bytes g1 = true -> all_bytes g2 = true -> hashin g1 = Ok pre -> hashin g2 = Ok pre ->
  let ck := sp_cksum g1 in let dd := sp_dd4 g1 in let e1 := sp_payload_end g1 in let e2 := sp_payload_end g2 in
  sp_cksum g2 = ck /\ sp_dd4 g2 = dd /\
  e1 + (8 - e1 mod 8) mod 8 = e2 + (8 - e2 mod 8) mod 8 /\
  forall i, 0 <= i -> ~ (ck <= i < ck + 4) -> ~ (dd <= i < dd + 8) ->
    (i < e1 -> i < e2 -> byte_at g1 i = byte_at g2 i) /\ (e1 <= i < e2 -> byte_at g2 i = 0) /\ (e2 <= i < e1 -> byte_at g1 i = 0).
Proof.
  intros g1 g2 pre Hb1 Hb2 H1 H2. pose proof (protect_pe g1 g2 pre Hb1 Hb2 H1 H2) as EQ. change (payload_view g1 = payload_view g2) in EQ.
  destruct (hashin_inv g1 pre Hb1 H1) as (l1 & A1 & P1). destruct (hashin_inv g2 pre Hb2 H2) as (l2 & A2 & P2).
  destruct (pre_fields g1 l1 A1) as [CK1 DD1]. destruct (pre_fields g2 l2 A2) as [CK2 DD2]. rewrite <- P1 in *. rewrite <- P2 in *.
  destruct (payload_view_bytes g1 l1 A1) as (L1 & T1 & B1). destruct (payload_view_bytes g2 l2 A2) as (L2 & T2 & B2).
  rewrite <- CK2, <- DD2, CK1, DD1, <- EQ in *. cbv zeta.
  repeat (split; [unfold padlen in *; congruence|]). intros i Hi N1 N2. repeat apply conj.
  - intros F1 F2. rewrite <- B1, <- B2 by lia. reflexivity.
  - intros F. rewrite <- B2, T1 by lia. reflexivity.
  - intros F. rewrite <- B1, T2 by lia. reflexivity.
Qed.

(* C02 at full strength (protected g1 = protected g2) fails, by exactly that padding: a zero byte appended to an unsigned
   image whose length is not a multiple of 8 does not change the digest (inherent in Authenticode's 8-byte padding) *)
Theorem pe_protect_exact_refuted : exists g1 g2 pre,
  all_bytes g1 = true /\ all_bytes g2 = true /\ hashin g1 = Ok pre /\ hashin g2 = Ok pre /\ protected g1 <> protected g2.
Proof.
  exists ex_pe, (ex_pe ++ [0]), ex_pre. split; [vm_compute; reflexivity|]. split; [vm_compute; reflexivity|].
  split; [exact ex_pe_hashin|]. split; [vm_compute; reflexivity|].
  intros E. apply (f_equal zlen) in E. vm_compute in E. discriminate E.
Qed.

(* C05: on contiguous images (the layout the Authenticode document presupposes) relic's digest input is the document's,
   followed by the zero padding to 8 that the signed file will contain *)
Theorem pe_hashin_eq_spec : forall f pre,
  all_bytes f = true -> hashin f = Ok pre -> spec_contig f = true ->
  pre = spec_hashin f ++ zeros ((8 - sp_payload_end f mod 8) mod 8).
Proof.
  intros f pre Hb H Hc. destruct (hashin_inv f pre Hb H) as (last & Ha & ->). now rewrite (lin_eq_spec f last Hb Ha Hc).
Qed.

(* C05: ... so the imprint relic embeds, computed on the INPUT, is the Authenticode digest input of the OUTPUT *)
Theorem pe_embedded_digest_is_spec_digest_of_output : forall f sig g,
  all_bytes f = true -> all_bytes sig = true -> zlen sig < 4294967296 - 24 -> embed f sig = Ok g ->
  spec_contig g = true -> hashin f = Ok (spec_hashin g).
Proof.
  intros f sig g Hb Hs Ho H Hc. destruct (embed_inv f sig g Hb Ho H) as (last & E).
  rewrite <- (law_hashin_pe f sig g Hb Ho H), (hashin_intro g last (em_acc_g _ _ _ _ E)).
  rewrite (lin_eq_spec g last (em_bytes _ _ _ _ E Hs) (em_acc_g _ _ _ _ E) Hc). cbn [dg_of dg_pre].
  rewrite (em_end _ _ _ _ E), (padlen_aligned (_ + _)), app_nil_r by apply padlen_aligns. reflexivity.
Qed.

(* C05: on EVERY accepted image (contiguous or not) the digest input is the file up to the certificate table minus
   CheckSum and directory entry 4, in file order, plus zero padding to 8 *)
Theorem pe_hashin_is_linear : forall f pre,
  all_bytes f = true -> hashin f = Ok pre ->
  let ck := sp_cksum f in let dd := sp_dd4 f in let e := sp_payload_end f in
  pre = zslice 0 ck f ++ zslice (ck + 4) dd f ++ zslice (dd + 8) e f ++ zeros ((8 - e mod 8) mod 8) /\
  0 <= ck /\ ck + 4 <= dd /\ dd + 8 <= e /\ e <= zlen f.
Proof.
  intros f pre Hb H. destruct (hashin_inv f pre Hb H) as (last & Ha & ->).
  pose proof (acc_geom f last Ha) as G.
  cbv zeta. split; [|lia]. unfold dg_of, lin. cbn [dg_pre]. now rewrite <- !app_assoc.
Qed.

(* C05: FixPEChecksum (e_lfanew even) rewrites only the CheckSum field and leaves in it the documented checksum of the file *)
Theorem pe_checksum_eq_spec : forall g g',
  all_bytes g = true -> fix_checksum g = Ok g' -> Z.even (sp_lfanew g) = true -> sp_cksum g + 4 <= zlen g ->
  g' = replace1 (sp_cksum g) 4 (le_enc 4 (spec_checksum g)) g /\ sp_lfanew g' = sp_lfanew g /\ zlen g' = zlen g /\
  spec_checksum g' = spec_checksum g /\ u32 g' (sp_cksum g') = spec_checksum g'.
Proof. exact FmtPE.ProofsB.fix_checksum_spec. Qed.

(* C05: ... hence every signed file relic produces carries the documented checksum *)
Theorem pe_embed_checksum_is_spec : forall f sig g,
  all_bytes f = true -> all_bytes sig = true -> zlen sig < 4294967296 - 24 -> embed f sig = Ok g ->
  Z.even (sp_lfanew f) = true -> u32 g (sp_cksum g) = spec_checksum g.
Proof.
  intros f sig g Hb Hs Ho H He. destruct (embed_inv f sig g Hb Ho H) as (last & [Ha _ Hc _ _ _ _ _ _ _ _ _ _]).
  rewrite (embed_pre_fix f last sig Ha Hc) in H. destruct (patched_header f last sig Ha) as (L & CK & _ & _ & Lg).
  apply (fix_checksum_spec _ g) in H; [apply H|now apply all_bytes_patched|now rewrite L|now rewrite CK].
Qed.

(* C05: without "e_lfanew even" it fails: peChecksum compares even word offsets with the field offset, so at an odd
   e_lfanew the stale CheckSum is summed instead of blanked (Windows requires an aligned e_lfanew; such an image does not load) *)
Theorem pe_checksum_odd_lfanew_refuted : exists f sig g,
  all_bytes f = true /\ relic_dom f = true /\ embed f sig = Ok g /\ u32 g (sp_cksum g) <> spec_checksum g.
Proof.
  exists ex_pe_odd, [1; 2; 3]. eexists. repeat (split; [vm_compute; reflexivity|]). vm_compute. discriminate.
Qed.

(* ex_pe (ProofsB.v): a 423-byte PE32 image, headers padded to 400, a 16-byte section, a 5-byte last section, 2 bytes of
   overlay, stale CheckSum.  It lies in the acceptance class, is contiguous, and its digest input is the specification's *)
Example ex_pe_in_domain :
  all_bytes ex_pe = true /\ zlen ex_pe = 423 /\ relic_dom ex_pe = true /\ spec_wf ex_pe = true /\ spec_contig ex_pe = true /\
  hashin ex_pe = Ok (spec_hashin ex_pe ++ zeros 1).
Proof. rewrite ex_pe_hashin. vm_compute. repeat split; reflexivity. Qed.

(* signing it, and re-signing the result with a longer blob: the hypotheses of every law hold on both steps and the
   conclusions are computed (blob found, digest input and payload unchanged, documented checksum, signed output again in the
   acceptance class, second signature replaces the first) *)
Example ex_pe_sign_twice :
  match embed ex_pe [1; 2; 3] with
  | Ok g1 =>
      extract g1 = Ok (Some [1; 2; 3; 0; 0; 0; 0; 0]) /\ hashin g1 = hashin ex_pe /\ payload g1 = payload ex_pe /\
      u32 g1 (sp_cksum g1) = spec_checksum g1 /\ relic_dom g1 = true /\ spec_contig g1 = true /\ zlen g1 = 440 /\
      match embed g1 [9; 8; 7; 6; 5; 4; 3; 2; 1] with
      | Ok g2 => extract_all g2 = Ok (Some [[9; 8; 7; 6; 5; 4; 3; 2; 1; 0; 0; 0; 0; 0; 0; 0]]) /\ hashin g2 = hashin ex_pe /\
                 payload g2 = payload ex_pe /\ u32 g2 (sp_cksum g2) = spec_checksum g2 /\ zlen g2 = 448 /\
                 hashin ex_pe = Ok (spec_hashin g2)
      | _ => False
      end
  | _ => False
  end.
Proof. rewrite !ex_pe_hashin. vm_compute. repeat split; reflexivity. Qed.

(* the refusal theorems have inhabitants too: bytes appended after the certificate table of a signed file *)
Example ex_pe_trailing_refused :
  match embed ex_pe [1; 2; 3] with
  | Ok g1 => hashin (g1 ++ [0]) = Err E_TRAILING /\ is_ok (embed (g1 ++ [0]) [4]) = false /\
             extract ex_pe = Ok None /\ sp_cert_size ex_pe = 0
  | _ => False
  end.
Proof. vm_compute. repeat split; reflexivity. Qed.

(* the hypotheses of the Crypto section are consistent: an instance (keys and certificates = Z, always-valid signatures, the
   identity as digest, a self-delimiting unary encoding of the blob whose decoder ignores trailing bytes) satisfies all of
   them together with the size premise for signing ex_pe, and signing succeeds — so pe_sign_then_verify applies to it *)
Example crypto_hypotheses_satisfiable :
  let H := fun (_ : Z) (m : bytes) => m in let pub := fun k : Z => k in let sign := fun (_ : Z) (_ : bytes) => 0 in
  let vrfy := fun (_ : Z) (_ : bytes) (_ : Z) => true in let tbs := fun (_ : Z) (d : bytes) => d in
  (forall k m, vrfy (pub k) m (sign k m) = true) /\
  (forall b n, ex_deser (ex_ser b ++ zeros n) = Some b) /\ (forall b, all_bytes (ex_ser b) = true) /\
  all_bytes ex_pe = true /\
  (forall pre, hashin ex_pe = Ok pre -> zlen (ex_ser (mksig Z Z Z pub sign tbs 7 1 (H 1 pre))) < 4294967296 - 40) /\
  exists g, (pre <- hashin ex_pe ;; embed ex_pe (ex_ser (mksig Z Z Z pub sign tbs 7 1 (H 1 pre)))) = Ok g.
Proof.
  cbv zeta. split; [reflexivity|]. split; [exact ex_deser_padded|]. split; [exact ex_ser_bytes|]. split; [vm_compute; reflexivity|].
  rewrite ex_pe_hashin. split.
  - intros pre [= <-]. vm_compute. reflexivity.
  - cbn [bind]. apply (embed_defined ex_pe _ ex_pre); [vm_compute; reflexivity|exact ex_pe_hashin|vm_compute; discriminate].
Qed.
