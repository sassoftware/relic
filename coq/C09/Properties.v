(* C09/Properties.v — the property theorems of C09, over the lemmas of C09/Proofs.v and C09/UploadProofs.v. *)
From Relic Require Import Base.Prelude Base.Enc Base.Slice Generated.C09_gen C09.Model C09.Proofs C09.Upload C09.UploadProofs.

(* 1. a byte string has exactly one decomposition into full B-blocks followed by one short non-empty block, and it is
      `chunks B` — whatever produced the blocks *)
Theorem chunks_characterised : forall B, 0 < B -> forall cs l, wf_chunks B cs -> concat cs = l -> cs = chunks B l.
Proof.
  intros B HB cs. induction cs as [|c r IH]; intros l Hw <-; [reflexivity|]. destruct r as [|c2 r].
  - cbn [concat]. rewrite app_nil_r. symmetry. now apply chunks_small.
  - destruct Hw as [Hc Hw]. cbn [concat]. rewrite chunks_app_full by assumption. f_equal. now apply IH.
Qed.

(* 2. io.ReadFull / io.CopyN style transfers deliver the same bytes under every read-size script *)
Theorem read_full_script_indep : forall r n, 0 < n ->
  fst (read_full r n) = ztake n (r_data r) /\ r_data (snd (read_full r n)) = zdrop n (r_data r).
Proof. exact C09.Proofs.read_full_spec. Qed.
Theorem copy_n_script_indep : forall r n,
  fst (copy_n r n) = ztake n (r_data r) /\ r_data (snd (copy_n r n)) = zdrop n (r_data r).
Proof. exact C09.Proofs.copy_n_spec. Qed.

(* 3. every split of the entry stream into Write calls: a Write never fails, and after flush the blocks are chunks B of
      everything written (the three-phase buffering is invisible) *)
Theorem merkle_split_indep : forall B ds, 0 < B ->
  exists h, mwrite_all B mh_init ds = Ok h /\
            m_blocks (mflush h) = chunks B (concat ds) /\ m_buf (mflush h) = [].
Proof.
  intros B ds HB. destruct (mwrite_all_spec B HB [] ds [] mh_init (mrep_flushed B HB [])) as (h & E & Hr).
  exists h. split; [exact E|]. rewrite (mflush_spec B HB _ _ _ Hr). now split.
Qed.

(* 4. the complete digest input equals the Android v2 definition: sections 1, 3, 4 chunked separately at 1 MiB, for every
      split of section 1 into writes.  Constants 1 MiB / 0xa5 / 0x5a are the specification's, compared with the source's. *)
Theorem merkle_eq_spec : forall ds cdir eocd,
  merkle_run merkleBlock ds cdir eocd = Ok (apk_spec_chunks (concat ds) cdir eocd) /\
  merkle_block_prefix = apk_chunk_prefix /\ merkle_top_prefix = apk_top_prefix.
Proof.
  intros. split; [|split; reflexivity].
  apply (merkle_run_spec merkleBlock ltac:(reflexivity)); reflexivity.
Qed.

(* 5. AddFile's io.CopyN loop yields the 64 KiB blocks of the member for every read-size script, no empty block *)
Theorem blockmap_split_indep : forall r, addfile_blocks r = chunks appx_block_size (r_data r).
Proof. intros r. unfold addfile_blocks. now rewrite addfile_loop_spec by lia. Qed.

(* 6. hashPages' io.ReadFull loop yields the 4 KiB pages for every read-size script *)
Theorem codepages_split_indep : forall r, hashpages r = chunks macho_page_size (r_data r).
Proof. intros r. unfold hashpages. now rewrite hashpages_loop_spec by lia. Qed.

(* 7. imageHasher.section: for every read-size script the pages are the page-size pieces of the section's raw data at their
      file offsets, the image digest receives exactly the raw data, and the reader is left at the end of the section *)
Theorem pagehash_split_indep : forall pagesz r ptr size, 0 < pagesz ->
  0 <= size <= zlen (r_data r) -> 0 <= ptr -> ptr + size < 2 ^ 32 ->
  exists r', pe_section pagesz r ptr size = Ok (pe_spec_pages pagesz ptr (ztake size (r_data r)), r', ptr + size)
             /\ r_data r' = zdrop size (r_data r)
             /\ concat (map snd (pe_spec_pages pagesz ptr (ztake size (r_data r)))) = ztake size (r_data r).
Proof.
  intros pagesz r ptr size HP Hs Hp Hw. unfold pe_section.
  destruct (pe_section_loop_spec pagesz HP (S (Z.to_nat size)) r ptr size [] Hs Hp Hw ltac:(lia)) as (r' & E & Hd).
  exists r'. split; [exact E|]. split; [exact Hd|].
  unfold pe_spec_pages. rewrite concat_number_pages. now apply concat_chunks.
Qed.
(* the page padding addPageHash applies is the specification's zero fill *)
Theorem page_preimage_eq_spec : forall pagesz page, page_preimage pagesz page 0 = pe_spec_page_preimage pagesz page.
Proof. intros. unfold page_preimage, pe_spec_page_preimage, pe_needzero. now rewrite Z.sub_0_r. Qed.

(* 8. for every split into writes of which only the last may be odd (io.Copy from a regular file), with an even CheckSum
      field offset (or none), the hasher computes the published algorithm — whatever boundary falls on the field *)
Theorem cksum_split_indep : forall pe_start ds,
  pe_start <= 0 \/ pe_start mod 2 = 0 -> all_bytes (concat ds) = true -> ck_split_ok ds = true ->
  ck_run pe_start ds = Ok (spec_cksum pe_start (concat ds)).
Proof.
  intros pe_start ds Hp Hb Hok. apply all_bytes_forall in Hb. unfold ck_run. destruct ds as [|d r].
  - unfold spec_cksum, zero_field. now destruct (pe_start <=? 0), (_ <? 0).
  - rewrite ck_write_all_concat by (discriminate || exact Hok).
    now destruct (ck_write_spec pe_start (concat (d :: r)) Hp Hb) as (h & -> & <-).
Qed.
(* an odd write that is not the last is refused, never mis-summed *)
Theorem cksum_odd_mid_refused : forall h d1 d2 h1,
  ck_write h d1 = Ok h1 -> zlen d1 mod 2 = 1 -> ck_write h1 d2 = Err E_ODD.
Proof.
  intros h d1 d2 h1 H Hodd. unfold ck_write in *. destruct (ck_odd_err_cond (ck_odd h)); [discriminate|].
  inversion H; subst. cbn [ck_odd]. unfold ck_odd_err_cond.
  rewrite odd_cond_spec, Hodd by apply zlen_nonneg. cbn. now rewrite orb_true_r.
Qed.
(* with an ODD field offset (odd e_lfanew) the field is never zeroed: the full statement fails there. Such images are
   outside the PE format (NT headers are 4-byte aligned); witness kept for the record *)
Theorem cksum_odd_field_refuted : exists pe_start data,
  all_bytes data = true /\ ck_run pe_start [data] <> Ok (spec_cksum pe_start data).
Proof. exists 1, (repeat 1 100%nat). split; [reflexivity|]. vm_compute. discriminate. Qed.

(* 9. what ReadZipTar hands the server-side signer is the complete zip and its central directory *)
Theorem zip_tar_roundtrip : forall dirloc f, 0 <= dirloc <= zlen f ->
  exists ms, zip_to_tar dirloc f = Ok ms /\ read_zip_tar ms = Ok (zdrop dirloc f, f).
Proof. exact C09.Proofs.zip_tar_roundtrip. Qed.
(* the upload stream is a function of the file alone: ZipToTar, tarAddStream, the Mach-O and DMG producers and MsiToTar
   contain no Seek call (positioned reads only), so a producer left over from an abandoned attempt cannot disturb the
   next GetReader.  Source fact re-read by srcgen on every run; the schedules themselves are exercised by the harness. *)
Theorem reader_repeatable : producers_use_positioned_reads = true.
Proof. reflexivity. Qed.

(* 10. selectEncoding = "snappy over gzip over nothing, unknown tokens ignored" *)
Theorem select_encoding_eq_spec : forall items, select_encoding items = spec_select items.
Proof. exact C09.Proofs.select_encoding_spec. Qed.

(* 11. every failover history: the attempts form a good trace (servers in order, moving on only after a transient failure,
       one restart without compression after a 406, accepted response below 300), and there are at most 2·|servers| *)
Theorem request_replay : forall nbases retries enc script, 0 < nbases ->
  exists t res, do_request nbases retries enc script = (t, res) /\
    good_trace (dr_len nbases retries) nbases 0 enc t res /\ zlen t <= 2 * dr_len nbases retries.
Proof.
  intros nbases retries enc script Hn.
  destruct (do_request_spec nbases retries enc script Hn) as (t & res & E & G & Hl & _). now exists t, res.
Qed.
Theorem accepted_below_300 : forall L nb i enc t res s e c,
  good_trace L nb i enc t res -> res = DrAccepted s e c -> c < 300 /\ exists t0, t = t0 ++ [(mkAtt s e, OStatus c)].
Proof.
  induction 1; intros Hr; try discriminate.
  - inversion Hr; subst. split; [lia|]. now exists [].
  - destruct (IHgood_trace Hr) as (Hc & t0 & ->). split; [exact Hc|]. now eexists (_ :: t0).
  - destruct (IHgood_trace Hr) as (Hc & t0 & ->). split; [exact Hc|]. now eexists (_ :: t0).
Qed.
Theorem no_encoding_after_fallback : forall L nb i t res,
  good_trace L nb i false t res -> Forall (fun ao => a_enc (fst ao) = false) t.
Proof.
  intros L nb i t res. remember false as enc eqn:Ee. induction 1; subst; try discriminate.
  - constructor; [reflexivity|constructor].
  - constructor; [reflexivity|]. now apply IHgood_trace.
  - constructor; [reflexivity|constructor].
Qed.
(* 12. whatever attempt is accepted, the server decodes exactly the client-side transform's bytes, provided the codec
       round-trips (library assumption, premise of the theorem; checked on every harness case) *)
Theorem transport_invariant : forall (compress decompress : bytes -> bytes -> bytes),
  (forall e x, decompress e (compress e x) = x) ->
  forall upload advertised a, server_sees decompress (attempt_wire compress upload advertised a) = upload.
Proof.
  intros compress decompress Hrt upload advertised a. unfold attempt_wire, server_sees.
  replace (dr_builds_request_per_attempt && list_eqb Z.eqb br_calls [0; 1]) with true by reflexivity.
  destruct (creq_plain_cond (if a_enc a then select_encoding advertised else [])); [reflexivity|apply Hrt].
Qed.

(* The bodies of compress, the goroutine of CompressRequest, DecompressRequest, the Middleware handler, buildRequest and
   tarAddStream are translated by srcgen into programs (Generated/C09_gen.v); 13-18 say that each program, run against
   ARBITRARY effects (every outcome of every call), does what its reference says. *)
(* 13. compress: first failure wins — a failed setup, a failed copy (read error of the source or write error of the pipe)
       or a failed Close is the result; Close (which terminates the encoded stream) happens only after a complete copy *)
Theorem compress_returns_first_error : forall W (eff : Z -> list Z -> W -> Z * W) opq w,
  run_prog eff opq compress_prog compress_prog_result w = spec_compress W eff w.
Proof. exact C09.UploadProofs.compress_refines. Qed.
(* 14. the goroutine closes the pipe with exactly compress's result (never a clean close after a failure) *)
Theorem goroutine_closes_pipe_with_result : forall W (eff : Z -> list Z -> W -> Z * W) opq w,
  run_prog eff opq creq_goroutine_prog creq_goroutine_prog_result w = spec_goroutine W eff w.
Proof. exact C09.UploadProofs.goroutine_refines. Qed.
(* 15. DecompressRequest installs the decoder exactly when decompress succeeded and returns its error *)
Theorem decompress_request_guards_body : forall W (eff : Z -> list Z -> W -> Z * W) opq w,
  run_prog eff opq dreq_prog dreq_prog_result w = spec_dreq W eff w.
Proof. exact C09.UploadProofs.dreq_refines. Qed.
(* 16. the middleware never hands a request it could not decode to the signing handler, otherwise exactly once *)
Theorem middleware_refuses_undecodable : forall W (eff : Z -> list Z -> W -> Z * W) opq w,
  snd (run_prog eff opq middleware_prog middleware_prog_result w) = snd (spec_middleware W eff opq w).
Proof. exact C09.UploadProofs.middleware_refines. Qed.
(* 17. buildRequest returns every failure, in particular of GetReader and CompressRequest (no request is sent) *)
Theorem build_request_returns_errors : forall W (eff : Z -> list Z -> W -> Z * W) opq w,
  run_prog eff opq br_prog br_prog_result w = spec_build W eff opq w.
Proof. intros. ef_go eff opq. Qed.
(* 18. tarAddStream (every member of a zip upload): a failing or short member source is an error *)
Theorem tar_member_error_returned : forall W (eff : Z -> list Z -> W -> Z * W) opq w,
  run_prog eff opq taraddstream_prog taraddstream_prog_result w = spec_taradd W eff w.
Proof. intros. ef_go eff opq. Qed.
(* 19. client and server select the same codec for every Content-Encoding value, and refuse the same values *)
Theorem codec_sides_agree : forall enc, setup_kind enc = decompress_kind enc.
Proof. exact C09.UploadProofs.codec_sides_agree. Qed.
(* every pipe-backed transform (zip family, MSI, Mach-O, DMG) closes its pipe with the producer's error *)
Theorem producers_close_with_error : producers_propagate_errors = true.
Proof. reflexivity. Qed.

(* 20. MAIN: for every stream codec that round-trips complete streams (library assumption, the only premise), every
       advertised encoding list, every source (any data, any read sizes, failing or not after any number of bytes), every
       point at which the reading side of the pipe goes away, and every value of the conditions left opaque: whatever the
       signing handler gets to digest is the complete client-side stream, and the source did not fail *)
Theorem upload_integrity : forall St enc_init enc_write enc_close dec,
  codec_roundtrip St enc_init enc_write enc_close dec ->
  forall opq adv src cut b,
    server_view dec opq (client_wire St enc_init enc_write enc_close adv src cut) = SOk b ->
    b = u_data src /\ u_fail src = 0.
Proof. exact C09.UploadProofs.upload_integrity. Qed.
(* 21. a source that fails (after any number of bytes) aborts the attempt under every encoding: the handler digests
       nothing and the client's transport sees an error *)
Theorem upload_fault_aborts : forall St enc_init enc_write enc_close dec,
  codec_roundtrip St enc_init enc_write enc_close dec ->
  forall opq adv src cut, u_fail src <> 0 ->
    server_view dec opq (client_wire St enc_init enc_write enc_close adv src cut) = SErr /\
    client_body_error (client_wire St enc_init enc_write enc_close adv src cut) <> 0.
Proof.
  intros St enc_init enc_write enc_close dec Hrt opq adv src cut Hf.
  destruct (attempt_cases St enc_init enc_write enc_close dec Hrt opq adv src cut) as [[Hf0 _]|[-> [[-> _]|[-> _]]]];
    [contradiction| |]; now split.
Qed.
(* 22. with a reader that stays, the server's view equals the specification (full stream iff the source is healthy) —
       hence it is the same under identity, gzip, snappy and after a 406 fallback, and the same as standalone signing *)
Theorem upload_eq_spec : forall St enc_init enc_write enc_close dec,
  codec_roundtrip St enc_init enc_write enc_close dec ->
  forall opq adv src, server_view dec opq (client_wire St enc_init enc_write enc_close adv src (-1)) = spec_view src.
Proof. exact C09.UploadProofs.upload_eq_spec. Qed.
Theorem upload_encoding_independent : forall St enc_init enc_write enc_close dec,
  codec_roundtrip St enc_init enc_write enc_close dec ->
  forall opq1 opq2 adv1 adv2 src,
    server_view dec opq1 (client_wire St enc_init enc_write enc_close adv1 src (-1)) =
    server_view dec opq2 (client_wire St enc_init enc_write enc_close adv2 src (-1)).
Proof. intros. now rewrite !(C09.UploadProofs.upload_eq_spec St enc_init enc_write enc_close dec). Qed.
Theorem standalone_eq_spec : forall src, standalone_view src = spec_view src.
Proof. intros src. unfold standalone_view, spec_view. now rewrite read_all_spec by (cbn; lia). Qed.
(* 23. inside doRequest: attempts whose stream fails surface as transport errors (transient or not as httperror.Temporary
       says); the attempt whose response is accepted read its stream completely, under every failover history *)
Theorem accepted_attempt_healthy : forall nbases retries enc ins t res s e c,
  0 < nbases -> do_request nbases retries enc (map attempt_outcome ins) = (t, res) -> res = DrAccepted s e c ->
  let a := nth (length t - 1) ins healthy_default in
  u_fail (ai_src a) = 0 /\ ai_beh a = OStatus c.
Proof.
  intros nbases retries enc ins t res s e c Hn Hd Hr a.
  destruct (do_request_spec nbases retries enc (map attempt_outcome ins) Hn) as (t1 & res1 & E & G & _ & Ho).
  rewrite Hd in E. injection E as <- <-.
  destruct (accepted_below_300 _ _ _ _ _ _ _ _ _ G Hr) as (_ & t0 & Ht).
  (* the accepted status is the last outcome of the trace, which is what the last attempt's entry of ins scripts *)
  assert (Hlen : length t = S (length t0)) by (rewrite Ht, app_length; cbn; lia).
  assert (Hlast : nth (length t0) (map snd t) (OStatus 200) = OStatus c)
    by (rewrite Ht, map_app, <- (map_length snd t0); apply nth_middle).
  rewrite Ho, nth_pad_take in Hlast by lia.
  change (OStatus 200) with (attempt_outcome healthy_default) in Hlast. rewrite map_nth in Hlast.
  subst a. rewrite Hlen, Nat.sub_succ, Nat.sub_0_r.
  unfold attempt_outcome in Hlast. destruct (u_fail _ =? 0) eqn:Ef.
  - split; [lia|exact Hlast].
  - destruct (ai_temp _ && dr_build_error_returns); discriminate.
Qed.
(* 24. the premise of 20-22 is satisfiable by a codec with real framing (a trailer-terminated kind standing for gzip, a
       trailer-less kind standing for snappy-framed where every frame boundary is a valid end), so 20 holds for it outright *)
Theorem framed_codec_roundtrips : codec_roundtrip fc2_state fc2_init fc2_write fc2_close fc2_dec.
Proof.
  intros k cs Hk Hall. rewrite fc2_enc_run by lia. unfold fc2_init, fc2_dec. cbn [fst snd]. rewrite Z.add_0_l.
  destruct (fc_dec_frames k cs _ [] (fc2_close (k, zlen (concat cs))) Hall (Nat.lt_succ_diag_r _)) as (fuel' & Hf & ->).
  now apply fc2_dec_end.
Qed.
Theorem upload_integrity_framed : forall opq adv src cut b,
  fc_server_view opq (fc_client_wire adv src cut) = SOk b -> b = u_data src /\ u_fail src = 0.
Proof. exact (C09.UploadProofs.upload_integrity _ _ _ _ _ framed_codec_roundtrips). Qed.

(* non-vacuity: the models compute, on inputs chosen to reach the branches the theorems quantify over *)
Example merkle_three_phase_example :
  (* B = 4: a write that completes the buffer, then hashes a block directly, then saves a remainder *)
  merkle_run 4 [[1; 2; 3]; [4; 5; 6; 7; 8; 9]; [10]] [11; 12; 13; 14; 15] [16] =
  Ok [[1; 2; 3; 4]; [5; 6; 7; 8]; [9; 10]; [11; 12; 13; 14]; [15]; [16]].
Proof. reflexivity. Qed.
Example blockmap_example :
  map zlen (addfile_blocks (mkRd (repeat 7 (Z.to_nat 70000)) [1; 65535; 3; 100000])) = [65536; 4464].
Proof.
  rewrite blockmap_split_indep. cbn [r_data]. replace (Z.to_nat 70000) with (Z.to_nat 65536 + Z.to_nat 4464)%nat by lia.
  assert (HB : 0 < appx_block_size) by reflexivity.
  rewrite repeat_app, (chunks_app_full _ HB), (chunks_small _ HB) by (rewrite zlen_repeat; unfold appx_block_size; lia).
  cbn [map]. now rewrite !zlen_repeat, !Z2Nat.id by lia.
Qed.
Example cksum_straddle_example :
  (* the field (offset 90) straddles the write boundary at 92, and lies exactly on the boundary at 90 *)
  let data := map (fun n => Z.of_nat n mod 251) (seq 0 120) in
  ck_run 2 [ztake 92 data; zdrop 92 data] = Ok (spec_cksum 2 data) /\
  ck_run 2 [ztake 90 data; zdrop 90 data] = Ok (spec_cksum 2 data) /\ ck_run 2 [data] = Ok (spec_cksum 2 data).
Proof. vm_compute. repeat split. Qed.
Example failover_example :
  do_request 3 0 true [OStatus 503; OStatus 406; OConnTemp; OStatus 200] =
  ([(mkAtt 0 true, OStatus 503); (mkAtt 1 true, OStatus 406); (mkAtt 0 false, OConnTemp); (mkAtt 1 false, OStatus 200)],
   DrAccepted 1 false 200).
Proof. reflexivity. Qed.
(* a healthy 5-byte upload in reads of 2 bytes, and the same source failing after 3 bytes, under snappy and gzip *)
Example upload_examples :
  fc_server_view no_opaque (fc_client_wire [enc_snappy; enc_gzip] (mkUS [1; 2; 3; 4; 5] 0 [2; 2]) (-1)) = SOk [1; 2; 3; 4; 5] /\
  fc_server_view no_opaque (fc_client_wire [enc_gzip] (mkUS [1; 2; 3; 4; 5] 0 [2; 2]) (-1)) = SOk [1; 2; 3; 4; 5] /\
  fc_server_view no_opaque (fc_client_wire [enc_snappy] (mkUS [1; 2; 3] 5 [2; 2]) (-1)) = SErr /\
  fc_client_wire [enc_snappy] (mkUS [1; 2; 3] 5 [2; 2]) (-1) = (enc_snappy, [1; 2; 0; 0; 0; 1; 2; 1; 1; 0; 0; 0; 3], Some 5) /\
  fc_server_view no_opaque (fc_client_wire [] (mkUS [1; 2; 3] 5 [2; 2]) (-1)) = SErr.
Proof. vm_compute. repeat split. Qed.
(* what 13 and 20 exclude: with Close moved into a deferred closure that assigns the named result (the read error is
   replaced by Close's nil), the same failing source is accepted by the server as a complete 3-byte stream *)
Example deferred_close_variant_refuted :
  fc_server_view no_opaque (fc_client_wire_with compress_prog_deferred_close 0 [enc_snappy] (mkUS [1; 2; 3] 5 [2; 2]) (-1)) = SOk [1; 2; 3] /\
  fc_server_view no_opaque (fc_client_wire_with compress_prog_deferred_close 0 [enc_gzip] (mkUS [1; 2; 3] 5 [2; 2]) (-1)) = SOk [1; 2; 3].
Proof. vm_compute. split; reflexivity. Qed.
