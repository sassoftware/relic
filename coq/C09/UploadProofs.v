(* C09/UploadProofs.v — the error path of an upload (model in C09/Upload.v): each translated function refines its
   reference, and one attempt end to end either delivers the complete stream or delivers nothing and reports why.  Then
   what standalone signing reads, and the framed codec of Upload.v, which meets the round-trip premise. *)
From Relic Require Import Base.Prelude Base.Enc Base.Slice Generated.C09_gen C09.Model C09.Proofs C09.Upload.

(* The interpreter of C09/Upload.v threads its state through `let '(ret, st') := exec_stmt … in …`; run against an abstract
   effect it gets stuck there at the first call.  The same interpreter in continuation-passing style hands the rest of the
   program to each statement, so evaluation against an abstract effect runs to the end and leaves the decision tree of
   the program: one `let` per call, one `if` per test. *)
Section ExecK.
  Variable W : Type.
  Variable eff : Z -> list Z -> W -> Z * W.
  Variable opq : Z -> bool.
  Variable R : Type.

  Fixpoint exec_stmt_k (res : Z) (s : ef_stmt) (st : fstate W) (K : bool * fstate W -> R) : R :=
    let go := fix go (b : list ef_stmt) (st : fstate W) (K : bool * fstate W -> R) : R :=
      match b with
      | [] => K (false, st)
      | s :: r => exec_stmt_k res s st (fun p => if fst p then K (true, snd p) else go r (snd p) K)
      end in
    match s with
    | EfCall dst fn args =>
        let '(e, w') := eff fn (map (ef_eval (f_vars st)) args) (f_world st) in
        K (false, mkF (vput (f_vars st) dst e) (f_defers st) w')
    | EfIf c th el => if ef_cond_eval opq (f_vars st) c then go th st K else go el st K
    | s => K (exec_stmt W eff opq res s st)
    end.
  Fixpoint exec_block_k (res : Z) (b : list ef_stmt) (st : fstate W) (K : bool * fstate W -> R) : R :=
    match b with
    | [] => K (false, st)
    | s :: r => exec_stmt_k res s st (fun p => if fst p then K (true, snd p) else exec_block_k res r (snd p) K)
    end.

  Lemma exec_stmt_k_ok res : forall s st K, exec_stmt_k res s st K = K (exec_stmt W eff opq res s st).
  Proof.
    fix IH 1. intros [dst fn args|dst e|c th el|body|e] st K; cbn [exec_stmt_k exec_stmt]; try reflexivity.
    - now destruct (eff fn (map (ef_eval (f_vars st)) args) (f_world st)).
    - (* the blocks of an `if`: by induction on the block, with IH for each of its statements *)
      destruct (ef_cond_eval opq (f_vars st) c); revert st K; [induction th as [|a r IHr]|induction el as [|a r IHr]]; intros st K.
      1, 3: reflexivity.
      all: rewrite IH; destruct (exec_stmt W eff opq res a st) as [[|] st']; cbn [fst snd]; [reflexivity|apply IHr].
  Qed.

  Lemma exec_block_k_ok res b : forall st K, exec_block_k res b st K = K (exec_block W eff opq res b st).
  Proof.
    induction b as [|a r IHr]; intros st K; [reflexivity|]. cbn [exec_block_k exec_block]. rewrite exec_stmt_k_ok.
    destruct (exec_stmt W eff opq res a st) as [[|] st']; cbn [fst snd]; [reflexivity|apply IHr].
  Qed.
End ExecK.

Lemma run_prog_k {W} eff opq prog res (w : W) : run_prog eff opq prog res w =
  exec_block_k W eff opq _ res prog (mkF [] [] w)
    (fun p => let '(vars, w') := run_defers W eff opq res (f_defers (snd p)) (f_vars (snd p)) (f_world (snd p)) in (vget vars res, w')).
Proof. rewrite exec_block_k_ok. unfold run_prog, exec_fn. now destruct (exec_block W eff opq res prog (mkF [] [] w)). Qed.

(* a translated program against arbitrary effects: evaluate it to its decision tree (the reference is one already), then
   case analysis on every effect result, on whether an error value is nil, and on every opaque condition *)
Ltac ef_go eff opq :=
  rewrite run_prog_k; cbv -[Z.eqb]; cbn;
  repeat first
   [ match goal with H : ?x <> 0 |- context [?x =? 0] => rewrite (proj2 (Z.eqb_neq x 0) H); cbn end
   | match goal with |- context [?x =? 0] => is_var x; destruct (Z.eqb_spec x 0) as [->|?]; cbn end
   | match goal with |- context [opq ?k] => destruct (opq k); cbn end
   | match goal with |- context [eff ?n ?a ?w] => destruct (eff n a w) as [? ?]; cbn end ];
  reflexivity.

Section Refine.
  Variable W : Type.
  Variable eff : Z -> list Z -> W -> Z * W.
  Variable opq : Z -> bool.
  Lemma compress_refines w : run_prog eff opq compress_prog compress_prog_result w = spec_compress W eff w.
  Proof. ef_go eff opq. Qed.
  Lemma goroutine_refines w : run_prog eff opq creq_goroutine_prog creq_goroutine_prog_result w = spec_goroutine W eff w.
  Proof. ef_go eff opq. Qed.
  Lemma dreq_refines w : run_prog eff opq dreq_prog dreq_prog_result w = spec_dreq W eff w.
  Proof. ef_go eff opq. Qed.
  Lemma middleware_refines w :
    snd (run_prog eff opq middleware_prog middleware_prog_result w) = snd (spec_middleware W eff opq w).
  Proof. ef_go eff opq. Qed.
  (* CompressRequest itself never fails *)
  Lemma creq_outer_nil w : fst (run_prog eff opq creq_outer_prog creq_outer_prog_result w) = 0.
  Proof. ef_go eff opq. Qed.
End Refine.

(* the same encoding name selects the same codec on both sides, and both refuse the same names *)
Lemma codec_sides_agree enc : setup_kind enc = decompress_kind enc.
Proof. reflexivity. Qed.

Lemma select_encoding_range adv :
  select_encoding adv = [] \/ select_encoding adv = enc_gzip \/ select_encoding adv = enc_snappy.
Proof.
  rewrite select_encoding_spec. unfold spec_select.
  destruct (mem_bytes _ adv); [right; right; reflexivity|]. destruct (mem_bytes _ adv); [right; left; reflexivity|]. now left.
Qed.

Lemma pipe_write_cases p out :
  p_cut (fst (pipe_write p out)) = p_cut p /\
  ((snd (pipe_write p out) = E_CLOSED_PIPE /\ 0 <= p_cut p) \/
   (snd (pipe_write p out) = 0 /\ p_bytes (fst (pipe_write p out)) = p_bytes p ++ out)).
Proof.
  unfold pipe_write. destruct ((0 <=? p_cut p) && (p_cut p <? zlen (p_bytes p) + zlen out)) eqn:E; cbn; auto.
  split; [reflexivity|]. left. split; [reflexivity|lia].
Qed.
Lemma pipe_write_open p out : p_cut p = -1 -> pipe_write p out = (mkP (p_bytes p ++ out) (-1) (p_term p), 0).
Proof. intros H. unfold pipe_write. rewrite H. reflexivity. Qed.

Section UploadProofs.
  Variable St : Type.
  Variable enc_init : Z -> St.
  Variable enc_write : St -> bytes -> St * bytes.
  Variable enc_close : St -> bytes.
  Variable dec : Z -> bytes -> option bytes.
  Notation xwrite := (xwrite St enc_write).
  Notation xclose := (xclose St enc_close).
  Notation xdec := (xdec dec).
  Notation enc_run := (enc_run St enc_write).
  Notation copy_loop := (copy_loop St enc_write).
  Notation client_wire := (client_wire St enc_init enc_write enc_close).
  Notation server_view := (server_view dec).
  Notation codec_roundtrip := (codec_roundtrip St enc_init enc_write enc_close dec).

  Lemma enc_run_app k s a b :
    enc_run k s (a ++ b) = (fst (enc_run k (fst (enc_run k s a)) b), snd (enc_run k s a) ++ snd (enc_run k (fst (enc_run k s a)) b)).
  Proof.
    revert s. induction a as [|c a IH]; intros s; cbn [app Upload.enc_run].
    - cbn. now destruct (enc_run k s b).
    - destruct (xwrite k s c) as [s1 o1]. rewrite IH. destruct (enc_run k s1 a) as [s2 o2]. cbn [fst snd].
      destruct (enc_run k s2 b) as [s3 o3]. cbn [fst snd]. now rewrite app_assoc.
  Qed.
  Lemma enc_run_cons k s c r :
    enc_run k s (c :: r) = (fst (enc_run k (fst (xwrite k s c)) r), snd (xwrite k s c) ++ snd (enc_run k (fst (xwrite k s c)) r)).
  Proof. cbn [Upload.enc_run]. destruct (xwrite k s c) as [s1 o1]. cbn [fst snd]. now destruct (enc_run k s1 r). Qed.

  (* the copy either stops on a pipe that lost its reader, or it has pushed the whole source — cut into reads of at most
     32 KiB — through the encoder into the pipe and reports exactly the source's own end (0 = EOF, else its error) *)
  Lemma copy_loop_spec k : forall fuel r fail s p, (length (r_data r) < fuel)%nat ->
    exists e r' s' p', copy_loop fuel k r fail s p = (e, (r', s', p')) /\ p_cut p' = p_cut p /\
      ((e = E_CLOSED_PIPE /\ 0 <= p_cut p) \/
       (e = fail /\ exists cs, concat cs = r_data r /\ Forall (fun c => zlen c <= io_copy_buf) cs /\
                               s' = fst (enc_run k s cs) /\ p_bytes p' = p_bytes p ++ snd (enc_run k s cs))).
  Proof.
    induction fuel as [|f IH]; intros r fail s p Hf; [lia|].
    cbn [Upload.copy_loop]. destruct (r_data r) as [|x t] eqn:Ed.
    - exists fail, r, s, p. repeat split; auto. right. split; [reflexivity|]. exists []. cbn. rewrite app_nil_r. auto.
    - cbv iota. rewrite <- Ed in *.
      destruct (rd_read_spec r io_copy_buf) as (n & Hn & Hnl & ->); [reflexivity|rewrite Ed; discriminate|].
      destruct (xwrite k s (ztake n (r_data r))) as [s1 out] eqn:Ew.
      pose proof (pipe_write_cases p out) as (Hc & Hpw). destruct (pipe_write p out) as [p1 e1]. cbn [fst snd] in *.
      destruct Hpw as [[-> Hcut]|[-> Hb]]; cbn [Z.eqb E_CLOSED_PIPE].
      + eexists _, _, _, _. repeat split; eauto.
      + destruct (IH (mkRd (zdrop n (r_data r)) (tl (r_script r))) fail s1 p1) as (e & r' & s' & p' & -> & Hc' & Hres).
        { cbn [r_data]. rewrite length_zdrop. unfold zlen in Hnl. lia. }
        eexists _, _, _, _. split; [reflexivity|]. rewrite Hc', <- Hc. split; [reflexivity|].
        destruct Hres as [Hres|(-> & cs & Hcat & Hall & -> & Hp')]; [now left|]. right. split; [reflexivity|].
        exists (ztake n (r_data r) :: cs). rewrite enc_run_cons, Ew. cbn [fst snd concat r_data] in *.
        rewrite Hcat, Hp', Hb, app_assoc, ztake_zdrop. repeat split. constructor; [rewrite zlen_ztake by lia; apply Hn|exact Hall].
  Qed.

  (* outcome of compress for an encoding that setupCompression knows, writing to a new pipe: either the pipe lost its
     reader, or the result is the source's own end; and when the result is nil the pipe holds the complete, closed encoding *)

  Lemma run_compress_spec ename k src fail cut s0 :
    setup_kind ename = k -> 0 <= k ->
    let w0 := mkUW St ename 0 src fail s0 (mkP [] cut None) in
    exists e w1, run_compress St enc_init enc_write enc_close w0 = (e, w1) /\
      ((e = E_CLOSED_PIPE /\ 0 <= cut) \/
       (e = fail /\ fail <> 0) \/
       (e = 0 /\ fail = 0 /\ exists cs, concat cs = r_data src /\ Forall (fun c => zlen c <= io_copy_buf) cs /\
          p_bytes (w_pipe St w1) = snd (enc_run k (enc_init k) cs) ++ xclose k (fst (enc_run k (enc_init k) cs)))).
  Proof.
    intros Hk Hk0 w0. unfold run_compress, run_compress_with. rewrite compress_refines.
    unfold spec_compress, Upload.eff_compress, w0. cbn [Z.eqb Pos.eqb w_encname w_kind w_src w_fail w_enc w_pipe]. rewrite Hk.
    replace (k <? 0) with false by lia. cbn [Z.eqb w_encname w_kind w_src w_fail w_enc w_pipe].
    destruct (copy_loop_spec k (S (length (r_data src))) src fail (enc_init k) (mkP [] cut None) ltac:(lia))
      as (e & r' & s' & p' & -> & Hc & Hres).
    cbn [p_cut p_bytes app] in *. destruct (e =? 0) eqn:E0; cbn [w_encname w_kind w_src w_fail w_enc w_pipe].
    - (* the copy succeeded: Close *)
      pose proof (pipe_write_cases p' (xclose k s')) as (_ & Hpw). destruct (pipe_write p' (xclose k s')) as [p2 e2].
      cbn [fst snd] in *. eexists _, _. split; [reflexivity|]. cbn [w_pipe].
      destruct Hpw as [[He Hcut]|[He Hb]]; [left; split; [exact He|congruence]|]. right. right.
      destruct Hres as [[Hres _]|(Hfail & cs & Hcat & Hall & -> & Hp')]; [unfold E_CLOSED_PIPE in Hres; lia|].
      split; [exact He|]. split; [lia|]. exists cs. rewrite Hb, Hp'. auto.
    - eexists _, _. split; [reflexivity|].
      destruct Hres as [Hres|(Hfail & _)]; [now left|]. right. left. split; [exact Hfail|lia].
  Qed.

  (* the middleware hands the request to the handler exactly when the Content-Encoding is one it can decode, and then the
     body has been replaced by the decoder *)
  Lemma middleware_spec opq ce :
    let w := snd (run_prog (eff_middleware opq) opq middleware_prog middleware_prog_result (mkMW ce false 0 0)) in
    if decompress_kind ce <? 0 then m_ran w = 0 else (m_ran w = 1 /\ m_decoded w = dreq_body_is_decoder).
  Proof.
    cbv zeta. rewrite middleware_refines. unfold spec_middleware.
    change (eff_middleware opq 0 [] (mkMW ce false 0 0)) with (run_prog eff_dreq opq dreq_prog dreq_prog_result (mkMW ce false 0 0)).
    rewrite dreq_refines. unfold spec_dreq.
    change (eff_dreq 0 [] (mkMW ce false 0 0)) with (if decompress_kind ce <? 0 then E_UNACCEPTABLE else 0, mkMW ce false 0 0).
    destruct (decompress_kind ce <? 0); [reflexivity|]. cbn [Z.eqb]. now destruct (opq 1 || opq 2).
  Qed.

  Lemma server_view_cases opq ce body term :
    server_view opq (ce, body, term) =
      if decompress_kind ce <? 0 then SErr else
      match term with
      | Some 0 => match xdec (decompress_kind ce) body with Some b => SOk b | None => SErr end
      | _ => SErr
      end.
  Proof.
    unfold Upload.server_view. pose proof (middleware_spec opq ce) as H. cbv zeta in H.
    destruct (run_prog (eff_middleware opq) opq middleware_prog middleware_prog_result (mkMW ce false 0 0)) as [e w].
    cbn [snd] in H. destruct (decompress_kind ce <? 0); [rewrite H; reflexivity|]. destruct H as [-> ->]. reflexivity.
  Qed.

  Hypothesis Hrt : codec_roundtrip.

  Lemma xdec_roundtrip k cs : 0 < k -> Forall (fun c => zlen c <= io_copy_buf) cs ->
    xdec k (snd (enc_run k (enc_init k) cs) ++ xclose k (fst (enc_run k (enc_init k) cs))) = Some (concat cs).
  Proof.
    intros Hk Hall. unfold Upload.xdec, Upload.xclose. replace (k =? 0) with false by lia. now apply Hrt.
  Qed.

  (* one attempt, end to end, for every advertised encoding list, read schedule, abandonment point and every value of the
     conditions the translation left opaque: either the source was read to its end without error and the server digests
     exactly the client-side stream, or the server digests nothing and the client's transport sees why (the source's own
     error, or the reader that went away) *)
  Lemma attempt_cases opq adv src cut :
    (u_fail src = 0 /\ server_view opq (client_wire adv src cut) = SOk (u_data src)) \/
    (server_view opq (client_wire adv src cut) = SErr /\
     (client_body_error (client_wire adv src cut) = u_fail src /\ u_fail src <> 0 \/
      client_body_error (client_wire adv src cut) = E_CLOSED_PIPE /\ 0 <= cut)).
  Proof.
    unfold Upload.client_wire, Upload.client_wire_with. destruct (select_encoding_range adv) as [Hs|Hs].
    - (* no compression: the body is the stream itself *)
      rewrite Hs. cbn [creq_plain_cond bytes_eqb list_eqb br_body_is_stream]. rewrite server_view_cases. cbn.
      destruct (u_fail src) as [|q|q]; [now left| |]; right; (split; [reflexivity|]); left; (split; [reflexivity|discriminate]).
    - assert (Hk : exists k, setup_kind (select_encoding adv) = k /\ 0 < k /\ creq_plain_cond (select_encoding adv) = false).
      { destruct Hs as [Hs|Hs]; rewrite Hs; [exists 1|exists 2]; repeat split; reflexivity. }
      destruct Hk as (k & Hk & Hk0 & ->). change creq_wired with true. cbv iota.
      rewrite goroutine_refines. unfold spec_goroutine, Upload.eff_goroutine_with. cbn [Z.eqb Pos.eqb].
      destruct (run_compress_spec (select_encoding adv) k (mkRd (u_data src) (u_script src)) (u_fail src) cut (enc_init 0) Hk ltac:(lia))
        as (e & w1 & E & Hres). cbv zeta in E. unfold run_compress in E. rewrite E.
      cbn [hd w_pipe pipe_close p_bytes p_term]. rewrite server_view_cases, <- codec_sides_agree, Hk.
      replace (k <? 0) with false by lia. unfold client_body_error. cbn [snd].
      destruct Hres as [[-> Hc]|[(-> & Hf)|(-> & Hf & cs & Hcat & Hall & ->)]].
      + right. auto.
      + right. split; [destruct (u_fail src); congruence|auto].
      + left. rewrite xdec_roundtrip by assumption. cbn [r_data] in Hcat. now rewrite Hcat.
  Qed.

  Theorem upload_integrity opq adv src cut b :
    server_view opq (client_wire adv src cut) = SOk b -> b = u_data src /\ u_fail src = 0.
  Proof. destruct (attempt_cases opq adv src cut) as [[Hf ->]|[-> _]]; [|discriminate]. now intros [= <-]. Qed.

  (* with a reader that stays (the attempt is not abandoned) the server's view is the specification's: the full stream
     when the source is healthy, nothing when it fails — identically under every encoding *)
  Theorem upload_eq_spec opq adv src : server_view opq (client_wire adv src (-1)) = spec_view src.
  Proof.
    unfold spec_view. destruct (attempt_cases opq adv src (-1)) as [[-> ->]|[-> [[_ Hf]|[_ Hc]]]]; [reflexivity| |lia].
    now replace (u_fail src =? 0) with false by lia.
  Qed.
End UploadProofs.

Lemma read_all_spec : forall fuel r fail acc, (length (r_data r) < fuel)%nat ->
  read_all fuel r fail acc = if fail =? 0 then SOk (acc ++ r_data r) else SErr.
Proof.
  induction fuel as [|f IH]; intros r fail acc Hf; [lia|].
  cbn [read_all]. destruct (r_data r) as [|x t] eqn:Ed; [now rewrite app_nil_r|].
  cbv iota. rewrite <- Ed in *.
  destruct (rd_read_spec r 512) as (n & Hn & Hnl & ->); [reflexivity|rewrite Ed; discriminate|].
  rewrite IH by (cbn [r_data]; rewrite length_zdrop; unfold zlen in Hnl; lia).
  cbn [r_data]. now rewrite <- app_assoc, ztake_zdrop.
Qed.

Lemma fc2_enc_run k : k <> 0 -> forall cs s,
  enc_run fc2_state fc2_write k s cs = ((fst s, snd s + zlen (concat cs)), concat (map fc_frame cs)).
Proof.
  intros Hk. induction cs as [|c r IH]; intros s; cbn [Upload.enc_run concat map].
  - rewrite zlen_nil, Z.add_0_r. now destruct s.
  - unfold xwrite. replace (k =? 0) with false by lia. unfold fc2_write at 1. rewrite IH. cbn [fst snd].
    rewrite zlen_app. f_equal. f_equal. lia.
Qed.

(* the decoder takes one frame and goes on with what follows it *)
Lemma fc_dec_frame k f c tail acc : c <> [] -> zlen c <= io_copy_buf ->
  fc2_dec_loop (S f) k (fc_frame c ++ tail) acc = fc2_dec_loop f k tail (acc ++ c).
Proof.
  intros Hne Hc. apply zlen_pos_iff in Hne.
  replace (fc_frame c) with (1 :: le_enc 4 (zlen c) ++ c) by (destruct c; [discriminate Hne|reflexivity]).
  cbn [app fc2_dec_loop Z.eqb Pos.eqb]. rewrite <- app_assoc.
  pose proof (le_enc_zlen 4 (zlen c)) as H4. change (Z.of_nat 4) with 4 in H4.
  rewrite (ztake_app_len 4), (zdrop_app_len 4), le_dec_enc4 by (exact H4 || (unfold io_copy_buf in Hc; lia)).
  rewrite zlen_app, H4, zlen_app. pose proof (zlen_nonneg tail).
  replace (4 + (zlen c + zlen tail) <? 4) with false by lia.
  replace (zlen c <=? 0) with false by lia. replace (zlen c + zlen tail <? zlen c) with false by lia.
  cbn [orb]. now rewrite zdrop_app_exact, ztake_app_exact.
Qed.

(* hence a run of frames; an empty write leaves no frame and costs the decoder no round *)
Lemma fc_dec_frames k : forall cs fuel acc tail,
  Forall (fun c => zlen c <= io_copy_buf) cs -> (length (concat (map fc_frame cs) ++ tail) < fuel)%nat ->
  exists fuel', (length tail < fuel')%nat /\
    fc2_dec_loop fuel k (concat (map fc_frame cs) ++ tail) acc = fc2_dec_loop fuel' k tail (acc ++ concat cs).
Proof.
  induction cs as [|c r IH]; intros fuel acc tail Hall Hf; cbn [map concat] in *.
  - exists fuel. now rewrite app_nil_r.
  - inversion Hall as [|? ? Hc Hr]; subst. rewrite <- app_assoc in *. destruct c as [|x c'] eqn:Ec.
    + now apply IH.
    + rewrite <- Ec in *. destruct fuel as [|f]; [lia|]. rewrite fc_dec_frame by (assumption || now rewrite Ec).
      destruct (IH f (acc ++ c) tail Hr) as (fuel' & Hf' & ->).
      { rewrite Ec in Hf. cbn [fc_frame app length] in Hf. rewrite !app_length in *. lia. }
      exists fuel'. now rewrite <- app_assoc.
Qed.

(* and it accepts the end of stream that fc2_close writes after `acc` *)
Lemma fc2_dec_end k fuel acc : (length (fc2_close (k, zlen acc)) < fuel)%nat ->
  fc2_dec_loop fuel k (fc2_close (k, zlen acc)) acc = Some acc.
Proof.
  destruct fuel as [|f]; [lia|]. intros _. unfold fc2_close, fc_trailer. cbn [fst snd].
  destruct (k =? 1) eqn:E1; cbn [fc2_dec_loop Z.eqb]; rewrite E1; [|reflexivity].
  cbn [andb]. rewrite le_enc_zlen, le_dec_enc_mod. change (256 ^ Z.of_nat 4) with (2 ^ 32).
  now rewrite Z.mod_mod, !Z.eqb_refl by lia.
Qed.
