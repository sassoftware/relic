(* C09/Proofs.v — how a stream arrives does not matter.  Every hasher of C09/Model.v that cuts a stream into blocks
   yields `chunks B` of the stream whatever the sizes of the Writes or Reads that deliver it; a PE checksum fed in pieces
   is the checksum of one Write of the whole, which is the published sum; ReadZipTar undoes ZipToTar; selectEncoding is
   its three-line specification; every doRequest history is a good_trace over the scripted outcomes. *)
From Relic Require Import Base.Prelude Base.Enc Base.Lists Base.Slice Generated.C09_gen C09.Model C09.Upload.

Lemma length_zdrop {A} n (l : list A) : length (zdrop n l) = (length l - Z.to_nat n)%nat.
Proof. apply skipn_length. Qed.

Lemma bytes_eqb_neq a b : bytes_eqb a b = false <-> a <> b.
Proof. apply Slice.bytes_eqb_neq. Qed.

Lemma zlen_pos_cons {A} (l : list A) : 0 < zlen l -> exists x t, l = x :: t.
Proof. destruct l as [|x t]; [cbn; lia|]. intros _. now exists x, t. Qed.

Lemma zlen_cons_pos {A} (x : A) t : 0 < zlen (x :: t).
Proof. rewrite zlen_cons. pose proof (zlen_nonneg t). lia. Qed.

Lemma zlen_pos_iff {A} (l : list A) : 0 < zlen l <-> l <> [].
Proof. destruct l; [cbn; split; [lia|congruence]|]. split; [discriminate|intros _; apply zlen_cons_pos]. Qed.

Section Chunks.
  Variable B : Z.
  Hypothesis HB : 0 < B.

  Lemma chunks_aux_any fuel1 : forall fuel2 l,
    (length l <= fuel1)%nat -> (length l <= fuel2)%nat -> chunks_aux fuel1 B l = chunks_aux fuel2 B l.
  Proof.
    induction fuel1 as [|f1 IH]; intros fuel2 l H1 H2.
    - destruct l; [|cbn in H1; lia]. destruct fuel2; reflexivity.
    - destruct l as [|x t]; [destruct fuel2; reflexivity|].
      destruct fuel2 as [|f2]; [cbn in H2; lia|].
      cbn [chunks_aux]. f_equal. apply IH; rewrite length_zdrop; cbn [length] in *; lia.
  Qed.

  Lemma chunks_nil : chunks B [] = [].
  Proof. reflexivity. Qed.

  Lemma chunks_step l : l <> [] -> chunks B l = ztake B l :: chunks B (zdrop B l).
  Proof.
    intros Hne. destruct l as [|x t]; [congruence|].
    unfold chunks at 1. cbn [length chunks_aux]. f_equal.
    apply chunks_aux_any; rewrite ?length_zdrop; cbn [length]; lia.
  Qed.

  Lemma chunks_app_full a l : zlen a = B -> chunks B (a ++ l) = a :: chunks B l.
  Proof.
    intros Ha. rewrite chunks_step.
    - now rewrite (ztake_app_len B), (zdrop_app_len B).
    - intros [-> _]%app_eq_nil. cbn in Ha. lia.
  Qed.

  Lemma chunks_small a : 0 < zlen a <= B -> chunks B a = [a].
  Proof. intros Ha. rewrite chunks_step by (apply zlen_pos_iff; lia). now rewrite ztake_all, zdrop_all by lia. Qed.

  (* induction along the pieces: every non-empty string is one piece followed by a shorter string *)
  Lemma chunks_ind (P : bytes -> Prop) : P [] -> (forall l, l <> [] -> P (zdrop B l) -> P l) -> forall l, P l.
  Proof.
    intros H0 HS l. remember (length l) as n eqn:E. revert l E.
    induction n as [n IH] using lt_wf_ind. intros [|x t] E; [exact H0|].
    apply HS; [discriminate|]. apply (IH (length (zdrop B (x :: t)))); [|reflexivity].
    rewrite length_zdrop, E. cbn [length]. lia.
  Qed.

  Lemma concat_chunks l : concat (chunks B l) = l.
  Proof.
    induction l as [|l Hne IH] using chunks_ind; [reflexivity|].
    rewrite chunks_step by assumption. cbn [concat]. rewrite IH. apply ztake_zdrop.
  Qed.

  Lemma wf_chunks_chunks l : wf_chunks B (chunks B l).
  Proof.
    induction l as [|l Hne IH] using chunks_ind; [exact I|].
    apply zlen_pos_iff in Hne. destruct (Z.le_gt_cases (zlen l) B).
    - rewrite chunks_small by lia. cbn. lia.
    - assert (Hd : zdrop B l <> []) by (apply zlen_pos_iff; rewrite zlen_zdrop; lia).
      rewrite chunks_step by now apply zlen_pos_iff. rewrite chunks_step in * by exact Hd.
      split; [apply zlen_ztake; lia|exact IH].
  Qed.

  Definition is_full (b : bytes) : Prop := zlen b = B.
  Notation full := is_full.

  (* full blocks at the front are pieces of their own, whatever follows *)
  Lemma chunks_full_app bs r : Forall full bs -> chunks B (concat bs ++ r) = bs ++ chunks B r.
  Proof.
    induction 1 as [|b bs Hb _ IH]; [reflexivity|].
    cbn [concat app]. now rewrite <- app_assoc, chunks_app_full, IH.
  Qed.

  Lemma zlen_concat_full bs : Forall full bs -> zlen (concat bs) = B * zlen bs.
  Proof.
    induction 1 as [|b bs Hb _ IH]; [cbn; lia|]. cbn [concat]. rewrite zlen_app, zlen_cons, IH. unfold is_full in Hb. lia.
  Qed.
End Chunks.

(* a Read on a reader that still has data delivers between 1 and `want` of its next bytes; how many is the script's choice *)
Lemma rd_read_spec r want : 0 < want -> r_data r <> [] ->
  exists k, 0 < k <= want /\ k <= zlen (r_data r) /\
    rd_read r want = (ztake k (r_data r), mkRd (zdrop k (r_data r)) (tl (r_script r))).
Proof.
  intros Hw Hne. unfold rd_read.
  set (k := match r_script r with [] => want | s :: _ => Z.min want (Z.max 1 s) end).
  assert (Hk : 0 < k <= want) by (subst k; destruct (r_script r); lia).
  assert (0 < zlen (r_data r)) by now apply zlen_pos_iff.
  destruct (Z.le_gt_cases k (zlen (r_data r))).
  - exists k. repeat split; lia.
  - exists (zlen (r_data r)). rewrite !ztake_all, !zdrop_all by lia. repeat split; lia.
Qed.

Lemma pull_spec bufsz : 0 < bufsz -> forall fuel r n acc, (Z.to_nat n < fuel)%nat ->
  fst (pull fuel bufsz r n acc) = acc ++ ztake n (r_data r) /\ r_data (snd (pull fuel bufsz r n acc)) = zdrop n (r_data r).
Proof.
  intros Hb. induction fuel as [|f IH]; intros r n acc Hf; [lia|].
  cbn [pull]. destruct (n <=? 0) eqn:En.
  - cbn [fst snd]. now rewrite ztake_neg, zdrop_neg, app_nil_r by lia.
  - destruct (r_data r) as [|x t] eqn:Ed.
    + cbn [fst snd]. rewrite Ed, ztake_all, zdrop_all by (rewrite zlen_nil; lia). now rewrite app_nil_r.
    + cbv iota. rewrite <- Ed.
      destruct (rd_read_spec r (Z.min bufsz n)) as (k & Hk & Hkl & ->); [lia|rewrite Ed; discriminate|].
      rewrite zlen_ztake by lia.
      destruct (IH (mkRd (zdrop k (r_data r)) (tl (r_script r))) (n - k) (acc ++ ztake k (r_data r))) as [-> ->]; [lia|].
      cbn [r_data]. rewrite <- app_assoc, <- ztake_split, zdrop_zdrop by lia. split; [reflexivity|f_equal; lia].
Qed.

Lemma read_full_spec r n : 0 < n ->
  fst (read_full r n) = ztake n (r_data r) /\ r_data (snd (read_full r n)) = zdrop n (r_data r).
Proof. intros H. apply (pull_spec n H (S (Z.to_nat n)) r n []). lia. Qed.
Lemma copy_n_spec r n :
  fst (copy_n r n) = ztake n (r_data r) /\ r_data (snd (copy_n r n)) = zdrop n (r_data r).
Proof. apply (pull_spec io_copy_buf ltac:(reflexivity) (S (Z.to_nat n)) r n []). lia. Qed.

Section Merkle.
  Variable B : Z.
  Hypothesis HB : 0 < B.
  Notation full := (is_full B).

  Lemma direct_loop_spec fuel : forall d acc, (length d < fuel)%nat ->
    exists bs r, direct_loop fuel B d acc = (acc ++ bs, r) /\ Forall full bs /\ zlen r < B /\ concat bs ++ r = d.
  Proof.
    induction fuel as [|f IH]; intros d acc Hf; [lia|].
    cbn [direct_loop]. unfold merkle_direct_cond. destruct (zlen d >=? B) eqn:E.
    - destruct (IH (zdrop B d) (acc ++ [ztake B d])) as (bs & r & -> & H2 & H3 & H4).
      { rewrite length_zdrop. unfold zlen in E. lia. }
      exists (ztake B d :: bs), r. rewrite <- app_assoc. cbn [app concat]. repeat split; auto.
      + constructor; [|exact H2]. apply zlen_ztake. lia.
      + rewrite <- app_assoc, H4. apply ztake_zdrop.
    - exists [], d. rewrite app_nil_r. repeat split; auto. lia.
  Qed.

  (* h holds the blocks P it was given, then full blocks and a short buffer which together spell l.  P is arbitrary: blocks
     once emitted are never looked at again, so a flushed hasher can be written to as if it were new *)
  Definition mrep (P : list bytes) (l : bytes) (h : mh) : Prop :=
    exists bs, m_blocks h = P ++ bs /\ Forall full bs /\ zlen (m_buf h) < B /\ concat bs ++ m_buf h = l.

  Lemma mrep_flushed P : mrep P [] (mkMH P []).
  Proof. exists []. cbn. rewrite app_nil_r. repeat split; [constructor|lia]. Qed.

  (* a Write that completes the buffered block goes on as a Write of the remaining data to an empty buffer *)
  Lemma mwrite_fill h d : m_n h <> 0 -> m_n h < B <= m_n h + zlen d ->
    mwrite B h d = mwrite B (mkMH (m_blocks h ++ [m_buf h ++ ztake (B - m_n h) d]) []) (zdrop (B - m_n h) d).
  Proof.
    intros Hn HB'. unfold mwrite at 1 2, merkle_complete_cond. cbn [m_n m_buf m_blocks zlen length Z.of_nat Z.eqb negb andb].
    replace (negb (m_n h =? 0) && (m_n h + zlen d >=? B)) with true by lia.
    now replace ((B - m_n h <? 0) || (zlen d <? B - m_n h)) with false by lia.
  Qed.

  (* a Write that leaves room in the buffer only appends to it *)
  Lemma mwrite_short h d : m_n h + zlen d < B -> mwrite B h d = Ok (mkMH (m_blocks h) (m_buf h ++ d)).
  Proof.
    intros Hs. pose proof (zlen_nonneg d). pose proof (zlen_nonneg (m_buf h)).
    unfold mwrite, merkle_complete_cond, m_n in *. replace (zlen (m_buf h) + zlen d >=? B) with false by lia.
    rewrite andb_false_r. cbn [bind direct_loop]. unfold merkle_direct_cond. replace (zlen d >=? B) with false by lia.
    cbn [m_blocks m_buf]. rewrite app_nil_r. unfold merkle_save_cond. destruct (zlen d =? 0) eqn:Ed; cbn [negb].
    - now rewrite (zlen_0_nil d), app_nil_r by lia.
    - now replace (zlen (m_buf h) + zlen d >? B) with false by lia.
  Qed.

  (* a Write to an empty buffer hashes the full blocks of d directly and buffers the rest *)
  Lemma mwrite_empty P bs d : Forall full bs ->
    exists h', mwrite B (mkMH (P ++ bs) []) d = Ok h' /\ mrep P (concat bs ++ d) h'.
  Proof.
    intros Hf. unfold mwrite. cbn [m_n m_buf m_blocks merkle_complete_cond zlen length Z.of_nat Z.eqb negb andb bind].
    destruct (direct_loop_spec (S (length d)) d [] ltac:(lia)) as (bs2 & r & -> & Hf2 & Hr & <-). cbn [app].
    exists (mkMH ((P ++ bs) ++ bs2) r). split.
    - unfold merkle_save_cond, m_n. cbn [m_buf m_blocks zlen length Z.of_nat Z.add app]. destruct (zlen r =? 0) eqn:Er; cbn [negb].
      + now rewrite (zlen_0_nil r) by lia.
      + now replace (zlen r >? B) with false by lia.
    - exists (bs ++ bs2). cbn [m_blocks m_buf]. rewrite concat_app, <- !app_assoc. repeat split; [now apply Forall_app|exact Hr].
  Qed.

  (* one Write: never fails on a consistent state and appends d to what the state spells *)
  Lemma mwrite_spec P l h d : mrep P l h -> exists h', mwrite B h d = Ok h' /\ mrep P (l ++ d) h'.
  Proof.
    intros (bs & Hbl & Hf & Hbuf & <-). fold (m_n h) in Hbuf.
    destruct (Z.eq_dec (m_n h) 0) as [E|E]; [|destruct (Z.lt_ge_cases (m_n h + zlen d) B)].
    - destruct h as [blocks buf]. unfold m_n in E. cbn [m_blocks m_buf] in *. apply zlen_0_nil in E. subst.
      rewrite app_nil_r. now apply mwrite_empty.
    - rewrite mwrite_short by assumption. eexists. split; [reflexivity|]. exists bs. cbn [m_blocks m_buf].
      rewrite zlen_app, app_assoc. auto.
    - (* the Write completes the buffered block and goes on as a Write to an empty buffer *)
      rewrite mwrite_fill by (assumption || lia). rewrite Hbl, <- app_assoc.
      destruct (mwrite_empty P (bs ++ [m_buf h ++ ztake (B - m_n h) d]) (zdrop (B - m_n h) d)) as (h' & E' & Hr').
      + apply Forall_app. split; [exact Hf|]. constructor; [|constructor]. unfold is_full, m_n in *. rewrite zlen_app, zlen_ztake; lia.
      + exists h'. split; [exact E'|]. rewrite concat_app in Hr'. cbn [concat] in Hr'.
        rewrite app_nil_r, <- !app_assoc, ztake_zdrop in Hr'. now rewrite <- app_assoc.
  Qed.

  Lemma mwrite_all_spec P ds : forall l h, mrep P l h ->
    exists h', mwrite_all B h ds = Ok h' /\ mrep P (l ++ concat ds) h'.
  Proof.
    induction ds as [|d ds IH]; intros l h Hr; cbn [mwrite_all concat].
    - exists h. now rewrite app_nil_r.
    - destruct (mwrite_spec P l h d Hr) as (h1 & -> & Hr1). rewrite app_assoc. now apply IH.
  Qed.

  (* flush turns what the state spells into its chunks *)
  Lemma mflush_spec P l h : mrep P l h -> mflush h = mkMH (P ++ chunks B l) [].
  Proof.
    intros (bs & Hbl & Hf & Hbuf & <-). rewrite (chunks_full_app B HB) by exact Hf.
    unfold mflush, merkle_flush_cond, m_n. destruct h as [blocks [|x t]]; cbn [m_blocks m_buf] in *; subst blocks.
    - now rewrite chunks_nil, app_nil_r.
    - replace (negb (zlen (x :: t) =? 0)) with true by (pose proof (zlen_cons_pos x t); lia).
      rewrite (chunks_small B HB) by (pose proof (zlen_cons_pos x t); lia). now rewrite app_assoc.
  Qed.

  (* one section of the v2 scheme: written into a flushed hasher and flushed again, it contributes exactly its own chunks *)
  Lemma section_spec P d : exists h', mwrite B (mkMH P []) d = Ok h' /\ mflush h' = mkMH (P ++ chunks B d) [].
  Proof.
    destruct (mwrite_spec P [] _ d (mrep_flushed P)) as (h' & E & Hr). exists h'. split; [exact E|]. exact (mflush_spec _ _ _ Hr).
  Qed.

  (* the whole computation for the call sequence flush; Write cdir; flush; Write eocd; flush *)
  Lemma merkle_run_spec ds cdir eocd :
    finish_calls = [0; 1; 0; 1; 0; 2; 2] -> finish_write_args = [0; 1] ->
    merkle_run B ds cdir eocd = Ok (chunks B (concat ds) ++ chunks B cdir ++ chunks B eocd).
  Proof.
    intros Hc Ha. unfold merkle_run, merkle_finish. rewrite Hc, Ha.
    destruct (mwrite_all_spec [] ds [] mh_init (mrep_flushed [])) as (h0 & -> & Hr0).
    destruct (section_spec (chunks B (concat ds)) cdir) as (h1 & E1 & F1).
    destruct (section_spec (chunks B (concat ds) ++ chunks B cdir) eocd) as (h2 & E2 & F2).
    cbn [bind run_finish Z.eqb Pos.eqb]. rewrite (mflush_spec _ _ _ Hr0). cbn [app]. rewrite E1. cbn [bind].
    rewrite F1, E2. cbn [bind]. rewrite F2. cbn. now rewrite <- app_assoc.
  Qed.
End Merkle.

(* a loop that takes B bytes from a reader per round, emits them as a block and stops when the reader is exhausted (at
   the latest; a round that drains the reader may also be the last) emits the chunks of the reader's data *)
Section ReaderLoop.
  Variable B : Z.
  Variable loop : nat -> rd -> list bytes -> list bytes.
  Hypothesis HB : 0 < B.
  Hypothesis loop_nil : forall f r acc, r_data r = [] -> loop (S f) r acc = acc.
  Hypothesis loop_cons : forall f r acc, r_data r <> [] ->
    exists r', r_data r' = zdrop B (r_data r) /\
      (loop (S f) r acc = loop f r' (acc ++ [ztake B (r_data r)]) \/
       r_data r' = [] /\ loop (S f) r acc = acc ++ [ztake B (r_data r)]).

  Lemma reader_loop_chunks fuel : forall r acc, (length (r_data r) < fuel)%nat -> loop fuel r acc = acc ++ chunks B (r_data r).
  Proof.
    induction fuel as [|f IH]; intros r acc Hf; [lia|]. destruct (r_data r) as [|x t] eqn:Ed.
    - rewrite loop_nil by exact Ed. now rewrite app_nil_r.
    - rewrite <- Ed in *. assert (Hne : r_data r <> []) by (rewrite Ed; discriminate).
      rewrite (chunks_step B HB) by exact Hne.
      destruct (loop_cons f r acc Hne) as (r' & Hr' & [-> | [Hn ->]]).
      + rewrite IH, Hr', <- app_assoc by (rewrite Hr', length_zdrop, Ed in *; cbn [length] in *; lia). reflexivity.
      + now rewrite <- Hr', Hn.
  Qed.
End ReaderLoop.

Lemma addfile_loop_spec fuel : forall r acc, (length (r_data r) < fuel)%nat ->
  addfile_loop fuel r acc = acc ++ chunks bm_limit (r_data r).
Proof.
  assert (HB : 0 < bm_limit) by reflexivity.
  apply reader_loop_chunks; [exact HB| |].
  all: intros f r acc Hd; cbn [addfile_loop]; unfold bm_block_cond.
  all: destruct (copy_n_spec r bm_limit) as [H1 H2]; destruct (copy_n r bm_limit) as [got r']; cbn [fst snd] in H1, H2; subst got.
  - rewrite Hd, ztake_all, zlen_nil by (rewrite zlen_nil; lia). now replace (0 <? bm_limit) with true by lia.
  - exists r'. split; [exact H2|]. assert (0 < zlen (r_data r)) by now apply zlen_pos_iff.
    rewrite zlen_ztake_min by lia. replace (Z.min bm_limit (zlen (r_data r)) >? 0) with true by lia.
    destruct (Z.min bm_limit (zlen (r_data r)) <? bm_limit) eqn:El; [right|now left].
    split; [|reflexivity]. rewrite H2. apply zdrop_all. lia.
Qed.

Lemma hashpages_loop_spec fuel : forall r acc, (length (r_data r) < fuel)%nat ->
  hashpages_loop fuel r acc = acc ++ chunks cs_page_size (r_data r).
Proof.
  assert (HB : 0 < cs_page_size) by reflexivity.
  apply reader_loop_chunks; [exact HB| |].
  all: intros f r acc Hd; cbn [hashpages_loop]; unfold hp_stop_cond.
  all: destruct (read_full_spec r cs_page_size HB) as [H1 H2]; destruct (read_full r cs_page_size) as [got r']; cbn [fst snd] in H1, H2; subst got.
  - now rewrite Hd, ztake_all by (rewrite zlen_nil; lia).
  - exists r'. split; [exact H2|]. left. assert (0 < zlen (r_data r)) by now apply zlen_pos_iff.
    rewrite zlen_ztake_min by lia. now replace (Z.min cs_page_size (zlen (r_data r)) <=? 0) with false by lia.
Qed.

Lemma pe_section_loop_spec pagesz : 0 < pagesz -> forall fuel r position remaining acc,
  0 <= remaining <= zlen (r_data r) -> 0 <= position -> position + remaining < 2 ^ 32 ->
  (Z.to_nat remaining < fuel)%nat ->
  exists r', pe_section_loop fuel pagesz r position remaining acc =
               Ok (acc ++ number_pages position (chunks pagesz (ztake remaining (r_data r))), r', position + remaining)
             /\ r_data r' = zdrop remaining (r_data r).
Proof.
  intros HP. induction fuel as [|f IH]; intros r position remaining acc Hr Hp Hw Hf; [lia|].
  cbn [pe_section_loop]. unfold pe_sec_loop_cond, pe_sec_clip_cond. destruct (remaining >? 0) eqn:Er;
    [|exists r; replace remaining with 0 by lia; now rewrite ztake_0, chunks_nil, app_nil_r, Z.add_0_r].
  (* this round reads n bytes: a whole page, or all that remains when that is less *)
  set (n := if remaining >? pagesz then pagesz else remaining).
  assert (Hn : 0 < n <= remaining /\ (n = pagesz \/ n = remaining /\ remaining < pagesz))
    by (subst n; destruct (remaining >? pagesz) eqn:E; lia).
  clearbody n.
  destruct (read_full_spec r n ltac:(lia)) as [H1 H2]. destruct (read_full r n) as [got r']. cbn [fst snd] in H1, H2.
  assert (Hg : zlen got = n) by (subst got; apply zlen_ztake; lia).
  replace (zlen got <? n) with false by lia. unfold wrap32. rewrite Z.mod_small by lia.
  destruct (IH r' (position + n) (remaining - n) (acc ++ [(position, got)])) as (r'' & -> & Hd);
    [rewrite H2, zlen_zdrop by lia; lia|lia|lia|lia|].
  clear IH Hf Hw. exists r''. rewrite Hd, H2, zdrop_zdrop, <- app_assoc, (ztake_split n remaining), <- H1 by lia.
  split; [|f_equal; lia]. do 2 f_equal; [|lia]. f_equal. cbn [app].
  destruct Hn as [_ [-> | [-> Hlt]]].
  - rewrite chunks_app_full by lia. cbn [number_pages]. now rewrite Hg.
  - now rewrite Z.sub_diag, ztake_0, app_nil_r, chunks_nil, (chunks_small pagesz HP) by lia.
Qed.

Lemma concat_number_pages pos cs : concat (map snd (number_pages pos cs)) = concat cs.
Proof. revert pos. induction cs as [|c r IH]; intros pos; cbn; [reflexivity|]. now rewrite IH. Qed.

Lemma mod2_add2 z : (1 + (1 + z)) mod 2 = z mod 2.
Proof. replace (1 + (1 + z)) with (z + 1 * 2) by ring. apply Z.mod_add. discriminate. Qed.

Definition evenlen (d : bytes) : Prop := zlen d mod 2 = 0.
Lemma evenlen_rem d : (Z.rem (zlen d) 2 =? 0) = true -> evenlen d.
Proof. unfold evenlen. rewrite <- Z.rem_mod_nonneg by (apply zlen_nonneg || reflexivity). apply Z.eqb_eq. Qed.
Lemma evenlen_cons2 x y r : evenlen (x :: y :: r) <-> evenlen r.
Proof. unfold evenlen. now rewrite !zlen_cons, mod2_add2. Qed.

(* padding of an odd write *)
Definition pad (d : bytes) : bytes := if ck_write_odd_cond (zlen d) then d ++ [0] else d.
Lemma odd_cond_spec n : 0 <= n -> ck_write_odd_cond n = negb (n mod 2 =? 0).
Proof. intros H. unfold ck_write_odd_cond. now rewrite Z.rem_mod_nonneg by lia. Qed.
Lemma odd_cond_even d : evenlen d -> ck_write_odd_cond (zlen d) = false.
Proof. intros H. rewrite odd_cond_spec by apply zlen_nonneg. unfold evenlen in H. now rewrite H. Qed.
Lemma pad_even d : evenlen d -> pad d = d.
Proof. intros H. unfold pad. rewrite odd_cond_even by exact H. reflexivity. Qed.
Lemma pad_cons2 x y r : pad (x :: y :: r) = x :: y :: pad r.
Proof.
  unfold pad. rewrite !odd_cond_spec, !zlen_cons, mod2_add2 by apply zlen_nonneg.
  now destruct (negb (zlen r mod 2 =? 0)).
Qed.
Lemma pad_app p d : evenlen p -> pad (p ++ d) = p ++ pad d.
Proof.
  induction p as [| x | x y r IH] using list_ind2; intros He; [reflexivity|discriminate|].
  apply evenlen_cons2 in He. cbn [app]. now rewrite pad_cons2, IH.
Qed.

(* ck_words looks at pos and i only through the absolute offset pos + i *)
Lemma ck_words_sum c d : forall pos i pos' i' s, pos + i = pos' + i' -> ck_words c pos i d s = ck_words c pos' i' d s.
Proof.
  induction d as [| x | x y r IH] using list_ind2; intros pos i pos' i' s H; [reflexivity|reflexivity|].
  cbn [ck_words]. unfold ck_abs. rewrite H. apply IH. lia.
Qed.
Lemma ck_words_app c pos p : evenlen p -> forall d i s,
  ck_words c pos i (p ++ d) s = ck_words c pos (i + zlen p) d (ck_words c pos i p s).
Proof.
  induction p as [| x | x y r IH] using list_ind2; intros He d i s.
  - cbn [app ck_words]. now rewrite zlen_nil, Z.add_0_r.
  - discriminate.
  - apply evenlen_cons2 in He. cbn [app ck_words]. rewrite IH by exact He. apply ck_words_sum. rewrite !zlen_cons. lia.
Qed.

Lemma wrap32_add a b : wrap32 (wrap32 a + b) = wrap32 (a + b).
Proof. unfold wrap32. now rewrite Zplus_mod_idemp_l. Qed.

Lemma ck_write_eq h d : ck_write h d =
  if ck_odd h then Err E_ODD
  else Ok (mkCk (ck_pos h) (ck_off h + zlen d) (ck_words (ck_pos h) (ck_off h) 0 (pad d) (ck_sum h))
                (wrap32 (ck_size h + zlen d)) (ck_odd h || ck_write_odd_cond (zlen d))).
Proof. reflexivity. Qed.

(* two writes, the first of even length, are one write of the two strings; so every accepted split is one write *)
Lemma ck_write_app h d1 d2 : evenlen d1 -> (h1 <- ck_write h d1 ;; ck_write h1 d2) = ck_write h (d1 ++ d2).
Proof.
  intros He. rewrite !ck_write_eq. destruct (ck_odd h); [reflexivity|]. cbn [bind]. rewrite ck_write_eq.
  cbn [ck_pos ck_off ck_sum ck_size ck_odd orb].
  rewrite (odd_cond_even d1), (pad_even d1), pad_app, ck_words_app, zlen_app, wrap32_add, <- !Z.add_assoc by exact He.
  do 2 f_equal.
  - apply ck_words_sum. lia.
  - rewrite !odd_cond_spec by (pose proof (zlen_nonneg d1); pose proof (zlen_nonneg d2); lia).
    now rewrite Z.add_mod, He, Z.add_0_l, Z.mod_mod by discriminate.
Qed.

Lemma ck_write_all_concat : forall ds h, ds <> [] -> ck_split_ok ds = true -> ck_write_all h ds = ck_write h (concat ds).
Proof.
  induction ds as [|d ds IH]; intros h Hne Hok; [congruence|]. destruct ds as [|d2 r].
  - cbn [ck_write_all concat]. rewrite app_nil_r. now destruct (ck_write h d).
  - cbn [ck_split_ok] in Hok. apply andb_true_iff in Hok as [Hev Hok].
    change (concat (d :: d2 :: r)) with (d ++ concat (d2 :: r)). rewrite <- ck_write_app by now apply evenlen_rem.
    cbn [ck_write_all]. destruct (ck_write h d); cbn [bind]; [|reflexivity|reflexivity]. now apply IH.
Qed.

Lemma ck_word_val lo hi : 0 <= lo < 256 -> ck_word lo hi = lo + 256 * hi.
Proof.
  intros Hl. unfold ck_word.
  (* the operands of the `or` have no bit in common, so it is their sum *)
  assert (Hd : Z.land (Z.shiftl hi 8) lo = 0).
  { apply Z.bits_inj'. intros n Hn. rewrite Z.land_spec, Z.bits_0. destruct (Z.lt_ge_cases n 8).
    - now rewrite Z.shiftl_spec_low.
    - rewrite <- (Z.mod_small lo (2 ^ 8)), Z.mod_pow2_bits_high by lia. apply andb_false_r. }
  rewrite <- Z.lxor_lor, <- Z.add_nocarry_lxor, Z.shiftl_mul_pow2 by (exact Hd || lia). lia.
Qed.

(* the end-around carry of ck_fold and ck_final_fold, on a sum of two 16-bit values *)
Lemma fold16 x : 0 <= x <= 131070 -> Z.land 65535 (x + Z.shiftr x 16) = if x >? 65535 then x - 65535 else x.
Proof.
  intros H. rewrite Z.shiftr_div_pow2, Z.land_comm by lia. change 65535 with (Z.ones 16) at 1. rewrite Z.land_ones by lia.
  change (2 ^ 16) with 65536. destruct (x >? 65535) eqn:E; lia.
Qed.

Lemma ck_fold_add s v : 0 <= s <= 65535 -> 0 <= v <= 65535 ->
  ck_fold (wrap32 (s + v)) = ones_add s v /\ 0 <= ones_add s v <= 65535.
Proof.
  intros Hs Hv. unfold ck_fold, wrap32, ones_add. rewrite (Z.mod_small (s + v)), fold16 by lia.
  destruct (s + v >? 65535) eqn:E; lia.
Qed.

Lemma fold_ones_range l : forall s, 0 <= s <= 65535 -> Forall (fun w => 0 <= w <= 65535) l ->
  0 <= fold_left ones_add l s <= 65535.
Proof.
  induction l as [|w l IH]; intros s Hs Hl; [exact Hs|]. inversion Hl; subst. cbn [fold_left]. apply IH; [|assumption].
  unfold ones_add. destruct (s + w >? 65535) eqn:E; lia.
Qed.

(* the specification's byte-wise zeroing, from absolute offset a *)
Definition zf (c a : Z) (d : bytes) : bytes := if c <? 0 then d else zero_field_from c a d.

(* evenness of an offset, kept folded: a `mod` among the hypotheses makes every `lia` dear *)
Definition zeven (a : Z) : Prop := a mod 2 = 0.
Lemma zeven_add2 a : zeven a -> zeven (a + 2).
Proof. unfold zeven. intros H. change (a + 2) with (a + 1 * 2). now rewrite Z.mod_add. Qed.

(* with the field at an even offset (or absent) and a even, the two bytes at a are both inside the field or both outside,
   and ck_zero_cond says which *)
Lemma zf_cons c a x r : c < 0 \/ zeven c -> zeven a ->
  zf c a (x :: r) = (if ck_zero_cond a c then 0 else x) :: match r with [] => [] | y :: r' => (if ck_zero_cond a c then 0 else y) :: zf c (a + 2) r' end.
Proof.
  unfold zeven. intros Hc Ha. unfold zf, ck_zero_cond. destruct (c <? 0) eqn:Ec.
  - replace (c >=? 0) with false by lia. now destruct r.
  - replace (c >=? 0) with true by lia. cbn [andb zero_field_from].
    replace ((c <=? a) && (a <? c + 4)) with ((a =? c) || (a =? c + 2)) by lia. destruct r as [|y r']; [reflexivity|].
    cbn [zero_field_from]. replace ((c <=? a + 1) && (a + 1 <? c + 4)) with ((a =? c) || (a =? c + 2)) by lia.
    now replace (a + 1 + 1) with (a + 2) by ring.
Qed.

(* one write computes the published sum: the hasher's word-wise zeroing of the padded data and the specification's
   byte-wise zeroing denote the same 16-bit words *)
Lemma ck_words_zf c : c < 0 \/ zeven c -> forall d, Forall (fun b => 0 <= b < 256) d -> forall a s, zeven a -> 0 <= s <= 65535 ->
  ck_words c a 0 (pad d) s = fold_left ones_add (words (zf c a d)) s /\ 0 <= ck_words c a 0 (pad d) s <= 65535.
Proof.
  intros Hc d. induction d as [| x | x y r IH] using list_ind2; intros Hb a s Ha Hs.
  - unfold zf. now destruct (c <? 0).
  - (* a last odd byte x is the word (x, 0) *)
    inversion Hb as [|? ? Hx _]; subst.
    change (pad [x]) with [x; 0]. rewrite zf_cons by assumption. cbn [ck_words words fold_left]. unfold ck_abs.
    rewrite Z.add_0_r, (ck_word_val x 0 Hx), Z.add_0_r.
    destruct (ck_fold_add s (if ck_zero_cond a c then 0 else x) Hs) as [-> Hr]; [destruct (ck_zero_cond a c); lia|now split].
  - inversion Hb as [|? ? Hx Hb1]; subst. inversion Hb1 as [|? ? Hy Hb2]; subst.
    rewrite pad_cons2, zf_cons by assumption. cbn [ck_words words fold_left]. unfold ck_abs.
    rewrite Z.add_0_r, (ck_word_val x y Hx), (ck_words_sum c (pad r) a 2 (a + 2) 0) by lia.
    replace ((if ck_zero_cond a c then 0 else x) + 256 * (if ck_zero_cond a c then 0 else y))
      with (if ck_zero_cond a c then 0 else x + 256 * y) by now destruct (ck_zero_cond a c).
    destruct (ck_fold_add s (if ck_zero_cond a c then 0 else x + 256 * y) Hs) as [-> Hr]; [destruct (ck_zero_cond a c); lia|].
    apply IH; [exact Hb2|now apply zeven_add2|exact Hr].
Qed.

Lemma ck_final_fold_id s : 0 <= s <= 65535 -> ck_final_fold s = s.
Proof. intros Hs. unfold ck_final_fold. rewrite fold16 by lia. now replace (s >? 65535) with false by lia. Qed.

Lemma ck_write_spec pe_start data : pe_start <= 0 \/ pe_start mod 2 = 0 -> Forall (fun b => 0 <= b < 256) data ->
  exists h, ck_write (ck_new pe_start) data = Ok h /\ ck_sum_out h = spec_cksum pe_start data.
Proof.
  intros Hpe Hb. rewrite ck_write_eq. eexists. split; [reflexivity|].
  unfold ck_sum_out, spec_cksum, ck_new, ck_new_none_cond, ck_new_pos. cbn [ck_pos ck_off ck_sum ck_size].
  set (c := if pe_start <=? 0 then -1 else pe_start + 88).
  assert (Hc : c < 0 \/ zeven c) by (unfold zeven; subst c; destruct (pe_start <=? 0) eqn:E; lia).
  destruct (ck_words_zf c Hc data Hb 0 0 eq_refl ltac:(lia)) as [E Hr].
  rewrite ck_final_fold_id, E by exact Hr. unfold wrap32. now rewrite Z.add_0_l, Zplus_mod_idemp_r.
Qed.

Lemma zip_tar_roundtrip dirloc f : 0 <= dirloc <= zlen f ->
  exists ms, zip_to_tar dirloc f = Ok ms /\ read_zip_tar ms = Ok (zdrop dirloc f, f).
Proof.
  intros H. unfold zip_to_tar, tar_member, ziptotar_members, ziptotar_sizes, ziptotar_offsets, ziptotar_lengths.
  cbn [length seq map nth]. unfold tar_name, off_of, size_of. cbn [Z.eqb Pos.eqb].
  rewrite zdrop_0, !(ztake_all (zlen f - dirloc)), !(ztake_all (zlen f)) by (rewrite ?zlen_zdrop by lia; lia).
  rewrite zlen_zdrop, !Z.ltb_irrefl by lia.
  eexists. split; reflexivity.
Qed.

Lemma pref_of_cases e :
  pref_of enc_prefs e = (if bytes_eqb enc_gzip e then 1 else if bytes_eqb enc_snappy e then 2 else 0).
Proof. reflexivity. Qed.

(* the loop's state is one of three: nothing, gzip or snappy selected so far, with the matching preference *)
Lemma sel_loop_spec items : forall pref best,
  (pref = 0 /\ best = []) \/ (pref = 1 /\ best = enc_gzip) \/ (pref = 2 /\ best = enc_snappy) ->
  sel_loop items pref best =
    if (pref =? 2) || mem_bytes enc_snappy items then enc_snappy
    else if (pref =? 1) || mem_bytes enc_gzip items then enc_gzip else [].
Proof.
  induction items as [|e r IH]; intros pref best Hst; cbn [sel_loop mem_bytes existsb].
  - destruct Hst as [[-> ->]|[[-> ->]|[-> ->]]]; reflexivity.
  - rewrite pref_of_cases. unfold sel_better_cond. fold (mem_bytes enc_snappy r) (mem_bytes enc_gzip r).
    destruct (bytes_eqb enc_gzip e) eqn:Eg; [apply bytes_eqb_eq in Eg; subst e|].
    2: destruct (bytes_eqb enc_snappy e) eqn:Es; [apply bytes_eqb_eq in Es; subst e|].
    all: destruct Hst as [[-> ->]|[[-> ->]|[-> ->]]]; cbn; rewrite IH by auto; reflexivity.
Qed.

Lemma select_encoding_spec items : select_encoding items = spec_select items.
Proof. unfold select_encoding. now rewrite sel_loop_spec by auto. Qed.

Definition o_success (o : outcome) : bool := match o with OStatus c => c <? 300 | _ => false end.
Definition o_is_406 (o : outcome) : bool := match o with OStatus c => c =? 406 | _ => false end.

(* SPEC, written from the property statement: servers are tried in list order; only a transient failure moves on to the
   next server; a 406 while compression was offered restarts from the first server without compression; the accepted
   response comes from a server that answered below 300; anything else ends the request with that failure *)
Inductive good_trace (L nb : Z) : Z -> bool -> list (attempt * outcome) -> dr_result -> Prop :=
| GT_accept i enc c : 0 <= i < L -> c < 300 ->
    good_trace L nb i enc [(mkAtt (i mod nb) enc, OStatus c)] (DrAccepted (i mod nb) enc c)
| GT_fallback i rest res : 0 <= i < L -> good_trace L nb 0 false rest res ->
    good_trace L nb i true ((mkAtt (i mod nb) true, OStatus 406) :: rest) res
| GT_next i enc o rest res : 0 <= i -> i + 1 < L -> outcome_temporary o = true -> o_success o = false ->
    o_is_406 o && enc = false -> good_trace L nb (i + 1) enc rest res ->
    good_trace L nb i enc ((mkAtt (i mod nb) enc, o) :: rest) res
| GT_fail i enc o : 0 <= i < L -> o_success o = false -> o_is_406 o && enc = false ->
    outcome_temporary o = false \/ L <= i + 1 ->
    good_trace L nb i enc [(mkAtt (i mod nb) enc, o)] (DrFailed o).

(* what bounds the attempts still to come: the servers left in this pass, plus one whole pass while the fallback is still possible *)
Definition dr_measure (L i : Z) (enc : bool) : Z := (L - i) + (if enc then L else 0).

(* every run of the loop: its attempts form a good trace, and the outcomes they met are the scripted ones, in order, 200
   once the script is exhausted *)
Lemma dr_loop_spec L nb : forall fuel i enc script acc, 0 <= i < L ->
  (Z.to_nat (dr_measure L i enc) < fuel)%nat ->
  exists t res, dr_loop fuel L nb i enc script acc = (acc ++ t, res) /\ good_trace L nb i enc t res /\
    map snd t = pad_take (OStatus 200) (length t) script.
Proof.
  induction fuel as [|f IH]; intros i enc script acc Hi Hf; [lia|].
  cbn [dr_loop]. replace (L <=? i) with false by lia.
  unfold dr_success_cond, dr_fallback_cond, dr_next_cond, dr_success_breaks, dr_fallback_restarts, dr_fallback_clears_encoding.
  unfold dr_measure in *. remember (hd (OStatus 200) script) as o eqn:Eo. set (a := mkAtt (i mod nb) enc).
  (* a round that ends the request has made the one attempt (a, o) *)
  assert (Hstop : forall res, good_trace L nb i enc [(a, o)] res ->
            exists t res', (acc ++ [(a, o)], res) = (acc ++ t, res') /\ good_trace L nb i enc t res' /\
              map snd t = pad_take (OStatus 200) (length t) script).
  { intros res G. exists [(a, o)], res. split; [reflexivity|]. split; [exact G|]. cbn. now rewrite <- Eo. }
  (* a round that goes on appends its attempt and leaves the rest to the induction hypothesis *)
  assert (Hgo : forall i' (enc' : bool), 0 <= i' < L -> (L - i') + (if enc' then L else 0) < (L - i) + (if enc then L else 0) ->
            (forall t res, good_trace L nb i' enc' t res -> good_trace L nb i enc ((a, o) :: t) res) ->
            exists t res, dr_loop f L nb i' enc' (tl script) (acc ++ [(a, o)]) = (acc ++ t, res) /\ good_trace L nb i enc t res /\
              map snd t = pad_take (OStatus 200) (length t) script).
  { intros i' enc' Hi' Hm Hg. destruct (IH i' enc' (tl script) (acc ++ [(a, o)])) as (t & res & -> & G & Ho);
      [lia|unfold dr_measure; destruct enc, enc'; lia|].
    exists ((a, o) :: t), res. rewrite <- app_assoc. cbn [map snd length pad_take]. rewrite Ho, <- Eo. auto. }
  clear IH Hf. destruct o as [| |c]; cbn [andb outcome_temporary].
  - destruct (i + 1 <? L) eqn:En.
    + apply Hgo; [lia|destruct enc; lia|]. intros t res G. apply GT_next; auto; lia.
    + apply Hstop, GT_fail; auto. right. lia.
  - apply Hstop, GT_fail; auto.
  - destruct (c <? 300) eqn:Ec; [apply Hstop, GT_accept; lia|].
    destruct ((c =? 406) && enc) eqn:E4.
    + apply andb_true_iff in E4 as [E4 ->]. replace c with 406 in * by lia.
      apply Hgo; [lia|lia|]. intros t res G. now apply GT_fallback.
    + destruct (status_is_temporary c && (i + 1 <? L)) eqn:En.
      * apply andb_true_iff in En as [Et En]. apply Hgo; [lia|destruct enc; lia|]. intros t res G. apply GT_next; auto; lia.
      * apply Hstop, GT_fail; auto. cbn [outcome_temporary]. apply andb_false_iff in En as [En|En]; [now left|right; lia].
Qed.

Lemma good_trace_length L nb i enc t res : good_trace L nb i enc t res -> 0 < zlen t <= dr_measure L i enc.
Proof.
  unfold dr_measure. induction 1; rewrite ?zlen_cons; change (zlen (@nil (attempt * outcome))) with 0; try (destruct enc; lia).
  lia.
Qed.

Lemma dr_len_ge nbases retries : 0 < nbases -> nbases <= dr_len nbases retries.
Proof.
  intros Hn. unfold dr_len, dr_repeat_cond. destruct (nbases <? retries) eqn:E; [|lia].
  assert (G : forall fuel nrep, (Z.to_nat (retries - nrep) <= fuel)%nat -> retries <= repeat_loop fuel nbases retries nrep).
  { induction fuel as [|f IH]; intros nrep Hf; cbn [repeat_loop]; [lia|].
    unfold dr_repeat_loop_cond. destruct (nrep <? retries) eqn:E2; [|lia]. apply IH. lia. }
  specialize (G (Z.to_nat retries) 0). lia.
Qed.

Lemma do_request_spec nbases retries enc script : 0 < nbases ->
  exists t res, do_request nbases retries enc script = (t, res) /\
    good_trace (dr_len nbases retries) nbases 0 enc t res /\ zlen t <= 2 * dr_len nbases retries /\
    map snd t = pad_take (OStatus 200) (length t) script.
Proof.
  intros Hn. unfold do_request. pose proof (dr_len_ge nbases retries Hn) as HL.
  destruct (dr_loop_spec (dr_len nbases retries) nbases (Z.to_nat (2 * dr_len nbases retries + 2)) 0 enc script [])
    as (t & res & E & G & Ho); [lia|unfold dr_measure; destruct enc; lia|].
  exists t, res. split; [exact E|]. split; [exact G|]. split; [|exact Ho].
  apply good_trace_length in G. unfold dr_measure in G. destruct enc; lia.
Qed.

Lemma nth_pad_take {A} (d : A) : forall n k l, (k < n)%nat -> nth k (pad_take d n l) d = nth k l d.
Proof.
  induction n as [|n IH]; intros k l Hk; [lia|]. cbn [pad_take]. destruct k as [|k].
  - destruct l; reflexivity.
  - cbn [nth]. rewrite IH by lia. destruct l; [destruct k; reflexivity|reflexivity].
Qed.
