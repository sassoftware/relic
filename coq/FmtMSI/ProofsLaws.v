(* FmtMSI/ProofsLaws.v — part 4: the digest as a list of pieces (C02), trees as byte strings, InsertMSISignature and what
   the format laws of Laws/Pipeline.v need of it. *)
From Relic Require Import Base.Prelude Base.Enc Base.Lists Base.Slice Generated.FmtMSI_gen FmtMSI.Model FmtMSI.Proofs FmtMSI.ProofsSer FmtMSI.ProofsTree Laws.Pipeline.
From Coq Require Import Permutation Sorted.

Definition contrib_b (k : node) : list bytes :=
  if msi_hash_is_stream (de_type (node_ent k)) then [node_content k] else if msi_hash_is_storage (de_type (node_ent k)) then body_pieces k else [].
Lemma body_pieces_nf e c kids : body_pieces (Node e c kids) =
  cat_pieces (hash_skip (de_type e)) (isort rlt (items contrib_b kids)) ++ [de_uid e].
Proof. reflexivity. Qed.
Lemma cat_items_concat skip (l : list (dirent * list bytes)) :
  cat_items skip (map (fun it => (fst it, concat (snd it))) l) = concat (cat_pieces skip l).
Proof.
  induction l as [|[e c] l IH]; [reflexivity|]. cbn [map fst snd cat_items cat_pieces].
  destruct (skip e); [exact IH|]. rewrite concat_app, IH. reflexivity.
Qed.
Theorem hash_is_concat_pieces : forall t, hash_node t = concat (body_pieces t).
Proof.
  apply node_ind'. intros e c kids IH.
  assert (E : items contrib_h kids = items (B:=bytes) (fun k => concat (contrib_b k)) kids).
  { apply map_ext_in. intros k Hk. f_equal. unfold contrib_h, contrib_b.
    destruct (msi_hash_is_stream _); [cbn [concat]; now rewrite app_nil_r|]. destruct (msi_hash_is_storage _); [|reflexivity]. now apply IH. }
  rewrite hash_node_nf, body_pieces_nf, E, (sorted_items_map (B':=bytes) (@concat Z) contrib_b kids), cat_items_concat, concat_app.
  cbn [concat]. now rewrite app_nil_r.
Qed.

(* one entry's metadata is such a concatenation: six pieces whose lengths depend on type and name length only *)
Definition pre_pieces (e : dirent) : list bytes :=
  [if negb (de_type e =? 5) then ztake (de_nlen e - 2) (units_le (de_runes e)) else [];
   if (de_type e =? 5) || (de_type e =? 1) then de_uid e else [];
   if de_type e =? 2 then le_enc 4 (de_size e) else [];
   le_enc 4 (de_flags e);
   if negb (de_type e =? 5) then le_enc 8 (de_ctime e) else [];
   if negb (de_type e =? 5) then le_enc 8 (de_mtime e) else []].
Lemma pre_fields_pieces e : pre_fields e = concat (pre_pieces e).
Proof. unfold pre_fields, pre_pieces. cbn [concat]. destruct (de_type e =? 5); cbn [negb]; now rewrite ?app_nil_r. Qed.
Lemma pre_pieces_lengths e1 e2 : shape_ok e1 -> shape_ok e2 -> de_type e1 = de_type e2 -> de_nlen e1 = de_nlen e2 ->
  map (@length Z) (pre_pieces e1) = map (@length Z) (pre_pieces e2).
Proof.
  intros [R1 U1] [R2 U2] Et En. unfold pre_pieces. rewrite <- Et, <- En. cbn [map].
  assert (Ln : length (ztake (de_nlen e1 - 2) (units_le (de_runes e1))) = length (ztake (de_nlen e1 - 2) (units_le (de_runes e2)))).
  { unfold ztake. rewrite !firstn_length. pose proof (units_le_zlen (de_runes e1)). pose proof (units_le_zlen (de_runes e2)). unfold zlen in *. lia. }
  assert (Lu : length (de_uid e1) = length (de_uid e2)) by (unfold zlen in *; lia).
  destruct (de_type e1 =? 5), (de_type e1 =? 1), (de_type e1 =? 2); cbn [negb orb length]; rewrite ?le_enc_length, ?Ln, ?Lu; reflexivity.
Qed.
Lemma units_le_inj a : forall b, Forall uok a -> Forall uok b -> units_le a = units_le b -> a = b.
Proof.
  induction a as [|x a IH]; intros [|y b] Ha Hb H; try reflexivity; try (rewrite units_le_cons in H; cbn in H; discriminate).
  rewrite !units_le_cons in H. cbn [app] in H. inversion Ha as [|? ? Hx Ha']; inversion Hb as [|? ? Hy Hb']; subst. unfold uok in *.
  injection H as E1 E2 E3. f_equal; [lia | apply IH; assumption].
Qed.
Lemma in_range_enc_inj (w : nat) x y : in_range (Z.of_nat w) x = true -> in_range (Z.of_nat w) y = true -> le_enc w x = le_enc w y -> x = y.
Proof. unfold in_range. intros Hx Hy H. rewrite <- (le_dec_enc w x), <- (le_dec_enc w y), H by lia. reflexivity. Qed.
Lemma fields_ok_ranges e : fields_ok e = true ->
  in_range 4 (de_flags e) = true /\ in_range 8 (de_ctime e) = true /\ in_range 8 (de_mtime e) = true /\ in_range 4 (de_size e) = true.
Proof. unfold fields_ok. intros H. repeat (apply andb_true_iff in H as [H ?]). auto. Qed.

Definition enc_forest (ts : list node) : list Z := concat (map enc_node ts) ++ [2].
Lemma enc_node_forest e c kids : enc_node (Node e c kids) = 1 :: enc_dirent e ++ zlen c :: c ++ enc_forest kids.
Proof. reflexivity. Qed.
Lemma enc_forest_cons t ts : enc_forest (t :: ts) = enc_node t ++ enc_forest ts.
Proof. unfold enc_forest. cbn [map concat]. now rewrite app_assoc. Qed.
Lemma dec_dirent_enc e rest : shape_okb e = true -> dec_dirent (enc_dirent e ++ rest) = Some (e, rest).
Proof.
  unfold shape_okb. intros H. apply andb_true_iff in H as [Hr Hu]. apply Z.eqb_eq in Hr, Hu.
  unfold dec_dirent, enc_dirent. destruct e as [r nl ty co le ri sr uid fl ct mt nx sz pd]. cbn [de_runes de_nlen de_type de_color de_left de_right de_sroot de_uid de_flags de_ctime de_mtime de_next de_size de_pad] in *.
  set (sc := [nl; ty; co; le; ri; sr; fl; ct; mt; nx; sz; pd]).
  assert (L : zlen (r ++ sc ++ uid) = 60) by (rewrite !zlen_app, Hr, Hu; reflexivity).
  rewrite zlen_app, L, (zdrop_app_len 60) by exact L. pose proof (zlen_nonneg rest). replace (60 + zlen rest <? 60) with false by lia.
  rewrite <- !app_assoc, (ztake_app_len 32), (zslice_app_mid 32 44) by (rewrite ?Hr; reflexivity).
  rewrite zslice_app_r, Hr, (zslice_app_mid (44 - 32) (60 - 32)) by (rewrite ?Hr, ?Hu; reflexivity || lia). reflexivity.
Qed.
Fixpoint nsize (t : node) : nat := match t with Node _ _ kids => S (fold_right (fun k a => (nsize k + a)%nat) 0%nat kids) end.
Definition fsize (ts : list node) : nat := fold_right (fun k a => (nsize k + a)%nat) 0%nat ts.
Lemma dec_forest_enc fuel : forall ts rest, (fsize ts < fuel)%nat -> forallb all_shape ts = true ->
  dec_forest fuel (enc_forest ts ++ rest) = Some (ts, rest).
Proof.
  induction fuel as [|f IH]; intros ts rest Hs Ha; [lia|].
  destruct ts as [|[e c kids] ts'].
  - reflexivity.
  - cbn [forallb all_shape] in Ha. apply andb_true_iff in Ha as [Ha Ha']. apply andb_true_iff in Ha as [He Hk].
    rewrite enc_forest_cons, enc_node_forest. cbn [fsize fold_right nsize] in Hs. fold (fsize kids) in Hs. fold (fsize ts') in Hs.
    cbn [app dec_forest]. rewrite <- !app_assoc. rewrite (dec_dirent_enc e _ He).
    cbn [app]. rewrite <- !app_assoc. pose proof (zlen_nonneg c) as Hc.
    replace ((zlen c <? 0) || (zlen (c ++ enc_forest kids ++ enc_forest ts' ++ rest) <? zlen c)) with false
      by (rewrite zlen_app; pose proof (zlen_nonneg (enc_forest kids ++ enc_forest ts' ++ rest)); lia).
    rewrite zdrop_app_exact, ztake_app_exact.
    rewrite (IH kids (enc_forest ts' ++ rest)) by (try lia; assumption).
    rewrite (IH ts' rest) by (try lia; assumption). reflexivity.
Qed.
Lemma fsize_le_concat kids : Forall (fun t => (nsize t <= length (enc_node t))%nat) kids ->
  (fsize kids <= length (concat (map enc_node kids)))%nat.
Proof.
  induction 1 as [|k kids Hk Hf IH]; [cbn; lia|]. cbn [fsize fold_right map concat]. fold (fsize kids). rewrite app_length. lia.
Qed.
Lemma nsize_le_enc : forall t, (nsize t <= length (enc_node t))%nat.
Proof.
  apply node_ind'. intros e c kids IH. rewrite enc_node_forest. cbn [nsize]. fold (fsize kids).
  apply Forall_forall in IH. pose proof (fsize_le_concat kids IH) as G. unfold enc_forest. cbn [length]. rewrite !app_length. cbn [length]. rewrite !app_length. lia.
Qed.
Theorem decode_encode t : all_shape t = true -> decode_tree (encode_tree t) = Ok t.
Proof.
  intros Ha. unfold decode_tree, encode_tree.
  assert (E : enc_node t ++ [2] = enc_forest [t] ++ []) by (rewrite enc_forest_cons; unfold enc_forest; cbn [map concat app]; now rewrite app_nil_r).
  rewrite E. rewrite dec_forest_enc; [reflexivity | | cbn [forallb]; now rewrite Ha].
  cbn [fsize fold_right]. rewrite app_nil_r, enc_forest_cons, app_length. pose proof (nsize_le_enc t). lia.
Qed.

Definition is_slot (e : dirent) : bool := cfb_match msi_sig_fold e || cfb_match msi_sigex_fold e.
Definition notslot (k : node) : bool := negb (is_slot (node_ent k)).
Definition news (pkcs exsig : bytes) : list node :=
  (if msi_insert_has_ex (zlen exsig) then [new_stream msi_sigex_name exsig] else []) ++ [new_stream msi_sig_name pkcs].

(* DeleteFile refuses exactly when one of the entries it matches is not a stream; otherwise the matched entries go *)
Definition blocked (m : dirent -> bool) (kids : list node) : bool :=
  existsb (fun k => m (node_ent k) && negb (de_type (node_ent k) =? 2)) kids.
Lemma delete_root_eq m kids :
  delete_root m kids = if blocked m kids then Err E_STORAGE else Ok (filter (fun k => negb (m (node_ent k))) kids).
Proof.
  induction kids as [|k kids IH]; [reflexivity|]. cbn [delete_root blocked existsb filter]. fold (blocked m kids). rewrite IH.
  change msi_DirStream with 2. destruct (m (node_ent k)); cbn [negb andb orb].
  - now destruct (de_type (node_ent k) =? 2).
  - now destruct (blocked m kids).
Qed.
Lemma delete_root_no_panic m kids p : delete_root m kids <> Panic p.
Proof. rewrite delete_root_eq. now destruct (blocked m kids). Qed.
Lemma blocked_false m kids :
  blocked m kids = false <-> (forall k, In k kids -> m (node_ent k) = true -> de_type (node_ent k) = 2).
Proof.
  unfold blocked. rewrite <- not_true_iff_false, existsb_exists. split.
  - intros H k Hin Hm. destruct (Z.eq_dec (de_type (node_ent k)) 2); [assumption|]. exfalso. apply H. exists k. split; [exact Hin|]. rewrite Hm. lia.
  - intros H [k [Hin Hk]]. apply andb_true_iff in Hk as [Hm Ht]. rewrite (H k Hin Hm) in Ht. discriminate.
Qed.
Lemma blocked_app m a b : blocked m (a ++ b) = blocked m a || blocked m b.
Proof. apply existsb_app. Qed.
(* two deletions in a row, the second on what the first has left, refuse when one deletion of both names would *)
Lemma blocked_orb m1 m2 kids :
  blocked (fun e => m1 e || m2 e) kids = blocked m2 kids || blocked m1 (filter (fun k => negb (m2 (node_ent k))) kids).
Proof.
  unfold blocked. induction kids as [|k kids IH]; [reflexivity|]. cbn [existsb filter]. rewrite IH. clear IH.
  destruct (existsb _ kids), (m2 (node_ent k)); cbn [negb existsb]; destruct (m1 (node_ent k)), (de_type (node_ent k) =? 2); reflexivity.
Qed.

Lemma do_call_eq op which pay pkcs exsig kids : do_call (op, which, pay) pkcs exsig kids =
  if blocked (cfb_match (alts_of which)) kids then Err E_STORAGE
  else Ok (filter (fun k => negb (cfb_match (alts_of which) (node_ent k))) kids ++
           (if op =? 0 then [new_stream (name_of which) (if pay =? 0 then pkcs else exsig)] else [])).
Proof. unfold do_call, add_file. rewrite delete_root_eq. destruct (op =? 0), (blocked _ kids); cbn [bind]; now rewrite ?app_nil_r. Qed.
(* InsertMSISignature in closed form: DeleteFile/AddFile of MsiDigitalSignatureEx, then AddFile of DigitalSignature *)
Lemma insert_body_eq e c kids pkcs exsig : insert_body (Node e c kids) pkcs exsig =
  if blocked is_slot kids then Err E_STORAGE else Ok (Node e c (filter notslot kids ++ news pkcs exsig)).
Proof.
  unfold insert_body, msi_insert_calls, news.
  set (X := if msi_insert_has_ex (zlen exsig) then [new_stream msi_sigex_name exsig] else []).
  set (F := filter (fun k => negb (cfb_match msi_sigex_fold (node_ent k))) kids).
  assert (S1 : do_call (if msi_insert_has_ex (zlen exsig) then (0, 1, 1) else (1, 1, 2)) pkcs exsig kids =
               if blocked (cfb_match msi_sigex_fold) kids then Err E_STORAGE else Ok (F ++ X))
    by (unfold X; destruct (msi_insert_has_ex _); apply do_call_eq).
  rewrite S1. change (blocked is_slot kids) with (blocked (fun e => cfb_match msi_sig_fold e || cfb_match msi_sigex_fold e) kids).
  rewrite blocked_orb. fold F. destruct (blocked (cfb_match msi_sigex_fold) kids); [reflexivity|]. cbn [bind orb].
  rewrite do_call_eq, blocked_app, filter_app. cbn [alts_of name_of Z.eqb].
  (* the new MsiDigitalSignatureEx stream is not matched under the other name *)
  assert (BX : blocked (cfb_match msi_sig_fold) X = false /\ filter (fun k => negb (cfb_match msi_sig_fold (node_ent k))) X = X)
    by (unfold X; destruct (msi_insert_has_ex _); split; reflexivity).
  rewrite (proj1 BX), (proj2 BX), orb_false_r. destruct (blocked (cfb_match msi_sig_fold) F); [reflexivity|]. cbn [bind].
  unfold F. rewrite filter_filter, <- app_assoc. do 3 f_equal.
  apply filter_ext. intros k. unfold notslot, is_slot. rewrite negb_orb. apply andb_comm.
Qed.

Lemma slot_is_sig e : name_ok e = true -> de_type e <> 0 -> is_slot e = go_is_sig (go_name e).
Proof.
  intros N T. unfold is_slot. now rewrite !cfb_match_units, go_is_sig_units.
Qed.
Lemma root_skip_slot k : wf_kid k = true -> hash_skip 5 (node_ent k) = (de_type (node_ent k) =? 2) && is_slot (node_ent k).
Proof.
  intros W. destruct (wf_kid_inv k W) as [_ [N [T _]]]. rewrite (slot_is_sig _ N) by lia. reflexivity.
Qed.
Lemma pre_skip_hash_skip pty e : pre_skip pty e = hash_skip pty e. Proof. reflexivity. Qed.

(* the check in front of InsertMSISignature: on well-formed children it fires exactly when DeleteFile would refuse *)
Lemma refused_early_iff kids : forallb wf_kid kids = true -> refused_early kids = blocked is_slot kids.
Proof.
  intros W. rewrite forallb_forall in W. unfold refused_early, blocked. change msi_insert_check_first with true. cbn [andb].
  induction kids as [|k kids IH]; [reflexivity|]. cbn [existsb]. rewrite IH by (intros k' Hin; apply W; now right). f_equal.
  destruct (wf_kid_inv k (W k (or_introl eq_refl))) as [_ [N [T _]]]. rewrite (slot_is_sig _ N) by lia. apply andb_comm.
Qed.
Lemma insert_sig_spec e c kids pkcs exsig g : insert_sig (Node e c kids) pkcs exsig = Ok g ->
  g = Node e c (filter notslot kids ++ news pkcs exsig) /\ (forall k, In k kids -> is_slot (node_ent k) = true -> de_type (node_ent k) = 2).
Proof.
  unfold insert_sig. cbn [node_kids]. destruct (refused_early kids); [discriminate|]. rewrite insert_body_eq.
  destruct (blocked is_slot kids) eqn:B; [discriminate|]. intros [= <-]. split; [reflexivity | now apply blocked_false].
Qed.
(* so a refusal comes from that check, before anything is written *)
Lemma insert_sig_eq e c kids pkcs exsig : forallb wf_kid kids = true ->
  insert_sig (Node e c kids) pkcs exsig = (if blocked is_slot kids then Err E_STORAGE else Ok (Node e c (filter notslot kids ++ news pkcs exsig))) /\
  (blocked is_slot kids = true -> insert_writes (Node e c kids) pkcs exsig = 0).
Proof.
  intros W. unfold insert_sig, insert_writes. cbn [node_kids]. rewrite (refused_early_iff kids W), insert_body_eq.
  destruct (blocked is_slot kids); split; (reflexivity || discriminate).
Qed.
Lemma slots_free_blocked t : sig_slots_free t = negb (blocked is_slot (node_kids t)).
Proof.
  unfold sig_slots_free, blocked, is_slot. change msi_DirStream with 2. induction (node_kids t) as [|k l IH]; [reflexivity|]. cbn [forallb existsb].
  rewrite IH. destruct (cfb_match msi_sig_fold (node_ent k) || cfb_match msi_sigex_fold (node_ent k)), (de_type (node_ent k) =? 2); reflexivity.
Qed.

(* the children the loops over the root do not pass over *)
Definition hashed (k : node) : bool := negb (hash_skip 5 (node_ent k)).
Lemma hashed_same kids pkcs exsig : forallb wf_kid kids = true -> blocked is_slot kids = false ->
  filter hashed (filter notslot kids ++ news pkcs exsig) = filter hashed kids.
Proof.
  intros W Hs. rewrite forallb_forall in W. rewrite filter_app.
  assert (N : filter hashed (news pkcs exsig) = []) by (unfold news; now destruct (msi_insert_has_ex _)).
  rewrite N, app_nil_r. apply filter_sub. intros k Hin Hk. unfold hashed in Hk. rewrite (root_skip_slot k (W k Hin)) in Hk. unfold notslot.
  destruct (is_slot (node_ent k)) eqn:E; [|reflexivity]. rewrite (proj1 (blocked_false _ _) Hs k Hin E) in Hk. discriminate.
Qed.
Definition unskipped {B} (skip : dirent -> bool) (it : dirent * B) : bool := negb (skip (fst it)).
Lemma cat_items_filter skip (l : list (dirent * bytes)) : cat_items skip l = cat_items (fun _ => false) (filter (unskipped skip) l).
Proof. induction l as [|[e c] l IH]; [reflexivity|]. cbn [cat_items filter]. unfold unskipped at 1. cbn [fst]. destruct (skip e); cbn [negb cat_items]; now rewrite IH. Qed.
Lemma cat_items_r_filter skip (l : list (dirent * result bytes)) : cat_items_r skip l = cat_items_r (fun _ => false) (filter (unskipped skip) l).
Proof. induction l as [|[e c] l IH]; [reflexivity|]. cbn [cat_items_r filter]. unfold unskipped at 1. cbn [fst]. destruct (skip e); cbn [negb cat_items_r]; now rewrite IH. Qed.
(* so each loop over a well-formed root is a function of the hashed children, in the canonical order *)
Lemma sorted_hashed {B} (C : node -> B) kids : kids_ok kids ->
  filter (unskipped (hash_skip 5)) (isort rlt (items C kids)) = isort (klt ikey) (items C (filter hashed kids)).
Proof.
  intros O. pose proof (kids_items_ok C kids O) as Io. rewrite (isort_rlt_klt _ Io), sort_filter by apply Io.
  f_equal. exact (filter_map_comm (fun k => (node_ent k, C k)) (unskipped (hash_skip 5)) kids).
Qed.
Lemma root_cat_items C kids : kids_ok kids ->
  cat_items (hash_skip 5) (isort rlt (items C kids)) = cat_items (fun _ => false) (isort (klt ikey) (items C (filter hashed kids))).
Proof. intros O. now rewrite (cat_items_filter (hash_skip 5)), sorted_hashed. Qed.
Lemma root_cat_items_r C kids : kids_ok kids ->
  cat_items_r (hash_skip 5) (isort rlt (items C kids)) = cat_items_r (fun _ => false) (isort (klt ikey) (items C (filter hashed kids))).
Proof. intros O. now rewrite (cat_items_r_filter (hash_skip 5)), sorted_hashed. Qed.
(* the specification's payload of a well-formed root, over the children as sortMsiFiles orders them *)
Lemma payload_root e c kids : kids_ok kids -> s_payload true (to_spec (Node e c kids)) =
  PNode (s_meta (ser_dirent e)) (if s_type (ser_dirent e) =? S_STREAM then c else [])
        (map snd (isort (klt ikey) (items (fun k => s_payload false (to_spec k)) (filter hashed kids)))).
Proof.
  intros O. rewrite <- sorted_hashed by exact O. cbn [to_spec s_payload]. f_equal. unfold s_sort. change (fun a b : bytes * pnode => s_less (fst a) (fst b)) with (@slt pnode).
  rewrite (spec_items (fun k => s_payload false (to_spec k)) (s_payload false) kids O (fun k _ => eq_refl)), filter_map_comm, map_map.
  cbn [tos snd]. f_equal. apply filter_ext_in. intros it Hin. unfold unskipped. f_equal. exact (kids_skip_spec _ kids 5 it O Hin).
Qed.

Lemma new_slot name x : name = msi_sig_name \/ name = msi_sigex_name -> is_slot (node_ent (new_stream name x)) = true.
Proof. intros [->| ->]; reflexivity. Qed.
Lemma new_wf name x : name = msi_sig_name \/ name = msi_sigex_name -> small x = true -> wf_kid (new_stream name x) = true.
Proof.
  unfold small. intros Hn Hx. pose proof (zlen_nonneg x).
  assert (R : in_range 4 (zlen x) = true) by (unfold in_range; change (256 ^ 4) with 4294967296; lia).
  destruct Hn as [-> | ->]; unfold new_stream; cbn [wf_kid]; unfold fields_ok;
    cbn [de_runes de_nlen de_type de_color de_left de_right de_sroot de_uid de_flags de_ctime de_mtime de_next de_size de_pad];
    rewrite R, (Z.eqb_refl (zlen x)); reflexivity.
Qed.
Lemma news_wf pkcs exsig : small pkcs = true -> small exsig = true -> forallb wf_kid (news pkcs exsig) = true.
Proof. intros Sp Sx. unfold news. destruct (msi_insert_has_ex _); cbn [app forallb]; now rewrite !new_wf by auto. Qed.
Lemma news_shape pkcs exsig : forallb all_shape (news pkcs exsig) = true.
Proof. unfold news. now destruct (msi_insert_has_ex _). Qed.
Lemma sig_names_slots : units_match msi_sig_name msi_sig_fold = true /\ units_match msi_sigex_name msi_sigex_fold = true /\ msi_sigex_name <> msi_sig_name.
Proof. split; [reflexivity|]. split; [reflexivity | discriminate]. Qed.
Lemma signed_kids_ok kids pkcs exsig : kids_ok kids -> small pkcs = true -> small exsig = true -> kids_ok (filter notslot kids ++ news pkcs exsig).
Proof.
  intros Hok Sp Sx. pose proof (fun k => kids_ok_wf kids k Hok) as Hw. destruct sig_names_slots as [M1 [M2 Mne]]. split.
  - apply NoDup_distinct. unfold kid_names. rewrite map_app. destruct Hok as [Hd _]. apply distinct_names_NoDup in Hd. unfold kid_names in Hd.
    assert (Hk : NoDup (map (fun k => name_units (node_ent k)) (filter notslot kids))) by (apply (NoDup_map_filter (fun k => name_units (node_ent k))); exact Hd).
    assert (Hkeep : forall n, (n = msi_sig_name \/ n = msi_sigex_name) -> ~ In n (map (fun k => name_units (node_ent k)) (filter notslot kids))).
    { intros n Hn Hin. apply in_map_iff in Hin as [k [Ek Hin]]. apply filter_In in Hin as [Hin Hns]. unfold notslot in Hns. apply negb_true_iff in Hns.
      destruct (wf_kid_inv k) as [_ [N [T _]]]; [now apply Hw|]. unfold is_slot in Hns. rewrite !cfb_match_units in Hns by exact N.
      rewrite <- (name_units_wname _ N) in Hns by lia. rewrite Ek in Hns. destruct Hn as [-> | ->]; rewrite ?M1, ?M2, ?orb_true_r in Hns; discriminate. }
    unfold news. destruct (msi_insert_has_ex (zlen exsig)); cbn [app map].
    + apply NoDup_app_iff; split; [exact Hk | split].
      * constructor; [intros [E|[]]; now apply Mne | constructor; [intros [] | constructor]].
      * intros n Hin [<-|[<-|[]]]; [apply (Hkeep _ (or_intror eq_refl) Hin) | apply (Hkeep _ (or_introl eq_refl) Hin)].
    + apply NoDup_app_iff; split; [exact Hk | split; [constructor; [intros [] | constructor] |]].
      intros n Hin [<-|[]]. apply (Hkeep _ (or_introl eq_refl) Hin).
  - rewrite forallb_app, news_wf, andb_true_r by assumption. apply forallb_forall. intros k Hin. apply filter_In in Hin as [Hin _]. auto.
Qed.

Lemma find_stream_skip is l : forall r acc, (forall k, In k l -> de_type (node_ent k) <> 2 \/ is (go_name (node_ent k)) = false) -> find_stream is (l ++ r) acc = find_stream is r acc.
Proof.
  induction l as [|k l IH]; intros r acc H; [reflexivity|]. cbn [app find_stream]. change msi_verify_nonstream_first with true. unfold msi_verify_skip_nonstream. cbn [andb].
  rewrite IH by (intros k' Hin; apply H; now right).
  destruct (H k (or_introl eq_refl)) as [Ht|Hi]; [replace (de_type (node_ent k) =? 2) with false by lia; reflexivity|].
  rewrite Hi. destruct (negb (de_type (node_ent k) =? 2)); reflexivity.
Qed.
Lemma not_slot_not_sig k : wf_kid k = true -> is_slot (node_ent k) = false ->
  v_is_sig (go_name (node_ent k)) = false /\ v_is_sigex (go_name (node_ent k)) = false.
Proof.
  intros W Hns. destruct (wf_kid_inv k W) as [_ [N [T _]]]. unfold is_slot in Hns. apply orb_false_iff in Hns as [H1 H2].
  rewrite cfb_match_units in H1, H2 by exact N.
  destruct sig_fold_plain as [P1 P2]. split.
  - unfold v_is_sig, msi_verify_is_sig. rewrite same_name_units by (auto; lia). exact H1.
  - unfold v_is_sigex, msi_verify_is_sigex. rewrite (same_name_units msi_sigex_fold) by (auto; lia). rewrite H2. apply andb_false_r.
Qed.
(* what the specification's probe tests on a child of the root, in relic's terms *)
Lemma s_signed_kid k : vals_ok (node_ent k) -> name_ok (node_ent k) = true ->
  (s_type (s_entry (to_spec k)) =? S_STREAM) && s_name_eq (ztake (s_nlen (s_entry (to_spec k)) - 2) (s_namefield (s_entry (to_spec k)))) s_sig_ascii =
  (de_type (node_ent k) =? 2) && cfb_match msi_sig_fold (node_ent k).
Proof.
  intros V N. rewrite s_entry_to_spec, (s_type_ser _ V), (s_name_is_units _ _ _ V N (proj1 fold_is_spec_fold)), (cfb_match_units _ _ N). reflexivity.
Qed.

Section TreeLaws.
  Variable Hf : bytes -> bytes.
  Definition exsig_of (extended : bool) (t : node) : bytes :=
    if extended then match pre_node t with Ok ex => Hf ex | _ => [] end else [].
  Definition signed_tree (extended : bool) (t : node) (blob : bytes) : node :=
    match t with Node e c kids => Node e c (filter notslot kids ++ news blob (exsig_of extended t)) end.
  (* signing a well-formed tree: refused, with nothing written, exactly when a signature slot is taken by a storage *)
  Lemma embed_eq ext t blob : wf_tree t = true ->
    embed_t Hf ext t blob = (if blocked is_slot (node_kids t) then Err E_STORAGE else Ok (signed_tree ext t blob)) /\
    (blocked is_slot (node_kids t) = true -> embed_writes Hf ext t blob = 0).
  Proof.
    intros W. destruct (wf_tree_pre t W) as [ex Hex]. destruct (wf_tree_inv t W) as [_ [_ [_ Wk]]].
    assert (E : embed_t Hf ext t blob = insert_sig t blob (exsig_of ext t) /\ embed_writes Hf ext t blob = insert_writes t blob (exsig_of ext t))
      by (unfold embed_t, embed_writes, exsig_of; destruct ext; now rewrite ?Hex).
    destruct E as [-> ->]. destruct t as [e c kids]. exact (insert_sig_eq e c kids blob _ Wk).
  Qed.
  Lemma small_exsig ext t : wf_tree t = true -> exsig_ok Hf ext t = true -> small (exsig_of ext t) = true.
  Proof.
    intros W Ex. destruct (wf_tree_pre t W) as [ex Hex].
    unfold exsig_of, exsig_ok in *. destruct ext; [|reflexivity]. rewrite Hex in *. apply andb_true_iff in Ex. apply Ex.
  Qed.

  Lemma signed_facts ext t blob : wf_tree t = true -> small blob = true -> exsig_ok Hf ext t = true ->
    blocked is_slot (node_kids t) = false ->
    let g := signed_tree ext t blob in
    wf_tree g = true /\ hash_node g = hash_node t /\ pre_node g = pre_node t /\ (all_shape t = true -> all_shape g = true) /\
    s_payload true (to_spec g) = s_payload true (to_spec t).
  Proof.
    intros W Sb Ex Hs. pose proof (small_exsig ext t W Ex) as Sx. destruct t as [e c kids]. destruct (wf_tree_inv _ W) as [F [T O]]. cbn [node_ent node_kids] in *.
    cbn zeta. unfold signed_tree. set (x := exsig_of ext (Node e c kids)) in *. set (gk := filter notslot kids ++ news blob x).
    assert (Og : kids_ok gk) by (apply signed_kids_ok; assumption).
    assert (Ek : filter hashed gk = filter hashed kids) by (apply hashed_same; [apply O | exact Hs]).
    split; [apply wf_tree_intro; assumption|]. split; [|split; [|split]].
    - rewrite !hash_node_nf, T, !root_cat_items, Ek by assumption. reflexivity.
    - rewrite !pre_node_nf, T, !root_cat_items_r, Ek by assumption. reflexivity.
    - cbn [all_shape]. intros Ha. apply andb_true_iff in Ha as [Ha1 Ha2]. rewrite Ha1. cbn [andb]. unfold gk. rewrite forallb_app, news_shape, andb_true_r.
      rewrite forallb_forall in Ha2. apply forallb_forall. intros k Hin. apply filter_In in Hin as [Hin _]. auto.
    - rewrite !payload_root, Ek by assumption. reflexivity.
  Qed.

  (* the loop over the root passes the kept children and ends on the new streams *)
  Lemma signed_find is ext t blob : wf_tree t = true -> is = v_is_sig \/ is = v_is_sigex ->
    find_stream is (node_kids (signed_tree ext t blob)) None = find_stream is (news blob (exsig_of ext t)) None.
  Proof.
    intros W His. destruct t as [e c kids]. destruct (wf_tree_inv _ W) as [_ [_ O]]. cbn [node_kids signed_tree] in *.
    apply find_stream_skip. intros k Hin. apply filter_In in Hin as [Hin Hns]. apply negb_true_iff in Hns. right.
    destruct (not_slot_not_sig k (kids_ok_wf kids k O Hin) Hns), His; now subst is.
  Qed.
  Lemma signed_root_exsig ext t blob : wf_tree t = true ->
    root_exsig (signed_tree ext t blob) = Ok (if msi_insert_has_ex (zlen (exsig_of ext t)) then Some (exsig_of ext t) else None).
  Proof. intros W. unfold root_exsig. rewrite signed_find by auto. unfold news. now destruct (msi_insert_has_ex _). Qed.
  Lemma signed_extract ext t blob : wf_tree t = true -> zlen blob <> 0 -> extract_t (signed_tree ext t blob) = Ok (Some blob).
  Proof.
    intros W Hb. unfold extract_t. rewrite (signed_root_exsig ext t blob W). unfold root_sig. rewrite signed_find by auto.
    replace (find_stream v_is_sig (news blob (exsig_of ext t)) None) with (Ok (Some blob) : result (option bytes)) by (unfold news; now destruct (msi_insert_has_ex _)).
    cbn [bind]. unfold msi_verify_unsigned. now replace (zlen blob =? 0) with false by lia.
  Qed.
  Lemma signed_verify_mode ext t blob : wf_tree t = true -> small blob = true -> exsig_ok Hf ext t = true ->
    blocked is_slot (node_kids t) = false ->
    verify_pre Hf (signed_tree ext t blob) = digest_pre Hf ext (signed_tree ext t blob).
  Proof.
    intros W Sb Ex Hs. destruct (wf_tree_pre t W) as [ex Hex].
    destruct (signed_facts ext t blob W Sb Ex Hs) as [_ [_ [Hp _]]].
    unfold verify_pre. rewrite (signed_root_exsig ext t blob W). cbn [bind]. unfold exsig_of, exsig_ok in *. destruct ext; [|reflexivity].
    rewrite Hex in *. apply andb_true_iff in Ex as [Ex1 _]. unfold msi_insert_has_ex. pose proof (zlen_nonneg (Hf ex)).
    replace (zlen (Hf ex) >? 0) with true by lia. rewrite Hp. cbn [bind]. now rewrite bytes_eqb_refl.
  Qed.
End TreeLaws.

Definition msi_format (Hf : bytes -> bytes) (ext : bool) : format pnode :=
  mkFormat pnode (msi_hashin Hf ext) (msi_embed Hf ext) msi_extract msi_payload.
(* the four operations on files have one shape: decode, check the domain, work on the tree *)
Lemma on_dom {A} (F : node -> result A) f t : decode_tree f = Ok t -> msi_dom t = true ->
  (t <- decode_tree f ;; if msi_dom t then F t else Err E_DOMAIN) = F t.
Proof. intros D M. rewrite D. cbn [bind]. now rewrite M. Qed.
Lemma msi_dom_inv t : msi_dom t = true -> wf_tree t = true /\ all_shape t = true.
Proof. apply andb_true_iff. Qed.
(* a successful msi_embed decoded a tree of the domain whose slots are free, and encoded its signed tree, which is in
   the domain again *)
Lemma msi_embed_signed Hf ext f b g : msi_embed Hf ext f b = Ok g -> exists t,
  (decode_tree f = Ok t /\ msi_dom t = true) /\ (decode_tree g = Ok (signed_tree Hf ext t b) /\ msi_dom (signed_tree Hf ext t b) = true) /\
  zlen b <> 0 /\ small b = true /\ exsig_ok Hf ext t = true /\ blocked is_slot (node_kids t) = false.
Proof.
  unfold msi_embed. destruct (decode_tree f) as [t| |] eqn:D; cbn [bind]; try discriminate.
  destruct (msi_dom t && negb (zlen b =? 0) && small b && exsig_ok Hf ext t) eqn:C; [|discriminate].
  apply andb_true_iff in C as [C Ex]. apply andb_true_iff in C as [C Sb]. apply andb_true_iff in C as [M Nb].
  destruct (msi_dom_inv t M) as [W A]. rewrite (proj1 (embed_eq Hf ext t b W)).
  destruct (blocked is_slot (node_kids t)) eqn:Hs; cbn [bind]; [discriminate|]. intros [= <-]. exists t.
  destruct (signed_facts Hf ext t b W Sb Ex Hs) as [Wg [_ [_ [Ag _]]]].
  repeat split; auto; [apply decode_encode; auto | unfold msi_dom; now rewrite Wg, Ag | lia].
Qed.
Theorem msi_law_payload Hf ext : law_payload pnode (msi_format Hf ext).
Proof.
  intros f b g H. destruct (msi_embed_signed Hf ext f b g H) as [t [[D M] [[Dg Mg] [Nb [Sb [Ex Hs]]]]]]. destruct (msi_dom_inv t M) as [W _].
  destruct (signed_facts Hf ext t b W Sb Ex Hs) as [_ [_ [_ [_ Hpl]]]].
  cbn [msi_format f_payload]. unfold msi_payload. now rewrite (on_dom _ g _ Dg Mg), (on_dom _ f _ D M), Hpl.
Qed.
