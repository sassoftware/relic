(* FmtMSI/ProofsTar.v — part 5: the tar route (MsiToTar + DigestMsiTar, what the server digests) against the direct digest. *)
From Relic Require Import Base.Prelude Base.Enc Base.Slice Generated.FmtMSI_gen FmtMSI.Model FmtMSI.Proofs FmtMSI.ProofsSer FmtMSI.ProofsTree FmtMSI.ProofsLaws.
From Coq Require Import Permutation Sorted.

Lemma flatten_app Hf a b : flatten_segs Hf (a ++ b) = flatten_segs Hf a ++ flatten_segs Hf b.
Proof. unfold flatten_segs. now rewrite map_app, concat_app. Qed.
Lemma tar_segs_app ext a b : tar_segs ext (a ++ b) = tar_segs ext a ++ tar_segs ext b.
Proof. unfold tar_segs. now rewrite map_app, concat_app. Qed.
Lemma tar_segs_cons ext m ms : tar_segs ext (m :: ms) = tar_segs ext [m] ++ tar_segs ext ms.
Proof. apply (tar_segs_app ext [m] ms). Qed.
Lemma same_name_all (p : Z -> bool) n : forall alts, alts_plain alts -> alts_all p alts -> same_name alts n = true -> forallb p n = true.
Proof.
  unfold same_name. induction n as [|r n IH]; intros alts Hp HP H; [reflexivity|].
  assert (C : 0 <= r < 55296 \/ (r < 0 \/ 55296 <= r)) by lia. destruct C as [C|C].
  - rewrite utf16_encode_plain in H by exact C. destruct alts as [|a alts]; [discriminate|]. cbn [units_match] in H. apply andb_true_iff in H as [H1 H2].
    apply alts_all_cons in Hp as [_ Hp]. apply alts_all_cons in HP as [Pa HP]. cbn [forallb]. rewrite (IH alts Hp HP H2), andb_true_r.
    apply existsb_exists in H1 as [x [Hx Ex]]. apply Z.eqb_eq in Ex. subst x. now apply Pa.
  - destruct (utf16_encode_high r n C) as [h [t [E Hh]]]. rewrite E, units_match_high in H by (auto; lia). discriminate.
Qed.
Lemma sig_name_runes (p : Z -> bool) n : alts_all p msi_sig_fold -> alts_all p msi_sigex_fold -> go_is_sig n = true -> forallb p n = true.
Proof.
  intros A1 A2 H. unfold go_is_sig, msi_is_sig_name in H. destruct sig_fold_plain as [P1 P2].
  apply orb_true_iff in H as [H|H]; [apply (same_name_all p n msi_sig_fold) | apply (same_name_all p n msi_sigex_fold)]; assumption.
Qed.
Lemma sig_name_no_slash n : go_is_sig n = true -> ~ In 47 n.
Proof.
  intros H Hin. pose proof (sig_name_runes (fun r => negb (r =? 47)) n eq_refl eq_refl H) as F.
  rewrite forallb_forall in F. now specialize (F 47 Hin).
Qed.
Lemma sig_name_decodes n : go_is_sig n = true -> msi_decode_name n = n.
Proof.
  intros H. pose proof (sig_name_runes (fun r => (0 <=? r) && (r <? 14336)) n eq_refl eq_refl H) as F. clear H.
  unfold msi_decode_name. induction n as [|r n IH]; [reflexivity|]. cbn [forallb] in F. apply andb_true_iff in F as [Hr F].
  cbn [map concat]. rewrite (IH F). unfold dn_rune, msi_dn_pair, msi_dn_single, msi_dn_table.
  replace (r >=? 14336) with false by lia. replace (r >=? 18432) with false by lia. replace (r =? 18496) with false by lia. reflexivity.
Qed.
Lemma special_no_slash n : In 47 n -> tar_special n = false.
Proof.
  intros Hin. unfold tar_special. apply orb_false_iff. split; apply not_true_iff_false; intros E.
  - apply list_eqb_Z_eq in E. subst n. cbn in Hin. lia.
  - now apply sig_name_no_slash in E.
Qed.
Lemma sig_not_exmeta n : go_is_sig n = true -> units_eqb n msi_tar_exmeta_name = false.
Proof.
  intros H. apply not_true_iff_false. intros E. apply list_eqb_Z_eq in E. subst n.
  assert (N : go_is_sig msi_tar_exmeta_name = false) by reflexivity. congruence.
Qed.

(* DigestMsiTar copies a member whose name is neither __exmeta nor a signature name *)
Lemma seg_plain Hf ext n c : tar_special n = false -> flatten_segs Hf (tar_segs ext [(n, c)]) = c.
Proof.
  unfold tar_special. intros H. apply orb_false_iff in H as [H1 H2].
  unfold tar_segs. cbn [map concat fst snd]. unfold msi_tar_is_exmeta, msi_tar_is_sig. change (bytes_eqb n msi_tar_exmeta_name) with (units_eqb n msi_tar_exmeta_name).
  rewrite H1, H2. cbn. now rewrite !app_nil_r.
Qed.
(* ... and replaces the __exmeta member by its digest, or drops it *)
Lemma seg_exmeta Hf ext x : flatten_segs Hf (tar_segs ext [(msi_tar_exmeta_name, x)]) = if ext then Hf x else [].
Proof. destruct ext; [apply app_nil_r | reflexivity]. Qed.
(* ... and leaves out a member under a signature name *)
Lemma seg_sig Hf ext n c : go_is_sig n = true -> flatten_segs Hf (tar_segs ext [(n, c)]) = [].
Proof.
  intros Es. unfold tar_segs. cbn [map concat fst snd]. unfold msi_tar_is_exmeta, msi_tar_is_sig.
  change (bytes_eqb n msi_tar_exmeta_name) with (units_eqb n msi_tar_exmeta_name). now rewrite (sig_not_exmeta _ Es), Es.
Qed.

Definition members (path : list Z) (k : node) : list (list Z * bytes) :=
  let ip := msi_tard_item_path path (msi_decode_name (go_name (node_ent k))) in
  if msi_tard_is_stream (de_type (node_ent k)) then [(ip, node_content k)]
  else if msi_tard_is_storage (de_type (node_ent k)) then tar_dir k (msi_tard_sub_path ip) else [].
Lemma tar_dir_nf e c kids path : tar_dir (Node e c kids) path =
  concat (map snd (isort rlt (items (members path) kids))) ++ [(msi_tard_uid_path path, de_uid e)].
Proof. reflexivity. Qed.
Lemma members_stream path k : de_type (node_ent k) = 2 -> members path k = [(path ++ msi_decode_name (go_name (node_ent k)), node_content k)].
Proof. intros E. unfold members. now rewrite E. Qed.
Lemma members_storage path k : de_type (node_ent k) = 1 -> members path k = tar_dir k ((path ++ msi_decode_name (go_name (node_ent k))) ++ [47]).
Proof. intros E. unfold members. now rewrite E. Qed.
(* hashMsiDir and msiToTarDir run over the same sorted children: sort once, with both contributions attached *)
Definition comb (path : list Z) (k : node) : bytes * list (list Z * bytes) := (contrib_h k, members path k).
Lemma sorted_h path kids : isort rlt (items contrib_h kids) = map (fun it => (fst it, fst (snd it))) (isort rlt (items (comb path) kids)).
Proof. exact (sorted_items_map fst (comb path) kids). Qed.
Lemma sorted_t path kids : isort rlt (items (members path) kids) = map (fun it => (fst it, snd (snd it))) (isort rlt (items (comb path) kids)).
Proof. exact (sorted_items_map snd (comb path) kids). Qed.

(* one storage: if DigestMsiTar takes from the members of each child what hashMsiDir takes from the child, it takes from the
   storage's members what hashMsiDir takes from the storage *)
Lemma tar_dir_segs Hf ext e c kids path :
  (forall k, In k kids -> flatten_segs Hf (tar_segs ext (members path k)) = if hash_skip (de_type e) (node_ent k) then [] else contrib_h k) ->
  tar_special (msi_tard_uid_path path) = false ->
  flatten_segs Hf (tar_segs ext (tar_dir (Node e c kids) path)) = hash_node (Node e c kids).
Proof.
  intros Hk Hu. rewrite tar_dir_nf, hash_node_nf, (sorted_t path kids), (sorted_h path kids), tar_segs_app, flatten_app, (seg_plain _ _ _ _ Hu). f_equal.
  assert (Hall : forall it, In it (isort rlt (items (comb path) kids)) ->
            flatten_segs Hf (tar_segs ext (snd (snd it))) = if hash_skip (de_type e) (fst it) then [] else fst (snd it)).
  { intros it Hin. apply in_isort, in_map_iff in Hin as [k [<- Hin]]. exact (Hk k Hin). }
  revert Hall. generalize (isort rlt (items (comb path) kids)). intros L Hall.
  induction L as [|[e' [h ms]] L IHL]; [reflexivity|]. cbn [map concat fst snd cat_items].
  rewrite tar_segs_app, flatten_app, IHL by (intros it Hit; apply Hall; now right).
  pose proof (Hall (e', (h, ms)) (or_introl eq_refl)) as H0. cbn [fst snd] in H0. rewrite H0. now destruct (hash_skip (de_type e) e').
Qed.
(* below the root every member name contains the '/' of its path, so nothing is left out on either side *)
Lemma nested_ok Hf ext : forall t path, In 47 path -> de_type (node_ent t) <> 5 -> kids_ok (node_kids t) ->
  flatten_segs Hf (tar_segs ext (tar_dir t path)) = hash_node t.
Proof.
  intros t. induction t as [e c kids IH] using node_ind'. intros path Hp Ht O. cbn [node_ent node_kids] in *.
  apply tar_dir_segs; [|apply special_no_slash, in_or_app; now left]. intros k Hin.
  replace (hash_skip (de_type e) (node_ent k)) with false
    by (rewrite hash_skip_eq; now replace (de_type e =? 5) with false by lia).
  destruct (wf_kid_inv k (kids_ok_wf kids k O Hin)) as [_ [_ [[Tk|Tk] [_ Kk]]]].
  - rewrite (members_stream path k Tk), (proj1 (contrib_stream k Tk)). apply seg_plain, special_no_slash, in_or_app. now left.
  - rewrite (members_storage path k Tk), (proj1 (contrib_storage k Tk)). apply (IH k Hin); [|lia|exact (Kk Tk)]. apply in_or_app. right. now left.
Qed.
Lemma root_tar_segs Hf ext t : wf_tree t = true -> tar_safe t = true -> flatten_segs Hf (tar_segs ext (tar_dir t [])) = hash_node t.
Proof.
  intros W Ts. destruct t as [e c kids]. destruct (wf_tree_inv _ W) as [_ [T O]]. cbn [node_ent node_kids] in *.
  apply tar_dir_segs; [|reflexivity]. intros k Hin. rewrite T.
  destruct (wf_kid_inv k (kids_ok_wf kids k O Hin)) as [_ [_ [[Tk|Tk] [_ Kk]]]].
  - unfold tar_safe in Ts. cbn [node_kids] in Ts. rewrite forallb_forall in Ts. specialize (Ts k Hin). cbn zeta in Ts. change msi_DirStream with 2 in Ts.
    rewrite (members_stream [] k Tk), (proj1 (contrib_stream k Tk)). cbn [app].
    rewrite hash_skip_eq. rewrite Tk in Ts |- *. cbn [Z.eqb Pos.eqb andb] in Ts |- *.
    destruct (go_is_sig (go_name (node_ent k))) eqn:Es.
    + rewrite (sig_name_decodes _ Es). now apply seg_sig.
    + apply seg_plain. now apply negb_true_iff in Ts.
  - rewrite (members_storage [] k Tk), (proj1 (contrib_storage k Tk)).
    replace (hash_skip 5 (node_ent k)) with false by (now rewrite hash_skip_eq, Tk).
    apply nested_ok; [|lia|exact (Kk Tk)]. apply in_or_app. right. now left.
Qed.
