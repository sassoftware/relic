(* FmtMSI/ProofsSer.v — part 2: one directory entry.  Its 128 bytes: field positions, what prehashMsiDirent writes.  Its name:
   the two comparisons (relic's closure, the specification's memcmp) are the canonical order on well-formed names, and the
   three tests for a signature name (relic's go_is_sig, DeleteFile's cfb_match, the specification's s_name_eq) are
   units_match on the code units of the name. *)
From Relic Require Import Base.Prelude Base.Enc Base.Lists Base.Slice Generated.FmtMSI_gen FmtMSI.Model FmtMSI.Proofs.
From Coq Require Import Permutation Sorted.

Lemma units_le_zlen l : zlen (units_le l) = 2 * zlen l.
Proof.
  unfold units_le. induction l as [|u l IH]; [reflexivity|]. cbn [map concat]. rewrite zlen_app, zlen_cons, IH.
  change (zlen (le_enc 2 u)) with 2. lia.
Qed.
Lemma units_le_cons u l : units_le (u :: l) = [u mod 256; u / 256 mod 256] ++ units_le l.
Proof. reflexivity. Qed.
Lemma units_le_app a b : units_le (a ++ b) = units_le a ++ units_le b.
Proof. unfold units_le. now rewrite map_app, concat_app. Qed.
Lemma ztake_units_le l : forall j, ztake (2 * j) (units_le l) = units_le (ztake j l).
Proof.
  induction l as [|u l IH]; intros j; [unfold ztake; now rewrite !firstn_nil|].
  destruct (Z_le_gt_dec j 0); [now rewrite !ztake_neg by lia|]. unfold ztake in *.
  replace (Z.to_nat (2 * j)) with (S (S (Z.to_nat (2 * (j - 1))))) by lia. replace (Z.to_nat j) with (S (Z.to_nat (j - 1))) by lia.
  cbn [firstn]. rewrite !units_le_cons. cbn [app firstn]. now rewrite IH.
Qed.

Definition ser_pieces (e : dirent) : list bytes :=
  [units_le (de_runes e); le_enc 2 (de_nlen e); le_enc 1 (de_type e); le_enc 1 (de_color e); le_enc 4 (de_left e); le_enc 4 (de_right e);
   le_enc 4 (de_sroot e); de_uid e; le_enc 4 (de_flags e); le_enc 8 (de_ctime e); le_enc 8 (de_mtime e); le_enc 4 (de_next e);
   le_enc 4 (de_size e); le_enc 4 (de_pad e)].
Lemma ser_dirent_pieces e : ser_dirent e = concat (ser_pieces e).
Proof. unfold ser_dirent, ser_pieces. cbn [concat]. rewrite app_nil_r. reflexivity. Qed.

Definition shape_ok (e : dirent) : Prop := zlen (de_runes e) = 32 /\ zlen (de_uid e) = 16.
Lemma ser_widths e : shape_ok e -> map zlen (ser_pieces e) = msi_de_widths.
Proof. intros [Hr Hu]. unfold ser_pieces. cbn [map]. rewrite units_le_zlen, Hr, Hu, !le_enc_zlen. reflexivity. Qed.
Lemma ser_zlen e : shape_ok e -> zlen (ser_dirent e) = 128.
Proof.
  intros [Hr Hu]. unfold ser_dirent. rewrite !zlen_app, units_le_zlen, Hr, Hu, !le_enc_zlen. reflexivity.
Qed.
(* field i sits where the declared widths put it; for a given i both bounds are numerals up to conversion *)
Lemma ser_field e i : shape_ok e -> (i < 14)%nat ->
  zslice (offs msi_de_widths i) (offs msi_de_widths (S i)) (ser_dirent e) = nth i (ser_pieces e) [].
Proof. intros H Hi. rewrite <- (ser_widths e H), ser_dirent_pieces. now apply zslice_concat. Qed.
Lemma ser_namefield e : shape_ok e -> ztake 64 (ser_dirent e) = units_le (de_runes e).
Proof. intros H. rewrite <- zslice_0. exact (ser_field e 0 H ltac:(lia)). Qed.
Lemma ser_nlen e : shape_ok e -> zslice 64 66 (ser_dirent e) = le_enc 2 (de_nlen e).
Proof. intros H. exact (ser_field e 1 H ltac:(lia)). Qed.
Lemma ser_type e : shape_ok e -> zslice 66 67 (ser_dirent e) = le_enc 1 (de_type e).
Proof. intros H. exact (ser_field e 2 H ltac:(lia)). Qed.
Lemma ser_uid e : shape_ok e -> zslice 80 96 (ser_dirent e) = de_uid e.
Proof. intros H. exact (ser_field e 7 H ltac:(lia)). Qed.
Lemma ser_flags e : shape_ok e -> zslice 96 100 (ser_dirent e) = le_enc 4 (de_flags e).
Proof. intros H. exact (ser_field e 8 H ltac:(lia)). Qed.
Lemma ser_size e : shape_ok e -> zslice 120 124 (ser_dirent e) = le_enc 4 (de_size e).
Proof. intros H. exact (ser_field e 12 H ltac:(lia)). Qed.
Lemma ser_times e : shape_ok e -> zslice 100 116 (ser_dirent e) = le_enc 8 (de_ctime e) ++ le_enc 8 (de_mtime e).
Proof.
  intros H. rewrite (zslice_split 100 108 116) by lia.
  f_equal; [exact (ser_field e 9 H ltac:(lia)) | exact (ser_field e 10 H ltac:(lia))].
Qed.
Lemma ser_name e n : shape_ok e -> n <= 64 -> zslice 0 n (ser_dirent e) = ztake n (units_le (de_runes e)).
Proof. intros H Hn. rewrite zslice_0, <- (ser_namefield e H), ztake_ztake. f_equal. lia. Qed.

Lemma write_plan_ok enc plan :
  (forall c lo hi, In (c, (lo, hi)) plan -> c = true -> 0 <= lo <= hi /\ hi <= msi_pre_enc_cap) ->
  write_plan enc plan = Ok (concat (map (fun s : bool * (Z * Z) => if fst s then zslice (fst (snd s)) (snd (snd s)) enc else []) plan)).
Proof.
  induction plan as [|[c [lo hi]] r IH]; intros H; [reflexivity|]. cbn [write_plan map concat fst snd].
  rewrite IH by (intros; eapply H; [right|]; eassumption). destruct c; [|reflexivity].
  destruct (H true lo hi (or_introl eq_refl) eq_refl) as [H1 H2]. change msi_pre_enc_cap with 128 in *.
  unfold go_slice, wrap16. rewrite !Z.mod_small by lia. replace ((0 <=? lo) && (lo <=? hi) && (hi <=? 128)) with true by lia.
  reflexivity.
Qed.
Definition pre_fields (e : dirent) : bytes :=
  (if negb (de_type e =? 5) then ztake (de_nlen e - 2) (units_le (de_runes e)) else []) ++
  (if (de_type e =? 5) || (de_type e =? 1) then de_uid e else []) ++
  (if de_type e =? 2 then le_enc 4 (de_size e) else []) ++
  le_enc 4 (de_flags e) ++
  (if negb (de_type e =? 5) then le_enc 8 (de_ctime e) ++ le_enc 8 (de_mtime e) else []).
Lemma pre_dirent_fields e : shape_ok e -> msi_pre_badlen (de_type e) (de_nlen e) = false -> pre_dirent e = Ok (pre_fields e).
Proof.
  intros H Hb. unfold pre_dirent. rewrite Hb. unfold msi_pre_badlen in Hb. unfold msi_pre_plan. rewrite write_plan_ok.
  - unfold pre_fields. cbn [map concat fst snd]. rewrite app_nil_r, (ser_uid e H), (ser_size e H), (ser_flags e H), (ser_times e H).
    destruct (de_type e =? 5); cbn [negb]; [reflexivity|]. rewrite (ser_name e _ H) by lia. reflexivity.
  - change msi_pre_enc_cap with 128. cbn [In].
    intros c lo hi [E|[E|[E|[E|[E|[]]]]]] Hc; injection E as <- <- <-; lia.
Qed.
(* C11: with the guard in place no slice leaves the buffer, whatever the entry holds *)
Lemma pre_dirent_no_panic e p : shape_ok e -> pre_dirent e <> Panic p.
Proof.
  intros H. destruct (msi_pre_badlen (de_type e) (de_nlen e)) eqn:Hb; [unfold pre_dirent; now rewrite Hb|].
  now rewrite (pre_dirent_fields e H Hb).
Qed.

Definition vals_ok (e : dirent) : Prop := shape_ok e /\ 0 <= de_nlen e < 65536 /\ 0 <= de_type e < 256.
Lemma fields_ok_vals e : fields_ok e = true -> vals_ok e.
Proof. unfold fields_ok, in_range, vals_ok, shape_ok. intros H. repeat (apply andb_true_iff in H as [H ?]). lia. Qed.
Lemma fields_ok_shape e : fields_ok e = true -> shape_ok e.
Proof. intros F. apply (fields_ok_vals e F). Qed.
Lemma le_dec_enc_small w n : 0 <= n < 256 ^ Z.of_nat w -> le_dec (le_enc w n) = n.
Proof. apply le_dec_enc. Qed.
Lemma s_nlen_ser e : vals_ok e -> s_nlen (ser_dirent e) = de_nlen e.
Proof. intros [H [Hn _]]. unfold s_nlen. rewrite (ser_nlen e H). now apply le_dec_enc. Qed.
Lemma s_type_ser e : vals_ok e -> s_type (ser_dirent e) = de_type e.
Proof. intros [H [_ Ht]]. unfold s_type. rewrite (ser_type e H). now apply le_dec_enc. Qed.
Lemma s_namefield_ser e : vals_ok e -> s_namefield (ser_dirent e) = units_le (de_runes e).
Proof. intros [H _]. now apply ser_namefield. Qed.
Lemma s_clsid_ser e : vals_ok e -> s_clsid (ser_dirent e) = de_uid e.
Proof. intros [H _]. now apply ser_uid. Qed.

Definition r2o (r : result bytes) : option bytes := match r with Ok b => Some b | _ => None end.
Lemma s_pre_entry_ser e : vals_ok e -> s_pre_entry (ser_dirent e) = r2o (pre_dirent e).
Proof.
  intros V. pose proof V as [H _]. unfold s_pre_entry. rewrite (s_type_ser e V), (s_nlen_ser e V), (s_namefield_ser e V).
  unfold S_ROOT, S_STORAGE, S_STREAM.
  replace (negb (de_type e =? 5) && ((de_nlen e <? 2) || (64 <? de_nlen e))) with (msi_pre_badlen (de_type e) (de_nlen e))
    by (unfold msi_pre_badlen; lia).
  destruct (msi_pre_badlen (de_type e) (de_nlen e)) eqn:Hb; [unfold pre_dirent; now rewrite Hb|].
  rewrite (pre_dirent_fields e H Hb). unfold pre_fields, s_state, s_times, s_size32.
  rewrite (s_clsid_ser e V), (ser_flags e H), (ser_times e H), (ser_size e H). destruct (de_type e =? 5); reflexivity.
Qed.

Definition wname (e : dirent) : list Z := ztake (de_nlen e / 2 - 1) (de_runes e).
Definition dkey (e : dirent) : list Z := map bkey (wname e).
Lemma nonul_of_forallb l : forallb unit_ok l = true -> forallb (fun u => negb (u =? 0)) l = true -> nonul l.
Proof.
  induction l as [|u l IH]; cbn [forallb]; intros H1 H2; [constructor|].
  apply andb_true_iff in H1 as [A1 B1]. apply andb_true_iff in H2 as [A2 B2].
  constructor; [split; [now apply unit_ok_uok | lia] | apply IH; assumption].
Qed.
Lemma name_ok_nlen e : name_ok e = true -> 1 <= zlen (wname e) <= 31 /\ de_nlen e = 2 * (zlen (wname e) + 1).
Proof. unfold name_ok, wname. rewrite !andb_true_iff. intros H. rewrite zlen_ztake by lia. lia. Qed.
Lemma name_ok_runes e : name_ok e = true ->
  nonul (wname e) /\ Forall uok (de_runes e) /\ zlen (de_runes e) = 32 /\ exists pad, de_runes e = wname e ++ 0 :: pad.
Proof.
  unfold name_ok, wname. rewrite !andb_true_iff. set (k := de_nlen e / 2 - 1). intros H.
  split; [apply nonul_of_forallb; [now apply forallb_firstn | apply H]|].
  split; [apply Forall_forall; intros u Hu; apply unit_ok_uok; revert u Hu; now apply forallb_forall|]. split; [lia|].
  exists (skipn (S (Z.to_nat k)) (de_runes e)). unfold ztake.
  rewrite (nth_split_at (de_runes e) (Z.to_nat k) 1) at 1 by (unfold zlen in H; lia). do 2 f_equal. lia.
Qed.
Lemma wname_uok e : name_ok e = true -> Forall uok (wname e).
Proof. intros H. eapply Forall_impl; [|apply (name_ok_runes e H)]. cbn. tauto. Qed.
Lemma name_bytes_wname e : name_ok e = true -> ztake (de_nlen e - 2) (units_le (de_runes e)) = units_le (wname e).
Proof.
  intros N. destruct (name_ok_nlen e N) as [_ Hn]. unfold wname in *.
  replace (de_nlen e - 2) with (2 * (de_nlen e / 2 - 1)) by lia. apply ztake_units_le.
Qed.
Lemma name_ok_goodlen e : name_ok e = true -> msi_pre_badlen (de_type e) (de_nlen e) = false.
Proof. intros N. destruct (name_ok_nlen e N). unfold msi_pre_badlen. lia. Qed.

Lemma sort_n_min a b : msi_sort_n a b = Z.min a b.
Proof. unfold msi_sort_n. destruct (b <? a) eqn:E; lia. Qed.

Lemma relic_less_key a b : name_ok a = true -> name_ok b = true -> wname a <> wname b ->
  relic_less a b = Ok (lex_lt (dkey a) (dkey b)).
Proof.
  intros Ha Hb Hne.
  destruct (name_ok_nlen a Ha) as [Ka Na], (name_ok_nlen b Hb) as [Kb Nb].
  destruct (name_ok_runes a Ha) as [Hnua [Hua [Hla [pa Hra]]]], (name_ok_runes b Hb) as [Hnub [Hub [Hlb [pb Hrb]]]].
  unfold relic_less. change (zlen (de_runes a)) with (0 + zlen (de_runes a)).
  rewrite less_loop_ulex by (assumption || (unfold zlen in *; lia)). rewrite sort_n_min, Hla. unfold dkey.
  rewrite Hra, Hrb, (ulex3_names (wname a) (wname b) pa pb _ Hnua Hnub Hne) by (unfold zlen in *; lia).
  destruct (lex_lt (map bkey (wname a)) (map bkey (wname b))); reflexivity.
Qed.
Lemma relic_lt_key a b : name_ok a = true -> name_ok b = true -> wname a <> wname b ->
  relic_lt a b = lex_lt (dkey a) (dkey b).
Proof. intros. unfold relic_lt. now rewrite relic_less_key. Qed.

Lemma lex_cmp_units la : forall lb, Forall uok la -> Forall uok lb -> lex_cmp (units_le la) (units_le lb) = ulex3 la lb.
Proof.
  induction la as [|x la IH]; intros [|y lb] Ha Hb; try reflexivity.
  inversion Ha as [|? ? Hx Ha']; inversion Hb as [|? ? Hy Hb']; subst.
  rewrite !units_le_cons. cbn [app lex_cmp ulex3]. rewrite IH by assumption. unfold uok, bkey in *.
  rewrite (Z.mod_small (x / 256)), (Z.mod_small (y / 256)) by lia.
  (* with the four bytes as variables the case analysis is linear arithmetic *)
  assert (R : 0 <= x mod 256 < 256 /\ 0 <= x / 256 < 256 /\ 0 <= y mod 256 < 256 /\ 0 <= y / 256 < 256) by lia.
  revert R. generalize (x mod 256) (x / 256) (y mod 256) (y / 256). clear. intros a b c d R.
  destruct (a * 256 + b <? c * 256 + d) eqn:E5, (c * 256 + d <? a * 256 + b) eqn:E6;
    destruct (a <? c) eqn:E1; try reflexivity; try lia;
    destruct (c <? a) eqn:E2; try reflexivity; try lia;
    destruct (b <? d) eqn:E3; try reflexivity; try lia;
    destruct (d <? b) eqn:E4; try reflexivity; lia.
Qed.
Lemma s_less_key a b : fields_ok a = true -> fields_ok b = true -> name_ok a = true -> name_ok b = true -> wname a <> wname b ->
  s_less (ser_dirent a) (ser_dirent b) = lex_lt (dkey a) (dkey b).
Proof.
  intros Fa Fb Ha Hb Hne.
  pose proof (fields_ok_vals a Fa) as Va. pose proof (fields_ok_vals b Fb) as Vb.
  destruct (name_ok_nlen a Ha) as [Ka Na], (name_ok_nlen b Hb) as [Kb Nb].
  destruct (name_ok_runes a Ha) as [Hnua [Hua [_ [pa Hra]]]], (name_ok_runes b Hb) as [Hnub [Hub [_ [pb Hrb]]]].
  unfold s_less. rewrite !s_nlen_ser, !s_namefield_ser by assumption.
  replace (Z.min (de_nlen a) (de_nlen b)) with (2 * (Z.min (zlen (wname a)) (zlen (wname b)) + 1)) by lia.
  rewrite !ztake_units_le. unfold ztake at 1 2. rewrite lex_cmp_units by (apply Forall_firstn; assumption).
  rewrite Hra, Hrb, (ulex3_names (wname a) (wname b) pa pb _ Hnua Hnub Hne) by (unfold zlen; lia).
  unfold dkey. destruct (lex_lt (map bkey (wname a)) (map bkey (wname b))); reflexivity.
Qed.
(* C05: on well-formed distinct names relic orders as the specification does *)
Lemma less_eq_spec a b : fields_ok a = true -> fields_ok b = true -> name_ok a = true -> name_ok b = true -> wname a <> wname b ->
  relic_less a b = Ok (s_less (ser_dirent a) (ser_dirent b)).
Proof. intros. now rewrite relic_less_key, s_less_key. Qed.

Lemma name_units_wname e : name_ok e = true -> de_type e <> 0 -> name_units e = wname e.
Proof.
  intros Hn Ht. destruct (name_ok_nlen e Hn) as [Hk Hnl]. unfold name_units, msi_name_used, msi_name_empty, wrap16.
  fold (wname e). generalize dependent (zlen (wname e)). intros k Hk Hnl. unfold wname.
  rewrite Z.quot_div_nonneg, Z.mod_small by lia.
  replace (de_type e =? 0) with false by lia. replace (de_nlen e / 2 - 1 >? 32) with false by lia. reflexivity.
Qed.
(* every code unit an alternative list allows satisfies p; for p = "below the surrogates" (alts_plain) a name that matches
   consists of single code units that utf16 leaves alone *)
Definition alts_all (p : Z -> bool) (alts : list (list Z)) : Prop := forallb (forallb p) alts = true.
Definition alts_plain : list (list Z) -> Prop := alts_all (fun a => (0 <=? a) && (a <? 55296)).
Lemma alts_all_cons p a alts : alts_all p (a :: alts) -> (forall x, In x a -> p x = true) /\ alts_all p alts.
Proof. unfold alts_all. cbn [forallb]. rewrite andb_true_iff, forallb_forall. tauto. Qed.
Lemma units_match_high h t alts : alts_plain alts -> h < 0 \/ 55296 <= h -> units_match (h :: t) alts = false.
Proof.
  intros Hp Hh. destruct alts as [|a alts]; [reflexivity|]. cbn [units_match]. apply alts_all_cons in Hp as [Ha _].
  assert (E : existsb (Z.eqb h) a = false); [|now rewrite E].
  apply not_true_iff_false. intros E. apply existsb_exists in E as [x [Hx Ex]]. specialize (Ha x Hx). lia.
Qed.
(* utf16.Decode and utf16.Encode, one step: a code unit (a code point) below the surrogates is copied, anything else
   begins with something that is not below the surrogates *)
Lemma utf16_decode_plain u r : 0 <= u < 55296 -> utf16_decode (u :: r) = u :: utf16_decode r.
Proof. intros H. cbn [utf16_decode]. unfold is_surr1, is_surr2. now replace ((55296 <=? u) && (u <? 56320)) with false by lia; replace ((56320 <=? u) && (u <? 57344)) with false by lia. Qed.
Lemma utf16_decode_high u r : 55296 <= u -> exists c t, utf16_decode (u :: r) = c :: t /\ 55296 <= c.
Proof.
  intros H. cbn [utf16_decode]. unfold is_surr1, is_surr2. destruct ((55296 <=? u) && (u <? 56320)) eqn:E1.
  - destruct r as [|v r]; [eexists _, _; split; [reflexivity | lia]|].
    destruct ((56320 <=? v) && (v <? 57344)) eqn:E2; eexists _, _; (split; [reflexivity | lia]).
  - destruct ((56320 <=? u) && (u <? 57344)); eexists _, _; (split; [reflexivity | lia]).
Qed.
Lemma utf16_encode_plain c n : 0 <= c < 55296 -> utf16_encode (c :: n) = c :: utf16_encode n.
Proof. intros H. unfold utf16_encode. cbn [map concat]. now replace (((0 <=? c) && (c <? 55296)) || ((57344 <=? c) && (c <? 65536))) with true by lia. Qed.
Lemma utf16_encode_high c n : c < 0 \/ 55296 <= c -> exists h t, utf16_encode (c :: n) = h :: t /\ 55296 <= h.
Proof.
  intros H. unfold utf16_encode. cbn [map concat].
  destruct (((0 <=? c) && (c <? 55296)) || ((57344 <=? c) && (c <? 65536))) eqn:E1; [eexists _, _; split; [reflexivity | lia]|].
  destruct ((65536 <=? c) && (c <=? 1114111)) eqn:E2; eexists _, _; (split; [reflexivity | lia]).
Qed.
Lemma utf16_roundtrip_match us : forall alts, Forall uok us -> alts_plain alts ->
  units_match (utf16_encode (utf16_decode us)) alts = units_match us alts.
Proof.
  induction us as [|u r IH]; intros alts Hu Hp; [reflexivity|]. inversion Hu as [|? ? Hu0 Hur]; subst. unfold uok in Hu0.
  destruct (Z_lt_ge_dec u 55296).
  - rewrite utf16_decode_plain, utf16_encode_plain by lia. destruct alts as [|a alts']; [reflexivity|]. cbn [units_match].
    f_equal. apply IH; [assumption | apply (alts_all_cons _ _ _ Hp)].
  - destruct (utf16_decode_high u r) as [c [t [-> Hc]]]; [lia|]. destruct (utf16_encode_high c t) as [h [t' [-> Hh]]]; [lia|].
    now rewrite !units_match_high by (assumption || lia).
Qed.
Lemma sig_fold_plain : alts_plain msi_sig_fold /\ alts_plain msi_sigex_fold.
Proof. split; reflexivity. Qed.
Lemma same_name_units alts e : name_ok e = true -> de_type e <> 0 -> alts_plain alts ->
  same_name alts (go_name e) = units_match (wname e) alts.
Proof.
  intros N T P. unfold same_name, go_name. rewrite (name_units_wname e N T).
  apply utf16_roundtrip_match; [now apply wname_uok | exact P].
Qed.
Lemma go_is_sig_units e : name_ok e = true -> de_type e <> 0 ->
  go_is_sig (go_name e) = units_match (wname e) msi_sig_fold || units_match (wname e) msi_sigex_fold.
Proof. intros N T. destruct sig_fold_plain as [P1 P2]. unfold go_is_sig, msi_is_sig_name. now rewrite !same_name_units. Qed.

Definition fold_of (alts : list (list Z)) (cs : list Z) : Prop :=
  Forall2 (fun alt c => forall u, existsb (Z.eqb u) alt = s_upper_eq u c) alts cs.
Lemma s_name_eq_units us : forall alts cs, Forall uok us -> fold_of alts cs -> s_name_eq (units_le us) cs = units_match us alts.
Proof.
  induction us as [|u us IH]; intros alts cs Hu Hf.
  - inversion Hf; subst; reflexivity.
  - inversion Hu as [|? ? Hu0 Hur]; subst. rewrite units_le_cons. cbn [app s_name_eq].
    inversion Hf as [|alt c alts' cs' Hh Ht]; subst; [reflexivity|]. cbn [units_match]. rewrite Hh.
    unfold uok in Hu0. replace (u mod 256 + 256 * (u / 256 mod 256)) with u by lia.
    f_equal. apply IH; assumption.
Qed.
(* the alternatives generated from unicode.ToUpper are those of [MS-CFB] 2.6.4 for the two names *)
Lemma fold_is_spec_fold : fold_of msi_sig_fold s_sig_ascii /\ fold_of msi_sigex_fold s_sigex_ascii.
Proof. split; repeat (constructor; [intros u; unfold s_upper_eq; cbn; repeat destruct (u =? _); reflexivity|]); constructor. Qed.
Lemma s_name_is_units e alts cs : vals_ok e -> name_ok e = true -> fold_of alts cs ->
  s_name_eq (ztake (s_nlen (ser_dirent e) - 2) (s_namefield (ser_dirent e))) cs = units_match (wname e) alts.
Proof.
  intros V N Hf. rewrite (s_nlen_ser e V), (s_namefield_ser e V), (name_bytes_wname e N). apply s_name_eq_units; [now apply wname_uok | exact Hf].
Qed.
Lemma skip_is_spec e : fields_ok e = true -> name_ok e = true -> de_type e <> 0 ->
  s_is_sig (ser_dirent e) = (de_type e =? 2) && go_is_sig (go_name e).
Proof.
  intros F N T. pose proof (fields_ok_vals e F) as V. destruct fold_is_spec_fold as [F1 F2].
  unfold s_is_sig. cbn zeta. rewrite (s_type_ser e V), (s_name_is_units e _ _ V N F1), (s_name_is_units e _ _ V N F2).
  now rewrite (go_is_sig_units e N T).
Qed.
Lemma units_match_length us : forall alts, units_match us alts = true -> length us = length alts.
Proof.
  induction us as [|u us IH]; intros [|a alts] H; cbn [units_match] in H; try discriminate; [reflexivity|].
  apply andb_true_iff in H as [_ H]. cbn [length]. f_equal. auto.
Qed.
Lemma cfb_match_units alts e : name_ok e = true -> cfb_match alts e = units_match (wname e) alts.
Proof.
  intros N. destruct (name_ok_nlen e N) as [_ Hnl]. unfold cfb_match.
  destruct (de_nlen e =? 2 * (zlen alts + 1)) eqn:E; cbn [andb].
  - unfold wname. do 2 f_equal. lia.
  - symmetry. apply not_true_iff_false. intros Hm. apply units_match_length in Hm. unfold zlen in *. lia.
Qed.

(* the entries of the examples and witnesses: the name padded with NULs to 32 code units, no siblings, no children *)
Definition ex_ent (name : list Z) (nlen ty : Z) (uid : bytes) (flags ct mt size : Z) : dirent :=
  mkDe (name ++ zeros (32 - zlen name)) nlen ty 1 4294967295 4294967295 4294967295 uid flags ct mt 0 size 0.
