(* FmtMSI/Proofs.v — part 1: the hashing order.
   Up to isort_map nothing is about MSI: facts about lists (firstn, filter, NoDup, concat, the model's all2), the
   lexicographic order lex_lt on lists of integers, and the model's insertion sort: under klt key, a strict total order on
   lists with distinct keys, it yields the unique sorted permutation (so any correct sorting algorithm — Go's pdqsort
   included — and any order of the input give the same result), and it commutes with filter and map.
   From bkey on: the comparison closure of sortMsiFiles is that order on the byte-swapped code units of two names. *)
From Relic Require Import Base.Prelude Base.Enc Base.Lists Base.Slice Generated.FmtMSI_gen FmtMSI.Model.
From Coq Require Import Permutation Sorted.

Lemma zlen_length {A} (l : list A) : zlen l = Z.of_nat (length l).
Proof. reflexivity. Qed.
Lemma zdrop_skipn {A} (n : nat) (l : list A) : zdrop (Z.of_nat n) l = skipn n l.
Proof. apply Slice.zdrop_skipn. Qed.
Lemma forallb_skipn {A} (p : A -> bool) n (l : list A) : forallb p l = true -> forallb p (skipn n l) = true.
Proof. apply Lists.forallb_skipn. Qed.
Lemma nth_split_at {A} (l : list A) (k : nat) (d : A) : (k < length l)%nat ->
  l = firstn k l ++ nth k l d :: skipn (S k) l.
Proof. intros H. apply split_at_nth, nth_error_nth', H. Qed.

Lemma concat_inj_lengths {A} (xs : list (list A)) : forall ys, map (@length A) xs = map (@length A) ys -> concat xs = concat ys -> xs = ys.
Proof.
  induction xs as [|x xs IH]; intros [|y ys] Hl H; cbn in *; try discriminate; [reflexivity|].
  injection Hl as Hl1 Hl2. destruct (app_inv_length _ _ _ _ H Hl1) as [-> H']. f_equal. apply IH; assumption.
Qed.
Definition offs (ws : list Z) (i : nat) : Z := fold_right Z.add 0 (firstn i ws).
Lemma offs_nonneg {A} (ps : list (list A)) : forall i, 0 <= offs (map zlen ps) i.
Proof.
  induction ps as [|p ps IH]; intros [|i]; unfold offs; cbn; try lia.
  specialize (IH i). unfold offs in IH. pose proof (zlen_nonneg p). lia.
Qed.
Lemma zslice_concat {A} (ps : list (list A)) : forall i, (i < length ps)%nat ->
  zslice (offs (map zlen ps) i) (offs (map zlen ps) (S i)) (concat ps) = nth i ps [].
Proof.
  induction ps as [|p ps IH]; intros [|i] Hi; cbn [length] in Hi; try lia; cbn [map concat nth].
  - apply zslice_app_head. unfold offs. cbn. lia.
  - assert (N : forall j, offs (zlen p :: map zlen ps) (S j) = zlen p + offs (map zlen ps) j) by reflexivity.
    pose proof (offs_nonneg ps i). rewrite !N, zslice_app_r, <- (IH i) by lia. f_equal; lia.
Qed.

Lemma filter_rev {A} (p : A -> bool) l : filter p (rev l) = rev (filter p l).
Proof.
  induction l as [|x l IH]; [reflexivity|]. cbn [rev filter]. rewrite filter_app, IH. cbn [filter].
  destruct (p x); cbn [rev]; [reflexivity | now rewrite app_nil_r].
Qed.
Lemma filter_sub {A} (p q : A -> bool) l : (forall x, In x l -> p x = true -> q x = true) -> filter p (filter q l) = filter p l.
Proof.
  intros H. rewrite filter_filter. apply filter_ext_in. intros x Hx. specialize (H x Hx). destruct (p x); [now rewrite H | apply andb_false_r].
Qed.

Lemma NoDup_map_finer {A B C} (f : A -> B) (g : A -> C) l : NoDup (map f l) ->
  (forall x y, In x l -> In y l -> g x = g y -> f x = f y) -> NoDup (map g l).
Proof.
  induction l as [|a l IH]; cbn [map]; intros H Hfg; [constructor|]. inversion H as [|? ? Hn Hd]; subst.
  constructor.
  - intros Hin. apply in_map_iff in Hin as [y [Hy Hin]]. apply Hn. rewrite <- (Hfg y a); [now apply in_map | now right | now left | exact Hy].
  - apply IH; [exact Hd|]. intros x y Hx Hy. apply Hfg; now right.
Qed.

Lemma all2_map_eq {A B C} (f : A -> C) (g : B -> C) ks : forall ms, all2 (fun k m => f k = g m) ks ms -> map f ks = map g ms.
Proof. induction ks as [|k ks IH]; intros [|m ms] H; cbn [all2] in H; try contradiction; [reflexivity|]. cbn [map]. f_equal; [apply H | apply IH, H]. Qed.
Lemma all2_impl {A B} (R R' : A -> B -> Prop) ks : forall ms, (forall k m, In k ks -> R k m -> R' k m) -> all2 R ks ms -> all2 R' ks ms.
Proof.
  induction ks as [|k ks IH]; intros [|m ms] H HR; cbn [all2] in *; try contradiction; auto.
  destruct HR as [H1 H2]. split; [apply H; [now left | exact H1] | apply IH; [|exact H2]]. intros k' m' Hin. apply H. now right.
Qed.

Fixpoint lex_lt (a b : list Z) : bool :=
  match a, b with
  | [], [] => false
  | [], _ :: _ => true
  | _ :: _, [] => false
  | x :: a', y :: b' => if x <? y then true else if y <? x then false else lex_lt a' b'
  end.
(* in this form lia decides the order facts once the three recursive calls are named *)
Lemma lex_lt_cons x a y b : lex_lt (x :: a) (y :: b) = (x <? y) || ((x =? y) && lex_lt a b).
Proof. cbn. destruct (Z.ltb_spec x y), (Z.ltb_spec y x), (Z.eqb_spec x y); try lia; reflexivity. Qed.
Lemma lex_lt_irrefl a : lex_lt a a = false.
Proof. induction a as [|x a IH]; [reflexivity|]. rewrite lex_lt_cons, IH. lia. Qed.
Lemma lex_lt_asym a b : lex_lt a b = true -> lex_lt b a = false.
Proof.
  revert b; induction a as [|x a IH]; intros [|y b]; try discriminate; auto.
  rewrite !lex_lt_cons. specialize (IH b). destruct (lex_lt a b), (lex_lt b a); lia.
Qed.
Lemma lex_lt_trans a b c : lex_lt a b = true -> lex_lt b c = true -> lex_lt a c = true.
Proof.
  revert b c; induction a as [|x a IH]; intros [|y b] [|z c]; try discriminate; auto.
  rewrite !lex_lt_cons. specialize (IH b c). destruct (lex_lt a b), (lex_lt b c), (lex_lt a c); lia.
Qed.
Lemma lex_lt_total a b : a <> b -> lex_lt a b = true \/ lex_lt b a = true.
Proof.
  revert b; induction a as [|x a IH]; intros [|y b] H; auto; try congruence.
  rewrite !lex_lt_cons. destruct (Z.eq_dec x y) as [->|]; [|lia].
  destruct (IH b) as [E|E]; [congruence| |]; rewrite E; lia.
Qed.

Section SortFacts.
  Context {A : Type}.
  Lemma ins_perm (lt : A -> A -> bool) x rs : Permutation (ins lt x rs) (x :: rs).
  Proof.
    induction rs as [|y r IH]; cbn; [reflexivity|]. destruct (lt x y); [|reflexivity].
    rewrite IH. apply perm_swap.
  Qed.
  (* isort lt l = rev (sacc lt l): the sorted prefix in reverse.  Each new element of the input is inserted into it, so
     the facts about isort go by induction on the input from its end, with no accumulator to generalise. *)
  Definition sacc (lt : A -> A -> bool) (l : list A) : list A := fold_left (fun rs x => ins lt x rs) l [].
  Lemma sacc_snoc lt l x : sacc lt (l ++ [x]) = ins lt x (sacc lt l).
  Proof. unfold sacc. now rewrite fold_left_app. Qed.
  Lemma sacc_perm lt l : Permutation (sacc lt l) l.
  Proof.
    induction l as [|x l IH] using rev_ind; [reflexivity|].
    rewrite sacc_snoc, ins_perm, IH. apply Permutation_cons_append.
  Qed.
  Lemma isort_perm (lt : A -> A -> bool) l : Permutation (isort lt l) l.
  Proof. change (isort lt l) with (rev (sacc lt l)). now rewrite <- Permutation_rev, sacc_perm. Qed.
  Lemma in_isort (lt : A -> A -> bool) l x : In x (isort lt l) -> In x l.
  Proof. apply Permutation_in, isort_perm. Qed.

  Variable key : A -> list Z.
  Lemma NoDup_keys_snoc l x : NoDup (map key (l ++ [x])) -> NoDup (map key l) /\ forall y, In y l -> key x <> key y.
  Proof.
    rewrite map_app. intros H. apply NoDup_remove in H as [H1 H2]. rewrite app_nil_r in H1, H2. split; [exact H1|].
    intros y Hy E. apply H2. rewrite E. now apply in_map.
  Qed.
  Lemma ins_ext (f g : A -> A -> bool) x rs : (forall y, In y rs -> f x y = g x y) -> ins f x rs = ins g x rs.
  Proof.
    induction rs as [|y r IH]; intros H; cbn; [reflexivity|]. rewrite (H y (or_introl eq_refl)).
    destruct (g x y); [|reflexivity]. f_equal. apply IH. intros z Hz. apply H. now right.
  Qed.
  Lemma isort_ext (f g : A -> A -> bool) l : NoDup (map key l) ->
    (forall x y, In x l -> In y l -> key x <> key y -> f x y = g x y) -> isort f l = isort g l.
  Proof.
    intros Hnd Hfg. unfold isort. f_equal. change (sacc f l = sacc g l).
    induction l as [|x l IH] using rev_ind; [reflexivity|]. rewrite !sacc_snoc.
    apply NoDup_keys_snoc in Hnd as [Hnd Hx].
    rewrite IH by (auto; intros; apply Hfg; auto using in_or_app).
    apply ins_ext. intros y Hy. apply (Permutation_in _ (sacc_perm g l)) in Hy.
    apply Hfg; auto using in_or_app, in_eq.
  Qed.

  Definition klt (x y : A) : bool := lex_lt (key x) (key y).
  (* the accumulator of the sort is strictly descending *)
  Definition desc (x y : A) : Prop := klt y x = true.
  Lemma ins_desc x rs : StronglySorted desc rs -> (forall y, In y rs -> key x <> key y) -> StronglySorted desc (ins klt x rs).
  Proof.
    induction rs as [|y r IH]; intros Hs Hn; cbn [ins].
    - constructor; constructor.
    - inversion Hs as [|? ? Hs' Hall]; subst. destruct (klt x y) eqn:E.
      + constructor.
        * apply IH; auto. intros z Hz. apply Hn. now right.
        * assert (Hp := ins_perm klt x r). rewrite Forall_forall in *. intros z Hz.
          eapply Permutation_in in Hz; [|exact Hp]. destruct Hz as [<-|Hz]; [exact E|]. now apply Hall.
      + assert (Hyx : klt y x = true).
        { destruct (lex_lt_total (key x) (key y)) as [H|H]; [|unfold klt in E; congruence|exact H]. apply Hn. now left. }
        constructor; [exact Hs|]. constructor; [exact Hyx|].
        rewrite Forall_forall in *. intros z Hz. unfold desc, klt in *. eapply lex_lt_trans; [apply Hall; exact Hz | exact Hyx].
  Qed.
  Lemma sacc_desc l : NoDup (map key l) -> StronglySorted desc (sacc klt l).
  Proof.
    induction l as [|x l IH] using rev_ind; intros Hnd; [constructor|]. rewrite sacc_snoc.
    apply NoDup_keys_snoc in Hnd as [Hnd Hx]. apply ins_desc; [auto|].
    intros y Hy. apply Hx. exact (Permutation_in _ (sacc_perm klt l) Hy).
  Qed.
  Lemma desc_unique l1 : forall l2, StronglySorted desc l1 -> StronglySorted desc l2 -> Permutation l1 l2 -> l1 = l2.
  Proof.
    induction l1 as [|a t1 IH]; intros l2 H1 H2 Hp.
    - apply Permutation_nil in Hp. now subst.
    - destruct l2 as [|b t2]; [apply Permutation_sym, Permutation_nil in Hp; discriminate|].
      inversion H1 as [|? ? H1' A1]; inversion H2 as [|? ? H2' A2]; subst.
      assert (a = b).
      { assert (Ha : In a (b :: t2)) by (eapply Permutation_in; [exact Hp | now left]).
        assert (Hb : In b (a :: t1)) by (eapply Permutation_in; [symmetry; exact Hp | now left]).
        destruct Ha as [Ha|Ha]; [now symmetry|]. destruct Hb as [Hb|Hb]; [exact Hb|].
        rewrite Forall_forall in A1, A2. specialize (A1 _ Hb). specialize (A2 _ Ha). unfold desc, klt in *.
        apply lex_lt_asym in A1. congruence. }
      subst b. f_equal. apply IH; auto. eapply Permutation_cons_inv. exact Hp.
  Qed.
  Lemma isort_klt_char l s : NoDup (map key l) -> StronglySorted desc s -> Permutation s l -> isort klt l = rev s.
  Proof.
    intros Hnd Hs Hp. unfold isort. f_equal. apply desc_unique; [now apply sacc_desc | exact Hs |].
    now rewrite (sacc_perm klt l), Hp.
  Qed.
  Theorem sort_unique l1 l2 : Permutation l1 l2 -> NoDup (map key l1) -> isort klt l1 = isort klt l2.
  Proof.
    intros Hp Hnd. assert (Hnd2 : NoDup (map key l2)) by (eapply Permutation_NoDup; [|exact Hnd]; now apply Permutation_map).
    apply isort_klt_char; [exact Hnd | now apply sacc_desc | now rewrite (sacc_perm klt l2)].
  Qed.
  Lemma filter_desc (p : A -> bool) l : StronglySorted desc l -> StronglySorted desc (filter p l).
  Proof.
    induction 1 as [|a l Hs IH Hall]; cbn [filter]; [constructor|]. destruct (p a); [|exact IH].
    constructor; [exact IH|]. rewrite Forall_forall in *. intros z Hz. apply filter_In in Hz as [Hz _]. now apply Hall.
  Qed.
  Theorem sort_filter (p : A -> bool) l : NoDup (map key l) -> filter p (isort klt l) = isort klt (filter p l).
  Proof.
    intros Hnd. unfold isort at 1. rewrite filter_rev. symmetry.
    apply isort_klt_char; [now apply NoDup_map_filter | now apply filter_desc, sacc_desc | apply Permutation_filter, sacc_perm].
  Qed.
End SortFacts.

Lemma ins_map {A B} (p : A -> B) (f : A -> A -> bool) (g : B -> B -> bool) x rs :
  (forall a b, f a b = g (p a) (p b)) -> map p (ins f x rs) = ins g (p x) (map p rs).
Proof.
  intros H. induction rs as [|y r IH]; cbn; [reflexivity|]. rewrite <- H. destruct (f x y); cbn [map]; [now rewrite IH | reflexivity].
Qed.
Lemma isort_map {A B} (p : A -> B) (f : A -> A -> bool) (g : B -> B -> bool) l :
  (forall a b, f a b = g (p a) (p b)) -> map p (isort f l) = isort g (map p l).
Proof.
  intros H. unfold isort. rewrite map_rev. f_equal. change (map p (sacc f l) = sacc g (map p l)).
  induction l as [|x l IH] using rev_ind; [reflexivity|]. rewrite map_app. cbn [map]. rewrite !sacc_snoc, <- IH. now apply ins_map.
Qed.

(* a code unit read as its two little-endian bytes, first byte most significant: memcmp order *)
Definition bkey (u : Z) : Z := (u mod 256) * 256 + u / 256.
Definition uok (u : Z) : Prop := 0 <= u < 65536.
Lemma unit_ok_uok u : unit_ok u = true <-> uok u.
Proof. unfold unit_ok, uok. lia. Qed.
Lemma bkey_inj x y : uok x -> uok y -> bkey x = bkey y -> x = y.
Proof. unfold uok, bkey. intros. lia. Qed.
Lemma bkey_pos x : uok x -> x <> 0 -> 0 < bkey x.
Proof. unfold uok, bkey. intros. lia. Qed.
Lemma map_bkey_inj a : forall b, Forall uok a -> Forall uok b -> map bkey a = map bkey b -> a = b.
Proof.
  induction a as [|x a IH]; intros [|y b] Ha Hb H; cbn in H; try discriminate; [reflexivity|].
  inversion Ha; inversion Hb; subst. injection H as E1 E2. f_equal; [apply bkey_inj; assumption | apply IH; assumption].
Qed.

(* the loop body of the comparison closure is the comparison of the byte-swapped code units *)
Lemma sort_body_bkey x y cont : uok x -> uok y ->
  msi_sort_body x y cont = if bkey x <? bkey y then true else if bkey y <? bkey x then false else cont.
Proof.
  unfold uok, msi_sort_body, bkey. intros Hx Hy.
  change 255 with (Z.ones 8). rewrite !Z.land_ones, !Z.shiftr_div_pow2 by lia. change (2 ^ 8) with 256.
  (* with the four bytes as variables the case analysis is linear arithmetic *)
  assert (R : 0 <= x mod 256 < 256 /\ 0 <= x / 256 < 256 /\ 0 <= y mod 256 < 256 /\ 0 <= y / 256 < 256) by lia.
  revert R. generalize (x mod 256) (x / 256) (y mod 256) (y / 256). clear. intros a b c d R.
  destruct (a =? c) eqn:E1, (b =? d) eqn:E2, (a * 256 + b <? c * 256 + d) eqn:E3, (c * 256 + d <? a * 256 + b) eqn:E4;
    cbn [negb]; try reflexivity; lia.
Qed.

(* lexicographic comparison of two code unit lists over their common length *)
Fixpoint ulex3 (a b : list Z) : comparison :=
  match a, b with
  | x :: a', y :: b' => if bkey x <? bkey y then Lt else if bkey y <? bkey x then Gt else ulex3 a' b'
  | _, _ => Eq
  end.
Definition of_cmp (c : comparison) (tie : bool) : bool := match c with Lt => true | Gt => false | Eq => tie end.

(* C11: the comparison loop never indexes past the arrays, whatever the entries hold *)
Lemma less_loop_ok ra : forall rb k n tie, length ra = length rb ->
  exists r, less_loop ra rb k n (k + zlen ra) tie = Ok r.
Proof.
  induction ra as [|x ra IH]; intros [|y rb] k n tie Hl; cbn in Hl; try discriminate; cbn [less_loop].
  - unfold msi_sort_loop_cond. rewrite zlen_nil. replace (k <? k + 0) with false by lia. rewrite andb_false_r. eauto.
  - destruct (msi_sort_loop_cond k n (k + zlen (x :: ra))); [|eauto].
    destruct (IH rb (k + 1) n tie ltac:(lia)) as [r Hr]. rewrite zlen_cons, Z.add_assoc, Hr. eauto.
Qed.

Lemma less_loop_ulex ra : forall rb k n tie, length ra = length rb -> Forall uok ra -> Forall uok rb ->
  less_loop ra rb k n (k + zlen ra) tie =
  Ok (of_cmp (ulex3 (firstn (Z.to_nat (Z.min n (k + zlen ra) - k)) ra) (firstn (Z.to_nat (Z.min n (k + zlen ra) - k)) rb)) tie).
Proof.
  induction ra as [|x ra IH]; intros [|y rb] k n tie Hl Ha Hb; cbn in Hl; try discriminate; cbn [less_loop]; unfold msi_sort_loop_cond.
  - rewrite zlen_nil. replace (k <? k + 0) with false by lia. rewrite andb_false_r, !firstn_nil. reflexivity.
  - rewrite zlen_cons. pose proof (zlen_nonneg ra) as Hz.
    replace (k <? k + (1 + zlen ra)) with true by lia. rewrite andb_true_r.
    inversion Ha as [|? ? Hx Ha']; inversion Hb as [|? ? Hy Hb']; subst.
    destruct (k <? n) eqn:Ekn.
    + rewrite Z.add_assoc, (IH rb (k + 1) n tie) by (assumption || lia).
      replace (Z.to_nat (Z.min n (k + 1 + zlen ra) - k)) with (S (Z.to_nat (Z.min n (k + 1 + zlen ra) - (k + 1)))) by lia.
      cbn [firstn ulex3]. rewrite (sort_body_bkey _ _ _ Hx Hy).
      destruct (bkey x <? bkey y); [reflexivity|]. destruct (bkey y <? bkey x); reflexivity.
    + replace (Z.to_nat (Z.min n (k + (1 + zlen ra)) - k)) with 0%nat by lia. reflexivity.
Qed.

(* names: na nb without NUL, then a NUL, then anything *)
Definition nonul (l : list Z) : Prop := Forall (fun u => uok u /\ u <> 0) l.
Lemma ulex3_names na : forall nb pa pb m, nonul na -> nonul nb -> na <> nb -> (Nat.min (length na) (length nb) < m)%nat ->
  ulex3 (firstn m (na ++ 0 :: pa)) (firstn m (nb ++ 0 :: pb)) = if lex_lt (map bkey na) (map bkey nb) then Lt else Gt.
Proof.
  induction na as [|x na IH]; intros [|y nb] pa pb [|m] Ha Hb Hne Hm; cbn [length Nat.min] in Hm; try lia; try congruence;
    cbn [app firstn ulex3 map lex_lt].
  - inversion Hb as [|? ? [Hy Hy0] _]; subst. pose proof (bkey_pos y Hy Hy0). change (bkey 0) with 0.
    replace (0 <? bkey y) with true by lia. reflexivity.
  - inversion Ha as [|? ? [Hx Hx0] _]; subst. pose proof (bkey_pos x Hx Hx0). change (bkey 0) with 0.
    replace (bkey x <? 0) with false by lia. replace (0 <? bkey x) with true by lia. reflexivity.
  - inversion Ha as [|? ? [Hx Hx0] Ha']; inversion Hb as [|? ? [Hy Hy0] Hb']; subst.
    destruct (bkey x <? bkey y) eqn:E1; [reflexivity|]. destruct (bkey y <? bkey x) eqn:E2; [reflexivity|].
    assert (x = y) by (apply bkey_inj; auto; lia). subst y.
    apply IH; auto; [congruence | lia].
Qed.
