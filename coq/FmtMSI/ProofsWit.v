(* FmtMSI/ProofsWit.v — part 6: the trees that the *_refuted statements, the regression statement and the non-vacuity examples of
   Properties.v are about, and the digest preimage of a well-formed file against the specification. *)
From Relic Require Import Base.Prelude Base.Enc Generated.FmtMSI_gen FmtMSI.Model FmtMSI.Proofs FmtMSI.ProofsSer FmtMSI.ProofsTree FmtMSI.ProofsLaws.
From Coq Require Import Permutation Sorted.

Definition asc (l : list Z) : list Z := l.
Definition w_root (kids : list node) : node := Node (ex_ent [82] 4 5 (zeros 16) 0 0 0 0) [] kids.
Definition w_stream (name : list Z) (content : bytes) : node :=
  Node (ex_ent name (2 * (zlen name + 1)) 2 (zeros 16) 0 0 0 (zlen content)) content [].
Definition w_storage (name : list Z) (uid : bytes) (kids : list node) : node :=
  Node (ex_ent name (2 * (zlen name + 1)) 1 uid 0 0 0 0) [] kids.
(* __exmeta, MSI-encoded: four code units that msiDecodeName turns into "__exmeta" *)
Definition w_exmeta_tree : node := w_root [w_stream [65] [1; 2; 3]; w_stream [18431; 18152; 16944; 16695] [9; 9]].
(* 5 followed by the eight code units that decode to "DigitalSignature" *)
Definition w_decoded_sig_tree : node := w_root [w_stream [65] [1; 2; 3]; w_stream [5; 17165; 17194; 16695; 16175; 17068; 16689; 17975; 16949] [9; 9]].
(* format-inherent: the content part carries no lengths and no names *)
Definition w_b1 : node := w_root [w_stream [97] [120; 121]; w_stream [98] [122]].
Definition w_b2 : node := w_root [w_stream [97] [120]; w_stream [98] [121; 122]].
Definition w_n1 : node := w_root [w_stream [97] [120]].
Definition w_n2 : node := w_root [w_stream [98] [120]].
(* format-inherent: the metadata part carries no name lengths and no types: a 16-byte stream "abcdefg" and an empty storage "a"
   whose CLSID is that stream's content have the same imprint in BOTH digest modes *)
Definition w_amb_u : bytes := [98; 0; 99; 0; 100; 0; 101; 0; 102; 0; 103; 0; 16; 0; 0; 0].
Definition w_a1 : node := w_root [Node (ex_ent [97; 98; 99; 100; 101; 102; 103] 16 2 (zeros 16) 7 5 6 16) w_amb_u []].
Definition w_a2 : node := w_root [Node (ex_ent [97] 4 1 w_amb_u 7 5 6 0) [] []].
(* regression (relic 8d92d9a, 66af42b): a STORAGE of the root named \005DigitalSignature: the file is unsigned for relic and for the
   specification; signing is refused by the check in front, in both modes, with nothing written *)
Definition w_sigstorage : node := w_root [w_stream [65] [1; 2; 3]; w_storage msi_sig_name (repeat 7 16) [w_stream [120] [4]]].
(* the hypotheses of the positive theorems are satisfiable: a small tree with a nested storage, signed in both modes *)
Definition w_ok : node := w_root [w_stream [18496; 16000] [1; 2; 3]; w_storage [83] (repeat 7 16) [w_stream [120] [4]]; w_stream [97; 98] []].

Theorem digest_order_spec t : wf_tree t = true -> hash_node t = s_hash true (to_spec t).
Proof. intros W. destruct (wf_tree_inv t W) as [F [T O]]. destruct (digest_is_spec t F O) as [H _]. rewrite T in H. exact H. Qed.
Theorem ex_prehash_spec t : wf_tree t = true -> exists x, pre_node t = Ok x /\ s_pre true (to_spec t) = Some x.
Proof.
  intros W. destruct (wf_tree_inv t W) as [F [T O]]. destruct (wf_tree_pre t W) as [x Hx]. exists x. split; [exact Hx|].
  destruct (digest_is_spec t F O) as [_ H]. rewrite T, Hx in H. now symmetry.
Qed.
Theorem hashin_eq_spec Hf ext t : wf_tree t = true -> exists x, s_pre true (to_spec t) = Some x /\
  digest_pre Hf ext t = Ok (if ext then Hf x ++ s_hash true (to_spec t) else s_hash true (to_spec t)).
Proof.
  intros W. destruct (ex_prehash_spec t W) as [x [Hx Hs]]. exists x. split; [exact Hs|]. now rewrite (digest_pre_eq Hf ext t x Hx), (digest_order_spec t W).
Qed.
