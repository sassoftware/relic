(* FmtMSI/Properties.v — the MSI Authenticode digest layer (lib/authenticode msiverify.go msitar.go msisign.go msinames.go,
   signers/msi).  Each statement is proved here from the lemmas of FmtMSI/Proofs*.v.  Grouped by the property served
   (C05 C11 C01 C08 C03 C02); checks/fmtmsi.py ASPECT_THEOREMS lists the same names.
   A compound file is a tree `node` of directory entries (the 128-byte RawDirEnt field by field, stream bytes, children in the
   order ListDir returns them); sectors and the directory's red-black trees are unit C18.
   wf_tree (Model.v): root of type 5; every other entry a stream or a storage with a name of 1..31 non-NUL code units, NUL
   terminated, NameLength = 2(k+1); sibling names pairwise distinct; fields in range; stream content as long as StreamSize.
   Where the faithful model violates a statement at full strength the theorem `*_refuted` exhibits a witness (replayed on the
   real code by checks/fmtmsi.py) and the theorem itself is stated on the domain where it holds. *)
From Relic Require Import Base.Prelude Base.Enc Generated.FmtMSI_gen FmtMSI.Model Laws.Pipeline.
From Relic Require FmtMSI.Proofs FmtMSI.ProofsSer FmtMSI.ProofsTree FmtMSI.ProofsLaws FmtMSI.ProofsTar FmtMSI.ProofsWit.
From Coq Require Import Permutation.
Import FmtMSI.Proofs FmtMSI.ProofsSer FmtMSI.ProofsTree FmtMSI.ProofsLaws FmtMSI.ProofsTar FmtMSI.ProofsWit.

(* ====================================================================================================== C05 *)
(* the entry layout relic declares (generated offsets / widths) is the one of [MS-CFB] 2.6.1; the buffer prehashMsiDirent slices is
   exactly one entry long *)
Theorem msi_layout_is_mscfb :
  [msi_de_off_NameRunes; msi_de_off_NameLength; msi_de_off_Type; msi_de_off_Color; msi_de_off_LeftChild; msi_de_off_RightChild; msi_de_off_StorageRoot;
   msi_de_off_UID; msi_de_off_UserFlags; msi_de_off_CreateTime; msi_de_off_ModifyTime; msi_de_off_NextSector; msi_de_off_StreamSize; msi_de_size]
  = [0; 64; 66; 67; 68; 72; 76; 80; 96; 100; 108; 116; 120; 128] /\
  msi_de_widths = [64; 2; 1; 1; 4; 4; 4; 16; 4; 8; 8; 4; 4; 4] /\ msi_pre_enc_cap = msi_de_size.
Proof. repeat split. Qed.

(* the comparison closure of sortMsiFiles = the documented comparison (memcmp of the raw UTF-16LE names over the shorter
   NameLength, terminator included; longer name first on a tie), for two well-formed entries with different names.
   Full statement (all entries): fails, see msi_less_embedded_nul_refuted *)
Theorem msi_less_eq_spec : forall a b, fields_ok a = true -> fields_ok b = true -> name_ok a = true -> name_ok b = true ->
  wname a <> wname b -> relic_less a b = Ok (s_less (ser_dirent a) (ser_dirent b)).
Proof. exact FmtMSI.ProofsSer.less_eq_spec. Qed.
(* witness: "a" against "a\0b" (a NUL inside a name): relic looks at NameLength code units, i.e. past the shorter name *)
Theorem msi_less_embedded_nul_refuted :
  let a := ex_ent [97] 4 2 (zeros 16) 0 0 0 0 in let b := ex_ent [97; 0; 98] 8 2 (zeros 16) 0 0 0 0 in
  fields_ok a = true /\ fields_ok b = true /\ relic_less a b = Ok true /\ s_less (ser_dirent a) (ser_dirent b) = false.
Proof. vm_compute. repeat split. Qed.
(* the children of a well-formed storage come out of sortMsiFiles in the specification's order, whatever they carry *)
Theorem msi_sort_is_spec_sort : forall (B : Type) (C : node -> B) kids, kids_ok kids ->
  map tos (sort_items msi_hash_sorts (map (fun k => (node_ent k, C k)) kids)) = s_sort (map tos (map (fun k => (node_ent k, C k)) kids)).
Proof. intros B C kids O. unfold sort_items. change msi_hash_sorts with true. cbv iota. exact (kids_tos_isort C kids O). Qed.
(* sorting under the canonical order does not depend on the order of the input (any sorting algorithm gives this list) *)
Theorem msi_sort_unique : forall (A : Type) (key : A -> list Z) (l1 l2 : list A), Permutation l1 l2 -> NoDup (map key l1) ->
  isort (klt key) l1 = isort (klt key) l2.
Proof. exact (@FmtMSI.Proofs.sort_unique). Qed.

(* msi_digest_order_spec: the byte string hashMsiDir feeds to the digest is the specification's: children in the documented
   order, stream contents, storages recursively, then the CLSID; the signature streams (streams of the root named as the two
   documented names, compared as [MS-CFB] compares names) left out *)
Theorem msi_digest_order_spec : forall t, wf_tree t = true -> hash_node t = s_hash true (to_spec t).
Proof. exact FmtMSI.ProofsWit.digest_order_spec. Qed.
(* msi_ex_prehash_spec: prehashMsiDir writes the specification's metadata string (and never fails on a well-formed tree) *)
Theorem msi_ex_prehash_spec : forall t, wf_tree t = true -> exists x, pre_node t = Ok x /\ s_pre true (to_spec t) = Some x.
Proof. exact FmtMSI.ProofsWit.ex_prehash_spec. Qed.
(* ... which per entry is exactly: name without terminator (not root), CLSID (root, storage), StreamSize (stream), UserFlags,
   CreateTime and ModifyTime (not root), in this order, each little endian *)
Theorem msi_ex_prehash_fields : forall e, shape_ok e -> msi_pre_badlen (de_type e) (de_nlen e) = false ->
  pre_dirent e = Ok ((if negb (de_type e =? 5) then ztake (de_nlen e - 2) (units_le (de_runes e)) else []) ++
                     (if (de_type e =? 5) || (de_type e =? 1) then de_uid e else []) ++
                     (if de_type e =? 2 then le_enc 4 (de_size e) else []) ++
                     le_enc 4 (de_flags e) ++
                     (if negb (de_type e =? 5) then le_enc 8 (de_ctime e) ++ le_enc 8 (de_mtime e) else [])).
Proof. exact FmtMSI.ProofsSer.pre_dirent_fields. Qed.
(* the imprint preimage of DigestMSI in both modes *)
Theorem msi_hashin_eq_spec : forall Hf ext t, wf_tree t = true -> exists x, s_pre true (to_spec t) = Some x /\
  digest_pre Hf ext t = Ok (if ext then Hf x ++ s_hash true (to_spec t) else s_hash true (to_spec t)).
Proof. exact FmtMSI.ProofsWit.hashin_eq_spec. Qed.
(* msi_digest_tree_shape_independent: the same entries listed in any order, with any sibling links, colours and start sectors,
   give the same digest input in both parts *)
Theorem msi_digest_tree_shape_independent : forall t t', wf_tree t = true -> shape_eq t t' ->
  hash_node t = hash_node t' /\ pre_node t = pre_node t' /\ forall Hf ext, digest_pre Hf ext t = digest_pre Hf ext t'.
Proof.
  intros t t' W S. destruct (wf_tree_inv t W) as [F [T O]].
  destruct (shape_independent t t' (fields_ok_shape _ F) O S) as [H1 H2].
  split; [exact H1|]. split; [exact H2|]. intros Hf ext. now apply digest_pre_ext.
Qed.

(* ====================================================================================================== C11 *)
(* the comparison closure never indexes past NameRunes, whatever the two entries hold (arrays of equal length, as in Go) *)
Theorem msi_less_no_panic : forall a b p, length (de_runes a) = length (de_runes b) -> relic_less a b <> Panic p.
Proof.
  intros a b p Hl. unfold relic_less. change (zlen (de_runes a)) with (0 + zlen (de_runes a)).
  destruct (less_loop_ok (de_runes a) (de_runes b) 0 (msi_sort_n (de_nlen a) (de_nlen b)) (msi_sort_tiebreak (de_nlen a) (de_nlen b)) Hl) as [r Hr].
  rewrite Hr. discriminate.
Qed.
(* prehashMsiDirent / prehashMsiDir never slice outside the 128-byte buffer, whatever NameLength and type say *)
Theorem msi_prehash_no_panic : (forall e p, shape_ok e -> pre_dirent e <> Panic p) /\ (forall t p, all_shape t = true -> pre_node t <> Panic p).
Proof.
  split; [exact pre_dirent_no_panic|].
  intros t. induction t as [e c kids IH] using node_ind'. intros p A. destruct (all_shape_inv _ _ _ A) as [S Ak]. rewrite pre_node_nf.
  pose proof (pre_dirent_no_panic e) as He. destruct (pre_dirent e) as [own| |q] eqn:Eo; cbn [bind]; try discriminate; [|exfalso; now apply (He q S)].
  assert (Hc : forall q, cat_items_r (hash_skip (de_type e)) (isort rlt (items contrib_p kids)) <> Panic q).
  { intros q. apply cat_items_r_no_panic. intros it q' Hin. apply in_isort, in_map_iff in Hin as [k [<- Hk]]. cbn [snd]. unfold contrib_p.
    destruct (msi_pre_is_stream _).
    - apply pre_dirent_no_panic. destruct k as [e' c' k']. apply (all_shape_inv _ _ _ (Ak _ Hk)).
    - destruct (msi_pre_is_storage _); [|discriminate]. apply (IH k Hk). apply Ak. exact Hk. }
  destruct (cat_items_r _ _) as [b| |q] eqn:Ec; cbn [bind]; try discriminate. exfalso. now apply (Hc q).
Qed.
Theorem msi_decode_total : forall l p, decode_tree l <> Panic p.
Proof. intros l p. unfold decode_tree. destruct (dec_forest _ _) as [[[|t [|? ?]] [|? ?]]|]; discriminate. Qed.

(* ====================================================================================================== C01 *)
(* the format handed to Laws/Pipeline.v: msi_format Hf ext = (msi_hashin Hf ext, msi_embed Hf ext, msi_extract, msi_payload) over
   the byte code of trees (encode_tree / decode_tree, FmtMSI.ProofsLaws.decode_encode); msi_embed signs exactly the trees of
   msi_dom with a non-empty blob below 4 GiB (and a non-empty prehash digest in extended mode) *)
Theorem msi_law_extract : forall Hf ext, law_extract pnode (msi_format Hf ext).
Proof.
  intros Hf ext f b g H. destruct (msi_embed_signed Hf ext f b g H) as [t [[D M] [[Dg Mg] [Nb _]]]].
  cbn [msi_format f_extract]. unfold msi_extract. rewrite (on_dom _ g _ Dg Mg). now apply signed_extract; [apply msi_dom_inv|].
Qed.
(* C01 + C08: the digest of the signed file is the digest of the input: existing signature streams are not digested, the new
   ones neither, and the order in which the children end up is irrelevant *)
Theorem msi_law_hashin : forall Hf ext, law_hashin pnode (msi_format Hf ext).
Proof.
  intros Hf ext f b g H. destruct (msi_embed_signed Hf ext f b g H) as [t [[D M] [[Dg Mg] [Nb [Sb [Ex Hs]]]]]]. destruct (msi_dom_inv t M) as [W _].
  destruct (signed_facts Hf ext t b W Sb Ex Hs) as [_ [Hh [Hp _]]].
  cbn [msi_format f_hashin]. unfold msi_hashin. rewrite (on_dom _ g _ Dg Mg), (on_dom _ f _ D M). now apply digest_pre_ext.
Qed.
(* VerifyMSI chooses the digest mode from the presence of MsiDigitalSignatureEx and compares that stream with the recomputed
   prehash: on relic's output this is the mode the signer used and the comparison succeeds *)
Theorem msi_verifier_mode : forall Hf ext f b g, msi_embed Hf ext f b = Ok g -> msi_verify_hashin Hf g = msi_hashin Hf ext g.
Proof.
  intros Hf ext f b g H. destruct (msi_embed_signed Hf ext f b g H) as [t [[D M] [[Dg Mg] [Nb [Sb [Ex Hs]]]]]]. destruct (msi_dom_inv t M) as [W _].
  unfold msi_verify_hashin, msi_hashin. rewrite !(on_dom _ g _ Dg Mg). now apply signed_verify_mode.
Qed.
(* on the domain signing succeeds unless a STORAGE of the root carries one of the two signature names; that is the only refusal *)
Theorem msi_embed_defined : forall Hf ext t b, msi_dom t = true -> zlen b <> 0 -> small b = true -> exsig_ok Hf ext t = true -> sig_slots_free t = true ->
  msi_embed Hf ext (encode_tree t) b = Ok (encode_tree (signed_tree Hf ext t b)).
Proof.
  intros Hf ext t b M Nb Sb Ex Fr. destruct (msi_dom_inv t M) as [W A]. rewrite slots_free_blocked in Fr. apply negb_true_iff in Fr.
  unfold msi_embed. rewrite (decode_encode t A). cbn [bind]. rewrite M, Sb, Ex. replace (zlen b =? 0) with false by lia. cbn [negb andb].
  now rewrite (proj1 (embed_eq Hf ext t b W)), Fr.
Qed.
(* a refusal (relic 66af42b): error, raised by the check in front of the first AddFile / DeleteFile, and at that point
   InsertMSISignature has written nothing: embed_writes counts the streams written into the file (comdoc writes sectors only in
   AddFile and in Close), so the refused input is byte-identical *)
Theorem msi_refuses_clean : forall Hf ext t b e, msi_dom t = true -> embed_t Hf ext t b = Err e ->
  e = E_STORAGE /\ sig_slots_free t = false /\ embed_writes Hf ext t b = 0.
Proof.
  intros Hf ext t b e M H. destruct (msi_dom_inv t M) as [W _]. destruct (embed_eq Hf ext t b W) as [E1 E2]. rewrite E1 in H. rewrite slots_free_blocked.
  destruct (blocked is_slot (node_kids t)); [|discriminate]. injection H as <-. auto.
Qed.
(* msi_tar_eq_direct: what the server digests (DigestMsiTar of MsiToTar of the file) is what DigestMSI digests, in both modes.
   tar_safe: no stream of the root has a msiDecodeName-decoded name equal to __exmeta or to a signature name unless the stream
   itself is a signature stream.  Full statement without tar_safe: fails, two witnesses below *)
Theorem msi_tar_eq_direct : forall Hf ext t ms, wf_tree t = true -> tar_safe t = true -> msi_to_tar t = Ok ms ->
  digest_pre Hf ext t = Ok (digest_tar_pre Hf ext ms).
Proof.
  intros Hf ext t ms W Ts Hms. unfold msi_to_tar in Hms. destruct (pre_node t) as [ex| |] eqn:Hex; cbn [bind] in Hms; try discriminate.
  change msi_tar_exmeta_first with true in Hms. cbv iota in Hms. destruct (existsb tar_member_bad _); [discriminate|]. injection Hms as <-.
  unfold digest_tar_pre. rewrite (digest_pre_eq Hf ext t ex Hex), tar_segs_cons, flatten_app, seg_exmeta, (root_tar_segs Hf ext t W Ts).
  now destruct ext.
Qed.
(* witness: root stream whose four code units U+47FF U+46E8 U+4230 U+4137 decode to "__exmeta": DigestMsiTar takes it for the
   metadata member and drops its content *)
Theorem msi_tar_exmeta_refuted : exists ms, wf_tree w_exmeta_tree = true /\ tar_safe w_exmeta_tree = false /\ msi_to_tar w_exmeta_tree = Ok ms /\
  forall Hf, digest_pre Hf false w_exmeta_tree <> Ok (digest_tar_pre Hf false ms).
Proof. eexists. split; [reflexivity|]. split; [reflexivity|]. split; [vm_compute; reflexivity|]. intros Hf. vm_compute. discriminate. Qed.
(* witness: root stream named U+0005 + eight code units that decode to "DigitalSignature": digested directly, left out by the tar route *)
Theorem msi_tar_decoded_sig_refuted : exists ms, wf_tree w_decoded_sig_tree = true /\ tar_safe w_decoded_sig_tree = false /\ msi_to_tar w_decoded_sig_tree = Ok ms /\
  forall Hf, digest_pre Hf false w_decoded_sig_tree <> Ok (digest_tar_pre Hf false ms).
Proof. eexists. split; [reflexivity|]. split; [reflexivity|]. split; [vm_compute; reflexivity|]. intros Hf. vm_compute. discriminate. Qed.

Section Crypto.
  Variables key pubk sigv : Type.
  Variable H : Z -> bytes -> bytes.
  Variable pub : key -> pubk.
  Variable sign : key -> bytes -> sigv.
  Variable vrfy : pubk -> bytes -> sigv -> bool.
  Hypothesis sign_correct : forall k m, vrfy (pub k) m (sign k m) = true.
  Variable tbs : Z -> bytes -> bytes.
  Variable ser : sigblob pubk sigv -> bytes.
  Variable deser : bytes -> option (sigblob pubk sigv).
  Hypothesis deser_ser : forall b, deser (ser b) = Some b.
  (* C01 (sign_then_verify instantiated): whatever relic signs is accepted under the signing key's certificate and the requested digest *)
  Theorem msi_sign_then_verify : forall Hf ext k a f g,
    sign_file key pubk sigv H pub sign tbs ser pnode (msi_format Hf ext) k a f = Ok g ->
    verify_file pubk sigv H vrfy tbs deser pnode (msi_format Hf ext) g = Accept pubk (pub k) a.
  Proof.
    intros Hf ext. apply (sign_then_verify key pubk sigv H pub sign vrfy sign_correct tbs ser deser deser_ser pnode (msi_format Hf ext)).
    - apply msi_law_extract.
    - apply msi_law_hashin.
  Qed.
  (* C08 (resign_history instantiated) *)
  Theorem msi_resign_history : forall Hf ext hist f g k a,
    resign key pubk sigv H pub sign tbs ser pnode (msi_format Hf ext) (hist ++ [(k, a)]) f = Ok g ->
    verify_file pubk sigv H vrfy tbs deser pnode (msi_format Hf ext) g = Accept pubk (pub k) a
    /\ is_signed pnode (msi_format Hf ext) g = true
    /\ msi_payload g = msi_payload f /\ msi_hashin Hf ext g = msi_hashin Hf ext f.
  Proof.
    intros Hf ext. apply (resign_history key pubk sigv H pub sign vrfy sign_correct tbs ser deser deser_ser pnode (msi_format Hf ext)).
    - apply msi_law_extract.
    - apply msi_law_hashin.
    - apply FmtMSI.ProofsLaws.msi_law_payload.
  Qed.
End Crypto.

(* ====================================================================================================== C08 *)
(* the signed file is in the domain again (signing can be repeated) *)
Theorem msi_wf_preserved : forall Hf ext f b g, msi_embed Hf ext f b = Ok g -> exists t, decode_tree g = Ok t /\ msi_dom t = true.
Proof. intros Hf ext f b g H. destruct (msi_embed_signed Hf ext f b g H) as [t [_ [Dg _]]]. eauto. Qed.
(* the is-signed probe (relic 8d92d9a): NotSignedError exactly as the specification says on every well-formed tree in which no
   STREAM of the root carries a signature name — a storage of that name does not count; the blob on relic's output *)
Theorem msi_is_signed_spec :
  (forall t, wf_tree t = true -> (forall k, In k (node_kids t) -> de_type (node_ent k) = 2 -> is_slot (node_ent k) = false) ->
     extract_t t = Ok None /\ s_signed (to_spec t) = false) /\
  (forall Hf ext t blob, wf_tree t = true -> zlen blob <> 0 ->
     extract_t (signed_tree Hf ext t blob) = Ok (Some blob) /\ s_signed (to_spec (signed_tree Hf ext t blob)) = true).
Proof.
  split.
  - intros t W Hn. destruct t as [e c kids]. destruct (wf_tree_inv _ W) as [_ [_ O]]. cbn [node_kids] in *. pose proof (kids_ok_wf kids) as Wk. split.
    + unfold extract_t, root_sig, root_exsig. cbn [node_kids]. rewrite <- (app_nil_r kids), !find_stream_skip; [reflexivity| |];
        intros k Hin; (destruct (Z.eq_dec (de_type (node_ent k)) 2) as [E|E]; [right | now left]);
        now destruct (not_slot_not_sig k (Wk k O Hin) (Hn k Hin E)).
    + unfold s_signed. cbn [to_spec s_kids]. apply not_true_iff_false. intros E. apply existsb_exists in E as [sk [Hin E]].
      apply in_map_iff in Hin as [k [<- Hin]]. apply andb_true_iff in E as [E _]. destruct (wf_kid_inv k (Wk k O Hin)) as [Fk [Nk _]].
      rewrite (s_signed_kid k (fields_ok_vals _ Fk) Nk) in E. apply andb_true_iff in E as [Et Ec].
      specialize (Hn k Hin ltac:(lia)). unfold is_slot in Hn. rewrite Ec in Hn. discriminate.
  - intros Hf ext t blob W Nb. split; [now apply signed_extract|]. destruct t as [e c kids]. unfold signed_tree, s_signed, news. cbn [to_spec s_kids].
    rewrite !map_app, !existsb_app. cbn [map existsb]. rewrite (s_signed_kid (new_stream msi_sig_name blob)) by (repeat split; (reflexivity || discriminate)).
    replace (zlen (s_data (to_spec (new_stream msi_sig_name blob))) =? 0) with false by (cbn [new_stream to_spec s_data]; lia).
    cbn. now rewrite !orb_true_r.
Qed.
(* the former witness, now a regression statement: a root STORAGE named \005DigitalSignature *)
Theorem msi_signature_named_storage :
  msi_dom w_sigstorage = true /\ extract_t w_sigstorage = Ok None /\ s_signed (to_spec w_sigstorage) = false /\
  (forall Hf ext blob, embed_t Hf ext w_sigstorage blob = Err E_STORAGE /\ embed_writes Hf ext w_sigstorage blob = 0).
Proof.
  split; [reflexivity|]. split; [reflexivity|]. split; [reflexivity|]. intros Hf ext blob.
  assert (R : refused_early (node_kids w_sigstorage) = true) by reflexivity.
  assert (P : exists ex, pre_node w_sigstorage = Ok ex) by (eexists; vm_compute; reflexivity). destruct P as [ex Hex].
  unfold embed_t, embed_writes, insert_sig, insert_writes. rewrite R, Hex. destruct ext; split; reflexivity.
Qed.

(* ====================================================================================================== C03 *)
(* Laws.law_payload: the specification reader's view (every entry except the two signature streams of the root: name, type, CLSID,
   state bits, times, size, stream bytes; children in the canonical order) is unchanged *)
Theorem msi_law_payload : forall Hf ext, law_payload pnode (msi_format Hf ext).
Proof. exact FmtMSI.ProofsLaws.msi_law_payload. Qed.
(* the signed tree is the input tree with the root's signature slots removed and the new signature stream(s) appended; the root
   entry and every other child are the same nodes in the same order *)
Theorem msi_only_signature_streams_differ : forall Hf ext f b g, msi_embed Hf ext f b = Ok g -> exists e c kids x,
  decode_tree f = Ok (Node e c kids) /\ decode_tree g = Ok (Node e c (filter notslot kids ++ news b x)).
Proof.
  intros Hf ext f b g H. destruct (msi_embed_signed Hf ext f b g H) as [[e c kids] [[D _] [[Dg _] _]]].
  exists e, c, kids, (exsig_of Hf ext (Node e c kids)). split; [exact D | exact Dg].
Qed.

(* ====================================================================================================== C02 *)
(* body_pieces: every stream content and storage CLSID entering the content part, in digest order; hash_node = their concatenation.
   msi_protect: with the same piece lengths (same stream sizes and nesting — what MsiDigitalSignatureEx is there to pin down), an
   equal content part means equal stream contents and CLSIDs, piece by piece.
   Full statement "equal imprint => equal contents and names": fails, three witnesses below; all three are properties of the FORMAT
   (concatenation without lengths, names and types not framed), not of relic *)
Theorem msi_protect : forall t1 t2, map (@length Z) (body_pieces t1) = map (@length Z) (body_pieces t2) ->
  hash_node t1 = hash_node t2 -> body_pieces t1 = body_pieces t2.
Proof. intros t1 t2 Hl H. rewrite !hash_is_concat_pieces in H. apply concat_inj_lengths; assumption. Qed.
Theorem msi_hash_is_concat_pieces : forall t, hash_node t = concat (body_pieces t).
Proof. exact FmtMSI.ProofsLaws.hash_is_concat_pieces. Qed.
(* msi_protect_ex: the metadata of ONE entry is injective once type and name length are fixed: equal bytes => equal name,
   CLSID (root/storage), size (stream), state bits, times *)
Theorem msi_protect_ex : forall e1 e2, fields_ok e1 = true -> fields_ok e2 = true -> name_ok e1 = true -> name_ok e2 = true ->
  de_type e1 = de_type e2 -> de_nlen e1 = de_nlen e2 -> pre_fields e1 = pre_fields e2 ->
  (de_type e1 <> 5 -> wname e1 = wname e2 /\ de_ctime e1 = de_ctime e2 /\ de_mtime e1 = de_mtime e2) /\
  (de_type e1 = 5 \/ de_type e1 = 1 -> de_uid e1 = de_uid e2) /\ (de_type e1 = 2 -> de_size e1 = de_size e2) /\ de_flags e1 = de_flags e2.
Proof.
  intros e1 e2 F1 F2 N1 N2 Et En H.
  rewrite !pre_fields_pieces in H. apply concat_inj_lengths in H; [|apply pre_pieces_lengths; auto; now apply fields_ok_shape].
  (* piece by piece; injection on H would take the le_enc pieces apart as well *)
  assert (P : forall i, nth i (pre_pieces e1) [] = nth i (pre_pieces e2) []) by (intros i; now rewrite H).
  pose proof (P 0%nat) as Hn. pose proof (P 1%nat) as Hu. pose proof (P 2%nat) as Hs. pose proof (P 3%nat) as Hf. pose proof (P 4%nat) as Hc. pose proof (P 5%nat) as Hm.
  clear H P. unfold pre_pieces in *. cbn [nth] in *. rewrite <- Et in *. rewrite !name_bytes_wname in Hn by assumption.
  destruct (fields_ok_ranges e1 F1) as [A1 [B1 [C1 D1]]], (fields_ok_ranges e2 F2) as [A2 [B2 [C2 D2]]].
  split; [|split; [|split]].
  - intros T. replace (de_type e1 =? 5) with false in * by lia. cbn [negb] in *.
    split; [apply units_le_inj; auto using wname_uok | split; [exact (in_range_enc_inj 8 _ _ B1 B2 Hc) | exact (in_range_enc_inj 8 _ _ C1 C2 Hm)]].
  - intros T. now replace ((de_type e1 =? 5) || (de_type e1 =? 1)) with true in Hu by lia.
  - intros T. rewrite T in Hs. exact (in_range_enc_inj 4 _ _ D1 D2 Hs).
  - exact (in_range_enc_inj 4 _ _ A1 A2 Hf).
Qed.
(* witness (plain mode): streams a="xy" b="z" against a="x" b="yz": same content part, same verifier input; the extended
   metadata differs (sizes), which is what the extended mode adds *)
Theorem msi_protect_boundary_refuted :
  wf_tree w_b1 = true /\ wf_tree w_b2 = true /\ hash_node w_b1 = hash_node w_b2 /\ body_pieces w_b1 <> body_pieces w_b2 /\
  extract_t w_b1 = extract_t w_b2 /\ (forall Hf, digest_pre Hf false w_b1 = digest_pre Hf false w_b2) /\ pre_node w_b1 <> pre_node w_b2.
Proof. repeat split; try reflexivity; vm_compute; discriminate. Qed.
(* witness (plain mode): a stream renamed from "a" to "b": names are not digested at all without the extended metadata *)
Theorem msi_protect_names_refuted :
  wf_tree w_n1 = true /\ wf_tree w_n2 = true /\ (forall Hf, digest_pre Hf false w_n1 = digest_pre Hf false w_n2) /\
  kid_names (node_kids w_n1) <> kid_names (node_kids w_n2) /\ pre_node w_n1 <> pre_node w_n2.
Proof. repeat split; try reflexivity; vm_compute; discriminate. Qed.
(* witness (BOTH modes): the 16-byte stream "abcdefg" with content 62 00 63 00 64 00 65 00 66 00 67 00 10 00 00 00 against the
   empty storage "a" whose CLSID is that content: identical metadata string, identical content part, hence identical imprint *)
Theorem msi_protect_ex_ambiguity_refuted :
  wf_tree w_a1 = true /\ wf_tree w_a2 = true /\ pre_node w_a1 = pre_node w_a2 /\ hash_node w_a1 = hash_node w_a2 /\
  (forall Hf ext, digest_pre Hf ext w_a1 = digest_pre Hf ext w_a2) /\ s_payload true (to_spec w_a1) <> s_payload true (to_spec w_a2).
Proof.
  assert (P : pre_node w_a1 = pre_node w_a2) by (vm_compute; reflexivity).
  assert (H : hash_node w_a1 = hash_node w_a2) by (vm_compute; reflexivity).
  split; [reflexivity|]. split; [reflexivity|]. split; [exact P|]. split; [exact H|]. split.
  - intros Hf ext. now apply digest_pre_ext.
  - vm_compute. discriminate.
Qed.

(* ====================================================================================================== non-vacuity *)
Example msi_domain_inhabited : msi_dom w_ok = true /\ tar_safe w_ok = true /\ sig_slots_free w_ok = true /\
  embed_t (fun x => [1; 2]) true w_ok [48; 49] = Ok (signed_tree (fun x => [1; 2]) true w_ok [48; 49]) /\
  exists ms, msi_to_tar w_ok = Ok ms.
Proof. repeat split; try reflexivity. eexists. vm_compute. reflexivity. Qed.
Example msi_code_roundtrip : decode_tree (encode_tree w_ok) = Ok w_ok.
Proof. apply FmtMSI.ProofsLaws.decode_encode. reflexivity. Qed.
Example msi_order_example :   (* "a" < "ab" (terminator against 'b'), U+0100 < U+00FF (bytes 00 01 against FF 00) *)
  relic_lt (ex_ent [97] 4 2 (zeros 16) 0 0 0 0) (ex_ent [97; 98] 6 2 (zeros 16) 0 0 0 0) = true /\
  relic_lt (ex_ent [256] 4 2 (zeros 16) 0 0 0 0) (ex_ent [255] 4 2 (zeros 16) 0 0 0 0) = true.
Proof. split; reflexivity. Qed.
