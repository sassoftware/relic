(* FmtMSI/ProofsTree.v — part 3: trees.  The children of a well-formed storage as a list that sortMsiFiles orders in one way
   only; hashMsiDir and prehashMsiDir as one loop over that list (hash_node_nf, pre_node_nf); prehashMsiDir succeeds on a
   well-formed tree; both digests are independent of the directory's shape and equal the specification's. *)
From Relic Require Import Base.Prelude Base.Enc Base.Slice Generated.FmtMSI_gen FmtMSI.Model FmtMSI.Proofs FmtMSI.ProofsSer.
From Coq Require Import Permutation Sorted.

Lemma node_ind' (P : node -> Prop) : (forall e c kids, (forall k, In k kids -> P k) -> P (Node e c kids)) -> forall t, P t.
Proof.
  intros H. fix IH 1. intros [e c kids]. apply H.
  induction kids as [|k kids IHk]; intros k' Hin; [destruct Hin|]. destruct Hin as [<-|Hin]; [apply IH | exact (IHk k' Hin)].
Qed.

(* order and exclusion look at name, name length and type only; dK keeps those *)
Definition dK (e : dirent) : dirent := mkDe (de_runes e) (de_nlen e) (de_type e) 0 0 0 0 [] 0 0 0 0 0 0.
Definition canon {B} (it : dirent * B) : dirent * B := (dK (fst it), snd it).
Definition rlt {B} (a b : dirent * B) : bool := relic_lt (fst a) (fst b).
Definition ikey {B} (it : dirent * B) : list Z := dkey (fst it).
Lemma relic_lt_dK a b : relic_lt a b = relic_lt (dK a) (dK b). Proof. reflexivity. Qed.
Lemma dkey_dK e : dkey (dK e) = dkey e. Proof. reflexivity. Qed.
Lemma wname_dK e : wname (dK e) = wname e. Proof. reflexivity. Qed.
Lemma go_name_dK e : go_name (dK e) = go_name e. Proof. reflexivity. Qed.
Lemma hash_skip_dK pty e : hash_skip pty (dK e) = hash_skip pty e. Proof. reflexivity. Qed.
Lemma map_canon_isort {B} (l : list (dirent * B)) : map canon (isort rlt l) = isort rlt (map canon l).
Proof. now apply isort_map. Qed.

Lemma cat_items_canon skip (l : list (dirent * bytes)) : (forall e, skip (dK e) = skip e) -> cat_items skip (map canon l) = cat_items skip l.
Proof. intros H. induction l as [|[e c] l IH]; [reflexivity|]. cbn [map canon fst snd cat_items]. rewrite H, IH. reflexivity. Qed.
Lemma cat_items_r_canon skip (l : list (dirent * result bytes)) : (forall e, skip (dK e) = skip e) -> cat_items_r skip (map canon l) = cat_items_r skip l.
Proof. intros H. induction l as [|[e c] l IH]; [reflexivity|]. cbn [map canon fst snd cat_items_r]. rewrite H, IH. reflexivity. Qed.
Lemma cat_pieces_canon skip (l : list (dirent * list bytes)) : (forall e, skip (dK e) = skip e) -> cat_pieces skip (map canon l) = cat_pieces skip l.
Proof. intros H. induction l as [|[e c] l IH]; [reflexivity|]. cbn [map canon fst snd cat_pieces]. rewrite H, IH. reflexivity. Qed.
Lemma map_snd_canon {B} (l : list (dirent * B)) : map snd (map canon l) = map snd l.
Proof. rewrite map_map. apply map_ext. intros [e c]. reflexivity. Qed.

Lemma distinct_names_NoDup l : distinct_names l = true -> NoDup l.
Proof.
  induction l as [|n r IH]; cbn [distinct_names]; intros H; [constructor|].
  apply andb_true_iff in H as [H1 H2]. constructor; [|auto].
  intros Hin. apply negb_true_iff in H1. assert (existsb (units_eqb n) r = true); [|congruence].
  apply existsb_exists. exists n. split; [exact Hin|]. apply list_eqb_Z_eq. reflexivity.
Qed.
Lemma NoDup_distinct l : NoDup l -> distinct_names l = true.
Proof.
  induction 1 as [|n r Hn Hd IH]; [reflexivity|]. cbn [distinct_names]. rewrite IH, andb_true_r. apply negb_true_iff. apply not_true_iff_false.
  intros E. apply existsb_exists in E as [m [Hm Em]]. apply list_eqb_Z_eq in Em. subst m. contradiction.
Qed.

Definition items_ok {B} (l : list (dirent * B)) : Prop :=
  (forall it, In it l -> name_ok (fst it) = true) /\ NoDup (map ikey l).
Lemma items_ok_perm {B} (l l' : list (dirent * B)) : Permutation l l' -> items_ok l -> items_ok l'.
Proof.
  intros Hp [H1 H2]. split.
  - intros it Hin. apply H1. eapply Permutation_in; [symmetry; exact Hp | exact Hin].
  - eapply Permutation_NoDup; [|exact H2]. now apply Permutation_map.
Qed.
Lemma ikey_wname {B} (x y : dirent * B) : ikey x <> ikey y -> wname (fst x) <> wname (fst y).
Proof. intros Hne E. apply Hne. unfold ikey, dkey. now rewrite E. Qed.
Lemma isort_rlt_klt {B} (l : list (dirent * B)) : items_ok l -> isort rlt l = isort (klt ikey) l.
Proof.
  intros [H1 H2]. apply (isort_ext ikey); [exact H2|].
  intros x y Hx Hy Hne. apply relic_lt_key; auto using ikey_wname.
Qed.
Lemma isort_rlt_perm {B} (l l' : list (dirent * B)) : Permutation l l' -> items_ok l -> isort rlt l = isort rlt l'.
Proof.
  intros Hp Hok. rewrite (isort_rlt_klt l Hok), (isort_rlt_klt l' (items_ok_perm _ _ Hp Hok)).
  apply sort_unique; [exact Hp | apply Hok].
Qed.
Lemma items_ok_canon {B} (l : list (dirent * B)) : items_ok l -> items_ok (map canon l).
Proof.
  intros [H1 H2]. split.
  - intros it Hin. apply in_map_iff in Hin as [x [<- Hx]]. exact (H1 x Hx).
  - rewrite map_map. erewrite map_ext; [exact H2|]. intros [e c]. reflexivity.
Qed.

Definition kids_ok (kids : list node) : Prop := distinct_names (kid_names kids) = true /\ forallb wf_kid kids = true.
Lemma wf_kid_inv k : wf_kid k = true ->
  fields_ok (node_ent k) = true /\ name_ok (node_ent k) = true /\ (de_type (node_ent k) = 2 \/ de_type (node_ent k) = 1) /\
  (de_type (node_ent k) = 2 -> zlen (node_content k) = de_size (node_ent k)) /\ (de_type (node_ent k) = 1 -> kids_ok (node_kids k)).
Proof.
  destruct k as [e c kids]. cbn [wf_kid node_ent node_content node_kids]. change msi_DirStream with 2. change msi_DirStorage with 1.
  intros H. apply andb_true_iff in H as [H H0]. apply andb_true_iff in H as [H H1]. apply andb_true_iff in H as [H H2].
  apply andb_true_iff in H as [Hf Hn].
  split; [assumption|]. split; [assumption|]. split; [lia|]. split.
  - intros E. rewrite E in H1. cbn in H1. lia.
  - intros E. rewrite E in H0. cbn in H0. apply andb_true_iff in H0 as [X1 X2]. split; assumption.
Qed.
Lemma kids_ok_wf kids k : kids_ok kids -> In k kids -> wf_kid k = true.
Proof. intros [_ Hw]. revert k. now apply forallb_forall. Qed.
Lemma wf_tree_inv t : wf_tree t = true -> fields_ok (node_ent t) = true /\ de_type (node_ent t) = 5 /\ kids_ok (node_kids t).
Proof.
  destruct t as [e c kids]. cbn [wf_tree node_ent node_kids]. change msi_DirRoot with 5. intros H.
  apply andb_true_iff in H as [H H0]. apply andb_true_iff in H as [H H1]. apply andb_true_iff in H as [H H2].
  split; [exact H|]. split; [lia|]. split; assumption.
Qed.
Lemma wf_tree_intro e c kids : fields_ok e = true -> de_type e = 5 -> kids_ok kids -> wf_tree (Node e c kids) = true.
Proof. intros F T [O1 O2]. cbn [wf_tree]. change msi_DirRoot with 5. rewrite F, O1, O2, T. reflexivity. Qed.

Definition items {B} (C : node -> B) (kids : list node) : list (dirent * B) := map (fun k => (node_ent k, C k)) kids.
Lemma kids_items_ok {B} (C : node -> B) kids : kids_ok kids -> items_ok (items C kids).
Proof.
  intros Hok. unfold items. assert (Hw : forall k, In k kids -> wf_kid k = true) by (intros k; now apply kids_ok_wf). destruct Hok as [Hd _]. split.
  - intros it Hin. apply in_map_iff in Hin as [k [<- Hk]]. apply (wf_kid_inv k); auto.
  - rewrite map_map. unfold ikey. cbn [fst].
    apply distinct_names_NoDup in Hd. unfold kid_names in Hd.
    apply (NoDup_map_finer (fun k => name_units (node_ent k)) (fun k => dkey (node_ent k)) kids Hd).
    intros x y Hx Hy E.
    destruct (wf_kid_inv x) as [_ [Nx [Tx _]]]; auto. destruct (wf_kid_inv y) as [_ [Ny [Ty _]]]; auto.
    rewrite !name_units_wname by (auto; lia). unfold dkey in E. apply map_bkey_inj in E; auto using wname_uok.
Qed.
Lemma kids_items_fok {B} (C : node -> B) kids : kids_ok kids -> forall it, In it (items C kids) -> fields_ok (fst it) = true.
Proof. intros Hok it Hin. apply in_map_iff in Hin as [k [<- Hk]]. apply (wf_kid_inv k). eapply kids_ok_wf; eassumption. Qed.
Lemma sorted_items_map {B B'} (g : B -> B') (C : node -> B) kids :
  isort rlt (items (fun k => g (C k)) kids) = map (fun it => (fst it, g (snd it))) (isort rlt (items C kids)).
Proof. rewrite (isort_map (fun it : dirent * B => (fst it, g (snd it))) rlt rlt) by reflexivity. f_equal. unfold items. now rewrite map_map. Qed.

(* what a child contributes to hashMsiDir and to prehashMsiDir of its parent *)
Definition contrib_h (k : node) : bytes :=
  if msi_hash_is_stream (de_type (node_ent k)) then node_content k else if msi_hash_is_storage (de_type (node_ent k)) then hash_node k else [].
Definition contrib_p (k : node) : result bytes :=
  if msi_pre_is_stream (de_type (node_ent k)) then pre_dirent (node_ent k) else if msi_pre_is_storage (de_type (node_ent k)) then pre_node k else Ok [].
Lemma hash_node_nf e c kids : hash_node (Node e c kids) = cat_items (hash_skip (de_type e)) (isort rlt (items contrib_h kids)) ++ de_uid e.
Proof. reflexivity. Qed.
(* prehashMsiDir passes over the same children *)
Lemma pre_node_nf e c kids : pre_node (Node e c kids) =
  (own <- pre_dirent e ;; body <- cat_items_r (hash_skip (de_type e)) (isort rlt (items contrib_p kids)) ;; Ok (own ++ body)).
Proof. reflexivity. Qed.
Lemma hash_skip_eq pty e : hash_skip pty e = (pty =? 5) && (de_type e =? 2) && go_is_sig (go_name e). Proof. reflexivity. Qed.
Lemma contrib_stream k : de_type (node_ent k) = 2 -> contrib_h k = node_content k /\ contrib_p k = pre_dirent (node_ent k).
Proof. intros E. unfold contrib_h, contrib_p. now rewrite E. Qed.
Lemma contrib_storage k : de_type (node_ent k) = 1 -> contrib_h k = hash_node k /\ contrib_p k = pre_node k.
Proof. intros E. unfold contrib_h, contrib_p. now rewrite E. Qed.
(* DigestMSI in closed form; it looks at the tree through hash_node and pre_node only *)
Lemma digest_pre_eq Hf ext t x : pre_node t = Ok x -> digest_pre Hf ext t = Ok (if ext then Hf x ++ hash_node t else hash_node t).
Proof.
  intros Hx. unfold digest_pre, digest_segs, msi_digest_with_prehash. rewrite Hx. change msi_digest_prehash_first with true.
  destruct ext; cbn [bind]; unfold flatten_segs; cbn [map concat fst snd]; now rewrite ?app_nil_r.
Qed.
Lemma digest_pre_ext Hf ext t t' : hash_node t = hash_node t' -> pre_node t = pre_node t' -> digest_pre Hf ext t = digest_pre Hf ext t'.
Proof. intros H1 H2. unfold digest_pre, digest_segs. now rewrite H1, H2. Qed.

Lemma cat_items_r_ok skip (l : list (dirent * result bytes)) : (forall it, In it l -> exists b, snd it = Ok b) -> exists b, cat_items_r skip l = Ok b.
Proof.
  induction l as [|[e c] l IH]; intros H; [now exists []|]. cbn [cat_items_r].
  destruct (IH (fun it Hin => H it (or_intror Hin))) as [y Hy]. destruct (skip e); [eauto|].
  destruct (H (e, c) (or_introl eq_refl)) as [x Hx]. cbn [snd] in Hx. rewrite Hx, Hy. cbn [bind]. eauto.
Qed.
Lemma pre_node_ok : forall t, fields_ok (node_ent t) = true -> (de_type (node_ent t) = 5 \/ name_ok (node_ent t) = true) -> kids_ok (node_kids t) ->
  exists x, pre_node t = Ok x.
Proof.
  intros t. induction t as [e c kids IH] using node_ind'. intros F T O. cbn [node_ent node_kids] in *.
  pose proof (fields_ok_shape e F) as S.
  assert (B : msi_pre_badlen (de_type e) (de_nlen e) = false) by (destruct T as [T|T]; [unfold msi_pre_badlen; now rewrite T | now apply name_ok_goodlen]).
  destruct (cat_items_r_ok (hash_skip (de_type e)) (isort rlt (items contrib_p kids))) as [b Hb].
  - intros it Hin. apply in_isort, in_map_iff in Hin as [k [<- Hk]]. cbn [snd].
    destruct (wf_kid_inv k (kids_ok_wf kids k O Hk)) as [Fk [Nk [Tk [_ Kk]]]]. destruct Tk as [Tk|Tk].
    + rewrite (proj2 (contrib_stream k Tk)), (pre_dirent_fields _ (fields_ok_shape _ Fk) (name_ok_goodlen _ Nk)). eauto.
    + rewrite (proj2 (contrib_storage k Tk)). apply (IH k Hk Fk (or_intror Nk) (Kk Tk)).
  - exists (pre_fields e ++ b). rewrite pre_node_nf, (pre_dirent_fields e S B). cbn [bind]. rewrite Hb. reflexivity.
Qed.
Lemma wf_tree_pre t : wf_tree t = true -> exists x, pre_node t = Ok x.
Proof. intros W. destruct (wf_tree_inv t W) as [F [T O]]. exact (pre_node_ok t F (or_introl T) O). Qed.

Lemma cat_items_r_no_panic skip (l : list (dirent * result bytes)) p : (forall it q, In it l -> snd it <> Panic q) -> cat_items_r skip l <> Panic p.
Proof.
  induction l as [|[e c] l IH]; intros H; [discriminate|]. cbn [cat_items_r].
  assert (IH' := IH (fun it q Hin => H it q (or_intror Hin))). destruct (skip e); [exact IH'|].
  destruct c as [b| |q]; cbn [bind]; try discriminate.
  - destruct (cat_items_r skip l); cbn [bind]; try discriminate. exact IH'.
  - exfalso. apply (H (e, Panic q) q (or_introl eq_refl)). reflexivity.
Qed.
Lemma all_shape_inv e c kids : all_shape (Node e c kids) = true -> shape_ok e /\ forall k, In k kids -> all_shape k = true.
Proof.
  cbn [all_shape]. intros H. apply andb_true_iff in H as [H1 H2]. unfold shape_okb in H1. apply andb_true_iff in H1 as [A B].
  split; [split; lia|]. rewrite forallb_forall in H2. exact H2.
Qed.

Lemma same_hashed_pre e e' : shape_ok e -> same_hashed e e' -> pre_dirent e = pre_dirent e'.
Proof.
  intros S [H1 [H2 [H3 [H4 [H5 [H6 [H7 H8]]]]]]].
  assert (S' : shape_ok e') by (destruct S; split; congruence).
  destruct (msi_pre_badlen (de_type e) (de_nlen e)) eqn:Hb.
  - unfold pre_dirent. rewrite <- H2, <- H3, Hb. reflexivity.
  - rewrite (pre_dirent_fields e S Hb). rewrite (pre_dirent_fields e' S') by (rewrite <- H2, <- H3; exact Hb).
    unfold pre_fields. rewrite <- H1, <- H2, <- H3, <- H4, <- H5, <- H6, <- H7, <- H8. reflexivity.
Qed.
Lemma same_hashed_dK e e' : same_hashed e e' -> dK e = dK e'.
Proof. intros [H1 [H2 [H3 _]]]. unfold dK. now rewrite H1, H2, H3. Qed.

Lemma shape_eq_ent k m : shape_eq k m -> same_hashed (node_ent k) (node_ent m) /\ node_content k = node_content m.
Proof. destruct k as [e c ks], m as [e' c' ms]. cbn [shape_eq node_ent node_content]. tauto. Qed.
(* a loop F that looks at name, name length and type of the entries only sees the same list when the children are listed
   in another order with other links, provided each child yields what its counterpart yields *)
Lemma sorted_items_shape {B R} (F : list (dirent * B) -> R) (C : node -> B) kids mid kids' : (forall l, F (map canon l) = F l) ->
  kids_ok kids -> all2 shape_eq kids mid -> (forall k m, In k kids -> shape_eq k m -> C k = C m) -> Permutation mid kids' ->
  F (isort rlt (items C kids)) = F (isort rlt (items C kids')).
Proof.
  intros HF Hok Ha HC Hp. rewrite <- (HF (isort rlt (items C kids))), <- (HF (isort rlt (items C kids'))). f_equal.
  rewrite !map_canon_isort. unfold items. rewrite !map_map.
  assert (E : map (fun k => canon (node_ent k, C k)) kids = map (fun k => canon (node_ent k, C k)) mid).
  { apply all2_map_eq. eapply all2_impl; [|exact Ha]. intros k m Hin Hkm. unfold canon. cbn [fst snd].
    now rewrite (HC k m Hin Hkm), (same_hashed_dK _ _ (proj1 (shape_eq_ent k m Hkm))). }
  rewrite E. apply isort_rlt_perm; [now apply Permutation_map|].
  rewrite <- E, <- map_map. now apply items_ok_canon, (kids_items_ok C).
Qed.
Theorem shape_independent t : forall t', shape_ok (node_ent t) -> kids_ok (node_kids t) -> shape_eq t t' ->
  hash_node t = hash_node t' /\ pre_node t = pre_node t'.
Proof.
  induction t as [e c kids IH] using node_ind'. intros [e' c' kids'] Hso Hok Hs. cbn [node_kids node_ent] in *. cbn [shape_eq] in Hs.
  destruct Hs as [He [Hc [mid [Ha Hp]]]]. subst c'.
  pose proof He as [_ [_ [Ety [Euid _]]]].
  (* every child and its counterpart contribute the same *)
  assert (Hrel : forall k m, In k kids -> shape_eq k m -> contrib_h k = contrib_h m /\ contrib_p k = contrib_p m).
  { intros k m Hin Hkm. destruct (shape_eq_ent k m Hkm) as [Hh Hcc]. pose proof Hh as [_ [_ [Hty _]]].
    destruct (wf_kid_inv k (kids_ok_wf kids k Hok Hin)) as [Fk [_ [Tk [_ Kk]]]]. destruct Tk as [Tk|Tk].
    - destruct (contrib_stream k Tk) as [-> ->], (contrib_stream m) as [-> ->]; [congruence|].
      now rewrite Hcc, (same_hashed_pre _ _ (fields_ok_shape _ Fk) Hh).
    - destruct (contrib_storage k Tk) as [-> ->], (contrib_storage m) as [-> ->]; [congruence|]. now apply IH; auto using fields_ok_shape. }
  split.
  - rewrite !hash_node_nf, <- Ety, <- Euid. f_equal.
    apply (sorted_items_shape (cat_items (hash_skip (de_type e))) contrib_h kids mid kids'); auto using cat_items_canon, hash_skip_dK.
    intros k m Hin Hkm. apply (Hrel k m Hin Hkm).
  - rewrite !pre_node_nf, <- Ety, <- (same_hashed_pre e e' Hso He).
    now rewrite (sorted_items_shape (cat_items_r (hash_skip (de_type e))) contrib_p kids mid kids'
                   (fun l => cat_items_r_canon _ l (hash_skip_dK _)) Hok Ha (fun k m Hin Hkm => proj2 (Hrel k m Hin Hkm)) Hp).
Qed.

Definition tos {B} (it : dirent * B) : bytes * B := (ser_dirent (fst it), snd it).
Definition slt {B} (a b : bytes * B) : bool := s_less (fst a) (fst b).
Lemma kids_tos_isort {B} (C : node -> B) kids : kids_ok kids ->
  map tos (isort rlt (items C kids)) = isort slt (map tos (items C kids)).
Proof.
  intros O. destruct (kids_items_ok C kids O) as [H1 H2]. pose proof (kids_items_fok C kids O) as Hf.
  rewrite <- (isort_map tos (fun a b => slt (tos a) (tos b))) by reflexivity. f_equal.
  apply (isort_ext ikey); [exact H2|]. intros x y Hx Hy Hne. apply ikey_wname in Hne.
  unfold rlt, slt, tos. cbn [fst]. rewrite relic_lt_key, s_less_key; auto.
Qed.
Lemma s_cat_tos skip_s skip_r (l : list (dirent * bytes)) :
  (forall it, In it l -> skip_s (ser_dirent (fst it)) = skip_r (fst it)) ->
  s_cat skip_s (fun c => c) (map tos l) = cat_items skip_r l.
Proof.
  induction l as [|[e c] l IH]; intros H; [reflexivity|]. cbn [map]. change (tos (e, c)) with (ser_dirent e, c). cbn [s_cat cat_items].
  pose proof (H (e, c) (or_introl eq_refl)) as H0. cbn [fst] in H0. rewrite H0, IH; [reflexivity|]. intros it Hin. apply H. now right.
Qed.
Lemma s_cat_o_tos skip_s skip_r (l : list (dirent * result bytes)) :
  (forall it, In it l -> skip_s (ser_dirent (fst it)) = skip_r (fst it)) ->
  s_cat_o skip_s (map tos (map (fun it => (fst it, r2o (snd it))) l)) = r2o (cat_items_r skip_r l).
Proof.
  induction l as [|[e c] l IH]; intros H; [reflexivity|]. cbn [map fst snd]. change (tos (e, r2o c)) with (ser_dirent e, r2o c).
  cbn [s_cat_o cat_items_r]. pose proof (H (e, c) (or_introl eq_refl)) as H0. cbn [fst] in H0. rewrite H0, IH by (intros it Hin; apply H; now right).
  destruct (skip_r e); [reflexivity|]. destruct c as [b| |]; cbn [bind opt_app r2o]; try reflexivity.
  destruct (cat_items_r skip_r l); reflexivity.
Qed.

Definition contrib_s (k : snode) : bytes :=
  if s_type (s_entry k) =? S_STREAM then s_data k else if s_type (s_entry k) =? S_STORAGE then s_hash false k else [].
Definition contrib_sp (k : snode) : option bytes :=
  if s_type (s_entry k) =? S_STREAM then s_pre_entry (s_entry k) else if s_type (s_entry k) =? S_STORAGE then s_pre false k else Some [].
Lemma s_hash_nf r en d kids : s_hash r (SNode en d kids) =
  s_cat (fun e => r && s_is_sig e) (fun c => c) (isort slt (map (fun k => (s_entry k, contrib_s k)) kids)) ++ s_clsid en.
Proof. reflexivity. Qed.
Lemma s_pre_nf r en d kids : s_pre r (SNode en d kids) =
  opt_app (s_pre_entry en) (s_cat_o (fun e => r && s_is_sig e) (isort slt (map (fun k => (s_entry k, contrib_sp k)) kids))).
Proof. reflexivity. Qed.
Lemma s_entry_to_spec k : s_entry (to_spec k) = ser_dirent (node_ent k).
Proof. now destruct k. Qed.
(* the specification sorts the serialised children into the order sortMsiFiles gives them *)
Lemma spec_items {B} (C : node -> B) (C' : snode -> B) kids : kids_ok kids -> (forall k, In k kids -> C' (to_spec k) = C k) ->
  isort slt (map (fun k => (s_entry k, C' k)) (map to_spec kids)) = map tos (isort rlt (items C kids)).
Proof.
  intros O H. rewrite (kids_tos_isort C kids O). f_equal. unfold items. rewrite !map_map. apply map_ext_in. intros k Hk.
  unfold tos. cbn [fst snd]. now rewrite s_entry_to_spec, (H k Hk).
Qed.
Lemma kids_skip_spec {B} (C : node -> B) kids pty it : kids_ok kids -> In it (isort rlt (items C kids)) ->
  (pty =? 5) && s_is_sig (ser_dirent (fst it)) = hash_skip pty (fst it).
Proof.
  intros O Hin. apply in_isort, in_map_iff in Hin as [k [<- Hk]]. cbn [fst].
  destruct (wf_kid_inv k (kids_ok_wf kids k O Hk)) as [Fk [Nk [Tk _]]]. rewrite (skip_is_spec _ Fk Nk) by lia.
  now rewrite hash_skip_eq, andb_assoc.
Qed.

Theorem digest_is_spec t : fields_ok (node_ent t) = true -> kids_ok (node_kids t) ->
  hash_node t = s_hash (de_type (node_ent t) =? 5) (to_spec t) /\ r2o (pre_node t) = s_pre (de_type (node_ent t) =? 5) (to_spec t).
Proof.
  induction t as [e c kids IH] using node_ind'. intros Fe Hok. cbn [node_ent node_kids] in *.
  pose proof (fields_ok_vals e Fe) as Ve.
  (* a child contributes to the specification's digest what it contributes to relic's *)
  assert (Hch : forall k, In k kids -> contrib_s (to_spec k) = contrib_h k /\ contrib_sp (to_spec k) = r2o (contrib_p k)).
  { intros k Hin. destruct (wf_kid_inv k (kids_ok_wf kids k Hok Hin)) as [Fk [_ [Tk [_ Kk]]]]. pose proof (fields_ok_vals _ Fk) as Vk.
    unfold contrib_s, contrib_sp. rewrite s_entry_to_spec, (s_type_ser _ Vk).
    destruct Tk as [Tk|Tk]; rewrite Tk; cbn [Z.eqb Pos.eqb S_STREAM S_STORAGE].
    - destruct (contrib_stream k Tk) as [-> ->]. split; [now destruct k | now apply s_pre_entry_ser].
    - destruct (contrib_storage k Tk) as [-> ->], (IH k Hin Fk (Kk Tk)) as [I1 I2]. now rewrite Tk in I1, I2. }
  cbn [to_spec]. split.
  - rewrite hash_node_nf, s_hash_nf, (s_clsid_ser e Ve), (spec_items contrib_h contrib_s kids Hok (fun k Hk => proj1 (Hch k Hk))). f_equal.
    symmetry. apply s_cat_tos. intros it. now apply kids_skip_spec.
  - rewrite pre_node_nf, s_pre_nf, (s_pre_entry_ser e Ve), (spec_items (fun k => r2o (contrib_p k)) contrib_sp kids Hok (fun k Hk => proj2 (Hch k Hk))).
    rewrite (sorted_items_map r2o contrib_p kids), (s_cat_o_tos _ (hash_skip (de_type e))) by (intros it; now apply kids_skip_spec).
    destruct (pre_dirent e) as [own| |]; cbn [bind opt_app r2o]; try reflexivity.
    destruct (cat_items_r (hash_skip (de_type e)) (isort rlt (items contrib_p kids))); reflexivity.
Qed.
