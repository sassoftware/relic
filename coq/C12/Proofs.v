(* C12/Proofs.v — the byte-level lemmas behind C12/Properties.v: the reference splice against the sequential rewrite;
   the sort; what Add's coalescing and 4 GiB splitting preserve when the calls come in file order; Dump / Load; the
   in-place strategy; Add with the calls in any order. *)
From Relic Require Import Base.Prelude Base.Enc Base.Slice Generated.C12_gen C12.Model.
From Coq Require Import Permutation.

Lemma ztake_le {A} a b (x y : list A) : a <= b -> ztake b x = ztake b y -> ztake a x = ztake a y.
Proof. intros H E. rewrite <- (Z.min_l a b H), <- !ztake_ztake. now rewrite E. Qed.

Lemma zlen_zdrop_gen {A} n (l : list A) : 0 <= n -> zlen (zdrop n l) = Z.max 0 (zlen l - n).
Proof. apply Slice.zlen_zdrop_gen. Qed.

Lemma splice_cons p r f : splice (p :: r) f = replace1 (p_off p) (p_old p) (p_blob p) (splice r f).
Proof. reflexivity. Qed.
Lemma splice_app a b f : splice (a ++ b) f = splice a (splice b f).
Proof. apply fold_right_app. Qed.

Lemma asc_cons pos p r flen :
  asc_disjoint pos (p :: r) flen = true <->
  (pos <= p_off p /\ 0 <= p_old p /\ p_off p + p_old p <= flen /\
   asc_disjoint (p_off p + p_old p) r flen = true).
Proof. cbn [asc_disjoint]. rewrite !andb_true_iff, !Z.leb_le. tauto. Qed.

Fixpoint endpos (pos : Z) (ps : list patch) : Z :=
  match ps with [] => pos | p :: r => endpos (p_off p + p_old p) r end.

Lemma asc_app pos a b flen :
  asc_disjoint pos (a ++ b) flen = true <->
  (asc_disjoint pos a flen = true /\ asc_disjoint (endpos pos a) b flen = true).
Proof.
  revert pos; induction a as [|p a IH]; intros pos.
  - cbn [app endpos asc_disjoint]. tauto.
  - rewrite <- app_comm_cons, !asc_cons, IH. cbn [endpos]. tauto.
Qed.
Lemma asc_endpos_ge pos a flen : asc_disjoint pos a flen = true -> pos <= endpos pos a.
Proof.
  revert pos; induction a as [|p a IH]; intros pos H; cbn [endpos]; [lia|].
  apply asc_cons in H as (H1 & H2 & H3 & H4). specialize (IH _ H4). lia.
Qed.
Lemma asc_endpos_le pos a flen : asc_disjoint pos a flen = true -> pos <= flen -> endpos pos a <= flen.
Proof.
  revert pos; induction a as [|p a IH]; intros pos H Hp; cbn [endpos]; [lia|].
  apply asc_cons in H as (H1 & H2 & H3 & H4). apply IH; assumption.
Qed.
Lemma asc_shrink pos a flen m :
  asc_disjoint pos a flen = true -> endpos pos a <= m -> asc_disjoint pos a m = true.
Proof.
  revert pos; induction a as [|p a IH]; intros pos H Hm; [reflexivity|].
  apply asc_cons in H as (H1 & H2 & H3 & H4). cbn [endpos] in Hm.
  apply asc_cons. pose proof (asc_endpos_ge _ _ _ H4). repeat split; try lia. now apply IH.
Qed.

Lemma splice_shape ps : forall f pos,
  0 <= pos <= zlen f -> asc_disjoint pos ps (zlen f) = true ->
  ztake pos (splice ps f) = ztake pos f /\ pos <= zlen (splice ps f).
Proof.
  induction ps as [|p r IH]; intros f pos Hpos H.
  - cbn. split; [reflexivity|lia].
  - apply asc_cons in H as (H1 & H2 & H3 & H4).
    destruct (IH f (p_off p + p_old p)) as [E L]; [lia|assumption|].
    rewrite splice_cons. unfold replace1. set (S := splice r f) in *.
    assert (Ht : zlen (ztake (p_off p) S) = p_off p) by (apply zlen_ztake; lia).
    split.
    + rewrite ztake_app_l, ztake_ztake, Z.min_l by lia.
      apply (ztake_le pos (p_off p + p_old p)); [lia|exact E].
    + rewrite zlen_app, Ht. pose proof (zlen_nonneg (p_blob p ++ zdrop (p_off p + p_old p) S)). lia.
Qed.

Lemma splice_cons_asc p r f pos :
  0 <= pos -> asc_disjoint pos (p :: r) (zlen f) = true ->
  splice (p :: r) f = ztake (p_off p) f ++ p_blob p ++ zdrop (p_off p + p_old p) (splice r f) /\
  p_off p + p_old p <= zlen (splice r f).
Proof.
  intros Hpos H. apply asc_cons in H as (H1 & H2 & H3 & H4).
  destruct (splice_shape r f (p_off p + p_old p)) as [E L]; [lia|exact H4|].
  split; [|exact L]. rewrite splice_cons. unfold replace1. f_equal.
  apply (ztake_le _ (p_off p + p_old p)); [lia|exact E].
Qed.

Lemma rewrite_from_sorted ps : forall file pos,
  0 <= pos -> asc_disjoint pos ps (zlen file) = true ->
  rewrite_from pos ps file = Ok (zdrop pos (splice ps file)).
Proof.
  induction ps as [|p r IH]; intros f pos Hpos H; [reflexivity|].
  destruct (splice_cons_asc p r f pos Hpos H) as [-> _].
  apply asc_cons in H as (H1 & H2 & H3 & H4).
  cbn [rewrite_from]. unfold rewrite_out_of_order, rewrite_copy_before.
  replace (p_off p - pos <? 0) with false by lia.
  replace (zlen f <? pos + (p_off p - pos)) with false by lia.
  rewrite andb_false_r, IH by (assumption || lia). cbn [bind]. f_equal.
  rewrite zdrop_app_l by (rewrite zlen_ztake; lia). rewrite zdrop_ztake by lia. f_equal.
  destruct (p_off p - pos >? 0) eqn:D; [reflexivity|]. now rewrite ztake_neg by lia.
Qed.

Lemma rewrite_sorted : forall ps file,
  asc_disjoint 0 ps (zlen file) = true -> rewrite ps file = Ok (splice ps file).
Proof.
  intros ps file H. unfold rewrite. rewrite rewrite_from_sorted by (assumption || lia).
  now rewrite zdrop_0.
Qed.

Lemma nondecreasing_cons a r :
  nondecreasing (a :: r) = true <->
  (Forall (fun b => p_off a <= p_off b) r /\ nondecreasing r = true).
Proof.
  revert a; induction r as [|q r IH]; intros a.
  - cbn. intuition.
  - change (nondecreasing (a :: q :: r)) with ((p_off a <=? p_off q) && nondecreasing (q :: r)).
    rewrite andb_true_iff, Z.leb_le, Forall_cons_iff, (IH q). split; [|tauto].
    intros (H1 & H2 & H3). repeat split; try assumption.
    eapply Forall_impl; [|exact H2]. cbv beta. lia.
Qed.
Lemma strictly_asc_cons a r :
  strictly_asc (a :: r) = true <->
  (Forall (fun b => p_off a < p_off b) r /\ strictly_asc r = true).
Proof.
  revert a; induction r as [|q r IH]; intros a.
  - cbn. intuition.
  - change (strictly_asc (a :: q :: r)) with ((p_off a <? p_off q) && strictly_asc (q :: r)).
    rewrite andb_true_iff, Z.ltb_lt, Forall_cons_iff, (IH q). split; [|tauto].
    intros (H1 & H2 & H3). repeat split; try assumption.
    eapply Forall_impl; [|exact H2]. cbv beta. lia.
Qed.

Lemma insert_perm p l : Permutation (insert p l) (p :: l).
Proof.
  induction l as [|q r IH]; cbn [insert]; [reflexivity|].
  destruct (p_off q <? p_off p); [|reflexivity].
  rewrite IH. apply perm_swap.
Qed.
Lemma isort_perm l : Permutation (isort l) l.
Proof.
  induction l as [|p l IH]; [reflexivity|].
  change (isort (p :: l)) with (insert p (isort l)). rewrite insert_perm. now constructor.
Qed.
Lemma insert_sorted p l : nondecreasing l = true -> nondecreasing (insert p l) = true.
Proof.
  induction l as [|q r IH]; intros H; [reflexivity|].
  cbn [insert]. destruct (p_off q <? p_off p) eqn:E.
  - apply nondecreasing_cons in H as [H1 H2]. apply nondecreasing_cons. split; [|now apply IH].
    rewrite insert_perm. constructor; [lia|exact H1].
  - apply nondecreasing_cons. split; [|exact H].
    apply nondecreasing_cons in H as [H1 H2]. constructor; [lia|].
    eapply Forall_impl; [|exact H1]. cbv beta. lia.
Qed.
Lemma isort_sorted l : nondecreasing (isort l) = true.
Proof.
  induction l as [|p l IH]; [reflexivity|].
  change (isort (p :: l)) with (insert p (isort l)). now apply insert_sorted.
Qed.
Lemma isort_id l : nondecreasing l = true -> isort l = l.
Proof.
  induction l as [|p l IH]; intros H; [reflexivity|].
  change (isort (p :: l)) with (insert p (isort l)).
  apply nondecreasing_cons in H as [H1 H2]. rewrite IH by exact H2.
  destruct l as [|q r]; [reflexivity|]. cbn [insert]. inversion H1; subst.
  replace (p_off q <? p_off p) with false by lia. reflexivity.
Qed.

Lemma sorted_unique : forall b a,
  Permutation a b -> nondecreasing a = true -> strictly_asc b = true -> a = b.
Proof.
  induction b as [|y b IH]; intros a HP Ha Hb.
  - apply Permutation_sym, Permutation_nil in HP. exact HP.
  - destruct a as [|x a]; [apply Permutation_nil in HP; discriminate|].
    apply nondecreasing_cons in Ha as [Ha1 Ha2]. apply strictly_asc_cons in Hb as [Hb1 Hb2].
    assert (Hx : In x (y :: b)) by (rewrite <- HP; now left).
    destruct Hx as [Hx|Hx].
    + subst y. f_equal. apply IH; [|assumption|assumption]. eapply Permutation_cons_inv; exact HP.
    + exfalso. rewrite Forall_forall in Hb1, Ha1. specialize (Hb1 _ Hx).
      assert (Hy : In y (x :: a)) by (rewrite HP; now left).
      destruct Hy as [Hy|Hy]; [subst; lia|]. specialize (Ha1 _ Hy). lia.
Qed.

Lemma asc_all_ge ps : forall pos flen, asc_disjoint pos ps flen = true ->
  Forall (fun b => pos <= p_off b) ps.
Proof.
  induction ps as [|q r IH]; intros e flen H; [constructor|].
  apply asc_cons in H as (H1 & H2 & H3 & H4). constructor; [lia|].
  eapply Forall_impl; [|eapply IH; exact H4]. cbv beta. lia.
Qed.
Lemma asc_nondecreasing ps : forall pos flen, asc_disjoint pos ps flen = true -> nondecreasing ps = true.
Proof.
  induction ps as [|p r IH]; intros pos flen H; [reflexivity|].
  apply asc_cons in H as (H1 & H2 & H3 & H4). apply nondecreasing_cons. split; [|eapply IH; eassumption].
  eapply Forall_impl; [|eapply asc_all_ge; exact H4]. cbv beta. lia.
Qed.

Lemma replace1_coalesce lo lold cold lb cb f :
  0 <= lo -> 0 <= lold -> lo + lold <= zlen f ->
  replace1 lo (lold + cold) (lb ++ cb) f = replace1 lo lold lb (replace1 (lo + lold) cold cb f).
Proof.
  intros H1 H2 H3. unfold replace1.
  rewrite ztake_app_l, ztake_ztake, Z.min_l by (rewrite ?zlen_ztake; lia).
  rewrite zdrop_app_len by (apply zlen_ztake; lia).
  now rewrite <- app_assoc, Z.add_assoc.
Qed.

(* Add keeps the list it has built except at its end, where it puts a few patches in the place of others.
   [new] can take the place of [old] in front of any tail: *)
Definition stands_for (g : bytes) (new old : list patch) : Prop :=
  forall pos B, 0 <= pos -> asc_disjoint pos (old ++ B) (zlen g) = true ->
  asc_disjoint pos (new ++ B) (zlen g) = true /\ splice (new ++ B) g = splice (old ++ B) g.

Lemma stands_for_trans g a b c : stands_for g a b -> stands_for g b c -> stands_for g a c.
Proof.
  intros Hab Hbc pos B Hpos H. destruct (Hbc pos B Hpos H) as [H1 S1]. destruct (Hab pos B Hpos H1) as [H2 S2].
  split; [exact H2|congruence].
Qed.
Lemma stands_for_cons g p new old : stands_for g new old -> stands_for g (p :: new) (p :: old).
Proof.
  intros Hs pos B Hpos H. rewrite <- app_comm_cons in *. apply asc_cons in H as (H1 & H2 & H3 & H4).
  destruct (Hs (p_off p + p_old p) B ltac:(lia) H4) as [H5 S]. split; [apply asc_cons; auto|]. now rewrite !splice_cons, S.
Qed.
Lemma stands_for_app_l g A new old : stands_for g new old -> stands_for g (A ++ new) (A ++ old).
Proof. intros Hs. induction A as [|p A IH]; [exact Hs|]. cbn [app]. now apply stands_for_cons. Qed.
Lemma stands_for_app_r g new old T : stands_for g new old -> stands_for g (new ++ T) (old ++ T).
Proof. intros Hs pos B. rewrite <- !app_assoc. apply Hs. Qed.

(* Coalescing and the 4 GiB splitting both rest on one fact, read in one direction or the other:
   two adjacent patches and the single patch over both ranges stand for each other. *)
Lemma join_asc pos flen lo lold cold lb cb B :
  asc_disjoint pos (mkPatch lo lold lb :: mkPatch (lo + lold) cold cb :: B) flen = true <->
  (0 <= lold /\ 0 <= cold /\ asc_disjoint pos (mkPatch lo (lold + cold) (lb ++ cb) :: B) flen = true).
Proof. rewrite !asc_cons. cbn [p_off p_old]. rewrite Z.add_assoc. intuition lia. Qed.
Lemma join_splice g pos lo lold cold lb cb B :
  0 <= pos -> asc_disjoint pos (mkPatch lo lold lb :: mkPatch (lo + lold) cold cb :: B) (zlen g) = true ->
  splice (mkPatch lo (lold + cold) (lb ++ cb) :: B) g = splice (mkPatch lo lold lb :: mkPatch (lo + lold) cold cb :: B) g.
Proof.
  intros Hpos H. apply asc_cons in H as (H1 & H2 & _ & H4). apply asc_cons in H4 as (_ & H6 & H7 & H8).
  cbn [p_off p_old] in *. destruct (splice_shape B g (lo + lold + cold)) as [_ L]; [lia|exact H8|].
  rewrite !splice_cons. cbn [p_off p_old p_blob]. apply replace1_coalesce; lia.
Qed.
Lemma join_stands g lo lold cold lb cb :
  stands_for g [mkPatch lo (lold + cold) (lb ++ cb)] [mkPatch lo lold lb; mkPatch (lo + lold) cold cb].
Proof. intros pos B Hpos H. split; [now apply join_asc in H|now apply (join_splice g pos)]. Qed.
Lemma unjoin_stands g lo lold cold lb cb :
  0 <= lold -> 0 <= cold ->
  stands_for g [mkPatch lo lold lb; mkPatch (lo + lold) cold cb] [mkPatch lo (lold + cold) (lb ++ cb)].
Proof.
  intros Hl Hc pos B Hpos H. assert (H' := proj2 (join_asc pos _ lo lold cold lb cb B) (conj Hl (conj Hc H))).
  split; [exact H'|]. symmetry. now apply (join_splice g pos).
Qed.

Lemma split_stands g blob rem n : forall off,
  0 <= rem ->
  stands_for g (split_pieces n off ++ [mkPatch (off + Z.of_nat n * uint32Max) rem blob])
               [mkPatch off (Z.of_nat n * uint32Max + rem) blob].
Proof.
  induction n as [|n IH]; intros off Hrem.
  - cbn [split_pieces app Z.of_nat Z.mul Z.add]. rewrite Z.add_0_r. intros pos B _ H. auto.
  - cbn [split_pieces app].
    replace (off + Z.of_nat (S n) * uint32Max) with (off + uint32Max + Z.of_nat n * uint32Max) by lia.
    replace (Z.of_nat (S n) * uint32Max + rem) with (uint32Max + (Z.of_nat n * uint32Max + rem)) by lia.
    eapply stands_for_trans; [apply stands_for_cons, (IH (off + uint32Max) Hrem)|].
    apply (unjoin_stands g off uint32Max _ [] blob); unfold uint32Max; lia.
Qed.

Lemma add_fresh_eq off old blob :
  0 <= old ->
  exists n rem, 0 <= rem /\ (n = 0%nat \/ 0 < rem) /\ old = Z.of_nat n * uint32Max + rem /\
    add_fresh off old blob = split_pieces n off ++ [mkPatch (off + Z.of_nat n * uint32Max) rem blob].
Proof.
  intros H. exists (Z.to_nat (split_count old)), (old - split_count old * uint32Max).
  assert (K : 0 <= split_count old /\ 0 <= old - split_count old * uint32Max /\
              (split_count old = 0 \/ 0 < old - split_count old * uint32Max))
    by (unfold split_count, add_split_cond, uint32Max; destruct (old >? 4294967295) eqn:E; lia).
  destruct K as (K1 & K2 & K3). rewrite Z2Nat.id by exact K1.
  split; [exact K2|]. split; [lia|]. split; [lia|reflexivity].
Qed.

Lemma fresh_stands g off old blob : stands_for g (add_fresh off old blob) [mkPatch off old blob].
Proof.
  intros pos B Hpos H.
  assert (Hold : 0 <= old) by (apply asc_cons in H; cbn in H; lia).
  destruct (add_fresh_eq off old blob Hold) as (n & rem & Hrem & _ & -> & ->). now apply split_stands.
Qed.

Lemma coalesce_inv last off old blob m :
  try_coalesce last off old blob = Some m ->
  off = p_off last + p_old last /\ m = mkPatch (p_off last) (p_old last + old) (p_blob last ++ blob).
Proof.
  unfold try_coalesce, add_coalesce_cond, add_last_end, add_old_combo, add_new_combo.
  destruct (_ && _ && _) eqn:E; [|discriminate].
  intros H. inversion H; subst. split; [lia|reflexivity].
Qed.
Lemma merge_stands g last off old blob m :
  try_coalesce last off old blob = Some m -> stands_for g [m] [last; mkPatch off old blob].
Proof. intros [-> ->]%coalesce_inv. destruct last. apply join_stands. Qed.
Lemma unmerge_stands g last off old blob m :
  try_coalesce last off old blob = Some m -> 0 <= p_old last -> 0 <= old ->
  stands_for g [last; mkPatch off old blob] [m].
Proof. intros [-> ->]%coalesce_inv. destruct last. apply unjoin_stands. Qed.

Lemma add_all_snoc cs c : add_all (cs ++ [c]) = add (add_all cs) (c_off c) (c_old c) (c_blob c).
Proof. unfold add_all. now rewrite fold_left_app. Qed.

Lemma add_cases ps off old blob :
  add ps off old blob = ps ++ add_fresh off old blob \/
  exists front last m, ps = front ++ [last] /\ try_coalesce last off old blob = Some m /\
                       add ps off old blob = front ++ [m].
Proof.
  unfold add. destruct ps as [|last front _] using rev_ind; [left; reflexivity|].
  rewrite rev_unit. destruct (try_coalesce last off old blob) as [m|] eqn:T; [right|left; reflexivity].
  exists front, last, m. now rewrite rev_involutive.
Qed.

Lemma fileorder_stands g cs : stands_for g (add_all cs) (map call_patch cs).
Proof.
  induction cs as [|c cs IH] using rev_ind; [intros pos B _ H; auto|].
  rewrite map_app, add_all_snoc. cbn [map].
  apply stands_for_trans with (add_all cs ++ [call_patch c]); [|apply stands_for_app_r, IH].
  unfold call_patch.
  destruct (add_cases (add_all cs) (c_off c) (c_old c) (c_blob c)) as [->|(front & last & m & -> & E & ->)].
  - apply stands_for_app_l, fresh_stands.
  - rewrite <- app_assoc. apply stands_for_app_l. exact (merge_stands g _ _ _ _ _ E).
Qed.

Lemma add_fileorder_sound : forall cs file,
  asc_disjoint 0 (map call_patch cs) (zlen file) = true ->
  asc_disjoint 0 (add_all cs) (zlen file) = true /\
  splice (add_all cs) file = splice (map call_patch cs) file.
Proof.
  intros cs file H. pose proof (fileorder_stands file cs 0 []) as G. rewrite !app_nil_r in G. apply G; [lia|exact H].
Qed.

Definition hdr3 (p : patch) : Z * Z * Z := (p_off p, p_old p, p_new p).

Lemma zlen_enc_header p : zlen (enc_header p) = 16.
Proof. unfold enc_header. rewrite !zlen_app, !be_enc_zlen. lia. Qed.
Lemma zlen_hdrs ps : zlen (concat (map enc_header ps)) = 16 * zlen ps.
Proof.
  induction ps as [|p ps IH]; [reflexivity|].
  cbn [map concat]. rewrite zlen_app, zlen_enc_header, IH, zlen_cons. lia.
Qed.

Lemma dec4 n : 0 <= n < 2 ^ 32 -> be_dec (be_enc 4 n) = n.
Proof. exact (be_dec_enc 4 n). Qed.
Lemma dec8 n : 0 <= n < 2 ^ 63 -> to_i64 (be_dec (be_enc 8 n)) = n.
Proof.
  intros H. rewrite be_dec_enc by (change (256 ^ Z.of_nat 8) with (2 * 2 ^ 63); lia).
  unfold to_i64. now replace (n >=? 2 ^ 63) with false by lia.
Qed.

Lemma read_headers_step n p R :
  patch_ok p ->
  read_headers (S n) (enc_header p ++ R) = (r <- read_headers n R ;; Ok (hdr3 p :: fst r, snd r)).
Proof.
  intros (Ho & Hd & Hn & _). cbn [read_headers]. cbv zeta.
  replace (zlen (enc_header p ++ R) <? ph_size) with false
    by (rewrite zlen_app, zlen_enc_header; unfold ph_size; pose proof (zlen_nonneg R); lia).
  rewrite (zdrop_app_len ph_size) by apply zlen_enc_header.
  unfold enc_header. rewrite <- !app_assoc.
  rewrite (zslice_app_head 8), (zslice_app_mid 8 12), (zslice_app_r 12 16), (zslice_app_mid (12 - 8) (16 - 8))
    by (rewrite ?be_enc_zlen; lia).
  rewrite dec8, !dec4 by (unfold p_new; pose proof (zlen_nonneg (p_blob p)); lia). reflexivity.
Qed.

Lemma read_headers_ok ps : forall rest,
  Forall patch_ok ps ->
  read_headers (length ps) (concat (map enc_header ps) ++ rest) = Ok (map hdr3 ps, rest).
Proof.
  induction ps as [|p ps IH]; intros rest H; [reflexivity|].
  inversion H as [|? ? Hp Hps]; subst. cbn [length map concat].
  rewrite <- app_assoc, read_headers_step, IH by assumption. reflexivity.
Qed.

Lemma read_blobs_ok ps : forall rest,
  read_blobs (map hdr3 ps) (concat (map p_blob ps) ++ rest) = Ok ps.
Proof.
  induction ps as [|p ps IH]; intros rest; [reflexivity|].
  cbn [map concat]. rewrite <- app_assoc. unfold hdr3 at 1, p_new. cbn [read_blobs].
  set (R := concat (map p_blob ps) ++ rest).
  replace (zlen (p_blob p ++ R) <? zlen (p_blob p)) with false
    by (rewrite zlen_app; pose proof (zlen_nonneg R); lia).
  rewrite zdrop_app_exact, ztake_app_exact. unfold R. rewrite IH. cbn [bind]. now destruct p.
Qed.

Lemma read_headers_short k : forall l,
  zlen l < 16 * Z.of_nat k -> read_headers k l = Err E_SHORT.
Proof.
  induction k as [|k IH]; intros l H.
  - pose proof (zlen_nonneg l). lia.
  - cbn [read_headers]. cbv zeta. destruct (zlen l <? ph_size) eqn:E; [reflexivity|].
    unfold ph_size in *. rewrite IH; [reflexivity|]. rewrite zlen_zdrop by lia. lia.
Qed.

Lemma read_blobs_short ps : forall l,
  zlen l < zlen (concat (map p_blob ps)) -> read_blobs (map hdr3 ps) l = Err E_SHORT.
Proof.
  induction ps as [|p ps IH]; intros l H.
  - cbn in H. pose proof (zlen_nonneg l). lia.
  - cbn [map concat] in *. unfold hdr3 at 1. cbn [read_blobs].
    destruct (zlen l <? p_new p) eqn:E; [reflexivity|].
    rewrite zlen_app in H. unfold p_new in *. pose proof (zlen_nonneg (p_blob p)).
    rewrite IH; [reflexivity|]. rewrite zlen_zdrop by lia. lia.
Qed.

Lemma load_with_header n body :
  0 <= n < 2 ^ 32 ->
  load (be_enc 4 1 ++ be_enc 4 n ++ body) =
  (r <- read_headers (Z.to_nat n) body ;; read_blobs (fst r) (snd r)).
Proof.
  intros Hn. unfold load.
  replace (zlen (be_enc 4 1 ++ be_enc 4 n ++ body) <? psh_size) with false
    by (rewrite !zlen_app, !be_enc_zlen; unfold psh_size; pose proof (zlen_nonneg body); lia).
  cbv zeta. rewrite (zslice_app_head 4), (zslice_app_mid 4 8) by (rewrite ?be_enc_zlen; lia).
  rewrite !dec4 by lia. change (load_version_bad 1) with false. cbv iota.
  now rewrite app_assoc, (zdrop_app_len psh_size) by (rewrite zlen_app, !be_enc_zlen; reflexivity).
Qed.

(* every proper prefix of a dump ends inside the set header, the patch headers or the blobs *)
Lemma load_prefix_short ps n :
  Forall patch_ok ps -> zlen ps < 2 ^ 32 -> 0 <= n < zlen (dump_sorted ps) ->
  load (ztake n (dump_sorted ps)) = Err E_SHORT.
Proof.
  intros H Hps Hn. destruct (Z.ltb_spec n 8) as [Hlt|Hge].
  - unfold load. rewrite zlen_ztake by lia. unfold psh_size.
    replace (n <? 8) with true by lia. reflexivity.
  - unfold dump_sorted in *. rewrite !zlen_app, !be_enc_zlen in Hn.
    rewrite !ztake_app_r, !be_enc_zlen by (rewrite ?be_enc_zlen; lia).
    rewrite load_with_header by (pose proof (zlen_nonneg ps); lia).
    unfold zlen at 1. rewrite Nat2Z.id.
    pose proof (zlen_hdrs ps) as LH. set (Hd := concat (map enc_header ps)) in *.
    destruct (Z.ltb_spec (n - Z.of_nat 4 - Z.of_nat 4) (zlen Hd)) as [Hs|Hl].
    + rewrite read_headers_short; [reflexivity|].
      rewrite zlen_ztake_min, zlen_app by lia. unfold zlen in LH at 2. lia.
    + rewrite ztake_app_r by lia. unfold Hd. rewrite read_headers_ok by exact H.
      cbn [bind fst snd]. apply read_blobs_short. fold Hd. rewrite zlen_ztake_min by lia. lia.
Qed.

Definition same_size (p : patch) : Prop := p_old p = p_new p.

Lemma write_at_app X d blob : write_at (X ++ d) (zlen X) blob = X ++ blob ++ zdrop (zlen blob) d.
Proof.
  unfold write_at. destruct blob as [|b bl]; [now rewrite zlen_nil, zdrop_0|].
  pose proof (zlen_nonneg d). pose proof (zlen_nonneg (b :: bl)).
  rewrite zlen_app. replace (Z.to_nat (zlen X - (zlen X + zlen d))) with 0%nat by lia. cbn [repeat].
  rewrite app_nil_r, ztake_app_exact, zdrop_app_r by lia. do 3 f_equal. lia.
Qed.
Lemma write_at_same f off blob :
  0 <= off -> off + zlen blob <= zlen f -> write_at f off blob = replace1 off (zlen blob) blob f.
Proof.
  intros H1 H2. pose proof (zlen_nonneg blob). pose proof (write_at_app (ztake off f) (zdrop off f) blob) as E.
  rewrite ztake_zdrop, zlen_ztake, zdrop_zdrop in E by lia. rewrite E. unfold replace1. do 3 f_equal. lia.
Qed.
Lemma truncate_app a b : truncate (a ++ b) (zlen a) = a.
Proof.
  unfold truncate. pose proof (zlen_nonneg b).
  rewrite ztake_app_exact, zlen_app. replace (Z.to_nat (zlen a - (zlen a + zlen b))) with 0%nat by lia. apply app_nil_r.
Qed.

Lemma splice_len_same ps : forall f pos,
  0 <= pos -> Forall same_size ps -> asc_disjoint pos ps (zlen f) = true ->
  zlen (splice ps f) = zlen f.
Proof.
  induction ps as [|p r IH]; intros f pos Hpos Hs H; [reflexivity|].
  inversion Hs as [|? ? Hp Hr]; subst. destruct (splice_cons_asc p r f pos Hpos H) as [-> L].
  apply asc_cons in H as (H1 & H2 & H3 & H4). unfold same_size, p_new in Hp.
  rewrite !zlen_app, zlen_ztake, zlen_zdrop, (IH f (p_off p + p_old p)) by (assumption || lia). lia.
Qed.

Lemma splice_app_tail ps : forall a b pos,
  0 <= pos -> asc_disjoint pos ps (zlen a) = true -> splice ps (a ++ b) = splice ps a ++ b.
Proof.
  induction ps as [|p r IH]; intros a b pos Hpos H; [reflexivity|].
  apply asc_cons in H as (H1 & H2 & H3 & H4).
  destruct (splice_shape r a (p_off p + p_old p)) as [_ L]; [lia|exact H4|].
  rewrite !splice_cons, (IH a b (p_off p + p_old p)) by (assumption || lia).
  unfold replace1. rewrite ztake_app_l, zdrop_app_l by lia. now rewrite <- !app_assoc.
Qed.

(* The in-place strategy writes from left to right, the splice replaces from right to left. What the last patch of
   an ascending list meets either way: the others, all of them size-preserving, have turned the off bytes before it
   into some X of the same length and have left the rest of the file alone. *)
Lemma splice_last front last f :
  Forall same_size front -> asc_disjoint 0 (front ++ [last]) (zlen f) = true ->
  exists X, zlen X = p_off last /\ splice front f = X ++ zdrop (p_off last) f /\
            splice (front ++ [last]) f = X ++ p_blob last ++ zdrop (p_off last + p_old last) f.
Proof.
  intros Hs H. apply asc_app in H as [A1 A2]. apply asc_cons in A2 as (B1 & B2 & B3 & _).
  pose proof (asc_endpos_ge _ _ _ A1) as Hp. set (off := p_off last) in *.
  assert (La : zlen (ztake off f) = off) by (apply zlen_ztake; lia).
  assert (A3 : asc_disjoint 0 front (zlen (ztake off f)) = true) by (rewrite La; now apply (asc_shrink _ _ (zlen f))).
  exists (splice front (ztake off f)). split; [|split].
  - now rewrite (splice_len_same front _ 0).
  - rewrite <- (ztake_zdrop off f) at 1. now apply (splice_app_tail front _ _ 0).
  - rewrite splice_app. cbn [splice fold_right]. now apply (splice_app_tail front _ _ 0).
Qed.

Definition write_all (ps : list patch) (f : bytes) : bytes :=
  fold_left (fun f p => write_at f (p_off p) (p_blob p)) ps f.

Lemma write_all_snoc front last f : write_all (front ++ [last]) f = write_at (write_all front f) (p_off last) (p_blob last).
Proof. unfold write_all. now rewrite fold_left_app. Qed.

Lemma write_all_same ps : forall f,
  Forall same_size ps -> asc_disjoint 0 ps (zlen f) = true -> write_all ps f = splice ps f.
Proof.
  induction ps as [|last front IH] using rev_ind; intros f Hs H; [reflexivity|].
  apply Forall_app in Hs as [Hs Hl]. inversion Hl as [|? ? Hp _]; subst. unfold same_size, p_new in Hp.
  destruct (splice_last front last f Hs H) as (X & LX & E1 & ->). apply asc_app in H as [A1 A2].
  rewrite write_all_snoc, IH, E1, <- LX, write_at_app, zdrop_zdrop by (assumption || apply zlen_nonneg || lia).
  now rewrite <- Hp, LX, Z.add_comm.
Qed.

Lemma elig_shape ps : forall i n in_size size sz,
  i + zlen ps = n -> eligible_from i n ps in_size size = Some sz ->
  (Forall same_size ps /\ sz = size) \/
  (exists front last, ps = front ++ [last] /\ Forall same_size front /\
                      p_off last + p_old last = in_size /\ sz = p_off last + p_new last).
Proof.
  induction ps as [|p ps IH]; intros i n in_size size sz Hn H.
  - cbn in H. inversion H. left. split; [constructor|reflexivity].
  - cbn [eligible_from] in H. rewrite zlen_cons in Hn.
    unfold apply_same_size, apply_not_last, apply_not_at_eof, apply_old_end, apply_new_size in H.
    destruct (p_old p =? p_new p) eqn:E.
    + apply IH in H as [[H1 ->]|(front & last & -> & H2 & H3 & H4)]; [| |lia].
      * left. split; [constructor; [unfold same_size; lia|exact H1]|reflexivity].
      * right. exists (p :: front), last. repeat split; try assumption.
        constructor; [unfold same_size; lia|exact H2].
    + destruct (i =? n - 1) eqn:E2; [|discriminate]. destruct (p_off p + p_old p =? in_size) eqn:E3; [|discriminate].
      assert (ps = []) as -> by (apply zlen_0_nil; lia). injection H as <-.
      right. exists [], p. repeat split; [constructor|lia].
Qed.

Lemma inplace_splice ps file size :
  asc_disjoint 0 ps (zlen file) = true -> eligible ps file = Some size -> inplace ps file size = splice ps file.
Proof.
  intros H He. unfold eligible in He. apply elig_shape in He; [|lia].
  unfold inplace. fold (write_all ps file).
  destruct He as [[Hs ->]|(front & last & -> & Hs & Hend & ->)].
  - rewrite write_all_same, <- (splice_len_same ps file 0) by (assumption || lia).
    rewrite <- (app_nil_r (splice ps file)) at 1. apply truncate_app.
  - destruct (splice_last front last file Hs H) as (X & LX & E1 & ->). apply asc_app in H as [A1 _].
    rewrite write_all_snoc, write_all_same, E1, <- LX, write_at_app by assumption.
    rewrite (zdrop_all (zlen X + p_old last)), app_nil_r by lia.
    unfold p_new. now rewrite app_assoc, <- zlen_app, truncate_app.
Qed.

Lemma inplace_eq_rewrite : forall ps file size,
  asc_disjoint 0 ps (zlen file) = true -> eligible ps file = Some size ->
  rewrite ps file = Ok (inplace ps file size).
Proof. intros ps file size H He. now rewrite rewrite_sorted, inplace_splice. Qed.

(* Add in any order. A patch list in arbitrary order is read through its sorted form; it is good for a file of
   length flen when that form is ascending, disjoint, in bounds and has no offset twice. *)
Definition good (flen : Z) (l : list patch) : Prop :=
  asc_disjoint 0 (isort l) flen = true /\ strictly_asc (isort l) = true.

(* The same said without the sort, hence plainly invariant under permutation (good_iff): every patch lies in the
   file and any two are apart. *)
Definition in_file (flen : Z) (p : patch) : Prop :=
  0 <= p_off p /\ 0 <= p_old p /\ p_off p + p_old p <= flen.
Definition sep (a b : patch) : Prop :=
  (p_off a < p_off b /\ p_off a + p_old a <= p_off b) \/
  (p_off b < p_off a /\ p_off b + p_old b <= p_off a).
Fixpoint apart (l : list patch) : Prop :=
  match l with [] => True | a :: r => Forall (sep a) r /\ apart r end.

Lemma sep_sym a b : sep a b -> sep b a.
Proof. unfold sep. tauto. Qed.

Lemma apart_perm l l' : Permutation l l' -> apart l -> apart l'.
Proof.
  induction 1 as [|x l l' HP IH|x y l|l l' l'' H1 IH1 H2 IH2]; intros H.
  - exact I.
  - destruct H as [H1 H2]. split; [now rewrite <- HP|now apply IH].
  - destruct H as [H1 [H2 H3]]. inversion H1; subst. cbn [apart]. repeat split; try assumption.
    constructor; [now apply sep_sym|assumption].
  - auto.
Qed.

Lemma apart_app l l' :
  apart (l ++ l') <-> (apart l /\ apart l' /\ Forall (fun a => Forall (sep a) l') l).
Proof.
  induction l as [|a l IH].
  - cbn. intuition.
  - cbn [app apart]. rewrite Forall_app, Forall_cons_iff, IH. tauto.
Qed.

Lemma sorted_to_apart S : forall pos flen,
  0 <= pos -> asc_disjoint pos S flen = true -> strictly_asc S = true ->
  Forall (in_file flen) S /\ apart S.
Proof.
  induction S as [|a r IH]; intros pos flen Hpos HA HS.
  - split; [constructor|exact I].
  - apply asc_cons in HA as (H1 & H2 & H3 & H4). apply strictly_asc_cons in HS as [S1 S2].
    destruct (IH (p_off a + p_old a) flen) as [I1 I2]; [lia|assumption|assumption|].
    split; [constructor; [unfold in_file; lia|exact I1]|]. split; [|exact I2].
    pose proof (asc_all_ge _ _ _ H4) as G. rewrite Forall_forall in *.
    intros b Hb. specialize (S1 b Hb). specialize (G b Hb). cbv beta in *. unfold sep. lia.
Qed.

Lemma apart_to_sorted S : forall pos flen,
  nondecreasing S = true -> Forall (in_file flen) S -> apart S -> Forall (fun p => pos <= p_off p) S ->
  asc_disjoint pos S flen = true /\ strictly_asc S = true.
Proof.
  induction S as [|a r IH]; intros pos flen HN HI HP HG.
  - split; reflexivity.
  - apply nondecreasing_cons in HN as [N1 N2]. inversion HI as [|? ? I1 I2]; subst.
    destruct HP as [P1 P2]. inversion HG as [|? ? G1 G2]; subst.
    assert (Q : Forall (fun b => p_off a < p_off b /\ p_off a + p_old a <= p_off b) r).
    { rewrite Forall_forall in *. intros b Hb. specialize (N1 b Hb). specialize (P1 b Hb).
      cbv beta in *. unfold sep in P1. lia. }
    destruct (IH (p_off a + p_old a) flen N2 I2 P2) as [A1 A2].
    { eapply Forall_impl; [|exact Q]. cbv beta. lia. }
    unfold in_file in I1. split.
    + apply asc_cons. repeat split; (assumption || lia).
    + apply strictly_asc_cons. split; [|exact A2]. eapply Forall_impl; [|exact Q]. cbv beta. lia.
Qed.

Lemma good_iff flen l : good flen l <-> (Forall (in_file flen) l /\ apart l).
Proof.
  unfold good. split.
  - intros [H1 H2]. destruct (sorted_to_apart _ 0 flen ltac:(lia) H1 H2) as [I P]. split.
    + exact (Permutation_Forall (isort_perm l) I).
    + exact (apart_perm _ _ (isort_perm l) P).
  - intros [I P]. pose proof (Permutation_sym (isort_perm l)) as HP. apply apart_to_sorted.
    + apply isort_sorted.
    + exact (Permutation_Forall HP I).
    + exact (apart_perm _ _ HP P).
    + apply (Permutation_Forall HP). eapply Forall_impl; [|exact I]. unfold in_file. lia.
Qed.

Lemma good_perm_isort flen l l' : good flen l -> Permutation l l' -> isort l' = isort l.
Proof.
  intros [_ H] HP. apply sorted_unique; [|apply isort_sorted|exact H].
  rewrite (isort_perm l'), (isort_perm l). now symmetry.
Qed.
Lemma good_perm flen l l' : good flen l -> Permutation l l' -> good flen l'.
Proof.
  intros H HP. unfold good. rewrite (good_perm_isort flen l l' H HP). exact H.
Qed.

Lemma good_replace flen Y old new :
  good flen (Y ++ old) ->
  (Forall (in_file flen) old ->
   Forall (in_file flen) new /\ apart new /\ forall y, Forall (sep y) old -> Forall (sep y) new) ->
  good flen (Y ++ new).
Proof.
  rewrite !good_iff, !Forall_app, !apart_app. intros ((IY & Io) & PY & _ & PYo) Hn.
  destruct (Hn Io) as (In & Pn & Hy). repeat split; try assumption.
  eapply Forall_impl; [|exact PYo]. exact Hy.
Qed.

(* the one place where a patch is looked up in the sorted list *)
Lemma block_subst g Y z Z2 :
  good (zlen g) (Y ++ [z]) -> good (zlen g) (Y ++ Z2) -> stands_for g Z2 [z] ->
  splice (isort (Y ++ Z2)) g = splice (isort (Y ++ [z])) g.
Proof.
  intros [G1 _] [_ G2] Hs.
  pose proof (isort_perm (Y ++ [z])) as HP.
  assert (Hin : In z (isort (Y ++ [z]))) by (rewrite HP; apply in_elt).
  apply in_split in Hin as (A & B & E). rewrite E in *.
  destruct (stands_for_app_l g A Z2 [z] Hs 0 B) as [Aq Sq]; [lia|now rewrite <- app_assoc|].
  rewrite <- (app_assoc A [z]) in Sq. cbn [app] in Sq. rewrite <- Sq. f_equal.
  symmetry. apply sorted_unique; [|now apply asc_nondecreasing in Aq|exact G2].
  apply Permutation_app_inv in HP. rewrite app_nil_r in HP.
  rewrite isort_perm, <- app_assoc, Permutation_app_swap_app, HP. apply Permutation_app_comm.
Qed.

Lemma split_replaces flen n : forall off rem blob,
  0 <= rem -> (n = 0%nat \/ 0 < rem) ->
  let pieces := split_pieces n off ++ [mkPatch (off + Z.of_nat n * uint32Max) rem blob] in
  let whole := mkPatch off (Z.of_nat n * uint32Max + rem) blob in
  in_file flen whole ->
  Forall (in_file flen) pieces /\ apart pieces /\ forall y, sep y whole -> Forall (sep y) pieces.
Proof.
  induction n as [|n IH]; intros off rem blob Hrem Hn pieces whole Hw; subst pieces.
  - cbn [split_pieces app]. replace (mkPatch (off + _) rem blob) with whole by (unfold whole; f_equal; lia).
    split; [auto|split; [cbn; auto|auto]].
  - destruct Hn as [Hn|Hn]; [discriminate|].
    cbn [split_pieces]. rewrite <- app_comm_cons.
    replace (off + Z.of_nat (S n) * uint32Max) with ((off + uint32Max) + Z.of_nat n * uint32Max) by lia.
    assert (HM : 0 < uint32Max) by (unfold uint32Max; lia).
    assert (Hn0 : 0 <= Z.of_nat n * uint32Max) by (unfold uint32Max; lia).
    unfold in_file, sep, whole in *. cbn [p_off p_old] in *.
    destruct (IH (off + uint32Max) rem blob Hrem (or_intror Hn)) as (F & P & S); [lia|].
    split; [|split].
    + constructor; [cbn [p_off p_old]; lia|exact F].
    + split; [|exact P]. apply S. cbn [p_off p_old]. lia.
    + intros y Hy. constructor; [|apply S]; cbn [p_off p_old]; lia.
Qed.

(* [new] can take the place of [old] where lists are read through their sorted form *)
Definition sorted_stands_for (g : bytes) (new old : list patch) : Prop :=
  good (zlen g) old -> good (zlen g) new /\ splice (isort new) g = splice (isort old) g.

Lemma sorted_stands_trans g a b c :
  sorted_stands_for g a b -> sorted_stands_for g b c -> sorted_stands_for g a c.
Proof.
  intros Hab Hbc G. destruct (Hbc G) as [G1 S1]. destruct (Hab G1) as [G2 S2]. split; [exact G2|congruence].
Qed.
Lemma sorted_stands_perm g a a' b b' :
  Permutation a a' -> Permutation b b' -> sorted_stands_for g a b -> sorted_stands_for g a' b'.
Proof.
  intros Pa Pb H G'. assert (G := good_perm _ _ _ G' (Permutation_sym Pb)). destruct (H G) as [Ga S].
  split; [exact (good_perm _ _ _ Ga Pa)|].
  now rewrite (good_perm_isort _ _ _ Ga Pa), S, <- (good_perm_isort _ _ _ G Pb).
Qed.

Lemma fresh_sorted_stands g Y off old blob :
  sorted_stands_for g (Y ++ add_fresh off old blob) (Y ++ [mkPatch off old blob]).
Proof.
  intros G.
  assert (G2 : good (zlen g) (Y ++ add_fresh off old blob)).
  { apply (good_replace _ _ _ _ G). intros [Ic _]%Forall_cons_iff.
    destruct (add_fresh_eq off old blob) as (n & rem & Hrem & Hn & -> & ->); [unfold in_file in Ic; cbn in Ic; lia|].
    destruct (split_replaces (zlen g) n off rem blob Hrem Hn Ic) as (F & P & S).
    split; [exact F|split; [exact P|]]. intros y [Hy _]%Forall_cons_iff. exact (S y Hy). }
  split; [exact G2|]. apply block_subst; [exact G|exact G2|apply fresh_stands].
Qed.

Lemma merge_sorted_stands g Y last off old blob m :
  try_coalesce last off old blob = Some m ->
  sorted_stands_for g (Y ++ [m]) (Y ++ [last; mkPatch off old blob]).
Proof.
  intros Hc G. destruct (coalesce_inv _ _ _ _ _ Hc) as [Eo Em].
  assert (Io : Forall (in_file (zlen g)) [last; mkPatch off old blob])
    by (apply good_iff in G as [[_ Io]%Forall_app _]; exact Io).
  apply Forall_cons_iff in Io as (Il & (Ic & _)%Forall_cons_iff). unfold in_file in Il, Ic. cbn [p_off p_old] in Ic.
  assert (G1 : good (zlen g) (Y ++ [m])).
  { apply (good_replace _ _ _ _ G). intros _. rewrite Em. split; [|split; [cbn; auto|]].
    - constructor; [|constructor]. unfold in_file. cbn [p_off p_old]. lia.
    - intros y (Hl & (Hy & _)%Forall_cons_iff)%Forall_cons_iff. constructor; [|constructor].
      unfold sep in *. cbn [p_off p_old] in *. lia. }
  split; [exact G1|]. symmetry.
  apply block_subst; [exact G1|exact G|]. apply (unmerge_stands g _ _ _ _ _ Hc); lia.
Qed.

Lemma anyorder_inv g cs : forall X, sorted_stands_for g (X ++ add_all cs) (X ++ map call_patch cs).
Proof.
  induction cs as [|c cs IH] using rev_ind; intros X; [now intros G|].
  rewrite map_app, add_all_snoc. cbn [map].
  apply sorted_stands_trans with (X ++ add_all cs ++ [call_patch c]).
  - unfold call_patch.
    destruct (add_cases (add_all cs) (c_off c) (c_old c) (c_blob c)) as [->|(front & last & m & -> & E & ->)].
    + rewrite !app_assoc. apply fresh_sorted_stands.
    + rewrite <- (app_assoc front). cbn [app]. rewrite !app_assoc. now apply merge_sorted_stands.
  - apply (sorted_stands_perm g ((X ++ [call_patch c]) ++ add_all cs) _ ((X ++ [call_patch c]) ++ map call_patch cs));
      [| |apply IH]; rewrite <- app_assoc; apply Permutation_app_head, Permutation_app_comm.
Qed.
