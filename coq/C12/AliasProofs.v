(* C12/AliasProofs.v — Add never writes through a caller-owned slice; the patch set denotes the calls' blobs as they
   were at call time, for arbitrary (overlapping) views of shared buffers. *)
From Relic Require Import Base.Prelude Base.Enc Base.Slice Generated.C12_gen C12.Model C12.AliasModel.

Notation vok := view_ok.
Definition inv (st : state) : Prop := Forall (fun p => vok (fst st) (hp_view p)) (snd st).

Lemma read_ext h ext v : ((v_buf v < length h)%nat \/ v_len v <= 0) -> read (h ++ ext) v = read h v.
Proof.
  intros [H | H]; unfold read, buf_at.
  - rewrite app_nth1; auto.
  - rewrite !ztake_neg; auto.
Qed.
Lemma vok_ext h ext v : vok h v -> vok (h ++ ext) v.
Proof.
  intros [A B]. split.
  - destruct A; [left; rewrite app_length; lia | right; auto].
  - rewrite read_ext; auto.
Qed.
Lemma vok_nil h : vok h nil_view.
Proof. split; [right; simpl; lia | reflexivity]. Qed.
Lemma dp_ext h ext p : vok h (hp_view p) -> dp (h ++ ext) p = dp h p.
Proof. intros [A _]. unfold dp. rewrite read_ext; auto. Qed.

Lemma read_alloc h d : read (fst (alloc h d)) (snd (alloc h d)) = d.
Proof.
  unfold alloc, read, buf_at; simpl. rewrite app_nth2, Nat.sub_diag; [| lia]. simpl.
  rewrite zdrop_0. apply ztake_all. lia.
Qed.
Lemma vok_alloc h d : vok (fst (alloc h d)) (snd (alloc h d)).
Proof.
  split; [left; unfold alloc; simpl; rewrite app_length; simpl; lia |].
  rewrite read_alloc. reflexivity.
Qed.

(* the generated make length / copy offsets build exactly lastBlob ++ blob *)
Lemma fresh_merge_gen a b :
  fresh_merge (add_merge_make_len (zlen a) (zlen b) (add_new_combo (zlen a) (zlen b)))
              (add_merge_dst1 (zlen a) (zlen b)) (add_merge_dst2 (zlen a) (zlen b)) a b = a ++ b.
Proof.
  unfold fresh_merge, add_merge_make_len, add_merge_dst1, add_merge_dst2, add_new_combo.
  rewrite !Z.eqb_refl. reflexivity.
Qed.

(* the merge allocates: the heap only grows, the merged view shows lastBlob ++ blob *)
Lemma merge_sound h last blob :
  vok h last -> vok h blob ->
  exists ext, fst (merge_mode add_merge_mode h last blob) = h ++ ext /\
              vok (h ++ ext) (snd (merge_mode add_merge_mode h last blob)) /\
              read (h ++ ext) (snd (merge_mode add_merge_mode h last blob)) = read h last ++ read h blob.
Proof.
  intros [_ L] [_ B]. unfold merge_mode. change (add_merge_mode =? 0) with true. cbv iota.
  rewrite <- L, <- B, fresh_merge_gen.
  set (d := read h last ++ read h blob).
  exists [d]. split; [reflexivity |]. split.
  - exact (vok_alloc h d).
  - exact (read_alloc h d).
Qed.

Lemma dp_split h k off : map (dp h) (hsplit_pieces k off) = split_pieces k off.
Proof. revert off; induction k; intros; simpl; [reflexivity |]. rewrite IHk. reflexivity. Qed.
Lemma dp_fresh h off old bv : map (dp h) (hadd_fresh off old bv) = add_fresh off old (read h bv).
Proof. unfold hadd_fresh, add_fresh. rewrite map_app, dp_split. reflexivity. Qed.
Lemma inv_split h k off : Forall (fun p => vok h (hp_view p)) (hsplit_pieces k off).
Proof. revert off; induction k; intros; simpl; constructor; auto. apply vok_nil. Qed.
Lemma inv_fresh h off old bv : vok h bv -> Forall (fun p => vok h (hp_view p)) (hadd_fresh off old bv).
Proof. intros. unfold hadd_fresh. apply Forall_app. split; [apply inv_split | constructor; auto]. Qed.

(* the coalesce branch decides as Model.try_coalesce does on the contents; where it merges, the heap only grows and the
   merged view shows lastBlob ++ blob *)
Lemma htry_coalesce_sound h last off old bv :
  vok h (hp_view last) -> vok h bv ->
  match htry_coalesce add_merge_mode h last off old bv with
  | Some (h', m) => exists ext, h' = h ++ ext /\ vok h' (hp_view m) /\
                               try_coalesce (dp h last) off old (read h bv) = Some (dp h' m)
  | None => try_coalesce (dp h last) off old (read h bv) = None
  end.
Proof.
  intros IL B. unfold htry_coalesce, try_coalesce, p_new, dp. cbn [p_off p_old p_blob].
  rewrite (proj2 IL), (proj2 B).
  destruct (add_coalesce_cond _ _ _ _ _ _ _ _ _); [|reflexivity].
  destruct (add_merge_guard (v_len bv)) eqn:G.
  - destruct (merge_sound h (hp_view last) bv IL B) as (ext & M1 & M2 & M3).
    destruct (merge_mode add_merge_mode h (hp_view last) bv) as [h' m]. cbn [fst snd] in *. subst h'.
    exists ext. cbn [hp_off hp_old hp_view]. now rewrite M3.
  - exists []. cbn [hp_off hp_old hp_view]. split; [symmetry; apply app_nil_r|]. split; [exact IL|].
    unfold add_merge_guard in G. rewrite (zlen_0_nil (read h bv)), app_nil_r; [reflexivity|].
    pose proof (zlen_nonneg (read h bv)). destruct B as [_ B2]. lia.
Qed.

(* ONE Add: the heap is only extended (no byte of any existing buffer changes), the invariant is kept, and the new patch
   set denotes Model.add of the old one with the blob's current content *)
Lemma hadd_step h ps off old bv :
  inv (h, ps) -> vok h bv ->
  exists ext, fst (hadd (h, ps) off old bv) = h ++ ext /\ inv (hadd (h, ps) off old bv) /\
              denote (hadd (h, ps) off old bv) = add (denote (h, ps)) off old (read h bv).
Proof.
  intros I B. destruct ps as [|last front _] using rev_ind;
    unfold inv in I; cbn [fst snd] in I; unfold hadd, hadd_mode, denote, add, inv; cbn [fst snd].
  - exists []. rewrite app_nil_r. cbn [rev map fst snd]. split; [reflexivity|]. split; [now apply inv_fresh|apply dp_fresh].
  - pose proof I as [IF IL%Forall_inv]%Forall_app.
    rewrite map_app. cbn [map]. rewrite !rev_unit, !rev_involutive.
    pose proof (htry_coalesce_sound h last off old bv IL B) as T.
    destruct (htry_coalesce add_merge_mode h last off old bv) as [[h' m]|].
    + destruct T as (ext & -> & Vm & ->). exists ext. cbn [fst snd]. split; [reflexivity|]. split.
      * apply Forall_app. split; [|now constructor]. eapply Forall_impl; [|exact IF]. intros p. apply vok_ext.
      * rewrite map_app. cbn [map]. f_equal. apply map_ext_Forall.
        eapply Forall_impl; [|exact IF]. intros p. apply dp_ext.
    + rewrite T. exists []. rewrite app_nil_r. cbn [fst snd]. split; [reflexivity|]. split.
      * apply Forall_app. split; [exact I|now apply inv_fresh].
      * now rewrite !map_app, dp_fresh.
Qed.

Arguments hadd : simpl never.
(* ALL sequences of Add calls over arbitrary views of the caller's buffers h0 *)
Lemma hadd_all_from h0 cs : forall st ext0,
  fst st = h0 ++ ext0 -> inv st ->
  Forall (fun c => vok h0 (hc_view c)) cs ->
  let st' := fold_left (fun st c => hadd st (hc_off c) (hc_old c) (hc_view c)) cs st in
  (exists ext, fst st' = h0 ++ ext) /\ inv st' /\
  denote st' = fold_left (fun ps c => add ps (c_off c) (c_old c) (c_blob c)) (map (snap h0) cs) (denote st).
Proof.
  induction cs as [| c cs IH]; intros st ext0 H I F; simpl.
  - split; [exists ext0; auto | split; auto].
  - inversion F as [| ? ? Fc Fcs]; subst. destruct st as [h ps]. simpl in H. subst h.
    destruct (hadd_step (h0 ++ ext0) ps (hc_off c) (hc_old c) (hc_view c) I (vok_ext _ _ _ Fc)) as [ext [S1 [S2 S3]]].
    assert (S1' : fst (hadd (h0 ++ ext0, ps) (hc_off c) (hc_old c) (hc_view c)) = h0 ++ (ext0 ++ ext))
      by (rewrite app_assoc; exact S1).
    specialize (IH _ _ S1' S2 Fcs). cbv zeta in IH.
    destruct IH as [A [B C]]. split; auto. split; auto.
    rewrite C. f_equal. rewrite <- (read_ext h0 ext0 (hc_view c)); [exact S3 | destruct Fc; auto].
Qed.

Theorem add_never_writes_caller_bytes : forall h0 cs,
  Forall (fun c => vok h0 (hc_view c)) cs ->
  (exists ext, fst (hadd_all h0 cs) = h0 ++ ext) /\
  (forall v, ((v_buf v < length h0)%nat \/ v_len v <= 0) -> read (fst (hadd_all h0 cs)) v = read h0 v) /\
  denote (hadd_all h0 cs) = add_all (map (snap h0) cs).
Proof.
  intros h0 cs F.
  destruct (hadd_all_from h0 cs (h0, []) [] (eq_sym (app_nil_r h0)) (Forall_nil _) F) as [[ext A] [B C]].
  split; [exists ext; exact A |]. split.
  - intros v Hv. replace (fst (hadd_all h0 cs)) with (h0 ++ ext) by (symmetry; exact A). apply read_ext; auto.
  - exact C.
Qed.
