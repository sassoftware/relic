(* C12/FsProofs.v — lemmas about C12/FsModel.v: whichever strategy Apply chooses after whatever happened to the
   path between open and Apply, the file named by the output path ends up holding the splice of the HANDLE's bytes;
   the in-place strategy is chosen only for the single name of the handle's own inode; no other name changes. *)
From Relic Require Import Base.Prelude Base.Slice Generated.C12_gen C12.Model C12.Proofs C12.FsModel.

Lemma can_ow_true s i j :
  can_ow (stat_of s i) (stat_of s j) = true ->
  j = i /\ kind_of s i = K_REG /\ has_links true (nlink_of i (f_names s)) = false.
Proof.
  unfold can_ow, can_overwrite_io. cbn [stat_of i_kind i_ino i_nlink].
  destruct (kind_of s j =? K_REG) eqn:K; cbn [negb]; [|discriminate].
  destruct (i =? j) eqn:E; cbn [negb]; [|discriminate].
  apply Z.eqb_eq in E. subst j.
  destruct (has_links true (nlink_of i (f_names s))) eqn:L; [discriminate|].
  intros _. repeat split. now apply Z.eqb_eq in K.
Qed.

Lemma has_links_one n : 1 <= n -> has_links true n = false -> n = 1.
Proof. unfold has_links. cbv beta zeta iota. cbn [negb]. intros H1 H2. lia. Qed.

Lemma nlink_cons q k i l : nlink_of i ((q, k) :: l) = (if k =? i then 1 else 0) + nlink_of i l.
Proof. unfold nlink_of. cbn [filter snd]. destruct (k =? i); [rewrite zlen_cons|]; lia. Qed.
Lemma nlink_nonneg i l : 0 <= nlink_of i l.
Proof. unfold nlink_of. apply zlen_nonneg. Qed.

Lemma nlookup_nlink_pos p l i : nlookup p l = Some i -> 1 <= nlink_of i l.
Proof.
  induction l as [|[q k] l IH]; cbn [nlookup]; [discriminate|].
  rewrite nlink_cons. pose proof (nlink_nonneg i l). destruct (bytes_eqb q p).
  - intros E. injection E as ->. rewrite Z.eqb_refl. lia.
  - intros E. apply IH in E. destruct (k =? i); lia.
Qed.

Lemma strategy_eq s h outpath :
  let op := spec_outpath outpath (h_name h) in
  strategy s h outpath =
  match lookup s op with
  | Some j => if can_ow (stat_of s (h_ino h)) (stat_of s j) && h_rw h
              then SInplace op (stat_of s (h_ino h)) (stat_of s j) (zlen (data_of s (h_ino h)))
              else SRewrite op
  | None => SRewrite op
  end.
Proof.
  unfold strategy, apply_prefix.
  destruct outpath as [|c r]; cbn [bytes_eqb list_eqb spec_outpath]; cbv beta zeta iota;
  (destruct (lookup s _); [destruct (can_ow _ _), (h_rw h)|]; reflexivity).
Qed.

(* the two ways Apply ends on a state with an open handle: write-then-rename to the output path, or, when every test
   before and in the eligibility loop passes, a write through the handle *)
Lemma apply_fs_cases ps outpath s h :
  f_handle s = Some h ->
  let op := spec_outpath outpath (h_name h) in
  let i := h_ino h in
  (chose_inplace ps outpath s = false /\ apply_fs ps outpath s = do_rewrite ps s h op) \/
  (exists sz, chose_inplace ps outpath s = true /\ eligible ps (data_of s i) = Some sz /\
     apply_fs ps outpath s = Ok (with_inodes s (iset i (mkInode K_REG (inplace ps (data_of s i) sz)) (f_inodes s))) /\
     lookup s op = Some i /\ kind_of s i = K_REG /\ nlink_of i (f_names s) = 1 /\ h_rw h = true).
Proof.
  intros Hh op i. unfold chose_inplace, apply_fs. rewrite Hh, strategy_eq. fold op i.
  destruct (lookup s op) as [j|] eqn:L; [|left; auto].
  destruct (can_ow _ _) eqn:C; [|left; auto]. destruct (h_rw h) eqn:W; [|left; auto]. cbn [andb].
  apply can_ow_true in C as (-> & K & N). cbn [stat_of i_size]. fold (eligible ps (data_of s i)).
  destruct (eligible ps (data_of s i)) as [z|]; [right|left; auto].
  exists z. rewrite K. repeat split; try assumption.
  apply has_links_one; [|exact N]. now apply nlookup_nlink_pos in L.
Qed.

Lemma nlookup_nset_same p i l : nlookup p (nset p i l) = Some i.
Proof. unfold nset. cbn [nlookup]. now rewrite bytes_eqb_refl. Qed.

Lemma do_rewrite_exact ps s h op s' :
  asc_disjoint 0 ps (zlen (data_of s (h_ino h))) = true ->
  do_rewrite ps s h op = Ok s' ->
  read_path s' op = Some (splice ps (data_of s (h_ino h))).
Proof.
  intros Hd. unfold do_rewrite. change rewrite_seeks_start with true. cbv iota.
  rewrite (rewrite_sorted _ _ Hd). cbn [bind].
  unfold commit_over. destruct (may_replace _ _ _).
  - intros E. injection E as <-.
    unfold read_path, lookup, with_names, alloc. cbn [f_names f_inodes].
    rewrite nlookup_nset_same. unfold kind_of, data_of. cbn [f_inodes ilookup].
    rewrite Z.eqb_refl. cbn [n_kind n_data]. reflexivity.
  - change rewrite_returns_commit with true. cbv iota. discriminate.
Qed.

Lemma ilookup_iset_same i n l : ilookup i (iset i n l) = Some n.
Proof.
  induction l as [|[j m] l IH]; cbn [iset ilookup]; [now rewrite Z.eqb_refl|].
  destruct (j =? i) eqn:E; cbn [ilookup]; [now rewrite Z.eqb_refl|now rewrite E].
Qed.
Lemma ilookup_iset_other i j n l : j <> i -> ilookup j (iset i n l) = ilookup j l.
Proof.
  intros Hn. induction l as [|[k m] l IH]; cbn [iset ilookup].
  - destruct (i =? j) eqn:E; [lia|reflexivity].
  - destruct (k =? i) eqn:E; cbn [ilookup].
    + destruct (i =? j) eqn:E1; [lia|]. destruct (k =? j) eqn:E2; [lia|reflexivity].
    + destruct (k =? j); [reflexivity|exact IH].
Qed.

Lemma kind_of_iset s i n : kind_of (with_inodes s (iset i n (f_inodes s))) i = n_kind n.
Proof. unfold kind_of, with_inodes. cbn [f_inodes]. now rewrite ilookup_iset_same. Qed.
Lemma data_of_iset s i n : data_of (with_inodes s (iset i n (f_inodes s))) i = n_data n.
Proof. unfold data_of, with_inodes. cbn [f_inodes]. now rewrite ilookup_iset_same. Qed.

Theorem apply_fs_exact_any s ps outpath h s' :
  f_handle s = Some h ->
  asc_disjoint 0 ps (zlen (data_of s (h_ino h))) = true ->
  apply_fs ps outpath s = Ok s' ->
  read_path s' (spec_outpath outpath (h_name h)) = Some (splice ps (data_of s (h_ino h))).
Proof.
  intros Hh Hd. destruct (apply_fs_cases ps outpath s h Hh) as [[_ ->]|(sz & _ & E & -> & L & _)].
  - now apply do_rewrite_exact.
  - intros X. injection X as <-. unfold read_path. change (lookup (with_inodes s _) ?p) with (lookup s p).
    rewrite L, kind_of_iset, data_of_iset. cbn. now rewrite inplace_splice.
Qed.

Theorem inplace_only_when_safe_any s ps outpath h :
  f_handle s = Some h -> chose_inplace ps outpath s = true ->
  lookup s (spec_outpath outpath (h_name h)) = Some (h_ino h) /\ nlink_of (h_ino h) (f_names s) = 1 /\
  kind_of s (h_ino h) = K_REG.
Proof.
  intros Hh C. destruct (apply_fs_cases ps outpath s h Hh) as [[C' _]|(sz & _ & _ & _ & L & K & N & _)]; [congruence|auto].
Qed.

Definition wf (s : fs) : Prop :=
  (forall p i, In (p, i) (f_names s) -> i < f_next s) /\ (forall i n, In (i, n) (f_inodes s) -> i < f_next s).

Lemma nlookup_in p l i : nlookup p l = Some i -> exists q, In (q, i) l.
Proof.
  induction l as [|[q k] l IH]; cbn [nlookup]; [discriminate|].
  destruct (bytes_eqb q p).
  - intros E. injection E as ->. exists q. now left.
  - intros E. destruct (IH E) as [q' H]. exists q'. now right.
Qed.
Lemma in_nremove e p l : In e (nremove p l) -> In e l.
Proof. unfold nremove. intros H. now apply filter_In in H. Qed.
Lemma in_nset q j p i l : In (q, j) (nset p i l) -> j = i \/ In (q, j) l.
Proof. unfold nset. intros [E|H]; [left; congruence|right; now apply in_nremove in H]. Qed.
Lemma in_iset j m i n l : In (j, m) (iset i n l) -> j = i \/ In (j, m) l.
Proof.
  induction l as [|[k x] l IH]; cbn [iset].
  - intros [E|[]]. left. congruence.
  - destruct (k =? i) eqn:E.
    + intros [H|H]; [left; congruence|right; now right].
    + intros [H|H]; [right; now left|]. destruct (IH H); [now left|right; now right].
Qed.

Lemma wf_fs0 : wf fs0.
Proof. split; intros ? ? []. Qed.

Lemma lookup_lt s p i : wf s -> lookup s p = Some i -> i < f_next s.
Proof. intros [W _] L. apply nlookup_in in L as [q H]. eauto. Qed.

Lemma wf_alloc s k d : wf s -> wf (alloc s k d).
Proof.
  intros [W1 W2]. split; cbn [alloc f_names f_inodes f_next].
  - intros p i H. apply W1 in H. lia.
  - intros i n [E|H]; [injection E as <- _; lia|apply W2 in H; lia].
Qed.
Lemma wf_nset s p i : wf s -> i < f_next s -> wf (with_names s (nset p i (f_names s))).
Proof.
  intros [W1 W2] Hi. split; cbn [with_names f_names f_inodes f_next]; [|exact W2].
  intros q j H. apply in_nset in H as [->|H]; [exact Hi|eauto].
Qed.
Lemma wf_names_sub s l : wf s -> (forall e, In e l -> In e (f_names s)) -> wf (with_names s l).
Proof. intros [W1 W2] Hs. split; cbn [with_names f_names f_inodes f_next]; [|exact W2]. intros p i H. eauto. Qed.
Lemma wf_handle s h : wf s -> wf (with_handle s h).
Proof. intros W. exact W. Qed.
Lemma wf_iset s i n : wf s -> i < f_next s -> wf (with_inodes s (iset i n (f_inodes s))).
Proof.
  intros [W1 W2] Hi. split; cbn [with_inodes f_names f_inodes f_next]; [exact W1|].
  intros j m H. apply in_iset in H as [->|H]; [exact Hi|eauto].
Qed.
Lemma wf_create s k d p : wf s -> wf (with_names (alloc s k d) (nset p (f_next s) (f_names (alloc s k d)))).
Proof. intros W. apply wf_nset; [now apply wf_alloc|]. cbn [alloc f_next]. lia. Qed.
Lemma wf_rename s i src dst : wf s -> i < f_next s ->
  wf (with_names s (nset (canon dst) i (nremove (canon src) (f_names s)))).
Proof.
  intros [W1 W2] Hi. split; cbn [with_names f_names f_inodes f_next]; [|exact W2].
  intros q j H. apply in_nset in H as [->|H]; [exact Hi|]. apply in_nremove in H. eauto.
Qed.

Lemma step_wf o s : wf s -> wf (step o s).
Proof.
  intros W. destruct o as [p d|p d|p|src dst|src dst|p|p|p|p|n]; cbn [step].
  - unfold commit_over. destruct (may_replace _ _ _); [now apply wf_create|exact W].
  - destruct (lookup s p) as [i|] eqn:L; [|exact W]. destruct (kind_of s i =? K_REG); [|exact W].
    apply wf_iset; [exact W|]. eapply lookup_lt; eauto.
  - apply wf_names_sub; [exact W|]. intros e. apply in_nremove.
  - destruct (lookup s src) as [i|] eqn:L; [|exact W]. destruct (lookup s dst); [exact W|].
    destruct (kind_of s i =? K_DIR); [exact W|]. apply wf_nset; [exact W|]. eapply lookup_lt; eauto.
  - destruct (lookup s src) as [i|] eqn:L; [|exact W].
    assert (Hi : i < f_next s) by (eapply lookup_lt; eauto).
    destruct (lookup s dst) as [j|].
    + destruct (j =? i); [exact W|]. destruct (may_replace s i dst); [|exact W]. now apply wf_rename.
    + now apply wf_rename.
  - destruct (lookup s p); [exact W|now apply wf_create].
  - destruct (lookup s p); [exact W|now apply wf_create].
  - destruct (lookup s p) as [i|]; [|exact W]. destruct (kind_of s i =? K_REG); exact W.
  - destruct (lookup s p) as [i|]; [|exact W]. destruct (kind_of s i =? K_REG); exact W.
  - destruct (f_handle s) as [h|]; [|exact W]. destruct (0 <=? n); exact W.
Qed.

Lemma run_wf hist : forall s, wf s -> wf (run_history hist s).
Proof.
  unfold run_history. induction hist as [|o hist IH]; intros s W; cbn [fold_left]; [exact W|].
  apply IH. now apply step_wf.
Qed.

Lemma nlookup_nremove_other p q l : q <> p -> nlookup q (nremove p l) = nlookup q l.
Proof.
  intros Hn. induction l as [|[r k] l IH]; [reflexivity|].
  unfold nremove. cbn [filter fst nlookup]. fold (nremove p l).
  destruct (bytes_eqb r p) eqn:E1; cbn [negb].
  - apply bytes_eqb_eq in E1. subst r. destruct (bytes_eqb p q) eqn:E2; [apply bytes_eqb_eq in E2; congruence|exact IH].
  - cbn [nlookup]. destruct (bytes_eqb r q); [reflexivity|exact IH].
Qed.
Lemma nlookup_nset_other p q i l : q <> p -> nlookup q (nset p i l) = nlookup q l.
Proof.
  intros Hn. unfold nset. cbn [nlookup]. destruct (bytes_eqb p q) eqn:E; [apply bytes_eqb_eq in E; congruence|].
  now apply nlookup_nremove_other.
Qed.
Lemma two_names p q l i : nlookup p l = Some i -> nlookup q l = Some i -> p <> q -> 2 <= nlink_of i l.
Proof.
  intros Hp Hq Hn. induction l as [|[r k] l IH]; [discriminate|].
  cbn [nlookup] in Hp, Hq. rewrite nlink_cons. pose proof (nlink_nonneg i l).
  destruct (bytes_eqb r p) eqn:E1; destruct (bytes_eqb r q) eqn:E2.
  - apply bytes_eqb_eq in E1, E2. congruence.
  - injection Hp as ->. rewrite Z.eqb_refl. apply nlookup_nlink_pos in Hq. lia.
  - injection Hq as ->. rewrite Z.eqb_refl. apply nlookup_nlink_pos in Hp. lia.
  - specialize (IH Hp Hq). destruct (k =? i); lia.
Qed.

Lemma do_rewrite_others ps s h op s' q :
  wf s -> do_rewrite ps s h op = Ok s' -> canon q <> canon op -> read_path s' q = read_path s q.
Proof.
  intros W. unfold do_rewrite. destruct (rewrite ps _) as [d| |]; cbn [bind]; try discriminate.
  unfold commit_over. destruct (may_replace _ _ _).
  - intros E Hn. injection E as <-.
    unfold read_path, lookup. cbn [with_names alloc f_names]. rewrite nlookup_nset_other by exact Hn.
    destruct (nlookup (canon q) (f_names s)) as [j|] eqn:L; [|reflexivity].
    assert (Hj : j < f_next s) by (eapply lookup_lt; eauto).
    unfold kind_of, data_of. cbn [with_names alloc f_inodes ilookup]. destruct (f_next s =? j) eqn:E; [lia|reflexivity].
  - change rewrite_returns_commit with true. cbv iota. discriminate.
Qed.

Theorem apply_fs_others_any s ps outpath h s' q :
  wf s -> f_handle s = Some h -> apply_fs ps outpath s = Ok s' ->
  canon q <> canon (spec_outpath outpath (h_name h)) ->
  read_path s' q = read_path s q.
Proof.
  intros W Hh. destruct (apply_fs_cases ps outpath s h Hh) as [[_ ->]|(sz & _ & _ & -> & L & _ & N & _)].
  - now apply do_rewrite_others.
  - intros X Hn. injection X as <-. unfold read_path, lookup. cbn [with_inodes f_names].
    destruct (nlookup (canon q) (f_names s)) as [j|] eqn:Lq; [|reflexivity].
    assert (Hj : j <> h_ino h) by (intros ->; pose proof (two_names _ _ _ _ Lq L Hn); lia).
    unfold kind_of, data_of. cbn [with_inodes f_inodes]. now rewrite ilookup_iset_other by exact Hj.
Qed.

Theorem apply_after_history hist ps outpath h s' :
  let s := run_history hist fs0 in
  f_handle s = Some h ->
  asc_disjoint 0 ps (zlen (data_of s (h_ino h))) = true ->
  apply_fs ps outpath s = Ok s' ->
  read_path s' (spec_outpath outpath (h_name h)) = Some (splice ps (data_of s (h_ino h))).
Proof. intros s. apply apply_fs_exact_any. Qed.

Theorem inplace_only_when_safe hist ps outpath h :
  let s := run_history hist fs0 in
  f_handle s = Some h -> chose_inplace ps outpath s = true ->
  lookup s (spec_outpath outpath (h_name h)) = Some (h_ino h) /\ nlink_of (h_ino h) (f_names s) = 1 /\
  kind_of s (h_ino h) = K_REG.
Proof. intros s. apply inplace_only_when_safe_any. Qed.

(* in place and write-then-rename give the same bytes: any two output paths, same history, same patch *)
Theorem strategies_agree hist ps o1 o2 h s1 s2 :
  let s := run_history hist fs0 in
  f_handle s = Some h ->
  asc_disjoint 0 ps (zlen (data_of s (h_ino h))) = true ->
  apply_fs ps o1 s = Ok s1 -> apply_fs ps o2 s = Ok s2 ->
  read_path s1 (spec_outpath o1 (h_name h)) = read_path s2 (spec_outpath o2 (h_name h)).
Proof.
  intros s Hh Hd A1 A2.
  rewrite (apply_fs_exact_any s ps o1 h s1 Hh Hd A1), (apply_fs_exact_any s ps o2 h s2 Hh Hd A2). reflexivity.
Qed.

Lemma do_rewrite_succeeds ps s h op :
  asc_disjoint 0 ps (zlen (data_of s (h_ino h))) = true ->
  (forall j, lookup s op = Some j -> kind_of s j <> K_DIR) ->
  exists s', do_rewrite ps s h op = Ok s'.
Proof.
  intros Hd Hk. unfold do_rewrite. change rewrite_seeks_start with true. cbv iota.
  rewrite (rewrite_sorted _ _ Hd). cbn [bind]. unfold commit_over.
  assert (M : may_replace (alloc s K_REG (splice ps (data_of s (h_ino h)))) (f_next s) op = true).
  { unfold may_replace. unfold lookup at 1. cbn [alloc f_names]. fold (lookup s op).
    destruct (lookup s op) as [j|] eqn:L; [|reflexivity].
    unfold kind_of. cbn [alloc f_inodes ilookup]. rewrite Z.eqb_refl. cbn [n_kind].
    destruct (f_next s =? j) eqn:E; [reflexivity|].
    specialize (Hk j eq_refl). unfold kind_of in Hk.
    destruct (ilookup j (f_inodes s)) as [n|]; [|reflexivity].
    destruct (n_kind n =? K_DIR) eqn:E2; [apply Z.eqb_eq in E2; contradiction|reflexivity]. }
  rewrite M. eauto.
Qed.

Theorem apply_total_any s ps outpath h :
  f_handle s = Some h ->
  asc_disjoint 0 ps (zlen (data_of s (h_ino h))) = true ->
  (forall j, lookup s (spec_outpath outpath (h_name h)) = Some j -> kind_of s j <> K_DIR) ->
  exists s', apply_fs ps outpath s = Ok s'.
Proof.
  intros Hh Hd Hk. destruct (apply_fs_cases ps outpath s h Hh) as [[_ ->]|(sz & _ & _ & -> & _)]; [|eauto].
  now apply do_rewrite_succeeds.
Qed.

Theorem apply_total hist ps outpath h :
  let s := run_history hist fs0 in
  f_handle s = Some h ->
  asc_disjoint 0 ps (zlen (data_of s (h_ino h))) = true ->
  (forall j, lookup s (spec_outpath outpath (h_name h)) = Some j -> kind_of s j <> K_DIR) ->
  exists s', apply_fs ps outpath s = Ok s'.
Proof. intros s. apply apply_total_any. Qed.
