(* C12/Properties.v — the property theorems; the lemmas behind them are in C12/Proofs.v, FsProofs.v, AliasProofs.v *)
From Relic Require Import Base.Prelude Base.Enc Generated.C12_gen C12.Model C12.Proofs C12.FsModel C12.FsProofs C12.AliasModel C12.AliasProofs.
From Coq Require Import Permutation.

(* 1. write-then-rename on an ascending, disjoint, in-bounds patch list is the reference splice *)
Theorem rewrite_is_splice : forall ps file,
  asc_disjoint 0 ps (zlen file) = true -> rewrite ps file = Ok (splice ps file).
Proof. exact C12.Proofs.rewrite_sorted. Qed.

(* 2. Add in file order: coalescing and 4 GiB splitting never change the meaning *)
Theorem add_fileorder_sound : forall cs file,
  asc_disjoint 0 (map call_patch cs) (zlen file) = true ->
  asc_disjoint 0 (add_all cs) (zlen file) = true /\
  splice (add_all cs) file = splice (map call_patch cs) file.
Proof. exact C12.Proofs.add_fileorder_sound. Qed.

(* 3. the sort in Dump: with distinct offsets every offset-sorted permutation is the insertion sort *)
Theorem sorted_perm_unique : forall q ps,
  Permutation q ps -> nondecreasing q = true -> strictly_asc (isort ps) = true -> q = isort ps.
Proof.
  intros q ps HP Hq Hs. apply sorted_unique; [|assumption|assumption].
  rewrite HP. symmetry. apply isort_perm.
Qed.

(* 4. whole pipeline, builders that add in file order (PE, CAB, JAR, XAP, ...) *)
Theorem apply_fileorder : forall cs file q,
  asc_disjoint 0 (map call_patch cs) (zlen file) = true ->
  Permutation q (add_all cs) -> nondecreasing q = true -> strictly_asc (isort (add_all cs)) = true ->
  rewrite q file = Ok (splice_calls cs file).
Proof.
  intros cs file q H HP Hq Hs.
  destruct (add_fileorder_sound cs file H) as [A S].
  rewrite (sorted_perm_unique q _ HP Hq Hs).
  rewrite (isort_id (add_all cs)) by (eapply asc_nondecreasing; exact A).
  unfold splice_calls. rewrite (isort_id (map call_patch cs)) by (eapply asc_nondecreasing; exact H).
  rewrite rewrite_is_splice by exact A. now rewrite S.
Qed.

(* 5. whole pipeline, builders that add in any order with distinct offsets (Mach-O) *)
Theorem apply_anyorder : forall cs file,
  asc_disjoint 0 (isort (map call_patch cs)) (zlen file) = true ->
  strictly_asc (isort (map call_patch cs)) = true ->
  rewrite (isort (add_all cs)) file = Ok (splice_calls cs file).
Proof.
  intros cs file H1 H2.
  destruct (anyorder_inv file cs []) as [[A _] S]; [split; assumption|].
  cbn [app] in *. rewrite rewrite_is_splice by exact A. unfold splice_calls. now rewrite S.
Qed.

(* 6. serialise / parse round trip *)
Theorem load_dump : forall ps,
  Forall patch_ok ps -> zlen ps < 2 ^ 32 -> load (dump_sorted ps) = Ok ps.
Proof.
  intros ps H Hn. unfold dump_sorted.
  rewrite load_with_header by (pose proof (zlen_nonneg ps); lia).
  unfold zlen at 1. rewrite Nat2Z.id, read_headers_ok by exact H. cbn [bind fst snd].
  rewrite <- (app_nil_r (concat (map p_blob ps))). apply read_blobs_ok.
Qed.

(* 7. truncated or wrong-version patches are rejected (Load precedes any access to the target) *)
Theorem load_rejects_prefix : forall ps n,
  Forall patch_ok ps -> zlen ps < 2 ^ 32 -> 0 <= n < zlen (dump_sorted ps) ->
  exists e, load (ztake n (dump_sorted ps)) = Err e.
Proof. intros ps n H Hps Hn. exists E_SHORT. now apply load_prefix_short. Qed.
Theorem load_rejects_version : forall l,
  8 <= zlen l -> be_dec (zslice 0 4 l) <> 1 -> load l = Err E_VERSION.
Proof.
  intros l H Hv. unfold load, psh_size.
  replace (zlen l <? 8) with false by lia. cbv zeta.
  unfold load_version_bad. replace (be_dec (zslice 0 4 l) =? 1) with false by lia. reflexivity.
Qed.

(* 8. in-place and write-then-rename agree whenever Apply chooses in-place *)
Theorem inplace_eq_rewrite : forall ps file size,
  asc_disjoint 0 ps (zlen file) = true -> eligible ps file = Some size ->
  rewrite ps file = Ok (inplace ps file size).
Proof. exact C12.Proofs.inplace_eq_rewrite. Qed.

(* non-vacuity: a PE-like shape (checksum field, dir entry, appended table) and a JAR-like shape *)
Example pe_shape_in_domain :
  let file := repeat 7 40%nat in
  let cs := [mkCall 8 4 [1;2;3;4]; mkCall 20 8 [0;0;0;0;9;9;9;9]; mkCall 40 0 [5;5;5]] in
  asc_disjoint 0 (map call_patch cs) (zlen file) = true /\
  eligible (add_all cs) file = Some 43 /\
  rewrite (add_all cs) file = Ok (inplace (add_all cs) file 43).
Proof. vm_compute. repeat split. Qed.
Example coalesce_happens : add_all [mkCall 0 2 [1]; mkCall 2 3 [2; 3]] = [mkPatch 0 5 [1; 2; 3]].
Proof. reflexivity. Qed.

(* ------------------------------------------------------------------ which file Apply writes to (C12/FsModel.v)
   hist ranges over ALL sequences of create-by-rename / overwrite / unlink / hard link / rename / mkdir / symlink /
   open / seek performed before Apply; outpath over all strings ("" = the name the handle was opened under). *)

(* 9. after Apply returns nil the file NAMED by the output path holds the splice of the bytes of the file the HANDLE
      refers to — whichever strategy the stat results made Apply choose *)
Theorem apply_after_history : forall hist ps outpath h s',
  let s := run_history hist fs0 in
  f_handle s = Some h ->
  asc_disjoint 0 ps (zlen (data_of s (h_ino h))) = true ->
  apply_fs ps outpath s = Ok s' ->
  read_path s' (spec_outpath outpath (h_name h)) = Some (splice ps (data_of s (h_ino h))).
Proof. exact C12.FsProofs.apply_after_history. Qed.

(* 10. Apply writes through the handle only when the handle's inode is a regular file, is what the output path names
       now, and has exactly one link *)
Theorem inplace_only_when_safe : forall hist ps outpath h,
  let s := run_history hist fs0 in
  f_handle s = Some h -> chose_inplace ps outpath s = true ->
  lookup s (spec_outpath outpath (h_name h)) = Some (h_ino h) /\ nlink_of (h_ino h) (f_names s) = 1 /\
  kind_of s (h_ino h) = K_REG.
Proof. exact C12.FsProofs.inplace_only_when_safe. Qed.
Theorem inplace_matches_spec : forall hist ps outpath,
  let s := run_history hist fs0 in
  chose_inplace ps outpath s = true -> spec_inplace_allowed outpath s = true.
Proof.
  intros hist ps outpath s H. unfold spec_inplace_allowed.
  destruct (f_handle s) as [h|] eqn:Hh; [|unfold chose_inplace in H; now rewrite Hh in H].
  destruct (inplace_only_when_safe_any s ps outpath h Hh H) as (L & N & _). now rewrite L, N, Z.eqb_refl.
Qed.

(* 11. no other name changes what it refers to or what a reader sees there (the reason for the one-link rule) *)
Theorem other_names_untouched : forall hist ps outpath h s' q,
  let s := run_history hist fs0 in
  f_handle s = Some h -> apply_fs ps outpath s = Ok s' ->
  canon q <> canon (spec_outpath outpath (h_name h)) ->
  read_path s' q = read_path s q.
Proof. intros hist ps outpath h s' q s. apply apply_fs_others_any, run_wf, wf_fs0. Qed.

(* 12. the in-place strategy and the write-then-rename strategy produce identical results: same history, same patch
       set, any two output paths *)
Theorem strategies_agree : forall hist ps o1 o2 h s1 s2,
  let s := run_history hist fs0 in
  f_handle s = Some h ->
  asc_disjoint 0 ps (zlen (data_of s (h_ino h))) = true ->
  apply_fs ps o1 s = Ok s1 -> apply_fs ps o2 s = Ok s2 ->
  read_path s1 (spec_outpath o1 (h_name h)) = read_path s2 (spec_outpath o2 (h_name h)).
Proof. exact C12.FsProofs.strategies_agree. Qed.

(* 13. a valid application is carried out: ranges inside the handle's file, the output path does not name a directory
       => Apply returns nil (with 9: and the output path then holds the splice) — for read-only handles as well: the
       in-place strategy is never chosen through a handle that cannot be written (fix: canWrite in Apply) *)
Theorem apply_total : forall hist ps outpath h,
  let s := run_history hist fs0 in
  f_handle s = Some h ->
  asc_disjoint 0 ps (zlen (data_of s (h_ino h))) = true ->
  (forall j, lookup s (spec_outpath outpath (h_name h)) = Some j -> kind_of s j <> K_DIR) ->
  exists s', apply_fs ps outpath s = Ok s'.
Proof. exact C12.FsProofs.apply_total. Qed.
Theorem inplace_needs_writable : forall s ps outpath h,
  f_handle s = Some h -> chose_inplace ps outpath s = true -> h_rw h = true.
Proof.
  intros s ps outpath h Hh C.
  destruct (apply_fs_cases ps outpath s h Hh) as [[C' _]|(sz & _ & _ & _ & _ & _ & _ & W)]; [congruence|exact W].
Qed.

(* non-vacuity: P = "in", Q = "out", L = "ln"; an in-place eligible patch set (size-preserving + append at EOF) *)
Definition xP : bytes := [105; 110].
Definition xQ : bytes := [111; 117; 116].
Definition xL : bytes := [108; 110].
Definition xps : list patch := [mkPatch 1 2 [8; 9]; mkPatch 4 0 [5; 5]].
Definition xd0 : bytes := [1; 2; 3; 4].
Definition xd1 : bytes := [7; 7; 7; 7; 7].
Definition after (hist : list op) (outpath : bytes) (p : bytes) : bool * option bytes :=
  let s := run_history hist fs0 in
  (chose_inplace xps outpath s, match apply_fs xps outpath s with Ok s' => read_path s' p | _ => None end).
(* fresh open, same name: in place *)
Example hist_fresh_inplace : after [OCreate xP xd0; OOpen xP] [] xP = (true, Some [1; 8; 9; 4; 5; 5]).
Proof. vm_compute. reflexivity. Qed.
(* the path was replaced by write-then-rename after the open (the handle's inode has 0 links): rewrite, and the
   path gets the splice of the HANDLE's bytes, not of the replacement *)
Example hist_replaced_rewrite :
  after [OCreate xP xd0; OOpen xP; OCreate xP xd1] [] xP = (false, Some [1; 8; 9; 4; 5; 5]) /\
  after [OCreate xP xd0; OOpen xP; OCreate xP xd1] xP xP = (false, Some [1; 8; 9; 4; 5; 5]).
Proof. vm_compute. split; reflexivity. Qed.
(* the file was renamed away and a new one created under the old name: the handle's inode still has ONE link *)
Example hist_renamed_away_rewrite :
  after [OCreate xP xd0; OOpen xP; ORename xP xQ; OCreate xP xd1] [] xP = (false, Some [1; 8; 9; 4; 5; 5]) /\
  after [OCreate xP xd0; OOpen xP; ORename xP xQ; OCreate xP xd1] [] xQ = (false, Some xd0) /\
  after [OCreate xP xd0; OOpen xP; ORename xP xQ; OCreate xP xd1] xQ xQ = (true, Some [1; 8; 9; 4; 5; 5]).
Proof. vm_compute. repeat split; reflexivity. Qed.
(* hard-linked: rewrite, the other name keeps the old bytes; unlinked: the name is created again *)
Example hist_hardlink_rewrite :
  after [OCreate xP xd0; OOpen xP; OLink xP xL] [] xP = (false, Some [1; 8; 9; 4; 5; 5]) /\
  after [OCreate xP xd0; OOpen xP; OLink xP xL] [] xL = (false, Some xd0) /\
  after [OCreate xP xd0; OOpen xP; OUnlink xP] [] xP = (false, Some [1; 8; 9; 4; 5; 5]).
Proof. vm_compute. repeat split; reflexivity. Qed.
(* a read-only handle on the single-link file at the output path (relic sign -f ./x -o x): write-then-rename *)
Example hist_readonly_rewrite :
  after [OCreate xP xd0; OOpenRO xP] [] xP = (false, Some [1; 8; 9; 4; 5; 5]) /\
  after [OCreate xP xd0; OOpenRO xP] xP xP = (false, Some [1; 8; 9; 4; 5; 5]).
Proof. vm_compute. split; reflexivity. Qed.
(* a directory at the output path: the rename fails, Apply returns an error (the theorems' hypothesis Ok is not vacuous
   only because this is the sole failing shape in the domain) *)
Example hist_dir_dest_error :
  apply_fs xps xQ (run_history [OCreate xP xd0; OOpen xP; OMkdir xQ] fs0) = Err E_RENAME.
Proof. vm_compute. reflexivity. Qed.

(* ------------------------------------------------------------------ aliasing of the blobs handed to Add (C12/AliasModel.v)
   h0 = the caller's buffers; every call's blob is an arbitrary view (buffer, offset, length, capacity) of them — views may
   overlap, share a buffer, and have spare capacity reaching into other blobs. *)

(* 14. no Add writes a byte of any existing buffer (the heap only grows), so every previously added blob and every caller
       slice still shows what it showed, and the patch set denotes Model.add_all of the blob CONTENTS AT CALL TIME *)
Theorem add_never_writes_caller_bytes : forall h0 cs,
  Forall (fun c => view_ok h0 (hc_view c)) cs ->
  (exists ext, fst (hadd_all h0 cs) = h0 ++ ext) /\
  (forall v, ((v_buf v < length h0)%nat \/ v_len v <= 0) -> read (fst (hadd_all h0 cs)) v = read h0 v) /\
  denote (hadd_all h0 cs) = add_all (map (snap h0) cs).
Proof. exact C12.AliasProofs.add_never_writes_caller_bytes. Qed.
Theorem add_allocates_merged_blob : add_merge_mode = 0 /\ add_writes_through_caller = false /\ add_stores_caller_slice = true.
Proof. split; [|split]; reflexivity. Qed.

(* 15. hence the whole pipeline over aliased blobs: the result is the reference splice of the call-time contents *)
Theorem apply_anyorder_aliased : forall h0 cs file,
  Forall (fun c => view_ok h0 (hc_view c)) cs ->
  asc_disjoint 0 (isort (map call_patch (map (snap h0) cs))) (zlen file) = true ->
  strictly_asc (isort (map call_patch (map (snap h0) cs))) = true ->
  rewrite (isort (denote (hadd_all h0 cs))) file = Ok (splice_calls (map (snap h0) cs) file).
Proof.
  intros h0 cs file F A S. destruct (add_never_writes_caller_bytes h0 cs F) as (_ & _ & ->).
  now apply apply_anyorder.
Qed.
Theorem add_fileorder_aliased : forall h0 cs file,
  Forall (fun c => view_ok h0 (hc_view c)) cs ->
  asc_disjoint 0 (map call_patch (map (snap h0) cs)) (zlen file) = true ->
  splice (denote (hadd_all h0 cs)) file = splice (map call_patch (map (snap h0) cs)) file.
Proof.
  intros h0 cs file F A. destruct (add_never_writes_caller_bytes h0 cs F) as (_ & _ & ->).
  now apply add_fileorder_sound.
Qed.

(* non-vacuity: hdr = "AAAABBBBCCCCDDDD" (65..68 x4); Add(20,4,hdr[4:8]); Add(0,4,hdr[0:4]); Add(4,4,"XXXX") — the third call
   coalesces with the second, whose blob has spare capacity reaching into the first call's blob *)
Definition xhdr : bytes := [65;65;65;65;66;66;66;66;67;67;67;67;68;68;68;68].
Definition xh0 : heap := [xhdr; [88;88;88;88]].
Definition xcs : list hcall := [mkHC 20 4 (mkView 0 4 4 12); mkHC 0 4 (mkView 0 0 4 16); mkHC 4 4 (mkView 1 0 4 4)].
Example shared_header_in_domain :
  Forall (fun c => view_ok xh0 (hc_view c)) xcs /\
  denote (hadd_all xh0 xcs) = [mkPatch 20 4 [66;66;66;66]; mkPatch 0 8 [65;65;65;65;88;88;88;88]] /\
  fst (hadd_all xh0 xcs) = xh0 ++ [[65;65;65;65;88;88;88;88]].
Proof. split; [repeat constructor; vm_compute; (lia || reflexivity) | vm_compute; split; reflexivity]. Qed.
(* the theorem is about the source: the same calls under the OTHER merge (append onto the previous blob) overwrite the
   first call's content behind its back — this is what add_merge_mode = 0 excludes *)
Example append_merge_would_alias :
  denote (hadd_all_mode 1 xh0 xcs) = [mkPatch 20 4 [88;88;88;88]; mkPatch 0 8 [65;65;65;65;88;88;88;88]] /\
  buf_at (fst (hadd_all_mode 1 xh0 xcs)) 0 <> xhdr.
Proof. vm_compute. split; [reflexivity | discriminate]. Qed.
