(* C15/RpcProofs.v — the RPC boundary: round trips, the cookie gate, classification for every method. *)
From Relic Require Import Base.Prelude Base.Slice Generated.C15_gen C15.Model C15.Time C15.Rpc.
Open Scope Z_scope.

Lemma rpc_shape : rpc_shape_ok = true.
Proof. reflexivity. Qed.

Lemma request_roundtrip : forall r, decode_req (encode_req r) = r.
Proof. intros [kn [kid|] dg h [sl|]]; reflexivity. Qed.
Lemma response_roundtrip : forall r, decode_resp (encode_resp r) = r.
Proof. intros [v i c k e r u]; reflexivity. Qed.

Lemma bytes_eqb_refl b : bytes_eqb b b = true.
Proof. apply Slice.bytes_eqb_refl. Qed.

Lemma paths_are : rpc_paths = [pPing; pGetKey; pSign].
Proof. reflexivity. Qed.

Lemma dispatch_ops_In p t : dispatch_ops p t <> None <-> In p (map (fun c => fst (fst (fst c))) t).
Proof.
  induction t as [|[[[path r] w] ops] t IH]; cbn [dispatch_ops map In fst]; [tauto|].
  destruct (bytes_eqb path p) eqn:E.
  - apply bytes_eqb_eq in E. split; [auto | discriminate].
  - apply bytes_eqb_neq in E. rewrite IH. tauto.
Qed.
Lemma dispatch_iff p : In p rpc_paths <-> dispatch_ops p handler_dispatch_cases <> None.
Proof. rewrite dispatch_ops_In. reflexivity. Qed.
Lemma dispatch_unknown p : ~ In p rpc_paths -> dispatch_ops p handler_dispatch_cases = None.
Proof. rewrite dispatch_iff. destruct (dispatch_ops p handler_dispatch_cases); [intros H; elim H; discriminate | reflexivity]. Qed.

Lemma serve_unauth : forall tok body path, serve tok (mkSReq false body path) = (403, None, []).
Proof. intros. unfold serve. rewrite rpc_shape. reflexivity. Qed.
Lemma serve_malformed : forall tok ok path, snd (serve tok (mkSReq ok None path)) = [].
Proof. intros tok [|] path; unfold serve; rewrite rpc_shape; reflexivity. Qed.
Lemma serve_unknown_method : forall tok ok body path, ~ In path rpc_paths -> snd (serve tok (mkSReq ok body path)) = [].
Proof.
  intros tok [|] [rr|] path H; unfold serve; rewrite rpc_shape; cbn [negb handler_cookie_bad s_cookie_ok s_body s_path snd]; try reflexivity.
  unfold handle. rewrite (dispatch_unknown path H). reflexivity.
Qed.

Lemma exchange_unfold tok path rr :
  exchange tok true path rr =
  let '(status, body, calls) := serve tok (mkSReq true (Some rr) path) in (client_once status (option_map encode_resp body), calls).
Proof. unfold exchange. rewrite request_roundtrip. reflexivity. Qed.

Lemma as_find_leaf c e : c <> 98 -> as_find c e = as_find c (leaf e).
Proof.
  intros Hc. induction e as [f m|m|k m|pre i IH|m]; try reflexivity.
  cbn [as_find concrete_code leaf]. replace (98 =? c) with false by (symmetry; apply Z.eqb_neq; lia). exact IH.
Qed.
Lemma leaf_plain e : plain (leaf e) = true.
Proof. induction e; cbn [leaf plain]; auto. Qed.
(* errors.As looks through wrappers, and no row of the table asks for the wrapper type *)
Lemma class_row_leaf e : class_row e handler_class_table = class_row (leaf e) handler_class_table.
Proof.
  unfold handler_class_table. cbn [class_row].
  rewrite (as_find_leaf 1 e), (as_find_leaf 2 e), (as_find_leaf 3 e) by lia. reflexivity.
Qed.

Lemma shown_not_nil m : bytes_eqb (shown m) [] = false.
Proof. destruct m; reflexivity. Qed.
(* what ServeHTTP writes for an error, by the typed error at the end of the chain *)
Lemma serve_error_leaf e :
  serve_error e =
  match leaf e with
  | EUsage k m => mkResp [] [] [] k (shown m) false true
  | EPkcs11 fatal _ => mkResp [] [] [] [] (shown (err_text e)) fatal false
  | ENotImpl _ => mkResp [] [] [] [] (shown (err_text e)) false false
  | _ => mkResp [] [] [] [] (shown (err_text e)) true false
  end.
Proof.
  (* not `unfold`: it would expand the lets and copy the classified record into every field *)
  cbv beta delta [serve_error]. rewrite class_row_leaf. pose proof (leaf_plain e) as Hp. generalize (err_text e). intros t.
  destruct (leaf e) as [f m|m|k m|pre i|m]; try discriminate Hp.
  - destruct f; destruct t; reflexivity.
  - destruct t; reflexivity.
  - destruct m; reflexivity.
  - destruct t; reflexivity.
Qed.

(* what the client makes of the handler's answer to ANY token error: its class under errors.As semantics, never success *)
Lemma client_of_error e :
  cres_class (client_once 200 (Some (encode_resp (serve_error e)))) = Some (spec_class e).
Proof.
  unfold client_once. rewrite response_roundtrip, serve_error_leaf. unfold spec_class, once_reply_is_success.
  destruct (leaf e) as [[|] m|m|k m|pre i|m]; cbn [p_err p_usage]; rewrite shown_not_nil; reflexivity.
Qed.

Lemma client_of_success r : p_err r = [] -> client_once 200 (Some (encode_resp r)) = CSuccess r.
Proof. intros H. unfold client_once. rewrite response_roundtrip. cbn. unfold once_reply_is_success. rewrite H. reflexivity. Qed.

Lemma serve_authed tok rr path :
  serve tok (mkSReq true (Some rr) path) =
  let '((resp, err), calls) := handle tok rr path in
  match err with Some e => (200, Some (serve_error e), calls) | None => (200, Some resp, calls) end.
Proof. unfold serve. rewrite rpc_shape. cbn [negb handler_cookie_bad s_cookie_ok s_body s_path]. destruct (handle tok rr path) as [[resp [e|]] calls]; reflexivity. Qed.

(* handle against the protocol description, for each method *)
Lemma handle_spec tok rr path : In path rpc_paths ->
  fst (handle tok rr path) = (match tok_answer tok path rr with Some _ => resp0 | None => tok_values tok path rr end, tok_answer tok path rr).
Proof.
  rewrite paths_are. cbn [In]. intros [<-|[<-|[<-|[]]]]; unfold handle, tok_answer, tok_values, pin_of; cbv zeta.
  - destruct (tk_ping tok); reflexivity.
  - destruct (tk_getkey tok _ _); reflexivity.
  - destruct (tk_getkey tok _ _) as [e|k]; [reflexivity|]. destruct (tk_sign tok k _ _ _); reflexivity.
Qed.

Lemma tok_values_no_err tok path rr : p_err (tok_values tok path rr) = [].
Proof.
  unfold tok_values. destruct (bytes_eqb path pGetKey); [|destruct (bytes_eqb path pSign); [|reflexivity]];
    (destruct (tk_getkey tok _ _) as [e|k]; [reflexivity|]); try reflexivity.
  destruct (tk_sign tok k _ _ _); reflexivity.
Qed.

Lemma exchange_spec : forall tok path rr, In path rpc_paths ->
  match tok_answer tok path rr with
  | None => fst (exchange tok true path rr) = CSuccess (tok_values tok path rr)
  | Some e => cres_class (fst (exchange tok true path rr)) = Some (spec_class e)
  end.
Proof.
  intros tok path rr Hin. rewrite exchange_unfold, serve_authed.
  pose proof (handle_spec tok rr path Hin) as H.
  destruct (handle tok rr path) as [[resp err] calls]. cbn [fst] in H. injection H as -> ->.
  destruct (tok_answer tok path rr) as [e|]; cbn [fst option_map].
  - apply client_of_error.
  - apply client_of_success, tok_values_no_err.
Qed.

Lemma usage_through_wrappers : forall tok path rr e k m, In path rpc_paths ->
  tok_answer tok path rr = Some e -> leaf e = EUsage k m ->
  fst (exchange tok true path rr) = CUsage k (shown m) /\ temporary (to_outcome (fst (exchange tok true path rr))) = false.
Proof.
  intros tok path rr e k m Hin Ha Hl. pose proof (exchange_spec tok path rr Hin) as H. rewrite Ha in H.
  unfold spec_class in H. rewrite Hl in H.
  destruct (fst (exchange tok true path rr)) as [r|k' m'|m' r'|code|]; cbn [cres_class] in H; try discriminate.
  - injection H as -> ->. split; reflexivity.
  - destruct (token_error_temporary r'); discriminate.
  - destruct (response_error_temporary code); discriminate.
Qed.
