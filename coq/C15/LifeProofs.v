(* C15/LifeProofs.v — the invariant of the worker pool machine, for every event sequence.

   It has three parts that do not depend on one another: where the requests are (RInv), the bookkeeping of the child
   processes (CInv), and the distance between a failed spawn and the next one (TInv). CInv and TInv are stated over the
   fields they read, not over the pool record, so an event that leaves those fields alone keeps them as they are; the
   lemmas say what one elementary change (a child dies, a spawn fails, the monitor reaps a pid ...) does to one part. *)
From Coq Require Import Permutation.
From Relic Require Import Base.Prelude Base.Lists Generated.C15_gen C15.Model C15.Proofs C15.Time C15.Life.

Lemma life_shape : life_shape_ok = true.
Proof. reflexivity. Qed.
Lemma delay_pos : 0 < restart_delay_ns.
Proof. reflexivity. Qed.

Lemma zin_In x l : zin x l = true <-> In x l.
Proof. apply existsb_Zeqb_In. Qed.
Lemma filter_perm {A} (f : A -> bool) l : Permutation l (filter f l ++ filter (fun x => negb (f x)) l).
Proof.
  induction l as [|a l IH]; [constructor|]. cbn [filter]. destruct (f a); cbn [negb app].
  - constructor. exact IH.
  - apply Permutation_cons_app. exact IH.
Qed.
(* taking out the entries selected by f, when keys are distinct and f selects by key: exactly one entry goes *)
Lemma move_out {A} (g : A -> Z) (f : A -> bool) k l :
  NoDup (map g l) -> (forall x, f x = true -> g x = k) -> existsb f l = true ->
  Permutation (map g l) (k :: map g (filter (fun x => negb (f x)) l)).
Proof.
  intros Hn Hf. induction l as [|a l IH]; intros He; [discriminate|].
  cbn [map] in Hn. inversion Hn as [|? ? Hna Hn']; subst. cbn [existsb filter map] in *.
  destruct (f a) eqn:Fa; cbn [negb map orb] in *.
  - (* a is selected; an entry of l that was selected too would have a's key *)
    rewrite (Hf a Fa), filter_all; [reflexivity|].
    intros y Hy. destruct (f y) eqn:Fy; [|reflexivity]. exfalso. apply Hna. rewrite (Hf a Fa), <- (Hf y Fy). apply in_map. exact Hy.
  - rewrite (IH Hn' He) at 1. apply perm_swap.
Qed.
Lemma zremove_perm x l : NoDup l -> In x l -> Permutation l (x :: zremove x l).
Proof.
  intros Hn Hi. rewrite <- (map_id l) in Hn.
  pose proof (move_out (fun y => y) (fun y => y =? x) x l Hn (fun y => proj1 (Z.eqb_eq y x))) as H.
  rewrite !map_id in H. apply H. apply existsb_exists. exists x. split; [exact Hi | apply Z.eqb_refl].
Qed.
Lemma nodup_app_l {A} (a b : list A) : NoDup (a ++ b) -> NoDup a.
Proof. now intros (H & _)%NoDup_app_iff. Qed.
Lemma nodup_app_r {A} (a b : list A) : NoDup (a ++ b) -> NoDup b.
Proof. now intros (_ & H & _)%NoDup_app_iff. Qed.

(* requests: none lost, none in two places *)
Definition RInv (q : reqs) : Prop := NoDup (l_seen q) /\ Permutation (l_seen q) (places q).

Lemma rinv_nodup q : RInv q -> NoDup (places q).
Proof. intros [Hn Hp]. eapply Permutation_NoDup; eassumption. Qed.
Lemma rinv_move q q' : RInv q -> l_seen q' = l_seen q -> Permutation (places q) (places q') -> RInv q'.
Proof. intros [Hn Hp] Hs Hm. rewrite <- Hs in Hn, Hp. split; [exact Hn | etransitivity; eassumption]. Qed.

(* the requests held by a dying worker move to `done`; nothing else changes place *)
Lemma drop_places q pid reset : Permutation (places q) (places (drop_inflight q pid reset)).
Proof.
  unfold places, drop_inflight. cbn [l_backlog l_inflight l_done]. apply Permutation_app_head.
  rewrite map_app, map_map. cbn [fst].
  rewrite (filter_perm (fun x => fst x =? pid) (l_inflight q)) at 1. rewrite map_app, <- app_assoc.
  apply Permutation_app_swap_app.
Qed.
Lemma rinv_drop q pid reset : RInv q -> RInv (drop_inflight q pid reset).
Proof. intros H. apply (rinv_move q); [exact H | reflexivity | apply drop_places]. Qed.

Lemma rinv_arrive q rid : RInv q -> ~ In rid (l_seen q) ->
  RInv (mkReqs (rid :: l_seen q) (l_backlog q ++ [rid]) (l_inflight q) (l_done q)).
Proof.
  intros [Hn Hp] Hx. split; cbn [l_seen]; [constructor; assumption|].
  unfold places in *. cbn [l_backlog l_inflight l_done]. rewrite <- app_assoc. apply Permutation_cons_app. exact Hp.
Qed.
Lemma rinv_accept q pid rid : RInv q -> In rid (l_backlog q) ->
  RInv (mkReqs (l_seen q) (zremove rid (l_backlog q)) ((pid, rid) :: l_inflight q) (l_done q)).
Proof.
  intros H Hi. pose proof (rinv_nodup q H) as Hn. apply (rinv_move q); [exact H | reflexivity |].
  unfold places in *. cbn [l_backlog l_inflight l_done map snd].
  rewrite (zremove_perm rid (l_backlog q) (nodup_app_l _ _ Hn) Hi) at 1. apply Permutation_middle.
Qed.
(* the client gives up on a request no worker has accepted *)
Lemma rinv_abandon q rid f : RInv q -> In rid (l_backlog q) ->
  RInv (mkReqs (l_seen q) (zremove rid (l_backlog q)) (l_inflight q) ((rid, f) :: l_done q)).
Proof.
  intros H Hi. pose proof (rinv_nodup q H) as Hn. apply (rinv_move q); [exact H | reflexivity |].
  unfold places in *. cbn [l_backlog l_inflight l_done map fst].
  rewrite (zremove_perm rid (l_backlog q) (nodup_app_l _ _ Hn) Hi) at 1. rewrite !app_assoc. apply Permutation_middle.
Qed.
(* an accepted request gets its fate: answered, or given up by the client *)
Lemma rinv_finish q (sel : Z * Z -> bool) rid f :
  RInv q -> (forall x, sel x = true -> snd x = rid) -> existsb sel (l_inflight q) = true ->
  RInv (mkReqs (l_seen q) (l_backlog q) (filter (fun x => negb (sel x)) (l_inflight q)) ((rid, f) :: l_done q)).
Proof.
  intros H Hsel Hex. pose proof (rinv_nodup q H) as Hn. apply (rinv_move q); [exact H | reflexivity |].
  unfold places in *. cbn [l_backlog l_inflight l_done map fst]. apply Permutation_app_head.
  rewrite (move_out snd sel rid (l_inflight q) (nodup_app_l _ _ (nodup_app_r _ _ Hn)) Hsel Hex). apply Permutation_middle.
Qed.

Record CInv (child : list (Z * cstat)) (next : Z) (procs exitq : list Z) (inflight : list (Z * Z)) : Prop := mkCInv {
  c_served : forall pid rid, In (pid, rid) inflight -> serving (status child pid) = true;
  c_unknown : forall pid, next <= pid -> status child pid = CDead;
  c_procs : forall pid, In pid procs -> alive (status child pid) = true \/ In pid exitq }.

Lemma cinv_dies child next procs exitq inflight pid : CInv child next procs exitq inflight ->
  CInv ((pid, CDead) :: child) next procs (exitq ++ [pid]) (filter (fun x => negb (fst x =? pid)) inflight).
Proof.
  intros [Hs Hu Hp]. constructor; intros p0; cbn [status].
  - intros rid Hx. apply filter_In in Hx as [Hx Hne]. cbn [fst] in Hne.
    destruct (Z.eqb_spec pid p0) as [->|_]; [rewrite Z.eqb_refl in Hne; discriminate | exact (Hs _ _ Hx)].
  - intros Hge. destruct (pid =? p0); [reflexivity | exact (Hu _ Hge)].
  - intros Hi. destruct (Z.eqb_spec pid p0) as [->|_].
    + right. apply in_or_app. right. left. reflexivity.
    + destruct (Hp _ Hi) as [Ha|Ha]; [left; exact Ha | right; apply in_or_app; left; exact Ha].
Qed.
(* a child the pool knows becomes ready, or starts draining *)
Lemma cinv_serving child next procs exitq inflight pid s : CInv child next procs exitq inflight ->
  serving s = true -> status child pid <> CDead -> CInv ((pid, s) :: child) next procs exitq inflight.
Proof.
  intros [Hs Hu Hp] Hsv Hne. constructor; intros p0; cbn [status].
  - intros rid Hx. destruct (pid =? p0); [exact Hsv | exact (Hs _ _ Hx)].
  - intros Hge. destruct (Z.eqb_spec pid p0) as [->|_]; [elim Hne|]; exact (Hu _ Hge).
  - intros Hi. destruct (pid =? p0); [left; destruct s; try discriminate; reflexivity | exact (Hp _ Hi)].
Qed.
Lemma cinv_spawn child next procs exitq inflight : CInv child next procs exitq inflight ->
  CInv ((next, CStarting) :: child) (next + 1) (next :: procs) exitq inflight.
Proof.
  intros [Hs Hu Hp]. constructor; intros p0; cbn [status].
  - intros rid Hx. specialize (Hs _ _ Hx). destruct (Z.eqb_spec next p0) as [<-|_]; [|exact Hs].
    rewrite (Hu next) in Hs by lia. discriminate.
  - intros Hge. destruct (Z.eqb_spec next p0); [lia | apply Hu; lia].
  - intros [<-|Hi]; [rewrite Z.eqb_refl; left; reflexivity|]. destruct (next =? p0); [left; reflexivity | exact (Hp _ Hi)].
Qed.
(* the monitor takes x from one of its queues and forgets it; what else waited in procsExited still waits there *)
Lemma cinv_reap child next procs exitq inflight x exitq' : CInv child next procs exitq inflight ->
  (forall y, In y exitq -> y = x \/ In y exitq') -> CInv child next (zremove x procs) exitq' inflight.
Proof.
  intros [Hs Hu Hp] Hq. constructor; [exact Hs | exact Hu |].
  intros p0 Hi. apply filter_In in Hi as [Hi Hne]. destruct (Hp _ Hi) as [Ha|Ha]; [left; exact Ha|].
  destruct (Hq _ Ha) as [->|Ha']; [rewrite Z.eqb_refl in Hne; discriminate | right; exact Ha'].
Qed.
Lemma cinv_accept child next procs exitq inflight pid rid : CInv child next procs exitq inflight ->
  status child pid = CReady -> CInv child next procs exitq ((pid, rid) :: inflight).
Proof.
  intros [Hs Hu Hp] Hr. constructor; [|exact Hu | exact Hp].
  intros p0 r0 [E|Hx]; [injection E as <- <-; rewrite Hr; reflexivity | exact (Hs _ _ Hx)].
Qed.
Lemma cinv_fewer child next procs exitq inflight inflight' : CInv child next procs exitq inflight ->
  incl inflight' inflight -> CInv child next procs exitq inflight'.
Proof. intros [Hs Hu Hp] Hi. constructor; [|exact Hu | exact Hp]. intros pid rid Hx. exact (Hs _ _ (Hi _ Hx)). Qed.

(* by `now` (or by the end of the backoff the monitor is in) restartDelay has passed since the failure at f *)
Definition waited (mon : mpc) (now f : Z) : Prop :=
  match mon with MBackoff u => f + restart_delay_ns <= u | MDone => True | _ => f + restart_delay_ns <= now end.
Record TInv (now : Z) (mon : mpc) (spawns : list (Z * Z)) (fails : list Z) : Prop := mkTInv {
  t_past : forall t pid, In (t, pid) spawns -> t <= now;
  t_waited : forall f, In f fails -> waited mon now f;
  t_spaced : forall f t pid, In f fails -> In (t, pid) spawns -> t <= f \/ f + restart_delay_ns <= t }.

Lemma tinv_advance now mon spawns fails d : TInv now mon spawns fails -> TInv (now + Z.max 0 d) mon spawns fails.
Proof.
  intros [Hp Hw Hs]. constructor; [| |exact Hs].
  - intros t pid Hx. specialize (Hp _ _ Hx). lia.
  - intros f Hf. specialize (Hw _ Hf). destruct mon; cbn [waited] in *; lia.
Qed.
Lemma tinv_mon now mon mon' spawns fails : TInv now mon spawns fails ->
  (forall f, waited mon now f -> waited mon' now f) -> TInv now mon' spawns fails.
Proof. intros [Hp Hw Hs] Hm. constructor; [exact Hp | | exact Hs]. intros f Hf. exact (Hm f (Hw f Hf)). Qed.
Lemma tinv_spawn_failed now pid dl spawns fails : TInv now (MSpawning pid dl) spawns fails ->
  TInv now (MBackoff (now + restart_delay_ns)) spawns (now :: fails).
Proof.
  intros [Hp Hw Hs]. pose proof delay_pos. constructor; [exact Hp | |].
  - intros f [<-|Hf]; cbn [waited]; [lia | specialize (Hw _ Hf); cbn [waited] in Hw; lia].
  - intros f t p0 [<-|Hf] Hx; [left; exact (Hp _ _ Hx) | exact (Hs _ _ _ Hf Hx)].
Qed.
Lemma tinv_spawn now pid dl spawns fails : TInv now MIdle spawns fails -> TInv now (MSpawning pid dl) ((now, pid) :: spawns) fails.
Proof.
  intros [Hp Hw Hs]. constructor; [|exact Hw|].
  - intros t p0 [E|Hx]; [injection E as <- _; lia | exact (Hp _ _ Hx)].
  - intros f t p0 Hf [E|Hx]; [injection E as <- _; right; exact (Hw _ Hf) | exact (Hs _ _ _ Hf Hx)].
Qed.

Record LInv (s : lstate) : Prop := mkLInv {
  inv_reqs : RInv (snd s);
  inv_kids : CInv (l_child (fst s)) (l_next (fst s)) (l_procs (fst s)) (l_exitq (fst s)) (l_inflight (snd s));
  inv_time : TInv (l_now (fst s)) (l_mon (fst s)) (l_spawns (fst s)) (l_fails (fst s)) }.

Lemma linv_init : LInv linit.
Proof. repeat constructor; cbn; intros; contradiction. Qed.

(* the three parts of LInv of a state written out as records, with the fields CInv and TInv read in view *)
Ltac linv_parts :=
  constructor;
  cbn [fst snd set_mon set_child spawn_failed child_dies remove_pid
       l_now l_procs l_exitq l_stopq l_child l_next l_mon l_cancel l_spawns l_fails l_inflight].

Lemma linv_monitor target p q b : LInv (p, q) -> LInv (monitor_step target p b, q).
Proof.
  intros H. pose proof H as [HR HC HT]. cbn [fst snd] in *. unfold monitor_step.
  destruct (l_mon p) as [|spid dl|u|] eqn:Hm; try exact H.
  - destruct (negb (monitor_runs _)).
    { linv_parts; [exact HR | exact HC | apply (tinv_mon _ _ _ _ _ HT); intros f _; exact I]. }
    destruct (monitor_needs_worker _ _).
    { linv_parts; [exact HR | apply cinv_spawn, HC | apply tinv_spawn, HT]. }
    assert (Hreap : forall x exitq' stopq', (forall y, In y (l_exitq p) -> y = x \/ In y exitq') ->
              LInv (remove_pid (mkPool (l_now p) (l_procs p) exitq' stopq' (l_child p) (l_next p) MIdle (l_cancel p)
                                       (l_spawns p) (l_fails p)) x, q)).
    { intros x exitq' stopq' Hq. linv_parts; [exact HR | exact (cinv_reap _ _ _ _ _ _ _ HC Hq) | exact HT]. }
    destruct (l_exitq p) as [|e er], (l_stopq p) as [|st sr]; [exact H | | | destruct b]; apply Hreap.
    + intros y [].
    + intros y [<-|Hy]; auto.
    + intros y Hy; auto.
    + intros y [<-|Hy]; auto.
  - destruct (l_cancel p); [|exact H].
    linv_parts; [exact HR | exact HC | apply (tinv_mon _ _ _ _ _ HT); intros f _; exact I].
Qed.

Lemma linv_step target s e : LInv s -> LInv (lstep target s e).
Proof.
  destruct s as [p q]. intros H. pose proof H as [HR HC HT]. cbn [fst snd] in *.
  unfold lstep. rewrite life_shape. cbn [negb].
  destruct e as [d|pid|pid reset|pid|b| |rid|pid rid|pid rid|rid].
  - (* LTick *)
    apply (tinv_advance _ _ _ _ d) in HT.
    destruct (l_mon p) as [|spid dl|u|] eqn:Hm.
    + linv_parts; assumption.
    + destruct (dl <=? _).
      * (* the start timeout fires: the child is killed, the spawn fails *)
        linv_parts; [apply rinv_drop, HR | apply cinv_dies, HC | exact (tinv_spawn_failed _ _ _ _ _ HT)].
      * linv_parts; assumption.
    + destruct (u <=? _) eqn:Eu; [|linv_parts; assumption]. apply Z.leb_le in Eu.
      linv_parts; [exact HR | exact HC | apply (tinv_mon _ _ _ _ _ HT)]. intros f Hf. cbn [waited] in *. lia.
    + linv_parts; assumption.
  - (* LReady *)
    destruct (status (l_child p) pid) eqn:Hst; try exact H.
    destruct (l_mon p) as [|spid dl|u|] eqn:Hm; try exact H.
    destruct (spid =? pid); [|exact H].
    linv_parts; [exact HR | apply cinv_serving; [exact HC | reflexivity | congruence] | apply (tinv_mon _ _ _ _ _ HT)].
    intros f Hf. exact Hf.
  - (* LExit *)
    destruct (alive (status (l_child p) pid)); [|exact H].
    assert (Hd : LInv (child_dies p pid, drop_inflight q pid reset))
      by (linv_parts; [apply rinv_drop, HR | apply cinv_dies, HC | exact HT]).
    destruct (l_mon p) as [|spid dl|u|] eqn:Hm; try exact Hd.
    destruct (spid =? pid); [|exact Hd].
    linv_parts; [apply rinv_drop, HR | apply cinv_dies, HC | exact (tinv_spawn_failed _ _ _ _ _ HT)].
  - (* LStopping *)
    destruct (status (l_child p) pid) eqn:Hst; try exact H.
    linv_parts; [exact HR | apply cinv_serving; [exact HC | reflexivity | congruence] | exact HT].
  - (* LMonitor *) apply linv_monitor. exact H.
  - (* LClose *) linv_parts; assumption.
  - (* LArrive *)
    destruct (zin rid (l_seen q)) eqn:Hz; [exact H|].
    linv_parts; [apply rinv_arrive; [exact HR|] | exact HC | exact HT]. rewrite <- zin_In, Hz. discriminate.
  - (* LAccept *)
    destruct (status (l_child p) pid) eqn:Hst; try exact H.
    destruct (zin rid (l_backlog q)) eqn:Hz; [|exact H]. apply zin_In in Hz.
    linv_parts; [apply rinv_accept; assumption | apply cinv_accept; assumption | exact HT].
  - (* LReply *)
    destruct (existsb _ (l_inflight q)) eqn:Hex; [|exact H].
    linv_parts; [apply rinv_finish; [exact HR | | exact Hex] | apply (cinv_fewer _ _ _ _ _ _ HC), incl_filter | exact HT].
    intros x Hx. apply andb_true_iff in Hx as [_ Hx]. apply Z.eqb_eq. exact Hx.
  - (* LGiveUp *)
    destruct (zin rid (l_backlog q)) eqn:Hz.
    { apply zin_In in Hz. linv_parts; [apply rinv_abandon; assumption | exact HC | exact HT]. }
    destruct (existsb _ (l_inflight q)) eqn:Hex; [|exact H].
    linv_parts; [apply rinv_finish; [exact HR | | exact Hex] | apply (cinv_fewer _ _ _ _ _ _ HC), incl_filter | exact HT].
    intros x Hx. apply Z.eqb_eq. exact Hx.
Qed.

Lemma linv_run target evs : LInv (lrun target evs).
Proof.
  unfold lrun. generalize linit linv_init. induction evs as [|e r IH]; intros s Hs; [exact Hs|].
  cbn [fold_left]. apply IH, linv_step, Hs.
Qed.

Lemma life_one_fate : forall target evs, NoDup (map fst (l_done (snd (lrun target evs)))).
Proof.
  intros target evs. pose proof (rinv_nodup _ (inv_reqs _ (linv_run target evs))) as Hn.
  exact (nodup_app_r _ _ (nodup_app_r _ _ Hn)).
Qed.
