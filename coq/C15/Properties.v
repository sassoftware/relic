(* C15/Properties.v — the property theorems: the retry loop, the handler and key cache, timed retries and back-off, the
   wire protocol of the worker, the life of the worker pool; proved from the lemmas of the C15 proof files. *)
From Coq Require Import Permutation.
From Relic Require Import Base.Prelude Base.Lists Generated.C15_gen C15.Model C15.Proofs.
From Relic Require Import C15.Time C15.TimeProofs C15.Rpc C15.RpcProofs C15.CacheRetry C15.CacheRetryProofs C15.Life C15.LifeProofs.
From Relic Require C14.ModelCache C14.ProofsCache C15.CacheSchedProofs.

(* i-th inter-attempt delay (ms): capped exponential *)
Fixpoint delay_at (i : nat) : Z := match i with O => initial_delay_ms | S k => next_delay (delay_at k) end.
Definition delays_upto (n : nat) : list Z := map delay_at (seq 0 n).
Definition temp_prefix (script : list outcome) (j : nat) : Prop :=
  forall i, (i < j)%nat -> temporary (nth i script OSuccess) = true.

(* at most the configured number of attempts, and at least one *)
Theorem attempts_bounded : forall r script cw,
  let '(_, n, _) := do_retry r script cw in 0 <= n <= eff_retries r.
Proof. exact C15.Proofs.attempts_bounded. Qed.
Theorem attempts_at_least_one : forall r script cw, 1 <= snd (fst (do_retry r script cw)).
Proof.
  intros r script cw. pose proof (retries_positive r) as Hpos.
  destruct (do_retry_cases r script cw) as [(j & _ & _ & _ & ->)|[(k & Hk & _ & _ & _ & ->)|[_ ->]]]; cbn [fst snd]; lia.
Qed.
Theorem retries_positive : forall r, 1 <= eff_retries r.
Proof. exact C15.Proofs.retries_positive. Qed.

(* success is reported iff some attempt succeeded and everything before it was transient *)
Theorem success_iff : forall r script,
  fst (fst (do_retry r script (-1))) = RSuccess <->
  exists j, Z.of_nat j < eff_retries r /\ nth j script OSuccess = OSuccess /\ temp_prefix script j.
Proof. exact C15.Proofs.success_iff. Qed.

(* a permanent error is returned at once, unchanged, after exactly j+1 attempts with the specified delays *)
Theorem permanent_immediate : forall r script cw j o,
  Z.of_nat j < eff_retries r -> temp_prefix script j ->
  nth j script OSuccess = o -> o <> OSuccess -> temporary o = false ->
  (cw < 1 \/ Z.of_nat j < cw) ->
  do_retry r script cw = (RFail o, Z.of_nat j + 1, delays_upto j).
Proof. exact C15.Proofs.permanent_immediate. Qed.

(* only transient failures: the last error is returned after exactly the configured number of attempts *)
Theorem exhausted : forall r script cw,
  temp_prefix script (Z.to_nat (eff_retries r)) -> (cw < 1 \/ eff_retries r <= cw) ->
  do_retry r script cw =
  (RFail (nth (Z.to_nat (eff_retries r) - 1) script OSuccess), eff_retries r, delays_upto (Z.to_nat (eff_retries r) - 1)).
Proof. exact C15.Proofs.exhausted. Qed.

(* cancellation during the wait before attempt k: no further attempt is made *)
Theorem cancel_prompt : forall r script k,
  (1 <= k)%nat -> Z.of_nat k < eff_retries r -> temp_prefix script k ->
  do_retry r script (Z.of_nat k) = (RCancelled, Z.of_nat k, delays_upto (k - 1)).
Proof. exact C15.Proofs.cancel_prompt. Qed.

(* which failures count as transient *)
Theorem transient_status_spec : forall c, status_is_temporary c = true <-> In c [500; 502; 503; 504; 507].
Proof. intros c. rewrite status_temp_spec. apply existsb_Zeqb_In. Qed.
Theorem transient_classes_spec : temporary_classes = [1; 2; 3; 4].
Proof. reflexivity. Qed.

(* backoff is capped *)
Theorem delay_capped : forall i, delay_at i <= Z.max initial_delay_ms max_delay_ms.
Proof.
  intros [|k]; cbn [delay_at].
  - apply Z.le_max_l.
  - unfold next_delay. etransitivity; [apply Z.le_min_l | apply Z.le_max_r].
Qed.

(* worker requests lacking the secret are refused before dispatch *)
Theorem cookie_gate : forall e, handler false e = (403, false, (false, false)).
Proof. exact C15.Proofs.cookie_gate. Qed.

(* classification survives the RPC boundary *)
Theorem classification_preserved : forall e,
  e <> HNone ->
  temporary (client_view e) = fst (handler_flags e) /\ (client_view e = OUsage <-> e = HUsage).
Proof.
  intros e Hne. destruct e as [|fatal| | |]; [congruence|..];
    cbn [client_view handler_flags temporary fst]; (split; [reflexivity|]); split; intros H;
    try discriminate; reflexivity.
Qed.

(* a pinned key id is never served from a cached key with a different id, and pinned lookups are never cached *)
Theorem pinned_id : forall expiry st want now tok k called st',
  want <> [] -> cache_get expiry st want now tok = (Some k, called, st') ->
  st' = st /\ ((called = false /\ k = want) \/ (called = true /\ tok = Some k)).
Proof. exact C15.Proofs.pinned_id. Qed.

(* with a token that always answers k, every lookup answers k whatever the cache state history *)
Fixpoint cache_seq (expiry : Z) (st : cstate) (k : bytes) (ops : list (bytes * Z)) : list (option bytes) :=
  match ops with
  | [] => []
  | (want, now) :: r => let '(res, _, st') := cache_get expiry st want now (Some k) in res :: cache_seq expiry st' k r
  end.
Theorem cache_transparent : forall expiry k ops,
  Forall (fun res => res = Some k) (cache_seq expiry c_empty k ops).
Proof. exact C15.Proofs.cache_transparent. Qed.

Example backoff_values : delays_upto 5 = [1000; 2718; 7387; 20077; 30000].
Proof. reflexivity. Qed.
Example retry_then_success :
  do_retry 0 [OHttp 503; OErrClass 1; OSuccess] (-1) = (RSuccess, 3, [1000; 2718]) /\
  do_retry 3 [OHttp 503; OUsage; OSuccess] (-1) = (RFail OUsage, 2, [1000]) /\
  do_retry 2 [OTokErr true; OTokErr true; OSuccess] (-1) = (RFail (OTokErr true), 2, [1000]).
Proof. vm_compute. repeat split. Qed.

(* =====================================================================================================================
   (a) doRetry WITH TIME — every fault sequence, every attempt duration, every instant at which the caller's context ends
   ===================================================================================================================== *)

(* the loop of retry.go is the chain specification: attempts separated by the backoff schedule, made only while attempts
   remain and the caller's context is alive, answered by the last attempt or by the context *)
Theorem timed_is_spec : forall r ts b script,
  do_retry_timed r ts b script = spec_retry delay_ns_at (eff_retries_t r) (eff_timeout ts) b script.
Proof. exact C15.TimeProofs.timed_is_spec. Qed.
(* total attempts: at least one, at most the configured number *)
Theorem timed_attempts_bounded : forall r ts b script,
  1 <= zlen (tr_atts (do_retry_timed r ts b script)) <= eff_retries_t r.
Proof.
  intros r ts b script. destruct (timed_chain r ts b script) as (left & Hl & Hc). apply chain_count in Hc. unfold zlen. lia.
Qed.
(* the first attempt starts at once; consecutive attempts are separated by exactly the scheduled delays *)
Theorem timed_first_attempt : forall r ts b script,
  exists e o rest, tr_atts (do_retry_timed r ts b script) = mkA 0 e o :: rest.
Proof. intros r ts b script. destruct (timed_chain r ts b script) as (left & Hl & Hc). exact (chain_head _ _ _ _ _ _ _ _ Hc). Qed.
Theorem timed_delays_exact : forall r ts b script, chain_ok delay_ns_at 0 (tr_atts (do_retry_timed r ts b script)).
Proof. exact C15.TimeProofs.timed_delays_exact. Qed.
(* no retry starts once the caller's context has ended; with a context that is alive at the call, no attempt at all *)
Theorem timed_no_retry_after_cancel : forall r ts b script c, bc_at b = Some c ->
  Forall (fun a => ar_start a < c) (tl (tr_atts (do_retry_timed r ts b script))).
Proof. exact C15.TimeProofs.timed_no_retry_after_cancel. Qed.
Theorem timed_no_attempt_after_cancel : forall r ts b script c, bc_at b = Some c -> 0 < c ->
  Forall (fun a => ar_start a < c) (tr_atts (do_retry_timed r ts b script)).
Proof.
  intros r ts b script c Hc Hpos. pose proof (timed_no_retry_after_cancel r ts b script c Hc) as H.
  destruct (timed_first_attempt r ts b script) as (e & o & rest & Hh). rewrite Hh in *.
  constructor; [exact Hpos | exact H].
Qed.
(* ... but the first attempt is unconditional: called with a context that has already ended, doRetry still calls doOnce *)
Theorem timed_no_attempt_after_cancel_refuted :
  exists r ts b script c a, bc_at b = Some c /\ In a (tr_atts (do_retry_timed r ts b script)) /\ c <= ar_start a.
Proof.
  exists 3, 1, (mkBase (Some 0) KCanceled), [mkAtt OSuccess 5], 0, (mkA 0 0 (OErrClass 2)).
  split; [reflexivity|]. split; [vm_compute; left; reflexivity | cbn; lia].
Qed.
(* promptness: the operation never outlives the caller's context *)
Theorem timed_cancel_prompt : forall r ts b script c, bc_at b = Some c ->
  0 <= tr_end (do_retry_timed r ts b script) <= Z.max c 0.
Proof.
  intros r ts b script c Hbc. destruct (timed_chain r ts b script) as (left & Hl & Hc).
  split; [exact (chain_end_ge _ _ _ _ _ _ _ _ Hc) | exact (chain_end_le _ _ _ _ _ _ _ _ _ Hbc Hc)].
Qed.
(* faithfulness: success iff the last attempt succeeded; an error is the last attempt's, unchanged, returned when that
   attempt ended; a context error only if the context ended, after a transient failure *)
Theorem timed_result_faithful : forall r ts b script, result_ok b (do_retry_timed r ts b script).
Proof. intros r ts b script. destruct (timed_chain r ts b script) as (left & Hl & Hc). exact (chain_result _ _ _ _ _ _ _ _ Hc). Qed.
Theorem timed_prefix_transient : forall r ts b script,
  Forall (fun a => ar_out a <> OSuccess /\ temporary (ar_out a) = true) (removelast (tr_atts (do_retry_timed r ts b script))).
Proof.
  intros r ts b script. destruct (timed_chain r ts b script) as (left & Hl & Hc). apply chain_prefix_transient in Hc.
  eapply Forall_impl; [|exact Hc]. intros a [H1 H2]. split; [exact H1 | rewrite temporary_is_spec; exact H2].
Qed.
(* why it stopped: success, a permanent failure, the attempt limit, or the context ending before the next attempt was due *)
Theorem timed_stop_reason : forall r ts b script a,
  last_rec (tr_atts (do_retry_timed r ts b script)) = Some a ->
  let n := length (tr_atts (do_retry_timed r ts b script)) in
  ar_out a = OSuccess \/ temporary (ar_out a) = false \/ Z.of_nat n = eff_retries_t r \/
  (exists c, bc_at b = Some c /\ c <= ar_end a + Z.max 0 (delay_ns_at (n - 1))).
Proof.
  intros r ts b script a Ha. destruct (timed_chain r ts b script) as (left & Hl & Hc).
  pose proof (chain_stop_reason _ _ _ _ _ _ _ _ a Hc Ha) as H. cbv zeta in *.
  rewrite temporary_is_spec. destruct H as [H|[H|[H|H]]]; auto. right. right. left. lia.
Qed.
(* every recorded attempt is the scripted attempt of that index under the per-attempt timeout and the caller's context *)
Theorem timed_attempts_faithful : forall r ts b script j a,
  nth_error (tr_atts (do_retry_timed r ts b script)) j = Some a ->
  (ar_out a, ar_end a) = spec_attempt b (eff_timeout ts) (ar_start a) (nth j script default_att).
Proof. intros r ts b script. destruct (timed_chain r ts b script) as (left & Hl & Hc). exact (chain_attempts_faithful _ _ _ _ _ _ _ _ Hc). Qed.
(* which failures are transient: exactly the specified classes *)
Theorem temporary_is_spec : forall o, temporary o = spec_transient o.
Proof. exact C15.TimeProofs.temporary_is_spec. Qed.
(* configuration *)
Theorem eff_timeout_spec : forall ts, eff_timeout ts = if ts =? 0 then 60000000000 else ts * 1000000000.
Proof.
  intros ts. unfold eff_timeout, retry_timeout_of_conf, retry_timeout_use_default, retry_timeout_default. cbv zeta.
  destruct (Z.eqb_spec ts 0) as [->|Hne]; [reflexivity|].
  replace (ts * 1000000000 =? 0) with false by (symmetry; apply Z.eqb_neq; lia). reflexivity.
Qed.
Theorem negative_timeout_never_succeeds : forall r ts b script, ts < 0 ->
  tr_result (do_retry_timed r ts b script) <> TSuccess.
Proof.
  intros r ts b script Hneg. destruct (timed_chain r ts b script) as (left & Hl & Hc).
  refine (chain_never_succeeds _ _ _ _ _ _ _ _ _ Hc). rewrite eff_timeout_spec.
  replace (ts =? 0) with false by (symmetry; apply Z.eqb_neq; lia). lia.
Qed.
(* the backoff schedule (float32 arithmetic of retry.go, exactly): capped exponential, monotone, bounded *)
Theorem backoff_capped_exponential : forall k, Z.abs (delay_ns_at k - spec_delay k) <= 4096.
Proof.
  intros k. do 4 (destruct k as [|k]; [vm_compute; discriminate|]). change (S (S (S (S k)))) with (4 + k)%nat.
  rewrite delay_after_4, spec_delay_capped. vm_compute. discriminate.
Qed.
Theorem backoff_monotone : forall k, delay_ns_at k <= delay_ns_at (S k).
Proof.
  intros k. do 4 (destruct k as [|k]; [vm_compute; discriminate|]).
  change (S (S (S (S (S k))))) with (4 + S k)%nat. change (S (S (S (S k)))) with (4 + k)%nat.
  rewrite !delay_after_4. apply Z.le_refl.
Qed.
Theorem backoff_bounded : forall k, initial_delay_f32 <= delay_ns_at k <= 30000001024.
Proof.
  intros k. do 4 (destruct k as [|k]; [vm_compute; split; discriminate|]). change (S (S (S (S k)))) with (4 + k)%nat.
  rewrite delay_after_4. vm_compute. split; discriminate.
Qed.

Example backoff_ns : map delay_ns_at (seq 0 6) = [1000000000; 2717999872; 7387523584; 20079288320; 30000001024; 30000001024].
Proof. vm_compute. reflexivity. Qed.
Example timed_runs :
  (* two transient failures, then success: attempts at 0, 1 s after the first ended, 2.718 s after the second ended *)
  do_retry_timed 3 1 never [mkAtt (OHttp 503) 5; mkAtt (OErrClass 1) 7; mkAtt OSuccess 9] =
    (TSuccess, 3717999893, [mkA 0 5 (OHttp 503); mkA 1000000005 1000000012 (OErrClass 1); mkA 3717999884 3717999893 OSuccess]) /\
  (* the caller cancels 1.5 s in, during the second wait: returned at that instant with the context's error *)
  do_retry_timed 3 1 (mkBase (Some 1500000000) KCanceled) [mkAtt (OHttp 503) 5; mkAtt (OErrClass 1) 7; mkAtt OSuccess 9] =
    (TCtx KCanceled, 1500000000, [mkA 0 5 (OHttp 503); mkA 1000000005 1000000012 (OErrClass 1)]) /\
  (* an attempt that outlasts the 1 s per-attempt timeout counts as a timeout (transient); the last error is returned *)
  do_retry_timed 2 1 never [mkAtt OSuccess 1500000000; mkAtt (OTokErr false) 3] =
    (TFail (OTokErr false), 2000000003, [mkA 0 1000000000 (OErrClass 3); mkA 2000000000 2000000003 (OTokErr false)]).
Proof. vm_compute. repeat split. Qed.

(* =====================================================================================================================
   (b) the worker RPC boundary, for EVERY method of internal/workerrpc
   ===================================================================================================================== *)

(* the method table is closed: every method constant is called by the client and dispatched by the handler, nothing else is;
   what the handler reads for a method the client filled in, what the client reads the handler set *)
Theorem rpc_dispatch_complete : dispatch_complete = true /\ fields_sufficient = true.
Proof. split; reflexivity. Qed.
Theorem rpc_dispatch_iff : forall p, In p rpc_paths <-> dispatch_ops p handler_dispatch_cases <> None.
Proof. exact dispatch_iff. Qed.
(* messages survive the wire (given encoding/json's own round trip on these field types) *)
Theorem rpc_request_roundtrip : forall r, decode_req (encode_req r) = r.
Proof. exact request_roundtrip. Qed.
Theorem rpc_response_roundtrip : forall r, decode_resp (encode_resp r) = r.
Proof. exact response_roundtrip. Qed.
(* the gate: without the secret nothing is read, parsed or dispatched; a malformed body or an unknown method never reaches
   the token either *)
Theorem rpc_unauthenticated_refused : forall tok body path, serve tok (mkSReq false body path) = (403, None, []).
Proof. exact serve_unauth. Qed.
Theorem rpc_token_reached_only_if : forall tok rq,
  snd (serve tok rq) <> [] -> s_cookie_ok rq = true /\ s_body rq <> None /\ In (s_path rq) rpc_paths.
Proof.
  intros tok [ok body path] H. cbn [s_cookie_ok s_body s_path]. repeat split.
  - destruct ok; [reflexivity|]. rewrite serve_unauth in H. elim H. reflexivity.
  - destruct body; [discriminate|]. rewrite serve_malformed in H. congruence.
  - apply dispatch_iff. intros E. apply H, serve_unknown_method. rewrite dispatch_iff, E. auto.
Qed.
Theorem rpc_cookie_header_agrees : forall v, header_get handler_cookie_header client_cookie_header v = v.
Proof. reflexivity. Qed.
Theorem rpc_unauthenticated_not_retried : forall tok path rr,
  exchange tok false path rr = (CHttpErr 403, []) /\ temporary (to_outcome (CHttpErr 403)) = false.
Proof. intros. unfold exchange. rewrite serve_unauth. split; reflexivity. Qed.
(* round trip of values and of classification, for every method: what the token did is what the caller sees — for EVERY
   error value (wrapped by the backend or not, with or without a text) its class under errors.As semantics *)
Theorem rpc_exchange_spec : forall tok path rr, In path rpc_paths ->
  match tok_answer tok path rr with
  | None => fst (exchange tok true path rr) = CSuccess (tok_values tok path rr)
  | Some e => cres_class (fst (exchange tok true path rr)) = Some (spec_class e)
  end.
Proof. exact exchange_spec. Qed.
(* a failed operation is never reported as success *)
Theorem rpc_failure_never_success : forall tok path rr e r, In path rpc_paths ->
  tok_answer tok path rr = Some e -> fst (exchange tok true path rr) <> CSuccess r.
Proof.
  intros tok path rr e r Hin Ha Hs. pose proof (rpc_exchange_spec tok path rr Hin) as H. rewrite Ha, Hs in H. discriminate.
Qed.
Theorem rpc_retry_follows_class : forall c k, cres_class c = Some k ->
  temporary (to_outcome c) = match k with KTransient _ => true | _ => false end.
Proof.
  intros c k H. destruct c as [r|key msg|msg r|code|]; cbn [cres_class] in H; try discriminate; injection H as <-;
    cbn [to_outcome temporary]; try reflexivity.
  - destruct (token_error_temporary r); reflexivity.
  - unfold response_error_temporary. destruct (status_is_temporary code); reflexivity.
Qed.
Theorem rpc_usage_never_retried : forall tok path rr k m, In path rpc_paths ->
  tok_answer tok path rr = Some (EUsage k m) -> m <> [] ->
  fst (exchange tok true path rr) = CUsage k m /\ temporary (to_outcome (fst (exchange tok true path rr))) = false.
Proof.
  intros tok path rr k m Hin Ha Hm.
  destruct (usage_through_wrappers tok path rr (EUsage k m) k m Hin Ha eq_refl) as [H1 H2].
  destruct m; [congruence|]. split; assumption.
Qed.
(* ... also when the backend wrapped it, and when it carries no message *)
Theorem rpc_usage_through_wrappers : forall tok path rr e k m, In path rpc_paths ->
  tok_answer tok path rr = Some e -> leaf e = EUsage k m ->
  fst (exchange tok true path rr) = CUsage k (shown m) /\ temporary (to_outcome (fst (exchange tok true path rr))) = false.
Proof. exact usage_through_wrappers. Qed.
(* the two inputs on which relic used to fail (repaired by add50a2 and bc5e511), kept as facts about the current code *)
Theorem rpc_wrapped_usage_classified :
  let e := EWrapped [98; 97; 99; 107; 101; 110; 100; 58; 32] (EUsage [107; 49] [110; 111; 116; 32; 97; 108; 108; 111; 119; 101; 100]) in
  let tok := mkTok (Some e) (fun _ _ => inl (EOther [])) (fun _ _ _ _ => inl (EOther [])) in
  fst (exchange tok true pPing req0) = CUsage [107; 49] [110; 111; 116; 32; 97; 108; 108; 111; 119; 101; 100].
Proof. reflexivity. Qed.
Theorem rpc_empty_error_text_is_error :
  let tok := mkTok None (fun _ _ => inr (mkKI [1] [] [2])) (fun _ _ _ _ => inl (EOther [])) in
  fst (exchange tok true pSign req0) = CTokErr serve_err_text_default true.
Proof. reflexivity. Qed.
(* a request repeated by the retry loop after a lost reply repeats only Ping / GetKey / Sign: nothing that changes the token *)
Theorem rpc_repeatable_operations_are_stateless : all_ops_stateless = true.
Proof. reflexivity. Qed.

Example rpc_sign_roundtrip :
  let tok := mkTok None (fun n p => inr (mkKI [9] [8] [7])) (fun k d h s => inr (d ++ [0; 255])) in
  exchange tok true rpc_path_Sign (mkReq [107; 49] (Some [9]) [1; 2; 3] 5 (Some 32)) =
    (CSuccess (mkResp [1; 2; 3; 0; 255] [] [] [] [] false false),
     [TGetKey [107; 49] [9]; TSign [107; 49] [9] [1; 2; 3] 5 (Some 32)]).
Proof. vm_compute. reflexivity. Qed.

(* =====================================================================================================================
   (d) the key cache under retries
   ===================================================================================================================== *)

(* a failed lookup leaves the cache exactly as it was; deleting the failed lookups from a history changes nothing else *)
Theorem cache_failure_changes_nothing : forall expiry st want now tok called st',
  cache_get expiry st want now tok = (None, called, st') -> st' = st /\ called = true /\ tok = None.
Proof.
  intros expiry st want now tok called st' H.
  destruct (cache_get_cases expiry st want now tok) as [(_ & _ & _ & E)|E]; rewrite E in H; [discriminate H|].
  destruct tok; [discriminate H|]. injection H as <- <-. auto.
Qed.
Theorem cache_retry_transparent : forall expiry ops st,
  cache_hist expiry st (drop_failed expiry st ops) =
  (filter (fun r => negb (failed r)) (fst (cache_hist expiry st ops)), snd (cache_hist expiry st ops)).
Proof.
  induction ops as [|o r IH]; intros st; [reflexivity|].
  cbn [drop_failed cache_hist].
  destruct (cache_get expiry st (o_want o) (o_now o) (o_tok o)) as [[res called] st'] eqn:E.
  destruct res as [k|].
  - cbn [cache_hist]. rewrite E, IH.
    destruct (cache_hist expiry st' r) as [rs st'']. reflexivity.
  - apply cache_failure_changes_nothing in E as (-> & _ & _). rewrite IH.
    destruct (cache_hist expiry st r) as [rs st'']. reflexivity.
Qed.
(* an answer comes from the live, acceptable entry or from the token asked now *)
Theorem cache_answer_origin : forall expiry st want now tok k called st',
  cache_get expiry st want now tok = (Some k, called, st') ->
  (called = false /\ k = c_id st /\ c_has st = true /\ now < c_expires st /\ (want = [] \/ want = k) /\ st' = st) \/
  (called = true /\ tok = Some k).
Proof.
  intros expiry st want now tok k called st' H.
  destruct (cache_get_cases expiry st want now tok) as [(Hh & Hf & Hid & E)|E]; rewrite E in H.
  - injection H as <- <- <-. left. repeat split; assumption.
  - injection H as -> <- _. right. split; reflexivity.
Qed.
(* whatever the cache holds was stored by an un-pinned lookup the token answered — never by a failed or a pinned one *)
Theorem cache_only_holds_answers : forall expiry ops,
  let st' := snd (cache_hist expiry c_empty ops) in
  c_has st' = true -> exists o, In o ops /\ stored_by expiry st' o.
Proof.
  intros expiry ops st' Hhas.
  destruct (cache_hist_origin expiry ops c_empty) as [H|H]; [exact H|].
  unfold st' in Hhas. rewrite H in Hhas. discriminate Hhas.
Qed.
(* under EVERY interleaving of concurrent lookups (machine and linearizability theorem of C14): a failed fetch writes
   nothing, the cache changes only after a successful fetch, the final cache is the one produced by the answered lookups,
   and a pinned lookup is never answered with another key id *)
Theorem cache_sched_failed_fetch : forall E tok rq i t s,
  C14.ModelCache.t_pc t = C14.ModelCache.CMiss ->
  C14.ModelCache.cs_cache (C14.ModelCache.cthread E tok rq i false t s) = C14.ModelCache.cs_cache s.
Proof. exact C15.CacheSchedProofs.sched_failed_fetch. Qed.
Theorem cache_sched_changes_only_after_fetch : forall E tok rq i fok t s,
  C14.ModelCache.cs_cache (C14.ModelCache.cthread E tok rq i fok t s) <> C14.ModelCache.cs_cache s ->
  exists k, C14.ModelCache.t_pc t = C14.ModelCache.CFetched k.
Proof. exact C15.CacheSchedProofs.sched_cache_changes_only_after_fetch. Qed.
Theorem cache_sched_failed_lookups_leave_no_trace : forall E tok rqs sched,
  C14.ModelCache.cs_cache (C14.ModelCache.crun E tok rqs sched) =
  fst (fold_left (C14.ModelCache.seq_op E tok rqs)
                 (filter C14.ModelCache.l_ok (C14.ModelCache.history (C14.ModelCache.crun E tok rqs sched))) ([], [])).
Proof. exact C15.CacheSchedProofs.sched_failed_lookups_leave_no_trace. Qed.
Theorem cache_sched_pinned_id : forall E tok rqs sched i t rq k,
  C14.ModelCache.tok_pin tok ->
  nth_error (C14.ModelCache.cs_thr (C14.ModelCache.crun E tok rqs sched)) i = Some t -> nth_error rqs i = Some rq ->
  C14.ModelCache.c_pin rq <> 0 ->
  C14.ModelCache.cresult t = Some (Some k) -> C14.ModelCache.k_id k = C14.ModelCache.c_pin rq.
Proof. exact C14.ProofsCache.cache_pinned_id. Qed.

Example cache_retry_history :   (* empty cache; the token fails twice, then answers A; a lookup pinned to B bypasses the entry *)
  cache_hist 100 c_empty [mkOp [] 0 None; mkOp [] 1 None; mkOp [] 2 (Some [65]); mkOp [] 3 None; mkOp [66] 4 (Some [66]); mkOp [] 5 None] =
  ([(None, true); (None, true); (Some [65], true); (Some [65], false); (Some [66], true); (Some [65], false)], mkC true 102 [65]).
Proof. vm_compute. reflexivity. Qed.

(* =====================================================================================================================
   (c) the worker process pool: monitor / spawn / Close and the requests that arrive meanwhile, for every event sequence
   ===================================================================================================================== *)

(* a request is never lost and never in two places: waiting in the accept queue, held by one worker, or finished with
   exactly one fate (answered, dropped by a dying worker, or given up by the client) *)
Theorem life_requests_conserved : forall target evs,
  let q := snd (lrun target evs) in
  NoDup (places q) /\ (forall rid, In rid (l_seen q) <-> In rid (places q)).
Proof.
  intros target evs q. pose proof (inv_reqs _ (linv_run target evs)) as H. change (RInv q) in H.
  split; [exact (rinv_nodup q H)|]. destruct H as [_ Hp].
  intros rid. split; apply Permutation_in; [exact Hp | symmetry; exact Hp].
Qed.
Theorem life_one_fate : forall target evs, NoDup (map fst (l_done (snd (lrun target evs)))).
Proof. exact C15.LifeProofs.life_one_fate. Qed.
(* only a live worker (ready or draining) holds or answers requests *)
Theorem life_served_by_live_worker : forall target evs pid rid,
  In (pid, rid) (l_inflight (snd (lrun target evs))) -> serving (status (l_child (fst (lrun target evs))) pid) = true.
Proof. intros target evs. exact (c_served _ _ _ _ _ (inv_kids _ (linv_run target evs))). Qed.
Theorem life_answer_needs_live_worker : forall target evs pid rid,
  let s := lrun target evs in
  l_done (snd (lstep target s (LReply pid rid))) <> l_done (snd s) -> serving (status (l_child (fst s)) pid) = true.
Proof.
  intros target evs pid rid. cbv zeta. intros Hx. apply (life_served_by_live_worker target evs pid rid).
  destruct (lrun target evs) as [p q]. unfold lstep in Hx. rewrite life_shape in Hx. cbn [negb fst snd] in *.
  destruct (existsb (fun x => (fst x =? pid) && (snd x =? rid)) (l_inflight q)) eqn:Hex; [|cbn [snd] in Hx; congruence].
  apply existsb_exists in Hex as ([p0 r0] & Hin & Hc). cbn [fst snd] in Hc. apply andb_true_iff in Hc as [H1 H2].
  apply Z.eqb_eq in H1, H2. subst. exact Hin.
Qed.
(* the monitor's count is sound, it never stalls with no worker, and a spawn after a failed spawn waits restartDelay *)
Theorem life_procs_accounted : forall target evs pid,
  let p := fst (lrun target evs) in
  In pid (l_procs p) -> alive (status (l_child p) pid) = true \/ In pid (l_exitq p).
Proof. intros target evs. exact (c_procs _ _ _ _ _ (inv_kids _ (linv_run target evs))). Qed.
Theorem life_no_stall : forall target evs b,
  let p := fst (lrun target evs) in
  1 <= target -> l_mon p = MIdle -> l_cancel p = false -> l_exitq p = [] ->
  (forall pid, alive (status (l_child p) pid) = false) ->
  exists pid dl, l_mon (monitor_step target p b) = MSpawning pid dl /\ status (l_child (monitor_step target p b)) pid = CStarting.
Proof.
  intros target evs b p Ht Hm Hc Hq Hdead.
  assert (Hnil : l_procs p = []).
  { destruct (l_procs p) as [|x l] eqn:E; [reflexivity|]. exfalso.
    pose proof (life_procs_accounted target evs x) as Hacc. cbv zeta in Hacc. fold p in Hacc.
    rewrite E, Hdead, Hq in Hacc. destruct (Hacc (or_introl eq_refl)) as [Ha|Ha]; [discriminate | destruct Ha]. }
  unfold monitor_step. rewrite Hm, Hc, Hnil. cbn [negb monitor_runs zlen length Z.of_nat]. unfold monitor_needs_worker.
  replace (0 <? target) with true by (symmetry; apply Z.ltb_lt; lia).
  eexists _, _. cbn [l_mon l_child status]. rewrite Z.eqb_refl. split; reflexivity.
Qed.
Theorem life_backoff : forall target evs f t pid,
  let p := fst (lrun target evs) in
  In f (l_fails p) -> In (t, pid) (l_spawns p) -> t <= f \/ f + restart_delay_ns <= t.
Proof. intros target evs. exact (t_spaced _ _ _ _ (inv_time _ (linv_run target evs))). Qed.
(* a request that was not answered fails with a retryable error — except when the dying worker's connection is closed
   rather than reset: io.EOF is not in the transient list *)
Theorem life_fate_retryable : forall f, (forall pid, f <> FAnswered pid) -> (forall pid, f <> FDropped pid false) ->
  temporary (fate_outcome f) = true.
Proof. intros [pid|pid [|]|] H1 H2; try reflexivity; [elim (H1 pid) | elim (H2 pid)]; reflexivity. Qed.
Theorem life_dropped_always_retryable_refuted :
  exists target evs rid pid, In (rid, FDropped pid false) (l_done (snd (lrun target evs))) /\ temporary (fate_outcome (FDropped pid false)) = false.
Proof.
  exists 1, [LMonitor false; LReady 1; LArrive 7; LAccept 1 7; LExit 1 false], 7, 1.
  split; [vm_compute; left; reflexivity | reflexivity].
Qed.

Example life_crash_and_respawn :
  (* worker 1 starts, accepts request 7 and dies; the monitor reaps it and starts worker 2, which answers request 8 that
     arrived in between *)
  let s := lrun 1 [LMonitor false; LReady 1; LArrive 7; LAccept 1 7; LExit 1 false; LArrive 8; LMonitor false; LMonitor false;
                   LReady 2; LAccept 2 8; LReply 2 8] in
  l_done (snd s) = [(8, FAnswered 2); (7, FDropped 1 false)] /\ l_procs (fst s) = [2] /\ l_spawns (fst s) = [(0, 2); (0, 1)].
Proof. vm_compute. repeat split. Qed.
