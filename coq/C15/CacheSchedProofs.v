(* C15/CacheSchedProofs.v — failed lookups under EVERY interleaving of concurrent lookups and clock ticks: corollaries on the
   interleaving machine and the linearizability theorem of unit C14 (C14/ModelCache.v, C14/ProofsCache.v), reused here. *)
From Relic Require Import Base.Prelude Generated.C14_gen C14.Model C14.Proofs C14.ModelCache C14.ProofsCache.

(* the step of a lookup at which the token fails writes nothing into the cache and ends the lookup with an error *)
Lemma sched_failed_fetch : forall E tok rq i t s,
  t_pc t = CMiss -> cs_cache (cthread E tok rq i false t s) = cs_cache s.
Proof.
  intros E tok rq i t s Hpc. unfold cthread. rewrite Hpc. destruct (fetch_key tok rq false); reflexivity.
Qed.
(* the cache only ever changes at the step that follows a successful fetch *)
Lemma sched_cache_changes_only_after_fetch : forall E tok rq i fok t s,
  cs_cache (cthread E tok rq i fok t s) <> cs_cache s -> exists k, t_pc t = CFetched k.
Proof.
  intros E tok rq i fok t s H. unfold cthread in H.
  destruct (t_pc t) eqn:Hpc; try (exfalso; apply H; reflexivity); try (eexists; reflexivity).
  - destruct (try_lock (cs_lock s) i); exfalso; apply H; reflexivity.
  - destruct (check_cache rq (cs_cache s) (cs_now s)); exfalso; apply H; reflexivity.
  - destruct (fetch_key tok rq fok); exfalso; apply H; reflexivity.
Qed.
(* in the sequential specification the failed operations can be deleted: the cache evolves as if they never happened *)
Lemma seq_failed_transparent : forall E tok c t rq, snd (seq_get E tok c t rq false) = c.
Proof.
  intros E tok c t rq. unfold seq_get. destruct (clookup (c_name rq) c) as [e|]; [destruct (live e t && pin_ok rq (e_key e))|]; reflexivity.
Qed.
Lemma seq_op_failed E tok rqs a o : l_ok o = false -> fst (seq_op E tok rqs a o) = fst a.
Proof.
  intros Hok. unfold seq_op. destruct (nth_error rqs (l_thread o)) as [rq|]; [|reflexivity]. rewrite Hok.
  pose proof (seq_failed_transparent E tok (fst a) (l_time o) rq) as Hs.
  destruct (seq_get E tok (fst a) (l_time o) rq false) as [res c']. exact Hs.
Qed.
(* the cache an operation leaves depends on the cache it finds, not on the results gathered so far *)
Lemma seq_op_cache E tok rqs a1 a2 o : fst a1 = fst a2 -> fst (seq_op E tok rqs a1 o) = fst (seq_op E tok rqs a2 o).
Proof.
  intros Ha. unfold seq_op. destruct (nth_error rqs (l_thread o)); [|exact Ha]. rewrite Ha.
  destruct (seq_get E tok (fst a2) (l_time o) c (l_ok o)). reflexivity.
Qed.
Lemma seq_run_failed_transparent E tok rqs : forall ops a1 a2, fst a1 = fst a2 ->
  fst (fold_left (seq_op E tok rqs) ops a1) = fst (fold_left (seq_op E tok rqs) (filter l_ok ops) a2).
Proof.
  induction ops as [|o r IH]; intros a1 a2 Ha; [exact Ha|]. cbn [fold_left filter].
  destruct (l_ok o) eqn:Hok; cbn [fold_left]; apply IH.
  - apply seq_op_cache, Ha.
  - rewrite (seq_op_failed _ _ _ _ _ Hok). exact Ha.
Qed.
(* ... hence in every concurrent run the final cache is the one obtained from the operations the token answered *)
Lemma sched_failed_lookups_leave_no_trace : forall E tok rqs sched,
  cs_cache (crun E tok rqs sched) = fst (fold_left (seq_op E tok rqs) (filter l_ok (history (crun E tok rqs sched))) ([], [])).
Proof.
  intros E tok rqs sched. destruct (cache_linearizable E tok rqs sched) as (H & _). cbv zeta in H.
  rewrite <- H. unfold seq_run. apply seq_run_failed_transparent. reflexivity.
Qed.
