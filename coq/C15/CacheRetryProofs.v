(* C15/CacheRetryProofs.v — histories of lookups in which the token may fail: a failed attempt does not poison the cache. *)
From Relic Require Import Base.Prelude Generated.C15_gen C15.Model C15.Proofs C15.CacheRetry.

(* removing the failed lookups from a history changes neither the other answers nor the final cache *)
Fixpoint drop_failed (expiry : Z) (st : cstate) (ops : list cop) : list cop :=
  match ops with
  | [] => []
  | o :: r =>
      let '(res, called, st') := cache_get expiry st (o_want o) (o_now o) (o_tok o) in
      match res with None => drop_failed expiry st' r | Some _ => o :: drop_failed expiry st' r end
  end.

(* a lookup leaves the cache as it was, or stores the token's answer to an un-pinned request for `expiry` from now *)
Lemma cache_get_stores expiry st o res called st1 :
  cache_get expiry st (o_want o) (o_now o) (o_tok o) = (res, called, st1) -> st1 = st \/ stored_by expiry st1 o.
Proof.
  intros E. destruct (cache_get_cases expiry st (o_want o) (o_now o) (o_tok o)) as [(_ & _ & _ & E')|E']; rewrite E' in E;
    injection E as _ _ <-; [left; reflexivity|].
  destruct (o_tok o) as [k|] eqn:Ek; [|left; reflexivity].
  destruct (cache_may_store expiry (zlen (o_want o))) eqn:Es; [right | left; reflexivity].
  split; [exact (may_store_unpinned _ _ Es) | split; [exact Ek | reflexivity]].
Qed.

(* so after a history the cache is the one it started from, or was stored by one of the lookups *)
Lemma cache_hist_origin expiry : forall ops st,
  let st' := snd (cache_hist expiry st ops) in
  (exists o, In o ops /\ stored_by expiry st' o) \/ st' = st.
Proof.
  induction ops as [|o r IH]; intros st; cbn [cache_hist]; [right; reflexivity|].
  destruct (cache_get expiry st (o_want o) (o_now o) (o_tok o)) as [[res called] st1] eqn:E.
  specialize (IH st1). destruct (cache_hist expiry st1 r) as [rs st2]. cbn [snd] in *.
  destruct IH as [(o' & Hin & Hs)| ->]; [left; exists o'; split; [right; exact Hin | exact Hs]|].
  destruct (cache_get_stores _ _ _ _ _ _ E) as [->|Hs]; [right; reflexivity|].
  left. exists o. split; [left; reflexivity | exact Hs].
Qed.
