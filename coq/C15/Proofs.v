(* C15/Proofs.v — lemmas on the retry loop, the worker handler gate and the key cache.
   Properties.v defines delay_at / delays_upto / temp_prefix / cache_seq itself (after importing this
   file), so identical copies are defined here; the lemma statements are convertible with the theorem
   statements of Properties.v. *)
From Relic Require Import Base.Prelude Base.Slice Generated.C15_gen C15.Model.

Fixpoint delay_at (i : nat) : Z := match i with O => initial_delay_ms | S k => next_delay (delay_at k) end.
Definition delays_upto (n : nat) : list Z := map delay_at (seq 0 n).
Definition temp_prefix (script : list outcome) (j : nat) : Prop :=
  forall i, (i < j)%nat -> temporary (nth i script OSuccess) = true.
Fixpoint cache_seq (expiry : Z) (st : cstate) (k : bytes) (ops : list (bytes * Z)) : list (option bytes) :=
  match ops with
  | [] => []
  | (want, now) :: r => let '(res, _, st') := cache_get expiry st want now (Some k) in res :: cache_seq expiry st' k r
  end.

Lemma status_temp_spec c : status_is_temporary c = existsb (Z.eqb c) [500; 502; 503; 504; 507].
Proof.
  unfold status_is_temporary. cbn [existsb].
  destruct (c =? 504), (c =? 502), (c =? 503), (c =? 507), (c =? 500); reflexivity.
Qed.

Lemma retries_positive : forall r, 1 <= eff_retries r.
Proof.
  intros r. unfold eff_retries, retry_use_default, default_retries.
  destruct (r <=? 0) eqn:H; [lia | apply Z.leb_gt in H; lia].
Qed.

Lemma delays_upto_S n : delays_upto (S n) = delays_upto n ++ [delay_at n].
Proof. unfold delays_upto. rewrite seq_S, map_app. reflexivity. Qed.

Lemma delays_step n :
  match n with O => delays_upto (Nat.pred n) | S _ => delays_upto (Nat.pred n) ++ [delay_at (Nat.pred n)] end
  = delays_upto n.
Proof. destruct n; [reflexivity|]. symmetry. apply delays_upto_S. Qed.

Definition result_of (o : outcome) : rresult := match o with OSuccess => RSuccess | _ => RFail o end.
Lemma result_of_fail o : o <> OSuccess -> result_of o = RFail o.
Proof. destruct o; [congruence|..]; reflexivity. Qed.

(* success is not transient, so the loop's two tests on an outcome come to one: go on, or return what it stands for *)
Lemma retry_loop_S f i retries delay script cw last delays :
  retry_loop (S f) i retries delay script cw last delays =
  if retry_loop_cond i retries then
    if retry_wait_first i && (cw =? i) then (RCancelled, i, delays)
    else
      let delays' := if retry_wait_first i then delays ++ [delay] else delays in
      let o := nth (Z.to_nat i) script OSuccess in
      if temporary o
      then retry_loop f (i + 1) retries (if retry_wait_first i then next_delay delay else delay) script cw (Some o) delays'
      else (result_of o, i + 1, delays')
  else (match last with Some o => RFail o | None => RNil end, i, delays).
Proof.
  cbn [retry_loop]. unfold retry_give_up, retry_is_retryable. cbv zeta.
  destruct (nth (Z.to_nat i) script OSuccess); try reflexivity; destruct (temporary _); reflexivity.
Qed.

Lemma wait_first_nat n : retry_wait_first (Z.of_nat n) = match n with O => false | S _ => true end.
Proof. unfold retry_wait_first. destruct n; [reflexivity|]. apply negb_true_iff, Z.eqb_neq. lia. Qed.

Lemma cond_true n retries : Z.of_nat n < retries -> retry_loop_cond (Z.of_nat n) retries = true.
Proof. unfold retry_loop_cond. apply Z.ltb_lt. Qed.

Lemma cond_false n retries : retries <= Z.of_nat n -> retry_loop_cond (Z.of_nat n) retries = false.
Proof. unfold retry_loop_cond. apply Z.ltb_ge. Qed.

Lemma no_cancel n cw :
  n = 0%nat \/ cw <> Z.of_nat n -> retry_wait_first (Z.of_nat n) && (cw =? Z.of_nat n) = false.
Proof.
  intros [->|H]; [reflexivity|]. apply andb_false_iff. right. apply Z.eqb_neq. exact H.
Qed.

(* an iteration within the limit that is not cancelled *)
Lemma step_body f n retries delay script cw last delays :
  Z.of_nat n < retries -> n = 0%nat \/ cw <> Z.of_nat n ->
  retry_loop (S f) (Z.of_nat n) retries delay script cw last delays =
  let delays' := match n with O => delays | S _ => delays ++ [delay] end in
  if temporary (nth n script OSuccess)
  then retry_loop f (Z.of_nat (S n)) retries (match n with O => delay | S _ => next_delay delay end)
                  script cw (Some (nth n script OSuccess)) delays'
  else (result_of (nth n script OSuccess), Z.of_nat n + 1, delays').
Proof.
  intros Hr Hc. rewrite retry_loop_S. rewrite (cond_true _ _ Hr), (no_cancel _ _ Hc), wait_first_nat, Nat2Z.id.
  replace (Z.of_nat (S n)) with (Z.of_nat n + 1) by lia. destruct n; reflexivity.
Qed.

Lemma step_cancel f n retries delay script last delays :
  Z.of_nat n < retries -> n <> 0%nat ->
  retry_loop (S f) (Z.of_nat n) retries delay script (Z.of_nat n) last delays = (RCancelled, Z.of_nat n, delays).
Proof.
  intros Hr Hn. rewrite retry_loop_S, (cond_true _ _ Hr), wait_first_nat, Z.eqb_refl.
  destruct n; [congruence | reflexivity].
Qed.

Lemma step_end f n retries delay script cw last delays :
  retries <= Z.of_nat n ->
  retry_loop (S f) (Z.of_nat n) retries delay script cw last delays =
  (match last with Some o => RFail o | None => RNil end, Z.of_nat n, delays).
Proof. intros Hr. rewrite retry_loop_S, (cond_false _ _ Hr). reflexivity. Qed.

(* after k transient attempts, none of them cancelled, the loop is at the head of iteration k *)
Lemma do_retry_advance r script cw : forall k,
  temp_prefix script k -> Z.of_nat k <= eff_retries r -> cw < 1 \/ Z.of_nat k <= cw ->
  do_retry r script cw =
  retry_loop (S (Z.to_nat (eff_retries r) - k)) (Z.of_nat k) (eff_retries r) (delay_at (Nat.pred k)) script cw
             (match k with O => None | S k' => Some (nth k' script OSuccess) end) (delays_upto (Nat.pred k)).
Proof.
  induction k as [|k IH]; intros Ht Hr Hc.
  - unfold do_retry. cbv zeta. rewrite Nat.sub_0_r. reflexivity.
  - rewrite IH by (try lia; intros i Hi; apply Ht; lia).
    replace (Z.to_nat (eff_retries r) - k)%nat with (S (Z.to_nat (eff_retries r) - S k)) by lia.
    rewrite step_body, Ht by lia. cbv zeta. rewrite delays_step. destruct k; reflexivity.
Qed.

(* The three ways the loop ends: an attempt that is not transient, cancellation during a wait, the attempt limit. *)
Lemma stops_at r script cw j :
  Z.of_nat j < eff_retries r -> temp_prefix script j -> temporary (nth j script OSuccess) = false ->
  (cw < 1 \/ Z.of_nat j < cw) ->
  do_retry r script cw = (result_of (nth j script OSuccess), Z.of_nat j + 1, delays_upto j).
Proof.
  intros Hr Hp Ht Hcw. rewrite (do_retry_advance r script cw j) by (assumption || lia).
  rewrite step_body, Ht by lia. cbv zeta. rewrite delays_step. reflexivity.
Qed.

Lemma cancel_prompt : forall r script k,
  (1 <= k)%nat -> Z.of_nat k < eff_retries r -> temp_prefix script k ->
  do_retry r script (Z.of_nat k) = (RCancelled, Z.of_nat k, delays_upto (k - 1)).
Proof.
  intros r script k Hk Hr Hp. rewrite (do_retry_advance r script (Z.of_nat k) k) by (assumption || lia).
  rewrite step_cancel by lia. rewrite Nat.sub_1_r. reflexivity.
Qed.

Lemma exhausted : forall r script cw,
  temp_prefix script (Z.to_nat (eff_retries r)) -> (cw < 1 \/ eff_retries r <= cw) ->
  do_retry r script cw =
  (RFail (nth (Z.to_nat (eff_retries r) - 1) script OSuccess), eff_retries r, delays_upto (Z.to_nat (eff_retries r) - 1)).
Proof.
  intros r script cw Hp Hcw. pose proof (retries_positive r) as Hpos.
  rewrite (do_retry_advance r script cw (Z.to_nat (eff_retries r))) by (assumption || lia).
  rewrite step_end, Nat.sub_1_r, Z2Nat.id by lia.
  destruct (Z.to_nat (eff_retries r)) eqn:E; [lia | reflexivity].
Qed.

(* among the first m attempts: the first that is not transient, or before it the retry whose wait is cancelled, or neither *)
Lemma first_stop script cw : forall m,
  (exists j, (j < m)%nat /\ temp_prefix script j /\ temporary (nth j script OSuccess) = false /\ (cw < 1 \/ Z.of_nat j < cw)) \/
  (exists k, (1 <= k < m)%nat /\ temp_prefix script k /\ cw = Z.of_nat k) \/
  (temp_prefix script m /\ (cw < 1 \/ Z.of_nat m <= cw)).
Proof.
  induction m as [|m [(j & Hj & H)|[(k & Hk & H)|[Hp Hc]]]].
  - right. right. split; [intros i Hi; lia | lia].
  - left. exists j. split; [lia | exact H].
  - right. left. exists k. split; [lia | exact H].
  - assert (Hm : (1 <= m)%nat /\ cw = Z.of_nat m \/ cw < 1 \/ Z.of_nat m < cw) by lia.
    destruct Hm as [[Hm E]|Hc']; [right; left; exists m; split; [lia | split; assumption]|].
    destruct (temporary (nth m script OSuccess)) eqn:Tm; [|left; exists m; split; [lia | auto]].
    right. right. split; [|lia].
    intros i Hi. destruct (Nat.eq_dec i m) as [->|Hne]; [exact Tm | apply Hp; lia].
Qed.

Lemma do_retry_cases r script cw :
  (exists j, Z.of_nat j < eff_retries r /\ temp_prefix script j /\ temporary (nth j script OSuccess) = false /\
             do_retry r script cw = (result_of (nth j script OSuccess), Z.of_nat j + 1, delays_upto j)) \/
  (exists k, (1 <= k)%nat /\ Z.of_nat k < eff_retries r /\ temp_prefix script k /\ cw = Z.of_nat k /\
             do_retry r script cw = (RCancelled, Z.of_nat k, delays_upto (k - 1))) \/
  (temp_prefix script (Z.to_nat (eff_retries r)) /\
   do_retry r script cw =
   (RFail (nth (Z.to_nat (eff_retries r) - 1) script OSuccess), eff_retries r, delays_upto (Z.to_nat (eff_retries r) - 1))).
Proof.
  destruct (first_stop script cw (Z.to_nat (eff_retries r))) as [(j & Hj & Hp & Ht & Hc)|[(k & Hk & Hp & ->)|[Hp Hc]]].
  - left. exists j. assert (Hr : Z.of_nat j < eff_retries r) by lia.
    repeat (split; [assumption|]). apply stops_at; assumption.
  - right. left. exists k. assert (Hr : Z.of_nat k < eff_retries r) by lia.
    split; [lia|]. repeat (split; [assumption || reflexivity|]). apply cancel_prompt; (assumption || lia).
  - right. right. split; [exact Hp|]. apply exhausted; [exact Hp | lia].
Qed.

Lemma attempts_bounded : forall r script cw,
  let '(_, n, _) := do_retry r script cw in 0 <= n <= eff_retries r.
Proof.
  intros r script cw. pose proof (retries_positive r) as Hpos.
  destruct (do_retry_cases r script cw) as [(j & Hj & _ & _ & ->)|[(k & _ & Hk & _ & _ & ->)|[_ ->]]]; lia.
Qed.

Lemma success_iff : forall r script,
  fst (fst (do_retry r script (-1))) = RSuccess <->
  exists j, Z.of_nat j < eff_retries r /\ nth j script OSuccess = OSuccess /\ temp_prefix script j.
Proof.
  intros r script. split.
  - destruct (do_retry_cases r script (-1)) as [(j & Hj & Hp & _ & ->)|[(k & _ & _ & _ & _ & ->)|[_ ->]]];
      [|discriminate..].
    intros H. exists j. split; [exact Hj|]. split; [|exact Hp].
    destruct (nth j script OSuccess); [reflexivity | discriminate H..].
  - intros (j & Hr & Hs & Hp). rewrite (stops_at r script (-1) j), Hs; [reflexivity | exact Hr | exact Hp | | lia].
    rewrite Hs. reflexivity.
Qed.

Lemma permanent_immediate : forall r script cw j o,
  Z.of_nat j < eff_retries r -> temp_prefix script j ->
  nth j script OSuccess = o -> o <> OSuccess -> temporary o = false ->
  (cw < 1 \/ Z.of_nat j < cw) ->
  do_retry r script cw = (RFail o, Z.of_nat j + 1, delays_upto j).
Proof.
  intros r script cw j o Hr Hp <- Hne Ht Hcw. rewrite <- (result_of_fail _ Hne). apply stops_at; assumption.
Qed.

(* the fuel given by do_retry always suffices *)
Lemma never_out_of_fuel : forall r script cw, fst (fst (do_retry r script cw)) <> ROutOfFuel.
Proof.
  intros r script cw.
  destruct (do_retry_cases r script cw) as [(j & _ & _ & _ & ->)|[(k & _ & _ & _ & _ & ->)|[_ ->]]]; [|discriminate..].
  destruct (nth j script OSuccess); discriminate.
Qed.

Lemma cookie_gate : forall e, handler false e = (403, false, (false, false)).
Proof. intros e. unfold handler, handler_cookie_bad. reflexivity. Qed.

(* the two ways a lookup goes: answered from the live, acceptable entry, or passed on to the token *)
Lemma cache_get_cases expiry st want now tok :
  (c_has st = true /\ now < c_expires st /\ (want = [] \/ want = c_id st) /\
   cache_get expiry st want now tok = (Some (c_id st), false, st)) \/
  cache_get expiry st want now tok =
  (tok, true, match tok with
              | Some k => if cache_may_store expiry (zlen want) then mkC true (now + expiry) k else st
              | None => st
              end).
Proof.
  unfold cache_get. destruct (cache_entry_live _ _ && cache_id_acceptable _ _) eqn:Hit; [left | right; destruct tok; reflexivity].
  apply andb_true_iff in Hit as [Hl Ha]. apply andb_true_iff in Hl as [Hh Hf]. apply Z.ltb_lt in Hf.
  apply orb_true_iff in Ha as [Ha|Ha]; [apply Z.eqb_eq, zlen_0_nil in Ha | apply bytes_eqb_eq in Ha]; auto.
Qed.
Lemma may_store_unpinned expiry (want : bytes) : cache_may_store expiry (zlen want) = true -> want = [].
Proof. unfold cache_may_store. intros [_ H]%andb_true_iff. apply zlen_0_nil, Z.eqb_eq, H. Qed.

Lemma pinned_id : forall expiry st want now tok k called st',
  want <> [] -> cache_get expiry st want now tok = (Some k, called, st') ->
  st' = st /\ ((called = false /\ k = want) \/ (called = true /\ tok = Some k)).
Proof.
  intros expiry st want now tok k called st' Hw H.
  destruct (cache_get_cases expiry st want now tok) as [(_ & _ & Hid & E)|E]; rewrite E in H.
  - injection H as <- <- <-. split; [reflexivity|]. left. split; [reflexivity|]. destruct Hid; congruence.
  - injection H as -> <- <-. split; [|right; split; reflexivity].
    destruct (cache_may_store expiry (zlen want)) eqn:Es; [elim Hw; exact (may_store_unpinned _ _ Es) | reflexivity].
Qed.

Lemma cache_seq_inv expiry k : forall ops st,
  (c_has st = true -> c_id st = k) ->
  Forall (fun res => res = Some k) (cache_seq expiry st k ops).
Proof.
  induction ops as [|[want now] ops IH]; intros st Hst; cbn [cache_seq]; [constructor|].
  destruct (cache_get_cases expiry st want now (Some k)) as [(Hh & _ & _ & E)|E]; rewrite E.
  - constructor; [rewrite (Hst Hh); reflexivity | apply IH; exact Hst].
  - constructor; [reflexivity|]. apply IH.
    destruct (cache_may_store expiry (zlen want)); [intros _; reflexivity | exact Hst].
Qed.

Lemma cache_transparent : forall expiry k ops,
  Forall (fun res => res = Some k) (cache_seq expiry c_empty k ops).
Proof. intros expiry k ops. apply cache_seq_inv. discriminate. Qed.
