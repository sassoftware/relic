(* C15/TimeProofs.v — the timed retry loop equals the chain specification; consequences for every fault sequence, every
   attempt duration and every instant at which the caller's context ends. *)
From Relic Require Import Base.Prelude Generated.C15_gen C15.Model C15.Proofs C15.Time.

Lemma shape_ok : retry_shape_ok = true.
Proof. reflexivity. Qed.

Lemma temporary_is_spec o : temporary o = spec_transient o.
Proof. destruct o; cbn [temporary spec_transient]; try reflexivity. apply status_temp_spec. Qed.

Lemma attempt_eq b T s a : attempt_result b T s a = spec_attempt b T s a.
Proof.
  unfold attempt_result, spec_attempt. cbv zeta.
  destruct (Z.max 0 (at_dur a) <? Z.max 0 T) eqn:E.
  - apply Z.ltb_lt in E. rewrite Z.min_l by lia. cbn [snd]. destruct (bc_at b); reflexivity.
  - apply Z.ltb_ge in E. rewrite Z.min_r by lia. cbn [snd]. destruct (bc_at b); reflexivity.
Qed.

Lemma spec_attempt_end_ge b T s a o e : spec_attempt b T s a = (o, e) -> s <= e.
Proof. unfold spec_attempt. cbv zeta. destruct (bc_at b) as [c|]; [destruct (c <=? _)|]; intros [= _ <-]; lia. Qed.

Lemma spec_attempt_end_le b T s a o e c : bc_at b = Some c -> spec_attempt b T s a = (o, e) -> e <= Z.max c s.
Proof.
  intros Hc. unfold spec_attempt. cbv zeta. rewrite Hc.
  destruct (c <=? s + Z.min (Z.max 0 (at_dur a)) (Z.max 0 T)) eqn:E; intros [= _ <-]; [lia | apply Z.leb_gt in E; lia].
Qed.

Lemma delay_step k : (match k with O => delay_ns_at (Nat.pred k) | S _ => next_delay_ns (delay_ns_at (Nat.pred k)) end) = delay_ns_at k.
Proof. destruct k; cbn [Nat.pred delay_ns_at]; reflexivity. Qed.

(* the part of iteration k that follows the wait *)
Definition titer (f : nat) (b : basectx) (R T : Z) (script : list att) (k : nat) (wend : Z) : trun :=
  let '(o, aend) := attempt_result b T wend (nth k script default_att) in
  let rec := mkA wend aend o in
  if retry_attempt_ok (err_code o) then (TSuccess, aend, [rec])
  else if retry_give_up (retry_is_retryable (temporary o)) then (TFail o, aend, [rec])
  else let '(r, t, l) := tloop f b R T script (Z.of_nat k + 1) (delay_ns_at k) aend (Some o) in (r, t, rec :: l).

Lemma tloop_first f b R T script last :
  0 < R -> tloop (S f) b R T script 0 (delay_ns_at 0) 0 last = titer f b R T script 0 0.
Proof.
  intros HR. cbn [tloop]. unfold retry_loop_cond, retry_wait_first.
  replace (0 <? R) with true by (symmetry; apply Z.ltb_lt; lia).
  cbn [Z.eqb negb andb]. unfold titer. cbn [Z.to_nat Z.of_nat Z.add]. reflexivity.
Qed.

Lemma tloop_later f b R T script k now last :
  Z.of_nat (S k) < R ->
  tloop (S f) b R T script (Z.of_nat (S k)) (delay_ns_at k) now last =
  if ctx_done b (wait_end b now (delay_ns_at k)) then (TCtx (bc_kind b), wait_end b now (delay_ns_at k), [])
  else titer f b R T script (S k) (wait_end b now (delay_ns_at k)).
Proof.
  intros HR. cbn [tloop]. rewrite (cond_true _ _ HR), wait_first_nat. cbn [andb]. unfold retry_base_done.
  destruct (ctx_done b (wait_end b now (delay_ns_at k))); cbn [Z.eqb negb]; [reflexivity|].
  unfold titer. rewrite Nat2Z.id. reflexivity.
Qed.

Lemma tloop_end f b R T script k delay now o :
  R <= Z.of_nat k -> tloop (S f) b R T script (Z.of_nat k) delay now (Some o) = (TFail o, now, []).
Proof. intros HR. cbn [tloop]. rewrite (cond_false _ _ HR). reflexivity. Qed.

(* the context has ended by the end of the wait iff it ends before the wait would be over; if not, the wait is not cut *)
Lemma ctx_done_wait b now d : ctx_done b (wait_end b now d) = ctx_done b (now + Z.max 0 d).
Proof.
  unfold ctx_done, wait_end. cbv zeta. destruct (bc_at b) as [c|]; [|reflexivity].
  destruct (c <=? now + Z.max 0 d) eqn:E; [|exact E]. apply Z.leb_le. lia.
Qed.
Lemma wait_end_full b now d : ctx_done b (now + Z.max 0 d) = false -> wait_end b now d = now + Z.max 0 d.
Proof. unfold ctx_done, wait_end. cbv zeta. destruct (bc_at b) as [c|]; [intros ->|]; reflexivity. Qed.

Lemma nth_skipn_hd {A} k (l : list A) d : nth k l d = hd d (skipn k l).
Proof. revert l. induction k as [|k IH]; intros [|x l]; cbn [nth skipn hd]; try reflexivity. apply IH. Qed.
Lemma skipn_S_tl {A} k (l : list A) : skipn (S k) l = tl (skipn k l).
Proof. revert l. induction k as [|k IH]; intros [|x l]; cbn [skipn tl]; try reflexivity. apply IH. Qed.

(* one link of the chain, with the tests written as the loop writes them *)
Lemma spec_chain_S D b T left' k start script :
  spec_chain D b T (S left') k start script =
  let '(o, e) := spec_attempt b T start (hd default_att script) in
  let rec := mkA start e o in
  if retry_attempt_ok (err_code o) then (TSuccess, e, [rec])
  else if negb (spec_transient o) then (TFail o, e, [rec])
  else match left' with
       | O => (TFail o, e, [rec])
       | S _ =>
           if ctx_done b (e + Z.max 0 (D k)) then (TCtx (bc_kind b), wait_end b e (D k), [rec])
           else let '(r, t, l) := spec_chain D b T left' (S k) (e + Z.max 0 (D k)) (tl script) in (r, t, rec :: l)
       end.
Proof.
  cbn [spec_chain]. unfold ctx_done, wait_end. destruct (spec_attempt b T start (hd default_att script)) as [o e]. cbv zeta.
  destruct o; try reflexivity; (destruct (negb (spec_transient _)); [reflexivity|]); (destruct left'; [reflexivity|]);
    (destruct (bc_at b) as [cx|]; [destruct (cx <=? e + Z.max 0 (D k))|]); reflexivity.
Qed.

Lemma titer_chain b T script : forall left k wend R,
  Z.of_nat k + Z.of_nat (S left) = R ->
  titer (S left) b R T script k wend = spec_chain delay_ns_at b T (S left) k wend (skipn k script).
Proof.
  induction left as [|left IH]; intros k wend R HR;
    unfold titer; rewrite spec_chain_S, attempt_eq, nth_skipn_hd;
    destruct (spec_attempt b T wend (hd default_att (skipn k script))) as [o e]; cbv zeta;
    unfold retry_give_up, retry_is_retryable; rewrite temporary_is_spec;
    (destruct (retry_attempt_ok (err_code o)); [reflexivity|]); (destruct (spec_transient o); cbn [negb]; [|reflexivity]);
    replace (Z.of_nat k + 1) with (Z.of_nat (S k)) by lia.
  - (* this was the last attempt that may be made *)
    rewrite tloop_end by lia. reflexivity.
  - rewrite tloop_later, ctx_done_wait by lia.
    destruct (ctx_done b (e + Z.max 0 (delay_ns_at k))) eqn:Ec; [reflexivity|].
    rewrite (wait_end_full _ _ _ Ec), IH, skipn_S_tl by lia. reflexivity.
Qed.

Lemma eff_retries_t_spec r : eff_retries_t r = if r <=? 0 then 5 else r.
Proof. reflexivity. Qed.
Lemma eff_retries_agree r : eff_retries_t r = eff_retries r.
Proof. reflexivity. Qed.
Lemma retries_t_positive r : 1 <= eff_retries_t r.
Proof. rewrite eff_retries_agree. apply retries_positive. Qed.

Lemma timed_is_spec : forall r ts b script,
  do_retry_timed r ts b script = spec_retry delay_ns_at (eff_retries_t r) (eff_timeout ts) b script.
Proof.
  intros r ts b script. unfold do_retry_timed, spec_retry. rewrite shape_ok. cbv zeta.
  pose proof (retries_t_positive r) as Hp.
  destruct (Z.to_nat (eff_retries_t r)) as [|left] eqn:E; [lia|].
  change initial_delay_f32 with (delay_ns_at 0).
  rewrite tloop_first by lia.
  rewrite (titer_chain b (eff_timeout ts) script left 0 0 (eff_retries_t r)) by lia.
  reflexivity.
Qed.

Lemma attempt_ok_success o : retry_attempt_ok (err_code o) = true <-> o = OSuccess.
Proof. destruct o; split; intro H; try discriminate H; reflexivity. Qed.
Lemma last_out_cons a a' r : last_out (a :: a' :: r) = last_out (a' :: r).
Proof. reflexivity. Qed.

Section Chain.
Variable D : nat -> Z.
Variable b : basectx.
Variable T : Z.

(* What spec_chain computes, as a derivation with one rule for each way an attempt is followed up; `left` counts the
   attempts that may still be made after this one. The facts below are inductions on it. In chain_more the head of the
   rest of the chain is written out: it starts when the wait ends. *)
Inductive chain : nat -> nat -> Z -> list att -> trun -> Prop :=
| chain_success left k s script e
    (Ha : spec_attempt b T s (hd default_att script) = (OSuccess, e)) :
    chain left k s script (TSuccess, e, [mkA s e OSuccess])
| chain_fail left k s script o e
    (Ha : spec_attempt b T s (hd default_att script) = (o, e)) (Hne : o <> OSuccess)
    (Hstop : spec_transient o = false \/ left = O) :
    chain left k s script (TFail o, e, [mkA s e o])
| chain_ctx left k s script o e c
    (Ha : spec_attempt b T s (hd default_att script) = (o, e)) (Hne : o <> OSuccess) (Ht : spec_transient o = true)
    (Hc : bc_at b = Some c) (Hle : c <= e + Z.max 0 (D k)) :
    chain (S left) k s script (TCtx (bc_kind b), Z.max e c, [mkA s e o])
| chain_more left k s script o e r t e' o' l
    (Ha : spec_attempt b T s (hd default_att script) = (o, e)) (Hne : o <> OSuccess) (Ht : spec_transient o = true)
    (Hlt : forall c, bc_at b = Some c -> e + Z.max 0 (D k) < c)
    (Hsub : chain left (S k) (e + Z.max 0 (D k)) (tl script) (r, t, mkA (e + Z.max 0 (D k)) e' o' :: l)) :
    chain (S left) k s script (r, t, mkA s e o :: mkA (e + Z.max 0 (D k)) e' o' :: l).

Lemma chain_head left k s script r : chain left k s script r -> exists e o rest, tr_atts r = mkA s e o :: rest.
Proof. destruct 1; eexists _, _, _; reflexivity. Qed.

Lemma spec_chain_chain : forall left k s script, chain left k s script (spec_chain D b T (S left) k s script).
Proof.
  induction left as [|left IH]; intros k s script; rewrite spec_chain_S;
    destruct (spec_attempt b T s (hd default_att script)) as [o e] eqn:Ha; cbv zeta;
    (destruct (retry_attempt_ok (err_code o)) eqn:Eok;
     [apply attempt_ok_success in Eok; subst o; exact (chain_success _ _ _ _ _ Ha)|]);
    assert (Hne : o <> OSuccess) by (intros ->; discriminate Eok);
    (destruct (spec_transient o) eqn:Ht; cbn [negb]; [|exact (chain_fail _ _ _ _ _ _ Ha Hne (or_introl Ht))]).
  - exact (chain_fail _ _ _ _ _ _ Ha Hne (or_intror eq_refl)).
  - specialize (IH (S k) (e + Z.max 0 (D k)) (tl script)).
    destruct (ctx_done b (e + Z.max 0 (D k))) eqn:Ec; unfold ctx_done in Ec.
    + unfold wait_end. cbv zeta. destruct (bc_at b) as [c|] eqn:Hc; [|discriminate Ec]. rewrite Ec. apply Z.leb_le in Ec.
      exact (chain_ctx _ _ _ _ _ _ _ Ha Hne Ht Hc Ec).
    + destruct (chain_head _ _ _ _ _ IH) as (e' & o' & l & Hl).
      destruct (spec_chain D b T (S left) (S k) (e + Z.max 0 (D k)) (tl script)) as [[r t] l0]. cbn [tr_atts snd] in Hl. subst l0.
      apply (chain_more _ _ _ _ _ _ _ _ _ _ _ Ha Hne Ht); [|exact IH]. intros c Hc. rewrite Hc in Ec. apply Z.leb_gt. exact Ec.
Qed.

Lemma chain_count left k s script r : chain left k s script r -> (1 <= length (tr_atts r) <= S left)%nat.
Proof. induction 1; cbn [tr_atts snd length] in *; lia. Qed.

Lemma chain_delays left k s script r : chain left k s script r -> chain_ok D k (tr_atts r).
Proof. induction 1; cbn [tr_atts snd chain_ok ar_start ar_end] in *; auto. Qed.

Lemma chain_end_ge left k s script r : chain left k s script r -> s <= tr_end r.
Proof. induction 1; cbn [tr_end fst snd] in *; apply spec_attempt_end_ge in Ha; lia. Qed.
Lemma chain_end_le left k s script r c : bc_at b = Some c -> chain left k s script r -> tr_end r <= Z.max c s.
Proof.
  intros Hbc. induction 1; cbn [tr_end fst snd] in *; apply (spec_attempt_end_le _ _ _ _ _ _ _ Hbc) in Ha; try lia.
  - rewrite Hbc in Hc. injection Hc as <-. lia.
  - specialize (Hlt _ Hbc). lia.
Qed.

Lemma chain_starts left k s script r c : bc_at b = Some c -> chain left k s script r ->
  Forall (fun a => ar_start a < c) (tl (tr_atts r)).
Proof.
  intros Hbc. induction 1; cbn [tr_atts snd tl] in *; constructor; [exact (Hlt _ Hbc) | exact IHchain].
Qed.

Lemma chain_result left k s script r : chain left k s script r -> result_ok b r.
Proof.
  induction 1; unfold result_ok in *; cbn [tr_result tr_atts tr_end fst snd last_rec] in *; [| | |exact IHchain].
  - eexists. repeat split; reflexivity.
  - eexists. repeat split; try reflexivity. exact Hne.
  - split; [reflexivity|]. split; [exists c; split; [exact Hc | lia]|].
    eexists. repeat split; try reflexivity; try assumption. cbn [ar_end]. lia.
Qed.

Lemma chain_prefix_transient left k s script r : chain left k s script r ->
  Forall (fun a => ar_out a <> OSuccess /\ spec_transient (ar_out a) = true) (removelast (tr_atts r)).
Proof.
  induction 1; cbn [tr_atts snd removelast] in *; constructor; [split; assumption | exact IHchain].
Qed.

Lemma chain_stop_reason left k s script r a : chain left k s script r ->
  last_rec (tr_atts r) = Some a ->
  let n := length (tr_atts r) in
  ar_out a = OSuccess \/ spec_transient (ar_out a) = false \/ n = S left \/
  (exists c, bc_at b = Some c /\ c <= ar_end a + Z.max 0 (D (k + n - 1))).
Proof.
  induction 1; cbn [tr_atts snd last_rec length] in *; intros Hl.
  - injection Hl as <-. left. reflexivity.
  - injection Hl as <-. destruct Hstop as [Hs| ->]; [right; left; exact Hs | right; right; left; reflexivity].
  - injection Hl as <-. right. right. right. exists c. rewrite Nat.add_sub. split; assumption.
  - destruct (IHchain Hl) as [Hs|[Hs|[Hs|(c & Hc & Hs)]]]; [left; exact Hs | right; left; exact Hs | right; right; left; lia |].
    right. right. right. exists c. split; [exact Hc|].
    replace (k + S (S (length l)) - 1)%nat with (S k + S (length l) - 1)%nat by lia. exact Hs.
Qed.

Lemma chain_attempts_faithful left k s script r : chain left k s script r -> forall j a,
  nth_error (tr_atts r) j = Some a ->
  (ar_out a, ar_end a) = spec_attempt b T (ar_start a) (nth j script default_att).
Proof.
  induction 1; intros j a Hj; cbn [tr_atts snd] in *; (destruct j as [|j]; [injection Hj as <-; destruct script; symmetry; exact Ha|]).
  1-3: destruct j; discriminate Hj.
  apply IHchain in Hj. rewrite Hj. f_equal. destruct script; [destruct j|]; reflexivity.
Qed.

(* with a per-attempt timeout that is not positive every attempt times out at once *)
Lemma chain_never_succeeds left k s script r : T <= 0 -> chain left k s script r -> tr_result r <> TSuccess.
Proof.
  intros HT. induction 1; cbn [tr_result fst] in *; try discriminate; [|exact IHchain].
  unfold spec_attempt in Ha. cbv zeta in Ha.
  replace (Z.max 0 (at_dur (hd default_att script)) <? Z.max 0 T) with false in Ha by (symmetry; apply Z.ltb_ge; lia).
  destruct (bc_at b) as [c|]; [destruct (c <=? _)|]; discriminate Ha.
Qed.

End Chain.

Lemma timed_chain r ts b script : exists left,
  Z.of_nat (S left) = eff_retries_t r /\ chain delay_ns_at b (eff_timeout ts) left 0 0 script (do_retry_timed r ts b script).
Proof.
  pose proof (retries_t_positive r) as Hp. rewrite timed_is_spec. unfold spec_retry.
  destruct (Z.to_nat (eff_retries_t r)) as [|left] eqn:E; [lia|]. exists left. split; [lia | apply spec_chain_chain].
Qed.

Lemma timed_delays_exact : forall r ts b script, chain_ok delay_ns_at 0 (tr_atts (do_retry_timed r ts b script)).
Proof. intros r ts b script. destruct (timed_chain r ts b script) as (left & _ & Hc). apply chain_delays in Hc. exact Hc. Qed.

Lemma timed_no_retry_after_cancel : forall r ts b script c, bc_at b = Some c ->
  Forall (fun a => ar_start a < c) (tl (tr_atts (do_retry_timed r ts b script))).
Proof.
  intros r ts b script c Hbc. destruct (timed_chain r ts b script) as (left & _ & Hc). exact (chain_starts _ _ _ _ _ _ _ _ _ Hbc Hc).
Qed.

Definition cap_f32 : Z := 30000001024.
Lemma cap_f32_is : retry_delay_cap f32_of_Z = cap_f32.
Proof. vm_compute. reflexivity. Qed.
Lemma delay_S k : delay_ns_at (S k) = next_delay_ns (delay_ns_at k).
Proof. reflexivity. Qed.
(* the fifth delay is the cap, and the cap is a fixed point of the step *)
Lemma delay_after_4 : forall j, delay_ns_at (4 + j) = cap_f32.
Proof.
  induction j as [|j IH]; [vm_compute; reflexivity|].
  rewrite Nat.add_succ_r, delay_S, IH. vm_compute. reflexivity.
Qed.

(* from the fifth delay on the exact schedule min(cap, d0 * s^k) is at the cap as well: s^4 > 30 *)
Lemma pow_ratio : forall j, 30 * 1000 ^ Z.of_nat (4 + j) <= scale_factor_milli ^ Z.of_nat (4 + j).
Proof.
  intros j. unfold scale_factor_milli. rewrite Nat2Z.inj_add, !Z.pow_add_r by lia.
  assert (H4 : 30 * 1000 ^ Z.of_nat 4 <= 2718 ^ Z.of_nat 4) by (vm_compute; discriminate).
  assert (Hj : 1000 ^ Z.of_nat j <= 2718 ^ Z.of_nat j) by (apply Z.pow_le_mono_l; lia).
  assert (0 < 1000 ^ Z.of_nat j) by (apply Z.pow_pos_nonneg; lia).
  assert (0 < 1000 ^ Z.of_nat 4) by (vm_compute; reflexivity).
  nia.
Qed.
Lemma spec_delay_capped j : spec_delay (4 + j) = max_delay_ns.
Proof.
  unfold spec_delay. apply Z.min_l. pose proof (pow_ratio j) as H.
  assert (Hp : 0 < 1000 ^ Z.of_nat (4 + j)) by (apply Z.pow_pos_nonneg; lia).
  apply Z.div_le_lower_bound; [exact Hp|]. unfold max_delay_ns, initial_delay_ns. nia.
Qed.
