(* FmtVSIX/ProofsB.v — the part names sign builds from the certificate's file name, the package Object read back by checkManifest,
   and the round trip Reference URI -> part name. *)
From Relic Require Import Base.Prelude Base.Slice FmtVSIX.Lib Generated.FmtVSIX_gen FmtVSIX.Model FmtVSIX.ProofsA.
From Relic Require Generated.C19_gen C19.Model.

Definition fname_ok (f : bytes) : Prop := has_byte SLASH f = false.
Definition X_SIG : bytes := [46; 112; 115; 100; 115; 120; 115].      (* .psdsxs *)
Definition X_CER : bytes := [46; 99; 101; 114].                      (* .cer *)
Definition L_SIG : list bytes := split_on SLASH vsix_xml_sig_path.      (* package / services / digital-signature / xml-signature *)
Definition L_CER : list bytes := split_on SLASH vsix_xml_cert_path.     (* package / services / digital-signature / certificate *)
Definition D_SIG : bytes := [120; 109; 108; 45; 115; 105; 103; 110; 97; 116; 117; 114; 101; 47].      (* xml-signature/ *)
Definition D_CER : bytes := [99; 101; 114; 116; 105; 102; 105; 99; 97; 116; 101; 47].                (* certificate/ *)

Lemma beq_length a b : bytes_eqb a b = true -> length a = length b.
Proof. intros H. apply bytes_eqb_eq in H. congruence. Qed.
Lemma normal_long e : (3 <= length e)%nat -> normal e = true.
Proof.
  intros H. unfold normal, is_dot, is_dotdot.
  assert (A : (zlen e =? 0) = false) by (unfold zlen; lia).
  assert (B : bytes_eqb e [DOT] = false) by (destruct (bytes_eqb e [DOT]) eqn:E; [apply beq_length in E; cbn in E; lia|reflexivity]).
  assert (C : bytes_eqb e [DOT; DOT] = false) by (destruct (bytes_eqb e [DOT; DOT]) eqn:E; [apply beq_length in E; cbn in E; lia|reflexivity]).
  rewrite A, B, C. reflexivity.
Qed.
Lemma npath_ext_elem f x : fname_ok f -> has_byte SLASH x = false -> (3 <= length x)%nat -> npath [f ++ x].
Proof.
  intros Hf Hx Hl. split; [discriminate|]. constructor; [|constructor]. split.
  - apply normal_long. rewrite app_length. lia.
  - rewrite has_byte_app, Hf, Hx. reflexivity.
Qed.
Lemma npath_L_SIG : npath L_SIG. Proof. split; [apply split_on_nonempty|]. vm_compute. repeat constructor. Qed.
Lemma npath_L_CER : npath L_CER. Proof. split; [apply split_on_nonempty|]. vm_compute. repeat constructor. Qed.

(* path.Join(dir, fname + ext) for a clean directory path and a file name without "/" *)
Lemma join_dir_file l f x : npath l -> fname_ok f -> has_byte SLASH x = false -> (3 <= length x)%nat ->
  path_join [join_with SLASH l; f ++ x] = join_with SLASH (l ++ [f ++ x]).
Proof. intros Hl Hf Hx Hn. apply path_join2_npath; [exact Hl|apply npath_ext_elem; assumption]. Qed.
Lemma sig_name_join f : fname_ok f -> vsix_sig_name f = join_with SLASH (L_SIG ++ [f ++ X_SIG]).
Proof. intros Hf. apply (join_dir_file L_SIG f X_SIG); [exact npath_L_SIG|exact Hf|reflexivity|cbn; lia]. Qed.
(* both live below the signature folder *)
Lemma sig_name_form f : fname_ok f -> vsix_sig_name f = digsig_prefix ++ D_SIG ++ f ++ X_SIG.
Proof. intros Hf. rewrite sig_name_join by exact Hf. reflexivity. Qed.
Lemma cert_path_form f : fname_ok f -> vsix_cert_path f = digsig_prefix ++ D_CER ++ f ++ X_CER.
Proof. intros Hf. apply (join_dir_file L_CER f X_CER); [exact npath_L_CER|exact Hf|reflexivity|cbn; lia]. Qed.
Lemma npath_sig f : fname_ok f -> npath (L_SIG ++ [f ++ X_SIG]).
Proof. intros Hf. apply npath_app; [exact npath_L_SIG|]. apply npath_ext_elem; [exact Hf|reflexivity|cbn; lia]. Qed.
(* the Target Append writes for the signature part, read back by Find, is the part's name *)
Lemma find_target_sig f : fname_ok f -> vsix_rels_find_path (vsix_rels_target (vsix_sig_name f)) = vsix_sig_name f.
Proof.
  intros Hf. rewrite sig_name_join by exact Hf. unfold vsix_rels_find_path, vsix_rels_target.
  change ([47] ++ ?x) with (SLASH :: x). rewrite clean_rooted_npath by (apply npath_sig; exact Hf).
  change ([46; 47] ++ SLASH :: ?x) with (DOT :: SLASH :: SLASH :: x). apply clean_dot_slash_slash_npath. apply npath_sig. exact Hf.
Qed.
Lemma find_target_origin : vsix_rels_find_path (vsix_rels_target vsix_origin_path) = vsix_origin_path.
Proof. vm_compute. reflexivity. Qed.

(* path.Base / path.Dir of  dir/elem *)
Lemma join_snoc l e : l <> [] -> join_with SLASH (l ++ [e]) = join_with SLASH l ++ SLASH :: e.
Proof. intros H. rewrite join_app by (first [exact H|discriminate]). reflexivity. Qed.
Lemma npath_last l e : npath (l ++ [e]) -> normal e = true /\ has_byte SLASH e = false.
Proof. intros [_ F]. apply Forall_app in F as [_ F]. inversion F; subst. assumption. Qed.
Lemma path_base_npath l e : npath (l ++ [e]) -> path_base (join_with SLASH (l ++ [e])) = e.
Proof.
  intros Hp. assert (E : last_segment (join_with SLASH (l ++ [e])) = e) by (unfold last_segment; rewrite split_join_npath by exact Hp; apply last_last).
  rewrite path_base_last_segment; rewrite E; [reflexivity|]. intros ->. destruct (npath_last l [] Hp) as [Hn _]. discriminate Hn.
Qed.
Lemma keep_from_slash_skip a b : has_byte SLASH a = false -> keep_from_slash (a ++ SLASH :: b) = SLASH :: b.
Proof.
  induction a as [|c a IH]; intros H; [cbn; reflexivity|]. cbn in H. apply orb_false_iff in H as [H1 H2]. cbn [app keep_from_slash]. rewrite H1. exact (IH H2).
Qed.
Lemma has_byte_rev c s : has_byte c (rev s) = has_byte c s.
Proof.
  unfold has_byte. induction s as [|x s IH]; [reflexivity|]. cbn [rev existsb]. rewrite existsb_app, IH. cbn. rewrite orb_false_r. apply orb_comm.
Qed.
Lemma npath_prefix l1 l2 : l1 <> [] -> npath (l1 ++ l2) -> npath l1.
Proof. intros H [_ F]. apply Forall_app in F as [F _]. split; assumption. Qed.
Lemma path_dir_npath l e : l <> [] -> npath (l ++ [e]) -> path_dir (join_with SLASH (l ++ [e])) = join_with SLASH l.
Proof.
  intros Hl Hp. unfold path_dir. rewrite join_snoc by exact Hl. rewrite rev_app_distr. cbn [rev]. rewrite <- app_assoc. cbn [app].
  rewrite keep_from_slash_skip by (rewrite has_byte_rev; exact (proj2 (npath_last l e Hp))).
  cbn [rev]. rewrite rev_involutive. apply clean_trailing_slash_npath. exact (npath_prefix _ _ Hl Hp).
Qed.
Lemma path_join3_npath a b c : npath a -> npath b -> npath c ->
  path_join [join_with SLASH a; join_with SLASH b; join_with SLASH c] = join_with SLASH (a ++ b ++ c).
Proof.
  intros Ha Hb Hc. unfold path_join. cbn [filter].
  rewrite (join_zlen a Ha), (join_zlen b Hb), (join_zlen c Hc). cbn [negb].
  change (join_with SLASH [join_with SLASH a; join_with SLASH b; join_with SLASH c])
    with (join_with SLASH a ++ SLASH :: (join_with SLASH b ++ SLASH :: join_with SLASH c)).
  rewrite <- (join_app SLASH b c) by (first [exact (proj1 Hb)|exact (proj1 Hc)]).
  rewrite <- (join_app SLASH a (b ++ c)) by (first [exact (proj1 Ha)|destruct b; [destruct Hb; contradiction|discriminate]]).
  apply clean_npath. apply npath_app; [exact Ha|apply npath_app; assumption].
Qed.
Lemma rel_path_npath l e : l <> [] -> npath (l ++ [e]) -> vsix_rel_path (join_with SLASH (l ++ [e])) = join_with SLASH (l ++ [s_rels_dir; e ++ s_rels_ext]).
Proof.
  intros Hl Hp. unfold vsix_rel_path. cbv zeta. rewrite path_base_npath, path_dir_npath by assumption.
  pose proof (npath_last l e Hp) as He.
  assert (Hd : bytes_eqb e [46] = false).
  { destruct He as [Hn _]. unfold normal, is_dot in Hn. change [DOT] with [46] in Hn. destruct (bytes_eqb e [46]); [rewrite andb_false_r in Hn; cbn in Hn; discriminate|reflexivity]. }
  rewrite Hd.
  change [95; 114; 101; 108; 115] with (join_with SLASH [s_rels_dir]).
  change (e ++ [46; 114; 101; 108; 115]) with (join_with SLASH [e ++ s_rels_ext]).
  rewrite path_join3_npath.
  - reflexivity.
  - exact (npath_prefix _ _ Hl Hp).
  - split; [discriminate|]. repeat constructor.
  - split; [discriminate|]. constructor; [|constructor]. split.
    + apply normal_long. rewrite app_length. cbn. lia.
    + rewrite has_byte_app, (proj2 He). reflexivity.
Qed.
Lemma sig_rels_name_form f : fname_ok f -> vsix_rel_path (vsix_sig_name f) = digsig_prefix ++ D_SIG ++ s_rels_dir ++ [SLASH] ++ f ++ X_SIG ++ s_rels_ext.
Proof.
  intros Hf. rewrite sig_name_join by exact Hf. rewrite rel_path_npath by (first [discriminate|apply npath_sig; exact Hf]).
  rewrite join_app, <- !app_assoc by (first [apply split_on_nonempty|discriminate]). reflexivity.
Qed.

(* keepFile drops every name below the signature folder *)
Lemma keep_prefixed x : vsix_keep_file (digsig_prefix ++ x) = false.
Proof. rewrite keepfile_eq_conventional. apply negb_false_iff. apply conv_of_prefix. apply has_prefix_app. Qed.

(* the package Object read back *)
Lemma mref_of_reference uri hu dv : mref_of (Relic.C19.Model.vsix_reference uri hu dv) = mkRef uri hu dv.
Proof. unfold mref_of, Relic.C19.Model.vsix_reference. cbn. rewrite app_nil_r. reflexivity. Qed.
Lemma manifest_roundtrip refs alg time :
  manifest_refs (package_object refs alg time) = map (fun r => mkRef (fst r) (hash_uri_of alg) (snd r)) refs.
Proof.
  unfold manifest_refs, package_object, Relic.C19.Model.vsix_object.
  set (hu := hash_uri_of alg).
  assert (K : forall l, kids_named [82; 101; 102; 101; 114; 101; 110; 99; 101] (Relic.C19.Model.el [77; 97; 110; 105; 102; 101; 115; 116] [] (map (fun r => Relic.C19.Model.vsix_reference (fst r) hu (snd r)) l))
                        = map (fun r => Relic.C19.Model.vsix_reference (fst r) hu (snd r)) l).
  { intros l. unfold kids_named. cbn [n_kids Relic.C19.Model.el]. induction l as [|r l IH]; [reflexivity|]. cbn [map filter]. rewrite IH. reflexivity. }
  match goal with |- flat_map ?f (kids_named ?t (Relic.C19.Model.el ?o ?a [?m; ?sp])) = _ =>
    change (kids_named t (Relic.C19.Model.el o a [m; sp])) with [m]; change (flat_map f [m]) with (f m ++ []) end.
  rewrite app_nil_r.
  change (nth 1 (field_path vsix_cm_manifest_fields 0) []) with [82; 101; 102; 101; 114; 101; 110; 99; 101].
  rewrite K. rewrite map_map. apply map_ext. intros r. apply mref_of_reference.
Qed.

(* a name whose segments are ordinary (every part name is), without "?" *)
Definition name_ok (n : bytes) : Prop := npath (split_on SLASH n) /\ has_byte 63 n = false.
(* a content type whose segments after the first are ordinary: "a/b", "a/b; c=d", ... (not "a/..", "a//b") *)
Definition ct_ok (t : bytes) : Prop := Forall (fun e => normal e = true) (tl (split_on SLASH t)).
Definition Q_CT : bytes := [63; 67; 111; 110; 116; 101; 110; 116; 84; 121; 112; 101; 61].      (* ?ContentType= *)

(* splitting a concatenation: the last piece of the left part and the first of the right part merge *)
Lemma split_on_app_gen c a b : split_on c (a ++ b) = removelast (split_on c a) ++ [last (split_on c a) [] ++ hd [] (split_on c b)] ++ tl (split_on c b).
Proof.
  induction a as [|x a IH].
  - cbn. pose proof (split_on_nonempty c b). destruct (split_on c b); [contradiction|reflexivity].
  - cbn [app split_on]. destruct (x =? c).
    + rewrite IH. pose proof (split_on_nonempty c a) as Hn. destruct (split_on c a) as [|h t] eqn:Es; [contradiction|]. reflexivity.
    + rewrite IH. pose proof (split_on_nonempty c a) as Hn. destruct (split_on c a) as [|h t] eqn:Es; [contradiction|].
      destruct t as [|h2 t]; reflexivity.
Qed.
Lemma removelast_last_npath l : npath l -> npath (removelast l ++ [last l []]).
Proof. intros H. rewrite <- app_removelast_last by exact (proj1 H). exact H. Qed.
(* the segments of  name "?ContentType=" type : those of the name, the last of them going on into the type's first, then the rest of the type's *)
Lemma uri_segments_ok n t : npath (split_on SLASH n) -> ct_ok t -> npath (split_on SLASH (n ++ Q_CT ++ t)).
Proof.
  intros Hn Ht. unfold ct_ok in Ht. rewrite split_on_app_gen, (split_on_app_gen SLASH Q_CT t). change (split_on SLASH Q_CT) with [Q_CT].
  pose proof (split_on_free SLASH t) as Fa. pose proof (split_on_nonempty SLASH t) as Nt.
  destruct (split_on SLASH t) as [|t0 tr]; [contradiction|]. inversion Fa as [|? ? Fa1 Fa2]; subst. cbn [removelast last hd tl app] in *.
  split; [destruct (removelast (split_on SLASH n)); discriminate|].
  pose proof (removelast_last_npath _ Hn) as [_ F]. apply Forall_app in F as [F1 F2]. inversion F2 as [|? ? [_ Hl2] _]; subst.
  apply Forall_app. split; [exact F1|]. constructor.
  - split; [apply normal_long; rewrite !app_length; cbn; lia|]. rewrite !has_byte_app, Hl2, Fa1. reflexivity.
  - rewrite Forall_forall in *. intros e He. split; [apply Ht; exact He|apply Fa2; exact He].
Qed.
Lemma ref_path_of_uri n t : name_ok n -> ct_ok t -> vsix_ref_path ([47] ++ n ++ Q_CT ++ t) = n.
Proof.
  intros [Hn Hq] Ht. unfold vsix_ref_path. cbv zeta.
  assert (Ep : path_join [[46; 47] ++ [47] ++ n ++ Q_CT ++ t] = n ++ Q_CT ++ t).
  { unfold path_join. cbn [filter app]. change (zlen (46 :: 47 :: 47 :: n ++ Q_CT ++ t) =? 0) with (zlen (DOT :: SLASH :: SLASH :: (n ++ Q_CT ++ t)) =? 0).
    assert (Z : (zlen (DOT :: SLASH :: SLASH :: (n ++ Q_CT ++ t)) =? 0) = false) by (rewrite !zlen_cons; pose proof (zlen_nonneg (n ++ Q_CT ++ t)); lia).
    rewrite Z. cbn [negb join_with]. rewrite <- (join_split SLASH (n ++ Q_CT ++ t)). apply clean_dot_slash_slash_npath. apply uri_segments_ok; assumption. }
  rewrite Ep. change (Q_CT ++ t) with (63 :: [67; 111; 110; 116; 101; 110; 116; 84; 121; 112; 101; 61] ++ t).
  rewrite index_byte_first by exact Hq.
  assert (G : (zlen n >=? 0) = true) by (pose proof (zlen_nonneg n); lia). rewrite G.
  apply zslice_app_head. reflexivity.
Qed.
(* the Reference URI makeSignature writes: "/" name "?ContentType=" type, the type being the package's, relic's own table's or the default *)
Definition chosen_type (ovr ext : assoc) (n : bytes) : bytes := zdrop (1 + zlen n + zlen Q_CT) (vsix_ref_uri ovr ext n).
Lemma chosen_type_of_uri ovr ext n t : vsix_ref_uri ovr ext n = (([47] ++ n) ++ Q_CT) ++ t -> chosen_type ovr ext n = t.
Proof. intros E. unfold chosen_type. rewrite E. apply zdrop_app_len. rewrite !zlen_app. reflexivity. Qed.
Lemma ref_uri_form ovr ext n : vsix_ref_uri ovr ext n = [47] ++ n ++ Q_CT ++ chosen_type ovr ext n.
Proof. rewrite (chosen_type_of_uri ovr ext n _ eq_refl). unfold vsix_ref_uri. cbv zeta. rewrite <- !app_assoc. reflexivity. Qed.
(* ContentTypes.Find: the Override for "/" name if there is one, else the Default for the extension of the base name *)
Lemma ct_find_cases ovr ext n :
  vsix_ct_find ovr ext n = [] \/
  (aget ovr (SLASH :: n) <> [] /\ vsix_ct_find ovr ext n = aget ovr (SLASH :: n)) \/
  (aget ovr (SLASH :: n) = [] /\ exists k, path_ext (path_base n) = DOT :: k /\ aget ext k <> [] /\ vsix_ct_find ovr ext n = aget ext k).
Proof.
  unfold vsix_ct_find. cbv zeta. change ([47] ++ n) with (SLASH :: n).
  destruct (bytes_eqb (aget ovr (SLASH :: n)) []) eqn:E1; cbn [negb]; [|right; left; split; [apply bytes_eqb_neq; exact E1|reflexivity]].
  apply bytes_eqb_eq in E1.
  destruct (path_ext_head (path_base n)) as [E|[k [E _]]]; rewrite E; [left; reflexivity|].
  change (negb (bytes_eqb (DOT :: k) []) && (nthz (DOT :: k) 0 =? 46)) with true. cbv iota.
  rewrite zslice_to_end. change (zdrop 1 (DOT :: k)) with k.
  destruct (bytes_eqb (aget ext k) []) eqn:E3; cbn [negb]; [left; reflexivity|].
  right; right. split; [exact E1|]. exists k. split; [reflexivity|]. split; [apply bytes_eqb_neq; exact E3|reflexivity].
Qed.
Lemma aget_in m k : aget m k = [] \/ In (aget m k) (map snd m).
Proof.
  induction m as [|[k' v] m IH]; [left; reflexivity|]. cbn. destruct (bytes_eqb k' k); [right; left; reflexivity|].
  destruct IH as [IH|IH]; [left; exact IH|right; right; exact IH].
Qed.
Lemma ct_ok_nil : ct_ok []. Proof. constructor. Qed.
Lemma chosen_type_ok ovr ext n : Forall ct_ok (map snd ovr) -> Forall ct_ok (map snd ext) -> ct_ok (chosen_type ovr ext n).
Proof.
  intros Ho He.
  assert (A : forall m k, Forall ct_ok (map snd m) -> ct_ok (aget m k)).
  { intros m k F. destruct (aget_in m k) as [E|E]; [rewrite E; exact ct_ok_nil|]. rewrite Forall_forall in F. exact (F _ E). }
  assert (F : ct_ok (vsix_ct_find ovr ext n)).
  { destruct (ct_find_cases ovr ext n) as [E|[[_ E]|[_ [k [_ [_ E]]]]]]; rewrite E; [exact ct_ok_nil|apply A; exact Ho|apply A; exact He]. }
  assert (D : ct_ok vsix_default_content_type) by (repeat constructor).
  rewrite (chosen_type_of_uri ovr ext n _ eq_refl). cbv zeta.
  destruct (bytes_eqb (vsix_ct_find ovr ext n) []) eqn:E1.
  - destruct (_ && _).
    + destruct (bytes_eqb (aget vsix_content_types _) []); [exact D|]. apply A. repeat constructor.
    + rewrite E1. exact D.
  - rewrite E1. exact F.
Qed.
