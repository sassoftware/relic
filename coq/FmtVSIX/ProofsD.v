(* FmtVSIX/ProofsD.v — sign then verify, the is-signed probe, how the verifier can end, what an accepted signature binds. *)
From Relic Require Import Base.Prelude Base.Slice FmtVSIX.Lib Generated.FmtVSIX_gen FmtVSIX.Model FmtVSIX.ProofsA FmtVSIX.ProofsB FmtVSIX.ProofsC.
From Relic Require Generated.C19_gen C19.Model.

(* every digest XML-DSig has a URI for is found again under that URI, and is one the verifier has *)
Lemma hash_uris_roundtrip : Forall (fun p => hash_of_uri (snd p) = fst p /\ hash_available (fst p) = true) Relic.Generated.C19_gen.hash_uris.
Proof. repeat (constructor; [split; vm_compute; reflexivity|]). constructor. Qed.
Lemma hash_uri_roundtrip alg : hash_uri_of alg <> [] -> hash_of_uri (hash_uri_of alg) = alg /\ hash_available alg = true.
Proof.
  unfold hash_uri_of. destruct (find _ _) as [p|] eqn:E; [intros _|intros Hn; contradiction Hn; reflexivity].
  apply find_some in E as [Hin Ea]. apply Z.eqb_eq in Ea. subst alg.
  exact (proj1 (Forall_forall _ _) hash_uris_roundtrip p Hin).
Qed.

Lemma name_ok_consts : name_ok N_ROOT /\ name_ok N_OREL /\ name_ok N_ORIG.
Proof. rewrite N_ROOT_val, N_OREL_val, N_ORIG_val. repeat apply conj; first [apply split_on_nonempty|vm_compute; repeat constructor]. Qed.

Section Verify.
  Variable H : Z -> bytes -> bytes.
  Variable sha1 : bytes -> bytes.
  Variable b64 : bytes -> bytes.
  Variable b64d : bytes -> option bytes.
  Variable ct_read : bytes -> option ctdoc.
  Variable rels_read : bytes -> option (list rel).
  Variables key pubk sigv : Type.
  Variable pub : key -> pubk.
  Variable pubk_eqb : pubk -> pubk -> bool.
  Variable xsign : key -> bytes -> sigv.
  Variable xvrfy : pubk -> bytes -> sigv -> bool.
  Variable tbs : Z -> node -> bytes.
  Variable ser : sigdoc pubk sigv -> bytes.
  Variable deser : bytes -> option (sigdoc pubk sigv).
  Variable cert_key : bytes -> option pubk.
  Variable ts_ok : bytes -> sigv -> bool.
  Notation sign := (sign H sha1 b64 ct_read key pubk sigv pub xsign tbs ser).
  Notation verify := (verify H b64d rels_read pubk sigv pubk_eqb xvrfy tbs deser cert_key ts_ok).
  Notation read_signature := (read_signature rels_read pubk cert_key).
  Notation check_ref := (check_ref H b64d).
  Notation check_refs := (check_refs H b64d).
  Notation ct_scan := (ct_scan ct_read).

  (* the hypotheses about the symbolic parts *)
  Hypothesis rels_roundtrip : forall l, rels_read (rels_marshal l) = Some l.           (* encoding/xml: Unmarshal after Marshal *)
  Hypothesis deser_ser : forall sd, deser (ser sd) = Some sd.                          (* the signature part parses back (unit C19) *)
  Hypothesis sign_correct : forall k m, xvrfy (pub k) m (xsign k m) = true.
  Hypothesis b64_roundtrip : forall x, b64d (b64 x) = Some x.
  Hypothesis pubk_eqb_refl : forall p, pubk_eqb p p = true.

  (* without detached certificates the signature part has no relationships part *)
  Lemma sig_rels_absent o sg pk g : chain_ok key sg -> so_detach sigv o = false -> sign o sg pk = Ok g ->
    files_get g (vsix_rel_path (vsix_sig_name (sg_fname key sg))) = None.
  Proof.
    intros Hc Hd Hs. destruct (sign_inv Hs) as [ct [id1 [id2 [certs [_ [Hcerts [_ Hg]]]]]]].
    unfold certs_of in Hcerts. rewrite Hd in Hcerts. pose proof (proj1 Hc) as Hf.
    apply files_get_none. intros m Hm E. rewrite sig_rels_name_form in E by exact Hf.
    destruct (digsig_name_fresh (D_SIG ++ s_rels_dir ++ [SLASH] ++ sg_fname key sg ++ X_SIG ++ s_rels_ext)) as [K [A [B C]]]; [discriminate|discriminate|].
    rewrite Hg, Hcerts in Hm. unfold signed_out in Hm. apply in_app_or in Hm as [Hm|[Hm|[Hm|[]]]].
    - apply (in_map fst) in Hm. rewrite E in Hm. exact (not_in_infra_names _ _ _ _ K A B C Hm).
    - subst m. cbn [fst] in E. rewrite sig_name_form in E by exact Hf. do 2 apply app_inv_head in E.
      apply (f_equal (@length Z)) in E. rewrite !app_length in E. cbn in E. lia.
    - subst m. discriminate E.
  Qed.

  Lemma check_refs_all g l : (forall r, In r l -> check_ref g r = Ok tt) -> check_refs g l = Ok tt.
  Proof. induction l as [|r l IH]; intros Hl; [reflexivity|]. cbn [Model.check_refs]. rewrite (Hl r (or_introl eq_refl)). cbn [bind]. apply IH. intros x Hx. apply Hl. right. exact Hx. Qed.

  Lemma read_zip_cases pk path : read_zip pk path = match files_get pk path with Some c => Ok c | None => Err E_MISSING end.
  Proof. unfold read_zip. destruct (files_get pk path); reflexivity. Qed.
  Lemma rels_find_single rt t id ty : vsix_rels_find_hit ty rt = true -> rels_find rt [mkRel t id ty] = vsix_rels_find_path t.
  Proof. intros Hh. unfold rels_find. cbn [find r_type r_target]. rewrite Hh. reflexivity. Qed.
  Lemma read_signature_of g rl1 rl2 f sigfile : fname_ok f ->
    files_get g N_ROOT = Some (rels_marshal rl1) -> files_get g N_OREL = Some (rels_marshal rl2) ->
    rels_find vsix_rs_origin_type rl1 = vsix_origin_path -> rels_find vsix_rs_sig_type rl2 = vsix_sig_name f ->
    files_get g (vsix_sig_name f) = Some sigfile -> files_get g (vsix_rel_path (vsix_sig_name f)) = None ->
    read_signature g = Ok (sigfile, []).
  Proof.
    intros Hf F1 F2 E1 E2 Hsig Habs.
    assert (Ne : vsix_rs_no_sigpath (vsix_sig_name f) = false) by (unfold vsix_rs_no_sigpath; rewrite (sig_name_form f Hf); reflexivity).
    unfold Model.read_signature. change vsix_rs_top_panics with false. cbv iota. change vsix_rs_top with N_ROOT. rewrite F1.
    change (vsix_rs_no_root_rels (is_some (Some (rels_marshal rl1)))) with false. cbv iota.
    unfold parse_rels. rewrite read_zip_cases, F1. cbn [bind]. rewrite rels_roundtrip. cbn [bind].
    rewrite E1. change (vsix_rs_no_origin vsix_origin_path) with false. cbv iota.
    change (vsix_rel_path_panics vsix_origin_path) with false. cbv iota.
    change (vsix_rel_path vsix_origin_path) with N_OREL. rewrite read_zip_cases, F2. cbn [bind]. rewrite rels_roundtrip. cbn [bind].
    rewrite E2, Ne, read_zip_cases, Hsig. cbn [bind]. change (vsix_rel_path_panics (vsix_sig_name f)) with false. cbv iota.
    rewrite Habs. change (vsix_rs_has_cert_rels (is_some None)) with false. cbv iota. cbn [bind]. reflexivity.
  Qed.

  (* readSignature on a signed package finds the signature part through the two relationships parts sign wrote *)
  Lemma read_signature_of_signed o sg pk g sigfile : so_detach sigv o = false -> chain_ok key sg -> sign o sg pk = Ok g ->
    files_get g (vsix_sig_name (sg_fname key sg)) = Some sigfile -> read_signature g = Ok (sigfile, []).
  Proof.
    intros Hd Hc Hs Hsig. destruct (infra_parts_of_signed Hc Hs) as [id1 [id2 [F1 F2]]].
    apply (read_signature_of g (rl_origin id1) (rl_sig (sg_fname key sg) id2) (sg_fname key sg)); try assumption.
    - exact (proj1 Hc).
    - unfold rl_origin. rewrite rels_find_single by apply bytes_eqb_refl. apply find_target_origin.
    - unfold rl_sig. rewrite rels_find_single by apply bytes_eqb_refl. apply find_target_sig. exact (proj1 Hc).
    - exact (sig_rels_absent _ _ _ _ Hc Hd Hs).
  Qed.

  (* C01: whatever is signed verifies, naming the configured key and the requested digest.  Conditions: certificates inside the signature part
     (the detached variant is exercised by the harness and by the Example in Properties.v), member names that are part names (segments ordinary,
     no "?"), content types whose segments after the first are ordinary, a chain that contains the signing certificate, and - when a timestamp
     authority is configured - a token that verifies (signing itself does not check it: see the witness) *)
  Theorem sign_then_verify o sg pk g :
    so_detach sigv o = false -> chain_ok key sg ->
    (match so_tsa sigv o with Some f => forall sv, ts_ok (f sv) sv = true | None => True end) ->
    (exists d, In d (map snd (sg_chain key sg)) /\ cert_key d = Some (pub (sg_key key sg))) ->
    (forall m, In m pk -> vsix_keep_file (fst m) = true -> name_ok (fst m)) ->
    (forall ct, ct_scan pk ct_empty = Some ct -> Forall ct_ok (map snd (ct_ovr ct)) /\ Forall ct_ok (map snd (ct_ext ct))) ->
    sign o sg pk = Ok g ->
    verify g = Ok (mkV pubk (pub (sg_key key sg)) (so_alg sigv o) (is_some (so_tsa sigv o))).
  Proof.
    intros Hd Hc Hts Hleaf Hnames Htypes Hs.
    destruct (sign_inv Hs) as [_ [_ [_ [_ [_ [_ [Hhash _]]]]]]].
    destruct (manifest_of_signed Hc Hs) as [refs [ct [NS [Hct [Hsig [_ [_ [HNS [D [Hman HD]]]]]]]]]].
    pose proof (read_signature_of_signed _ _ _ _ _ Hd Hc Hs Hsig) as RS.
    edestruct payload_kept as [Hfilt _]; [exact Hc|exact Hs|].
    set (alg := so_alg sigv o) in *. set (obj := package_object refs alg (so_time sigv o)) in *.
    (* checkManifest *)
    assert (CM : check_manifest H b64d g obj = Ok tt).
    { unfold check_manifest. rewrite Hman. apply check_refs_all. intros r Hr. apply in_map_iff in Hr as [n [<- Hn]].
      destruct (HD n Hn) as [c [Hgc HDc]]. apply HNS in Hn.
      assert (Hok : name_ok n).
      { destruct name_ok_consts as [K1 [K2 K3]]. destruct Hn as [[Hkeep Hin]|[Eq|[Eq|Eq]]]; [|subst n; exact K1|subst n; exact K2|subst n; exact K3].
        unfold names in Hin. apply in_map_iff in Hin as [m [Em Hm]]. subst n.
        assert (Hm' : In m (filter keepf g)) by (apply filter_In; split; [exact Hm|exact Hkeep]).
        rewrite Hfilt in Hm'. apply filter_In in Hm' as [Hm' _]. apply Hnames; [exact Hm'|exact Hkeep]. }
      destruct (Htypes _ Hct) as [To Te].
      unfold Model.check_ref. cbn [mr_uri mr_alg mr_dv]. rewrite ref_path_no_panic. unfold uri_of.
      rewrite ref_path_of_uri by (first [exact Hok|apply chosen_type_ok; assumption]). rewrite Hgc.
      change (vsix_cm_missing true) with false. cbv iota.
      destruct (hash_uri_roundtrip alg Hhash) as [Hr Ha]. rewrite Hr, Ha. change (vsix_cm_bad_alg true) with false. cbv iota.
      rewrite b64_roundtrip, HDc, bytes_eqb_refl. reflexivity. }
    (* verify *)
    unfold Model.verify. rewrite shapes_hold. cbn [negb]. rewrite RS. cbn [bind fst snd]. rewrite deser_ser.
    cbn [make_sigdoc sd_key sd_alg sd_obj sd_sigv sd_x509 sd_ts]. rewrite Hd, sign_correct. cbn [negb]. fold alg obj. rewrite CM. cbn [bind app].
    assert (Leaf : existsb (fun c => match cert_key c with Some p => pubk_eqb p (pub (sg_key key sg)) | None => false end) (map snd (sg_chain key sg)) = true).
    { destruct Hleaf as [d [Hin Hk']]. apply existsb_exists. exists d. split; [exact Hin|]. rewrite Hk'. apply pubk_eqb_refl. }
    rewrite Leaf. change (vsix_verify_no_leaf true) with false. cbv iota.
    destruct (so_tsa sigv o) as [tf|]; cbn [is_some].
    - change (vsix_ts_absent true) with false. cbv iota. rewrite Hts. reflexivity.
    - change (vsix_ts_absent false) with true. cbv iota. reflexivity.
  Qed.

  (* C08: the is-signed probe *)
  Lemma is_signed_of_signed o sg pk g : so_detach sigv o = false -> chain_ok key sg -> sign o sg pk = Ok g -> is_signed rels_read pubk cert_key g = true.
  Proof.
    intros Hd Hc Hs. destruct (manifest_of_signed Hc Hs) as [refs [ct [NS [_ [Hsig _]]]]].
    unfold is_signed. rewrite (read_signature_of_signed _ _ _ _ _ Hd Hc Hs Hsig). reflexivity.
  Qed.
  (* NotSignedError: no package relationships part, or no origin relationship in it *)
  Lemma not_signed_of_read pk : read_signature pk = Err E_NOT_SIGNED -> is_signed rels_read pubk cert_key pk = false /\ verify pk = Err E_NOT_SIGNED.
  Proof. intros E. unfold is_signed, Model.verify. rewrite shapes_hold, E. split; reflexivity. Qed.
  Lemma read_signature_no_root_rels pk : files_get pk N_ROOT = None -> read_signature pk = Err E_NOT_SIGNED.
  Proof. intros Hn. unfold Model.read_signature. change vsix_rs_top_panics with false. cbv iota. change vsix_rs_top with N_ROOT. rewrite Hn. reflexivity. Qed.
  Lemma find_none_types l : Forall (fun r => r_type r <> vsix_sig_origin_type) l -> find (fun r => vsix_rels_find_hit (r_type r) vsix_rs_origin_type) l = None.
  Proof.
    induction l as [|r l IH]; intros Hl; [reflexivity|]. inversion Hl as [|? ? Hr' Hl']; subst. cbn [find]. unfold vsix_rels_find_hit at 1. change vsix_rs_origin_type with vsix_sig_origin_type.
    apply bytes_eqb_neq in Hr'. rewrite Hr'. apply IH. exact Hl'.
  Qed.
  Lemma read_signature_no_origin pk c l : files_get pk N_ROOT = Some c -> rels_read c = Some l -> Forall (fun r => r_type r <> vsix_sig_origin_type) l ->
    read_signature pk = Err E_NOT_SIGNED.
  Proof.
    intros Hn Hr Hl. unfold Model.read_signature. change vsix_rs_top_panics with false. cbv iota. change vsix_rs_top with N_ROOT. rewrite Hn.
    change (vsix_rs_no_root_rels (is_some (Some c))) with false. cbv iota. unfold parse_rels. rewrite read_zip_cases, Hn. cbn [bind].
    rewrite Hr. cbn [bind]. unfold rels_find. rewrite find_none_types by exact Hl. reflexivity.
  Qed.

  (* C02 / C11: how the verifier's steps can end: accepting with a reason, or with an error; never in a panic *)
  Lemma check_ref_cases g r :
    match check_ref g r with
    | Ok _ => exists c, files_get g (vsix_ref_path (mr_uri r)) = Some c /\ b64d (mr_dv r) = Some (H (hash_of_uri (mr_alg r)) c) /\
                        hash_available (hash_of_uri (mr_alg r)) = true
    | Err _ => True
    | Panic _ => False
    end.
  Proof.
    unfold Model.check_ref. rewrite ref_path_no_panic.
    destruct (files_get g (vsix_ref_path (mr_uri r))) as [c|]; [|exact I]. change (vsix_cm_missing true) with false. cbv iota. unfold vsix_cm_bad_alg.
    destruct (hash_available (hash_of_uri (mr_alg r))); cbn [negb]; [|exact I].
    destruct (b64d (mr_dv r)) as [refv|]; [|exact I]. unfold vsix_cm_mismatch.
    destruct (bytes_eqb refv (H (hash_of_uri (mr_alg r)) c)) eqn:Eb; cbn [negb]; [|exact I].
    apply bytes_eqb_eq in Eb. subst refv. exists c. repeat split.
  Qed.
  Lemma check_refs_cases g l :
    match check_refs g l with Ok _ => forall r, In r l -> check_ref g r = Ok tt | Err _ => True | Panic _ => False end.
  Proof.
    induction l as [|r0 l IH]; [intros r []|]. cbn [Model.check_refs]. pose proof (check_ref_cases g r0) as C.
    destruct (check_ref g r0) as [[]| |] eqn:E; cbn [bind]; [|exact I|exact C].
    destruct (check_refs g l) as [[]| |]; [|exact I|exact IH]. intros r [<-|Hr]; [exact E|exact (IH r Hr)].
  Qed.
  Lemma parse_rels_no_panic pk path p : parse_rels rels_read pk path <> Panic p.
  Proof.
    unfold parse_rels. rewrite read_zip_cases. destruct (files_get pk path) as [b|]; cbn [bind]; [|discriminate]. destruct (rels_read b); discriminate.
  Qed.
  Lemma cert_loop_no_panic pk l p : Model.cert_loop pubk cert_key pk l <> Panic p.
  Proof.
    induction l as [|r l IH]; [discriminate|]. cbn [Model.cert_loop]. destruct (vsix_rs_skip_rel (r_type r)); [apply IH|].
    change (vsix_rs_cert_path_panics (r_target r)) with false. cbv iota. rewrite read_zip_cases.
    destruct (files_get pk _) as [b|]; cbn [bind]; [|discriminate].
    destruct (cert_key b); [|discriminate]. destruct (Model.cert_loop pubk cert_key pk l); cbn [bind]; [discriminate|discriminate|exact IH].
  Qed.
  Lemma read_signature_no_panic pk p : read_signature pk <> Panic p.
  Proof.
    unfold Model.read_signature. change vsix_rs_top_panics with false. cbv iota.
    destruct (vsix_rs_no_root_rels _); [discriminate|].
    destruct (parse_rels rels_read pk vsix_rs_top) as [r| |] eqn:E1; cbn [bind]; [|discriminate|exfalso; exact (parse_rels_no_panic _ _ _ E1)].
    destruct (vsix_rs_no_origin _); [discriminate|]. change (vsix_rel_path_panics (rels_find vsix_rs_origin_type r)) with false. cbv iota.
    destruct (parse_rels rels_read pk (vsix_rel_path _)) as [r2| |] eqn:E2; cbn [bind]; [|discriminate|exfalso; exact (parse_rels_no_panic _ _ _ E2)].
    destruct (vsix_rs_no_sigpath _); [discriminate|]. rewrite read_zip_cases.
    destruct (files_get pk (rels_find vsix_rs_sig_type r2)); cbn [bind]; [|discriminate].
    change (vsix_rel_path_panics (rels_find vsix_rs_sig_type r2)) with false. cbv iota.
    destruct (vsix_rs_has_cert_rels _); cbn [bind]; [|discriminate].
    destruct (parse_rels rels_read pk (vsix_rel_path (rels_find vsix_rs_sig_type r2))) as [r3| |] eqn:E3; cbn [bind]; [|discriminate|exfalso; exact (parse_rels_no_panic _ _ _ E3)].
    destruct (Model.cert_loop pubk cert_key pk r3) eqn:E4; cbn [bind]; try discriminate. exfalso. exact (cert_loop_no_panic _ _ _ E4).
  Qed.
  Lemma verify_cases g :
    match verify g with
    | Ok v => exists sigblob certs sd, read_signature g = Ok (sigblob, certs) /\ deser sigblob = Some sd /\
        xvrfy (sd_key pubk sigv sd) (tbs (sd_alg pubk sigv sd) (sd_obj pubk sigv sd)) (sd_sigv pubk sigv sd) = true /\
        check_refs g (manifest_refs (sd_obj pubk sigv sd)) = Ok tt /\ v_key pubk v = sd_key pubk sigv sd /\ v_alg pubk v = sd_alg pubk sigv sd
    | Err _ => True
    | Panic _ => False
    end.
  Proof.
    unfold Model.verify. rewrite shapes_hold. cbn [negb].
    destruct (read_signature g) as [[sigblob certs]| |] eqn:Er; cbn [bind fst snd]; [|exact I|exact (read_signature_no_panic _ _ Er)].
    destruct (deser sigblob) as [sd|] eqn:Ed; [|exact I].
    destruct (xvrfy _ _ _) eqn:Ex; cbn [negb]; [|exact I].
    unfold check_manifest. pose proof (check_refs_cases g (manifest_refs (sd_obj pubk sigv sd))) as C.
    destruct (check_refs g _) as [[]| |] eqn:Ec; cbn [bind]; [|exact I|exact C].
    destruct (match sd_ts pubk sigv sd with Some _ => _ | None => _ end); [exact I|].
    destruct (vsix_verify_no_leaf _); [exact I|]. exists sigblob, certs, sd. repeat split; assumption.
  Qed.
  (* two packages accepted with the same signature part: every part a Reference of its manifest resolves to exists in both and has the same bytes
     (collision freedom of the digest as an explicit premise) *)
  Theorem protect g1 g2 v1 v2 sigblob c1 c2 sd :
    (forall a x y, H a x = H a y -> x = y) ->
    verify g1 = Ok v1 -> verify g2 = Ok v2 -> read_signature g1 = Ok (sigblob, c1) -> read_signature g2 = Ok (sigblob, c2) -> deser sigblob = Some sd ->
    forall r, In r (manifest_refs (sd_obj pubk sigv sd)) ->
      files_get g1 (vsix_ref_path (mr_uri r)) = files_get g2 (vsix_ref_path (mr_uri r)) /\ files_get g1 (vsix_ref_path (mr_uri r)) <> None.
  Proof.
    intros Hinj V1 V2 R1 R2 Hd r Hr.
    assert (Ref : forall g v c, verify g = Ok v -> read_signature g = Ok (sigblob, c) ->
                  exists x, files_get g (vsix_ref_path (mr_uri r)) = Some x /\ b64d (mr_dv r) = Some (H (hash_of_uri (mr_alg r)) x)).
    { intros g v c V R. pose proof (verify_cases g) as C. rewrite V in C. destruct C as [b [cs [sd' [R' [D [_ [C _]]]]]]].
      rewrite R in R'. injection R' as <- <-. rewrite Hd in D. injection D as <-.
      pose proof (check_refs_cases g (manifest_refs (sd_obj pubk sigv sd))) as Cs. rewrite C in Cs.
      pose proof (check_ref_cases g r) as Cr. rewrite (Cs r Hr) in Cr. destruct Cr as [x [F [B _]]]. exists x. split; assumption. }
    destruct (Ref g1 v1 c1 V1 R1) as [x1 [F1 B1]]. destruct (Ref g2 v2 c2 V2 R2) as [x2 [F2 B2]].
    rewrite B1 in B2. injection B2 as B2. rewrite F1, F2. split; [|discriminate]. f_equal. exact (Hinj _ _ _ B2).
  Qed.
End Verify.
