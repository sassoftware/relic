(* FmtVSIX/Properties.v — Visual Studio extension packages / OPC digital signatures (signers/vsix). The statements; the lemmas
   behind them are in FmtVSIX/Proofs*.v.  Model and specification side: FmtVSIX/Model.v.  A package is the list of its ZIP members (name, content).
   Symbolic, as section variables with explicit hypotheses: the digests H / sha1, base64, the XML readers ct_read / rels_read of Go's
   encoding/xml (their writers ct_marshal / rels_marshal are byte-exact models), XML-DSig signing and verification of the package Object
   (xsign / xvrfy over tbs, ser / deser of the signature part: unit C19), the certificate parser cert_key, the token check ts_ok.
   Classes used below: fname_ok f — no "/" in calcFileName's result (it is base32); chain_ok — that for every certificate of the chain;
   name_ok n — every segment of n is ordinary (not empty, not "." or "..") and n has no "?" (true of every OPC part name);
   ct_ok t — the segments of a content type after the first are ordinary; conventional sp — the signature parts named by the package's
   relationships live below /package/services/digital-signature/ under lower-case part names. *)
From Relic Require Import Base.Prelude FmtVSIX.Lib Generated.FmtVSIX_gen FmtVSIX.Model.
From Relic Require Import Base.Slice FmtVSIX.ProofsA FmtVSIX.ProofsB FmtVSIX.ProofsC FmtVSIX.ProofsD FmtVSIX.ProofsE FmtVSIX.ProofsF.
From Relic Require Generated.C19_gen C19.Model.

(* ================================================================== C11: no index / slice out of range, for all inputs *)
(* the generated panic conditions of every translated decision (ContentTypes.Find's ext[0] / ext[1:], makeSignature's, checkManifest's p[:i], ...)
   are unsatisfiable: a removed guard changes the generated condition and this statement with it *)
Theorem vsix_decisions_no_panic : forall ovr ext n,
  vsix_keep_file_panics n = false /\ vsix_mangle_keeps_panics n = false /\ vsix_mangle_parses_panics n = false /\
  vsix_ct_find_panics ovr ext n = false /\ vsix_ref_uri_panics ovr ext n = false /\ vsix_ref_path_panics n = false /\
  vsix_rel_path_panics n = false /\ vsix_newrels_name_panics n = false /\ vsix_cert_rels_name_panics n = false /\
  vsix_rels_find_path_panics n = false /\ vsix_rels_target_panics n = false /\ vsix_rs_cert_path_panics n = false /\
  vsix_sig_name_panics n = false /\ vsix_cert_path_panics n = false /\ vsix_rs_top_panics = false.
Proof.
  intros. repeat split; try reflexivity; [apply ct_find_no_panic|apply ref_uri_no_panic|apply ref_path_no_panic].
Qed.
(* the verifier returns an error or a verdict for EVERY package, whatever the XML readers, the XML-DSig layer, the certificate parser and the token
   check answer *)
Theorem vsix_verify_no_panic : forall H b64d rels_read pubk sigv pubk_eqb xvrfy tbs deser cert_key ts_ok pk p,
  verify H b64d rels_read pubk sigv pubk_eqb xvrfy tbs deser cert_key ts_ok pk <> Panic p.
Proof.
  intros until p. intros E. pose proof (verify_cases H b64d rels_read pubk sigv pubk_eqb xvrfy tbs deser cert_key ts_ok pk) as C. rewrite E in C. exact C.
Qed.
(* signing: the only way not to return is an endless run of relationship Id collisions while writing the detached-certificates relationships *)
Theorem vsix_sign_no_panic : forall H sha1 b64 ct_read key pubk sigv pub xsign tbs ser o sg pk p,
  sign H sha1 b64 ct_read key pubk sigv pub xsign tbs ser o sg pk = Panic p -> p = P_HANG /\ so_detach sigv o = true.
Proof.
  intros until p. intros E. pose proof (sign_cases H sha1 b64 ct_read key pubk sigv pub xsign tbs ser o sg pk) as C. rewrite E in C. exact C.
Qed.

(* ================================================================== C03 / C08: which members are kept *)
(* for EVERY member name keepFile removes exactly: "_rels/", "[Content_Types].xml", names whose last segment ends in .rels / .psdsxs / .psdor, and
   names below package/services/digital-signature/ — stated without path.Ext *)
Theorem vsix_keepfile_eq_conventional : forall n, vsix_keep_file n = negb (conv_sig_related n).
Proof. exact keepfile_eq_conventional. Qed.
(* against the specification's classification (content types stream, signature-related parts found through relationships, package relationships,
   part relationships, payload parts, ZIP items that are no parts): on the standard domain — lower-case part names that are no relationships parts and
   look like signature infrastructure only if the relationships say so — a member is kept (hence digested and referenced) exactly when the
   specification calls it a payload part *)
Theorem vsix_part_classification_eq_spec : forall sp n, conventional sp -> std_name sp n = true -> (vsix_keep_file n = true <-> spec_class sp n = C_PART).
Proof. exact classification_eq_spec. Qed.
(* C08: every part the package's relationships make signature related (conventional layout) is removed by signing *)
Theorem vsix_sig_related_is_dropped : forall sp n, conventional sp -> exact_sig sp n = true -> vsix_keep_file n = false.
Proof. exact sig_related_is_dropped. Qed.
(* ... and outside that domain, one witness per class of difference (all replayed on the real code):
   relationships that are payload are dropped (recorded as C03:spec:vsix:payload-changed@relationships) *)
Theorem vsix_rels_dropped_refuted : exists n1 n2, spec_class sp_none n1 = C_RELS /\ vsix_keep_file n1 = false /\ spec_class sp_none n2 = C_ROOT_RELS /\ vsix_keep_file n2 = false.
Proof. exists n_part_rels, n_root_rels. repeat apply conj; vm_compute; reflexivity. Qed.
Theorem vsix_rels_lost_refuted : exists g, wsign (w_o false None) w_sg pk_rels = Ok g /\ files_get g N_ROOT = Some (rels_marshal w_rl1) /\ length w_rl1 = 1%nat /\ files_get pk_rels N_ROOT = Some [82].
Proof. exists g_rels. repeat apply conj; vm_compute; reflexivity. Qed.
(* payload parts that use the extensions or the folder reserved for signature infrastructure are dropped *)
Theorem vsix_sig_extension_payload_dropped_refuted : exists n1 n2, spec_class sp_none n1 = C_PART /\ vsix_keep_file n1 = false /\ spec_class sp_none n2 = C_PART /\ vsix_keep_file n2 = false.
Proof. exists n_psdor, n_folder. repeat apply conj; vm_compute; reflexivity. Qed.
(* a ZIP item that is no part (a directory entry) is kept, digested, and referenced by the manifest under a URI that is no part name *)
Theorem vsix_directory_entry_signed_refuted : exists n, spec_class sp_none n = C_NOT_A_PART /\ vsix_keep_file n = true /\
  forall ovr ext, exists t, vsix_ref_uri ovr ext n = [47] ++ n ++ [63; 67; 111; 110; 116; 101; 110; 116; 84; 121; 112; 101; 61] ++ t.
Proof.
  exists n_dir. split; [vm_compute; reflexivity|]. split; [vm_compute; reflexivity|].
  intros. eexists. unfold vsix_ref_uri. cbv zeta. rewrite <- !app_assoc. reflexivity.
Qed.
(* names that are equivalent (ASCII case ignored) to the content types stream or the package relationships part are kept as payload *)
Theorem vsix_case_variant_kept_refuted : spec_class sp_none n_ct_lower = C_CT_STREAM /\ vsix_keep_file n_ct_lower = true /\
  spec_class sp_none n_rels_upper = C_ROOT_RELS /\ vsix_keep_file n_rels_upper = true.
Proof. repeat apply conj; vm_compute; reflexivity. Qed.
(* a signature part in another tool's layout is kept as payload *)
Theorem vsix_foreign_layout_kept_refuted : spec_class sp_office n_office_sig = C_SIG /\ vsix_keep_file n_office_sig = true.
Proof. split; vm_compute; reflexivity. Qed.

(* C03 / C08: the members keepFile keeps come through byte-identical and in order; everything else in the output is one of the new parts, none of which
   a later signing keeps *)
Theorem vsix_payload_kept : forall H sha1 b64 ct_read key pubk sigv pub xsign tbs ser o sg pk g, chain_ok key sg ->
  sign H sha1 b64 ct_read key pubk sigv pub xsign tbs ser o sg pk = Ok g ->
  filter keepf g = filter keepf pk /\ exists added, g = filter keepf pk ++ added /\ Forall (fun m : member => vsix_keep_file (fst m) = false) added.
Proof. intros until g. apply payload_kept. Qed.
Theorem vsix_new_parts_not_kept : forall f, fname_ok f ->
  vsix_keep_file (vsix_newrels_name []) = false /\ vsix_keep_file (vsix_newrels_name vsix_origin_path) = false /\ vsix_keep_file vsix_origin_name = false /\
  vsix_keep_file (vsix_sig_name f) = false /\ vsix_keep_file (vsix_cert_path f) = false /\ vsix_keep_file (vsix_cert_rels_name (vsix_sig_name f)) = false /\
  vsix_keep_file vsix_newct_name = false.
Proof.
  intros f Hf. destruct N_not_kept as [A [B C]]. unfold vsix_cert_rels_name.
  rewrite sig_rels_name_form, sig_name_form, cert_path_form, !keep_prefixed by exact Hf. repeat split; assumption.
Qed.

(* ================================================================== C03 / C05: the regenerated content types stream *)
(* it is the last member: the package's declarations (later duplicates winning) with relic's own extensions set, Defaults and Overrides sorted; a reader
   that follows ECMA-376 Part 2 10.1.2.4 finds a type for every name relic found one for ... *)
Theorem vsix_content_types_wellformed : forall H sha1 b64 ct_read key pubk sigv pub xsign tbs ser o sg pk g, chain_ok key sg ->
  sign H sha1 b64 ct_read key pubk sigv pub xsign tbs ser o sg pk = Ok g ->
  exists ct, ct_scan ct_read pk ct_empty = Some ct /\
    files_get g vsix_newct_name = Some (ct_marshal (ct_doc_of (new_ctypes ct (so_detach sigv o)))) /\
    (forall n, last_segment n <> [] -> vsix_ct_find (ct_ovr ct) (ct_ext ct) n <> [] -> exists t, spec_ct_of (ct_doc_of (new_ctypes ct (so_detach sigv o))) n = Some t).
Proof.
  intros until g. intros Hc Hs. destruct (sign_inv Hs) as [ct [id1 [id2 [certs [Hct [_ [_ Hg]]]]]]].
  exists ct. split; [exact Hct|]. split; [|intros n Hn Hf; apply ct_find_implies_spec; assumption].
  rewrite Hg. unfold signed_out.
  match goal with |- files_get (?a ++ ?b ++ [?x; ?y]) _ = _ => change (a ++ b ++ [x; y]) with (a ++ b ++ [x] ++ [y]) end.
  rewrite !app_assoc, files_get_snoc, bytes_eqb_refl. reflexivity.
Qed.
(* ... and gives the new parts their specified types, unless the package declares a case variant of one of relic's extensions or an Override for them *)
Theorem vsix_new_parts_types : forall ct hc f, fname_ok f -> no_variant ct ->
  (forall n, find (fun o => ieq (fst o) (SLASH :: n)) (sorted_entries (ct_ovr ct)) = None) ->
  spec_ct_of (ct_doc_of (new_ctypes ct hc)) N_ROOT = Some (aget vsix_content_types [114; 101; 108; 115]) /\
  spec_ct_of (ct_doc_of (new_ctypes ct hc)) N_OREL = Some (aget vsix_content_types [114; 101; 108; 115]) /\
  spec_ct_of (ct_doc_of (new_ctypes ct hc)) N_ORIG = Some (aget vsix_content_types [112; 115; 100; 111; 114]) /\
  spec_ct_of (ct_doc_of (new_ctypes ct hc)) (vsix_sig_name f) = Some (aget vsix_content_types [112; 115; 100; 115; 120; 115]).
Proof.
  intros ct hc f Hf Hnv Hov.
  assert (K : forall n e, ahas vsix_content_types e = true -> vsix_newct_skip e hc = false -> last_segment n <> [] -> path_ext (path_base n) = DOT :: e ->
              spec_ct_of (ct_doc_of (new_ctypes ct hc)) n = Some (aget vsix_content_types e)) by (intros; apply new_part_type; auto).
  repeat apply conj.
  - apply K; [reflexivity|reflexivity|vm_compute; discriminate|vm_compute; reflexivity].
  - apply K; [reflexivity|reflexivity|vm_compute; discriminate|vm_compute; reflexivity].
  - apply K; [reflexivity|reflexivity|vm_compute; discriminate|vm_compute; reflexivity].
  - assert (Hl : last_segment (vsix_sig_name f) = f ++ X_SIG).
    { unfold last_segment. rewrite sig_name_join, split_join_npath by (first [exact Hf|apply npath_sig; exact Hf]). apply last_last. }
    assert (Hne : last_segment (vsix_sig_name f) <> []) by (rewrite Hl; destruct f; discriminate).
    apply K; [reflexivity|reflexivity|exact Hne|].
    rewrite path_base_last_segment, Hl by exact Hne. apply (path_ext_dot_tail f [112; 115; 100; 115; 120; 115]); reflexivity.
Qed.
(* newCtypes overwrites what the package declared for relic's extensions: with detached certificates a payload certificate's declared type changes, and
   its Reference, written before, names the old one *)
Theorem vsix_content_type_redeclared_refuted :
  chosen_type (ct_ovr ct_cer) (ct_ext ct_cer) n_cer = [120; 47; 99] /\ spec_ct_of w_ct_cer n_cer = Some [120; 47; 99] /\
  spec_ct_of (ct_doc_of (new_ctypes ct_cer true)) n_cer = Some (aget vsix_content_types [99; 101; 114]) /\ aget vsix_content_types [99; 101; 114] <> [120; 47; 99].
Proof. repeat apply conj; try (vm_compute; reflexivity). vm_compute. discriminate. Qed.

(* ================================================================== C01 / C05: the manifest *)
(* the package Object makeSignature builds is read back by checkManifest's Unmarshal as exactly the (URI, DigestMethod, DigestValue) triples written *)
Theorem vsix_manifest_roundtrip : forall refs alg time,
  manifest_refs (package_object refs alg time) = map (fun r => mkRef (fst r) (hash_uri_of alg) (snd r)) refs.
Proof. exact manifest_roundtrip. Qed.
(* every Reference of the manifest is (part name "?ContentType=" the chosen type, base64 of the digest of the bytes the OUTPUT package holds under that name),
   for a kept member or one of the three new signed parts (package relationships, origin relationships, origin) *)
Theorem vsix_reference_is_part_digest : forall H sha1 b64 ct_read key pubk sigv pub xsign tbs ser o sg pk g, chain_ok key sg ->
  sign H sha1 b64 ct_read key pubk sigv pub xsign tbs ser o sg pk = Ok g ->
  exists refs ct,
    ct_scan ct_read pk ct_empty = Some ct /\
    files_get g (vsix_sig_name (sg_fname key sg)) = Some (ser (make_sigdoc key pubk sigv pub xsign tbs o sg (package_object refs (so_alg sigv o) (so_time sigv o)))) /\
    forall r, In r (manifest_refs (package_object refs (so_alg sigv o) (so_time sigv o))) ->
      exists n c, mr_uri r = uri_of (ct_ovr ct) (ct_ext ct) n /\ files_get g n = Some c /\ mr_dv r = b64 (H (so_alg sigv o) c) /\
                  mr_alg r = hash_uri_of (so_alg sigv o) /\ signed_name g n.
Proof.
  intros until g. intros Hc Hs. destruct (manifest_of_signed Hc Hs) as [refs [ct [NS [Hct [Hsig [_ [_ [HNS [D [Hman HD]]]]]]]]]].
  exists refs, ct. split; [exact Hct|]. split; [exact Hsig|]. intros r Hr. rewrite Hman in Hr. apply in_map_iff in Hr as [n [<- Hn]].
  destruct (HD n Hn) as [c [Hg HDc]]. exists n, c. cbn [mr_uri mr_dv mr_alg]. rewrite HDc. repeat split; try reflexivity; [exact Hg|apply HNS; exact Hn].
Qed.
(* C05: on names and tables in one letter case (no Override with an empty type, the extension not one relic redeclares) the type written into the URI is the
   type a reader that follows 10.1.2.4 finds for that part in the regenerated content types stream ... *)
Theorem vsix_reference_type_eq_spec : forall ct hc n, lower_table (ct_ovr ct) -> lower_table (ct_ext ct) -> has_upper n = false -> last_segment n <> [] ->
  vsix_ct_find (ct_ovr ct) (ct_ext ct) n <> [] ->
  (aget (ct_ovr ct) (SLASH :: n) = [] -> ahas (ct_ovr ct) (SLASH :: n) = false) ->
  (forall e, path_ext (path_base n) = DOT :: e -> ~ In e (akeys vsix_content_types)) ->
  spec_ct_of (ct_doc_of (new_ctypes ct hc)) n = Some (chosen_type (ct_ovr ct) (ct_ext ct) n) /\ chosen_type (ct_ovr ct) (ct_ext ct) n = vsix_ct_find (ct_ovr ct) (ct_ext ct) n.
Proof. exact reference_type_eq_spec. Qed.
(* ... in general it is not (extensions and Override names match case-insensitively in the specification, case-sensitively in relic): *)
Theorem vsix_reference_type_case_refuted : exists g, wsign (w_o false None) w_sg pk_case = Ok g /\
  chosen_type (ct_ovr ct0) (ct_ext ct0) n_TXT = vsix_default_content_type /\
  spec_ct_of (ct_doc_of (new_ctypes ct0 false)) n_TXT = Some [116; 47; 112] /\ spec_ct_of w_ct1 n_TXT = Some [116; 47; 112].
Proof. exists g_case. repeat apply conj; vm_compute; reflexivity. Qed.
(* checkManifest resolves the URI of a Reference back to the member it was written for: for part names and ordinary content types *)
Theorem vsix_reference_resolves_to_part : forall ovr ext n, name_ok n -> Forall ct_ok (map snd ovr) -> Forall ct_ok (map snd ext) ->
  vsix_ref_uri ovr ext n = uri_of ovr ext n /\ vsix_ref_path (vsix_ref_uri ovr ext n) = n.
Proof.
  intros ovr ext n Hn Ho He. split; [apply ref_uri_form|]. rewrite ref_uri_form. apply ref_path_of_uri; [exact Hn|apply chosen_type_ok; assumption].
Qed.
(* relationship targets are resolved from the package root whatever the source part: a relative target resolves elsewhere than the specification says *)
Theorem vsix_relative_target_refuted : exists t, vsix_rels_find_path t <> spec_resolve vsix_origin_path t /\ spec_resolve vsix_origin_path t = vsix_sig_name [102].
Proof. exists [120; 109; 108; 45; 115; 105; 103; 110; 97; 116; 117; 114; 101; 47; 102; 46; 112; 115; 100; 115; 120; 115]. split; [vm_compute; discriminate|vm_compute; reflexivity]. Qed.

(* ================================================================== C01: sign then verify *)
Theorem vsix_sign_then_verify : forall H sha1 b64 b64d ct_read rels_read key pubk sigv pub pubk_eqb xsign xvrfy tbs ser deser cert_key ts_ok,
  (forall l, rels_read (rels_marshal l) = Some l) -> (forall sd, deser (ser sd) = Some sd) -> (forall k m, xvrfy (pub k) m (xsign k m) = true) ->
  (forall x, b64d (b64 x) = Some x) -> (forall p, pubk_eqb p p = true) ->
  forall o sg pk g,
  so_detach sigv o = false -> chain_ok key sg ->
  (match so_tsa sigv o with Some f => forall sv, ts_ok (f sv) sv = true | None => True end) ->
  (exists d, In d (map snd (sg_chain key sg)) /\ cert_key d = Some (pub (sg_key key sg))) ->
  (forall m, In m pk -> vsix_keep_file (fst m) = true -> name_ok (fst m)) ->
  (forall ct, ct_scan ct_read pk ct_empty = Some ct -> Forall ct_ok (map snd (ct_ovr ct)) /\ Forall ct_ok (map snd (ct_ext ct))) ->
  sign H sha1 b64 ct_read key pubk sigv pub xsign tbs ser o sg pk = Ok g ->
  verify H b64d rels_read pubk sigv pubk_eqb xvrfy tbs deser cert_key ts_ok g = Ok (mkV pubk (pub (sg_key key sg)) (so_alg sigv o) (is_some (so_tsa sigv o))).
Proof. exact sign_then_verify. Qed.
(* the name hypothesis is needed: a Reference URI never resolves to a name with "?", so such a member is signed and then not found *)
Theorem vsix_sign_then_verify_name_refuted :
  (exists n, vsix_keep_file n = true /\ forall ovr ext, vsix_ref_path (vsix_ref_uri ovr ext n) <> n) /\
  wsign (w_o false None) w_sg pk_q = Ok g_q /\ wverify (sd_of (refs_of g_q ct0) None) (fun _ _ => true) g_q = Err E_REF_MISSING.
Proof.
  split; [|split; vm_compute; reflexivity].
  exists [119; 63; 46; 116; 120; 116]. split; [vm_compute; reflexivity|]. intros ovr ext E.
  pose proof (ref_path_no_question (vsix_ref_uri ovr ext [119; 63; 46; 116; 120; 116])) as Hq. rewrite E in Hq. discriminate Hq.
Qed.
(* the token hypothesis is needed (recorded as C10:sign:vsix:unverifiable-timestamp-attached): signing attaches whatever the authority returned *)
Theorem vsix_timestamp_unverified_refuted : exists tsa, wsign (w_o false (Some tsa)) w_sg pk0 = Ok g0 /\
  wverify (sd_of (refs_of g0 ct0) (Some tsa)) (fun _ _ => false) g0 = Err E_TIMESTAMP.
Proof. exists (fun _ => [0]). split; [rewrite wsign_ignores_tsa; exact g0_signed|vm_compute; reflexivity]. Qed.
(* refusals: an unreadable content types stream, a digest XML-DSig has no name for; nothing else *)
Theorem vsix_sign_refuses_clean : forall H sha1 b64 ct_read key pubk sigv pub xsign tbs ser o sg pk e,
  sign H sha1 b64 ct_read key pubk sigv pub xsign tbs ser o sg pk = Err e -> e = E_CT_PARSE \/ e = E_HASH.
Proof.
  intros until e. intros E. pose proof (sign_cases H sha1 b64 ct_read key pubk sigv pub xsign tbs ser o sg pk) as C. rewrite E in C. exact C.
Qed.

(* ================================================================== C02: what an accepted signature covers *)
(* every kept member and each of the three new signed parts has exactly one Reference (names sorted, no name twice), carrying the digest of the bytes the
   output holds under that name *)
Theorem vsix_manifest_covers_all_signed_parts : forall H sha1 b64 ct_read key pubk sigv pub xsign tbs ser o sg pk g, chain_ok key sg ->
  sign H sha1 b64 ct_read key pubk sigv pub xsign tbs ser o sg pk = Ok g ->
  exists refs ct NS,
    ct_scan ct_read pk ct_empty = Some ct /\
    files_get g (vsix_sig_name (sg_fname key sg)) = Some (ser (make_sigdoc key pubk sigv pub xsign tbs o sg (package_object refs (so_alg sigv o) (so_time sigv o)))) /\
    NoDup NS /\ Sorted.Sorted leb_prop NS /\ map mr_uri (manifest_refs (package_object refs (so_alg sigv o) (so_time sigv o))) = map (uri_of (ct_ovr ct) (ct_ext ct)) NS /\
    forall n, signed_name g n ->
      In n NS /\ exists c, files_get g n = Some c /\
        In (mkRef (uri_of (ct_ovr ct) (ct_ext ct) n) (hash_uri_of (so_alg sigv o)) (b64 (H (so_alg sigv o) c))) (manifest_refs (package_object refs (so_alg sigv o) (so_time sigv o))).
Proof.
  intros until g. intros Hc Hs. destruct (manifest_of_signed Hc Hs) as [refs [ct [NS [Hct [Hsig [Hnd [Hso [HNS [D [Hman HD]]]]]]]]]].
  exists refs, ct, NS. split; [exact Hct|]. split; [exact Hsig|]. split; [exact Hnd|]. split; [exact Hso|]. split.
  - rewrite Hman, map_map. reflexivity.
  - intros n Hn. apply HNS in Hn. split; [exact Hn|]. destruct (HD n Hn) as [c [Hg HDc]]. exists c. split; [exact Hg|].
    rewrite Hman. apply in_map_iff. exists n. split; [rewrite HDc; reflexivity|exact Hn].
Qed.
(* two packages accepted with the same signature part agree on every part a Reference of its manifest resolves to, and have it (digest collision-free as a premise) *)
Theorem vsix_protect : forall H b64d rels_read pubk sigv pubk_eqb xvrfy tbs deser cert_key ts_ok g1 g2 v1 v2 sigblob c1 c2 sd,
  (forall a x y, H a x = H a y -> x = y) ->
  verify H b64d rels_read pubk sigv pubk_eqb xvrfy tbs deser cert_key ts_ok g1 = Ok v1 ->
  verify H b64d rels_read pubk sigv pubk_eqb xvrfy tbs deser cert_key ts_ok g2 = Ok v2 ->
  read_signature rels_read pubk cert_key g1 = Ok (sigblob, c1) -> read_signature rels_read pubk cert_key g2 = Ok (sigblob, c2) -> deser sigblob = Some sd ->
  forall r, In r (manifest_refs (sd_obj pubk sigv sd)) ->
    files_get g1 (vsix_ref_path (mr_uri r)) = files_get g2 (vsix_ref_path (mr_uri r)) /\ files_get g1 (vsix_ref_path (mr_uri r)) <> None.
Proof. intros until sd. apply protect. Qed.
(* what is NOT bound.  Members no Reference covers (recorded as C02:spec:vsix:unlisted-member) ... *)
Theorem vsix_unlisted_member_refuted : exists extra, extra <> [] /\ wverify (sd_of (refs_of g0 ct0) None) (fun _ _ => true) (g0 ++ extra) = Ok (mkV Z 5 5 false).
Proof. exists [([101; 118; 105; 108; 46; 100; 108; 108], [77; 90])]. split; [discriminate|vm_compute; reflexivity]. Qed.
(* ... the content types stream (replaced or removed: every part's declared type changes; the ContentType written into the URIs is not compared) ... *)
Theorem vsix_content_types_unbound_refuted :
  wverify (sd_of (refs_of g0 ct0) None) (fun _ _ => true) (filter (fun m => negb (bytes_eqb (fst m) CT)) g0 ++ [(CT, [66])]) = Ok (mkV Z 5 5 false) /\
  wverify (sd_of (refs_of g0 ct0) None) (fun _ _ => true) (filter (fun m => negb (bytes_eqb (fst m) CT)) g0) = Ok (mkV Z 5 5 false).
Proof. split; vm_compute; reflexivity. Qed.
(* ... an earlier member with the name of a signed part (only the last member of a name is looked at) ... *)
Theorem vsix_shadowed_duplicate_refuted : wverify (sd_of (refs_of g0 ct0) None) (fun _ _ => true) ((n_txt, [6; 6; 6]) :: g0) = Ok (mkV Z 5 5 false).
Proof. vm_compute. reflexivity. Qed.
(* ... and the Transforms of a Reference are not looked at (a Reference that declares the relationships transform is digested as the raw part) *)
Theorem vsix_transforms_ignored_refuted : forall uri hu dv ts,
  mref_of (Relic.C19.Model.el [82; 101; 102; 101; 114; 101; 110; 99; 101] [Relic.C19.Model.mkattr [] Relic.C19.Model.s_URI uri]
             [Relic.C19.Model.el [84; 114; 97; 110; 115; 102; 111; 114; 109; 115] [] ts;
              Relic.C19.Model.alg_el [68; 105; 103; 101; 115; 116; 77; 101; 116; 104; 111; 100] hu;
              Relic.C19.Model.el [68; 105; 103; 101; 115; 116; 86; 97; 108; 117; 101] [] [Relic.C19.Model.CharData dv]])
  = mref_of (Relic.C19.Model.vsix_reference uri hu dv).
Proof. intros. reflexivity. Qed.

(* ================================================================== C08: re-signing *)
(* the digest table does not depend on an existing signature *)
Theorem vsix_digest_ignores_signature : forall H sha1 b64 ct_read key pubk sigv pub xsign tbs ser o sg pk g alg st st', chain_ok key sg ->
  sign H sha1 b64 ct_read key pubk sigv pub xsign tbs ser o sg pk = Ok g ->
  mangle H ct_read alg pk (mkM [] [] ct_empty) = Ok st -> mangle H ct_read alg g (mkM [] [] ct_empty) = Ok st' ->
  m_kept st' = m_kept st /\ m_dig st' = m_dig st.
Proof. intros until st'. apply digest_ignores_signature. Qed.
(* signing a signed package: the kept members are the original's; every other member of the result is a new part of the second signing (the first signing's
   origin, relationships, signature, certificates and content types stream are gone); the result verifies under the second key and digest; it is signed *)
Theorem vsix_resign : forall H sha1 b64 b64d ct_read rels_read key pubk sigv pub pubk_eqb xsign xvrfy tbs ser deser cert_key ts_ok,
  (forall l, rels_read (rels_marshal l) = Some l) -> (forall sd, deser (ser sd) = Some sd) -> (forall k m, xvrfy (pub k) m (xsign k m) = true) ->
  (forall x, b64d (b64 x) = Some x) -> (forall p, pubk_eqb p p = true) ->
  forall o1 sg1 o2 sg2 pk g1 g2,
  chain_ok key sg1 -> chain_ok key sg2 -> so_detach sigv o2 = false ->
  (match so_tsa sigv o2 with Some f => forall sv, ts_ok (f sv) sv = true | None => True end) ->
  (exists d, In d (map snd (sg_chain key sg2)) /\ cert_key d = Some (pub (sg_key key sg2))) ->
  (forall m, In m pk -> vsix_keep_file (fst m) = true -> name_ok (fst m)) ->
  (forall ct, ct_scan ct_read g1 ct_empty = Some ct -> Forall ct_ok (map snd (ct_ovr ct)) /\ Forall ct_ok (map snd (ct_ext ct))) ->
  sign H sha1 b64 ct_read key pubk sigv pub xsign tbs ser o1 sg1 pk = Ok g1 -> sign H sha1 b64 ct_read key pubk sigv pub xsign tbs ser o2 sg2 g1 = Ok g2 ->
  filter keepf g2 = filter keepf pk /\
  (exists added, g2 = filter keepf pk ++ added /\ Forall (fun m : member => vsix_keep_file (fst m) = false) added) /\
  verify H b64d rels_read pubk sigv pubk_eqb xvrfy tbs deser cert_key ts_ok g2 = Ok (mkV pubk (pub (sg_key key sg2)) (so_alg sigv o2) (is_some (so_tsa sigv o2))) /\
  is_signed rels_read pubk cert_key g2 = true.
Proof. exact resign. Qed.
(* the is-signed probe: false (NotSignedError) without package relationships or without an origin relationship in them *)
Theorem vsix_is_signed_spec : forall H b64d rels_read pubk sigv pubk_eqb xvrfy tbs deser cert_key ts_ok pk,
  (files_get pk N_ROOT = None \/ exists c l, files_get pk N_ROOT = Some c /\ rels_read c = Some l /\ Forall (fun r => r_type r <> vsix_sig_origin_type) l) ->
  is_signed rels_read pubk cert_key pk = false /\ verify H b64d rels_read pubk sigv pubk_eqb xvrfy tbs deser cert_key ts_ok pk = Err E_NOT_SIGNED.
Proof.
  intros until pk. intros Hc. apply not_signed_of_read.
  destruct Hc as [Hn|[c [l [Hn [Hr Hl]]]]]; [apply read_signature_no_root_rels; exact Hn|eapply read_signature_no_origin; eassumption].
Qed.

(* ================================================================== the hypotheses are satisfiable; regressions *)
(* a concrete package signs and verifies under oracles consistent with what sign wrote; a changed part, a removed part, an appended duplicate are rejected *)
Example vsix_baseline : wsign (w_o false None) w_sg pk0 = Ok g0 /\ manifest_refs (sd_obj Z bytes (sd_of (refs_of g0 ct0) None)) <> [] /\
  length (refs_of g0 ct0) = 4%nat /\ wverify (sd_of (refs_of g0 ct0) None) (fun _ _ => true) g0 = Ok (mkV Z 5 5 false).
Proof. repeat apply conj; [exact g0_signed|vm_compute; discriminate|vm_compute; reflexivity|vm_compute; reflexivity]. Qed.
Example vsix_tamper_examples :
  wverify (sd_of (refs_of g0 ct0) None) (fun _ _ => true) (map (fun m => if bytes_eqb (fst m) n_txt then (fst m, [8]) else m) g0) = Err E_MISMATCH /\
  wverify (sd_of (refs_of g0 ct0) None) (fun _ _ => true) (filter (fun m => negb (bytes_eqb (fst m) n_txt)) g0) = Err E_REF_MISSING /\
  wverify (sd_of (refs_of g0 ct0) None) (fun _ _ => true) (g0 ++ [(n_txt, [8])]) = Err E_MISMATCH.
Proof. repeat apply conj; vm_compute; reflexivity. Qed.
(* detached certificates: eight members, the verifier finds the certificate through the signature part's relationships; signing again with embedded
   certificates leaves six members and the same kept ones *)
Example vsix_detached_example : wsign (w_o true None) w_sg pk0 = Ok g0d /\ length g0d = 8%nat /\
  verify wH (fun x => Some x) wrels_d Z bytes Z.eqb (fun p m s => bytes_eqb s (p :: m)) (fun a _ => [a]) (fun c => if bytes_eqb c [7] then Some sd_d else None)
         (fun d => if bytes_eqb d [48; 1] then Some 5 else None) (fun _ _ => true) g0d = Ok (mkV Z 5 5 false) /\
  sd_x509 Z bytes sd_d = [] /\
  filter keepf (unwrap (wsign (w_o false None) w_sg g0d)) = filter keepf pk0 /\ length (unwrap (wsign (w_o false None) w_sg g0d)) = 6%nat.
Proof. repeat apply conj; vm_compute; reflexivity. Qed.
Example vsix_refusal_example : wsign (w_o false None) w_sg [(CT, [3]); (n_txt, [9])] = Err E_CT_PARSE.
Proof. vm_compute. reflexivity. Qed.
Example name_ok_inhabited : name_ok [108; 105; 98; 47; 116; 111; 111; 108; 46; 100; 108; 108] /\ ct_ok [116; 101; 120; 116; 47; 112; 108; 97; 105; 110; 59; 32; 99; 104; 97; 114; 115; 101; 116; 61; 117; 116; 102; 45; 56].
Proof. split; [split; [split; [discriminate|vm_compute; repeat constructor]|reflexivity]|vm_compute; repeat constructor]. Qed.
Example conventional_inhabited : conventional (mkSP [vsix_origin_path] [vsix_sig_name [102]] []) /\ std_name (mkSP [vsix_origin_path] [vsix_sig_name [102]] []) [108; 105; 98; 47; 116; 111; 111; 108; 46; 100; 108; 108] = true.
Proof. split; [repeat constructor|vm_compute; reflexivity]. Qed.
(* the regression of 1ce9395 / 71ceea3 (a member without extension): no index out of range, the default type *)
Example vsix_no_extension_regression : vsix_ref_uri [] [] [76; 73; 67; 69; 78; 83; 69] = [47; 76; 73; 67; 69; 78; 83; 69] ++ Q_CT ++ vsix_default_content_type /\ vsix_ref_uri_panics [] [] [76; 73; 67; 69; 78; 83; 69] = false.
Proof. split; vm_compute; reflexivity. Qed.
