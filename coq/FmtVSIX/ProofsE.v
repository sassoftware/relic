(* FmtVSIX/ProofsE.v — re-signing, and the witnesses: concrete packages and table oracles on which the faithful model departs from the
   full statements (each is replayed on the real code by the harness). *)
From Relic Require Import Base.Prelude Base.Slice FmtVSIX.Lib Generated.FmtVSIX_gen FmtVSIX.Model FmtVSIX.ProofsA FmtVSIX.ProofsB FmtVSIX.ProofsC FmtVSIX.ProofsD.
From Relic Require Generated.C19_gen C19.Model.

(* a Reference URI never resolves to a name with "?" *)
Lemma has_byte_ztake c n s : has_byte c s = false -> has_byte c (ztake n s) = false.
Proof.
  unfold ztake. generalize (Z.to_nat n). intros k. revert s. induction k as [|k IH]; intros s Hs; [reflexivity|]. destruct s as [|x s]; [reflexivity|].
  cbn [firstn]. unfold has_byte in *. cbn [existsb] in *. apply orb_false_iff in Hs as [H1 H2]. rewrite H1. cbn [orb]. apply IH. exact H2.
Qed.
Lemma ref_path_no_question u : has_byte 63 (vsix_ref_path u) = false.
Proof.
  unfold vsix_ref_path. cbv zeta. set (p := path_join _). destruct (index_byte p 63 >=? 0) eqn:E.
  - rewrite zslice_0. apply index_byte_prefix_clean. lia.
  - apply index_byte_neg. lia.
Qed.

Section Resign.
  Variable H : Z -> bytes -> bytes.
  Variable sha1 : bytes -> bytes.
  Variable b64 : bytes -> bytes.
  Variable b64d : bytes -> option bytes.
  Variable ct_read : bytes -> option ctdoc.
  Variable rels_read : bytes -> option (list rel).
  Variables key pubk sigv : Type.
  Variable pub : key -> pubk.
  Variable pubk_eqb : pubk -> pubk -> bool.
  Variable xsign : key -> bytes -> sigv.
  Variable xvrfy : pubk -> bytes -> sigv -> bool.
  Variable tbs : Z -> node -> bytes.
  Variable ser : sigdoc pubk sigv -> bytes.
  Variable deser : bytes -> option (sigdoc pubk sigv).
  Variable cert_key : bytes -> option pubk.
  Variable ts_ok : bytes -> sigv -> bool.
  Notation sign := (sign H sha1 b64 ct_read key pubk sigv pub xsign tbs ser).
  Notation verify := (verify H b64d rels_read pubk sigv pubk_eqb xvrfy tbs deser cert_key ts_ok).
  Notation mangle := (mangle H ct_read).
  Hypothesis rels_roundtrip : forall l, rels_read (rels_marshal l) = Some l.
  Hypothesis deser_ser : forall sd, deser (ser sd) = Some sd.
  Hypothesis sign_correct : forall k m, xvrfy (pub k) m (xsign k m) = true.
  Hypothesis b64_roundtrip : forall x, b64d (b64 x) = Some x.
  Hypothesis pubk_eqb_refl : forall p, pubk_eqb p p = true.

  (* C08: the digests signing computes do not depend on an existing signature: the kept members and their digest table are the same for a package and
     for any signed version of it *)
  Lemma digest_ignores_signature o sg pk g alg st st' : chain_ok key sg -> sign o sg pk = Ok g ->
    mangle alg pk (mkM [] [] ct_empty) = Ok st -> mangle alg g (mkM [] [] ct_empty) = Ok st' ->
    m_kept st' = m_kept st /\ m_dig st' = m_dig st.
  Proof.
    intros Hc Hs M1 M2. edestruct payload_kept as [Hf _]; [exact Hc|exact Hs|].
    apply mangle_spec in M1 as [K1 [D1 _]]. apply mangle_spec in M2 as [K2 [D2 _]].
    cbn [m_kept m_dig app] in *. rewrite K1, K2, D1, D2, Hf. split; reflexivity.
  Qed.

  (* C08: signing a signed package: the members keepFile keeps are those of the original, in order; every other member of the result is one of the
     second signing's new parts (the first signing's origin, relationships, signature, certificate parts and content types stream are gone); and the
     result verifies under the second key and digest *)
  Theorem resign o1 sg1 o2 sg2 pk g1 g2 :
    chain_ok key sg1 -> chain_ok key sg2 -> so_detach sigv o2 = false ->
    (match so_tsa sigv o2 with Some f => forall sv, ts_ok (f sv) sv = true | None => True end) ->
    (exists d, In d (map snd (sg_chain key sg2)) /\ cert_key d = Some (pub (sg_key key sg2))) ->
    (forall m, In m pk -> vsix_keep_file (fst m) = true -> name_ok (fst m)) ->
    (forall ct, ct_scan ct_read g1 ct_empty = Some ct -> Forall ct_ok (map snd (ct_ovr ct)) /\ Forall ct_ok (map snd (ct_ext ct))) ->
    sign o1 sg1 pk = Ok g1 -> sign o2 sg2 g1 = Ok g2 ->
    filter keepf g2 = filter keepf pk /\
    (exists added, g2 = filter keepf pk ++ added /\ Forall (fun m : member => vsix_keep_file (fst m) = false) added) /\
    verify g2 = Ok (mkV pubk (pub (sg_key key sg2)) (so_alg sigv o2) (is_some (so_tsa sigv o2))) /\
    is_signed rels_read pubk cert_key g2 = true.
  Proof.
    intros Hc1 Hc2 Hd Hts Hleaf Hnames Htypes S1 S2.
    edestruct payload_kept as [F1 _]; [exact Hc1|exact S1|].
    edestruct payload_kept as [F2 [added [G2 A2]]]; [exact Hc2|exact S2|].
    rewrite F1 in F2, G2. split; [exact F2|]. split; [exists added; split; assumption|]. split.
    - eapply sign_then_verify with (pk := g1); try eassumption. intros m Hm Hk. apply Hnames; [|exact Hk].
      assert (Hm' : In m (filter keepf g1)) by (apply filter_In; split; [exact Hm|exact Hk]). rewrite F1 in Hm'. apply filter_In in Hm'. tauto.
    - eapply is_signed_of_signed; eassumption.
  Qed.
End Resign.

(* witnesses: table oracles and concrete packages *)
Definition wH (a : Z) (c : bytes) : bytes := a :: c.
Definition wsha1 (p : bytes) : bytes := [1; 2; 3; 4; 5].
Definition w_ct1 : ctdoc := ([([116; 120; 116], [116; 47; 112])], []).            (* Default Extension="txt" ContentType="t/p" *)
Definition w_ct_cer : ctdoc := ([([99; 101; 114], [120; 47; 99])], []).            (* Default Extension="cer" ContentType="x/c" *)
Definition wct (c : bytes) : option ctdoc := match c with [1] => Some w_ct1 | [2] => Some w_ct_cer | [3] => None | _ => Some ([], []) end.
Definition wser (sd : sigdoc Z bytes) : bytes := [7].
Definition wsign (o : sopts bytes) (sg : signer Z) (pk : package) : result package :=
  sign wH wsha1 (fun x => x) wct Z Z bytes (fun k => k) (fun k m => k :: m) (fun a _ => [a]) wser o sg pk.
Definition w_sg : signer Z := mkSigner Z 5 [102] [([102], [48; 1])].
Definition w_o (detach : bool) (tsa : option (bytes -> bytes)) : sopts bytes := mkOpts bytes 5 [50] detach tsa.
Definition CT : bytes := vsix_content_types_path.
Definition n_txt : bytes := [97; 46; 116; 120; 116].            (* a.txt *)
Definition n_TXT : bytes := [65; 46; 84; 88; 84].               (* A.TXT *)
Definition n_cer : bytes := [99; 47; 97; 46; 99; 101; 114].     (* c/a.cer *)

(* the verifier's oracles for a package relic signed: the two relationship documents relic wrote, the signature part, the certificate *)
Definition w_rl1 : list rel := match rels_append wsha1 [] vsix_origin_path vsix_sig_origin_type with Ok l => l | _ => [] end.
Definition w_rl2 : list rel := match rels_append wsha1 [] (vsix_sig_name [102]) vsix_sig_type with Ok l => l | _ => [] end.
Definition wrels (c : bytes) : option (list rel) :=
  if bytes_eqb c (rels_marshal w_rl1) then Some w_rl1 else if bytes_eqb c (rels_marshal w_rl2) then Some w_rl2 else None.
Definition wverify (sd : sigdoc Z bytes) (ts : bytes -> bytes -> bool) (pk : package) : result (vresult Z) :=
  verify wH (fun x => Some x) wrels Z bytes Z.eqb (fun p m s => bytes_eqb s (p :: m)) (fun a _ => [a]) (fun c => if bytes_eqb c [7] then Some sd else None)
         (fun d => if bytes_eqb d [48; 1] then Some 5 else None) ts pk.
Definition sd_of (refs : list (bytes * bytes)) (tsa : option (bytes -> bytes)) : sigdoc Z bytes :=
  make_sigdoc Z Z bytes (fun k => k) (fun k m => k :: m) (fun a _ => [a]) (w_o false tsa) w_sg (package_object refs 5 [50]).
Definition refs_of (g : package) (ct : ctab) : list (bytes * bytes) :=
  map (fun n => (vsix_ref_uri (ct_ovr ct) (ct_ext ct) n, wH 5 (match files_get g n with Some c => c | None => [] end)))
      (ssort (filter (fun n => vsix_keep_file n || bytes_eqb n N_ROOT || bytes_eqb n N_OREL || bytes_eqb n N_ORIG) (nodup (list_eq_dec Z.eq_dec) (map fst g)))).
Definition unwrap (r : result package) : package := match r with Ok g => g | _ => [] end.

(* a well-formed package; the table sign builds from its content types stream *)
Definition pk0 : package := [(CT, [1]); (n_txt, [9])].
Definition g0 : package := Eval vm_compute in unwrap (wsign (w_o false None) w_sg pk0).
Definition ct0 : ctab := ct_merge ct_empty w_ct1.
Lemma g0_signed : wsign (w_o false None) w_sg pk0 = Ok g0.
Proof. vm_compute. reflexivity. Qed.
(* wser drops the document the token goes into *)
Lemma wsign_ignores_tsa d tsa sg pk : wsign (w_o d tsa) sg pk = wsign (w_o d None) sg pk.
Proof. reflexivity. Qed.
(* C01: a member name with "?" *)
Definition pk_q : package := [(CT, [1]); ([119; 63; 46; 116; 120; 116], [9])].
Definition g_q : package := Eval vm_compute in unwrap (wsign (w_o false None) w_sg pk_q).
(* C05: an extension in another letter case than the Default the package declares *)
Definition pk_case : package := [(CT, [1]); (n_TXT, [9])].
Definition g_case : package := Eval vm_compute in unwrap (wsign (w_o false None) w_sg pk_case).
(* C03 / C05: a declaration for one of relic's own extensions *)
Definition ct_cer : ctab := ct_merge ct_empty w_ct_cer.
(* C03: a package with package relationships of its own *)
Definition pk_rels : package := [(CT, [1]); (n_txt, [9]); (N_ROOT, [82])].
Definition g_rels : package := Eval vm_compute in unwrap (wsign (w_o false None) w_sg pk_rels).
(* detached certificates: the relationships of the signature part, and an oracle that reads them back as well *)
Definition w_rl3 : list rel := match cert_rels wsha1 [([102], [48; 1])] [] with Ok l => l | _ => [] end.
Definition wrels_d (c : bytes) : option (list rel) := if bytes_eqb c (rels_marshal w_rl3) then Some w_rl3 else wrels c.
Definition g0d : package := Eval vm_compute in unwrap (wsign (w_o true None) w_sg pk0).
Definition sd_d : sigdoc Z bytes := make_sigdoc Z Z bytes (fun k => k) (fun k m => k :: m) (fun a _ => [a]) (w_o true None) w_sg (package_object (refs_of g0d ct0) 5 [50]).
