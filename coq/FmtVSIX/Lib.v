(* FmtVSIX/Lib.v — byte-string versions of the Go library functions the VSIX signer calls (strings.HasPrefix, strings.IndexByte,
   path.Ext / Base / Dir / Clean / Join, sort.Strings, map[string]string), written from the Go documentation and sources of package
   path; the correspondence harness compares them with the real functions.  Plus the checks behind the generated `_panics`
   conditions (index_ok / slice_ok) and the lemmas the proofs need. *)
From Relic Require Import Base.Prelude Base.Slice.
From Coq Require Import Permutation Sorted.

Definition SLASH : Z := 47.
Definition DOT : Z := 46.

Definition index_ok (i len : Z) : bool := (0 <=? i) && (i <? len).
Definition slice_ok (lo hi len : Z) : bool := (0 <=? lo) && (lo <=? hi) && (hi <=? len).
Definition nthz (s : bytes) (i : Z) : Z := nth (Z.to_nat i) s 0.

Fixpoint has_prefix (s p : bytes) {struct p} : bool :=
  match p with
  | [] => true
  | x :: p' => match s with y :: s' => (x =? y) && has_prefix s' p' | [] => false end
  end.
Fixpoint index_byte (s : bytes) (c : Z) : Z :=
  match s with
  | [] => -1
  | x :: r => if x =? c then 0 else let i := index_byte r c in if i <? 0 then -1 else i + 1
  end.
Definition has_byte (c : Z) (s : bytes) : bool := existsb (fun x => x =? c) s.
Definition to_lower (s : bytes) : bytes := map (fun c => if (65 <=? c) && (c <=? 90) then c + 32 else c) s.
Definition ieq (a b : bytes) : bool := bytes_eqb (to_lower a) (to_lower b).
Definition has_suffix (s x : bytes) : bool := has_prefix (rev s) (rev x).

Fixpoint split_on (c : Z) (s : bytes) : list bytes :=
  match s with
  | [] => [[]]
  | x :: r => if x =? c then [] :: split_on c r
              else match split_on c r with h :: t => (x :: h) :: t | [] => [[x]] end
  end.
Fixpoint join_with (c : Z) (l : list bytes) : bytes :=
  match l with
  | [] => []
  | [a] => a
  | a :: r => a ++ c :: join_with c r
  end.

(* Ext: the suffix beginning at the final dot in the final slash-separated element; empty if there is no dot *)
Fixpoint path_ext (p : bytes) : bytes :=
  match p with
  | [] => []
  | c :: r => match path_ext r with
              | [] => if (c =? DOT) && negb (has_byte SLASH r) then c :: r else []
              | e => e
              end
  end.
(* Clean *)
Definition is_dot (e : bytes) : bool := bytes_eqb e [DOT].
Definition is_dotdot (e : bytes) : bool := bytes_eqb e [DOT; DOT].
Fixpoint clean_elems (rooted : bool) (stack : list bytes) (elems : list bytes) : list bytes :=   (* stack: innermost first *)
  match elems with
  | [] => stack
  | e :: r =>
      if (zlen e =? 0) || is_dot e then clean_elems rooted stack r
      else if is_dotdot e then
        match stack with
        | top :: st' => if is_dotdot top then clean_elems rooted (e :: stack) r else clean_elems rooted st' r
        | [] => if rooted then clean_elems rooted [] r else clean_elems rooted [e] r
        end
      else clean_elems rooted (e :: stack) r
  end.
Definition path_clean (p : bytes) : bytes :=
  match p with
  | [] => [DOT]
  | c :: _ =>
      let rooted := c =? SLASH in
      let out := join_with SLASH (rev (clean_elems rooted [] (split_on SLASH p))) in
      if rooted then SLASH :: out else match out with [] => [DOT] | _ => out end
  end.
(* Join: empty elements are ignored, the result is cleaned; the empty string if there is nothing to join *)
Definition path_join (elems : list bytes) : bytes :=
  match filter (fun e => negb (zlen e =? 0)) elems with
  | [] => []
  | ne => path_clean (join_with SLASH ne)
  end.
(* Base: trailing slashes removed, then the last element; "." for the empty path, "/" for slashes only *)
Fixpoint drop_slashes (rs : bytes) : bytes :=
  match rs with c :: r => if c =? SLASH then drop_slashes r else rs | [] => [] end.
Definition path_base (p : bytes) : bytes :=
  match p with
  | [] => [DOT]
  | _ => match last (split_on SLASH (rev (drop_slashes (rev p)))) [] with
         | [] => [SLASH]
         | b => b
         end
  end.
(* Dir: everything up to and including the final slash, cleaned *)
Fixpoint keep_from_slash (rs : bytes) : bytes :=
  match rs with c :: r => if c =? SLASH then rs else keep_from_slash r | [] => [] end.
Definition path_dir (p : bytes) : bytes := path_clean (rev (keep_from_slash (rev p))).

(* map[string]string with "" as the zero value; insertion order kept *)
Definition assoc := list (bytes * bytes).
Fixpoint aget (m : assoc) (k : bytes) : bytes :=
  match m with [] => [] | (k', v) :: r => if bytes_eqb k' k then v else aget r k end.
Fixpoint ahas (m : assoc) (k : bytes) : bool :=
  match m with [] => false | (k', _) :: r => bytes_eqb k' k || ahas r k end.
Fixpoint aset (m : assoc) (k v : bytes) : assoc :=
  match m with
  | [] => [(k, v)]
  | (k', v') :: r => if bytes_eqb k' k then (k, v) :: r else (k', v') :: aset r k v
  end.
Definition akeys (m : assoc) : list bytes := map fst m.

(* sort.Strings (bytewise order; the result does not depend on the algorithm) *)
Fixpoint bytes_leb (a b : bytes) : bool :=
  match a, b with
  | [], _ => true
  | _ :: _, [] => false
  | x :: a', y :: b' => (x <? y) || ((x =? y) && bytes_leb a' b')
  end.
Fixpoint sins (k : bytes) (l : list bytes) : list bytes :=
  match l with [] => [k] | x :: r => if bytes_leb k x then k :: l else x :: sins k r end.
Definition ssort (l : list bytes) : list bytes := fold_right sins [] l.

Lemma has_prefix_app p x : has_prefix (p ++ x) p = true.
Proof. induction p as [|c p IH]; [reflexivity|]. cbn. rewrite Z.eqb_refl. exact IH. Qed.
Lemma has_prefix_split s p : has_prefix s p = true -> exists x, s = p ++ x.
Proof.
  revert s; induction p as [|c p IH]; intros s H; [exists s; reflexivity|].
  destruct s as [|y s]; [discriminate|]. cbn in H. apply andb_true_iff in H as [H1 H2].
  apply Z.eqb_eq in H1. subst y. destruct (IH _ H2) as [x ->]. exists x. reflexivity.
Qed.

Lemma index_byte_range s c : -1 <= index_byte s c < zlen s.
Proof.
  induction s as [|x r IH]; [cbn; lia|]. cbn [index_byte]. rewrite zlen_cons.
  destruct (x =? c); [pose proof (zlen_nonneg r); lia|]. destruct (index_byte r c <? 0) eqn:E; lia.
Qed.
Lemma index_byte_le s c : index_byte s c <= zlen s.
Proof. pose proof (index_byte_range s c). lia. Qed.
Lemma index_byte_ge s c : -1 <= index_byte s c.
Proof. apply index_byte_range. Qed.
Lemma index_byte_none s c : has_byte c s = false -> index_byte s c = -1.
Proof.
  induction s as [|x r IH]; [reflexivity|]. cbn. intros H. apply orb_false_iff in H as [H1 H2].
  rewrite H1, (IH H2). reflexivity.
Qed.
(* the first occurrence: s = a ++ c :: b with no c in a *)
Lemma index_byte_first a c b : has_byte c a = false -> index_byte (a ++ c :: b) c = zlen a.
Proof.
  induction a as [|x a IH]; intros H.
  - cbn. rewrite Z.eqb_refl. reflexivity.
  - cbn in H. apply orb_false_iff in H as [H1 H2]. cbn [app index_byte]. rewrite H1, (IH H2), zlen_cons.
    destruct (zlen a <? 0) eqn:E; [pose proof (zlen_nonneg a); lia|lia].
Qed.

(* before the first occurrence, and without one *)
Lemma index_byte_prefix_clean s c : 0 <= index_byte s c -> has_byte c (ztake (index_byte s c) s) = false.
Proof.
  induction s as [|x s IH]; intros Hi; [reflexivity|]. cbn [index_byte] in *. destruct (x =? c) eqn:E; [reflexivity|].
  destruct (index_byte s c <? 0) eqn:En; [lia|]. assert (0 <= index_byte s c) by lia.
  unfold ztake. replace (Z.to_nat (index_byte s c + 1)) with (S (Z.to_nat (index_byte s c))) by lia. cbn [firstn]. unfold has_byte. cbn [existsb]. rewrite E. cbn [orb].
  apply IH. assumption.
Qed.
Lemma index_byte_neg s c : index_byte s c < 0 -> has_byte c s = false.
Proof.
  induction s as [|x s IH]; [reflexivity|]. cbn [index_byte]. destruct (x =? c) eqn:E; [lia|]. destruct (index_byte s c <? 0) eqn:En; [|lia].
  intros _. unfold has_byte. cbn [existsb]. rewrite E. apply IH. lia.
Qed.
Lemma split_on_nonempty c s : split_on c s <> [].
Proof. destruct s as [|x r]; cbn; [discriminate|]. destruct (x =? c); [discriminate|]. destruct (split_on c r); discriminate. Qed.
Lemma split_on_rev_cons c s : exists e r, rev (split_on c s) = e :: r.
Proof.
  pose proof (split_on_nonempty c s) as Hn. destruct (rev (split_on c s)) as [|e r] eqn:Er; [|eauto].
  exfalso. apply Hn. rewrite <- (rev_involutive (split_on c s)), Er. reflexivity.
Qed.
Lemma split_on_free c s : Forall (fun e => has_byte c e = false) (split_on c s).
Proof.
  induction s as [|x r IH]; [repeat constructor|]. cbn [split_on]. destruct (x =? c) eqn:E; [constructor; [reflexivity|exact IH]|].
  pose proof (split_on_nonempty c r) as Hn. destruct (split_on c r) as [|h t]; [contradiction|]. inversion IH; subst. constructor; [|assumption].
  unfold has_byte. cbn [existsb]. rewrite E. assumption.
Qed.
Lemma split_on_no c s : has_byte c s = false -> split_on c s = [s].
Proof.
  induction s as [|x r IH]; [reflexivity|]. cbn. intros H. apply orb_false_iff in H as [H1 H2].
  rewrite H1, (IH H2). reflexivity.
Qed.
Lemma split_on_cons_sep c b : split_on c (c :: b) = [] :: split_on c b.
Proof. cbn. rewrite Z.eqb_refl. reflexivity. Qed.
Lemma split_on_app_sep c a b : split_on c (a ++ c :: b) = split_on c a ++ split_on c b.
Proof.
  induction a as [|x a IH]; [apply split_on_cons_sep|]. cbn [app split_on]. rewrite IH. destruct (x =? c); [reflexivity|].
  pose proof (split_on_nonempty c a) as Hn. destruct (split_on c a) as [|h t]; [contradiction|]. reflexivity.
Qed.
Lemma split_on_app c a b : has_byte c a = false -> split_on c (a ++ c :: b) = a :: split_on c b.
Proof. intros H. rewrite split_on_app_sep, (split_on_no c a H). reflexivity. Qed.
Lemma split_join c l : l <> [] -> Forall (fun e => has_byte c e = false) l -> split_on c (join_with c l) = l.
Proof.
  induction l as [|a l IH]; intros Hn Hf; [contradiction|]. inversion Hf as [|? ? Ha Hl]; subst.
  destruct l as [|b l]; [cbn; apply split_on_no; exact Ha|].
  change (join_with c (a :: b :: l)) with (a ++ c :: join_with c (b :: l)).
  rewrite split_on_app by exact Ha. rewrite IH by (try discriminate; assumption). reflexivity.
Qed.
Lemma join_split c s : join_with c (split_on c s) = s.
Proof.
  induction s as [|x r IH]; [reflexivity|]. cbn [split_on].
  destruct (x =? c) eqn:E.
  - apply Z.eqb_eq in E. subst x. pose proof (split_on_nonempty c r) as Hn.
    destruct (split_on c r) as [|h t] eqn:Es; [contradiction|]. cbn [join_with app]. cbn [join_with] in IH. rewrite IH. reflexivity.
  - pose proof (split_on_nonempty c r) as Hn. destruct (split_on c r) as [|h t] eqn:Es; [contradiction|].
    destruct t as [|h2 t]; cbn [join_with] in *; [rewrite IH; reflexivity|]. cbn [app]. rewrite IH. reflexivity.
Qed.
Lemma has_byte_app c a b : has_byte c (a ++ b) = has_byte c a || has_byte c b.
Proof. unfold has_byte. apply existsb_app. Qed.
Lemma join_app c l1 l2 : l1 <> [] -> l2 <> [] -> join_with c (l1 ++ l2) = join_with c l1 ++ c :: join_with c l2.
Proof.
  induction l1 as [|a l1 IH]; intros H1 H2; [contradiction|].
  destruct l1 as [|b l1].
  - destruct l2 as [|x l2]; [contradiction|]. reflexivity.
  - change ((a :: b :: l1) ++ l2) with (a :: (b :: l1) ++ l2).
    change (join_with c (a :: (b :: l1) ++ l2)) with (a ++ c :: join_with c ((b :: l1) ++ l2)).
    rewrite IH by (try discriminate; assumption).
    change (join_with c (a :: b :: l1)) with (a ++ c :: join_with c (b :: l1)). rewrite <- app_assoc. reflexivity.
Qed.

(* a normal element: not empty, not "." and not ".." *)
Definition normal (e : bytes) : bool := negb (zlen e =? 0) && negb (is_dot e) && negb (is_dotdot e).
Lemma clean_elems_app rooted st l1 l2 : clean_elems rooted st (l1 ++ l2) = clean_elems rooted (clean_elems rooted st l1) l2.
Proof.
  revert st; induction l1 as [|e l1 IH]; intros st; [reflexivity|]. cbn [app clean_elems].
  destruct ((zlen e =? 0) || is_dot e); [apply IH|].
  destruct (is_dotdot e); [|apply IH].
  destruct st as [|top st']; [destruct rooted; apply IH|]. destruct (is_dotdot top); apply IH.
Qed.
Lemma clean_elems_normal rooted st l : Forall (fun e => normal e = true) l -> clean_elems rooted st l = rev l ++ st.
Proof.
  revert st; induction l as [|e l IH]; intros st H; [reflexivity|]. inversion H as [|? ? He Hl]; subst.
  unfold normal in He. apply andb_true_iff in He as [He H3]. apply andb_true_iff in He as [H1 H2].
  cbn [clean_elems]. apply negb_true_iff in H1, H2, H3. rewrite H1, H2, H3. cbn [orb].
  rewrite IH by exact Hl. cbn [rev]. rewrite <- app_assoc. reflexivity.
Qed.
(* a path made of normal elements (relative, no trailing slash) *)
Definition npath (l : list bytes) : Prop := l <> [] /\ Forall (fun e => normal e = true /\ has_byte SLASH e = false) l.
Lemma npath_normal l : npath l -> Forall (fun e => normal e = true) l.
Proof. intros [_ H]. eapply Forall_impl; [|exact H]. intros e [A _]. exact A. Qed.
Lemma npath_noslash l : npath l -> Forall (fun e => has_byte SLASH e = false) l.
Proof. intros [_ H]. eapply Forall_impl; [|exact H]. intros e [_ A]. exact A. Qed.
Lemma join_nonempty l : npath l -> join_with SLASH l <> [].
Proof.
  intros [Hn Hf]. destruct l as [|a l]; [contradiction|]. inversion Hf as [|? ? [Ha _] _]; subst.
  unfold normal in Ha. destruct a as [|x a]; [cbn in Ha; discriminate|]. destruct l; cbn; discriminate.
Qed.
Lemma join_head_not_slash l : npath l -> exists x r, join_with SLASH l = x :: r /\ (x =? SLASH) = false.
Proof.
  intros [Hn Hf]. destruct l as [|a l]; [contradiction|]. inversion Hf as [|? ? [Ha Hs] _]; subst.
  destruct a as [|x a]; [cbn in Ha; discriminate|]. cbn in Hs. apply orb_false_iff in Hs as [Hx _].
  exists x. destruct l; cbn [join_with app]; eexists; (split; [reflexivity|exact Hx]).
Qed.
Lemma split_join_npath l : npath l -> split_on SLASH (join_with SLASH l) = l.
Proof. intros H. apply split_join; [exact (proj1 H)|apply npath_noslash; exact H]. Qed.
Lemma path_clean_rel p x r : p = x :: r -> (x =? SLASH) = false ->
  path_clean p = match join_with SLASH (rev (clean_elems false [] (split_on SLASH p))) with [] => [DOT] | o => o end.
Proof. intros -> H. unfold path_clean. rewrite H. destruct (join_with SLASH _); reflexivity. Qed.
Lemma clean_npath l : npath l -> path_clean (join_with SLASH l) = join_with SLASH l.
Proof.
  intros H. destruct (join_head_not_slash l H) as [x [r [E Hx]]]. rewrite (path_clean_rel _ x r E Hx), split_join_npath by exact H.
  rewrite clean_elems_normal by (apply npath_normal; exact H). rewrite app_nil_r, rev_involutive, E. reflexivity.
Qed.
Lemma clean_trailing_slash_npath l : npath l -> path_clean (join_with SLASH l ++ [SLASH]) = join_with SLASH l.
Proof.
  intros H. destruct (join_head_not_slash l H) as [x [r [E Hx]]].
  rewrite (path_clean_rel _ x (r ++ [SLASH])) by (first [rewrite E; reflexivity|exact Hx]).
  rewrite split_on_app_sep, split_join_npath, clean_elems_app, (clean_elems_normal false [] l) by (first [exact H|apply npath_normal; exact H]).
  cbn [split_on clean_elems zlen length Z.of_nat Z.eqb orb]. rewrite app_nil_r, rev_involutive, E. reflexivity.
Qed.
Lemma clean_rooted_npath l : npath l -> path_clean (SLASH :: join_with SLASH l) = SLASH :: join_with SLASH l.
Proof.
  intros H. unfold path_clean. change (SLASH =? SLASH) with true. cbv iota.
  rewrite split_on_cons_sep. rewrite split_join_npath by exact H.
  cbn [clean_elems zlen length Z.of_nat Z.eqb orb]. rewrite clean_elems_normal by (apply npath_normal; exact H).
  rewrite app_nil_r, rev_involutive. reflexivity.
Qed.
(* "./" ++ "/" ++ p : what Find makes of the Target Append wrote, and what checkManifest makes of a Reference URI *)
Lemma clean_dot_slash_slash_npath l : npath l -> path_clean (DOT :: SLASH :: SLASH :: join_with SLASH l) = join_with SLASH l.
Proof.
  intros H. unfold path_clean. change (DOT =? SLASH) with false. cbv iota.
  change (DOT :: SLASH :: SLASH :: join_with SLASH l) with ([DOT] ++ SLASH :: ([] ++ SLASH :: join_with SLASH l)).
  rewrite split_on_app by reflexivity. rewrite split_on_app by reflexivity.
  rewrite split_join_npath by exact H.
  change (clean_elems false [] ([DOT] :: [] :: l)) with (clean_elems false [] l).
  rewrite clean_elems_normal by (apply npath_normal; exact H). rewrite app_nil_r, rev_involutive.
  destruct (join_with SLASH l) eqn:E; [exfalso; exact (join_nonempty l H E)|reflexivity].
Qed.
Lemma npath_app l1 l2 : npath l1 -> npath l2 -> npath (l1 ++ l2).
Proof.
  intros [N1 F1] [N2 F2]. split; [destruct l1; [contradiction|discriminate]|]. apply Forall_app. split; assumption.
Qed.
Lemma join_zlen l : npath l -> (zlen (join_with SLASH l) =? 0) = false.
Proof.
  intros H. pose proof (join_nonempty l H). destruct (join_with SLASH l) as [|x t]; [contradiction|]. rewrite zlen_cons. pose proof (zlen_nonneg t). lia.
Qed.
Lemma path_join2_npath l1 e : npath l1 -> npath [e] -> path_join [join_with SLASH l1; e] = join_with SLASH (l1 ++ [e]).
Proof.
  intros H1 H2. unfold path_join. cbn [filter]. rewrite (join_zlen l1 H1), (join_zlen [e] H2 : (zlen e =? 0) = false). cbn [negb].
  change (join_with SLASH [join_with SLASH l1; e]) with (join_with SLASH l1 ++ SLASH :: join_with SLASH [e]).
  rewrite <- join_app by (first [exact (proj1 H1)|discriminate]). apply clean_npath. apply npath_app; assumption.
Qed.

Lemma path_ext_suffix p : exists a, p = a ++ path_ext p.
Proof.
  induction p as [|c r [a IH]]; [exists []; reflexivity|]. cbn [path_ext].
  destruct (path_ext r) as [|e0 e] eqn:E.
  - destruct ((c =? DOT) && negb (has_byte SLASH r)); [exists []; reflexivity|exists (c :: r); rewrite app_nil_r; reflexivity].
  - exists (c :: a). cbn [app]. f_equal. exact IH.
Qed.
Lemma path_ext_nil_nodot r : path_ext r = [] -> has_byte SLASH r = false -> has_byte DOT r = false.
Proof.
  induction r as [|x r IH]; intros He Hs; [reflexivity|].
  cbn [path_ext] in He. unfold has_byte in Hs. cbn [existsb] in Hs. apply orb_false_iff in Hs as [Hs1 Hs2]. fold (has_byte SLASH r) in Hs2.
  destruct (path_ext r) eqn:E; [|discriminate]. rewrite Hs2 in He. cbn [negb] in He. rewrite andb_true_r in He.
  destruct (x =? DOT) eqn:Ex; [discriminate|]. unfold has_byte. cbn [existsb]. rewrite Ex. cbn [orb]. apply IH; [reflexivity|exact Hs2].
Qed.
Lemma path_ext_head p : path_ext p = [] \/ exists r, path_ext p = DOT :: r /\ has_byte SLASH r = false /\ has_byte DOT r = false.
Proof.
  induction p as [|c r IH]; [left; reflexivity|]. cbn [path_ext].
  destruct IH as [IH|[t [IH [H1 H2]]]].
  - rewrite IH. destruct (c =? DOT) eqn:Ec; cbn [andb]; [|left; reflexivity].
    destruct (has_byte SLASH r) eqn:Es; cbn [negb]; [left; reflexivity|]. right. apply Z.eqb_eq in Ec. subst c. exists r.
    split; [reflexivity|]. split; [exact Es|]. apply path_ext_nil_nodot; assumption.
  - rewrite IH. right. exists t. split; [reflexivity|]. split; assumption.
Qed.
Lemma path_ext_index_ok p : bytes_eqb (path_ext p) [] = false -> index_ok 0 (zlen (path_ext p)) = true /\ slice_ok 1 (zlen (path_ext p)) (zlen (path_ext p)) = true.
Proof.
  intros H. destruct (path_ext p) as [|x e]; [discriminate|]. rewrite zlen_cons. pose proof (zlen_nonneg e).
  unfold index_ok, slice_ok. split; lia.
Qed.
(* the extension of  a ++ e  where e is the last element (no slash in it) *)
Lemma path_ext_noslash_app a e : has_byte SLASH e = false -> path_ext e <> [] -> path_ext (a ++ e) = path_ext e.
Proof.
  intros Hs Hne. induction a as [|c a IH]; [reflexivity|]. cbn [app path_ext]. rewrite IH.
  destruct (path_ext e); [contradiction|reflexivity].
Qed.
Lemma path_ext_dot_tail e t : has_byte SLASH t = false -> has_byte DOT t = false -> path_ext (e ++ DOT :: t) = DOT :: t.
Proof.
  intros Hs Hd.
  assert (T : path_ext t = []).
  { clear Hs. induction t as [|x t IHt]; [reflexivity|]. cbn in Hd. apply orb_false_iff in Hd as [H1 H2]. cbn [path_ext]. rewrite (IHt H2), H1. reflexivity. }
  assert (B : path_ext (DOT :: t) = DOT :: t).
  { cbn [path_ext]. rewrite T, Hs. reflexivity. }
  induction e as [|c e IH]; [exact B|]. cbn [app path_ext]. rewrite IH. reflexivity.
Qed.

Lemma aget_aset_same m k v : aget (aset m k v) k = v.
Proof.
  induction m as [|[k' v'] m IH]; cbn; [rewrite bytes_eqb_refl; reflexivity|].
  destruct (bytes_eqb k' k) eqn:E; cbn; [rewrite bytes_eqb_refl; reflexivity|rewrite E; exact IH].
Qed.
Lemma aget_aset_other m k v k2 : k2 <> k -> aget (aset m k v) k2 = aget m k2.
Proof.
  intros Hn. induction m as [|[k' v'] m IH]; cbn.
  - assert (E : bytes_eqb k k2 = false) by (apply bytes_eqb_neq; congruence). rewrite E. reflexivity.
  - destruct (bytes_eqb k' k) eqn:E; cbn.
    + apply bytes_eqb_eq in E. subst k'. assert (E2 : bytes_eqb k k2 = false) by (apply bytes_eqb_neq; congruence). rewrite E2. reflexivity.
    + destruct (bytes_eqb k' k2); [reflexivity|exact IH].
Qed.
Lemma ahas_aset m k v k2 : ahas (aset m k v) k2 = bytes_eqb k k2 || ahas m k2.
Proof.
  induction m as [|[k' v'] m IH]; cbn; [rewrite orb_false_r; reflexivity|].
  destruct (bytes_eqb k' k) eqn:E; cbn.
  - apply bytes_eqb_eq in E. subst k'. destruct (bytes_eqb k k2); reflexivity.
  - rewrite IH. destruct (bytes_eqb k' k2), (bytes_eqb k k2); reflexivity.
Qed.
Lemma ahas_in m k : ahas m k = true <-> In k (akeys m).
Proof.
  induction m as [|[k' v'] m IH]; cbn; [split; [discriminate|contradiction]|].
  rewrite orb_true_iff, IH, bytes_eqb_eq. reflexivity.
Qed.
Lemma aget_entry m k : ahas m k = true -> In (k, aget m k) m.
Proof.
  induction m as [|[k' v] m IH]; cbn; [discriminate|]. destruct (bytes_eqb k' k) eqn:E; cbn [orb].
  - intros _. left. apply bytes_eqb_eq in E. subst k'. reflexivity.
  - intros H. right. exact (IH H).
Qed.
Lemma akeys_aset_nodup m k v : NoDup (akeys m) -> NoDup (akeys (aset m k v)).
Proof.
  induction m as [|[k' v'] m IH]; intros H; cbn; [constructor; [intros []|constructor]|].
  inversion H as [|? ? Hni Hnd]; subst. destruct (bytes_eqb k' k) eqn:E; cbn.
  - apply bytes_eqb_eq in E. subst k'. constructor; assumption.
  - constructor; [|apply IH; exact Hnd]. intros Hin. apply ahas_in in Hin. rewrite ahas_aset in Hin.
    apply orb_true_iff in Hin as [Hin|Hin]; [apply bytes_eqb_eq in Hin; subst; rewrite bytes_eqb_refl in E; discriminate|apply ahas_in in Hin; contradiction].
Qed.

Lemma sins_perm k l : Permutation (k :: l) (sins k l).
Proof.
  induction l as [|x r IH]; [apply Permutation_refl|]. cbn. destruct (bytes_leb k x); [apply Permutation_refl|].
  eapply perm_trans; [apply perm_swap|]. apply perm_skip. exact IH.
Qed.
Lemma ssort_perm l : Permutation l (ssort l).
Proof.
  induction l as [|x r IH]; [apply Permutation_refl|]. cbn. eapply perm_trans; [|apply sins_perm]. apply perm_skip. exact IH.
Qed.
Lemma ssort_in l x : In x (ssort l) <-> In x l.
Proof. split; intros H; [eapply Permutation_in; [apply Permutation_sym, ssort_perm|exact H]|eapply Permutation_in; [apply ssort_perm|exact H]]. Qed.
Lemma ssort_nodup l : NoDup l -> NoDup (ssort l).
Proof. intros H. eapply Permutation_NoDup; [apply ssort_perm|exact H]. Qed.
Lemma bytes_leb_total a b : bytes_leb a b = false -> bytes_leb b a = true.
Proof.
  revert b; induction a as [|x a IH]; intros [|y b]; cbn; try discriminate; try reflexivity. intros H.
  apply orb_false_iff in H as [H1 H2]. destruct (y <? x) eqn:E; [reflexivity|]. cbn.
  assert (x = y) by lia. subst y. rewrite Z.eqb_refl in *. cbn in *. apply IH. exact H2.
Qed.
Lemma bytes_leb_trans a b c : bytes_leb a b = true -> bytes_leb b c = true -> bytes_leb a c = true.
Proof.
  revert b c; induction a as [|x a IH]; intros [|y b] [|z c]; cbn; try discriminate; try reflexivity. intros H1 H2.
  apply orb_true_iff in H1, H2. apply orb_true_iff.
  destruct H1 as [H1|H1], H2 as [H2|H2].
  - left. lia.
  - apply andb_true_iff in H2 as [H2 _]. left. lia.
  - apply andb_true_iff in H1 as [H1 _]. left. lia.
  - apply andb_true_iff in H1 as [H1 H1']. apply andb_true_iff in H2 as [H2 H2']. right. apply andb_true_iff. split; [lia|]. eapply IH; eassumption.
Qed.
Definition leb_prop (a b : bytes) : Prop := bytes_leb a b = true.
Lemma sins_sorted k l : Sorted leb_prop l -> Sorted leb_prop (sins k l).
Proof.
  induction l as [|x r IH]; intros H; cbn; [repeat constructor|]. destruct (bytes_leb k x) eqn:E.
  - constructor; [exact H|constructor; exact E].
  - inversion H as [|? ? Hs Hh]; subst. constructor; [apply IH; exact Hs|].
    destruct r as [|y r]; cbn; [constructor; apply bytes_leb_total; exact E|].
    destruct (bytes_leb k y); constructor; [apply bytes_leb_total; exact E|inversion Hh; assumption].
Qed.
Lemma ssort_sorted l : Sorted leb_prop (ssort l).
Proof. induction l as [|x r IH]; cbn; [constructor|apply sins_sorted; exact IH]. Qed.
