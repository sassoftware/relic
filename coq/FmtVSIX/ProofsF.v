(* FmtVSIX/ProofsF.v — the regenerated content types stream, read by the specification's look-up (10.1.2.4). *)
From Relic Require Import Base.Prelude Base.Lists Base.Slice FmtVSIX.Lib Generated.FmtVSIX_gen FmtVSIX.Model FmtVSIX.ProofsA FmtVSIX.ProofsB FmtVSIX.ProofsC.
From Relic Require Generated.C19_gen C19.Model.

Lemma find_exists {A} (f : A -> bool) l x : In x l -> f x = true -> exists y, find f l = Some y.
Proof.
  induction l as [|a l IH]; intros Hin Hf; [destruct Hin|]. cbn [find]. destruct (f a) eqn:E; [eexists; reflexivity|].
  destruct Hin as [->|Hin]; [congruence|]. exact (IH Hin Hf).
Qed.
Lemma in_map_filter {A B} (g : A -> B) f l y : In y (map g (filter f l)) -> In y (map g l).
Proof. intros Hin. apply in_map_iff in Hin as [x [E Hx]]. apply filter_In in Hx as [Hx _]. apply in_map_iff. exists x. split; assumption. Qed.
Lemma ieq_refl a : ieq a a = true. Proof. unfold ieq. apply bytes_eqb_refl. Qed.
Lemma aget_none m k : ahas m k = false -> aget m k = [].
Proof. induction m as [|[k' v] m IH]; [reflexivity|]. cbn. destruct (bytes_eqb k' k); [discriminate|exact IH]. Qed.
Lemma aget_nonempty_has m k : aget m k <> [] -> ahas m k = true.
Proof. intros Hn. destruct (ahas m k) eqn:E; [reflexivity|]. contradiction Hn. apply aget_none. exact E. Qed.
Lemma sorted_entries_in m k : ahas m k = true -> In (k, aget m k) (sorted_entries m).
Proof. intros Hh. unfold sorted_entries. apply in_map_iff. exists k. split; [reflexivity|]. apply ssort_in. apply ahas_in. exact Hh. Qed.
Lemma find_sorted_has m K : ahas m K = true -> exists y, find (fun o : bytes * bytes => ieq (fst o) K) (sorted_entries m) = Some y.
Proof. intros Hh. exact (find_exists _ _ _ (sorted_entries_in m K Hh) (ieq_refl K)). Qed.
Lemma ahas_aset_all m l k : ahas m k = true -> ahas (aset_all m l) k = true.
Proof.
  unfold aset_all. revert m. induction l as [|[k' v'] l IH]; intros m Hh; [exact Hh|]. cbn [fold_left fst snd]. apply IH. rewrite ahas_aset, Hh. apply orb_true_r.
Qed.
Lemma ahas_aset_all_new m l k v : In (k, v) l -> ahas (aset_all m l) k = true.
Proof.
  unfold aset_all. revert m. induction l as [|[k' v'] l IH]; intros m Hin; [destruct Hin|]. cbn [fold_left fst snd].
  destruct Hin as [E|Hin]; [injection E as -> ->; apply (ahas_aset_all (aset m k v) l); rewrite ahas_aset, bytes_eqb_refl; reflexivity|exact (IH _ Hin)].
Qed.
Lemma aget_aset_all_other m l k : ~ In k (map fst l) -> aget (aset_all m l) k = aget m k.
Proof.
  unfold aset_all. revert m. induction l as [|[a b] l IH]; intros m Hn; [reflexivity|]. cbn [fold_left fst snd]. rewrite IH by (intros Hc; apply Hn; right; exact Hc).
  apply aget_aset_other. intros ->. apply Hn. left. reflexivity.
Qed.
Lemma aget_aset_all_last m l k v : NoDup (map fst l) -> In (k, v) l -> aget (aset_all m l) k = v.
Proof.
  revert m. induction l as [|[k' v'] l IH]; intros m Hnd Hin; [destruct Hin|]. inversion Hnd as [|? ? Hni Hnd']; subst.
  destruct Hin as [E|Hin]; [|exact (IH _ Hnd' Hin)]. injection E as -> ->.
  change (aset_all m ((k, v) :: l)) with (aset_all (aset m k v) l). rewrite aget_aset_all_other by exact Hni. apply aget_aset_same.
Qed.
Lemma akeys_aset_all m l k : In k (akeys (aset_all m l)) -> In k (akeys m) \/ In k (map fst l).
Proof.
  unfold aset_all. revert m. induction l as [|[k' v'] l IH]; intros m Hin; [left; exact Hin|]. cbn [fold_left fst snd] in Hin.
  destruct (IH _ Hin) as [H1|H1]; [|right; right; exact H1]. apply ahas_in in H1. rewrite ahas_aset in H1. apply orb_true_iff in H1 as [H1|H1].
  - apply bytes_eqb_eq in H1. subst k'. right. left. reflexivity.
  - left. apply ahas_in. exact H1.
Qed.

(* Go's path.Ext of the base name and the specification's "characters after the last dot of the last segment" agree on names whose last segment is not empty *)
Lemma spec_extension_of_ext n k : last_segment n <> [] -> path_ext (path_base n) = DOT :: k -> spec_extension n = Some k.
Proof.
  intros Hne He. rewrite path_base_last_segment in He by exact Hne. unfold spec_extension. fold (last_segment n).
  destruct (path_ext_suffix (last_segment n)) as [a Ha]. rewrite He in Ha.
  destruct (path_ext_head (last_segment n)) as [E|[t [E [_ Hd]]]]; [congruence|]. rewrite He in E. injection E as <-.
  rewrite Ha, split_on_app_sep, (split_on_no DOT k Hd), rev_app_distr. cbn [rev app].
  destruct (split_on_rev_cons DOT a) as [x [xs Er]]. rewrite Er. reflexivity.
Qed.

(* C03 / C05: whatever relic found a type for, a reader that follows 10.1.2.4 finds a type for in the regenerated stream (Overrides first, then the
   extension, both ignoring ASCII case) *)
Lemma ct_find_implies_spec ct hc n : last_segment n <> [] -> vsix_ct_find (ct_ovr ct) (ct_ext ct) n <> [] ->
  exists t, spec_ct_of (ct_doc_of (new_ctypes ct hc)) n = Some t.
Proof.
  intros Hne Hf. unfold spec_ct_of, ct_doc_of. cbn [fst snd new_ctypes ct_ovr ct_ext].
  destruct (find (fun o => ieq (fst o) (SLASH :: n)) (sorted_entries (ct_ovr ct))) as [o|] eqn:Eo; [eexists; reflexivity|].
  destruct (ct_find_cases (ct_ovr ct) (ct_ext ct) n) as [E|[[Ho _]|[_ [k [E [Hk _]]]]]]; [contradiction| |].
  - destruct (find_sorted_has _ _ (aget_nonempty_has _ _ Ho)) as [y Hy]. congruence.
  - rewrite (spec_extension_of_ext n k Hne E).
    destruct (find_sorted_has _ k (ahas_aset_all _ (filter (fun e => negb (vsix_newct_skip (fst e) hc)) vsix_content_types) _ (aget_nonempty_has _ _ Hk))) as [y Hy].
    rewrite Hy. eexists. reflexivity.
Qed.
(* the parts sign adds get the content types the specification gives them, unless the package declared a case variant of one of relic's extensions *)
Definition no_variant (ct : ctab) : Prop :=
  forall k, In k (akeys (ct_ext ct)) -> forall e, In e (akeys vsix_content_types) -> ieq k e = true -> k = e.
Definition lower_table (m : assoc) : Prop := forall k, In k (akeys m) -> has_upper k = false.
Lemma content_types_lower : lower_table vsix_content_types.
Proof. unfold lower_table. apply Forall_forall. repeat constructor. Qed.
Lemma content_types_nodup : NoDup (akeys vsix_content_types).
Proof. apply (NoDup_map_inv (@length Z)). vm_compute. repeat constructor; cbn; intuition discriminate. Qed.      (* their lengths differ *)
Lemma new_part_type ct hc n e : no_variant ct -> ahas vsix_content_types e = true -> vsix_newct_skip e hc = false ->
  last_segment n <> [] -> path_ext (path_base n) = DOT :: e ->
  find (fun o => ieq (fst o) (SLASH :: n)) (sorted_entries (ct_ovr ct)) = None ->
  spec_ct_of (ct_doc_of (new_ctypes ct hc)) n = Some (aget vsix_content_types e).
Proof.
  intros Hnv Hhas Hskip Hne He Hov. unfold spec_ct_of, ct_doc_of. cbn [fst snd new_ctypes ct_ovr ct_ext]. rewrite Hov. rewrite (spec_extension_of_ext n e Hne He).
  pose proof (aget_entry _ _ Hhas) as Hin. set (t := aget vsix_content_types e) in *.
  set (L := filter (fun x => negb (vsix_newct_skip (fst x) hc)) vsix_content_types).
  assert (HinL : In (e, t) L) by (apply filter_In; split; [exact Hin|cbn [fst]; rewrite Hskip; reflexivity]).
  set (M := aset_all (ct_ext ct) L).
  assert (NdL : NoDup (map fst L)) by (apply NoDup_map_filter; exact content_types_nodup).
  assert (Hv : aget M e = t) by (apply aget_aset_all_last; assumption).
  assert (Hh : ahas M e = true) by (eapply ahas_aset_all_new; exact HinL).
  destruct (find (fun x => ieq (fst x) e) (sorted_entries M)) as [[k v]|] eqn:Ef.
  - apply find_some in Ef as [Hin' Hieq]. cbn [fst] in Hieq. unfold sorted_entries in Hin'. apply in_map_iff in Hin' as [k0 [E0 Hk0]]. injection E0 as <- <-.
    apply (proj1 (ssort_in _ _)) in Hk0.
    assert (k0 = e); [|subst k0; rewrite Hv; reflexivity].
    destruct (akeys_aset_all _ _ _ Hk0) as [Hold|Hnew].
    + apply (Hnv k0 Hold e); [|exact Hieq]. apply (in_map fst) in Hin. exact Hin.
    + (* both are keys of relic's table, all lower case *)
      rewrite ieq_noupper in Hieq by (apply content_types_lower; first [exact (in_map_filter _ _ _ _ Hnew)|exact (in_map fst _ _ Hin)]).
      apply bytes_eqb_eq in Hieq. exact Hieq.
  - destruct (find_sorted_has M e Hh) as [y Hy]. congruence.
Qed.

(* on names and tables in one letter case the type written into a Reference URI is the type a 10.1.2.4 reader finds in the regenerated stream *)
Lemma find_exact_key (m : assoc) K L : (forall k, In k L -> has_upper k = false) -> has_upper K = false ->
  find (fun o : bytes * bytes => ieq (fst o) K) (map (fun k => (k, aget m k)) L) = if existsb (bytes_eqb K) L then Some (K, aget m K) else None.
Proof.
  intros HL HK. induction L as [|k L IH]; [reflexivity|]. cbn [map find existsb fst].
  rewrite (ieq_noupper k K (HL k (or_introl eq_refl)) HK). rewrite (bytes_eqb_sym K k).
  destruct (bytes_eqb k K) eqn:E; [apply bytes_eqb_eq in E; subst k; reflexivity|]. cbn [orb]. apply IH. intros x Hx. apply HL. right. exact Hx.
Qed.
Lemma find_sorted_exact m K : lower_table m -> has_upper K = false ->
  find (fun o : bytes * bytes => ieq (fst o) K) (sorted_entries m) = if ahas m K then Some (K, aget m K) else None.
Proof.
  intros Hm HK. unfold sorted_entries. rewrite find_exact_key by (first [intros k Hk; apply Hm; apply ssort_in; exact Hk|exact HK]).
  assert (E : existsb (bytes_eqb K) (ssort (akeys m)) = ahas m K).
  { apply eq_true_iff_eq. rewrite existsb_exists, ahas_in. split.
    - intros [x [Hx Ex]]. apply bytes_eqb_eq in Ex. subst x. apply ssort_in. exact Hx.
    - intros Hin. exists K. split; [apply ssort_in; exact Hin|apply bytes_eqb_refl]. }
  rewrite E. reflexivity.
Qed.
Lemma reference_type_eq_spec ct hc n : lower_table (ct_ovr ct) -> lower_table (ct_ext ct) -> has_upper n = false -> last_segment n <> [] ->
  vsix_ct_find (ct_ovr ct) (ct_ext ct) n <> [] ->
  (aget (ct_ovr ct) (SLASH :: n) = [] -> ahas (ct_ovr ct) (SLASH :: n) = false) ->
  (forall e, path_ext (path_base n) = DOT :: e -> ~ In e (akeys vsix_content_types)) ->
  spec_ct_of (ct_doc_of (new_ctypes ct hc)) n = Some (chosen_type (ct_ovr ct) (ct_ext ct) n) /\ chosen_type (ct_ovr ct) (ct_ext ct) n = vsix_ct_find (ct_ovr ct) (ct_ext ct) n.
Proof.
  intros Lo Le Hn Hne Hf Hempty Hres.
  assert (Ech : chosen_type (ct_ovr ct) (ct_ext ct) n = vsix_ct_find (ct_ovr ct) (ct_ext ct) n).
  { rewrite (chosen_type_of_uri _ _ n _ eq_refl). cbv zeta.
    assert (Eb : bytes_eqb (vsix_ct_find (ct_ovr ct) (ct_ext ct) n) [] = false) by (apply bytes_eqb_neq; exact Hf). rewrite Eb, Eb. reflexivity. }
  split; [|exact Ech]. rewrite Ech.
  unfold spec_ct_of, ct_doc_of. cbn [fst snd new_ctypes ct_ovr ct_ext].
  assert (Hsl : has_upper (SLASH :: n) = false) by (unfold has_upper; cbn [existsb]; exact Hn).
  rewrite (find_sorted_exact (ct_ovr ct) (SLASH :: n) Lo Hsl).
  destruct (ct_find_cases (ct_ovr ct) (ct_ext ct) n) as [E|[[Ho E]|[Ho [k [Ek [Hk E]]]]]]; [contradiction| |]; rewrite E.
  - rewrite (aget_nonempty_has _ _ Ho). reflexivity.
  - rewrite (Hempty Ho), (spec_extension_of_ext n k Hne Ek).
    set (L := filter (fun x => negb (vsix_newct_skip (fst x) hc)) vsix_content_types).
    pose proof (aget_nonempty_has _ _ Hk) as Hh.
    assert (LoM : lower_table (aset_all (ct_ext ct) L)).
    { intros x Hx. destruct (akeys_aset_all _ _ _ Hx) as [H1|H1]; [exact (Le x H1)|exact (content_types_lower x (in_map_filter _ _ _ _ H1))]. }
    rewrite (find_sorted_exact _ k LoM (Le k (proj1 (ahas_in _ _) Hh))), (ahas_aset_all (ct_ext ct) L k Hh).
    rewrite aget_aset_all_other by (intros Hc; exact (Hres k Ek (in_map_filter _ _ _ _ Hc))). reflexivity.
Qed.
