(* FmtVSIX/ProofsC.v — what sign produces: the kept members followed by the new parts; the digest table and the manifest. *)
From Relic Require Import Base.Prelude Base.Lists Base.Slice FmtVSIX.Lib Generated.FmtVSIX_gen FmtVSIX.Model FmtVSIX.ProofsA FmtVSIX.ProofsB.
From Relic Require Generated.C19_gen C19.Model.

Definition keepf (m : member) : bool := vsix_keep_file (fst m).
Definition names (p : package) : list bytes := map fst p.

(* files_get: the last member of a name *)
Lemma files_get_snoc p n0 c0 n : files_get (p ++ [(n0, c0)]) n = if bytes_eqb n0 n then Some c0 else files_get p n.
Proof. unfold files_get. rewrite rev_app_distr. cbn [rev app find fst snd]. destruct (bytes_eqb n0 n); reflexivity. Qed.
Lemma files_get_app_notin p t n : (forall m, In m t -> fst m <> n) -> files_get (p ++ t) n = files_get p n.
Proof.
  revert p. induction t as [|[n0 c0] t IH] using rev_ind; intros p Hn; [rewrite app_nil_r; reflexivity|].
  rewrite app_assoc, files_get_snoc.
  assert (E : bytes_eqb n0 n = false) by (apply bytes_eqb_neq; apply (Hn (n0, c0)); apply in_or_app; right; left; reflexivity).
  rewrite E. apply IH. intros m Hm. apply Hn. apply in_or_app. left. exact Hm.
Qed.
Lemma files_get_none p n : (forall m, In m p -> fst m <> n) -> files_get p n = None.
Proof. intros H. rewrite <- (app_nil_l p). rewrite files_get_app_notin by exact H. reflexivity. Qed.
Lemma files_get_in p n c : files_get p n = Some c -> In (n, c) p.
Proof.
  unfold files_get. intros Hc. destruct (find (fun m : bytes * bytes => bytes_eqb (fst m) n) (rev p)) as [[n' c']|] eqn:E; [|discriminate Hc].
  cbn [snd] in Hc. injection Hc as Hc. subst c'.
  apply find_some in E as [Hin Heq]. cbn in Heq. apply bytes_eqb_eq in Heq. subst n'. apply in_rev. exact Hin.
Qed.
Lemma files_get_filter p n : vsix_keep_file n = true -> files_get (filter keepf p) n = files_get p n.
Proof.
  intros Hk. induction p as [|[n0 c0] p IH] using rev_ind; [reflexivity|]. rewrite filter_app. cbn [filter]. unfold keepf at 2. cbn [fst].
  destruct (vsix_keep_file n0) eqn:E.
  - rewrite !files_get_snoc, IH. reflexivity.
  - rewrite app_nil_r, files_get_snoc, IH. assert (bytes_eqb n0 n = false) by (apply bytes_eqb_neq; intros ->; congruence). rewrite H. reflexivity.
Qed.
Lemma files_get_some_name p n : In n (names p) -> exists c, files_get p n = Some c.
Proof.
  induction p as [|[n0 c0] p IH] using rev_ind; [intros []|]. unfold names. rewrite map_app. intros Hin. rewrite files_get_snoc.
  destruct (bytes_eqb n0 n) eqn:E; [eexists; reflexivity|]. apply in_app_or in Hin as [Hin|[Hin|[]]]; [exact (IH Hin)|].
  cbn in Hin. subst n0. rewrite bytes_eqb_refl in E. discriminate.
Qed.

Lemma existsb_all_false {A} (f : A -> bool) l : (forall x, f x = false) -> existsb f l = false.
Proof. intros Hf. induction l as [|a l IH]; [reflexivity|]. cbn. rewrite Hf, IH. reflexivity. Qed.

(* the names of the three parts sign appends and signs *)
Definition N_ROOT : bytes := vsix_newrels_name [].
Definition N_OREL : bytes := vsix_newrels_name vsix_origin_path.
Definition N_ORIG : bytes := vsix_origin_name.
Lemma N_ROOT_val : N_ROOT = [95; 114; 101; 108; 115; 47; 46; 114; 101; 108; 115].      (* _rels/.rels *)
Proof. reflexivity. Qed.
Lemma N_OREL_val : N_OREL = digsig_prefix ++ [95; 114; 101; 108; 115; 47; 111; 114; 105; 103; 105; 110; 46; 112; 115; 100; 111; 114; 46; 114; 101; 108; 115].      (* .../_rels/origin.psdor.rels *)
Proof. reflexivity. Qed.
Lemma N_ORIG_val : N_ORIG = digsig_prefix ++ [111; 114; 105; 103; 105; 110; 46; 112; 115; 100; 111; 114].      (* .../origin.psdor *)
Proof. reflexivity. Qed.
Lemma N_not_kept : vsix_keep_file N_ROOT = false /\ vsix_keep_file N_OREL = false /\ vsix_keep_file N_ORIG = false.
Proof. rewrite N_ROOT_val, N_OREL_val, N_ORIG_val, !keep_prefixed. repeat apply conj; reflexivity. Qed.
Lemma N_distinct : N_ROOT <> N_OREL /\ N_ROOT <> N_ORIG /\ N_OREL <> N_ORIG.
Proof. rewrite N_ROOT_val, N_OREL_val, N_ORIG_val. repeat split; discriminate. Qed.
(* a name below the signature folder that goes on with neither "_" nor "o": dropped by keepFile and none of the three above *)
Lemma digsig_name_fresh x : hd 0 x <> 95 -> hd 0 x <> 111 ->
  vsix_keep_file (digsig_prefix ++ x) = false /\ digsig_prefix ++ x <> N_ROOT /\ digsig_prefix ++ x <> N_OREL /\ digsig_prefix ++ x <> N_ORIG.
Proof.
  intros H1 H2. rewrite N_ROOT_val, N_OREL_val, N_ORIG_val. split; [apply keep_prefixed|].
  repeat split; try discriminate; intros E; apply app_inv_head in E; subst x; [apply H1|apply H2]; reflexivity.
Qed.

(* the kept members followed by the package relationships part, the origin's relationships part and the origin *)
Definition with_infra (kept : package) (c1 c2 : bytes) : package := kept ++ [(N_ROOT, c1); (N_OREL, c2); (N_ORIG, vsix_origin_content)].
Lemma in_names_with_infra kept c1 c2 n : In n (names (with_infra kept c1 c2)) <-> In n (names kept) \/ n = N_ROOT \/ n = N_OREL \/ n = N_ORIG.
Proof.
  unfold names, with_infra. rewrite map_app, in_app_iff. cbn [map fst In]. apply or_iff_compat_l. split.
  - intros [E|[E|[E|[]]]]; symmetry in E; [left|right; left|right; right]; exact E.
  - intros [E|[E|E]]; symmetry in E; [left|right; left|right; right; left]; exact E.
Qed.
Lemma files_get_infra kept c1 c2 : files_get (with_infra kept c1 c2) N_ROOT = Some c1 /\ files_get (with_infra kept c1 c2) N_OREL = Some c2.
Proof.
  destruct N_distinct as [D1 [D2 D3]]. unfold with_infra.
  change (kept ++ [(N_ROOT, c1); (N_OREL, c2); (N_ORIG, vsix_origin_content)]) with (kept ++ [(N_ROOT, c1)] ++ [(N_OREL, c2)] ++ [(N_ORIG, vsix_origin_content)]).
  rewrite !app_assoc, !files_get_snoc, !bytes_eqb_refl.
  apply not_eq_sym, bytes_eqb_neq in D1. apply not_eq_sym, bytes_eqb_neq in D2. apply not_eq_sym, bytes_eqb_neq in D3.
  rewrite D1, D2, D3. split; reflexivity.
Qed.

Lemma not_in_infra_names pk c1 c2 n : vsix_keep_file n = false -> n <> N_ROOT -> n <> N_OREL -> n <> N_ORIG ->
  ~ In n (names (with_infra (filter keepf pk) c1 c2)).
Proof.
  intros Hk H1 H2 H3 Hin. apply in_names_with_infra in Hin as [Hin|[E|[E|E]]]; [|exact (H1 E)|exact (H2 E)|exact (H3 E)].
  apply in_map_iff in Hin as [m [En Hin]]. apply filter_In in Hin as [_ Hk']. unfold keepf in Hk'. congruence.
Qed.

Section SignStructure.
  Variable H : Z -> bytes -> bytes.
  Variable sha1 : bytes -> bytes.
  Variable b64 : bytes -> bytes.
  Variable ct_read : bytes -> option ctdoc.
  Variables key pubk sigv : Type.
  Variable pub : key -> pubk.
  Variable xsign : key -> bytes -> sigv.
  Variable tbs : Z -> node -> bytes.
  Variable ser : sigdoc pubk sigv -> bytes.
  Notation sign := (sign H sha1 b64 ct_read key pubk sigv pub xsign tbs ser).
  Notation mangle := (mangle H ct_read).

  (* the digest table of a member list: every name maps to the digest of its last member *)
  Definition dig_fold (alg : Z) (p : package) (d : assoc) : assoc := fold_left (fun d m => aset d (fst m) (H alg (snd m))) p d.
  Lemma dig_fold_app alg p q d : dig_fold alg (p ++ q) d = dig_fold alg q (dig_fold alg p d).
  Proof. apply fold_left_app. Qed.
  Lemma dig_fold_spec alg p n :
    match files_get p n with
    | Some c => ahas (dig_fold alg p []) n = true /\ aget (dig_fold alg p []) n = H alg c
    | None => ahas (dig_fold alg p []) n = false
    end.
  Proof.
    induction p as [|[n0 c0] p IH] using rev_ind; [reflexivity|]. unfold dig_fold in *. rewrite fold_left_app. cbn [fold_left fst snd].
    rewrite files_get_snoc. rewrite ahas_aset. destruct (bytes_eqb n0 n) eqn:E.
    - apply bytes_eqb_eq in E. subst n0. cbn [orb]. split; [reflexivity|apply aget_aset_same].
    - cbn [orb]. assert (n <> n0) by (apply bytes_eqb_neq in E; congruence).
      destruct (files_get p n); [rewrite aget_aset_other by assumption|]; exact IH.
  Qed.
  Lemma dig_fold_keys alg p : forall n, In n (akeys (dig_fold alg p [])) <-> In n (names p).
  Proof.
    intros n. rewrite <- ahas_in. pose proof (dig_fold_spec alg p n) as S. split.
    - intros Hh. destruct (files_get p n) eqn:E; [apply files_get_in in E; apply (in_map fst) in E; exact E|congruence].
    - intros Hin. destruct (files_get_some_name p n Hin) as [c Hc]. rewrite Hc in S. exact (proj1 S).
  Qed.
  Lemma dig_fold_nodup alg p d : NoDup (akeys d) -> NoDup (akeys (dig_fold alg p d)).
  Proof. revert d. unfold dig_fold. induction p as [|m p IH]; intros d Hd; [exact Hd|]. cbn [fold_left]. apply IH. apply akeys_aset_nodup. exact Hd. Qed.

  (* the Mangle callback over the whole package *)
  Fixpoint ct_scan (pk : package) (ct : ctab) : option ctab :=
    match pk with
    | [] => Some ct
    | (n, c) :: r => if negb (vsix_keep_file n) && vsix_mangle_parses n
                     then match ct_read c with Some d => ct_scan r (ct_merge ct d) | None => None end
                     else ct_scan r ct
    end.
  (* one pass over the members: the kept ones in order, their digests, the content types declarations read on the way; the only failure
     is an unreadable content types stream *)
  Lemma mangle_cases alg pk st :
    match mangle alg pk st with
    | Ok st' => m_kept st' = m_kept st ++ filter keepf pk /\ m_dig st' = dig_fold alg (filter keepf pk) (m_dig st) /\ ct_scan pk (m_ct st) = Some (m_ct st')
    | Err e => e = E_CT_PARSE
    | Panic _ => False
    end.
  Proof.
    revert st. induction pk as [|[n c] pk IH]; intros st.
    - cbn. rewrite app_nil_r. repeat split; reflexivity.
    - cbn [Model.mangle filter ct_scan]. change (vsix_mangle_keeps_panics n) with false. cbv iota.
      change (vsix_mangle_keeps n) with (vsix_keep_file n). change (keepf (n, c)) with (vsix_keep_file n).
      destruct (vsix_keep_file n); cbn [negb andb].
      + specialize (IH (mkM (m_kept st ++ [(n, c)]) (aset (m_dig st) n (H alg c)) (m_ct st))).
        destruct (mangle alg pk _); [|exact IH|exact IH]. cbn [m_kept m_dig m_ct] in IH. rewrite <- app_assoc in IH. exact IH.
      + destruct (vsix_mangle_parses n); [|apply IH]. destruct (ct_read c); [apply IH|reflexivity].
  Qed.
  Lemma mangle_spec alg pk st st' : mangle alg pk st = Ok st' ->
    m_kept st' = m_kept st ++ filter keepf pk /\ m_dig st' = dig_fold alg (filter keepf pk) (m_dig st) /\ ct_scan pk (m_ct st) = Some (m_ct st').
  Proof. intros Hm. pose proof (mangle_cases alg pk st) as C. rewrite Hm in C. exact C. Qed.

  (* relationship Ids: the loop ends with an Id or, out of fuel, is reported as a hang *)
  Lemma id_loop_cases n pre l : match id_loop sha1 n pre l with Ok _ => True | Err _ => False | Panic q => q = P_HANG end.
  Proof. revert pre. induction n as [|n IH]; intros pre; [reflexivity|]. cbn [id_loop]. destruct (existsb _ l); [apply IH|exact I]. Qed.
  Lemma cert_rels_cases ch l : match cert_rels sha1 ch l with Ok _ => True | Err _ => False | Panic q => q = P_HANG end.
  Proof.
    revert l. induction ch as [|[fn d] ch IH]; intros l; [exact I|]. cbn [cert_rels]. unfold rels_append.
    pose proof (id_loop_cases (S (length l) * 4) (vsix_cert_path fn ++ vsix_cert_rel_type) l) as C.
    destruct (id_loop sha1 _ _ l); cbn [bind]; [apply IH|exact C|exact C].
  Qed.
  Lemma rels_append_nil c t :
    rels_append sha1 [] c t = Ok [mkRel (vsix_rels_target c) (subst_s [82; 37; 115] (hex_upper (ztake vsix_rels_id_bytes (sha1 (c ++ t))))) (vsix_rels_type t)].
  Proof. reflexivity. Qed.

  Definition chain_ok (sg : signer key) : Prop := fname_ok (sg_fname key sg) /\ Forall (fun c => fname_ok (fst c)) (sg_chain key sg).
  Lemma add_certs_names sg sn l : chain_ok sg -> add_certs sha1 key sg sn = Ok l ->
    Forall (fun m : bytes * bytes => (exists f, fname_ok f /\ fst m = vsix_cert_path f) \/ fst m = vsix_cert_rels_name sn) l.
  Proof.
    intros [_ Hc] Ha. unfold add_certs in Ha. destruct (cert_rels sha1 (sg_chain key sg) []) as [rl| |]; cbn [bind] in Ha; try discriminate. injection Ha as <-.
    apply Forall_app. split.
    - rewrite Forall_map. eapply Forall_impl; [|exact Hc]. intros c Hf. left. exists (fst c). split; [exact Hf|reflexivity].
    - constructor; [right; reflexivity|constructor].
  Qed.
  (* what follows the three: certificate parts (detached certificates only), the signature part, the content types stream *)
  Definition certs_of (o : sopts sigv) (sg : signer key) (certs : package) : Prop :=
    if so_detach sigv o then add_certs sha1 key sg (vsix_sig_name (sg_fname key sg)) = Ok certs else certs = [].
  Lemma tail_names o sg certs : chain_ok sg -> certs_of o sg certs ->
    forall m x y, In m (certs ++ [(vsix_sig_name (sg_fname key sg), x); (vsix_newct_name, y)]) ->
      vsix_keep_file (fst m) = false /\ fst m <> N_ROOT /\ fst m <> N_OREL /\ fst m <> N_ORIG.
  Proof.
    intros Hc Hs m x y Hin. pose proof (proj1 Hc) as Hf. unfold certs_of in Hs.
    apply in_app_or in Hin as [Hin|[Hin|[Hin|[]]]].
    - destruct (so_detach sigv o); [|rewrite Hs in Hin; destruct Hin].
      pose proof (add_certs_names _ _ _ Hc Hs) as F. rewrite Forall_forall in F. destruct (F m Hin) as [[f [Hf' E]]|E]; rewrite E.
      + rewrite cert_path_form by exact Hf'. apply digsig_name_fresh; discriminate.
      + unfold vsix_cert_rels_name. rewrite sig_rels_name_form by exact Hf. apply digsig_name_fresh; discriminate.
    - subst m. cbn [fst]. rewrite sig_name_form by exact Hf. apply digsig_name_fresh; discriminate.
    - subst m. cbn [fst]. rewrite N_ROOT_val, N_OREL_val, N_ORIG_val. repeat split; discriminate.
  Qed.

  (* the shape of sign's result: the kept members and the three (with_infra) ... *)
  Definition rl_origin (id : bytes) : list rel := [mkRel (vsix_rels_target vsix_origin_path) id vsix_sig_origin_type].
  Definition rl_sig (f id : bytes) : list rel := [mkRel (vsix_rels_target (vsix_sig_name f)) id vsix_sig_type].
  (* ... all of them in the manifest, names sorted ... *)
  Definition signed_refs (alg : Z) (ct : ctab) (pre : package) : list (bytes * bytes) :=
    map (fun n => (vsix_ref_uri (ct_ovr ct) (ct_ext ct) n, b64 (aget (dig_fold alg pre []) n))) (ssort (akeys (dig_fold alg pre []))).
  (* ... then the certificate parts, the signature part and the new content types stream *)
  Definition signed_out (o : sopts sigv) (sg : signer key) (ct : ctab) (pre certs : package) : package :=
    pre ++ certs ++
    [(vsix_sig_name (sg_fname key sg), ser (make_sigdoc key pubk sigv pub xsign tbs o sg (package_object (signed_refs (so_alg sigv o) ct pre) (so_alg sigv o) (so_time sigv o))));
     (vsix_newct_name, ct_marshal (ct_doc_of (new_ctypes ct (so_detach sigv o))))].

  (* every way sign can end: with the package described above; refusing an unreadable content types stream or a digest XML-DSig has no
     name for; or, with detached certificates only, in an endless run of relationship Id collisions *)
  Definition sign_result (o : sopts sigv) (sg : signer key) (pk g : package) : Prop :=
    exists ct id1 id2 certs,
      ct_scan pk ct_empty = Some ct /\ certs_of o sg certs /\ hash_uri_of (so_alg sigv o) <> [] /\
      g = signed_out o sg ct (with_infra (filter keepf pk) (rels_marshal (rl_origin id1)) (rels_marshal (rl_sig (sg_fname key sg) id2))) certs.
  Lemma sign_cases o sg pk :
    match sign o sg pk with
    | Ok g => sign_result o sg pk g
    | Err e => e = E_CT_PARSE \/ e = E_HASH
    | Panic p => p = P_HANG /\ so_detach sigv o = true
    end.
  Proof.
    unfold Model.sign. rewrite shapes_hold. cbn [negb].
    pose proof (mangle_cases (so_alg sigv o) pk (mkM [] [] ct_empty)) as M.
    destruct (mangle (so_alg sigv o) pk _) as [st|e|p]; cbn [bind]; [|left; exact M|destruct M].
    destruct M as [Mk [Md Mc]]. destruct st as [kept dig ct]. cbn [m_kept m_dig m_ct app] in Mk, Md, Mc. subst kept dig.
    unfold new_rels. rewrite !rels_append_nil. cbn [bind]. unfold add_file. cbn [fst snd m_kept m_dig m_ct].
    change (vsix_sign_adds_certs (so_detach sigv o)) with (so_detach sigv o).
    pose proof (cert_rels_cases (sg_chain key sg) []) as C.
    destruct (if so_detach sigv o then add_certs sha1 key sg _ else Ok []) as [certs|e|p] eqn:Ec; cbn [bind].
    - destruct (bytes_eqb (hash_uri_of (so_alg sigv o)) []) eqn:Eh; [right; reflexivity|].
      unfold make_refs. rewrite existsb_all_false by (intros x; apply ref_uri_no_panic). cbn [bind m_ct m_dig].
      eexists ct, _, _, certs. split; [exact Mc|]. split; [unfold certs_of; destruct (so_detach sigv o); [exact Ec|injection Ec as <-; reflexivity]|].
      split; [apply bytes_eqb_neq; exact Eh|].
      unfold signed_out, signed_refs, with_infra. rewrite dig_fold_app, <- !app_assoc.
      unfold dig_fold. cbn [fold_left fst snd app]. reflexivity.
    - destruct (so_detach sigv o); [|discriminate]. unfold add_certs in Ec.
      destruct (cert_rels sha1 (sg_chain key sg) []); cbn [bind] in Ec; [discriminate|destruct C|discriminate].
    - destruct (so_detach sigv o); [|discriminate]. unfold add_certs in Ec.
      destruct (cert_rels sha1 (sg_chain key sg) []); cbn [bind] in Ec; [discriminate|discriminate|]. injection Ec as <-. split; [exact C|reflexivity].
  Qed.
  Lemma sign_inv o sg pk g : sign o sg pk = Ok g -> sign_result o sg pk g.
  Proof. intros Hs. pose proof (sign_cases o sg pk) as C. rewrite Hs in C. exact C. Qed.

  (* the parts after the three do not shadow a kept member or one of the three *)
  Lemma files_get_tail o sg pk c1 c2 certs n x y : chain_ok sg -> certs_of o sg certs -> In n (names (with_infra (filter keepf pk) c1 c2)) ->
    files_get (with_infra (filter keepf pk) c1 c2 ++ certs ++ [(vsix_sig_name (sg_fname key sg), x); (vsix_newct_name, y)]) n = files_get (with_infra (filter keepf pk) c1 c2) n.
  Proof.
    intros Hc Hs Hin. apply files_get_app_notin. intros m Hm E.
    destruct (tail_names o sg certs Hc Hs m x y Hm) as [Hk [H1 [H2 H3]]]. rewrite E in *.
    exact (not_in_infra_names pk c1 c2 n Hk H1 H2 H3 Hin).
  Qed.

  (* C03 / C08: the members keepFile keeps come through unchanged, in order; everything else in the output is one of the new parts, none of which a
     later signing keeps *)
  Lemma payload_kept o sg pk g : chain_ok sg -> sign o sg pk = Ok g ->
    filter keepf g = filter keepf pk /\ exists added, g = filter keepf pk ++ added /\ Forall (fun m : member => vsix_keep_file (fst m) = false) added.
  Proof.
    intros Hc Hs. destruct (sign_inv o sg pk g Hs) as [ct [id1 [id2 [certs [_ [Hcerts [_ Hg]]]]]]].
    unfold signed_out, with_infra in Hg. rewrite <- app_assoc in Hg.
    match type of Hg with g = _ ++ ?a => assert (Fadd : Forall (fun m : member => vsix_keep_file (fst m) = false) a) end.
    { apply Forall_app. split.
      - destruct N_not_kept as [A [B C]]. repeat constructor; assumption.
      - rewrite Forall_forall. intros m Hm. exact (proj1 (tail_names o sg certs Hc Hcerts m _ _ Hm)). }
    split; [|eexists; split; [exact Hg|exact Fadd]].
    rewrite Hg, filter_app.
    rewrite (filter_none keepf _ (proj1 (Forall_forall _ _) Fadd)), app_nil_r. apply filter_idem.
  Qed.

  (* the package relationships part of the output holds the origin relationship and nothing else, the origin's relationships part the
     relationship to the signature part *)
  Lemma infra_parts_of_signed o sg pk g : chain_ok sg -> sign o sg pk = Ok g ->
    exists id1 id2, files_get g N_ROOT = Some (rels_marshal (rl_origin id1)) /\ files_get g N_OREL = Some (rels_marshal (rl_sig (sg_fname key sg) id2)).
  Proof.
    intros Hc Hs. destruct (sign_inv o sg pk g Hs) as [ct [id1 [id2 [certs [_ [Hcerts [_ Hg]]]]]]]. exists id1, id2.
    destruct (files_get_infra (filter keepf pk) (rels_marshal (rl_origin id1)) (rels_marshal (rl_sig (sg_fname key sg) id2))) as [G1 G2].
    rewrite Hg. unfold signed_out. rewrite !(files_get_tail o sg) by (first [assumption|apply in_names_with_infra; right; left; reflexivity|apply in_names_with_infra; right; right; left; reflexivity]).
    split; assumption.
  Qed.

  (* C01 / C05 / C02: every Reference of the manifest is (URI of a member name with the chosen content type, digest of the bytes the OUTPUT holds
     under that name), and every kept member and each of the three new signed parts has one *)
  Definition uri_of (ovr ext : assoc) (n : bytes) : bytes := [47] ++ n ++ Q_CT ++ chosen_type ovr ext n.
  Definition signed_name (g : package) (n : bytes) : Prop := (vsix_keep_file n = true /\ In n (names g)) \/ n = N_ROOT \/ n = N_OREL \/ n = N_ORIG.
  Lemma manifest_of_signed o sg pk g : chain_ok sg -> sign o sg pk = Ok g ->
    exists refs ct NS,
      ct_scan pk ct_empty = Some ct /\
      files_get g (vsix_sig_name (sg_fname key sg)) = Some (ser (make_sigdoc key pubk sigv pub xsign tbs o sg (package_object refs (so_alg sigv o) (so_time sigv o)))) /\
      NoDup NS /\ Sorted.Sorted leb_prop NS /\
      (forall n, In n NS <-> signed_name g n) /\
      exists D, manifest_refs (package_object refs (so_alg sigv o) (so_time sigv o)) =
                  map (fun n => mkRef (uri_of (ct_ovr ct) (ct_ext ct) n) (hash_uri_of (so_alg sigv o)) (b64 (D n))) NS /\
                (forall n, In n NS -> exists c, files_get g n = Some c /\ D n = H (so_alg sigv o) c).
  Proof.
    intros Hc Hs. destruct (sign_inv o sg pk g Hs) as [ct [id1 [id2 [certs [Hct [Hcerts [_ Hg]]]]]]].
    set (alg := so_alg sigv o) in *. set (pre := with_infra (filter keepf pk) _ _) in *. set (D := dig_fold alg pre []).
    exists (signed_refs alg ct pre), ct, (ssort (akeys D)).
    split; [exact Hct|].
    assert (Tail : forall n, In n (names pre) -> files_get g n = files_get pre n).
    { intros n Hn. rewrite Hg. apply (files_get_tail o sg); assumption. }
    assert (Hsn : forall n, In n (names pre) <-> signed_name g n).
    { intros n. unfold signed_name, pre. rewrite in_names_with_infra. apply or_iff_compat_r. split.
      - intros Hn. apply in_map_iff in Hn as [m [<- Hm]]. split; [apply filter_In in Hm; apply Hm|].
        rewrite Hg. unfold names, signed_out, pre, with_infra. rewrite !map_app. apply in_or_app. left. apply in_or_app. left. apply in_map. exact Hm.
      - intros [Hkeep Hin]. destruct (payload_kept o sg pk g Hc Hs) as [Hfilt _]. unfold names in *. apply in_map_iff in Hin as [m [<- Hm]].
        apply in_map. rewrite <- Hfilt. apply filter_In. split; assumption. }
    split.
    { (* the signature part is the last but one member *)
      assert (E : bytes_eqb vsix_newct_name (vsix_sig_name (sg_fname key sg)) = false) by (rewrite (sig_name_form _ (proj1 Hc)); reflexivity).
      rewrite Hg. unfold signed_out.
      match goal with |- files_get (?a ++ ?b ++ [?x; ?y]) _ = _ => change (a ++ b ++ [x; y]) with (a ++ b ++ [x] ++ [y]) end.
      rewrite !app_assoc, files_get_snoc, E, files_get_snoc, bytes_eqb_refl. reflexivity. }
    split; [apply ssort_nodup; apply dig_fold_nodup; constructor|]. split; [apply ssort_sorted|].
    split; [intros n; unfold D; rewrite ssort_in, dig_fold_keys; apply Hsn|].
    exists (aget D). split.
    - rewrite manifest_roundtrip. unfold signed_refs. rewrite map_map. apply map_ext. intros n. cbn [fst snd]. unfold uri_of. rewrite <- ref_uri_form. reflexivity.
    - intros n Hn. unfold D in Hn. rewrite ssort_in, dig_fold_keys in Hn. destruct (files_get_some_name _ _ Hn) as [c Hc'].
      exists c. split; [rewrite (Tail n Hn); exact Hc'|]. pose proof (dig_fold_spec alg pre n) as S. rewrite Hc' in S. exact (proj2 S).
  Qed.
End SignStructure.
Arguments sign_inv {H sha1 b64 ct_read key pubk sigv pub xsign tbs ser o sg pk g}.
Arguments infra_parts_of_signed {H sha1 b64 ct_read key pubk sigv pub xsign tbs ser o sg pk g}.
Arguments manifest_of_signed {H sha1 b64 ct_read key pubk sigv pub xsign tbs ser o sg pk g}.
