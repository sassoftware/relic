(* C19/Properties.v — the property theorems of unit C19, and their non-vacuity examples. *)
From Relic Require Import Base.Prelude Base.Enc Base.Lists Base.Slice Generated.C19_gen C19.Model C19.Proofs C19.Sign C19.SignProofs.
From Coq Require Import Permutation Sorted.

(* ---- ECDSA signature values: r||s *)
(* relic reads back what it writes (sign/verify self-consistency) *)
Theorem unpack_pack : forall r s, 0 <= r -> 0 <= s -> unpack (pack r s) = Ok (r, s).
Proof.
  intros r s Hr Hs. unfold unpack. rewrite pack_len. pose proof (pack_w_nonneg r s) as Hw.
  unfold unpack_bytelen, unpack_bad_size. rewrite Z.quot_div_nonneg by lia.
  replace (2 * pack_w r s / 2) with (pack_w r s) by lia.
  replace (negb (2 * pack_w r s =? pack_w r s * 2)) with false by lia.
  rewrite pack_shape.
  assert (L : zlen (be_enc (Z.to_nat (pack_w r s)) r) = pack_w r s) by (rewrite be_enc_zlen; lia).
  rewrite (ztake_app_len _ _ _ L), (zdrop_app_len _ _ _ L), !be_dec_enc; [reflexivity | |].
  all: rewrite Z2Nat.id by exact Hw; split; [assumption|]; apply fits; [assumption | unfold pack_w, maxbits; lia].
Qed.
(* Pack is the standard fixed-width encoding exactly when its byte width equals the curve's *)
Theorem pack_fixed_iff : forall bits r s, 0 <= bits ->
  (pack_w r s = curve_bytes bits <-> pack r s = fixed_pack bits r s).
Proof. exact C19.Proofs.pack_fixed_iff. Qed.
Theorem pack_ok_when_top_bits_set : forall bits r s,
  0 <= bits -> 8 * (curve_bytes bits - 1) < maxbits r s <= 8 * curve_bytes bits -> pack r s = fixed_pack bits r s.
Proof. exact C19.Proofs.pack_ok_when_top_bits_set. Qed.
Theorem pack_short_when_small : forall bits r s,
  0 <= bits -> maxbits r s <= 8 * (curve_bytes bits - 1) -> zlen (pack r s) < 2 * curve_bytes bits.
Proof. intros bits r s Hb H. rewrite pack_len. unfold pack_w. lia. Qed.
(* the statement "signature values use the standard fixed-width encodings" is false for the code as written *)
Theorem pack_fixed_width_refuted :
  exists bits r s, In bits defined_curve_bits /\ 0 < r < 2 ^ (bits - 1) /\ 0 < s < 2 ^ (bits - 1) /\
                   pack r s <> fixed_pack bits r s /\ zlen (pack r s) = 130 /\ zlen (fixed_pack bits r s) = 132.
Proof. exact C19.Proofs.pack_fixed_width_refuted. Qed.

(* ---- canonicalisation *)
(* 1. the faithful model of SerializeCanonical (tree rewriting: pullDown, pushDown, walkAttributes) equals its top-down
      form in which the pending declarations travel with the recursion *)
Theorem relic_is_top_down : forall ctx n, relic_c14n ctx n = relic_c14n_td ctx n.
Proof. exact C19.Proofs.relic_is_top_down. Qed.
(* 2. one step of the simulation: whenever the carried declarations D are related to the two namespace environments
      of exc-c14n by Inv, and the subtree satisfies the clauses of K, relic's bytes are the W3C bytes *)
Theorem walkD_is_spec : forall n inscope rendered D,
  kind_of n = 0 -> k_codes inscope rendered n = [] -> Inv D inscope rendered ->
  write_node (walkD D n) = exc_node inscope rendered n.
Proof. exact C19.Proofs.walkD_is_spec. Qed.
(* 3. MAIN: on the decidable class K (no PI child, no xmlns="" on an ancestor, no declaration that repeats what the
      output ancestors rendered, attribute order by prefix = order by namespace URI, no attribute named *:xmlns, distinct
      attribute names) relic's canonical form IS W3C Exclusive XML Canonicalization, for every context and every tree *)
Theorem relic_eq_spec_on_K : forall ctx n, inK ctx n = true -> relic_c14n ctx n = exc_c14n ctx n.
Proof. exact C19.Proofs.relic_eq_spec_on_K. Qed.
(* 4. the documents relic builds are in K for all parameter values: SignedInfo below Signature (with or without the Id
      that appmanifest adds) in any K-context, and the VSIX package Object for any list of parts *)
Theorem signed_info_in_K : forall ref_id hash_alg sig_alg digest c14n id_attr outer,
  ctx_codes outer = [] ->
  inK (sig_ctx (match id_attr with Some v => [mkattr [] s_Id v] | None => [] end) outer)
      (signed_info ref_id hash_alg sig_alg digest c14n) = true.
Proof.
  intros ref_id hash_alg sig_alg digest c14n id_attr outer H. apply inK_elem. split; [|apply signed_info_codes].
  unfold sig_ctx, ctx_codes in *. cbn [flat_map]. rewrite H, app_nil_r. destruct id_attr; reflexivity.
Qed.
Theorem vsix_object_in_K : forall refs hash_uri fmt time,
  inK (sig_ctx [] []) (vsix_object refs hash_uri ns_digsig fmt time) = true.
Proof.
  intros refs hash_uri fmt time. apply inK_elem. split; [reflexivity|].
  unfold vsix_object. unfold el at 1. rewrite k_codes_elem. cbn [flat_map]. rewrite vsix_manifest_codes. reflexivity.
Qed.
(* 5. re-serialisations that preserve canonical meaning do not change the W3C canonical form: comments anywhere,
      splitting of character data (CDATA sections, entities), replacement of a child by an equivalent child; the
      faithful model ignores comments too *)
Theorem spec_comment_invariant : forall e r s t a l1 d l2,
  exc_node e r (Elem s t a (l1 ++ Comment d :: l2)) = exc_node e r (Elem s t a (l1 ++ l2)).
Proof. intros e r s t a l1 d l2. apply exc_children. rewrite !flat_map_app. reflexivity. Qed.
Theorem spec_text_split_invariant : forall e r s t a l1 d1 d2 l2,
  exc_node e r (Elem s t a (l1 ++ CharData (d1 ++ d2) :: l2)) = exc_node e r (Elem s t a (l1 ++ CharData d1 :: CharData d2 :: l2)).
Proof.
  intros e r s t a l1 d1 d2 l2. apply exc_children. rewrite !flat_map_app. cbn [flat_map exc_node]. rewrite flat_map_app, <- !app_assoc. reflexivity.
Qed.
Theorem spec_child_congruence : forall e r s t a l1 c c' l2,
  exc_node (fst (child_env e r s a)) (snd (child_env e r s a)) c = exc_node (fst (child_env e r s a)) (snd (child_env e r s a)) c' ->
  exc_node e r (Elem s t a (l1 ++ c :: l2)) = exc_node e r (Elem s t a (l1 ++ c' :: l2)).
Proof. intros e r s t a l1 c c' l2 H. apply exc_children. rewrite !flat_map_app. cbn [flat_map]. now rewrite H. Qed.
(* the specification looks at its environments only through lookups *)
Theorem exc_node_ext : forall n e e' r r', env_eq e e' -> env_eq r r' -> exc_node e r n = exc_node e' r' n.
Proof. exact C19.Proofs.exc_node_ext. Qed.
(* attribute order (namespace declarations included) is irrelevant; the side conditions are namespace well-formedness:
   one declaration per prefix, distinct expanded attribute names *)
Theorem spec_attr_order_invariant : forall e r s t a a' ch,
  Permutation a a' ->
  NoDup (map fst (own_decls a)) ->
  NoDup (map (fun x => (attr_uri (env_add e (own_decls a)) x, a3_key x)) (plain_attrs a)) ->
  exc_node e r (Elem s t a ch) = exc_node e r (Elem s t a' ch).
Proof.
  intros e r s t a a' ch P ND NU.
  assert (Pp : Permutation (plain_attrs a) (plain_attrs a')) by (unfold plain_attrs; now apply Permutation_filter).
  assert (Hi : env_eq (env_add e (own_decls a)) (env_add e (own_decls a'))).
  { apply env_add_perm; [|exact ND]. unfold own_decls. apply Permutation_map. now apply Permutation_filter. }
  set (i1 := env_add e (own_decls a)) in *. set (i2 := env_add e (own_decls a')) in *.
  apply exc_elem_cong; fold i1 i2.
  - apply isort_prefix_unique; try apply NoDup_filter, utilized_nodup.
    intros p. rewrite !filter_In, !utilized_in, Hi. unfold usesP. now rewrite (existsb_perm _ _ _ Pp).
  - intros p _. apply Hi.
  - (* xattr_lt orders by the pair (namespace URI, local name), and these pairs are distinct *)
    rewrite (isort_ext (xattr_lt i2) (xattr_lt i1) (plain_attrs a')) by (intros; symmetry; now apply xattr_lt_ext).
    exact (isort_unique lex_lt (fun x => (attr_uri i1 x, a3_key x)) lex_order _ _ NU Pp).
  - apply flat_map_ext. intros c. apply exc_node_ext; [exact Hi|]. apply render_ext_in; [intros p _; apply Hi | intros p; reflexivity].
Qed.
(* a namespace declaration that nothing below visibly utilises can be added or removed *)
Theorem spec_unused_decl_invariant : forall e r s t a ch q v,
  has_decl q a = false -> usesP s a q = false -> existsb (uses_in_subtree q) ch = false ->
  exc_node e r (Elem s t (decl_attr (q, v) :: a) ch) = exc_node e r (Elem s t a ch).
Proof.
  intros e r s t a ch q v Hd Hu Hc. rewrite exc_add_decl. cbn [fst snd]. apply exc_node_used.
  intros p Hp. rewrite env_get_set. destruct (beqP p q) as [->|]; [|reflexivity].
  cbn [uses_in_subtree] in Hp. now rewrite Hu, Hd, Hc in Hp.
Qed.
(* hence, inside K, relic's canonical form does not depend on attribute order either *)
Theorem relic_attr_order_invariant_on_K : forall ctx s t a a' ch,
  inK ctx (Elem s t a ch) = true -> inK ctx (Elem s t a' ch) = true -> Permutation a a' ->
  NoDup (map (fun x => (attr_uri (env_add (ctx_env ctx) (own_decls a)) x, a3_key x)) (plain_attrs a)) ->
  relic_c14n ctx (Elem s t a ch) = relic_c14n ctx (Elem s t a' ch).
Proof.
  intros ctx s t a a' ch K1 K2 P NU. rewrite (relic_eq_spec_on_K _ _ K1), (relic_eq_spec_on_K _ _ K2).
  apply spec_attr_order_invariant; try assumption.
  apply inK_elem in K1 as [_ (K6 & K5 & _)%k_codes_elem_nil]. apply own_decls_nodup; [assumption|]. now apply nodup_b_NoDup.
Qed.
(* 6. sort.Slice is unstable and its algorithm unspecified (the real one is a pattern-defeating quicksort); it promises
      only that afterwards no later element is less than an earlier one.  With distinct attribute names every outcome it
      may produce is the list the model computes *)
Theorem sort_slice_unique : forall l l',
  NoDup (attr_names l) -> Permutation l' l -> StronglySorted (fun x y => attr_lt y x = false) l' -> l' = isort attr_lt l.
Proof.
  intros l l' NDn P S.
  assert (NDr : NoDup (map rank l)) by (apply (NoDup_map_inv snd); rewrite map_map; exact NDn).
  assert (ND : NoDup l) by exact (NoDup_map_inv _ _ NDr).
  assert (ND' : NoDup l') by (eapply Permutation_NoDup; [apply Permutation_sym; exact P | exact ND]).
  assert (Hname : forall x y, In x l -> In y l -> x <> y -> (a3_space x, a3_key x) <> (a3_space y, a3_key y)).
  { intros x y Hx Hy Hxy E. apply Hxy. exact (NoDup_map_inj (fun a : attr => (a3_space a, a3_key a)) l x y NDn Hx Hy E). }
  rewrite (isort_ext_nodup attr_lt (by_key rank_lt rank) l ND) by (intros x y Hx Hy Hxy; apply attr_lt_rank; now apply Hname).
  apply (sorted_unique rank_lt rank rank_order).
  - (* between members of l, "not greater" is "less": their ranks differ and the order is total *)
    apply (sorted_weaken (fun x y => attr_lt y x = false) _ l' ND'); [|exact S].
    intros x y Hx Hy Hxy H. apply (Permutation_in _ P) in Hx. apply (Permutation_in _ P) in Hy.
    rewrite attr_lt_rank in H by (apply Hname; auto).
    assert (Hr : rank x <> rank y) by (intros E; apply Hxy; exact (NoDup_map_inj rank l x y NDr Hx Hy E)).
    destruct rank_order as (_ & _ & To). destruct (To _ _ Hr) as [G|G]; [exact G | congruence].
  - exact (isort_sorted rank_lt rank rank_order l NDr).
  - intros x. rewrite isort_in. split; apply Permutation_in; [exact P | now apply Permutation_sym].
Qed.
Theorem relic_comment_invariant : forall ctx s t a l1 d l2,
  relic_c14n ctx (Elem s t a (l1 ++ Comment d :: l2)) = relic_c14n ctx (Elem s t a (l1 ++ l2)).
Proof.
  intros ctx s t a l1 d l2. rewrite !relic_is_top_down. unfold relic_c14n_td. rewrite !walkD_unfold.
  destruct (place_all s a (collect_spaces ctx)) as [a1 pass]. destruct (own_loop s [] a1 []) as [a2 down].
  rewrite !kids_app. reflexivity.
Qed.

(* ---- signing and verifying pipelines (C19/Sign.v): xmldsig.Sign is the interpreter of the instruction list srcgen reads from
   the source, one instruction per statement, so these statements are about the tree state the code digests *)
(* 0. the builders of the model are the builders of the source; literals *)
Theorem pipeline_literals_tie :
  xs_remove_tag = c_Signature /\ xs_create_tag = c_Signature /\ xs_sigattr_key = c_xmlns /\ xs_sigattr_val = ns_xmldsig /\ xs_ref_id = [].
Proof. exact C19.SignProofs.xs_tags. Qed.
Theorem signed_info_builder_is_model : forall ref_id ha sa dv c, signed_info_g ref_id ha sa dv c = signed_info ref_id ha sa dv c.
Proof. exact C19.SignProofs.signed_info_g_eq. Qed.
(* 1. what the instruction list computes, for every document, every position of the signing parent, every parameter:
      key guard; RemoveElements(parent, "Signature"); digest of canonical(root); algorithm names (error checked);
      Signature / SignedInfo with that digest; signature value over canonical(SignedInfo); KeyInfo *)
Theorem xsign_is_remove_digest_build : forall P ctx0 fs ps pt pa ch,
  xsign P ctx0 fs ps pt pa ch = xsign_ref P ctx0 fs ps pt pa ch.
Proof. exact C19.SignProofs.xsign_is_ref. Qed.
(* 2. the reference digest is taken of the document with EVERY Signature child of the signing parent removed — stale,
      foreign, valid, one or many — and the parent ends up with exactly the remaining children plus the new Signature;
      Signature elements anywhere else stay and are digested *)
Theorem xsign_digest_ignores_existing_signatures : forall P ctx0 fs ps pt pa ch st,
  xsign P ctx0 fs ps pt pa ch = Ok st ->
  ref_octets st = relic_c14n ctx0 (plug fs (Elem ps pt pa (strip_sigs ch)))
  /\ out_parent ps pt pa st = Elem ps pt pa (strip_sigs ch ++ [new_sig st])
  /\ is_sig_child (new_sig st) = true.
Proof. exact C19.SignProofs.xsign_digest_ignores_existing_signatures. Qed.
Theorem xsign_same_digest_when_only_signatures_differ : forall P P' ctx0 fs ps pt pa ch ch' st st',
  strip_sigs ch = strip_sigs ch' ->
  xsign P ctx0 fs ps pt pa ch = Ok st -> xsign P' ctx0 fs ps pt pa ch' = Ok st' -> ref_octets st' = ref_octets st.
Proof.
  intros P P' ctx0 fs ps pt pa ch ch' st st' E H1 H2.
  apply xsign_digest_ignores_existing_signatures in H1 as (-> & _). apply xsign_digest_ignores_existing_signatures in H2 as (-> & _).
  rewrite E. reflexivity.
Qed.
(* 3. signing what Sign returned again (any key, digest algorithm, options) digests the same octets *)
Theorem xsign_resign_same_digest : forall P P' ctx0 fs ps pt pa ch st st',
  xsign P ctx0 fs ps pt pa ch = Ok st ->
  xsign P' ctx0 fs ps pt pa (echildren (out_parent ps pt pa st)) = Ok st' ->
  ref_octets st' = ref_octets st /\ s_ch st' = s_ch st.
Proof. exact C19.SignProofs.xsign_resign_same_digest. Qed.
(* 4. MAIN: Verify accepts what Sign returns, for every document tree (Signature children of any kind included), every
      position of the parent whose route from the root is unambiguous, every supported key type and digest; also after
      the decorations appmanifest applies afterwards (Id attributes, extra children of KeyInfo).  Hypotheses: symbolic
      cryptography (base64 round trip; the signer's value verifies under the key material it writes), root has no
      namespace-declaring ancestors (see sign_below_namespace_context_refuted) *)
Theorem verify_accepts_xsign : forall Hf b64e b64d sig_ok,
  (forall x, b64d (b64e x) = Some x) ->
  forall P ctx0 fs ps pt pa ch st xa ka kx,
  signer_ok Hf b64e sig_ok P -> ctx_nodecl ctx0 = true -> route_ok fs pt = true ->
  xsign P ctx0 fs ps pt pa ch = Ok st ->
  forallb nodecl xa = true -> forallb (fun c => negb (keymat c)) kx = true ->
  exists r,
    verify (C Hf b64d sig_ok) (plug fs (Elem ps pt pa (s_ch st ++ [deco_sig P (the_si st) (s_si_octets st) xa ka kx]))) (sig_steps fs pt) = Ok r
    /\ vr_ref_octets r = ref_octets st
    /\ vr_dv r = sp_digest_text P (ref_octets st)
    /\ vr_sigpath r = frames_path fs ++ [List.length (s_ch st)]
    /\ vr_hash r = sp_hash P.
Proof. exact C19.SignProofs.verify_accepts_xsign. Qed.
Theorem xsign_output_is_undecorated : forall P fs ps pt pa st ctx0 ch,
  xsign P ctx0 fs ps pt pa ch = Ok st ->
  out_root fs ps pt pa st = plug fs (Elem ps pt pa (s_ch st ++ [deco_sig P (the_si st) (s_si_octets st) [] [] []])).
Proof.
  intros P fs ps pt pa st ctx0 ch H. apply xsign_ok_inv in H as (ha & sa & _ & _ & ->).
  unfold out_root, cur_root, cur_parent, sig_child, the_si. cbn [s_sig s_ch s_si s_si_octets].
  rewrite deco_plain. destruct xs_tags as (_ & -> & _). reflexivity.
Qed.
(* 5. the recorded digest is the digest of what the DECLARED transforms define (specification: XMLDSIG enveloped-signature
      transform = the document without the Signature element being verified, then W3C exclusive canonicalisation),
      whenever the document that is left is in the class K on which relic's canonical form is the W3C one *)
Theorem xsign_digest_is_declared : forall P ctx0 fs ps pt pa ch st,
  xsign P ctx0 fs ps pt pa ch = Ok st -> ctx_nodecl ctx0 = true ->
  inK [] (plug fs (Elem ps pt pa (strip_sigs ch))) = true ->
  ref_octets st = spec_enveloped_octets (out_root fs ps pt pa st) (frames_path fs ++ [List.length (s_ch st)]).
Proof.
  intros P ctx0 fs ps pt pa ch st H Hctx HK.
  destruct (xsign_digest_ignores_existing_signatures _ _ _ _ _ _ _ _ H) as (-> & _).
  destruct (xsign_out_parent _ _ _ _ _ _ _ _ H) as (O & Hch & _). rewrite <- Hch in HK |- *.
  rewrite relic_c14n_nodecl, relic_eq_spec_on_K by assumption.
  (* dropping the Signature the path points at gives back the children that were digested *)
  unfold spec_enveloped_octets, out_root, cur_root. fold (out_parent ps pt pa st).
  rewrite O, spec_drop_remove_at, remove_at_plug, drop_nth_last. reflexivity.
Qed.
(* 5'. the Reference URI="" covers the DOCUMENT: the statement holds for documents without processing instructions outside
       the document element, and fails for the others (witness <?lead pi?><doc/>, replayed on the real code by the check) *)
Theorem xsign_digest_is_declared_for_document : forall P ctx0 fs ps pt pa ch st lead trail,
  xsign P ctx0 fs ps pt pa ch = Ok st -> ctx_nodecl ctx0 = true ->
  inK [] (plug fs (Elem ps pt pa (strip_sigs ch))) = true ->
  existsb is_pi lead = false -> existsb is_pi trail = false ->
  ref_octets st = spec_document_octets lead trail (out_root fs ps pt pa st) (frames_path fs ++ [List.length (s_ch st)]).
Proof.
  intros P ctx0 fs ps pt pa ch st lead trail H Hc HK Hl Ht. rewrite spec_document_octets_no_pi by assumption. exact (xsign_digest_is_declared _ _ _ _ _ _ _ _ H Hc HK).
Qed.
Theorem pi_outside_document_element_refuted :
  exists lead rt st,
    xsign w_ctx_P [[]] [] [] rt [] [] = Ok st /\ inK [] (Elem [] rt [] (strip_sigs [])) = true /\
    ref_octets st <> spec_document_octets lead [] (out_root [] [] rt [] st) [List.length (s_ch st)].
Proof.
  destruct (xsign_accepts w_ctx_P [[]] [] [] [100; 111; 99] [] []) as [st H]; [cbn; tauto | cbn; tauto | reflexivity | reflexivity |].
  exists [ProcInst [108; 101; 97; 100] [112; 105]], [100; 111; 99], st. split; [exact H|]. split; [reflexivity|].
  rewrite (xsign_digest_is_declared _ _ _ _ _ _ _ _ H eq_refl eq_refl).
  (* the declared octets are the digested ones with the rendered instruction in front *)
  unfold spec_document_octets. cbn [filter is_pi flat_map]. rewrite !app_nil_r.
  intros E. apply (app_inv_tail _ []) in E. discriminate E.
Qed.
(* 6. algorithm identifiers: what hashAlgs writes parseAlgs reads back (all key types x digests x naming schemes);
      anything else is refused, never signed *)
Theorem algs_roundtrip : forall h kk ms ha sa, hash_algs h kk ms = (ha, sa, false) -> parse_algs ha sa = Ok (h, pub_name kk).
Proof. exact C19.SignProofs.algs_roundtrip. Qed.
Theorem xsign_refuses_unsupported : forall P ctx0 fs ps pt pa ch,
  (~ In (sp_hash P) [3; 4; 5; 6; 7] \/ ~ In (sp_keykind P) [0; 1] \/ sp_ncerts P < 1 \/ sp_same_key P = false) ->
  is_ok (xsign P ctx0 fs ps pt pa ch) = false.
Proof.
  intros P ctx0 fs ps pt pa ch Hn. destruct (xsign P ctx0 fs ps pt pa ch) as [st| |] eqn:E; try reflexivity. exfalso.
  apply xsign_ok_inv in E as (ha & sa & Hk & Ha & _). apply hash_algs_domain in Ha as [Hh Hkk].
  unfold xs_bad_key in Hk. apply orb_false_iff in Hk as [Hk1 Hk2]. apply negb_false_iff in Hk2.
  destruct Hn as [Hn|[Hn|[Hn|Hn]]]; [tauto | tauto | lia | congruence].
Qed.
(* 7. appmanifest.Sign on top: the primary digest covers the manifest with the signer's identity fields and without any
      Signature child of the root; signing a signed manifest again (same identity) digests the same octets; what Sign
      returns passes both signature checks of appmanifest.Verify *)
Theorem am_primary_digest : forall I P1 P2 mh rs rt ra ch o,
  am_sign I P1 P2 mh rs rt ra ch = Ok o ->
  ref_octets (ao_primary o) = relic_c14n [] (Elem rs rt ra (am_content I ch)).
Proof. exact C19.SignProofs.am_primary_digest. Qed.
Theorem am_resign_same_digest : forall I P1 P2 mh P1' P2' mh' rs rt ra ch o o',
  am_sign I P1 P2 mh rs rt ra ch = Ok o ->
  am_sign I P1' P2' mh' rs rt ra (echildren (ao_root o)) = Ok o' ->
  ref_octets (ao_primary o') = ref_octets (ao_primary o).
Proof.
  intros I P1 P2 mh P1' P2' mh' rs rt ra ch o o' H1 H2. rewrite (am_primary_digest _ _ _ _ _ _ _ _ _ H1), (am_primary_digest _ _ _ _ _ _ _ _ _ H2).
  apply am_sign_shape in H1 as (asi & Fa & _ & _ & Hch & _ & ->). cbn [echildren]. rewrite Hch.
  now rewrite am_content_resign.
Qed.
Theorem am_verify_accepts_am_sign : forall Hf b64e b64d sig_ok,
  (forall x, b64d (b64e x) = Some x) ->
  forall I P1 P2 mh rs rt ra ch o,
  signer_ok Hf b64e sig_ok P1 -> signer_ok Hf b64e sig_ok P2 ->
  fin_attach_cond (zlen (keyinfo_kids P1)) = true -> forallb keymat (keyinfo_kids P1) = true ->
  am_sign I P1 P2 mh rs rt ra ch = Ok o ->
  exists r1 r2,
    am_verify (C Hf b64d sig_ok) (ao_root o) = Ok (r1, r2)
    /\ vr_ref_octets r1 = ref_octets (ao_primary o) /\ vr_dv r1 = sp_digest_text P1 (ref_octets (ao_primary o))
    /\ vr_ref_octets r2 = ref_octets (ao_secondary o) /\ vr_dv r2 = sp_digest_text P2 (ref_octets (ao_secondary o))
    /\ vr_ref_octets r1 = relic_c14n [] (Elem rs rt ra (am_content I ch)).
Proof.
  intros Hf b64e b64d sig_ok b64_roundtrip I P1 P2 mh rs rt ra ch o S1 S2 Hat Hkm H.
  pose proof (am_primary_digest _ _ _ _ _ _ _ _ _ H) as PD.
  apply am_sign_shape in H as (asi & Fa & X1 & X2 & C1 & C2 & Hroot). cbv zeta in X2, Hroot.
  set (st1 := ao_primary o) in *. set (st2 := ao_secondary o) in *.
  set (lf := license_frame (f_asi I asi) (id_subject I) (mh (sp_digest_text P1 (ref_octets st1)))) in *.
  set (lic := plug [lf] (Elem c_r c_issuer [] (s_ch st2 ++ [deco_sig P2 (the_si st2) (s_si_octets st2) as_attrs [] []]))) in *.
  assert (Hnd : forall cond v, forallb nodecl (id_attrs cond v) = true) by (intros cond v; unfold id_attrs; destruct (cond v); reflexivity).
  destruct (verify_accepts_xsign Hf b64e b64d sig_ok b64_roundtrip P1 [] [] rs rt ra (prep I ch) st1 sn_attrs sk_attrs [reldata_of lic]
              S1 eq_refl eq_refl X1 (Hnd _ _) eq_refl) as (r1 & V1 & R1 & D1 & _).
  destruct (verify_accepts_xsign Hf b64e b64d sig_ok b64_roundtrip P2 [] [lf] c_r c_issuer [] [] st2 as_attrs [] []
              S2 eq_refl eq_refl X2 (Hnd _ _) eq_refl) as (r2 & V2 & R2 & D2 & _).
  exists r1, r2. split.
  - unfold am_verify, am_verify_with. rewrite Hroot. cbn [plug fold_right] in V1.
    change (sig_steps [] rt) with [qname_of c_Signature] in V1. rewrite V1.
    destruct (xsign_out_parent _ _ _ _ _ _ _ _ X1) as (_ & _ & K1).
    destruct (license_found P1 (the_si st1) (s_si_octets st1) rs rt ra (s_ch st1) sn_attrs sk_attrs lic) as (p & ctx & Fp & Gp).
    + rewrite C1. apply strip_sigs_none.
    + exact K1.
    + exact Hat.
    + exact Hkm.
    + reflexivity.
    + cbv zeta in Fp, Gp. rewrite Fp, Gp.
      change [qname_of c_issuer; qname_of c_Signature] with (sig_steps [lf] c_issuer). fold lic in V2. rewrite V2. reflexivity.
  - repeat split; try assumption. rewrite R1. exact PD.
Qed.
(* 8. the hypothesis on root's ancestors cannot be dropped: Verify works on root.Copy(), which has no parent, while Sign
      canonicalises root where it stands; if root is not the document element and uses a namespace declared on one of its
      ancestors, the two digests are taken of different octets (relic's callers always sign a document element or a
      free-standing element) *)
Theorem sign_below_namespace_context_refuted :
  exists ctx0 rs rt st r,
    xsign w_ctx_P ctx0 [] rs rt [] [] = Ok st /\ verify_struct (out_root [] rs rt [] st) (sig_steps [] rt) = Ok r /\
    vr_ref_octets r <> ref_octets st.
Proof.
  pose (ctx0 := [[mkattr c_xmlns [112] [117; 114; 110; 58; 112]]]).
  destruct (xsign_accepts w_ctx_P ctx0 [] [112] [100; 111; 99] [] []) as [st H]; [cbn; tauto | cbn; tauto | reflexivity | reflexivity |].
  exists ctx0, [112], [100; 111; 99], st.
  rewrite (xsign_output_is_undecorated _ _ _ _ _ _ _ _ H).
  destruct (xsign_ok_inv _ _ _ _ _ _ _ _ H) as (ha & sa & _ & Halg & ->). unfold the_si, ref_octets. cbn [s_ch s_si s_si_octets s_ref].
  eexists. split; [exact H|]. split.
  - apply (verify_struct_built w_ctx_P [] [112] [100; 111; 99] [] []); try reflexivity. exact Halg.
  - (* <p:doc/> with and without xmlns:p="urn:p" in scope *)
    cbn [vr_ref_octets]. vm_compute. discriminate.
Qed.

From Coq Require Import String.
Local Open Scope string_scope.
(* non-vacuity: a ClickOnce-like subtree with default and prefixed namespaces declared at ancestors is in K *)
Example inK_example :
  let t := E "" "dependency" [] [E "asmv2" "x" [A "asmv2" "a" "1"; A "" "b" "2"] [CharData (s2b "t"); Comment (s2b "c")]; E "dsig" "T" [A "xmlns" "dsig" "urn:d"] []] in
  let ctx := [[A "xmlns" "asmv2" "urn:v2"; A "" "xmlns" "urn:v1"; A "xmlns" "unused" "urn:u"]] in
  inK ctx t = true /\ wf_doc ctx t = true /\ relic_c14n ctx t = exc_c14n ctx t.
Proof. vm_compute. repeat split. Qed.

(* ---- canonicalisation: outside K the faithful model differs from W3C exc-c14n; one witness per clause *)
Theorem pi_dropped_refuted : diverges [] w_pi 1.
Proof. diverge. Qed.
Theorem redundant_redeclaration_refuted : diverges [] w_redundant 3.
Proof. diverge. Qed.
Theorem redundant_wrt_rendered_refuted : diverges [] w_redundant_far 3.
Proof. diverge. Qed.
Theorem attr_order_refuted : diverges [] w_attr_order 4.
Proof. diverge. Qed.
Theorem attr_order_xml_refuted : diverges [] w_attr_order_xml 4.
Proof. diverge. Qed.
Theorem xmlns_empty_refuted : diverges [] w_xmlns_empty 3.
Proof. diverge. Qed.
Theorem ctx_undeclare_refuted : diverges (fst w_ctx_undeclare) (snd w_ctx_undeclare) 2.
Proof. diverge. Qed.
Theorem attr_named_xmlns_refuted : diverges [] w_attr_named_xmlns 5.
Proof. diverge. Qed.

(* ---- non-vacuity of the pipeline theorems *)
(* <doc><a/><Signature>old</Signature><b><Signature/></b><x:Signature xmlns:x="urn:x"/>t</doc>: two Signature children of
   the parent (one prefixed), one nested: Sign succeeds, the nested one is digested, the two others are not; Verify's octets
   are Sign's; signing the result again digests the same octets; the document left is in K *)
Definition ex_P : sigparams :=
  SigParams 5 0 1 true true false true false [E "" "KeyValue" [] []] [] (fun o => o) (fun o => o).
Definition ex_ch : list node :=
  [E "" "a" [] []; E "" "Signature" [] [CharData (s2b "old")]; E "" "b" [] [E "" "Signature" [] []];
   E "x" "Signature" [A "xmlns" "x" "urn:x"] []; CharData (s2b "t")].
Example resign_example :
  match xsign ex_P [[]] [] [] (s2b "doc") [] ex_ch with
  | Ok st =>
      s_ch st = [E "" "a" [] []; E "" "b" [] [E "" "Signature" [] []]; CharData (s2b "t")]
      /\ inK [] (Elem [] (s2b "doc") [] (s_ch st)) = true
      /\ (match verify_struct (out_root [] [] (s2b "doc") [] st) (sig_steps [] (s2b "doc")) with
          | Ok r => vr_ref_octets r = ref_octets st /\ vr_sigpath r = [3%nat]
          | _ => False end)
      /\ (match xsign ex_P [[]] [] [] (s2b "doc") [] (echildren (out_parent [] (s2b "doc") [] st)) with
          | Ok st' => ref_octets st' = ref_octets st
          | _ => False end)
  | _ => False
  end.
Proof. vm_compute. repeat split. Qed.
(* the symbolic-cryptography hypotheses are satisfiable *)
Example signer_ok_example :
  signer_ok (fun _ o => o) (fun x => x) (fun _ _ _ _ _ => true) ex_P /\ (forall x : bytes, Some ((fun y => y) x) = Some x)
  /\ fin_attach_cond (zlen (keyinfo_kids ex_P)) = true /\ forallb keymat (keyinfo_kids ex_P) = true
  /\ route_ok [license_frame (E "" "assemblyIdentity" [] []) [] []] (s2b "issuer") = true /\ ctx_nodecl [[]] = true.
Proof. repeat split. Qed.
(* a manifest that carries a foreign Signature and a publisherIdentity: appmanifest.Sign succeeds, both signatures pass the
   structural half of Verify on the same octets, and signing the result again digests the same octets *)
Definition ex_I : identity := Identity (s2b "0123456789abcdef") (s2b "CN=x") (s2b "ff").
Definition ex_man : list node :=
  [E "" "Signature" [A "" "xmlns" "http://www.w3.org/2000/09/xmldsig#"] [CharData (s2b "stale")];
   E "" "assemblyIdentity" [A "" "name" "App.exe"; A "" "publicKeyToken" "0000000000000000"] [];
   E "" "publisherIdentity" [A "" "name" "CN=old"] []; E "" "dependency" [] [E "" "Signature" [] []]].
Example am_example :
  match am_sign ex_I ex_P ex_P (fun d => d) (s2b "asmv1") (s2b "assembly") [A "xmlns" "asmv1" "urn:schemas-microsoft-com:asm.v1"] ex_man with
  | Ok o =>
      (match am_verify_struct (ao_root o) with
       | Ok (r1, r2) => vr_ref_octets r1 = ref_octets (ao_primary o) /\ vr_ref_octets r2 = ref_octets (ao_secondary o)
       | _ => False end)
      /\ (match am_sign ex_I ex_P ex_P (fun d => d) (s2b "asmv1") (s2b "assembly") [A "xmlns" "asmv1" "urn:schemas-microsoft-com:asm.v1"] (echildren (ao_root o)) with
          | Ok o' => ref_octets (ao_primary o') = ref_octets (ao_primary o)
          | _ => False end)
  | _ => False
  end.
Proof. vm_compute. repeat split. Qed.
