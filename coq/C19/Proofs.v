(* C19/Proofs.v — relic's canonicaliser against W3C exc-c14n, and r||s packing.
   The tree-rewriting model is first shown equal to the top-down walkD, which carries the pending declarations D as an
   argument.  On K both attribute loops of walkD are filters; the invariant Inv relates D to the two namespace
   environments of the specification, holds at the apex (root_inv) and passes from an element to its children
   (child_inv), so that walkD writes what exc_node writes (walkD_is_spec). *)
From Relic Require Import Base.Prelude Base.Enc Base.Lists Base.Slice Generated.C19_gen C19.Model.
From Coq Require Import Permutation Sorted.

(* ---- lists *)
Lemma existsb_false_iff {A} (f : A -> bool) l : existsb f l = false <-> forall x, In x l -> f x = false.
Proof.
  split.
  - intros H x Hx. destruct (f x) eqn:E; [|reflexivity].
    assert (existsb f l = true) by (apply existsb_exists; eauto). congruence.
  - intros H. destruct (existsb f l) eqn:E; [|reflexivity]. apply existsb_exists in E as (x & Hx & Fx).
    rewrite (H x Hx) in Fx. discriminate.
Qed.
Lemma existsb_perm {A} (f : A -> bool) l l' : Permutation l l' -> existsb f l = existsb f l'.
Proof.
  intros P. destruct (existsb f l) eqn:E.
  - apply existsb_exists in E as (x & Hx & Fx). symmetry. apply existsb_exists. exists x. split; [|assumption].
    now apply (Permutation_in _ P).
  - symmetry. apply existsb_false_iff. intros x Hx. rewrite existsb_false_iff in E. apply E.
    apply (Permutation_in _ (Permutation_sym P)). exact Hx.
Qed.
Lemma flat_map_ext_in {A B} (f g : A -> list B) l : (forall x, In x l -> f x = g x) -> flat_map f l = flat_map g l.
Proof.
  induction l as [|x l IH]; intros H; [reflexivity|]. cbn. rewrite (H x (or_introl eq_refl)), IH; [reflexivity|].
  intros y Hy. apply H. now right.
Qed.
Lemma flat_map_nil {A B} (f : A -> list B) l : flat_map f l = [] -> Forall (fun x => f x = []) l.
Proof.
  induction l as [|x l IH]; intros H; [constructor|]. cbn in H. apply app_eq_nil in H as [H1 H2]. constructor; auto.
Qed.
Lemma flat_map_map {A B C} (f : B -> list C) (h : A -> B) l : flat_map f (map h l) = flat_map (fun x => f (h x)) l.
Proof. induction l as [|x l IH]; [reflexivity|]. cbn. now rewrite IH. Qed.
Lemma pairs_from_fst (g : bytes -> bytes) (l : list (bytes * bytes)) :
  (forall d, In d l -> snd d = g (fst d)) -> l = map (fun p => (p, g p)) (map fst l).
Proof.
  induction l as [|[p v] l IH]; intros H; [reflexivity|]. cbn [map fst]. f_equal.
  - specialize (H (p, v) (or_introl eq_refl)). cbn in H. now subst.
  - apply IH. intros; apply H; now right.
Qed.
Lemma in_fst_exists {A B} (l : list (A * B)) p : In p (map fst l) -> exists v, In (p, v) l.
Proof. intros H. apply in_map_iff in H as ([q v] & <- & H). now exists v. Qed.
Lemma sorted_weaken {A} (P Q : A -> A -> Prop) l :
  NoDup l -> (forall x y, In x l -> In y l -> x <> y -> P x y -> Q x y) -> StronglySorted P l -> StronglySorted Q l.
Proof.
  induction l as [|x l IH]; intros ND H S; [constructor|]. inversion S as [|? ? S' F]; subst. inversion ND as [|? ? Nin ND']; subst.
  constructor.
  - apply IH; try assumption. intros a b Ha Hb. apply H; now right.
  - rewrite Forall_forall in *. intros y Hy. apply H; [now left | now right | intros ->; contradiction | now apply F].
Qed.

Section NodeInd.
  Variable P : node -> Prop.
  Hypothesis HE : forall s t a ch, Forall P ch -> P (Elem s t a ch).
  Hypothesis HC : forall d, P (CharData d).
  Hypothesis HM : forall d, P (Comment d).
  Hypothesis HP : forall t i, P (ProcInst t i).
  Hypothesis HD : forall d, P (Directive d).
  Fixpoint node_ind' (n : node) : P n :=
    match n with
    | Elem s t a ch => HE s t a ch ((fix go (l : list node) : Forall P l :=
                                      match l with [] => Forall_nil P | c :: r => Forall_cons c (node_ind' c) (go r) end) ch)
    | CharData d => HC d
    | Comment d => HM d
    | ProcInst t i => HP t i
    | Directive d => HD d
    end.
End NodeInd.

(* ---- the tree-rewriting model is the top-down one: pushing the list D down into a subtree and walking it is walkD D *)
Definition pushes (D : list (bytes * bytes)) (n : node) : node := fold_left push_decl D n.

Lemma pushes_app D1 D2 n : pushes (D1 ++ D2) n = pushes D2 (pushes D1 n).
Proof. unfold pushes. apply fold_left_app. Qed.
Lemma push_decl_nonelem n d : kind_of n <> 0 -> push_decl n d = n.
Proof. destruct n; cbn; intros H; try reflexivity. contradiction. Qed.
Lemma pushes_nonelem D n : kind_of n <> 0 -> pushes D n = n.
Proof.
  intros H. unfold pushes. induction D as [|d D IH]; [reflexivity|]. cbn [fold_left].
  rewrite push_decl_nonelem by assumption. exact IH.
Qed.
Lemma push_decl_kind n d : kind_of (push_decl n d) = kind_of n.
Proof.
  destruct n; try reflexivity. unfold push_decl. cbn [push_down].
  destruct (pd_redeclared _ _); [reflexivity|]. destruct (pd_declare_here _); reflexivity.
Qed.
Lemma pushes_kind D n : kind_of (pushes D n) = kind_of n.
Proof.
  unfold pushes. revert n. induction D as [|d D IH]; intros n; [reflexivity|]. cbn [fold_left].
  rewrite IH. apply push_decl_kind.
Qed.

(* one more declaration pushed into children that already received P0 *)
Lemma push_pushed P0 sp v ch : map (push_down true sp (put_decl sp) v) (map (pushes P0) ch) = map (pushes (P0 ++ [(sp, v)])) ch.
Proof. rewrite map_map. apply map_ext. intros x. now rewrite pushes_app. Qed.
Lemma pushes_elem_gen s t D : forall a P0 ch,
  fold_left push_decl D (Elem s t a (map (pushes P0) ch)) =
  let '(a1, P1) := fold_left (place_one s) D (a, P0) in Elem s t a1 (map (pushes P1) ch).
Proof.
  induction D as [|[sp v] D IH]; intros a P0 ch; [reflexivity|].
  cbn [fold_left]. unfold push_decl at 2. cbn [push_down fst snd]. unfold place_one at 2. cbn [fst snd].
  destruct (pd_redeclared true (select_attr (put_decl sp) a)); [apply IH|].
  destruct (pd_declare_here (uses_space s a sp)); [apply IH|].
  destruct pd_recurses; [|apply IH].
  rewrite push_pushed. apply IH.
Qed.
Lemma pushes_elem s t a ch D :
  pushes D (Elem s t a ch) = let '(a1, P1) := place_all s a D in Elem s t a1 (map (pushes P1) ch).
Proof.
  unfold place_all. rewrite <- pushes_elem_gen. unfold pushes at 1. f_equal. f_equal.
  rewrite <- (map_id ch) at 1. apply map_ext. reflexivity.
Qed.

Lemma own_loop_acc s : forall rest done P0,
  own_loop s done rest P0 = let '(a2, dn) := own_loop s done rest [] in (a2, P0 ++ dn).
Proof.
  induction rest as [|a rest IH]; intros done P0.
  - cbn. now rewrite app_nil_r.
  - cbn [own_loop]. destruct (get_decl (a3_space a) (a3_key a)) as [space isd].
    destruct (walk_push_cond isd _).
    + destruct walk_pushes_from_self.
      * destruct (pd_redeclared false _); [destruct walk_removes_pushed; apply IH|].
        destruct (pd_declare_here _); [destruct walk_removes_pushed; apply IH|].
        destruct pd_recurses; [|destruct walk_removes_pushed; apply IH].
        destruct walk_removes_pushed;
          rewrite (IH _ (P0 ++ [(space, a3_val a)])), (IH _ ([] ++ [(space, a3_val a)]));
          destruct (own_loop s _ rest []) as [a2 dn]; now rewrite <- app_assoc.
      * destruct walk_removes_pushed; apply IH.
    + apply IH.
Qed.

Lemma walk_attrs_own s t : forall rest done P0 ch0,
  walk_attrs s t done rest (map (pushes P0) ch0) =
  let '(a2, dn) := own_loop s done rest P0 in (a2, map (pushes dn) ch0).
Proof.
  induction rest as [|a rest IH]; intros done P0 ch0; [reflexivity|].
  cbn [walk_attrs own_loop]. destruct (get_decl (a3_space a) (a3_key a)) as [space isd].
  destruct (walk_push_cond isd _); [|apply IH].
  destruct walk_pushes_from_self.
  - cbn [push_down].
    destruct (pd_redeclared false _); [destruct walk_removes_pushed; apply IH|].
    destruct (pd_declare_here _); [destruct walk_removes_pushed; apply IH|].
    destruct pd_recurses; [|destruct walk_removes_pushed; apply IH].
    rewrite push_pushed. destruct walk_removes_pushed; apply IH.
  - destruct walk_removes_pushed; apply IH.
Qed.

Lemma height_pos n : (1 <= height n)%nat.
Proof. destruct n; cbn; lia. Qed.
Lemma height_child s t a ch c : In c ch -> (S (height c) <= height (Elem s t a ch))%nat.
Proof.
  cbn [height]. induction ch as [|x r IH]; intros H; [contradiction|].
  cbn [fold_right]. destruct H as [->|H]; [lia|]. specialize (IH H). lia.
Qed.

Lemma walk_is_walkD : child_walked 0 = true -> forall n D fuel, (height n <= fuel)%nat -> walk fuel (pushes D n) = walkD D n.
Proof.
  intros HW. induction n as [s t a ch IH| | | |] using node_ind'; intros D fuel Hf;
    try (rewrite pushes_nonelem by (cbn; discriminate); destruct fuel; reflexivity).
  destruct fuel as [|f]; [pose proof (height_pos (Elem s t a ch)); lia|].
  rewrite pushes_elem. cbn [walkD]. destruct (place_all s a D) as [a1 pass].
  cbn [walk]. rewrite (walk_attrs_own s t a1 [] pass ch).
  rewrite (own_loop_acc s a1 [] pass). destruct (own_loop s [] a1 []) as [a2 dn].
  f_equal.
  assert (Hc : forall c, In c ch -> (height c <= f)%nat).
  { intros c Hc. pose proof (height_child s t a ch c Hc). lia. }
  clear Hf. induction ch as [|c r IHr]; [reflexivity|].
  cbn [map walk_children flat_map]. inversion IH as [|? ? Hc1 Hr]; subst.
  rewrite pushes_kind.
  destruct (child_kept (kind_of c)).
  - cbn [app]. f_equal.
    + destruct (child_walked (kind_of c)) eqn:Ew.
      * apply Hc1. apply Hc. now left.
      * apply pushes_nonelem. intros E0. rewrite E0, HW in Ew. discriminate.
    + apply IHr; [assumption|]. intros x Hx. apply Hc. now right.
  - cbn [app]. apply IHr; [assumption|]. intros x Hx. apply Hc. now right.
Qed.

Theorem relic_is_top_down ctx n : relic_c14n ctx n = relic_c14n_td ctx n.
Proof.
  unfold relic_c14n, relic_c14n_td, relic_tree, pull_down.
  change (list_eqb Z.eqb ser_call_order [0; 1; 2; 3]) with true. cbn iota.
  change pull_pushes_with_nil_top with true. cbn iota.
  f_equal. apply (walk_is_walkD eq_refl). lia.
Qed.

(* ---- byte strings *)
Lemma beqP a b : reflect (a = b) (bytes_eqb a b).
Proof. destruct (bytes_eqb a b) eqn:E; constructor; [now apply bytes_eqb_eq | now apply bytes_eqb_neq]. Qed.
Lemma bytes_dec (a b : bytes) : {a = b} + {a <> b}.
Proof. destruct (beqP a b); [now left | now right]. Qed.

Lemma str_ltb_irrefl a : str_ltb a a = false.
Proof. induction a as [|x a IH]; [reflexivity|]. cbn. rewrite IH. lia. Qed.
Lemma str_ltb_trans a : forall b c, str_ltb a b = true -> str_ltb b c = true -> str_ltb a c = true.
Proof.
  induction a as [|x a IH]; intros [|y b] [|z c] H1 H2; cbn in *; try discriminate; try reflexivity.
  apply orb_true_iff in H1. apply orb_true_iff in H2. apply orb_true_iff.
  destruct H1 as [H1|H1], H2 as [H2|H2].
  - left. lia.
  - apply andb_true_iff in H2 as [E _]. left. lia.
  - apply andb_true_iff in H1 as [E _]. left. lia.
  - apply andb_true_iff in H1 as [E1 L1]. apply andb_true_iff in H2 as [E2 L2]. right.
    apply andb_true_iff. split; [lia|]. eapply IH; eassumption.
Qed.
Lemma str_ltb_total a : forall b, a <> b -> str_ltb a b = true \/ str_ltb b a = true.
Proof.
  induction a as [|x a IH]; intros [|y b] H; cbn; try tauto.
  destruct (Z.lt_trichotomy x y) as [L|[E|L]].
  - left. apply orb_true_iff. left. lia.
  - subst y. assert (Hab : a <> b) by congruence. destruct (IH b Hab) as [G|G]; [left|right];
      apply orb_true_iff; right; apply andb_true_iff; split; try lia; assumption.
  - right. apply orb_true_iff. left. lia.
Qed.
Lemma str_ltb_asym a b : str_ltb a b = true -> str_ltb b a = false.
Proof.
  intros H. destruct (str_ltb b a) eqn:E; [|reflexivity].
  pose proof (str_ltb_trans _ _ _ H E) as T. rewrite str_ltb_irrefl in T. discriminate.
Qed.

(* ---- strict total orders given as boolean functions; the lexicographic product of two is one *)
Definition strict_total {A} (lt : A -> A -> bool) : Prop :=
  (forall a, lt a a = false) /\
  (forall a b c, lt a b = true -> lt b c = true -> lt a c = true) /\
  (forall a b, a <> b -> lt a b = true \/ lt b a = true).

Section Lex.
  Context {A B : Type} (eqb : A -> A -> bool) (ltA : A -> A -> bool) (ltB : B -> B -> bool).
  Hypothesis eqbP : forall a c, reflect (a = c) (eqb a c).
  Definition lexb (x y : A * B) : bool := if eqb (fst x) (fst y) then ltB (snd x) (snd y) else ltA (fst x) (fst y).
  Lemma lexb_order : strict_total ltA -> strict_total ltB -> strict_total lexb.
  Proof.
    intros (IA & TA & OA) (IB & TB & OB). unfold lexb. split; [|split].
    - intros [a b]. cbn [fst snd]. destruct (eqbP a a); [apply IB | contradiction].
    - intros [a b] [c d] [e f]. cbn [fst snd]. destruct (eqbP a c) as [->|Hac], (eqbP c e) as [->|Hce]; intros H1 H2.
      + eauto.
      + exact H2.
      + destruct (eqbP a e) as [->|]; [now destruct Hac | exact H1].
      + pose proof (TA _ _ _ H1 H2) as T. destruct (eqbP a e) as [->|]; [now rewrite IA in T | exact T].
    - intros [a b] [c d] H. cbn [fst snd]. destruct (eqbP a c) as [->|Hac].
      + destruct (eqbP c c); [|contradiction]. apply OB. congruence.
      + destruct (eqbP c a) as [->|]; [contradiction|]. now apply OA.
  Qed.
End Lex.

Lemma str_ltb_order : strict_total str_ltb.
Proof. exact (conj str_ltb_irrefl (conj str_ltb_trans str_ltb_total)). Qed.
Definition lex_lt : bytes * bytes -> bytes * bytes -> bool := lexb bytes_eqb str_ltb str_ltb.
Lemma lex_order : strict_total lex_lt.
Proof. exact (lexb_order _ _ _ beqP str_ltb_order str_ltb_order). Qed.

(* ---- insertion sort *)
Section Sort.
  Context {A : Type}.
  Lemma isort_cons (lt : A -> A -> bool) x l : isort lt (x :: l) = insert lt x (isort lt l).
  Proof. reflexivity. Qed.
  Lemma insert_perm (lt : A -> A -> bool) x l : Permutation (insert lt x l) (x :: l).
  Proof.
    induction l as [|y r IH]; cbn; [reflexivity|]. destruct (lt x y); [reflexivity|].
    rewrite IH. apply perm_swap.
  Qed.
  Lemma isort_perm_self (lt : A -> A -> bool) l : Permutation (isort lt l) l.
  Proof.
    induction l as [|x l IH]; [reflexivity|]. rewrite isort_cons, insert_perm. now constructor.
  Qed.
  Lemma isort_in (lt : A -> A -> bool) l x : In x (isort lt l) <-> In x l.
  Proof. split; apply Permutation_in; [apply isort_perm_self | symmetry; apply isort_perm_self]. Qed.

  (* the result depends on the comparator only through the pairs of members *)
  Lemma insert_ext (lt1 lt2 : A -> A -> bool) x l :
    (forall y, In y l -> lt1 x y = lt2 x y) -> insert lt1 x l = insert lt2 x l.
  Proof.
    induction l as [|y r IH]; intros H; cbn; [reflexivity|].
    rewrite (H y (or_introl eq_refl)). destruct (lt2 x y); [reflexivity|]. f_equal. apply IH.
    intros z Hz. apply H. now right.
  Qed.
  Lemma isort_ext (lt1 lt2 : A -> A -> bool) l :
    (forall x y, In x l -> In y l -> lt1 x y = lt2 x y) -> isort lt1 l = isort lt2 l.
  Proof.
    induction l as [|x l IH]; intros H; [reflexivity|]. rewrite !isort_cons.
    rewrite IH by (intros; apply H; now right).
    apply insert_ext. intros y Hy. apply H; [now left|]. right. exact (proj1 (isort_in lt2 l y) Hy).
  Qed.
  (* same, when only distinct positions are compared *)
  Lemma isort_ext_nodup (lt1 lt2 : A -> A -> bool) l :
    NoDup l -> (forall x y, In x l -> In y l -> x <> y -> lt1 x y = lt2 x y) -> isort lt1 l = isort lt2 l.
  Proof.
    induction l as [|x l IH]; intros ND H; [reflexivity|]. rewrite !isort_cons. inversion ND; subst.
    rewrite IH by (try assumption; intros; apply H; try (now right); assumption).
    apply insert_ext. intros y Hy. apply (proj1 (isort_in lt2 l y)) in Hy. apply H; [now left | now right |]. intros ->. contradiction.
  Qed.

  (* two classes, every member of the first below every member of the second *)
  Lemma insert_lo (lt : A -> A -> bool) x l1 l2 :
    (forall y, In y l2 -> lt x y = true) -> insert lt x (l1 ++ l2) = insert lt x l1 ++ l2.
  Proof.
    intros H. induction l1 as [|y r IH]; cbn.
    - destruct l2 as [|z l2]; [reflexivity|]. cbn. now rewrite (H z (or_introl eq_refl)).
    - destruct (lt x y); [reflexivity|]. now rewrite IH.
  Qed.
  Lemma insert_hi (lt : A -> A -> bool) x l1 l2 :
    (forall y, In y l1 -> lt x y = false) -> insert lt x (l1 ++ l2) = l1 ++ insert lt x l2.
  Proof.
    intros H. induction l1 as [|y r IH]; cbn; [reflexivity|].
    rewrite (H y (or_introl eq_refl)). f_equal. apply IH. intros z Hz. apply H. now right.
  Qed.
  Lemma isort_partition (lt : A -> A -> bool) (lo : A -> bool) l :
    (forall x y, In x l -> In y l -> lo x = true -> lo y = false -> lt x y = true /\ lt y x = false) ->
    isort lt l = isort lt (filter lo l) ++ isort lt (filter (fun x => negb (lo x)) l).
  Proof.
    induction l as [|x l IH]; intros H; [reflexivity|]. cbn [filter]. rewrite isort_cons.
    rewrite IH by (intros; apply H; try (now right); assumption).
    destruct (lo x) eqn:E; cbn [negb]; rewrite isort_cons.
    - apply insert_lo. intros y Hy. apply (proj1 (isort_in _ _ _)), filter_In in Hy as [Hy Ly].
      apply (H x y); [now left | now right | assumption |]. now destruct (lo y).
    - apply insert_hi. intros y Hy. apply (proj1 (isort_in _ _ _)), filter_In in Hy as [Hy Ly].
      apply (H y x); [now right | now left | assumption | assumption].
  Qed.

  Lemma insert_map {B} (lt : A -> A -> bool) (lt' : B -> B -> bool) (f : B -> A) x r :
    (forall x y, lt (f x) (f y) = lt' x y) -> insert lt (f x) (map f r) = map f (insert lt' x r).
  Proof.
    intros H. induction r as [|y r IHr]; [reflexivity|]. cbn [map insert].
    rewrite H. destruct (lt' x y); [reflexivity|]. cbn [map]. now rewrite IHr.
  Qed.
  Lemma isort_map {B} (lt : A -> A -> bool) (lt' : B -> B -> bool) (f : B -> A) l :
    (forall x y, lt (f x) (f y) = lt' x y) -> isort lt (map f l) = map f (isort lt' l).
  Proof.
    intros H. induction l as [|x l IH]; [reflexivity|]. cbn [map]. rewrite !isort_cons.
    rewrite IH. now apply insert_map.
  Qed.
End Sort.

(* sorting by a key under a strict total order of the keys: with distinct keys the sorted list is unique *)
Section SortByKey.
  Context {A K : Type} (ord : K -> K -> bool) (key : A -> K).
  Hypothesis Ord : strict_total ord.
  Definition by_key (x y : A) : bool := ord (key x) (key y).
  Let ltP (x y : A) : Prop := by_key x y = true.
  Lemma insert_sorted x l : ~ In (key x) (map key l) -> StronglySorted ltP l -> StronglySorted ltP (insert by_key x l).
  Proof.
    destruct Ord as (_ & Tr & To). intros Nin Hs. induction l as [|y r IH]; cbn [insert].
    - repeat constructor.
    - inversion Hs as [|? ? Hr Hy]; subst. rewrite Forall_forall in Hy. destruct (by_key x y) eqn:E.
      + constructor; [assumption|]. constructor; [exact E|].
        apply Forall_forall. intros z Hz. exact (Tr _ _ _ E (Hy z Hz)).
      + assert (Lyx : by_key y x = true).
        { destruct (To (key x) (key y)) as [G|G]; [intros G; apply Nin; left; now symmetry | unfold by_key in E; congruence | exact G]. }
        constructor.
        * apply IH; [intros G; apply Nin; now right | assumption].
        * apply Forall_forall. intros z Hz.
          apply (Permutation_in _ (insert_perm by_key x r)) in Hz. destruct Hz as [<-|Hz]; [exact Lyx | now apply Hy].
  Qed.
  Lemma isort_sorted l : NoDup (map key l) -> StronglySorted ltP (isort by_key l).
  Proof.
    induction l as [|x l IH]; intros ND; [constructor|]. rewrite isort_cons. inversion ND as [|? ? Nin ND']; subst.
    apply insert_sorted; [|now apply IH].
    intros G. apply Nin. apply (Permutation_in _ (Permutation_map key (isort_perm_self by_key l))). exact G.
  Qed.
  Lemma sorted_unique l1 : forall l2,
    StronglySorted ltP l1 -> StronglySorted ltP l2 -> (forall x, In x l1 <-> In x l2) -> l1 = l2.
  Proof.
    destruct Ord as (Ir & Tr & _).
    assert (Irr : forall x l, Forall (ltP x) l -> ~ In x l).
    { intros x l F Hx. rewrite Forall_forall in F. specialize (F x Hx). unfold ltP, by_key in F. rewrite Ir in F. discriminate. }
    induction l1 as [|x l1 IH]; intros l2 H1 H2 Hm.
    - destruct l2 as [|y l2]; [reflexivity|]. exfalso. apply (Hm y). now left.
    - destruct l2 as [|y l2]; [exfalso; apply (Hm x); now left|].
      inversion H1 as [|? ? Hs1 Hx]; subst. inversion H2 as [|? ? Hs2 Hy]; subst.
      assert (E : x = y).
      { destruct (proj1 (Hm x) (or_introl eq_refl)) as [G|G]; [now symmetry|].
        destruct (proj2 (Hm y) (or_introl eq_refl)) as [G'|G']; [assumption|].
        rewrite Forall_forall in Hx, Hy. pose proof (Tr (key x) (key y) (key x) (Hx _ G') (Hy _ G)) as T.
        rewrite Ir in T. discriminate. }
      subst y. f_equal. apply IH; try assumption.
      intros z. split; intros Hz.
      + destruct (proj1 (Hm z) (or_intror Hz)) as [<-|G]; [now destruct (Irr x l1) | assumption].
      + destruct (proj2 (Hm z) (or_intror Hz)) as [<-|G]; [now destruct (Irr x l2) | assumption].
  Qed.
  Lemma isort_unique l1 l2 : NoDup (map key l1) -> Permutation l1 l2 -> isort by_key l1 = isort by_key l2.
  Proof.
    intros ND P. apply sorted_unique.
    - now apply isort_sorted.
    - apply isort_sorted. exact (Permutation_NoDup (Permutation_map key P) ND).
    - intros x. rewrite !isort_in. split; apply Permutation_in; [exact P | now apply Permutation_sym].
  Qed.
End SortByKey.

Lemma isort_prefix_unique l1 l2 :
  NoDup l1 -> NoDup l2 -> (forall x, In x l1 <-> In x l2) -> isort prefix_lt l1 = isort prefix_lt l2.
Proof.
  intros N1 N2 Hm. apply (isort_unique str_ltb (fun p => p) str_ltb_order); [now rewrite map_id | now apply NoDup_Permutation].
Qed.

(* ---- environments: a lookup after env_add goes to the declarations where they bind the prefix and to the old
   environment where they do not; render is env_add of the prefixes paired with their values *)
Definition env_eq (e e' : env) : Prop := forall p, env_get e p = env_get e' p.
Lemma env_get_set e p v q : env_get (env_set e p v) q = if bytes_eqb q p then v else env_get e q.
Proof. reflexivity. Qed.
Lemma env_get_notin m p : ~ In p (map fst m) -> env_get m p = [].
Proof.
  induction m as [|[k v] m IH]; intros N; [reflexivity|]. cbn in *.
  destruct (beqP p k) as [->|]; [exfalso; apply N; now left|]. apply IH. intros G. apply N. now right.
Qed.
Lemma env_get_in m p v : NoDup (map fst m) -> In (p, v) m -> env_get m p = v.
Proof.
  induction m as [|[k w] m IH]; intros ND H; [contradiction|]. cbn in *. inversion ND as [|? ? Nin ND']; subst.
  destruct H as [E|H].
  - inversion E; subst. now rewrite bytes_eqb_refl.
  - destruct (beqP p k) as [->|]; [|now apply IH]. exfalso. apply Nin. apply in_map_iff. now exists (k, v).
Qed.

Lemma env_add_cong d : forall e e' p, env_get e p = env_get e' p -> env_get (env_add e d) p = env_get (env_add e' d) p.
Proof.
  unfold env_add. induction d as [|x d IH]; intros e e' p H; [exact H|]. cbn [fold_left]. apply IH.
  rewrite !env_get_set. now rewrite H.
Qed.
Lemma env_add_notin d : forall e q, ~ In q (map fst d) -> env_get (env_add e d) q = env_get e q.
Proof.
  unfold env_add. induction d as [|x d IH]; intros e q H; [reflexivity|]. cbn [fold_left].
  rewrite IH by (intros G; apply H; now right). rewrite env_get_set.
  destruct (beqP q (fst x)) as [->|]; [|reflexivity]. exfalso. apply H. now left.
Qed.
Lemma env_add_bound d q : In q (map fst d) -> exists v, In (q, v) d /\ forall e, env_get (env_add e d) q = v.
Proof.
  induction d as [|[p w] d IH]; intros H; [contradiction|]. cbn [map fst In] in H.
  destruct (in_dec bytes_dec q (map fst d)) as [I|N].
  - destruct (IH I) as (v & Hv & E). exists v. split; [now right|]. intros e. apply E.
  - destruct H as [->|H]; [|contradiction]. exists w. split; [now left|]. intros e.
    change (env_add e ((q, w) :: d)) with (env_add (env_set e q w) d).
    rewrite env_add_notin by assumption. rewrite env_get_set. now rewrite bytes_eqb_refl.
Qed.
Lemma env_add_in d e q v : NoDup (map fst d) -> In (q, v) d -> env_get (env_add e d) q = v.
Proof.
  intros ND H. destruct (env_add_bound d q (in_map fst _ _ H)) as (w & Hw & E). rewrite E.
  now injection (NoDup_map_inj fst d _ _ ND Hw H eq_refl).
Qed.
Lemma env_add_get e decls p : NoDup (map fst decls) -> (forall d, In d decls -> snd d <> []) ->
  env_get (env_add e decls) p = if bytes_eqb (env_get decls p) [] then env_get e p else env_get decls p.
Proof.
  intros ND V. destruct (in_dec bytes_dec p (map fst decls)) as [Hin|Hn].
  - apply in_fst_exists in Hin as (v & Hv). rewrite (env_add_in decls e p v ND Hv), (env_get_in decls p v ND Hv).
    destruct (bytes_eqb v []) eqn:E; [|reflexivity]. apply bytes_eqb_eq in E. exfalso. now apply (V _ Hv).
  - rewrite (env_add_notin decls e p Hn), (env_get_notin decls p Hn). reflexivity.
Qed.
Lemma env_add_perm e d d' : Permutation d d' -> NoDup (map fst d) -> env_eq (env_add e d) (env_add e d').
Proof.
  intros P ND p.
  pose proof (Permutation_NoDup (Permutation_map fst P) ND) as ND'.
  destruct (in_dec bytes_dec p (map fst d)) as [Hin|Hn].
  - apply in_fst_exists in Hin as (v & Hv). rewrite (env_add_in _ e p v ND Hv).
    symmetry. apply env_add_in; [assumption|]. now apply (Permutation_in _ P).
  - rewrite (env_add_notin _ e p Hn). symmetry. apply env_add_notin. intros G. apply Hn.
    apply (Permutation_in _ (Permutation_sym (Permutation_map fst P))). exact G.
Qed.

Definition render (g : bytes -> bytes) (out : list bytes) (r : env) : env :=
  fold_left (fun r p => env_set r p (g p)) out r.
Lemma render_env_add g out : forall r, render g out r = env_add r (map (fun p => (p, g p)) out).
Proof. unfold render, env_add. induction out as [|p out IH]; intros r; [reflexivity|]. apply IH. Qed.
Lemma render_notin g out r q : ~ In q out -> env_get (render g out r) q = env_get r q.
Proof. intros H. rewrite render_env_add. apply env_add_notin. now rewrite map_map, map_id. Qed.
Lemma render_in g out r q : In q out -> env_get (render g out r) q = g q.
Proof.
  intros H. rewrite render_env_add. destruct (env_add_bound (map (fun p => (p, g p)) out) q) as (v & Hv & E).
  - now rewrite map_map, map_id.
  - rewrite E. apply in_map_iff in Hv as (p & [= -> <-] & _). reflexivity.
Qed.
Lemma render_ext_in out g g' r r' :
  (forall p, In p out -> g p = g' p) -> env_eq r r' -> env_eq (render g out r) (render g' out r').
Proof.
  intros Hg H p. rewrite !render_env_add, (map_ext_in _ (fun p => (p, g' p)) out) by (intros x Hx; now rewrite Hg).
  apply env_add_cong, H.
Qed.

Lemma nodup_b_NoDup l : nodup_b l = true -> NoDup l.
Proof.
  induction l as [|[a b] l IH]; intros H; [constructor|]. cbn [nodup_b] in H.
  apply andb_true_iff in H as [H1 H2]. constructor; [|now apply IH].
  intros G. apply negb_true_iff in H1. rewrite existsb_false_iff in H1. specialize (H1 _ G). cbn in H1.
  rewrite !bytes_eqb_refl in H1. discriminate.
Qed.

(* ---- the generated functions in terms of the specification's vocabulary *)
Definition decl_attr (d : bytes * bytes) : attr :=
  match fst d with [] => mkattr [] s_xmlns (snd d) | p => mkattr s_xmlns p (snd d) end.
Definition has_decl (p : bytes) (attrs : list attr) : bool :=
  existsb (fun a => is_nsdecl a && bytes_eqb p (decl_prefix a)) attrs.
(* does the element (name prefix s) visibly utilise prefix p?  only real attributes count *)
Definition usesP (s : bytes) (attrs : list attr) (p : bytes) : bool :=
  bytes_eqb s p || (negb (bytes_eqb p []) && existsb (fun a => bytes_eqb (a3_space a) p) (plain_attrs attrs)).

Lemma get_decl_spec a :
  get_decl (a3_space a) (a3_key a) = ((if is_nsdecl a then decl_prefix a else []), is_nsdecl a).
Proof.
  destruct a as [[sp k] v]. unfold get_decl, is_nsdecl, decl_prefix, a3_space, a3_key. cbn [fst snd].
  destruct sp as [|z r].
  - cbn [bytes_eqb list_eqb andb]. fold s_xmlns. destruct (bytes_eqb k s_xmlns); reflexivity.
  - change (bytes_eqb (z :: r) []) with false. cbn [andb]. fold s_xmlns. destruct (bytes_eqb (z :: r) s_xmlns); reflexivity.
Qed.
Lemma put_decl_decompose p :
  space_decompose (put_decl p) = match p with [] => ([], s_xmlns) | _ => (s_xmlns, p) end.
Proof. destruct p as [|z r]; reflexivity. Qed.
Lemma decl_attr_names d : (a3_space (decl_attr d), a3_key (decl_attr d)) = space_decompose (put_decl (fst d)).
Proof. rewrite put_decl_decompose. destruct d as [[|z r] v]; reflexivity. Qed.
Lemma decl_attr_is_decl d : is_nsdecl (decl_attr d) = true.
Proof. destruct d as [[|z r] v]; reflexivity. Qed.
Lemma decl_attr_prefix d : decl_prefix (decl_attr d) = fst d.
Proof. destruct d as [[|z r] v]; reflexivity. Qed.
Lemma decl_attr_val d : a3_val (decl_attr d) = snd d.
Proof. destruct d as [[|z r] v]; reflexivity. Qed.

(* SelectAttr(putDecl(p)) is "has a declaration of p" provided no attribute is called *:xmlns / xmlns: *)
Lemma select_one p a : name_ok a = true ->
  (let '(sp, sk) := space_decompose (put_decl p) in space_match sp (a3_space a) && bytes_eqb sk (a3_key a))
  = (is_nsdecl a && bytes_eqb p (decl_prefix a)).
Proof.
  intros N. rewrite put_decl_decompose. destruct a as [[sp k] v]. unfold name_ok, is_nsdecl, decl_prefix, a3_space, a3_key in *.
  cbn [fst snd] in *. destruct p as [|z r].
  - cbn [space_match andb]. destruct sp as [|y sp].
    + rewrite (bytes_eqb_sym s_xmlns k). destruct (bytes_eqb k s_xmlns); reflexivity.
    + rewrite (bytes_eqb_sym s_xmlns k). destruct (bytes_eqb k s_xmlns) eqn:Ek.
      * cbn in N. discriminate.
      * destruct (bytes_eqb (y :: sp) s_xmlns) eqn:E; [|reflexivity]. cbn [andb].
        destruct k as [|k0 k']; [|reflexivity]. cbn in N. discriminate.
  - destruct sp as [|y sp].
    + cbn. rewrite andb_false_r. reflexivity.
    + unfold space_match. fold s_xmlns. rewrite (bytes_eqb_sym s_xmlns (y :: sp)). reflexivity.
Qed.
Lemma select_attr_spec p attrs : names_ok attrs = true -> select_attr (put_decl p) attrs = has_decl p attrs.
Proof.
  intros N. unfold select_attr, has_decl. unfold names_ok in N. rewrite forallb_forall in N.
  pose proof (select_one p) as S1. destruct (space_decompose (put_decl p)) as [sp sk].
  apply existsb_ext_in. intros a Ha. apply (S1 a). now apply N.
Qed.
Lemma name_ok_decl_attr d : fst d <> s_xmlns -> fst d <> s_xml -> name_ok (decl_attr d) = true.
Proof.
  destruct d as [[|z r] v]; intros H1 H2; cbn [fst] in *; [reflexivity|].
  unfold name_ok, decl_attr, a3_space, a3_key, mkattr. cbn [fst snd].
  rewrite (proj2 (bytes_eqb_neq (z :: r) s_xmlns)) by assumption. rewrite bytes_eqb_refl.
  rewrite (proj2 (bytes_eqb_neq (z :: r) s_xml)) by assumption. reflexivity.
Qed.
Lemma has_decl_app p l1 l2 : has_decl p (l1 ++ l2) = has_decl p l1 || has_decl p l2.
Proof. apply existsb_app. Qed.
Lemma has_decl_decl_attrs p X : has_decl p (map decl_attr X) = existsb (fun d => bytes_eqb p (fst d)) X.
Proof.
  unfold has_decl. induction X as [|d X IH]; [reflexivity|]. cbn [map existsb].
  rewrite decl_attr_is_decl, decl_attr_prefix, IH. reflexivity.
Qed.
Lemma has_decl_own p attrs : has_decl p attrs = existsb (fun d => bytes_eqb p (fst d)) (own_decls attrs).
Proof.
  unfold has_decl, own_decls. induction attrs as [|a l IH]; [reflexivity|]. cbn [existsb filter].
  destruct (is_nsdecl a); cbn [map existsb fst andb]; now rewrite IH.
Qed.

Lemma plain_app l1 l2 : plain_attrs (l1 ++ l2) = plain_attrs l1 ++ plain_attrs l2.
Proof. apply filter_app. Qed.
Lemma plain_decl_attrs X : plain_attrs (map decl_attr X) = [].
Proof. induction X as [|d X IH]; [reflexivity|]. cbn [map]. unfold plain_attrs in *. cbn [filter]. now rewrite decl_attr_is_decl. Qed.

Lemma uses_space_spec s attrs p : p <> s_xmlns -> uses_space s attrs p = usesP s attrs p.
Proof.
  intros Hp. unfold uses_space, usesP, uses_elem_cond, uses_default_cond, uses_attr_cond.
  destruct (bytes_eqb s p); [reflexivity|]. cbn [orb]. destruct (beqP p []) as [->|Hn]; [reflexivity|]. cbn [negb andb].
  unfold plain_attrs. induction attrs as [|a l IH]; [reflexivity|]. cbn [existsb filter].
  destruct (beqP (a3_space a) p) as [E|E].
  - assert (D : is_nsdecl a = false).
    { unfold is_nsdecl. rewrite E. destruct p as [|z r]; [congruence|]. now apply bytes_eqb_neq. }
    rewrite D. cbn [negb existsb]. rewrite E, bytes_eqb_refl. reflexivity.
  - cbn [orb]. rewrite IH. destruct (negb (is_nsdecl a)); [|reflexivity]. cbn [existsb].
    rewrite (proj2 (bytes_eqb_neq _ _) E). reflexivity.
Qed.
Lemma usesP_plain s l1 l2 p : plain_attrs l1 = plain_attrs l2 -> usesP s l1 p = usesP s l2 p.
Proof. intros E. unfold usesP. now rewrite E. Qed.

(* utilised prefixes of the specification *)
Lemma dedup_in l x : In x (dedup l) <-> In x l.
Proof.
  induction l as [|y l IH]; [tauto|]. cbn [dedup]. destruct (existsb (bytes_eqb y) l) eqn:E.
  - rewrite IH. split; [now right|]. intros [<-|H]; [|assumption].
    apply existsb_exists in E as (z & Hz & Ez). apply bytes_eqb_eq in Ez. now subst.
  - cbn [In]. now rewrite IH.
Qed.
Lemma dedup_nodup l : NoDup (dedup l).
Proof.
  induction l as [|y l IH]; [constructor|]. cbn [dedup]. destruct (existsb (bytes_eqb y) l) eqn:E; [assumption|].
  constructor; [|assumption]. rewrite dedup_in. intros H. rewrite existsb_false_iff in E. specialize (E _ H).
  rewrite bytes_eqb_refl in E. discriminate.
Qed.
Lemma utilized_nodup s attrs : NoDup (utilized s attrs).
Proof. unfold utilized. apply NoDup_filter, dedup_nodup. Qed.
Lemma utilized_in s attrs p : In p (utilized s attrs) <-> (usesP s attrs p = true /\ p <> s_xml).
Proof.
  unfold utilized, usesP. rewrite filter_In, dedup_in. cbn [In]. rewrite negb_true_iff, bytes_eqb_neq.
  rewrite orb_true_iff, andb_true_iff, negb_true_iff, bytes_eqb_neq, bytes_eqb_eq, in_map_iff.
  split; intros [H Hx]; (split; [|assumption]).
  - destruct H as [H|(a & Ea & Ha)]; [now left|]. right. apply filter_In in Ha as [Ha Hs]. split.
    + intros ->. rewrite Ea in Hs. discriminate.
    + apply existsb_exists. exists a. split; [assumption|]. rewrite Ea. apply bytes_eqb_refl.
  - destruct H as [H|[Hn H]]; [now left|]. right. apply existsb_exists in H as (a & Ha & Ea). apply bytes_eqb_eq in Ea.
    exists a. split; [assumption|]. apply filter_In. split; [assumption|]. rewrite Ea. destruct p; [congruence|reflexivity].
Qed.

(* ---- with well-formed names both attribute loops are filters: place_all splits D into the declarations written here and
   those passed on, own_loop sends down the element's own declarations that it does not use *)
Definition placedP (s : bytes) (attrs : list attr) (d : bytes * bytes) : bool :=
  negb (has_decl (fst d) attrs) && usesP s attrs (fst d).
Definition passedP (s : bytes) (attrs : list attr) (d : bytes * bytes) : bool :=
  negb (has_decl (fst d) attrs) && negb (usesP s attrs (fst d)).
Definition dropP (s : bytes) (L : list attr) (a : attr) : bool := is_nsdecl a && negb (usesP s L (decl_prefix a)).
Definition keepP (s : bytes) (L : list attr) (a : attr) : bool := negb (dropP s L a).

Lemma replace_val_none sp sk v l :
  existsb (fun a => space_match sp (a3_space a) && bytes_eqb sk (a3_key a)) l = false -> replace_val sp sk v l = None.
Proof.
  induction l as [|a l IH]; intros H; [reflexivity|]. cbn [existsb] in H. apply orb_false_iff in H as [H1 H2].
  cbn [replace_val]. rewrite (IH H2).
  destruct (bytes_eqb sp (a3_space a)) eqn:E; [|reflexivity]. apply bytes_eqb_eq in E. subst sp.
  assert (space_match (a3_space a) (a3_space a) = true) as M by (unfold space_match; destruct (a3_space a); [reflexivity | apply bytes_eqb_refl]).
  rewrite M in H1. cbn [andb] in H1. now rewrite H1.
Qed.
Lemma create_attr_fresh p v l : select_attr (put_decl p) l = false -> create_attr (put_decl p) v l = l ++ [decl_attr (p, v)].
Proof.
  unfold select_attr, create_attr. pose proof (decl_attr_names (p, v)) as N. cbn [fst] in N.
  destruct (space_decompose (put_decl p)) as [sp sk]. intros H. rewrite (replace_val_none _ _ _ _ H).
  f_equal. f_equal. unfold mkattr. inversion N. rewrite <- (decl_attr_val (p, v)) at 3.
  destruct (decl_attr (p, v)) as [[x y] z]. reflexivity.
Qed.
Lemma names_ok_app l1 l2 : names_ok (l1 ++ l2) = names_ok l1 && names_ok l2.
Proof. apply forallb_app. Qed.
Lemma names_ok_decl_attrs X : (forall x, In x X -> fst x <> s_xmlns /\ fst x <> s_xml) -> names_ok (map decl_attr X) = true.
Proof.
  intros H. unfold names_ok. apply forallb_forall. intros a Ha. apply in_map_iff in Ha as (d & <- & Hd).
  destruct (H d Hd). now apply name_ok_decl_attr.
Qed.

Lemma place_gen s attrs : names_ok attrs = true -> forall D X0 P0,
  NoDup (map fst D) ->
  (forall d, In d D -> fst d <> s_xmlns /\ fst d <> s_xml) ->
  (forall x, In x X0 -> fst x <> s_xmlns /\ fst x <> s_xml /\ ~ In (fst x) (map fst D)) ->
  fold_left (place_one s) D (attrs ++ map decl_attr X0, P0) =
  (attrs ++ map decl_attr (X0 ++ filter (placedP s attrs) D), P0 ++ filter (passedP s attrs) D).
Proof.
  intros NA. induction D as [|d D IH]; intros X0 P0 ND HD HX.
  - cbn. now rewrite !app_nil_r.
  - cbn [fold_left map] in *. inversion ND as [|? ? Nin ND']; subst.
    destruct (HD d (or_introl eq_refl)) as [Hd1 Hd2].
    assert (NC : names_ok (attrs ++ map decl_attr X0) = true).
    { rewrite names_ok_app, NA, names_ok_decl_attrs; [reflexivity|]. intros x Hx. destruct (HX x Hx) as (H1 & H2 & _). now split. }
    assert (HX0 : existsb (fun x => bytes_eqb (fst d) (fst x)) X0 = false).
    { apply existsb_false_iff. intros x Hx. apply bytes_eqb_neq. destruct (HX x Hx) as (_ & _ & N). intros E. apply N. left. now symmetry. }
    assert (HXD : forall x, In x X0 -> fst x <> s_xmlns /\ fst x <> s_xml /\ ~ In (fst x) (map fst D)).
    { intros x Hx. destruct (HX x Hx) as (? & ? & N). repeat split; try assumption. intros G. apply N. now right. }
    assert (Sel : select_attr (put_decl (fst d)) (attrs ++ map decl_attr X0) = has_decl (fst d) attrs).
    { rewrite (select_attr_spec _ _ NC), has_decl_app, has_decl_decl_attrs, HX0. apply orb_false_r. }
    unfold place_one at 2. rewrite Sel, uses_space_spec by assumption.
    rewrite (usesP_plain s (attrs ++ map decl_attr X0) attrs) by (now rewrite plain_app, plain_decl_attrs, app_nil_r).
    unfold pd_redeclared, pd_declare_here. cbn [andb filter]. unfold placedP at 1, passedP at 1.
    destruct (has_decl (fst d) attrs) eqn:Hh; [|destruct (usesP s attrs (fst d)) eqn:Hu]; cbn [negb andb].
    + apply IH; try assumption. intros; apply HD; now right.
    + change pd_creates_attr with true. cbn iota.
      rewrite create_attr_fresh by (now rewrite Sel).
      replace (fst d, snd d) with d by (now destruct d).
      rewrite <- app_assoc. change (map decl_attr X0 ++ [decl_attr d]) with (map decl_attr X0 ++ map decl_attr [d]).
      rewrite <- map_app. rewrite IH; try assumption.
      * rewrite <- app_assoc. reflexivity.
      * intros; apply HD; now right.
      * intros x Hx. apply in_app_iff in Hx as [Hx|[<-|[]]]; [now apply HXD|]. repeat split; assumption.
    + change pd_recurses with true. cbn iota. rewrite IH; try assumption.
      * rewrite <- app_assoc. reflexivity.
      * intros; apply HD; now right.
Qed.
Lemma place_all_spec s attrs D :
  names_ok attrs = true -> NoDup (map fst D) -> (forall d, In d D -> fst d <> s_xmlns /\ fst d <> s_xml) ->
  place_all s attrs D = (attrs ++ map decl_attr (filter (placedP s attrs) D), filter (passedP s attrs) D).
Proof.
  intros NA ND HD. unfold place_all.
  pose proof (place_gen s attrs NA D [] [] ND HD) as H. cbn [map app] in H. rewrite app_nil_r in H. apply H. intros x [].
Qed.

Lemma plain_cons_decl a l : is_nsdecl a = true -> plain_attrs (a :: l) = plain_attrs l.
Proof. intros H. unfold plain_attrs. cbn [filter]. now rewrite H. Qed.

Lemma own_gen s L : (forall a, In a L -> is_nsdecl a = true -> decl_prefix a <> s_xmlns) -> forall rest done dn,
  plain_attrs (rev done ++ rest) = plain_attrs L -> (forall a, In a rest -> In a L) ->
  own_loop s done rest dn =
  (rev done ++ filter (keepP s L) rest, dn ++ map (fun a => (decl_prefix a, a3_val a)) (filter (dropP s L) rest)).
Proof.
  intros HL. induction rest as [|a rest IH]; intros done dn HP Hin.
  - cbn. now rewrite !app_nil_r.
  - cbn [own_loop filter]. rewrite get_decl_spec.
    assert (C : walk_push_cond (is_nsdecl a) (uses_space s (rev done ++ a :: rest) (if is_nsdecl a then decl_prefix a else [])) = dropP s L a).
    { unfold walk_push_cond, dropP. destruct (is_nsdecl a) eqn:D; [|reflexivity]. cbn [andb].
      rewrite uses_space_spec by (apply HL; [apply Hin; now left | assumption]).
      now rewrite (usesP_plain s _ L _ HP). }
    rewrite C. unfold keepP at 1. destruct (dropP s L a) eqn:Dr; cbn [negb].
    + unfold dropP in Dr. apply andb_true_iff in Dr as [D U]. rewrite D. apply negb_true_iff in U.
      change walk_pushes_from_self with true. change walk_removes_pushed with true. cbn iota.
      unfold pd_redeclared. cbn [andb].
      assert (U' : uses_space s (rev done ++ a :: rest) (decl_prefix a) = false).
      { rewrite uses_space_spec by (apply HL; [apply Hin; now left | assumption]). now rewrite (usesP_plain s _ L _ HP). }
      unfold pd_declare_here. rewrite U'. change pd_recurses with true. cbn iota.
      rewrite IH.
      * cbn [map]. rewrite <- app_assoc. reflexivity.
      * rewrite <- HP. rewrite !plain_app. f_equal. now rewrite plain_cons_decl.
      * intros x Hx. apply Hin. now right.
    + rewrite IH.
      * cbn [rev]. rewrite <- app_assoc. reflexivity.
      * rewrite <- HP. cbn [rev]. rewrite <- app_assoc. reflexivity.
      * intros x Hx. apply Hin. now right.
Qed.
Lemma own_loop_spec s L :
  (forall a, In a L -> is_nsdecl a = true -> decl_prefix a <> s_xmlns) ->
  own_loop s [] L [] = (filter (keepP s L) L, map (fun a => (decl_prefix a, a3_val a)) (filter (dropP s L) L)).
Proof. intros HL. apply (own_gen s L HL L [] []); [reflexivity | auto]. Qed.

Lemma decl_is_decl_attr a : name_ok a = true -> is_nsdecl a = true -> a = decl_attr (decl_prefix a, a3_val a).
Proof.
  destruct a as [[sp k] v]. unfold name_ok, is_nsdecl, decl_prefix, decl_attr, a3_space, a3_key, a3_val, mkattr. cbn [fst snd].
  intros N D. destruct sp as [|y sp].
  - apply bytes_eqb_eq in D. now subst k.
  - apply bytes_eqb_eq in D. rewrite D in *. rewrite bytes_eqb_refl in N. destruct k as [|k0 k'].
    + cbn in N. rewrite ?orb_true_r, ?andb_false_r in N. cbn in N. discriminate.
    + reflexivity.
Qed.
Lemma decls_are_decl_attrs attrs : names_ok attrs = true -> filter is_nsdecl attrs = map decl_attr (own_decls attrs).
Proof.
  unfold names_ok, own_decls. intros N. rewrite forallb_forall in N. rewrite map_map.
  induction attrs as [|a l IH]; [reflexivity|]. cbn [filter]. destruct (is_nsdecl a) eqn:D.
  - cbn [map]. f_equal; [apply decl_is_decl_attr; [apply N; now left | assumption]|]. apply IH. intros x Hx. apply N. now right.
  - apply IH. intros x Hx. apply N. now right.
Qed.
Lemma own_prefix_ok attrs d : names_ok attrs = true -> In d (own_decls attrs) -> fst d <> s_xmlns /\ fst d <> s_xml.
Proof.
  unfold names_ok, own_decls. intros N H. rewrite forallb_forall in N. apply in_map_iff in H as (a & <- & Ha).
  apply filter_In in Ha as [Ha D]. specialize (N a Ha). cbn [fst]. destruct a as [[sp k] v].
  unfold name_ok, is_nsdecl, decl_prefix, a3_space, a3_key in *. cbn [fst snd] in *. destruct sp as [|y sp].
  - split; discriminate.
  - apply bytes_eqb_eq in D. rewrite D in *. rewrite bytes_eqb_refl in N. apply andb_true_iff in N as [N1 N2].
    split; intros ->.
    + rewrite bytes_eqb_refl in N1. discriminate.
    + rewrite bytes_eqb_refl in N2. discriminate.
Qed.
Lemma own_decls_nodup attrs : names_ok attrs = true -> NoDup (attr_names attrs) -> NoDup (map fst (own_decls attrs)).
Proof.
  intros N ND. pose proof (NoDup_map_filter (fun a : attr => (a3_space a, a3_key a)) is_nsdecl attrs ND) as H.
  rewrite (decls_are_decl_attrs _ N), map_map in H.
  rewrite (map_ext _ (fun d => space_decompose (put_decl (fst d)))) in H by (intros d; apply decl_attr_names).
  rewrite <- (map_map fst (fun p => space_decompose (put_decl p))) in H.
  apply NoDup_map_inv in H. exact H.
Qed.

(* ---- relic's comparator: declarations before attributes, declarations by prefix, attributes by (prefix, local name) *)
Lemma attr_lt_unfold x y :
  attr_lt x y =
  if bytes_eqb (a3_space x) [] && bytes_eqb (a3_key x) s_xmlns then true
  else if bytes_eqb (a3_space y) [] && bytes_eqb (a3_key y) s_xmlns then false
  else if bytes_eqb (a3_space x) s_xmlns && negb (bytes_eqb (a3_space y) s_xmlns) then true
  else if bytes_eqb (a3_space y) s_xmlns && negb (bytes_eqb (a3_space x) s_xmlns) then false
  else if negb (bytes_eqb (a3_space x) (a3_space y)) then str_ltb (a3_space x) (a3_space y)
  else str_ltb (a3_key x) (a3_key y).
Proof. reflexivity. Qed.
Lemma is_nsdecl_cases a :
  is_nsdecl a = (bytes_eqb (a3_space a) [] && bytes_eqb (a3_key a) s_xmlns) || bytes_eqb (a3_space a) s_xmlns.
Proof.
  unfold is_nsdecl. destruct (a3_space a) as [|z r].
  - cbn. now rewrite orb_false_r.
  - change (bytes_eqb (z :: r) []) with false. reflexivity.
Qed.
Lemma attr_lt_decl_plain x y : is_nsdecl x = true -> is_nsdecl y = false -> attr_lt x y = true /\ attr_lt y x = false.
Proof.
  rewrite !is_nsdecl_cases, !attr_lt_unfold. intros Dx Dy.
  apply orb_false_iff in Dy as [Dy1 Dy2]. rewrite Dy1, Dy2. cbn [negb andb].
  destruct (bytes_eqb (a3_space x) [] && bytes_eqb (a3_key x) s_xmlns); [split; reflexivity|].
  cbn [orb] in Dx. rewrite Dx. cbn [andb negb]. split; reflexivity.
Qed.
Lemma attr_lt_plain x y : is_nsdecl x = false -> is_nsdecl y = false -> attr_lt x y = plain_lt x y.
Proof.
  rewrite !is_nsdecl_cases, attr_lt_unfold. intros Dx Dy.
  apply orb_false_iff in Dx as [Dx1 Dx2]. apply orb_false_iff in Dy as [Dy1 Dy2].
  rewrite Dx1, Dx2, Dy1, Dy2. cbn [negb andb]. unfold plain_lt.
  destruct (bytes_eqb (a3_space x) (a3_space y)); reflexivity.
Qed.
Lemma attr_lt_decls p q v w : p <> q -> attr_lt (decl_attr (p, v)) (decl_attr (q, w)) = str_ltb p q.
Proof.
  intros Hpq. rewrite attr_lt_unfold.
  destruct p as [|p0 p'], q as [|q0 q']; unfold decl_attr, mkattr, a3_space, a3_key; cbn [fst snd].
  - congruence.
  - reflexivity.
  - change (bytes_eqb s_xmlns []) with false. cbn [andb]. rewrite !bytes_eqb_refl. reflexivity.
  - change (bytes_eqb s_xmlns []) with false. cbn [andb]. rewrite !bytes_eqb_refl. cbn [andb negb]. reflexivity.
Qed.

(* on distinct names attr_lt is the lexicographic order on (class, prefix, local name) *)
Definition rank (a : attr) : Z * (bytes * bytes) :=
  ((if bytes_eqb (a3_space a) [] && bytes_eqb (a3_key a) s_xmlns then 0 else if bytes_eqb (a3_space a) s_xmlns then 1 else 2),
   (a3_space a, a3_key a)).
Definition rank_lt : Z * (bytes * bytes) -> Z * (bytes * bytes) -> bool := lexb Z.eqb Z.ltb lex_lt.
Lemma rank_order : strict_total rank_lt.
Proof. apply (lexb_order _ _ _ Z.eqb_spec); [|exact lex_order]. repeat split; intros; lia. Qed.
Lemma attr_lt_rank x y :
  (a3_space x, a3_key x) <> (a3_space y, a3_key y) -> attr_lt x y = rank_lt (rank x) (rank y).
Proof.
  intros Hn. rewrite attr_lt_unfold. unfold rank, rank_lt, lex_lt, lexb. cbn [fst snd].
  destruct (bytes_eqb (a3_space x) [] && bytes_eqb (a3_key x) s_xmlns) eqn:Dx.
  - destruct (bytes_eqb (a3_space y) [] && bytes_eqb (a3_key y) s_xmlns) eqn:Dy.
    + exfalso. apply Hn. apply andb_true_iff in Dx as [A B]. apply andb_true_iff in Dy as [C D].
      apply bytes_eqb_eq in A, B, C, D. congruence.
    + destruct (bytes_eqb (a3_space y) s_xmlns); reflexivity.
  - destruct (bytes_eqb (a3_space y) [] && bytes_eqb (a3_key y) s_xmlns) eqn:Dy.
    + destruct (bytes_eqb (a3_space x) s_xmlns); reflexivity.
    + destruct (bytes_eqb (a3_space x) s_xmlns), (bytes_eqb (a3_space y) s_xmlns); cbn [negb andb].
      * destruct (bytes_eqb (a3_space x) (a3_space y)); reflexivity.
      * reflexivity.
      * reflexivity.
      * destruct (bytes_eqb (a3_space x) (a3_space y)); reflexivity.
Qed.

(* ---- etree's writer under the canonical WriteSettings against the output rules of Canonical XML *)
(* once the tests of the mode are evaluated, both sides are chains of tests of c against constants: decide them one by one *)
Lemma esc_byte_spec c : esc_byte 2 c = x_esc_attr c /\ esc_byte 1 c = x_esc_text c.
Proof.
  unfold esc_byte, x_esc_attr, x_esc_text. cbn [Z.eqb Pos.eqb].
  repeat match goal with |- context [c =? ?k] => destruct (Z.eqb_spec c k) as [->|]; [split; reflexivity|] end.
  split; reflexivity.
Qed.
Lemma write_attr_spec a : write_attr a = x_attr_string (qname (a3_space a) (a3_key a)) (a3_val a).
Proof.
  unfold write_attr, x_attr_string, escape, full_tag, qname.
  change ws_attr_single_quote with false. change ws_canonical_attr_val with true. cbn iota.
  rewrite (flat_map_ext _ _ (fun c => proj1 (esc_byte_spec c))).
  cbn [app]. reflexivity.
Qed.
Lemma write_decl_attr p v : write_attr (decl_attr (p, v)) = x_ns_string p v.
Proof. rewrite write_attr_spec. destruct p as [|z r]; reflexivity. Qed.
Lemma write_elem s t attrs ch :
  write_node (Elem s t attrs ch) =
  60 :: qname s t ++ flat_map write_attr attrs ++ 62 :: flat_map write_node ch ++ [60; 47] ++ qname s t ++ [62].
Proof.
  cbn [write_node]. change ws_canonical_end_tags with true. cbn iota. unfold full_tag, qname.
  destruct ch; reflexivity.
Qed.

Definition kids (D' : list (bytes * bytes)) (ch : list node) : list node :=
  (fix go (l : list node) : list node :=
     match l with
     | [] => []
     | c :: r => if child_kept (kind_of c) then (if child_walked (kind_of c) then walkD D' c else c) :: go r else go r
     end) ch.
Lemma walkD_unfold D s t attrs ch :
  walkD D (Elem s t attrs ch) =
  let '(attrs1, pass) := place_all s attrs D in
  let '(attrs2, down) := own_loop s [] attrs1 [] in
  Elem s t (isort attr_lt attrs2) (kids (pass ++ down) ch).
Proof. reflexivity. Qed.
Lemma kids_app D' l1 l2 : kids D' (l1 ++ l2) = kids D' l1 ++ kids D' l2.
Proof.
  unfold kids. induction l1 as [|c l1 IH]; [reflexivity|]. cbn [app].
  destruct (child_kept (kind_of c)); [cbn [app]; now rewrite IH | exact IH].
Qed.

Definition emitted (s : bytes) (attrs : list attr) (D : list (bytes * bytes)) : list (bytes * bytes) :=
  filter (fun d => usesP s attrs (fst d)) (own_decls attrs) ++ filter (placedP s attrs) D.
Definition pending (s : bytes) (attrs : list attr) (D : list (bytes * bytes)) : list (bytes * bytes) :=
  filter (passedP s attrs) D ++ filter (fun d => negb (usesP s attrs (fst d))) (own_decls attrs).

Lemma placedP_true s attrs d : placedP s attrs d = true <-> has_decl (fst d) attrs = false /\ usesP s attrs (fst d) = true.
Proof. unfold placedP. now rewrite andb_true_iff, negb_true_iff. Qed.
Lemma passedP_true s attrs d : passedP s attrs d = true <-> has_decl (fst d) attrs = false /\ usesP s attrs (fst d) = false.
Proof. unfold passedP. now rewrite andb_true_iff, !negb_true_iff. Qed.
Lemma emitted_in s attrs D p v : In (p, v) (emitted s attrs D) <->
  (In (p, v) (own_decls attrs) /\ usesP s attrs p = true) \/ (In (p, v) D /\ has_decl p attrs = false /\ usesP s attrs p = true).
Proof. unfold emitted. now rewrite in_app_iff, !filter_In, placedP_true. Qed.
Lemma pending_in s attrs D p v : In (p, v) (pending s attrs D) <->
  (In (p, v) D /\ has_decl p attrs = false /\ usesP s attrs p = false) \/ (In (p, v) (own_decls attrs) /\ usesP s attrs p = false).
Proof. unfold pending. now rewrite in_app_iff, !filter_In, passedP_true, negb_true_iff. Qed.

Lemma decl_prefix_ok attrs a : names_ok attrs = true -> In a attrs -> is_nsdecl a = true ->
  decl_prefix a <> s_xmlns /\ decl_prefix a <> s_xml.
Proof.
  intros N Ha D. apply (own_prefix_ok attrs (decl_prefix a, a3_val a) N).
  unfold own_decls. apply in_map_iff. exists a. split; [reflexivity|]. apply filter_In. now split.
Qed.

Lemma walkD_elem s t attrs ch D :
  names_ok attrs = true -> NoDup (map fst D) -> (forall d, In d D -> fst d <> s_xmlns /\ fst d <> s_xml) ->
  walkD D (Elem s t attrs ch) =
  Elem s t (isort attr_lt (filter (keepP s attrs) attrs ++ map decl_attr (filter (placedP s attrs) D)))
       (kids (pending s attrs D) ch).
Proof.
  intros N ND HD. rewrite walkD_unfold, (place_all_spec s attrs D N ND HD).
  set (X := map decl_attr (filter (placedP s attrs) D)).
  assert (PL : plain_attrs (attrs ++ X) = plain_attrs attrs).
  { unfold X. now rewrite plain_app, plain_decl_attrs, app_nil_r. }
  rewrite own_loop_spec.
  2:{ intros a Ha Da. apply in_app_iff in Ha as [Ha|Ha].
      - now apply (decl_prefix_ok attrs a N Ha Da).
      - unfold X in Ha. apply in_map_iff in Ha as (d & <- & Hd). rewrite decl_attr_prefix.
        apply filter_In in Hd as [Hd _]. now apply HD. }
  assert (KP : forall a, keepP s (attrs ++ X) a = keepP s attrs a).
  { intros a. unfold keepP, dropP. now rewrite (usesP_plain s _ _ _ PL). }
  assert (DP : forall a, dropP s (attrs ++ X) a = dropP s attrs a).
  { intros a. unfold dropP. now rewrite (usesP_plain s _ _ _ PL). }
  rewrite (filter_ext _ _ KP), (filter_ext _ _ DP), !filter_app.
  assert (HX : forall x, In x X -> dropP s attrs x = false).
  { intros x Hx. unfold X in Hx. apply in_map_iff in Hx as (d & <- & Hd). apply filter_In in Hd as [_ Hd].
    unfold placedP in Hd. apply andb_true_iff in Hd as [_ Hu]. unfold dropP. now rewrite decl_attr_is_decl, decl_attr_prefix, Hu. }
  rewrite (filter_all (keepP s attrs) X) by (intros x Hx; unfold keepP; now rewrite (HX x Hx)).
  rewrite (filter_none (dropP s attrs) X) by exact HX.
  rewrite app_nil_r. f_equal. f_equal. unfold pending. f_equal.
  unfold own_decls, dropP. rewrite <- filter_filter, filter_map_comm. reflexivity.
Qed.

(* the sorted attribute list: declarations first, then the real attributes *)
Lemma sorted_attrs s attrs D :
  names_ok attrs = true ->
  isort attr_lt (filter (keepP s attrs) attrs ++ map decl_attr (filter (placedP s attrs) D)) =
  isort attr_lt (map decl_attr (emitted s attrs D)) ++ isort attr_lt (plain_attrs attrs).
Proof.
  intros N. set (X := map decl_attr (filter (placedP s attrs) D)).
  rewrite (isort_partition attr_lt is_nsdecl).
  2:{ intros x y _ _ Hx Hy. now apply attr_lt_decl_plain. }
  f_equal; f_equal.
  - rewrite filter_app. unfold emitted. rewrite map_app. f_equal.
    + rewrite filter_filter.
      rewrite (filter_ext _ (fun a => is_nsdecl a && usesP s attrs (decl_prefix a))).
      2:{ intros a. unfold keepP, dropP. destruct (is_nsdecl a), (usesP s attrs (decl_prefix a)); reflexivity. }
      rewrite <- filter_filter, (decls_are_decl_attrs _ N), filter_map_comm.
      f_equal. apply filter_ext. intros d. now rewrite decl_attr_prefix.
    + apply filter_all. intros x Hx. unfold X in Hx. apply in_map_iff in Hx as (d & <- & _). apply decl_attr_is_decl.
  - rewrite filter_app. rewrite (filter_none _ X).
    2:{ intros x Hx. unfold X in Hx. apply in_map_iff in Hx as (d & <- & _). now rewrite decl_attr_is_decl. }
    rewrite app_nil_r, filter_filter. unfold plain_attrs. apply filter_ext. intros a.
    unfold keepP, dropP. destruct (is_nsdecl a); cbn; rewrite ?andb_false_r; reflexivity.
Qed.

(* D: declarations relic still carries downwards; inscope / rendered: the two environments of exc-c14n.
   A carried declaration is the binding in scope and has not been rendered with that value; every other prefix is
   either rendered with its in-scope value or not bound at all. *)
Definition Inv (D : list (bytes * bytes)) (inscope rendered : env) : Prop :=
  NoDup (map fst D) /\
  (forall p v, In (p, v) D -> env_get inscope p = v /\ env_get rendered p <> v /\ p <> s_xmlns /\ p <> s_xml) /\
  (forall p, ~ In p (map fst D) -> env_get inscope p = env_get rendered p).

Lemma has_decl_in p attrs : has_decl p attrs = true <-> In p (map fst (own_decls attrs)).
Proof.
  rewrite has_decl_own. split.
  - intros H. apply existsb_exists in H as (d & Hd & E). apply bytes_eqb_eq in E. subst. now apply in_map.
  - intros H. apply in_map_iff in H as (d & <- & Hd). apply existsb_exists. exists d. split; [assumption | apply bytes_eqb_refl].
Qed.

(* the prefixes an element declares in the output *)
Definition out_ns (i r : env) (s : bytes) (a : list attr) : list bytes :=
  isort prefix_lt (filter (fun p => negb (bytes_eqb (env_get i p) (env_get r p))) (utilized s a)).

Section Element.
  Variables (s : bytes) (attrs : list attr) (D : list (bytes * bytes)) (inscope rendered : env).
  Hypothesis N : names_ok attrs = true.
  Hypothesis NDa : NoDup (attr_names attrs).
  Hypothesis NR : not_redundant rendered attrs = true.
  Hypothesis I : Inv D inscope rendered.
  Let inscope' := env_add inscope (own_decls attrs).
  Let g := env_get inscope'.
  Let U' := filter (fun p => negb (bytes_eqb (g p) (env_get rendered p))) (utilized s attrs).
  Let out := out_ns inscope' rendered s attrs.
  Let rendered' := render g out rendered.

  Lemma g_own p v : In (p, v) (own_decls attrs) -> g p = v.
  Proof. intros H. unfold g, inscope'. apply env_add_in; [now apply own_decls_nodup | assumption]. Qed.
  Lemma g_inherit p : has_decl p attrs = false -> g p = env_get inscope p.
  Proof.
    intros H. unfold g, inscope'. apply env_add_notin. intros G. apply has_decl_in in G. congruence.
  Qed.
  Lemma own_not_rendered p v : In (p, v) (own_decls attrs) -> env_get rendered p <> v.
  Proof.
    intros H. unfold not_redundant in NR. rewrite forallb_forall in NR. specialize (NR _ H). cbn [fst snd] in NR.
    apply negb_true_iff, bytes_eqb_neq in NR. congruence.
  Qed.
  (* a prefix the element declares itself is not among the carried declarations that survive it *)
  Lemma own_carried_disjoint (f h : bytes * bytes -> bool) p :
    In p (map fst (filter f (own_decls attrs))) -> In p (map fst (filter h D)) ->
    (forall d, h d = true -> has_decl (fst d) attrs = false) -> False.
  Proof.
    intros (d1 & <- & [H1 _]%filter_In)%in_map_iff (d2 & E & [_ H2]%filter_In)%in_map_iff Hh.
    apply Hh in H2. rewrite E in H2.
    assert (has_decl (fst d1) attrs = true) by (apply has_decl_in; now apply in_map). congruence.
  Qed.

  Lemma emitted_value d : In d (emitted s attrs D) -> snd d = g (fst d).
  Proof.
    destruct I as (_ & I2 & _). destruct d as [p v]. intros [[H _]|(H & P & _)]%emitted_in; cbn [fst snd].
    - symmetry. now apply g_own.
    - rewrite (g_inherit p P). symmetry. now apply I2.
  Qed.
  Lemma emitted_members p : In p (map fst (emitted s attrs D)) <-> In p U'.
  Proof.
    destruct I as (I1 & I2 & I3). unfold U'. rewrite filter_In, utilized_in, negb_true_iff, bytes_eqb_neq. split.
    - intros (v & [[H U]|(H & P & U)]%emitted_in)%in_fst_exists.
      + repeat split; [assumption | now apply (own_prefix_ok attrs (p, v)) |]. rewrite (g_own p v H).
        intros E. now apply (own_not_rendered p v H).
      + destruct (I2 p v H) as (E1 & E2 & _ & E4). repeat split; try assumption. rewrite (g_inherit p P), E1. congruence.
    - intros [[U X] G]. destruct (has_decl p attrs) eqn:Hd.
      + apply has_decl_in, in_fst_exists in Hd as (v & Hv). apply (in_map fst _ (p, v)), emitted_in. now left.
      + rewrite (g_inherit p Hd) in G. destruct (in_dec bytes_dec p (map fst D)) as [Hin|Hn].
        * apply in_fst_exists in Hin as (v & Hv). apply (in_map fst _ (p, v)), emitted_in. now right.
        * exfalso. apply G. now apply I3.
  Qed.
  Lemma emitted_nodup : NoDup (map fst (emitted s attrs D)).
  Proof.
    destruct I as (I1 & _ & _). unfold emitted. rewrite map_app. apply NoDup_app_iff; split; [|split].
    - apply NoDup_map_filter. now apply own_decls_nodup.
    - now apply NoDup_map_filter.
    - intros p H1 H2. apply (own_carried_disjoint _ _ _ H1 H2). intros d Hd. now apply placedP_true in Hd.
  Qed.
  Lemma sorted_decls :
    isort attr_lt (map decl_attr (emitted s attrs D)) = map decl_attr (map (fun p => (p, g p)) out).
  Proof.
    rewrite (pairs_from_fst g (emitted s attrs D)) at 1 by (intros d Hd; now apply emitted_value).
    set (PL := map fst (emitted s attrs D)). set (f := fun p => decl_attr (p, g p)).
    assert (MM : forall l, map decl_attr (map (fun p => (p, g p)) l) = map f l) by (intros l; now rewrite map_map).
    rewrite !MM.
    rewrite (isort_map attr_lt (fun p q => attr_lt (f p) (f q)) f) by reflexivity.
    f_equal.
    rewrite (isort_ext_nodup _ prefix_lt PL emitted_nodup).
    2:{ intros p q _ _ Hpq. unfold prefix_lt. now apply attr_lt_decls. }
    apply isort_prefix_unique; [exact emitted_nodup | unfold U'; apply NoDup_filter, utilized_nodup | exact emitted_members].
  Qed.

  Lemma out_in p : In p out <-> In p U'.
  Proof. apply isort_in. Qed.

  Lemma child_inv : Inv (pending s attrs D) inscope' rendered'.
  Proof.
    destruct I as (I1 & I2 & I3).
    assert (NU : forall p, usesP s attrs p = false -> env_get rendered' p = env_get rendered p).
    { intros p U. apply render_notin. intros [H _]%out_in%filter_In. apply utilized_in in H as [H _]. congruence. }
    split; [|split].
    - unfold pending. rewrite map_app. apply NoDup_app_iff; split; [|split].
      + now apply NoDup_map_filter.
      + apply NoDup_map_filter. now apply own_decls_nodup.
      + intros p H1 H2. apply (own_carried_disjoint _ _ _ H2 H1). intros d Hd. now apply passedP_true in Hd.
    - intros p v [(H & P & U)|[H U]]%pending_in; fold (g p); rewrite (NU p U).
      + rewrite (g_inherit p P). now apply I2.
      + destruct (own_prefix_ok attrs (p, v) N H). repeat split; [now apply g_own | now apply own_not_rendered | assumption..].
    - intros p Hp. fold (g p).
      destruct (in_dec bytes_dec p out) as [Ho|Ho]; [unfold rendered'; now rewrite render_in|].
      unfold rendered'. rewrite render_notin by assumption.
      (* p is neither pending nor emitted, so neither declared here nor carried: both environments keep what they had *)
      assert (He : ~ In p (map fst (emitted s attrs D))) by (intros G; apply Ho, out_in, emitted_members, G).
      assert (T : forall v, ~ (In (p, v) (own_decls attrs) \/ In (p, v) D /\ has_decl p attrs = false)).
      { intros v T. destruct (usesP s attrs p) eqn:U.
        - apply He, (in_map fst _ (p, v)), emitted_in. destruct T as [T|[T Hd]]; [left | right]; repeat split; assumption.
        - apply Hp, (in_map fst _ (p, v)), pending_in. destruct T as [T|[T Hd]]; [right | left]; repeat split; assumption. }
      destruct (has_decl p attrs) eqn:Hd.
      + apply has_decl_in, in_fst_exists in Hd as (v & Hv). destruct (T v). now left.
      + rewrite (g_inherit p Hd). apply I3. intros (v & Hv)%in_fst_exists. destruct (T v). now right.
  Qed.
End Element.

Lemma code_nil b c : code b c = [] -> b = true.
Proof. destruct b; [reflexivity | discriminate]. Qed.

Definition child_env (inscope rendered : env) (s : bytes) (attrs : list attr) : env * env :=
  let inscope' := env_add inscope (own_decls attrs) in
  (inscope',
   render (env_get inscope')
     (isort prefix_lt (filter (fun p => negb (bytes_eqb (env_get inscope' p) (env_get rendered p))) (utilized s attrs)))
     rendered).

Lemma k_codes_elem e r s t a ch :
  k_codes e r (Elem s t a ch) =
  code (nodup_b (attr_names a)) 6 ++ code (names_ok a) 5 ++ code (not_redundant r a) 3 ++ code (order_ok (fst (child_env e r s a)) a) 4
  ++ flat_map (k_codes (fst (child_env e r s a)) (snd (child_env e r s a))) ch.
Proof. reflexivity. Qed.
Lemma k_codes_elem_nil inscope rendered s t attrs ch :
  k_codes inscope rendered (Elem s t attrs ch) = [] ->
  nodup_b (attr_names attrs) = true /\ names_ok attrs = true /\ not_redundant rendered attrs = true /\
  order_ok (fst (child_env inscope rendered s attrs)) attrs = true /\
  Forall (fun c => k_codes (fst (child_env inscope rendered s attrs)) (snd (child_env inscope rendered s attrs)) c = []) ch.
Proof.
  cbn [k_codes]. intros H.
  apply app_eq_nil in H as [H1 H]. apply app_eq_nil in H as [H2 H]. apply app_eq_nil in H as [H3 H].
  apply app_eq_nil in H as [H4 H]. apply code_nil in H1, H2, H3, H4. repeat split; try assumption.
  now apply flat_map_nil in H.
Qed.

Lemma kids_spec D' inscope' rendered' ch :
  Forall (fun c => forall inscope rendered D, kind_of c = 0 -> k_codes inscope rendered c = [] -> Inv D inscope rendered ->
                   write_node (walkD D c) = exc_node inscope rendered c) ch ->
  Forall (fun c => k_codes inscope' rendered' c = []) ch ->
  Inv D' inscope' rendered' ->
  flat_map write_node (kids D' ch) = flat_map (exc_node inscope' rendered') ch.
Proof.
  intros IH HK I. induction ch as [|c r IHr]; [reflexivity|].
  inversion IH as [|? ? IHc IHr']; subst. inversion HK as [|? ? Kc Kr]; subst.
  specialize (IHr IHr' Kr). unfold kids in *. destruct c as [s t a ch'|d|d|t i|d].
  - change (child_kept (kind_of (Elem s t a ch'))) with true. change (child_walked (kind_of (Elem s t a ch'))) with true.
    cbn iota. cbn [flat_map]. rewrite IHr. f_equal. now apply IHc.
  - change (child_kept (kind_of (CharData d))) with true. change (child_walked (kind_of (CharData d))) with false.
    cbn iota. cbn [flat_map]. rewrite IHr. f_equal. cbn [write_node exc_node]. change ws_canonical_text with true. cbn iota.
    unfold escape. apply flat_map_ext. intros c. apply esc_byte_spec.
  - change (child_kept (kind_of (Comment d))) with false. cbn iota. cbn [flat_map exc_node app]. exact IHr.
  - discriminate Kc.
  - discriminate Kc.
Qed.

Theorem walkD_is_spec n : forall inscope rendered D,
  kind_of n = 0 -> k_codes inscope rendered n = [] -> Inv D inscope rendered ->
  write_node (walkD D n) = exc_node inscope rendered n.
Proof.
  induction n as [s t attrs ch IH| | | |] using node_ind'; intros inscope rendered D Hk HK I; try discriminate Hk.
  apply k_codes_elem_nil in HK as (K6 & K5 & K3 & K4 & Kch).
  pose proof (nodup_b_NoDup _ K6) as NDa.
  pose proof I as (I1 & I2 & I3).
  rewrite walkD_elem; [|assumption|assumption|intros [p v] Hd; cbn [fst]; destruct (I2 p v Hd) as (_ & _ & ? & ?); now split].
  rewrite write_elem, (sorted_attrs s attrs D K5), (sorted_decls s attrs D inscope rendered K5 NDa K3 I).
  cbn [exc_node]. f_equal. f_equal. rewrite flat_map_app, <- !app_assoc. f_equal; [|f_equal].
  - rewrite flat_map_map, flat_map_map. apply flat_map_ext. intros p. apply write_decl_attr.
  - rewrite (isort_ext attr_lt (xattr_lt (env_add inscope (own_decls attrs))) (plain_attrs attrs)).
    + apply flat_map_ext. intros a. apply write_attr_spec.
    + intros x y Hx Hy.
      rewrite attr_lt_plain by (unfold plain_attrs in Hx, Hy; apply filter_In in Hx as [_ Hx]; apply filter_In in Hy as [_ Hy];
                                now apply negb_true_iff).
      unfold order_ok in K4. cbn [child_env fst] in K4. rewrite forallb_forall in K4.
      specialize (K4 x Hx). rewrite forallb_forall in K4. specialize (K4 y Hy). now apply eqb_prop in K4.
  - cbn [app]. f_equal. f_equal.
    apply (kids_spec _ (fst (child_env inscope rendered s attrs)) (snd (child_env inscope rendered s attrs))).
    + exact IH.
    + exact Kch.
    + apply (child_inv s attrs D inscope rendered K5 NDa K3 I).
Qed.

(* ---- the apex: pullDown's map against the namespaces in scope there *)
Lemma sp_get_env m p : sp_get m p = env_get m p.
Proof. induction m as [|[q v] m IH]; [reflexivity|]. cbn. now rewrite IH. Qed.
Lemma sp_set_get m q w p : env_get (sp_set m q w) p = if bytes_eqb p q then w else env_get m p.
Proof.
  induction m as [|[k v] m IH]; cbn.
  - reflexivity.
  - destruct (beqP q k) as [->|Hqk]; cbn.
    + destruct (bytes_eqb p k); reflexivity.
    + rewrite IH. destruct (beqP p k) as [->|Hpk]; [|reflexivity].
      rewrite (proj2 (bytes_eqb_neq k q)) by congruence. reflexivity.
Qed.
Lemma sp_set_fresh m q w : ~ In q (map fst m) -> sp_set m q w = m ++ [(q, w)].
Proof.
  induction m as [|[k v] m IH]; intros N; [reflexivity|]. cbn in *.
  destruct (beqP q k) as [->|]; [exfalso; apply N; now left|]. f_equal. apply IH. intros G. apply N. now right.
Qed.

(* what the map holds, and what K leaves of the declarations of an ancestor: values non-empty, prefixes neither xml nor xmlns *)
Definition decl_wf (d : bytes * bytes) : Prop := snd d <> [] /\ fst d <> s_xmlns /\ fst d <> s_xml.
Definition map_ok (m : list (bytes * bytes)) : Prop := NoDup (map fst m) /\ Forall decl_wf m.

(* pullDown's loop over the attributes of an ancestor is a loop over its declarations *)
Definition collect_decl (m : list (bytes * bytes)) (d : bytes * bytes) : list (bytes * bytes) :=
  if bytes_eqb (env_get m (fst d)) [] then sp_set m (fst d) (snd d) else m.
Lemma collect_attrs_decls attrs : forall m, fold_left collect_attr attrs m = fold_left collect_decl (own_decls attrs) m.
Proof.
  induction attrs as [|a l IH]; intros m; [reflexivity|]. cbn [fold_left]. rewrite IH. unfold own_decls. cbn [filter].
  unfold collect_attr. rewrite get_decl_spec. unfold pull_skip_nondecl, pull_skip_seen. rewrite sp_get_env.
  destruct (is_nsdecl a); [|reflexivity]. cbn [map fold_left negb]. f_equal. unfold collect_decl. cbn [fst snd].
  destruct (bytes_eqb (env_get m (decl_prefix a)) []); reflexivity.
Qed.
(* the first binding of a prefix is the one that stays *)
Lemma collect_decls ds : forall m, map_ok m -> Forall decl_wf ds ->
  map_ok (fold_left collect_decl ds m) /\
  (forall p, env_get (fold_left collect_decl ds m) p = if bytes_eqb (env_get m p) [] then env_get ds p else env_get m p).
Proof.
  induction ds as [|[q w] ds IH]; intros m M F.
  - split; [assumption|]. intros p. cbn. destruct (beqP (env_get m p) []) as [->|]; reflexivity.
  - inversion F as [|? ? (Hw & Hq) F']; subst. cbn [fold_left]. unfold collect_decl at 2 4. cbn [fst snd] in *.
    destruct (beqP (env_get m q) []) as [Eq|Nq].
    + (* not seen yet: recorded, at the end *)
      assert (M' : map_ok (sp_set m q w)).
      { destruct M as [M1 M2]. assert (Nk : ~ In q (map fst m)).
        { intros (v & Hv)%in_fst_exists. rewrite (env_get_in m q v M1 Hv) in Eq. rewrite Forall_forall in M2. now destruct (M2 _ Hv). }
        rewrite (sp_set_fresh m q w Nk). split.
        - rewrite map_app. apply NoDup_app_iff; split; [|split]; [assumption | repeat constructor; intros [] | intros x Hx [<-|[]]; contradiction].
        - apply Forall_app. split; [assumption | constructor; [exact (conj Hw Hq) | constructor]]. }
      destruct (IH _ M' F') as [R1 R2]. split; [assumption|]. intros p. rewrite R2, sp_set_get. cbn [env_get].
      destruct (beqP p q) as [->|]; [|reflexivity]. rewrite Eq. cbn. now destruct (beqP w []).
    + (* already seen in a nearer ancestor *)
      destruct (IH _ M F') as [R1 R2]. split; [assumption|]. intros p. rewrite R2. cbn [env_get].
      destruct (beqP p q) as [->|]; [|reflexivity]. now destruct (beqP (env_get m q) []).
Qed.

Lemma ctx_env_cons a ctx : ctx_env (a :: ctx) = env_add (ctx_env ctx) (own_decls a).
Proof. unfold ctx_env. cbn [rev]. now rewrite fold_left_app. Qed.
Definition collect_from (m : list (bytes * bytes)) (ctx : list (list attr)) : list (bytes * bytes) :=
  fold_left (fun m attrs => fold_left collect_attr attrs m) ctx m.
Lemma collect_all ctx : forall m,
  map_ok m -> Forall (fun a => NoDup (map fst (own_decls a)) /\ Forall decl_wf (own_decls a)) ctx ->
  map_ok (collect_from m ctx) /\
  (forall p, env_get (collect_from m ctx) p = if bytes_eqb (env_get m p) [] then env_get (ctx_env ctx) p else env_get m p).
Proof.
  induction ctx as [|a ctx IH]; intros m M F.
  - split; [assumption|]. intros p. cbn. destruct (beqP (env_get m p) []) as [->|]; reflexivity.
  - inversion F as [|? ? [Na Wa] F']; subst. unfold collect_from. cbn [fold_left]. rewrite collect_attrs_decls.
    destruct (collect_decls _ m M Wa) as [M1 G1]. destruct (IH _ M1 F') as [M2 G2]. split; [exact M2|].
    intros p. unfold collect_from in G2. rewrite G2, G1, ctx_env_cons. rewrite Forall_forall in Wa.
    rewrite env_add_get; [| assumption | intros d Hd; apply (Wa d Hd)].
    destruct (bytes_eqb (env_get m p) []) eqn:E1; [|now rewrite E1].
    destruct (bytes_eqb (env_get (own_decls a) p) []); reflexivity.
Qed.

Lemma ctx_ok ctx : ctx_codes ctx = [] -> Forall (fun a => NoDup (map fst (own_decls a)) /\ Forall decl_wf (own_decls a)) ctx.
Proof.
  unfold ctx_codes. intros H. apply flat_map_nil in H. rewrite Forall_forall in *. intros a Ha. specialize (H a Ha).
  apply app_eq_nil in H as [H1 H]. apply app_eq_nil in H as [H2 H3]. apply code_nil in H1, H2, H3.
  split; [apply own_decls_nodup; [assumption | now apply nodup_b_NoDup]|].
  apply Forall_forall. intros d Hd. split; [|exact (own_prefix_ok a d H2 Hd)].
  rewrite forallb_forall in H3. specialize (H3 d Hd). destruct d as [p v]. cbn [snd] in *. destruct v; [discriminate H3 | discriminate].
Qed.

Lemma root_inv ctx : ctx_codes ctx = [] -> Inv (collect_spaces ctx) (ctx_env ctx) [].
Proof.
  intros H. assert (M0 : map_ok []) by (split; constructor).
  destruct (collect_all ctx [] M0 (ctx_ok ctx H)) as [[M1 M2] G]. fold (collect_spaces ctx) in M1, M2, G.
  cbn in G. rewrite Forall_forall in M2.
  split; [exact M1|split].
  - intros p v Hv. destruct (M2 _ Hv) as (Q1 & Q2 & Q3). cbn [fst snd] in Q1, Q2, Q3.
    repeat split; [rewrite <- G; now apply env_get_in | cbn; congruence | assumption..].
  - intros p Hp. rewrite <- G. cbn. now apply env_get_notin.
Qed.

Lemma K_codes_elem ctx s t a ch : K_codes ctx (Elem s t a ch) = ctx_codes ctx ++ k_codes (ctx_env ctx) [] (Elem s t a ch).
Proof. reflexivity. Qed.
Lemma inK_elem ctx s t a ch :
  inK ctx (Elem s t a ch) = true <-> ctx_codes ctx = [] /\ k_codes (ctx_env ctx) [] (Elem s t a ch) = [].
Proof.
  unfold inK. rewrite K_codes_elem. split.
  - destruct (_ ++ _) eqn:E; [intros _; now apply app_eq_nil | discriminate].
  - intros [-> ->]. reflexivity.
Qed.
Theorem relic_eq_spec_on_K ctx n : inK ctx n = true -> relic_c14n ctx n = exc_c14n ctx n.
Proof.
  destruct n as [s t a ch| | | |]; try discriminate. intros [E1 E2]%inK_elem.
  rewrite relic_is_top_down. apply walkD_is_spec; [reflexivity | assumption | now apply root_inv].
Qed.

Lemma signed_info_codes e r ref_id hash_alg sig_alg digest c14n :
  k_codes e r (signed_info ref_id hash_alg sig_alg digest c14n) = [].
Proof. destruct ref_id; reflexivity. Qed.

Lemma vsix_manifest_codes e r tag hash_uri refs :
  k_codes e r (el tag [] (map (fun x => vsix_reference (fst x) hash_uri (snd x)) refs)) = [].
Proof.
  unfold el. rewrite k_codes_elem. replace (flat_map _ _) with (@nil Z); [reflexivity|].
  induction refs as [|x refs IH]; [reflexivity|]. cbn [map flat_map]. now rewrite <- IH.
Qed.

(* ---- the specification looks at its environments through lookups, and only for the prefixes in use *)
Lemma attr_uri_ext e e' a : env_eq e e' -> attr_uri e a = attr_uri e' a.
Proof. intros H. unfold attr_uri. destruct (a3_space a); [reflexivity|]. now rewrite H. Qed.
Lemma xattr_lt_ext e e' a b : env_eq e e' -> xattr_lt e a b = xattr_lt e' a b.
Proof. intros H. unfold xattr_lt. now rewrite !(attr_uri_ext e e' _ H). Qed.

(* what the canonical form of an element takes from the two environments: the prefixes to declare and their values, the
   order of its attributes, the forms of its children *)
Lemma exc_elem_cong s t a a' ch ch' e e' r r' :
  let i := env_add e (own_decls a) in let i' := env_add e' (own_decls a') in let out := out_ns i r s a in
  out = out_ns i' r' s a' ->
  (forall p, In p out -> env_get i p = env_get i' p) ->
  isort (xattr_lt i) (plain_attrs a) = isort (xattr_lt i') (plain_attrs a') ->
  flat_map (exc_node i (render (env_get i) out r)) ch = flat_map (exc_node i' (render (env_get i') out r')) ch' ->
  exc_node e r (Elem s t a ch) = exc_node e' r' (Elem s t a' ch').
Proof.
  intros i i' out Ho Hg Ha Hc. unfold out_ns, render in *. cbn [exc_node]. fold i i'. rewrite <- Ho, <- Ha, <- Hc.
  now rewrite (flat_map_ext_in _ (fun p => x_ns_string p (env_get i' p)) out) by (intros p Hp; now rewrite Hg).
Qed.
Lemma exc_children e r s t a ch1 ch2 :
  flat_map (exc_node (fst (child_env e r s a)) (snd (child_env e r s a))) ch1 =
  flat_map (exc_node (fst (child_env e r s a)) (snd (child_env e r s a))) ch2 ->
  exc_node e r (Elem s t a ch1) = exc_node e r (Elem s t a ch2).
Proof. intros H. now apply exc_elem_cong. Qed.
Theorem exc_node_ext n : forall e e' r r', env_eq e e' -> env_eq r r' -> exc_node e r n = exc_node e' r' n.
Proof.
  induction n as [s t a ch IH| | | |] using node_ind'; intros e e' r r' He Hr; try reflexivity.
  rewrite Forall_forall in IH.
  assert (Hi : env_eq (env_add e (own_decls a)) (env_add e' (own_decls a))) by (intros p; apply env_add_cong, He).
  apply exc_elem_cong.
  - unfold out_ns. f_equal. apply filter_ext. intros p. now rewrite Hi, Hr.
  - intros p _. apply Hi.
  - apply isort_ext. intros x y _ _. now apply xattr_lt_ext.
  - apply flat_map_ext_in. intros c Hc. apply IH; [assumption | exact Hi | apply render_ext_in; [intros p _; apply Hi | exact Hr]].
Qed.

(* does the subtree visibly utilise prefix q under the binding that reaches its root? *)
Fixpoint uses_in_subtree (q : bytes) (n : node) : bool :=
  match n with
  | Elem s t a ch => usesP s a q || (negb (has_decl q a) && existsb (uses_in_subtree q) ch)
  | _ => false
  end.

Theorem exc_node_used n : forall e e' r,
  (forall p, uses_in_subtree p n = true -> env_get e p = env_get e' p) -> exc_node e r n = exc_node e' r n.
Proof.
  induction n as [s t a ch IH| | | |] using node_ind'; intros e e' r He; try reflexivity.
  rewrite Forall_forall in IH. cbn [uses_in_subtree] in He.
  set (i1 := env_add e (own_decls a)). set (i2 := env_add e' (own_decls a)).
  (* a prefix declared here is bound alike in both, any other is inherited *)
  assert (Hi : forall p, usesP s a p || existsb (uses_in_subtree p) ch = true -> env_get i1 p = env_get i2 p).
  { intros p Hp. destruct (has_decl p a) eqn:Hd.
    - destruct (env_add_bound (own_decls a) p) as (v & _ & E); [now apply has_decl_in|]. unfold i1, i2. now rewrite !E.
    - apply env_add_cong, He. now rewrite Hd. }
  assert (Hout : forall p, In p (out_ns i1 r s a) -> env_get i1 p = env_get i2 p).
  { intros p [[Hp _]%utilized_in _]%isort_in%filter_In. apply Hi. now rewrite Hp. }
  assert (Hattr : forall x, In x (plain_attrs a) -> attr_uri i1 x = attr_uri i2 x).
  { intros x Hx. unfold attr_uri. destruct (a3_space x) as [|z sp] eqn:Es; [reflexivity|].
    destruct (bytes_eqb (z :: sp) s_xml); [reflexivity|]. apply Hi. apply orb_true_iff. left. apply orb_true_iff. right.
    apply existsb_exists. exists x. split; [assumption|]. rewrite Es. apply bytes_eqb_refl. }
  apply exc_elem_cong; fold i1 i2.
  - unfold out_ns. f_equal. apply filter_ext_in. intros p [Hp _]%utilized_in. rewrite (Hi p); [reflexivity | now rewrite Hp].
  - exact Hout.
  - apply isort_ext. intros x y Hx Hy. unfold xattr_lt. now rewrite (Hattr x Hx), (Hattr y Hy).
  - apply flat_map_ext_in. intros c Hc. rewrite (IH c Hc i1 i2).
    + apply exc_node_ext; [intros p; reflexivity|]. apply render_ext_in; [exact Hout | intros p; reflexivity].
    + intros p Hp. apply Hi. apply orb_true_iff. right. apply existsb_exists. now exists c.
Qed.

Lemma own_decls_cons_decl d a : own_decls (decl_attr d :: a) = d :: own_decls a.
Proof.
  unfold own_decls. cbn [filter]. rewrite decl_attr_is_decl. cbn [map]. rewrite decl_attr_prefix, decl_attr_val. now destruct d.
Qed.
Lemma exc_add_decl e r s t a ch d :
  exc_node e r (Elem s t (decl_attr d :: a) ch) = exc_node (env_set e (fst d) (snd d)) r (Elem s t a ch).
Proof.
  cbn [exc_node]. unfold utilized. rewrite own_decls_cons_decl, !plain_cons_decl by apply decl_attr_is_decl. reflexivity.
Qed.

(* ---- ECDSA r||s *)
Lemma bitlen_nonneg n : 0 <= bitlen n.
Proof. unfold bitlen. destruct (n <=? 0) eqn:E; [lia|]. pose proof (Z.log2_nonneg n). lia. Qed.
Lemma bitlen_bound n : 0 <= n -> n < 2 ^ bitlen n.
Proof.
  intros H. unfold bitlen. destruct (n <=? 0) eqn:E.
  - assert (n = 0) by lia. subst. cbn. lia.
  - assert (0 < n) by lia. pose proof (Z.log2_spec n H0). replace (Z.log2 n + 1) with (Z.succ (Z.log2 n)) by lia. lia.
Qed.
Lemma bitlen_lower n : 0 < n -> 2 ^ (bitlen n - 1) <= n.
Proof.
  intros H. unfold bitlen. destruct (n <=? 0) eqn:E; [lia|].
  replace (Z.log2 n + 1 - 1) with (Z.log2 n) by lia. apply (Z.log2_spec n H).
Qed.

Definition maxbits (r s : Z) : Z := Z.max (bitlen r) (bitlen s).
Definition pack_w (r s : Z) : Z := (maxbits r s + 7) / 8.

Lemma pack_shape r s : pack r s = be_enc (Z.to_nat (pack_w r s)) r ++ be_enc (Z.to_nat (pack_w r s)) s.
Proof.
  unfold pack, pack_w, maxbits, pack_s_wider, pack_nbytes, pack_total_len, pack_r_first_half, pack_s_second_half.
  cbn [andb]. pose proof (bitlen_nonneg r). pose proof (bitlen_nonneg s).
  assert (E : (if bitlen s >? bitlen r then bitlen s else bitlen r) = Z.max (bitlen r) (bitlen s)).
  { destruct (bitlen s >? bitlen r) eqn:G; lia. }
  rewrite E. rewrite Z.quot_div_nonneg by lia.
  replace (2 * ((Z.max (bitlen r) (bitlen s) + 7) / 8) - (Z.max (bitlen r) (bitlen s) + 7) / 8)
    with ((Z.max (bitlen r) (bitlen s) + 7) / 8) by lia.
  reflexivity.
Qed.
Lemma pack_w_nonneg r s : 0 <= pack_w r s.
Proof. unfold pack_w, maxbits. pose proof (bitlen_nonneg r). apply Z.div_pos; lia. Qed.
Lemma pack_len r s : zlen (pack r s) = 2 * pack_w r s.
Proof. rewrite pack_shape, zlen_app, !be_enc_zlen. pose proof (pack_w_nonneg r s). lia. Qed.

Lemma fits x w : 0 <= x -> bitlen x <= 8 * w -> x < 256 ^ w.
Proof.
  intros H Hw. pose proof (bitlen_bound x H). pose proof (bitlen_nonneg x).
  replace 256 with (2 ^ 8) by reflexivity. rewrite <- Z.pow_mul_r by lia.
  eapply Z.lt_le_trans; [eassumption|]. apply Z.pow_le_mono_r; lia.
Qed.

(* the exact region where Pack produces the fixed-width encoding of a curve of `bits` bits *)
Lemma pack_fixed_iff bits r s :
  0 <= bits ->
  (pack_w r s = curve_bytes bits <-> pack r s = fixed_pack bits r s).
Proof.
  intros Hb. split; intros H.
  - rewrite pack_shape, H. reflexivity.
  - apply (f_equal zlen) in H. rewrite pack_len in H. unfold fixed_pack in H.
    rewrite zlen_app, !be_enc_zlen in H.
    assert (0 <= curve_bytes bits) by (unfold curve_bytes; apply Z.div_pos; lia). lia.
Qed.
Lemma pack_ok_when_top_bits_set bits r s :
  0 <= bits -> 8 * (curve_bytes bits - 1) < maxbits r s <= 8 * curve_bytes bits ->
  pack r s = fixed_pack bits r s.
Proof.
  intros Hb H. apply pack_fixed_iff; [assumption|]. unfold pack_w. lia.
Qed.
(* P-521: r, s < 2^520 are perfectly valid signature values (a quarter of all signatures) *)
Lemma pack_fixed_width_refuted :
  exists bits r s, In bits defined_curve_bits /\ 0 < r < 2 ^ (bits - 1) /\ 0 < s < 2 ^ (bits - 1) /\
                   pack r s <> fixed_pack bits r s /\ zlen (pack r s) = 130 /\ zlen (fixed_pack bits r s) = 132.
Proof.
  exists 521, (2 ^ 519 + 5), (2 ^ 500 + 3).
  assert (L1 : zlen (pack (2 ^ 519 + 5) (2 ^ 500 + 3)) = 130) by (rewrite pack_len; vm_compute; reflexivity).
  assert (L2 : zlen (fixed_pack 521 (2 ^ 519 + 5) (2 ^ 500 + 3)) = 132).
  { unfold fixed_pack. rewrite zlen_app, !be_enc_zlen. reflexivity. }
  split; [right; right; left; reflexivity|].
  split; [split; vm_compute; reflexivity|]. split; [split; vm_compute; reflexivity|].
  split; [|split; assumption]. intros E. rewrite E, L2 in L1. discriminate L1.
Qed.

(* ---- witnesses outside the class K, one for each clause *)
From Coq Require Import String Ascii.
Definition s2b (s : string) : bytes := map (fun a => Z.of_N (N_of_ascii a)) (list_ascii_of_string s).
Definition A (sp k v : string) : attr := (s2b sp, s2b k, s2b v).
Definition E (sp t : string) (attrs : list attr) (ch : list node) : node := Elem (s2b sp) (s2b t) attrs ch.
Local Open Scope string_scope.

(* <a><?pi x?></a> *)
Definition w_pi : node := E "" "a" [] [ProcInst (s2b "pi") (s2b "x")].
(* <a xmlns:p="urn:p" p:x="1"><b xmlns:p="urn:p" p:y="2"/></a> *)
Definition w_redundant : node :=
  E "" "a" [A "xmlns" "p" "urn:p"; A "p" "x" "1"] [E "" "b" [A "xmlns" "p" "urn:p"; A "p" "y" "2"] []].
(* <p:a xmlns:p="urn:p"><b xmlns:p="urn:q"><p:c xmlns:p="urn:p"/></b></p:a> : not redundant with respect to the
   namespace in scope, but redundant with respect to what the output ancestors rendered *)
Definition w_redundant_far : node :=
  E "p" "a" [A "xmlns" "p" "urn:p"] [E "" "b" [A "xmlns" "p" "urn:q"] [E "p" "c" [A "xmlns" "p" "urn:p"] []]].
(* <a xmlns:b="urn:a" xmlns:a="urn:b" b:x="1" a:x="2"/> *)
Definition w_attr_order : node :=
  E "" "a" [A "xmlns" "b" "urn:a"; A "xmlns" "a" "urn:b"; A "b" "x" "1"; A "a" "x" "2"] [].
(* <a xmlns:p="urn:p" xml:lang="en" p:x="1"/> *)
Definition w_attr_order_xml : node := E "" "a" [A "xmlns" "p" "urn:p"; A "xml" "lang" "en"; A "p" "x" "1"] [].
(* <a xmlns=""/> *)
Definition w_xmlns_empty : node := E "" "a" [A "" "xmlns" ""] [].
(* <c/> inside <a xmlns="urn:u"><b xmlns=""> *)
Definition w_ctx_undeclare : list (list attr) * node := ([[A "" "xmlns" ""]; [A "" "xmlns" "urn:u"]], E "" "c" [] []).
(* <p:a xmlns:p="urn:p" xmlns="urn:u"><b p:xmlns="v"/></p:a> *)
Definition w_attr_named_xmlns : node :=
  E "p" "a" [A "xmlns" "p" "urn:p"; A "" "xmlns" "urn:u"] [E "" "b" [A "p" "xmlns" "v"] []].

Definition diverges (ctx : list (list attr)) (t : node) (c : Z) : Prop :=
  wf_doc ctx t = true /\ K_codes ctx t = [c] /\ relic_c14n ctx t <> exc_c14n ctx t.
Ltac diverge := split; [vm_compute; reflexivity | split; [vm_compute; reflexivity | vm_compute; discriminate]].
