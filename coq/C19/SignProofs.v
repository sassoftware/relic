(* C19/SignProofs.v — the signing / verifying pipelines of C19/Sign.v.
   xmldsig.Sign is an interpreter run on the instruction list read from the source; xsign_is_ref evaluates it once into
   the closed form xsign_ref, and xsign_ok_inv is how every later proof uses a successful run.  Verify is followed on
   the tree Sign built (verify_struct_built); appmanifest.Sign / Verify are two such runs plus decorations. *)
From Relic Require Import Base.Prelude Base.Enc Base.Lists Base.Slice Generated.C19_gen C19.Model C19.Proofs C19.Sign.

(* ---- lists *)
Lemma filter_comm {A} (p q : A -> bool) l : filter p (filter q l) = filter q (filter p l).
Proof. rewrite !filter_filter. apply filter_ext. intros x. apply andb_comm. Qed.
Lemma existsb_filter_keep {A} (p q : A -> bool) l : (forall c, p c = true -> q c = true) -> existsb p (filter q l) = existsb p l.
Proof.
  intros H. induction l as [|c l IH]; [reflexivity|]. cbn [filter existsb]. destruct (q c) eqn:E; cbn [existsb]; rewrite IH; [reflexivity|].
  destruct (p c) eqn:Ep; [rewrite (H c Ep) in E; discriminate | reflexivity].
Qed.
Lemma forallb_negb_false {A} (p : A -> bool) l : forallb (fun c => negb (p c)) l = true -> forall c, In c l -> p c = false.
Proof. intros H c Hc. rewrite forallb_forall in H. now apply negb_true_iff, H. Qed.

(* ---- the call orders and literals read from the source are the ones the hand-written definitions assume *)
Lemma hc_ok_true : hc_ok = true.       Proof. reflexivity. Qed.
Lemma xv_ok_true : xv_ok = true.       Proof. reflexivity. Qed.
Lemma am_ok_true : am_ok = true.       Proof. reflexivity. Qed.
Lemma rm_loop_shape_true : rm_loop_shape = true. Proof. reflexivity. Qed.
Lemma xs_tags : xs_remove_tag = c_Signature /\ xs_create_tag = c_Signature /\ xs_sigattr_key = c_xmlns /\ xs_sigattr_val = ns_xmldsig /\ xs_ref_id = [].
Proof. repeat split; reflexivity. Qed.

Lemma pipeline_literals :
  bsi_strs = [c_SignedInfo; s_Algorithm; c_CanonicalizationMethod; s_Algorithm; c_SignatureMethod; c_Reference; s_URI; []; s_URI; s_Type;
              c_Transforms; s_Algorithm; alg_enveloped; c_Transform; s_Algorithm; c_Transform; s_Algorithm; c_DigestMethod; c_DigestValue]
  /\ fin_strs = [c_SignatureValue; c_KeyInfo]
  /\ am_asi_strs = [c_assemblyIdentity; c_publicKeyToken]
  /\ am_pub_strs = [c_publisherIdentity; c_publisherIdentity; c_name; c_issuerKeyHash]
  /\ am_ids_strs = [c_Signature; c_Id; c_KeyInfo; c_Id]
  /\ firstn 7 am_sign_strs = [c_StrongNameSignature; c_StrongNameKeyInfo; c_AuthenticodeSignature; []; c_msrel_RelData; c_xmlns ++ 58 :: c_msrel; ns_msrel]
  /\ am_license_strs = [c_r ++ 58 :: c_license; c_xmlns ++ 58 :: c_r; ns_mpeg21; c_xmlns ++ 58 :: c_as; ns_authenticode; c_r ++ 58 :: c_grant;
                        c_as ++ 58 :: c_ManifestInformation; c_Hash; c_Description; []; c_Url; []; c_as ++ 58 :: c_SignedBy;
                        c_as ++ 58 :: c_X509SubjectName; c_as ++ 58 :: c_AuthenticodePublisher; c_r ++ 58 :: c_issuer]
  /\ firstn 3 amv_strs = [c_Signature; c_Signature ++ 47 :: c_KeyInfo ++ 47 :: c_msrel_RelData ++ 47 :: c_r_license; c_issuer ++ 47 :: c_Signature].
Proof. repeat split; reflexivity. Qed.

(* buildSignedInfo with the generated branch conditions is the builder of Model.v (whose canonical form is W3C: signed_info_in_K) *)
Lemma signed_info_g_eq ref_id ha sa dv c : signed_info_g ref_id ha sa dv c = signed_info ref_id ha sa dv c.
Proof. destruct ref_id; reflexivity. Qed.

Definition is_sig_child (c : node) : bool := is_elem c && bytes_eqb (etag c) c_Signature.
Definition strip_sigs (ch : list node) : list node := filter (fun c => negb (is_sig_child c)) ch.

Lemma remove_elements_sig ch : remove_elements xs_remove_tag ch = strip_sigs ch.
Proof.
  unfold remove_elements. rewrite rm_loop_shape_true. unfold strip_sigs. apply filter_ext_in. intros c _.
  unfold rm_hit, is_sig_child, rm_match. reflexivity.
Qed.
Lemma strip_sigs_idem ch : strip_sigs (strip_sigs ch) = strip_sigs ch.
Proof. apply filter_idem. Qed.
Lemma strip_sigs_app a b : strip_sigs (a ++ b) = strip_sigs a ++ strip_sigs b.
Proof. apply filter_app. Qed.
Lemma strip_sigs_none ch : forallb (fun c => negb (is_sig_child c)) (strip_sigs ch) = true.
Proof. apply forallb_forall. intros c Hc. apply filter_In in Hc. tauto. Qed.

Definition sig_attrs0 : list attr := [mkattr [] c_xmlns ns_xmldsig].
Definition keyinfo_kids (P : sigparams) : list node :=
  (if fin_kv_cond (sp_include_kv P) then sp_kv P else []) ++ (if fin_x509_cond (sp_include_x509 P) (sp_ncerts P) then sp_x509 P else []).
Definition sig_kids (P : sigparams) (si : node) (si_oct : bytes) : list node :=
  [si; el c_SignatureValue [] [CharData (sp_sig_text P si_oct)]]
  ++ (if fin_attach_cond (zlen (keyinfo_kids P)) then [el c_KeyInfo [] (keyinfo_kids P)] else []).
(* guard; RemoveElements(parent, "Signature"); digest of the canonical form of root; algorithm names; Signature / SignedInfo;
   signature value over the canonical SignedInfo; KeyInfo *)
Definition xsign_ref (P : sigparams) (ctx0 : list (list attr)) (fs : list frame) (ps pt : bytes) (pa : list attr) (ch : list node) : result sst :=
  if xs_bad_key (sp_ncerts P) (sp_same_key P) then Err 1 else
  let ch1 := strip_sigs ch in
  let oct := relic_c14n ctx0 (plug fs (Elem ps pt pa ch1)) in
  let '(ha, sa, e) := hash_algs (sp_hash P) (sp_keykind P) (sp_ms P) in
  if e then Err 2 else
  let si := signed_info [] ha sa (sp_digest_text P oct) (c14n_ns (sp_rec P)) in
  let si_oct := relic_c14n (sig_attrs0 :: pa :: frames_ctx fs ++ ctx0) si in
  Ok (SSt ch1 (Some (sig_attrs0, sig_kids P si si_oct)) (Some oct) (Some (ha, sa)) (Some si) false si_oct true).

Lemma cur_root_nosig fs ps pt pa st : s_sig st = None -> cur_root fs ps pt pa st = plug fs (Elem ps pt pa (s_ch st)).
Proof. intros E. unfold cur_root, cur_parent, sig_child. rewrite E. rewrite app_nil_r. reflexivity. Qed.

(* The proof evaluates the interpreter on whatever instruction list srcgen produced: it goes through for the order of
   statements in the source and for reorderings that do not change what is computed (e.g. algorithm validation moved to the
   front), and fails for any order under which a different tree state is digested. *)
Lemma xsign_is_ref P ctx0 fs ps pt pa ch : xsign P ctx0 fs ps pt pa ch = xsign_ref P ctx0 fs ps pt pa ch.
Proof.
  unfold xsign, xsign_ref, sst0, xs_prog.
  repeat (cbn -[relic_c14n hash_algs signed_info_g signed_info remove_elements canon_octets plug finish xs_bad_key create_attr c14n_ns cur_root];
          match goal with
          | |- context [xs_bad_key ?a ?b] => destruct (xs_bad_key a b); [reflexivity|]
          | |- context [hash_algs ?a ?b ?c] => destruct (hash_algs a b c) as [[? ?] []]; [reflexivity|]
          end).
  cbn -[relic_c14n hash_algs signed_info_g signed_info remove_elements canon_octets plug finish xs_bad_key create_attr c14n_ns cur_root].
  rewrite !cur_root_nosig by reflexivity. cbn [s_ch].
  unfold finish. cbn [s_sig s_si s_ch s_ref s_algs]. replace (fin_ok) with true by reflexivity. cbn [negb].
  unfold canon_octets. rewrite hc_ok_true.
  destruct xs_tags as (_ & _ & Hk & Hv & Hr). rewrite Hr, signed_info_g_eq, remove_elements_sig.
  replace (create_attr xs_sigattr_key xs_sigattr_val []) with sig_attrs0 by reflexivity.
  unfold parent_ctx. cbn [s_done]. reflexivity.
Qed.

Lemma xsign_ok_inv P ctx0 fs ps pt pa ch st :
  xsign P ctx0 fs ps pt pa ch = Ok st ->
  exists ha sa,
    xs_bad_key (sp_ncerts P) (sp_same_key P) = false /\
    hash_algs (sp_hash P) (sp_keykind P) (sp_ms P) = (ha, sa, false) /\
    let oct := relic_c14n ctx0 (plug fs (Elem ps pt pa (strip_sigs ch))) in
    let si := signed_info [] ha sa (sp_digest_text P oct) (c14n_ns (sp_rec P)) in
    let si_oct := relic_c14n (sig_attrs0 :: pa :: frames_ctx fs ++ ctx0) si in
    st = SSt (strip_sigs ch) (Some (sig_attrs0, sig_kids P si si_oct)) (Some oct) (Some (ha, sa)) (Some si) false si_oct true.
Proof.
  rewrite xsign_is_ref. unfold xsign_ref.
  destruct (xs_bad_key (sp_ncerts P) (sp_same_key P)); [discriminate|].
  destruct (hash_algs (sp_hash P) (sp_keykind P) (sp_ms P)) as [[ha sa] e].
  destruct e; [discriminate|]. intros E. injection E as <-. exists ha, sa. repeat split.
Qed.

Definition new_sig (st : sst) : node := match s_sig st with Some (a, c) => Elem [] c_Signature a c | None => CharData [] end.

(* T: the reference digest is taken of the document with EVERY Signature child of the parent removed, whatever those
   children are, and the parent ends up with exactly these children plus the new Signature *)
Lemma xsign_digest_ignores_existing_signatures P ctx0 fs ps pt pa ch st :
  xsign P ctx0 fs ps pt pa ch = Ok st ->
  ref_octets st = relic_c14n ctx0 (plug fs (Elem ps pt pa (strip_sigs ch)))
  /\ out_parent ps pt pa st = Elem ps pt pa (strip_sigs ch ++ [new_sig st])
  /\ is_sig_child (new_sig st) = true.
Proof.
  intros H. apply xsign_ok_inv in H as (ha & sa & _ & _ & ->).
  unfold ref_octets, out_parent, cur_parent, sig_child, new_sig. cbn [s_ref s_sig s_ch].
  destruct xs_tags as (_ & -> & _). repeat split.
Qed.

Lemma xsign_depends_on_stripped P ctx0 fs ps pt pa ch ch' :
  strip_sigs ch = strip_sigs ch' -> xsign P ctx0 fs ps pt pa ch = xsign P ctx0 fs ps pt pa ch'.
Proof. intros E. rewrite !xsign_is_ref. unfold xsign_ref. rewrite E. reflexivity. Qed.

(* signing what Sign returned, with any key, digest algorithm and options: the same octets are digested *)
Lemma xsign_resign_same_digest P P' ctx0 fs ps pt pa ch st st' :
  xsign P ctx0 fs ps pt pa ch = Ok st ->
  xsign P' ctx0 fs ps pt pa (echildren (out_parent ps pt pa st)) = Ok st' ->
  ref_octets st' = ref_octets st /\ s_ch st' = s_ch st.
Proof.
  intros H1 H2. pose proof (xsign_digest_ignores_existing_signatures _ _ _ _ _ _ _ _ H1) as (R1 & O1 & S1).
  pose proof (xsign_digest_ignores_existing_signatures _ _ _ _ _ _ _ _ H2) as (R2 & _ & _).
  assert (E : strip_sigs (echildren (out_parent ps pt pa st)) = strip_sigs ch).
  { rewrite O1. cbn [echildren]. rewrite strip_sigs_app, strip_sigs_idem. unfold strip_sigs at 2. cbn [filter]. rewrite S1. cbn [negb]. apply app_nil_r. }
  split; [rewrite R1, R2, E; reflexivity|].
  apply xsign_ok_inv in H1 as (? & ? & _ & _ & ->). apply xsign_ok_inv in H2 as (? & ? & _ & _ & ->). cbn [s_ch]. exact E.
Qed.

(* ---- index paths into plug fs parent *)
Lemma find_kids_unique f q y : forall l i r,
  (forall c, In c l -> qmatch q c = false) -> (forall c, In c r -> qmatch q c = false) -> qmatch q y = true ->
  find_kids f q i (l ++ y :: r) = map (cons (i + List.length l)%nat) (f y).
Proof.
  induction l as [|c l IH]; intros i r Hl Hr Hy.
  - cbn [app find_kids List.length]. rewrite Hy, Nat.add_0_r.
    assert (E : find_kids f q (S i) r = []).
    { clear -Hr. revert i. induction r as [|c r IH]; intros i; [reflexivity|]. cbn [find_kids]. rewrite (Hr c) by (left; reflexivity).
      cbn [app]. apply IH. intros c' Hc'. apply Hr. right. exact Hc'. }
    rewrite E. apply app_nil_r.
  - cbn [app find_kids List.length]. rewrite (Hl c) by (left; reflexivity). cbn [app].
    rewrite IH; [|intros c' Hc'; apply Hl; right; exact Hc' | exact Hr | exact Hy].
    f_equal. f_equal. lia.
Qed.

(* the route from root to the parent is unambiguous: no sibling along the way carries the tag of the next step *)
Definition top_tag (fs : list frame) (pt : bytes) : bytes := match fs with [] => pt | f :: _ => f_tag f end.
Fixpoint route_ok (fs : list frame) (pt : bytes) : bool :=
  match fs with
  | [] => true
  | f :: rest => forallb (fun c => negb (qmatch (any_tag (top_tag rest pt)) c)) (f_left f ++ f_right f) && route_ok rest pt
  end.

(* the tags leading from root down to the parent (root's own tag excluded) *)
Fixpoint down_steps (fs : list frame) (pt : bytes) : list bytes :=
  match fs with
  | [] => []
  | _ :: rest => top_tag rest pt :: down_steps rest pt
  end.
Lemma down_steps_eq f inner pt : down_steps (f :: inner) pt = map f_tag inner ++ [pt].
Proof.
  revert f. induction inner as [|g inner IH]; intros f; [reflexivity|].
  change (down_steps (f :: g :: inner) pt) with (f_tag g :: down_steps (g :: inner) pt). rewrite IH. reflexivity.
Qed.
Lemma sig_steps_eq fs pt : sig_steps fs pt = map any_tag (down_steps fs pt) ++ [any_tag c_Signature].
Proof.
  destruct xs_tags as (_ & E & _). destruct fs as [|f inner]; unfold sig_steps; rewrite E; [reflexivity|].
  rewrite down_steps_eq, map_app, map_map, <- app_assoc. reflexivity.
Qed.

Lemma etag_plug fs ps pt pa ch : etag (plug fs (Elem ps pt pa ch)) = top_tag fs pt.
Proof. destruct fs; reflexivity. Qed.
Lemma qmatch_any_tag t n : is_elem n = true -> qmatch (any_tag t) n = bytes_eqb t (etag n).
Proof. destruct n; try discriminate. intros _. reflexivity. Qed.
Lemma is_elem_plug fs ps pt pa ch : is_elem (plug fs (Elem ps pt pa ch)) = true.
Proof. destruct fs; reflexivity. Qed.

Lemma find_plug ps pt pa tail : forall fs ch,
  route_ok fs pt = true ->
  find_paths (map any_tag (down_steps fs pt) ++ tail) (plug fs (Elem ps pt pa ch))
  = map (app (frames_path fs)) (find_paths tail (Elem ps pt pa ch)).
Proof.
  induction fs as [|f rest IH]; intros ch Hr.
  - cbn [down_steps map app plug fold_right frames_path]. rewrite map_id. reflexivity.
  - cbn [route_ok] in Hr. apply andb_true_iff in Hr as [Hs Hr]. rewrite forallb_app in Hs. apply andb_true_iff in Hs as [Hl Hrt].
    rewrite forallb_forall in Hl, Hrt.
    cbn [down_steps map app plug fold_right]. fold (plug rest (Elem ps pt pa ch)).
    unfold plug1 at 1. cbn [find_paths echildren].
    rewrite find_kids_unique.
    + rewrite IH by exact Hr. rewrite map_map. reflexivity.
    + intros c Hc. apply negb_true_iff. now apply Hl.
    + intros c Hc. apply negb_true_iff. now apply Hrt.
    + rewrite qmatch_any_tag by apply is_elem_plug. rewrite etag_plug. apply bytes_eqb_refl.
Qed.

Lemma get_at_plug n p : forall fs ctx,
  get_at (frames_path fs ++ p) ctx (plug fs n) = get_at p (frames_ctx fs ++ ctx) n.
Proof.
  induction fs as [|f rest IH]; intros ctx; [reflexivity|].
  cbn [frames_path map app plug fold_right]. fold (plug rest n). unfold plug1 at 1. cbn [get_at echildren eattrs].
  rewrite nth_error_mid. fold (frames_path rest). rewrite IH. unfold frames_ctx. cbn [map rev]. rewrite <- app_assoc. reflexivity.
Qed.

Lemma map_nth_mid {A} (g : A -> A) (l : list A) y r : map_nth (List.length l) g (l ++ y :: r) = l ++ g y :: r.
Proof. induction l; [reflexivity|]. cbn [List.length app map_nth]. rewrite IHl. reflexivity. Qed.
Lemma remove_at_cons i p n : p <> [] ->
  remove_at (i :: p) n = match n with Elem s t a c => Elem s t a (map_nth i (remove_at p) c) | _ => n end.
Proof. destruct p; [contradiction | reflexivity]. Qed.
Lemma remove_at_plug s t a c i : forall fs,
  remove_at (frames_path fs ++ [i]) (plug fs (Elem s t a c)) = plug fs (Elem s t a (drop_nth i c)).
Proof.
  induction fs as [|f rest IH]; [reflexivity|].
  cbn [frames_path map app plug fold_right]. fold (plug rest (Elem s t a c)) (plug rest (Elem s t a (drop_nth i c))) (frames_path rest).
  unfold plug1. rewrite remove_at_cons by (now destruct (frames_path rest)). rewrite map_nth_mid, IH. reflexivity.
Qed.
Lemma drop_nth_last {A} (l : list A) y : drop_nth (List.length l) (l ++ [y]) = l.
Proof.
  unfold drop_nth. rewrite firstn_app, Nat.sub_diag, firstn_all. cbn [firstn]. rewrite app_nil_r.
  replace (skipn (S (List.length l)) (l ++ [y])) with (@nil A); [apply app_nil_r|].
  symmetry. apply skipn_all2. rewrite app_length. cbn. lia.
Qed.
Lemma map_nth_split {A} (f : A -> A) : forall c i,
  map_nth i f c = firstn i c ++ match nth_error c i with Some x => [f x] | None => [] end ++ skipn (i + 1) c.
Proof. induction c as [|x c IH]; intros [|i]; cbn; [reflexivity.. | now rewrite IH]. Qed.
Lemma spec_drop_cons i p s t a c : p <> [] ->
  spec_drop (i :: p) (Elem s t a c)
  = Elem s t a (firstn i c ++ match nth_error c i with Some x => [spec_drop p x] | None => [] end ++ skipn (i + 1) c).
Proof. destruct p; [contradiction | reflexivity]. Qed.
(* the specification's removal of the Signature element is RemoveChild at the same position *)
Lemma spec_drop_remove_at : forall p n, spec_drop p n = remove_at p n.
Proof.
  induction p as [|i p IH]; intros n; [reflexivity|]. destruct n as [s t a c| | | |]; try (destruct p; reflexivity).
  destruct p as [|j r]; [cbn [spec_drop remove_at]; unfold drop_nth; now rewrite Nat.add_1_r|].
  rewrite spec_drop_cons, remove_at_cons, map_nth_split by discriminate. destruct (nth_error c i); now rewrite ?IH.
Qed.

(* ---- algorithm names: what hashAlgs writes, parseAlgs reads back *)
Definition pub_name (kk : Z) : bytes := if kk =? 0 then [114; 115; 97] else [101; 99; 100; 115; 97].   (* "rsa" / "ecdsa" *)
Lemma assoc_in k l : assoc k l <> [] -> In k (map fst l).
Proof.
  induction l as [|[k' v] l IH]; cbn [assoc map fst In]; [congruence|].
  destruct (Z.eqb_spec k k'); [left; congruence | right; auto].
Qed.
(* success means that both table lookups found something *)
Lemma hash_algs_domain h kk ms ha sa : hash_algs h kk ms = (ha, sa, false) -> In h [3; 4; 5; 6; 7] /\ In kk [0; 1].
Proof.
  unfold hash_algs, ha_no_hash. intros H.
  destruct (bytes_eqb_neq (assoc h hash_names) []) as [Hn _].
  destruct (bytes_eqb (assoc h hash_names) []); [discriminate|].
  destruct (find (fun p => fst p =? kk) ha_pub_names) as [p|] eqn:F; [|discriminate].
  apply find_some in F as [Hp Ek]. apply Z.eqb_eq in Ek. subst kk.
  split; [exact (assoc_in _ _ (Hn eq_refl)) | exact (in_map fst _ _ Hp)].
Qed.
(* the table of algorithm identifiers, entry by entry: one evaluation for each of the 5 x 2 x 2 combinations *)
Lemma algs_table h kk ms : In h [3; 4; 5; 6; 7] -> In kk [0; 1] ->
  let '(ha, sa, e) := hash_algs h kk ms in e = false /\ parse_algs ha sa = Ok (h, pub_name kk).
Proof.
  cbn [In]. intros Hh Hk.
  destruct Hh as [<-|[<-|[<-|[<-|[<-|[]]]]]]; destruct Hk as [<-|[<-|[]]]; destruct ms; vm_compute; split; reflexivity.
Qed.
Lemma algs_roundtrip h kk ms ha sa : hash_algs h kk ms = (ha, sa, false) -> parse_algs ha sa = Ok (h, pub_name kk).
Proof.
  intros H. destruct (hash_algs_domain _ _ _ _ _ H) as [Hh Hk].
  pose proof (algs_table h kk ms Hh Hk) as T. rewrite H in T. apply T.
Qed.
(* an unsupported digest or key type is refused, never signed *)
Lemma hash_algs_refuses h kk ms : (~ In h [3; 4; 5; 6; 7] \/ ~ In kk [0; 1]) -> snd (hash_algs h kk ms) = true.
Proof.
  intros Hn. destruct (hash_algs h kk ms) as [[ha sa] e] eqn:E. destruct e; [reflexivity|].
  apply hash_algs_domain in E. tauto.
Qed.

(* ---- relic_c14n looks at the ancestors only through their namespace declarations *)
Definition nodecl (a : attr) : bool := negb (snd (get_decl (a3_space a) (a3_key a))).
Lemma nodecl_not_nsdecl a : nodecl a = negb (is_nsdecl a).
Proof. unfold nodecl. rewrite get_decl_spec. reflexivity. Qed.
Lemma own_decls_nodecl xa : forallb nodecl xa = true -> own_decls xa = [].
Proof.
  intros H. unfold own_decls. rewrite filter_none; [reflexivity|]. intros a Ha.
  rewrite forallb_forall in H. apply negb_true_iff. rewrite <- nodecl_not_nsdecl. now apply H.
Qed.
Lemma collect_attrs_nodecl l m : forallb nodecl l = true -> fold_left collect_attr l m = m.
Proof. intros H. now rewrite collect_attrs_decls, own_decls_nodecl. Qed.
Definition ctx_nodecl (ctx : list (list attr)) : bool := forallb (forallb nodecl) ctx.
Lemma collect_from_nodecl ctx : forall m, ctx_nodecl ctx = true -> collect_from m ctx = m.
Proof.
  induction ctx as [|a ctx IH]; intros m H; [reflexivity|]. cbn [ctx_nodecl forallb] in H. apply andb_true_iff in H as [Ha Hc].
  unfold collect_from. cbn [fold_left]. rewrite collect_attrs_nodecl by exact Ha. apply IH. exact Hc.
Qed.
Lemma collect_spaces_app c1 c2 : collect_spaces (c1 ++ c2) = collect_from (collect_spaces c1) c2.
Proof. unfold collect_spaces, collect_from. apply fold_left_app. Qed.
Lemma collect_spaces_cons_app a xa ctx : forallb nodecl xa = true -> collect_spaces ((a ++ xa) :: ctx) = collect_spaces (a :: ctx).
Proof.
  intros H. unfold collect_spaces. cbn [fold_left]. rewrite fold_left_app, (collect_attrs_nodecl xa) by exact H. reflexivity.
Qed.
Lemma relic_c14n_ctx c1 c2 n : collect_spaces c1 = collect_spaces c2 -> relic_c14n c1 n = relic_c14n c2 n.
Proof. intros E. unfold relic_c14n, relic_tree, pull_down. rewrite E. reflexivity. Qed.
Lemma relic_c14n_tail_nodecl c1 ctx0 n : ctx_nodecl ctx0 = true -> relic_c14n (c1 ++ ctx0) n = relic_c14n c1 n.
Proof.
  intros H. apply relic_c14n_ctx. rewrite collect_spaces_app. apply collect_from_nodecl. exact H.
Qed.
Lemma relic_c14n_nodecl ctx n : ctx_nodecl ctx = true -> relic_c14n ctx n = relic_c14n [] n.
Proof. apply (relic_c14n_tail_nodecl []). Qed.

(* ---- Verify on what Sign built, possibly decorated afterwards:
   appmanifest adds Id attributes to Signature and KeyInfo and appends msrel:RelData to KeyInfo after signing *)
Definition keymat (c : node) : bool := is_elem c && (bytes_eqb (etag c) c_KeyValue || bytes_eqb (etag c) c_X509Data).
Definition deco_sig (P : sigparams) (si : node) (si_oct : bytes) (xa ka : list attr) (kx : list node) : node :=
  Elem [] c_Signature (sig_attrs0 ++ xa)
    ([si; el c_SignatureValue [] [CharData (sp_sig_text P si_oct)]]
     ++ (if fin_attach_cond (zlen (keyinfo_kids P)) then [Elem [] c_KeyInfo ka (keyinfo_kids P ++ kx)] else [])).
Definition key_mat_of (P : sigparams) : list node :=
  if fin_attach_cond (zlen (keyinfo_kids P)) then filter keymat (keyinfo_kids P) else [].

Lemma deco_plain P si si_oct : deco_sig P si si_oct [] [] [] = Elem [] c_Signature sig_attrs0 (sig_kids P si si_oct).
Proof.
  unfold deco_sig, sig_kids, el. rewrite !app_nil_r. reflexivity.
Qed.

Lemma parse_sig_built ha sa dv c14n svel rest :
  parse_sig (signed_info [] ha sa dv c14n :: svel :: rest)
  = VFields c14n sa [] [alg_enveloped; c14n] ha dv (txt_of (child_el c_SignatureValue (svel :: rest))).
Proof.
  unfold parse_sig. change (child_el c_SignedInfo (signed_info [] ha sa dv c14n :: svel :: rest)) with (Some (signed_info [] ha sa dv c14n)).
  change (child_el c_SignatureValue (signed_info [] ha sa dv c14n :: svel :: rest)) with (child_el c_SignatureValue (svel :: rest)).
  f_equal. cbn. apply app_nil_r.
Qed.

Lemma own_decls_app a b : own_decls (a ++ b) = own_decls a ++ own_decls b.
Proof. unfold own_decls. rewrite filter_app, map_app. reflexivity. Qed.
Lemma is_sig_child_qmatch c : qmatch (any_tag c_Signature) c = is_sig_child c.
Proof. destruct c; try reflexivity. unfold qmatch, any_tag, is_sig_child. cbn [fst snd space_match is_elem etag andb]. apply bytes_eqb_sym. Qed.

(* Sign leaves its Signature as the last child, behind children none of which is one: that is where a search finds it *)
Lemma find_kids_new_sig f X S : forallb (fun c => negb (is_sig_child c)) X = true -> is_sig_child S = true ->
  find_kids f (any_tag c_Signature) 0 (X ++ [S]) = map (cons (List.length X)) (f S).
Proof.
  intros HX HS. apply (find_kids_unique f (any_tag c_Signature) S X 0 []).
  - intros c Hc. rewrite is_sig_child_qmatch. exact (forallb_negb_false _ _ HX c Hc).
  - intros c [].
  - now rewrite is_sig_child_qmatch.
Qed.

Lemma c14n_ns_ok r : xv_bad_c14n (c14n_ns r) = false /\ xv_bad_env_transforms 2 alg_enveloped (c14n_ns r) = false.
Proof. destruct r; split; vm_compute; reflexivity. Qed.

Lemma key_material_deco P si svel ka kx :
  child_el c_KeyInfo [si; svel] = None -> forallb (fun c => negb (keymat c)) kx = true ->
  key_material (si :: svel :: (if fin_attach_cond (zlen (keyinfo_kids P)) then [Elem [] c_KeyInfo ka (keyinfo_kids P ++ kx)] else []))
  = key_mat_of P.
Proof.
  unfold key_material, key_mat_of, child_el. cbn [find]. intros Hn Hk.
  destruct (is_elem si && bytes_eqb (etag si) c_KeyInfo); [discriminate|].
  destruct (is_elem svel && bytes_eqb (etag svel) c_KeyInfo); [discriminate|].
  destruct (fin_attach_cond (zlen (keyinfo_kids P))); [|reflexivity].
  cbn [find is_elem etag andb]. rewrite bytes_eqb_refl. cbn [echildren].
  rewrite filter_app, (filter_none _ kx), app_nil_r by exact (forallb_negb_false keymat _ Hk). reflexivity.
Qed.

Lemma verify_struct_built P fs ps pt pa chN ha sa dv si_oct xa ka kx :
  route_ok fs pt = true ->
  forallb (fun c => negb (is_sig_child c)) chN = true ->
  hash_algs (sp_hash P) (sp_keykind P) (sp_ms P) = (ha, sa, false) ->
  forallb nodecl xa = true -> forallb (fun c => negb (keymat c)) kx = true ->
  let si := signed_info [] ha sa dv (c14n_ns (sp_rec P)) in
  verify_struct (plug fs (Elem ps pt pa (chN ++ [deco_sig P si si_oct xa ka kx]))) (sig_steps fs pt)
  = Ok (VResult (sp_hash P) (pub_name (sp_keykind P)) (key_mat_of P)
          (relic_c14n ((sig_attrs0 ++ xa) :: pa :: frames_ctx fs) si) (sp_sig_text P si_oct)
          (relic_c14n [] (plug fs (Elem ps pt pa chN))) dv (frames_path fs ++ [List.length chN])).
Proof.
  intros Hroute Hno Halg Hxa Hkx si.
  unfold verify_struct. rewrite xv_ok_true. cbn [negb].
  rewrite sig_steps_eq, find_plug by exact Hroute.
  cbn [find_paths echildren].
  rewrite find_kids_new_sig by first [exact Hno | reflexivity].
  cbn [map app].
  change (xv_none (zlen [frames_path fs ++ [List.length chN]])) with false.
  change (xv_multi (zlen [frames_path fs ++ [List.length chN]])) with false. cbn iota.
  rewrite get_at_plug. cbn [get_at echildren eattrs]. rewrite nth_error_mid. rewrite app_nil_r.
  unfold deco_sig at 1.
  set (kids := [si; el c_SignatureValue [] [CharData (sp_sig_text P si_oct)]] ++ _).
  assert (Hname : sig_name_ok (pa :: frames_ctx fs) (Elem [] c_Signature (sig_attrs0 ++ xa) kids) = true).
  { unfold sig_name_ok. cbn [etag eattrs espace]. rewrite bytes_eqb_refl. cbn [andb].
    rewrite own_decls_app, (own_decls_nodecl xa) by exact Hxa. rewrite app_nil_r. reflexivity. }
  rewrite Hname. cbn [negb].
  subst kids si. cbn [app]. rewrite parse_sig_built. cbn [v_cm v_sm v_uri v_transforms v_dm v_dv v_sv].
  destruct (c14n_ns_ok (sp_rec P)) as [Hc Ht]. rewrite Hc.
  rewrite (algs_roundtrip _ _ _ _ _ Halg).
  change (child_el c_SignedInfo (signed_info [] ha sa dv (c14n_ns (sp_rec P)) :: _)) with (Some (signed_info [] ha sa dv (c14n_ns (sp_rec P)))). cbn iota.
  change (xv_enveloped []) with true. cbn iota.
  change (zlen [alg_enveloped; c14n_ns (sp_rec P)]) with 2. cbn [nth]. rewrite Ht.
  replace (xv_no_parent match frames_path fs ++ [List.length chN] with [] => true | _ :: _ => false end) with false
    by (destruct (frames_path fs); reflexivity).
  rewrite remove_at_plug, drop_nth_last.
  unfold canon_octets. rewrite hc_ok_true.
  rewrite key_material_deco by first [reflexivity | exact Hkx].
  replace (txt_of (child_el c_SignatureValue (el c_SignatureValue [] [CharData (sp_sig_text P si_oct)] :: _))) with (sp_sig_text P si_oct);
    [reflexivity|].
  unfold child_el. cbn [find el is_elem etag andb]. rewrite bytes_eqb_refl. cbn [txt_of text_of echildren flat_map]. symmetry. apply app_nil_r.
Qed.

Section Crypto.
  Variable Hf : Z -> bytes -> bytes.                      (* the digest functions *)
  Variable b64e : bytes -> bytes.
  Variable b64d : bytes -> option bytes.
  Variable sig_ok : list node -> Z -> bytes -> bytes -> bytes -> bool.
  Hypothesis b64_roundtrip : forall x, b64d (b64e x) = Some x.
  Definition C : vcrypto := VCrypto Hf b64d sig_ok.
  (* the signer: DigestValue text is base64 of the digest; the signature value it produces over some octets verifies
     under the key material it writes into KeyInfo (RSA / ECDSA correctness, Pack / Unpack, addKeyInfo / parseKey) *)
  Definition signer_ok (P : sigparams) : Prop :=
    (forall o, sp_digest_text P o = b64e (Hf (sp_hash P) o)) /\
    (forall o, sig_ok (key_mat_of P) (sp_hash P) (pub_name (sp_keykind P)) o (sp_sig_text P o) = true).

  Definition the_si (st : sst) : node := match s_si st with Some si => si | None => CharData [] end.

  Theorem verify_accepts_xsign P ctx0 fs ps pt pa ch st xa ka kx :
    signer_ok P -> ctx_nodecl ctx0 = true -> route_ok fs pt = true ->
    xsign P ctx0 fs ps pt pa ch = Ok st ->
    forallb nodecl xa = true -> forallb (fun c => negb (keymat c)) kx = true ->
    exists r,
      verify C (plug fs (Elem ps pt pa (s_ch st ++ [deco_sig P (the_si st) (s_si_octets st) xa ka kx]))) (sig_steps fs pt) = Ok r
      /\ vr_ref_octets r = ref_octets st
      /\ vr_dv r = sp_digest_text P (ref_octets st)
      /\ vr_sigpath r = frames_path fs ++ [List.length (s_ch st)]
      /\ vr_hash r = sp_hash P.
  Proof.
    intros [Hdig Hsig] Hctx Hroute H Hxa Hkx.
    apply xsign_ok_inv in H as (ha & sa & _ & Halg & ->).
    unfold the_si, ref_octets. cbn [s_ch s_si s_si_octets s_ref].
    set (oct := relic_c14n ctx0 (plug fs (Elem ps pt pa (strip_sigs ch)))).
    set (si := signed_info [] ha sa (sp_digest_text P oct) (c14n_ns (sp_rec P))).
    set (si_oct := relic_c14n (sig_attrs0 :: pa :: frames_ctx fs ++ ctx0) si).
    pose proof (verify_struct_built P fs ps pt pa (strip_sigs ch) ha sa (sp_digest_text P oct) si_oct xa ka kx Hroute (strip_sigs_none ch) Halg Hxa Hkx) as V.
    cbv zeta in V. fold si in V.
    (* with no declarations on root's ancestors and none among the added attributes, Verify canonicalises what Sign did *)
    assert (E1 : relic_c14n ((sig_attrs0 ++ xa) :: pa :: frames_ctx fs) si = si_oct).
    { subst si_oct. change (sig_attrs0 :: pa :: frames_ctx fs ++ ctx0) with ((sig_attrs0 :: pa :: frames_ctx fs) ++ ctx0).
      rewrite relic_c14n_tail_nodecl by exact Hctx. apply relic_c14n_ctx. apply collect_spaces_cons_app. exact Hxa. }
    assert (E2 : relic_c14n [] (plug fs (Elem ps pt pa (strip_sigs ch))) = oct).
    { subst oct. symmetry. apply relic_c14n_nodecl. exact Hctx. }
    rewrite E1, E2 in V. eexists. split.
    - unfold verify. rewrite V. cbn [vr_key vr_hash vr_pubtype vr_si_octets vr_sv vr_ref_octets vr_dv C vc_sig_ok vc_hash vc_b64d].
      rewrite Hsig. cbn [negb]. rewrite Hdig, b64_roundtrip.
      unfold xv_bad_digest_len, xv_digest_differs. rewrite Z.eqb_refl, bytes_eqb_refl. reflexivity.
    - repeat split. symmetry. apply Hdig.
  Qed.
End Crypto.

(* ---- appmanifest.Sign *)
Lemma update_first_none p f l : (forall c, In c l -> p c = false) -> update_first p f l = l.
Proof.
  induction l as [|c l IH]; intros H; [reflexivity|]. cbn [update_first]. rewrite (H c) by (left; reflexivity).
  f_equal. apply IH. intros c' Hc'. apply H. right. exact Hc'.
Qed.
Lemma update_first_hit p f l y r : (forall c, In c l -> p c = false) -> p y = true -> update_first p f (l ++ y :: r) = l ++ f y :: r.
Proof.
  induction l as [|c l IH]; intros H Hy; cbn [app update_first]; [rewrite Hy; reflexivity|].
  rewrite (H c) by (left; reflexivity). f_equal. apply IH; [|exact Hy]. intros c' Hc'. apply H. right. exact Hc'.
Qed.
Lemma update_first_app_l p f l r : existsb p l = true -> update_first p f (l ++ r) = update_first p f l ++ r.
Proof.
  induction l as [|c l IH]; intros H; [discriminate|]. cbn [app update_first]. cbn [existsb] in H.
  destruct (p c); [reflexivity|]. cbn [orb] in H. cbn [app]. f_equal. apply IH. exact H.
Qed.
Lemma update_first_filter p f q l :
  (forall c, p c = true -> q c = true) -> (forall c, q (f c) = q c) ->
  update_first p f (filter q l) = filter q (update_first p f l).
Proof.
  intros Hpq Hqf. induction l as [|c l IH]; [reflexivity|]. cbn [filter update_first].
  destruct (p c) eqn:Ep.
  - rewrite (Hpq c Ep). cbn [update_first filter]. rewrite Ep, Hqf, (Hpq c Ep). reflexivity.
  - destruct (q c) eqn:Eq; cbn [update_first filter]; rewrite ?Ep, ?Eq, IH; reflexivity.
Qed.
Lemma update_first_idem p f l :
  (forall c, p c = true -> p (f c) = true) -> (forall c, p c = true -> f (f c) = f c) ->
  update_first p f (update_first p f l) = update_first p f l.
Proof.
  intros Hp Hf. induction l as [|c l IH]; [reflexivity|]. cbn [update_first]. destruct (p c) eqn:E; cbn [update_first].
  - rewrite (Hp c E), (Hf c E). reflexivity.
  - rewrite E, IH. reflexivity.
Qed.
Lemma existsb_update_first p f l : (forall c, p c = true -> p (f c) = true) -> existsb p (update_first p f l) = existsb p l.
Proof.
  intros Hp. induction l as [|c l IH]; [reflexivity|]. cbn [update_first existsb]. destruct (p c) eqn:E; cbn [existsb].
  - rewrite (Hp c E). reflexivity.
  - rewrite E, IH. reflexivity.
Qed.

(* CreateAttr twice with the same key and value is CreateAttr once *)
Lemma replace_val_fix sp sk v : forall a l, replace_val sp sk v a = Some l -> replace_val sp sk v l = Some l.
Proof.
  induction a as [|x a IH]; intros l H; [discriminate|]. cbn [replace_val] in H.
  destruct (bytes_eqb sp (a3_space x) && bytes_eqb sk (a3_key x)) eqn:E.
  - injection H as <-. cbn [replace_val]. unfold mkattr, a3_space, a3_key. cbn [fst snd]. rewrite !bytes_eqb_refl. reflexivity.
  - destruct (replace_val sp sk v a) as [r'|] eqn:R; [|discriminate]. injection H as <-. cbn [replace_val]. rewrite E, (IH r' eq_refl). reflexivity.
Qed.
Lemma replace_val_appended sp sk v : forall a, replace_val sp sk v a = None -> replace_val sp sk v (a ++ [mkattr sp sk v]) = Some (a ++ [mkattr sp sk v]).
Proof.
  induction a as [|x a IH]; intros H.
  - cbn [app replace_val]. unfold mkattr, a3_space, a3_key. cbn [fst snd]. rewrite !bytes_eqb_refl. reflexivity.
  - cbn [replace_val] in H. destruct (bytes_eqb sp (a3_space x) && bytes_eqb sk (a3_key x)) eqn:E; [discriminate|].
    destruct (replace_val sp sk v a) eqn:R; [discriminate|]. cbn [app replace_val]. rewrite E, (IH eq_refl). reflexivity.
Qed.
Lemma create_attr_idem k v a : create_attr k v (create_attr k v a) = create_attr k v a.
Proof.
  unfold create_attr. destruct (space_decompose k) as [sp sk]. destruct (replace_val sp sk v a) as [l|] eqn:R.
  - rewrite (replace_val_fix _ _ _ _ _ R). reflexivity.
  - rewrite (replace_val_appended _ _ _ _ R). reflexivity.
Qed.
Lemma set_attr_idem k v n : set_attr k v (set_attr k v n) = set_attr k v n.
Proof. destruct n; try reflexivity. cbn [set_attr]. rewrite create_attr_idem. reflexivity. Qed.
Lemma set_attr_tag k v n : etag (set_attr k v n) = etag n /\ espace (set_attr k v n) = espace n /\ is_elem (set_attr k v n) = is_elem n.
Proof. destruct n; repeat split. Qed.

Definition f_asi (I : identity) : node -> node := set_attr c_publicKeyToken (id_token I).
Definition notpub (c : node) : bool := negb (rm_hit c_publisherIdentity c).
Definition notsig (c : node) : bool := negb (is_sig_child c).
Definition pub_el (I : identity) : node :=
  Elem [] c_publisherIdentity [mkattr [] c_name (id_subject I); mkattr [] c_issuerKeyHash (id_issuer_hash I)] [].
(* the children of the manifest root after setAssemblyIdentity and setPublisherIdentity *)
Definition prep (I : identity) (ch : list node) : list node := filter notpub (update_first is_asi (f_asi I) ch) ++ [pub_el I].
(* what the primary signature covers *)
Definition am_content (I : identity) (ch : list node) : list node := strip_sigs (prep I ch).
Definition reldata_of (lic : node) : node := Elem c_msrel c_RelData [mkattr c_xmlns c_msrel ns_msrel] [lic].

Lemma set_publisher_prep I ch1 : set_publisher I ch1 = filter notpub ch1 ++ [pub_el I].
Proof. unfold set_publisher, remove_elements. rewrite rm_loop_shape_true. reflexivity. Qed.

Lemma am_sign_inv I P1 P2 mh rs rt ra ch o :
  am_sign I P1 P2 mh rs rt ra ch = Ok o ->
  exists asi st1 st2,
    find is_asi ch = Some asi /\
    xsign P1 [] [] rs rt ra (prep I ch) = Ok st1 /\
    let lf := license_frame (f_asi I asi) (id_subject I) (mh (sp_digest_text P1 (ref_octets st1))) in
    xsign P2 [] [lf] c_r c_issuer [] [] = Ok st2 /\
    o = AmOut (Elem rs rt ra (set_sig_ids c_StrongNameSignature c_StrongNameKeyInfo
                                [reldata_of (plug [lf] (match out_parent c_r c_issuer [] st2 with
                                                        | Elem a b c d => Elem a b c (set_sig_ids c_AuthenticodeSignature [] [] d)
                                                        | x => x end))]
                                (echildren (out_parent rs rt ra st1)))) st1 st2.
Proof.
  unfold am_sign. rewrite am_ok_true. cbn [negb]. unfold set_asi.
  destruct (find is_asi ch) as [asi|] eqn:Fa; [|discriminate].
  rewrite set_publisher_prep. fold (f_asi I). fold (prep I ch).
  destruct (xsign P1 [] [] rs rt ra (prep I ch)) as [st1| |] eqn:X1; try discriminate.
  destruct (xsign P2 [] [license_frame (f_asi I asi) (id_subject I) (mh (sp_digest_text P1 (ref_octets st1)))] c_r c_issuer [] []) as [st2| |] eqn:X2; try discriminate.
  intros E. injection E as <-. exists asi, st1, st2. repeat split; assumption.
Qed.

(* T: the primary (strong-name) digest of a manifest covers the manifest with the identity fields of the signer and
   without ANY Signature child of the root — a manifest that was signed before gets the digest of its unsigned self *)
Lemma am_primary_digest I P1 P2 mh rs rt ra ch o :
  am_sign I P1 P2 mh rs rt ra ch = Ok o ->
  ref_octets (ao_primary o) = relic_c14n [] (Elem rs rt ra (am_content I ch)).
Proof.
  intros H. apply am_sign_inv in H as (asi & st1 & st2 & _ & X1 & _ & ->). cbn [ao_primary].
  apply xsign_digest_ignores_existing_signatures in X1 as (R & _). exact R.
Qed.

Lemma is_asi_tag c : is_asi c = true -> is_elem c = true /\ etag c = c_assemblyIdentity.
Proof.
  destruct c; try discriminate. unfold is_asi, qmatch. cbn [fst snd qname_of]. change (space_decompose c_assemblyIdentity) with (@nil Z, c_assemblyIdentity).
  cbn [fst snd space_match andb]. intros E. apply bytes_eqb_eq in E. split; [reflexivity | symmetry; exact E].
Qed.
Lemma is_asi_f I c : is_asi (f_asi I c) = is_asi c.
Proof. destruct c; reflexivity. Qed.
Lemma asi_notpub c : is_asi c = true -> notpub c = true.
Proof. intros H. apply is_asi_tag in H as [He Ht]. unfold notpub, rm_hit, rm_match. rewrite He, Ht. reflexivity. Qed.
Lemma asi_notsig c : is_asi c = true -> notsig c = true.
Proof. intros H. apply is_asi_tag in H as [He Ht]. unfold notsig, is_sig_child. rewrite He, Ht. reflexivity. Qed.
Lemma notpub_f I c : notpub (f_asi I c) = notpub c.
Proof. destruct c; reflexivity. Qed.
Lemma notsig_f I c : notsig (f_asi I c) = notsig c.
Proof. destruct c; reflexivity. Qed.
Lemma sig_notpub c : is_sig_child c = true -> notpub c = true.
Proof.
  unfold is_sig_child, notpub, rm_hit, rm_match. intros H. apply andb_true_iff in H as [He Ht]. apply bytes_eqb_eq in Ht. rewrite He, Ht. reflexivity.
Qed.

(* what is left of the children once publisherIdentity and Signature elements are gone *)
Definition kept (ch : list node) : list node := filter notsig (filter notpub ch).
(* assemblyIdentity is neither, so setting its token and filtering commute *)
Lemma kept_set_asi I ch : kept (update_first is_asi (f_asi I) ch) = update_first is_asi (f_asi I) (kept ch).
Proof.
  unfold kept.
  rewrite <- (update_first_filter is_asi (f_asi I) notpub) by (first [exact asi_notpub | apply notpub_f]).
  rewrite <- (update_first_filter is_asi (f_asi I) notsig) by (first [exact asi_notsig | apply notsig_f]).
  reflexivity.
Qed.
Lemma am_content_shape I ch : am_content I ch = update_first is_asi (f_asi I) (kept ch) ++ [pub_el I].
Proof. unfold am_content, prep. rewrite strip_sigs_app, <- kept_set_asi. reflexivity. Qed.

Lemma am_content_resign I ch S :
  is_sig_child S = true ->
  am_content I (am_content I ch ++ [S]) = am_content I ch.
Proof.
  intros HS. rewrite !am_content_shape. f_equal.
  assert (E : forall X, kept ((X ++ [pub_el I]) ++ [S]) = kept X).
  { intros X. unfold kept. rewrite !filter_app. cbn [filter]. rewrite (sig_notpub S HS). change (notpub (pub_el I)) with false.
    cbn [filter]. unfold notsig at 2. rewrite HS. cbn [negb app]. now rewrite !app_nil_r. }
  rewrite E, kept_set_asi. unfold kept at 1 2. rewrite (filter_comm notpub notsig (filter notpub ch)), !filter_idem.
  apply update_first_idem.
  - intros c Hc. now rewrite is_asi_f.
  - intros c _. apply set_attr_idem.
Qed.

Lemma is_sig_is_sig_child c : is_sig c = is_sig_child c.
Proof. unfold is_sig. change (qname_of c_Signature) with (any_tag c_Signature). apply is_sig_child_qmatch. Qed.

Definition id_attrs (cond : bytes -> bool) (v : bytes) : list attr := if cond v then [mkattr [] c_Id v] else [].
Lemma set_sig_ids_built P si oct sn kn kx X :
  forallb notsig X = true -> is_keyinfo si = false ->
  set_sig_ids sn kn kx (X ++ [Elem [] c_Signature sig_attrs0 (sig_kids P si oct)])
  = X ++ [deco_sig P si oct (id_attrs am_ids_sig_cond sn) (id_attrs am_ids_ki_cond kn) kx].
Proof.
  intros HX Eki.
  unfold set_sig_ids. rewrite update_first_hit.
  2:{ intros c Hc. rewrite is_sig_is_sig_child. exact (forallb_negb_false is_sig_child _ HX c Hc). }
  2:{ reflexivity. }
  f_equal. f_equal. unfold deco_sig, id_attrs, sig_kids.
  assert (Hk : update_first is_keyinfo
                 (fun k => match (if am_ids_ki_cond kn then set_attr c_Id kn k else k) with Elem a b c d => Elem a b c (d ++ kx) | x => x end)
                 ([si; el c_SignatureValue [] [CharData (sp_sig_text P oct)]] ++
                  (if fin_attach_cond (zlen (keyinfo_kids P)) then [el c_KeyInfo [] (keyinfo_kids P)] else []))
               = [si; el c_SignatureValue [] [CharData (sp_sig_text P oct)]] ++
                 (if fin_attach_cond (zlen (keyinfo_kids P))
                  then [Elem [] c_KeyInfo (if am_ids_ki_cond kn then [mkattr [] c_Id kn] else []) (keyinfo_kids P ++ kx)] else [])).
  { cbn [app update_first]. rewrite Eki. change (is_keyinfo (el c_SignatureValue [] [CharData (sp_sig_text P oct)])) with false. cbn iota.
    destruct (fin_attach_cond (zlen (keyinfo_kids P))); [|reflexivity]. cbn [update_first].
    change (is_keyinfo (el c_KeyInfo [] (keyinfo_kids P))) with true. cbn iota.
    destruct (am_ids_ki_cond kn); reflexivity. }
  destruct (am_ids_sig_cond sn).
  - unfold sig_kids. cbn [set_attr]. change (create_attr c_Id sn sig_attrs0) with (sig_attrs0 ++ [mkattr [] c_Id sn]).
    rewrite Hk. reflexivity.
  - cbv iota beta. unfold sig_kids. rewrite Hk. rewrite app_nil_r. reflexivity.
Qed.

Lemma xsign_out_parent P ctx0 fs ps pt pa ch st :
  xsign P ctx0 fs ps pt pa ch = Ok st ->
  out_parent ps pt pa st = Elem ps pt pa (s_ch st ++ [Elem [] c_Signature sig_attrs0 (sig_kids P (the_si st) (s_si_octets st))])
  /\ s_ch st = strip_sigs ch /\ is_keyinfo (the_si st) = false.
Proof.
  intros H. apply xsign_ok_inv in H as (ha & sa & _ & _ & ->).
  unfold out_parent, cur_parent, sig_child, the_si. cbn [s_sig s_ch s_si s_si_octets]. destruct xs_tags as (_ & -> & _). repeat split.
Qed.

(* the manifest appmanifest.Sign returns: the covered content, then the decorated primary Signature *)
Definition sn_attrs : list attr := id_attrs am_ids_sig_cond c_StrongNameSignature.
Definition sk_attrs : list attr := id_attrs am_ids_ki_cond c_StrongNameKeyInfo.
Definition as_attrs : list attr := id_attrs am_ids_sig_cond c_AuthenticodeSignature.
Lemma am_sign_shape I P1 P2 mh rs rt ra ch o :
  am_sign I P1 P2 mh rs rt ra ch = Ok o ->
  exists asi,
    find is_asi ch = Some asi /\
    let st1 := ao_primary o in let st2 := ao_secondary o in
    let lf := license_frame (f_asi I asi) (id_subject I) (mh (sp_digest_text P1 (ref_octets st1))) in
    let lic := plug [lf] (Elem c_r c_issuer [] (s_ch st2 ++ [deco_sig P2 (the_si st2) (s_si_octets st2) as_attrs [] []])) in
    xsign P1 [] [] rs rt ra (prep I ch) = Ok st1 /\
    xsign P2 [] [lf] c_r c_issuer [] [] = Ok st2 /\
    s_ch st1 = am_content I ch /\ s_ch st2 = [] /\
    ao_root o = Elem rs rt ra (s_ch st1 ++ [deco_sig P1 (the_si st1) (s_si_octets st1) sn_attrs sk_attrs [reldata_of lic]]).
Proof.
  intros H. apply am_sign_inv in H as (asi & st1 & st2 & Fa & X1 & X2 & ->). exists asi. split; [exact Fa|].
  cbn [ao_primary ao_secondary ao_root]. cbv zeta in X2 |- *. split; [exact X1|]. split; [exact X2|].
  destruct (xsign_out_parent _ _ _ _ _ _ _ _ X1) as (O1 & C1 & K1).
  destruct (xsign_out_parent _ _ _ _ _ _ _ _ X2) as (O2 & C2 & K2).
  split; [exact C1|]. split; [exact C2|].
  f_equal. rewrite O1, O2. cbn [echildren].
  rewrite (set_sig_ids_built P2) by (first [rewrite C2; reflexivity | exact K2]).
  rewrite (set_sig_ids_built P1) by (first [rewrite C1; apply strip_sigs_none | exact K1]).
  reflexivity.
Qed.

(* ---- appmanifest.Verify finds the licence inside the decorated KeyInfo *)
Lemma keymat_not_reldata c : keymat c = true -> qmatch (qname_of c_msrel_RelData) c = false.
Proof.
  destruct c; try discriminate. unfold keymat, qmatch. cbn [is_elem etag andb]. change (qname_of c_msrel_RelData) with (c_msrel, c_RelData). cbn [fst snd].
  intros H. apply orb_true_iff in H as [H|H]; apply bytes_eqb_eq in H; subst tag; [change (bytes_eqb c_RelData c_KeyValue) with false | change (bytes_eqb c_RelData c_X509Data) with false];
    apply andb_false_r.
Qed.

Lemma license_found P1 si oct rs rt ra X xa ka lic :
  forallb notsig X = true -> is_keyinfo si = false ->
  fin_attach_cond (zlen (keyinfo_kids P1)) = true -> forallb keymat (keyinfo_kids P1) = true ->
  qmatch (qname_of c_r_license) lic = true ->
  let root := Elem rs rt ra (X ++ [deco_sig P1 si oct xa ka [reldata_of lic]]) in
  exists p ctx, find_paths license_steps root = [p] /\ get_at p [] root = Some (ctx, lic).
Proof.
  intros HX Hki Hat Hkm Hlic root.
  exists [List.length X; 2%nat; List.length (keyinfo_kids P1); 0%nat]. eexists. split.
  - unfold license_steps, root. cbn [find_paths echildren].
    change (qname_of c_Signature) with (any_tag c_Signature). rewrite find_kids_new_sig by first [exact HX | reflexivity].
    unfold deco_sig at 1. rewrite Hat. cbn [echildren app find_kids].
    fold (is_keyinfo si). rewrite Hki.
    change (qmatch (qname_of c_KeyInfo) (el c_SignatureValue [] [CharData (sp_sig_text P1 oct)])) with false.
    change (qmatch (qname_of c_KeyInfo) (Elem [] c_KeyInfo ka (keyinfo_kids P1 ++ [reldata_of lic]))) with true.
    cbn iota. cbn [app echildren]. rewrite app_nil_r.
    rewrite find_kids_unique.
    2:{ intros c Hc. apply keymat_not_reldata. rewrite forallb_forall in Hkm. apply Hkm. exact Hc. }
    2:{ intros c []. }
    2:{ reflexivity. }
    cbn [Nat.add reldata_of echildren find_kids]. rewrite Hlic. cbn [find_paths map app]. reflexivity.
  - unfold root. cbn [get_at echildren eattrs]. rewrite nth_error_mid. unfold deco_sig at 1. rewrite Hat. cbn [echildren eattrs app nth_error get_at].
    rewrite nth_error_mid. cbn [reldata_of echildren eattrs nth_error get_at]. reflexivity.
Qed.

(* the converse of the refusals: a supported digest and key type with a matching first certificate is signed *)
Lemma xsign_accepts P ctx0 fs ps pt pa ch :
  In (sp_hash P) [3; 4; 5; 6; 7] -> In (sp_keykind P) [0; 1] -> 1 <= sp_ncerts P -> sp_same_key P = true ->
  exists st, xsign P ctx0 fs ps pt pa ch = Ok st.
Proof.
  intros Hh Hk Hn Hs. rewrite xsign_is_ref. unfold xsign_ref, xs_bad_key.
  pose proof (algs_table _ _ (sp_ms P) Hh Hk) as T.
  destruct (hash_algs (sp_hash P) (sp_keykind P) (sp_ms P)) as [[ha sa] e]. destruct T as [-> _].
  rewrite Hs. replace (sp_ncerts P <? 1) with false by lia. eexists. reflexivity.
Qed.

(* the signer of the two witnesses in Properties.v: RSA key, SHA-256, KeyValue included, constant digest and signature texts *)
Definition w_ctx_P : sigparams := SigParams 5 0 1 true false false true false [Elem [] c_KeyValue [] []] [] (fun _ => [68; 86]) (fun _ => [83; 86]).

(* Sign digests the document element; the declared Reference URI="" covers the document.  The two agree when no
   processing instruction stands outside the document element (comments and the XML declaration do not count) *)
Lemma spec_document_octets_no_pi lead trail doc sigp :
  existsb is_pi lead = false -> existsb is_pi trail = false ->
  spec_document_octets lead trail doc sigp = spec_enveloped_octets doc sigp.
Proof.
  intros Hl Ht. unfold spec_document_octets.
  rewrite (filter_none is_pi lead), (filter_none is_pi trail).
  - cbn [flat_map app]. apply app_nil_r.
  - rewrite existsb_false_iff in Ht. exact Ht.
  - rewrite existsb_false_iff in Hl. exact Hl.
Qed.
