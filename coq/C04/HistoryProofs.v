(* C04/HistoryProofs.v — proofs about C04/History.v.  Generated definitions are unfolded, never assumed. *)
From Relic Require Import Base.Prelude Generated.C04_gen C04.Model C04.History.

Lemma gen_no_memo_loads : auth_memo_loads = [].
Proof. reflexivity. Qed.
Lemma gen_loop_action : forall m e,
  bit (auth_loop_action m e) 1 = m /\ bit (auth_loop_action m e) 2 = m /\ bit (auth_loop_action m e) 8 = m /\
  bit (auth_loop_action m e) 16 = false /\ bit (auth_loop_action m e) 32 = false.
Proof. intros [] []; vm_compute; repeat split. Qed.

Lemma match_model_nil : forall roots now, fst (match_model roots now []) = false.
Proof. intros roots now. unfold match_model, match_skip. cbn. rewrite orb_true_r. reflexivity. Qed.

Lemma match_model_spec : forall roots now leaf inter,
  fst (match_model roots now (leaf :: inter)) =
  (match roots with [] => false | _ => true end && verify_spec roots inter now [EKU_CLIENT] leaf).
Proof.
  intros roots now leaf inter. unfold match_model.
  unfold match_skip, match_leaf_index, match_inter_from, match_opts_inter_is_rest, match_opts_roots_is_pool,
         match_opts_sets_time, match_verify_on_leaf, match_result, eku_wanted, match_opts_eku.
  change (zlen (leaf :: inter) =? 0) with false. change (Z.to_nat 0) with 0%nat. cbn [nth].
  change (zdrop 1 (leaf :: inter)) with inter.
  destruct roots as [|r0 rs]; cbn [orb andb].
  - reflexivity.
  - change [2] with [EKU_CLIENT].
    destruct (verify_spec (r0 :: rs) inter now [EKU_CLIENT] leaf); [reflexivity|].
    match goal with |- fst (if ?b then _ else _) = _ => destruct b end; reflexivity.
Qed.

Lemma ca_loop_state_irrelevant : forall stores action cls now chain cert acc st st',
  fst (ca_loop stores action cls now chain cert acc st) = fst (ca_loop stores action cls now chain cert acc st').
Proof.
  induction cls as [|c2 rest IH]; intros now chain cert acc st st'; cbn [ca_loop]; [reflexivity|].
  destruct (match_model (xc_roots c2) now (if auth_match_arg =? 1 then chain else [])) as [m e].
  destruct (bit (action m e) 2); [reflexivity|]. apply IH.
Qed.

Lemma ca_loop_no_store : forall stores action cls now chain cert acc st,
  (forall m e, bit (action m e) 16 = false) -> snd (ca_loop stores action cls now chain cert acc st) = st.
Proof.
  induction cls as [|c2 rest IH]; intros now chain cert acc st N; cbn [ca_loop]; [reflexivity|].
  destruct (match_model (xc_roots c2) now (if auth_match_arg =? 1 then chain else [])) as [m e].
  rewrite N. destruct (bit (action m e) 2); [reflexivity|]. apply IH. exact N.
Qed.

(* started with no client, the loop ends with the first entry whose Match succeeds, if any *)
Lemma ca_loop_first_match : forall stores cls now chain cert st,
  match fst (ca_loop stores auth_loop_action cls now chain cert (None, false) st) with
  | (Some c, _) => In c cls /\ fst (match_model (xc_roots c) now chain) = true
  | (None, _) => forall c, In c cls -> fst (match_model (xc_roots c) now chain) = false
  end.
Proof.
  intros stores cls now chain cert st. induction cls as [|c2 rest IH]; cbn [ca_loop].
  - intros c [].
  - change (auth_match_arg =? 1) with true. cbv iota.
    destruct (match_model (xc_roots c2) now chain) as [m e] eqn:M.
    destruct (gen_loop_action m e) as [H1 [H2 [H8 [H16 _]]]]. rewrite H1, H2, H8, H16.
    destruct m; cbn [fst snd orb].
    + split; [left; reflexivity | rewrite M; reflexivity].
    + destruct (fst (ca_loop stores auth_loop_action rest now chain cert (None, false) st)) as [[c|] dn].
      * destruct IH as [Hin Hm]. split; [right; exact Hin | exact Hm].
      * intros c [Hc|Hc]; [subst c; rewrite M; reflexivity | apply IH; exact Hc].
Qed.

(* without reads of authenticator state the verdict does not depend on the state — for ANY action table and any writes;
   and an action table that never sets the store bit hands the state back as it came *)
Lemma hauth_g_no_loads : forall stores action cls st st' now chain,
  fst (hauth_g [] stores action cls st now chain) = fst (hauth_g [] stores action cls st' now chain) /\
  ((forall m e, bit (action m e) 16 = false) -> snd (hauth_g [] stores action cls st now chain) = st).
Proof.
  intros stores action cls st st' now chain. unfold hauth_g.
  destruct (auth_no_cert (zlen chain)); [split; reflexivity|].
  set (cert := nth (Z.to_nat auth_leaf_index) chain no_cert).
  set (acc1 := match (if auth_first_lookup_key =? 0 then None else find (fun c => xc_key c =? key_of_class auth_first_lookup_key cert) cls)
               with Some c => (Some c, false) | None => (None, false) end).
  destruct (auth_try_ca (is_none (fst acc1))); [|split; destruct (fst acc1); reflexivity].
  pose proof (ca_loop_state_irrelevant stores action cls now chain cert acc1 st st') as E.
  pose proof (ca_loop_no_store stores action cls now chain cert acc1 st) as S.
  destruct (ca_loop stores action cls now chain cert acc1 st) as [a s].
  destruct (ca_loop stores action cls now chain cert acc1 st') as [a' s'].
  cbn [fst snd] in E, S. subst a'. split; [|intros N; rewrite (S N)]; destruct (fst a); reflexivity.
Qed.

Lemma hauth_outcome : forall cls st now chain, hauth cls st now chain = (fst (hauth cls fresh now chain), st).
Proof.
  intros cls st now chain. unfold hauth. rewrite gen_no_memo_loads.
  destruct (hauth_g_no_loads auth_memo_stores auth_loop_action cls st fresh now chain) as [V S].
  apply injective_projections; [exact V | apply S; intros m e; apply gen_loop_action].
Qed.

Lemma hauth_result : forall cls st now chain,
  match fst (hauth cls st now chain) with
  | Ok i => exists cl, In cl cls /\ spec_recognises cl now chain = true /\ id_roles i = xc_roles cl /\ id_name i = xc_nick cl
  | Err e => e = 401 /\ forall cl, In cl cls -> spec_recognises cl now chain = false
  | Panic _ => False
  end.
Proof.
  intros cls st now chain. unfold hauth, hauth_g. rewrite gen_no_memo_loads.
  unfold auth_no_cert, auth_leaf_index, auth_first_lookup_key, auth_try_ca.
  destruct chain as [|leaf inter].
  - cbn. split; [reflexivity|]. intros cl _. reflexivity.
  - change (zlen (leaf :: inter) =? 0) with false. change (Z.to_nat 0) with 0%nat. cbn [nth].
    change (1 =? 0) with false. cbv iota.
    change (key_of_class 1 leaf) with (x_key leaf).
    destruct (find (fun c => xc_key c =? x_key leaf) cls) as [c|] eqn:F; cbn [fst is_none].
    + cbn. apply find_some in F. destruct F as [Hin Hk].
      exists c. split; [exact Hin|]. split; [|split; reflexivity].
      unfold spec_recognises. rewrite Hk. reflexivity.
    + pose proof (ca_loop_first_match auth_memo_stores cls now (leaf :: inter) leaf st) as L.
      destruct (ca_loop auth_memo_stores auth_loop_action cls now (leaf :: inter) leaf (None, false) st) as [[[c|] dn] s1];
        cbn [fst snd] in *.
      * destruct L as [Hin Hm]. exists c. split; [exact Hin|]. split; [|split; reflexivity].
        unfold spec_recognises. rewrite <- match_model_spec, Hm. apply orb_true_r.
      * split; [reflexivity|]. intros cl Hin. unfold spec_recognises.
        rewrite (find_none _ _ F cl Hin), <- match_model_spec. exact (L cl Hin).
Qed.

Lemma hauth_sound : forall cls st now chain i,
  fst (hauth cls st now chain) = Ok i ->
  exists cl, In cl cls /\ spec_recognises cl now chain = true /\ id_roles i = xc_roles cl.
Proof.
  intros cls st now chain i H. pose proof (hauth_result cls st now chain) as R. rewrite H in R.
  destruct R as [cl [A [B [C _]]]]. exists cl. auto.
Qed.

Lemma hauth_refuses : forall cls st now chain,
  (forall cl, In cl cls -> spec_recognises cl now chain = false) -> fst (hauth cls st now chain) = Err 401.
Proof.
  intros cls st now chain H. pose proof (hauth_result cls st now chain) as R.
  destruct (fst (hauth cls st now chain)) as [i|e|e].
  - destruct R as [cl [A [B _]]]. rewrite (H cl A) in B. discriminate.
  - destruct R as [E _]. subst e. reflexivity.
  - destruct R.
Qed.

Lemma hstep_outcome : forall cf st rq, hstep cf st rq = (fst (hstep cf fresh rq), st).
Proof.
  intros cf st rq. unfold hstep, hstep_g. fold hauth. rewrite (hauth_outcome _ st).
  destruct (hauth (hc_clients cf) fresh (h_now rq) (h_chain rq)) as [r s]. reflexivity.
Qed.

Lemma hstep_spec : forall cf st rq, spec_response cf rq (fst (fst (hstep cf st rq))).
Proof.
  intros cf st rq. unfold hstep, hstep_g. fold hauth.
  pose proof (hauth_result (hc_clients cf) st (h_now rq) (h_chain rq)) as R.
  destruct (hauth (hc_clients cf) st (h_now rq) (h_chain rq)) as [r s]. cbn [fst snd] in *.
  destruct r as [i|e|e]; cbn [user_of dispatch].
  - destruct R as [cl [Hin [Hr [Hroles _]]]]. split.
    + intros N. rewrite (N cl Hin) in Hr. discriminate.
    + intros _. exists cl. split; [exact Hin|]. split; [exact Hr|]. rewrite Hroles. reflexivity.
  - destruct R as [E N]. subst e. split; [reflexivity|]. intros H. exfalso. apply H. reflexivity.
  - destruct R.
Qed.

Lemma history_independent : forall cf rqs st,
  hrun cf st rqs = map (fun rq => fst (hstep cf fresh rq)) rqs.
Proof.
  intros cf rqs. induction rqs as [|rq r IH]; intros st; [reflexivity|].
  unfold hrun. cbn [hrun_g map]. fold (hstep cf st rq). rewrite hstep_outcome.
  apply f_equal, IH.
Qed.

Lemma history_length : forall cf rqs st, length (hrun cf st rqs) = length rqs.
Proof. intros. rewrite history_independent, map_length. reflexivity. Qed.

Lemma history_nth : forall cf rqs st i,
  nth_error (hrun cf st rqs) i = option_map (fun rq => fst (hstep cf fresh rq)) (nth_error rqs i).
Proof. intros. rewrite history_independent. apply nth_error_map. Qed.

Lemma history_spec : forall cf rqs st i rq,
  nth_error rqs i = Some rq ->
  exists o r, nth_error (hrun cf st rqs) i = Some (o, r) /\ spec_response cf rq o.
Proof.
  intros cf rqs st i rq H. rewrite history_nth, H. cbn [option_map].
  destruct (hstep cf fresh rq) as [[o r] s] eqn:E. exists o, r. split; [reflexivity|].
  pose proof (hstep_spec cf fresh rq) as S. rewrite E in S. exact S.
Qed.

(* the headline: whatever happened before, a certificate nobody recognises NOW is refused with 401 *)
Lemma history_unrecognised_refused : forall cf rqs st i rq,
  nth_error rqs i = Some rq ->
  (forall cl, In cl (hc_clients cf) -> spec_recognises cl (h_now rq) (h_chain rq) = false) ->
  exists r, nth_error (hrun cf st rqs) i = Some (Status 401, r).
Proof.
  intros cf rqs st i rq H N. destruct (history_spec cf rqs st i rq H) as [o [r [E [S _]]]].
  exists r. rewrite E, (S N). reflexivity.
Qed.

(* The mechanism the theorems exclude.
   An authenticator that remembers CA matches under the public-key fingerprint (reads [1], writes [1], store in the
   matching arm) is NOT history independent: the same self-signed certificate is refused by a fresh server and served
   after one request with a CA-issued certificate for the same key. *)
Definition memo_action (m e : bool) : Z := if m then 27 else if e then 4 else 0.
Definition ex_cf : hconfig :=
  mkHC (mkCfg [(1, mkK 7 0 [10] false)] [] [7]) [mkXC 900 [50] [10] 5].
Definition ex_rq (c : xcert) : hreq :=
  mkHR (mkReq EpSign 1 true true true true 60 false [] [] []) 1000 [c] [].
Definition ex_good : xcert := mkX 101 77 1 50 0 2000 [2] false.          (* issued by CA 50, key 77 *)
Definition ex_selfsigned : xcert := mkX 102 77 1 102 0 2000 [2] false.   (* same key, signed by itself *)
Definition ex_expired : xcert := mkX 103 77 1 50 0 999 [2] false.        (* same key, same CA, expired at 999 *)
