(* C04/NamesProofs.v — key-name resolution end to end: the entry that is authorised is the entry that is used.
   Every site (which name / which entry a call passes on) is a definition of Generated/C04_gen.v and is unfolded here,
   never assumed: when a site changes in the Go source these proofs are re-checked against the new term. *)
From Relic Require Import Base.Prelude Generated.C04_gen C04.Model C04.Proofs C04.Names.

(* the entry GetKey returns never carries an alias of its own (the guard getkey_alias_of_alias) ... *)
Lemma resolved_entry_has_no_alias : forall ks n rn kc, get_key ks n = Ok (rn, kc) -> k_alias kc = 0.
Proof. intros ks n rn kc H. apply get_key_spec in H. exact (proj2 (resolve1_inv _ _ _ _ (proj1 H))). Qed.

(* ... hence resolution is IDEMPOTENT, for every alias graph: looking the resolved name up again finds the same entry *)
Lemma get_key_idempotent : forall ks n rn kc, get_key ks n = Ok (rn, kc) -> get_key ks rn = Ok (rn, kc).
Proof.
  intros ks n rn kc H. apply get_key_spec in H. destruct H as [R T].
  destruct (resolve1_inv _ _ _ _ R) as [L A].
  apply get_key_spec. split; [|exact T]. unfold resolve1. rewrite L, A. reflexivity.
Qed.

Lemma all_terminal : forall ks n, terminal_at ks n.
Proof. intros ks n rn kc H. left. exact (resolved_entry_has_no_alias _ _ _ _ H). Qed.

(* any pipeline of re-resolving components, of any length, whatever name each passes on (the one it received or Name() of
   the entry it found): the entry used at the end is the entry the FIRST resolution found *)
Lemma relayers_idempotent : forall ks fs n, relayers ks fs n = get_key ks n.
Proof.
  intros ks fs. induction fs as [|f r IH]; intros n; [reflexivity|].
  cbn [relayers]. destruct (get_key ks n) as [[rn kc]|e|e] eqn:G; [|reflexivity|reflexivity].
  destruct f; [|rewrite IH; exact G]. rewrite IH. exact (get_key_idempotent _ _ _ _ G).
Qed.

Lemma relayers_all_same : forall ks fs n,
  Forall (fun f => f = false) fs -> relayers ks fs n = get_key ks n.
Proof. intros ks fs n _. apply relayers_idempotent. Qed.

(* a chain of aliases through complete entries, of any length: entry i+1 is an alias of entry i, all with token, key and
   roles of their own.  Entry 2 denotes entry 1; every name further up is a configuration error — its key is never used *)
Fixpoint chain_keys (len : nat) : keys :=
  match len with
  | O => [(1, mkK 7 0 [1] false)]
  | S l => (Z.of_nat (S (S l)), mkK 7 (Z.of_nat (S l)) [Z.of_nat (S (S l))] false) :: chain_keys l
  end.
Lemma chain_lookup : forall len i, (1 <= i <= S len)%nat ->
  lookup (Z.of_nat i) (chain_keys len) = Some (mkK 7 (Z.of_nat (pred i)) [Z.of_nat i] false).
Proof.
  induction len as [|l IH]; intros i H; cbn [chain_keys lookup].
  - assert (i = 1%nat) by lia. subst i. reflexivity.
  - destruct (Z.of_nat (S (S l)) =? Z.of_nat i) eqn:E.
    + apply Z.eqb_eq in E. apply Nat2Z.inj in E. subst i. reflexivity.
    + apply Z.eqb_neq in E. apply IH. assert (i <> S (S l)) by (intro; subst; apply E; reflexivity). lia.
Qed.

Lemma wrap_same : forall ks tok n, wrap ks (NParam 1) tok n = tok n.
Proof. intros. unfold wrap, with_np. cbn. reflexivity. Qed.

(* any stack of wrappers, of any depth, that pass on the name they receive is transparent *)
Lemma wraps_transparent : forall ks ws tok n,
  Forall (fun w => w = NParam 1) ws -> wraps ks ws tok n = tok n.
Proof.
  intros ks ws tok n H. induction H as [|w r Hw _ IH]; [reflexivity|].
  cbn [wraps]. subst w. rewrite wrap_same. exact IH.
Qed.

Lemma server_stack_same : Forall (fun w => w = NParam 1) server_stack.
Proof. vm_compute. repeat constructor. Qed.
Lemma worker_stack_same : Forall (fun w => w = NParam 1) worker_stack.
Proof. vm_compute. repeat constructor. Qed.

Lemma file_getkey_spec : forall ks ms n,
  file_getkey ks ms n =
  match get_key ks n with
  | Ok (m, kc) => if m_key (mat_of ms m) =? 0 then Err E_NOKEYFILE
                  else Ok (mkTK m (m_key (mat_of ms m)) (m_key (mat_of ms m)) (Ok (m, kc)) (m_tokcert (mat_of ms m)))
  | Err e => Err e
  | Panic e => Panic e
  end.
Proof.
  intros ks ms n. unfold file_getkey, file_material_conf, file_key_conf, with_np. cbn.
  destruct (get_key ks n) as [[m kc]|e|e]; reflexivity.
Qed.

Lemma direct_getkey_spec : forall ks ms n, direct_getkey ks ms n = file_getkey ks ms n.
Proof. intros. unfold direct_getkey. apply wraps_transparent. exact server_stack_same. Qed.
Lemma worker_backing_spec : forall ks ms n, worker_backing ks ms n = file_getkey ks ms n.
Proof. intros. unfold worker_backing. apply wraps_transparent. exact worker_stack_same. Qed.

(* token/worker: the client resolves the name and sends Name() of the entry, the worker process resolves that name again,
   once for the public key and once for every signature; resolution being idempotent, all three look-ups find one entry
   and the key is the one a file token gives for the name *)
Lemma worker_getkey_spec : forall ks ms n, worker_getkey ks ms n = file_getkey ks ms n.
Proof.
  intros ks ms n. unfold worker_getkey, wk_key_conf, wk_rpc_name, wh_getkey_name, wk_sign_name, wh_sign_name, wk_config_conf, with_np, with_rpc, with_field.
  cbn [neval ceval e_np e_rpc e_field zassoc Z.eqb Pos.eqb].
  rewrite (file_getkey_spec ks ms n).
  destruct (get_key ks n) as [[rn kc]|e|e] eqn:G; [|reflexivity|reflexivity].
  cbn [bind]. rewrite worker_backing_spec, file_getkey_spec, (get_key_idempotent _ _ _ _ G).
  destruct (m_key (mat_of ms rn) =? 0); reflexivity.
Qed.

Lemma token_getkey_spec : forall nc t n, token_getkey nc t n = file_getkey (cf_keys (n_base nc)) (n_mats nc) n.
Proof.
  intros nc t n. unfold token_getkey.
  destruct (mem t (n_worker nc)); [apply worker_getkey_spec | apply direct_getkey_spec].
Qed.

Lemma init_key_any : forall ks ms tok n l,
  init_key ks ms tok n = Ok l ->
  exists k xc, tok n = Ok k /\ tk_conf k = Ok xc /\ l_key l = k /\ l_conf l = Ok xc /\
    ((l_cert_entry l = 0 /\ l_cert l = 0) \/
     (l_cert l <> 0 /\ l_cert l = tk_pub k /\
      l_cert_entry l = if m_cert (mat_of ms (fst xc)) =? 0 then tk_entry k else fst xc)).
Proof.
  intros ks ms tok n l H. unfold init_key, initkey_getkey_name, initkey_x509_conf, initkey_returned_conf, with_np, with_keyconf in H.
  cbn [neval ceval e_np e_keyconf zassoc Z.eqb Pos.eqb bind] in H.
  destruct (tok n) as [k|e|e]; [|discriminate|discriminate]. cbn [bind] in H.
  destruct (tk_conf k) as [xc|e|e] eqn:TC; [|discriminate|discriminate]. cbn [bind] in H.
  exists k, xc. split; [reflexivity|]. split; [exact TC|].
  set (cert := if m_cert (mat_of ms (fst xc)) =? 0 then tk_cert k else m_cert (mat_of ms (fst xc))) in *.
  destruct (cert =? 0) eqn:C0.
  - injection H as <-. cbn. auto.
  - destruct (cert =? tk_pub k) eqn:CP; [|discriminate]. injection H as <-. cbn.
    apply Z.eqb_eq in CP. apply Z.eqb_neq in C0. auto 6.
Qed.

Lemma init_sign_inv : forall ks ms tok n l,
  init_sign ks ms tok n = Ok l -> init_key ks ms tok n = Ok l /\ l_cert l <> 0.
Proof.
  intros ks ms tok n l H. unfold init_sign, init_initkey_name, with_np in H.
  cbn [neval e_np zassoc Z.eqb Pos.eqb bind] in H.
  destruct (init_key ks ms tok n) as [l'|e|e]; [|discriminate|discriminate]. cbn [bind] in H.
  destruct (l_cert l' =? 0) eqn:C; [discriminate|]. injection H as <-.
  split; [reflexivity | apply Z.eqb_neq; exact C].
Qed.

(* InitKey on any token of the server: the key is the one of the entry m the name resolves to, the entry reported is m,
   and a certificate, when there is one, certifies that key and is attributed to m *)
Lemma init_key_token : forall nc t n l,
  init_key (cf_keys (n_base nc)) (n_mats nc) (token_getkey nc t) n = Ok l ->
  exists m kc, get_key (cf_keys (n_base nc)) n = Ok (m, kc) /\ m_key (mat_of (n_mats nc) m) <> 0 /\
               tk_entry (l_key l) = m /\ tk_priv (l_key l) = m_key (mat_of (n_mats nc) m) /\ l_conf l = Ok (m, kc) /\
               ((l_cert_entry l = 0 /\ l_cert l = 0) \/
                (l_cert_entry l = m /\ l_cert l = m_key (mat_of (n_mats nc) m))).
Proof.
  intros nc t n l H. destruct (init_key_any _ _ _ _ _ H) as [k [xc [TK [TC [Lk [Lc D]]]]]].
  rewrite token_getkey_spec, file_getkey_spec in TK.
  destruct (get_key (cf_keys (n_base nc)) n) as [[m kc]|e|e]; [|discriminate|discriminate].
  destruct (m_key (mat_of (n_mats nc) m) =? 0) eqn:K0; [discriminate|]. apply Z.eqb_neq in K0.
  injection TK as <-. cbn in TC. injection TC as <-. cbn in D.
  exists m, kc. rewrite Lk, Lc. cbn. repeat split; auto.
  destruct D as [D|[_ [CP CE]]]; [left; exact D|right]. split; [|exact CP].
  rewrite CE. destruct (m_cert (mat_of (n_mats nc) m) =? 0); reflexivity.
Qed.

Lemma sign_fin_signed : forall nc t n m pr cp au,
  sign_fin nc t n = FSigned m pr cp au ->
  exists kc, get_key (cf_keys (n_base nc)) n = Ok (m, kc) /\ pr = m_key (mat_of (n_mats nc) m) /\ pr <> 0 /\ cp = pr /\ au = m.
Proof.
  intros nc t n m pr cp au H. unfold sign_fin in H.
  destruct (init_sign _ _ _ n) as [l|e|e] eqn:I; [|discriminate|discriminate].
  apply init_sign_inv in I. destruct I as [I C].
  destruct (init_key_token _ _ _ _ I) as [m' [kc [G [K0 [E1 [E2 [E3 [[_ D]|[_ D]]]]]]]]]; [contradiction|].
  rewrite E1, E2, E3, D in H. injection H as <- <- <- <-. exists kc. auto.
Qed.

Lemma info_fin_disclosed : forall nc t n m cp,
  info_fin nc t n = FDisclosed m cp ->
  (m = 0 /\ cp = 0) \/
  (exists kc, get_key (cf_keys (n_base nc)) n = Ok (m, kc) /\ cp = m_key (mat_of (n_mats nc) m) /\ cp <> 0).
Proof.
  intros nc t n m cp H. unfold info_fin in H.
  destruct (init_key _ _ _ n) as [l|e|e] eqn:K; [|discriminate|discriminate]. injection H as <- <-.
  destruct (init_key_token _ _ _ _ K) as [m [kc [G [K0 [_ [_ [_ [D|[D1 D2]]]]]]]]]; [left; exact D|right].
  exists kc. rewrite D1, D2. auto.
Qed.

(* the views assembled from the generated sites are the views of C04/Model.v with, on a token call, what the token and
   signinit then do with the name they are handed *)
Definition attach (fn : Z -> Z -> fin) (o : outcome) : eff :=
  match o with
  | Status c => EStatus c
  | Touch t p => ETouch t p (fn t p)
  | Listing l => EListing l
  end.
Lemma erase_attach : forall fn o, erase (attach fn o) = o.
Proof. intros fn []; reflexivity. Qed.
Lemma attach_touch : forall fn o t p f, attach fn o = ETouch t p f -> o = Touch t p /\ f = fn t p.
Proof. intros fn [c|t' p'|l] t p f H; [discriminate| |discriminate]. injection H as <- <- <-. auto. Qed.

Lemma serve_sign_e_attach : forall nc u rq, serve_sign_e nc u rq = attach (sign_fin nc) (serve_sign (n_base nc) u rq).
Proof.
  intros nc u rq. unfold serve_sign_e, serve_sign, sign_getkey_arg, sign_allowed_conf, sign_init_token, sign_init_name, with_req.
  cbn [ceval neval e_req].
  destruct (rq_key rq =? 0); [reflexivity|].
  destruct (negb (rq_has_filename rq)); [reflexivity|].
  destruct (get_key (cf_keys (n_base nc)) (rq_key rq)) as [[rn kc]|e|e]; [|reflexivity|reflexivity].
  destruct (sign_denied (allowed u rn kc)); [reflexivity|].
  destruct (negb (rq_sigtype_ok rq)); [reflexivity|].
  destruct (negb (rq_digest_ok rq)); [reflexivity|].
  destruct (negb (rq_flags_ok rq)); [reflexivity|].
  destruct (negb (mem (k_token kc) (cf_tokens (n_base nc)))); reflexivity.
Qed.

Lemma serve_getkey_e_attach : forall nc u rq, serve_getkey_e nc u rq = attach (info_fin nc) (serve_getkey (n_base nc) u rq).
Proof.
  intros nc u rq. unfold serve_getkey_e, serve_getkey, view_getkey_arg, view_allowed_conf, view_info_conf, info_init_token, info_init_name, with_req, with_cp.
  cbn [ceval neval e_req e_cp zassoc Z.eqb Pos.eqb].
  destruct (get_key (cf_keys (n_base nc)) (rq_key rq)) as [[rn kc]|e|e]; [| |reflexivity].
  - destruct (getkey_view_allowed true (allowed u rn kc)); [|reflexivity].
    destruct (negb (mem (k_token kc) (cf_tokens (n_base nc)))); reflexivity.
  - destruct (getkey_view_allowed false true); reflexivity.
Qed.

Lemma list_keys_e_refines : forall ks u, list_keys_e ks u = list_keys ks u.
Proof.
  intros ks u. unfold list_keys_e, list_keys. apply flat_map_ext. intros [n kc].
  unfold list_skip_conf, list_getkey_arg, list_allowed_conf, list_appended_name, with_mapkey.
  cbn [ceval neval e_mapkey e_mapval fst snd].
  destruct (list_skip_hidden (k_hide kc)); [reflexivity|].
  destruct (get_key ks n) as [[rn kc']|e|e]; reflexivity.
Qed.

(* a token call of either view: the caller is authenticated, the requested name resolves to an entry that admits him, the
   token is that entry's; /sign hands on the requested name, /keys/{key} Name() of the entry *)
Lemma handle_e_touch : forall nc rq t p f,
  handle_e nc rq = ETouch t p f ->
  exists u rn kc, snd (identity (n_base nc) rq) = Ok u /\
    get_key (cf_keys (n_base nc)) (rq_key rq) = Ok (rn, kc) /\ allowed u rn kc = true /\
    t = k_token kc /\ mem t (cf_tokens (n_base nc)) = true /\
    ((p = rq_key rq /\ f = sign_fin nc t p) \/ (p = rn /\ f = info_fin nc t p)).
Proof.
  intros nc rq t p f H. unfold handle_e, dispatch_e in H.
  destruct (snd (identity (n_base nc) rq)) as [u|e|e]; [|discriminate|discriminate]. exists u.
  destruct (rq_ep rq); [| |discriminate|discriminate].
  - rewrite serve_sign_e_attach in H. apply attach_touch in H. destruct H as [H ->].
    destruct (serve_sign_touch _ _ _ _ _ H) as [rn [kc [G [A [Ht [M Hp]]]]]]. exists rn, kc. auto 8.
  - rewrite serve_getkey_e_attach in H. apply attach_touch in H. destruct H as [H ->].
    destruct (serve_getkey_touch _ _ _ _ _ H) as [rn [kc [G [A [Ht [M Hp]]]]]]. exists rn, kc. auto 8.
Qed.

Lemma spec_denotes_resolve1 : forall ks n, spec_denotes ks n = option_map fst (resolve1 ks n).
Proof.
  intros ks n. unfold spec_denotes, resolve1.
  destruct (lookup n ks) as [kc|]; [|reflexivity]. destruct (k_alias kc =? 0); [reflexivity|].
  destruct (lookup (k_alias kc) ks) as [kc'|]; [|reflexivity]. destruct (k_alias kc' =? 0); reflexivity.
Qed.

Lemma may_use_of_resolve1 : forall ks u n m kc,
  resolve1 ks n = Some (m, kc) -> k_token kc <> 0 -> allowed u m kc = true ->
  spec_may_use ks u n m = true /\ spec_entitled ks u m = true.
Proof.
  intros ks u n m kc R T A.
  assert (E : spec_entitled ks u m = true).
  { unfold spec_entitled. apply Z.eqb_neq in T. rewrite (proj1 (resolve1_inv _ _ _ _ R)), A, T. reflexivity. }
  split; [|exact E]. unfold spec_may_use. rewrite spec_denotes_resolve1, R. cbn [option_map fst].
  rewrite Z.eqb_refl, E. reflexivity.
Qed.

(* /sign, on every token (opened by the server itself or behind token/worker): the entry whose private key makes the
   signature is the entry the requested name resolves to (one alias) and whose roles were checked; the certificate
   attached and the audit record are that entry's *)
Lemma signed_with_checked_entry : forall nc rq t p m pr cp au,
  handle_e nc rq = ETouch t p (FSigned m pr cp au) ->
  exists u, snd (identity (n_base nc) rq) = Ok u /\
  exists kc, resolve1 (cf_keys (n_base nc)) (rq_key rq) = Some (m, kc) /\ allowed u m kc = true /\
             t = k_token kc /\ t <> 0 /\ mem t (cf_tokens (n_base nc)) = true /\
             pr = m_key (mat_of (n_mats nc) m) /\ pr <> 0 /\ cp = pr /\ au = m.
Proof.
  intros nc rq t p m pr cp au H.
  destruct (handle_e_touch _ _ _ _ _ H) as [u [rn [kc [I [G [A [Ht [M [[Hp Hf]|[_ Hf]]]]]]]]]].
  2:{ unfold info_fin in Hf. destruct (init_key _ _ _ _); discriminate. }
  symmetry in Hf. destruct (sign_fin_signed _ _ _ _ _ _ _ Hf) as [kc' [G' F]].
  subst p. rewrite G in G'. injection G' as <- <-.
  apply get_key_spec in G. destruct G as [R T0].
  exists u. split; [exact I|]. exists kc. subst t. auto 6.
Qed.

Lemma sign_uses_checked_entry : forall nc rq t p m pr cp au,
  handle_e nc rq = ETouch t p (FSigned m pr cp au) -> mem t (n_worker nc) = false ->
  exists u, snd (identity (n_base nc) rq) = Ok u /\
  exists kc, resolve1 (cf_keys (n_base nc)) (rq_key rq) = Some (m, kc) /\ allowed u m kc = true /\
             t = k_token kc /\ t <> 0 /\ mem t (cf_tokens (n_base nc)) = true /\
             pr = m_key (mat_of (n_mats nc) m) /\ pr <> 0 /\ cp = pr /\ au = m.
Proof. intros nc rq t p m pr cp au H _. exact (signed_with_checked_entry _ _ _ _ _ _ _ _ H). Qed.

(* /keys/{key}, on every token: the view hands the token Name() of the checked entry and the token resolves that name
   again; resolution being idempotent it finds the checked entry, so the certificate disclosed is that entry's *)
Lemma disclosed_of_checked_entry : forall nc rq t p m cp,
  handle_e nc rq = ETouch t p (FDisclosed m cp) ->
  exists u, snd (identity (n_base nc) rq) = Ok u /\
  exists kc, resolve1 (cf_keys (n_base nc)) (rq_key rq) = Some (p, kc) /\ allowed u p kc = true /\ t = k_token kc /\
             (m = 0 \/ (m = p /\ cp = m_key (mat_of (n_mats nc) m) /\ cp <> 0 /\
                        spec_may_use (cf_keys (n_base nc)) u (rq_key rq) m = true /\ spec_entitled (cf_keys (n_base nc)) u m = true)).
Proof.
  intros nc rq t p m cp H.
  destruct (handle_e_touch _ _ _ _ _ H) as [u [rn [kc [I [G [A [Ht [M [[_ Hf]|[Hp Hf]]]]]]]]]].
  { unfold sign_fin in Hf. destruct (init_sign _ _ _ _); discriminate. }
  pose proof (get_key_idempotent _ _ _ _ G) as G1. apply get_key_spec in G. destruct G as [R T0].
  exists u. split; [exact I|]. subst p. exists kc. split; [exact R|]. split; [exact A|]. split; [exact Ht|].
  symmetry in Hf. destruct (info_fin_disclosed _ _ _ _ _ Hf) as [[D _]|[kc2 [G2 [C1 C2]]]]; [left; exact D|right].
  rewrite G1 in G2. injection G2 as <- _.
  destruct (may_use_of_resolve1 _ u _ _ _ R T0 A) as [S1 S2]. auto 6.
Qed.

Lemma keys_discloses_checked_entry : forall nc rq t p m cp,
  handle_e nc rq = ETouch t p (FDisclosed m cp) -> mem t (n_worker nc) = false ->
  exists u, snd (identity (n_base nc) rq) = Ok u /\
  exists kc, resolve1 (cf_keys (n_base nc)) (rq_key rq) = Some (p, kc) /\ allowed u p kc = true /\ t = k_token kc /\
             (m = 0 \/ (m = p /\ cp = m_key (mat_of (n_mats nc) m) /\ cp <> 0 /\
                        spec_may_use (cf_keys (n_base nc)) u (rq_key rq) m = true /\ spec_entitled (cf_keys (n_base nc)) u m = true)).
Proof. intros nc rq t p m cp H _. exact (disclosed_of_checked_entry _ _ _ _ _ _ H). Qed.

(* the configurations that used to break this (relic before 1867fd2), kept as regression cases: old -> legacy -> release *)
Definition wit_keys : keys := [(1, mkK 7 0 [10] false); (2, mkK 7 1 [20] false); (3, mkK 0 2 [] false)].
Definition wit_nc (roles : list Z) (workers : list Z) (ms : mats) : ncfg := mkN (mkCfg wit_keys [mkCl 100 0 roles] [7]) ms workers.
Definition wit_rq (ep : endpoint) (n : Z) : request := mkReq ep n true true true true 50 false [] [mkCert 100 0] [].
Definition wit_files : mats := [(1, mkM 101 101 0); (2, mkM 102 102 0)].
Definition wit_hsm : mats := [(1, mkM 101 0 101); (2, mkM 102 0 102)].
