(* C04/Proofs.v — the single-request model of C04/Model.v.
   All branch conditions come from Generated/C04_gen.v and are unfolded, never assumed. *)
From Relic Require Import Base.Prelude Generated.C04_gen C04.Model.

Ltac unfold_gen :=
  unfold getkey_missing, getkey_follow_alias, getkey_alias_dangling, getkey_alias_of_alias, getkey_needs_token,
         sign_denied, list_skip_hidden, list_include, getkey_view_allowed in *.

(* GetKey succeeds exactly on the names that denote an entry (one alias hop) with a token; every other name is an error *)
Lemma get_key_resolve1 : forall ks n,
  match resolve1 ks n with
  | Some (rn, kc) => get_key ks n = if k_token kc =? 0 then Err E_NOTOKEN else Ok (rn, kc)
  | None => exists e, get_key ks n = Err e
  end.
Proof.
  intros ks n. unfold get_key, resolve1. unfold_gen.
  destruct (lookup n ks) as [kc0|]; [|eexists; reflexivity].
  destruct (k_alias kc0 =? 0); cbn [negb]; [reflexivity|].
  destruct (lookup (k_alias kc0) ks) as [kc1|]; [|eexists; reflexivity].
  destruct (k_alias kc1 =? 0); cbn [negb]; [reflexivity | eexists; reflexivity].
Qed.

Lemma get_key_spec : forall ks n rn kc,
  get_key ks n = Ok (rn, kc) <-> (resolve1 ks n = Some (rn, kc) /\ k_token kc <> 0).
Proof.
  intros ks n rn kc. pose proof (get_key_resolve1 ks n) as H.
  destruct (resolve1 ks n) as [[rn' kc']|].
  - rewrite H. destruct (k_token kc' =? 0) eqn:T.
    + apply Z.eqb_eq in T. split; [discriminate|]. intros [E N]. injection E as <- <-. contradiction.
    + apply Z.eqb_neq in T. split.
      * intros E. injection E as <- <-. auto.
      * intros [E _]. injection E as <- <-. reflexivity.
  - destruct H as [e ->]. split; [discriminate | intros [E _]; discriminate].
Qed.

Lemma get_key_total : forall ks n, (exists e, get_key ks n = Err e) \/ (exists r, get_key ks n = Ok r).
Proof.
  intros ks n. pose proof (get_key_resolve1 ks n) as H.
  destruct (resolve1 ks n) as [[rn kc]|]; [|left; exact H].
  rewrite H. destruct (k_token kc =? 0); [left|right]; eexists; reflexivity.
Qed.

(* the entry a name denotes is stored under the name reported for it and has no alias of its own *)
Lemma resolve1_inv : forall ks n rn kc, resolve1 ks n = Some (rn, kc) -> lookup rn ks = Some kc /\ k_alias kc = 0.
Proof.
  intros ks n rn kc R. unfold resolve1 in R.
  destruct (lookup n ks) as [kc0|] eqn:L0; [|discriminate].
  destruct (k_alias kc0 =? 0) eqn:A0.
  - injection R as <- <-. split; [exact L0 | apply Z.eqb_eq; exact A0].
  - destruct (lookup (k_alias kc0) ks) as [kc1|] eqn:L1; [|discriminate].
    destruct (k_alias kc1 =? 0) eqn:A1; [|discriminate].
    injection R as <- <-. split; [exact L1 | apply Z.eqb_eq; exact A1].
Qed.

Lemma authenticate_cases : forall cls chain,
  (exists u, authenticate cls chain = Ok u) \/ authenticate cls chain = Err 401.
Proof.
  intros cls chain. unfold authenticate.
  destruct chain as [|c ?]; [right; reflexivity|].
  destruct (find_fp (ct_fp c) cls); [left; eexists; reflexivity|].
  destruct (if ct_ca c =? 0 then None else find_ca (ct_ca c) cls);
    [left; eexists; reflexivity | right; reflexivity].
Qed.

(* the only paths of the two key-bearing views that reach a token *)
Lemma serve_sign_touch : forall cf u rq t k,
  serve_sign cf u rq = Touch t k ->
  exists rn kc, get_key (cf_keys cf) (rq_key rq) = Ok (rn, kc) /\ allowed u rn kc = true /\
                t = k_token kc /\ mem t (cf_tokens cf) = true /\ k = rq_key rq.
Proof.
  intros cf u rq t k H. unfold serve_sign in H. unfold_gen.
  destruct (rq_key rq =? 0); [discriminate|].
  destruct (negb (rq_has_filename rq)); [discriminate|].
  destruct (get_key (cf_keys cf) (rq_key rq)) as [[rn kc]|e|e]; [|discriminate|discriminate].
  destruct (allowed u rn kc) eqn:A; cbn [negb] in H; [|discriminate].
  destruct (negb (rq_sigtype_ok rq)); [discriminate|].
  destruct (negb (rq_digest_ok rq)); [discriminate|].
  destruct (negb (rq_flags_ok rq)); [discriminate|].
  destruct (mem (k_token kc) (cf_tokens cf)) eqn:M; cbn [negb] in H; [|discriminate].
  injection H as <- <-. exists rn, kc. repeat split; auto.
Qed.

Lemma serve_getkey_touch : forall cf u rq t k,
  serve_getkey cf u rq = Touch t k ->
  exists rn kc, get_key (cf_keys cf) (rq_key rq) = Ok (rn, kc) /\ allowed u rn kc = true /\
                t = k_token kc /\ mem t (cf_tokens cf) = true /\ k = rn.
Proof.
  intros cf u rq t k H. unfold serve_getkey in H. unfold_gen.
  destruct (get_key (cf_keys cf) (rq_key rq)) as [[rn kc]|e|e]; [|discriminate|discriminate].
  destruct (allowed u rn kc) eqn:A; cbn [andb] in H; [|discriminate].
  destruct (mem (k_token kc) (cf_tokens cf)) eqn:M; cbn [negb] in H; [|discriminate].
  injection H as <- <-. exists rn, kc. repeat split; auto.
Qed.

Lemma dispatch_sound : forall cf u rq t k,
  dispatch cf (Ok u) rq = Touch t k ->
  exists rn kc, resolve1 (cf_keys cf) (rq_key rq) = Some (rn, kc) /\ allowed u rn kc = true /\
                t = k_token kc /\ t <> 0 /\ mem t (cf_tokens cf) = true /\
                (k = rq_key rq \/ k = rn).
Proof.
  intros cf u rq t k H. unfold dispatch in H.
  destruct (rq_ep rq); [| |discriminate|discriminate].
  - destruct (serve_sign_touch _ _ _ _ _ H) as [rn [kc [G [A [Ht [M K]]]]]].
    apply get_key_spec in G. destruct G as [R T0]. exists rn, kc. subst t. auto 7.
  - destruct (serve_getkey_touch _ _ _ _ _ H) as [rn [kc [G [A [Ht [M K]]]]]].
    apply get_key_spec in G. destruct G as [R T0]. exists rn, kc. subst t. auto 7.
Qed.

Lemma authz_sound : forall cf rq t k,
  handle cf rq = Touch t k ->
  exists u, snd (identity cf rq) = Ok u /\
  exists rn kc, resolve1 (cf_keys cf) (rq_key rq) = Some (rn, kc) /\ allowed u rn kc = true /\
                t = k_token kc /\ t <> 0 /\ mem t (cf_tokens cf) = true /\
                (k = rq_key rq \/ k = rn).
Proof.
  intros cf rq t k H. unfold handle in H.
  destruct (snd (identity cf rq)) as [u|e|e] eqn:I; [|discriminate|discriminate].
  exists u. split; [reflexivity|]. exact (dispatch_sound _ _ _ _ _ H).
Qed.

Lemma list_keys_exact : forall ks u n,
  In n (list_keys ks u) <->
  exists kc, In (n, kc) ks /\ k_hide kc = false /\
  exists rn kc', get_key ks n = Ok (rn, kc') /\ k_hide kc' = false /\ allowed u rn kc' = true.
Proof.
  intros ks u n. unfold list_keys. rewrite in_flat_map. unfold_gen. split.
  - intros [[m kc] [Hin H]].
    destruct (k_hide kc) eqn:Hh; [destruct H|].
    destruct (get_key ks m) as [[rn kc']|e|e] eqn:G; [|destruct H|destruct H].
    destruct (k_hide kc') eqn:Hh'; cbn [negb andb] in H; [destruct H|].
    destruct (allowed u rn kc') eqn:A; [|destruct H].
    destruct H as [H|[]]. subst m.
    exists kc. split; [exact Hin|]. split; [exact Hh|].
    exists rn, kc'. auto.
  - intros [kc [Hin [Hh [rn [kc' [G [Hh' A]]]]]]].
    exists (n, kc). split; [exact Hin|].
    rewrite Hh, G, Hh', A. cbn. left. reflexivity.
Qed.

Lemma header_noninterference : forall cf rq hops' hdr',
  rq_peer_trusted rq = false ->
  let rq' := mkReq (rq_ep rq) (rq_key rq) (rq_has_filename rq) (rq_sigtype_ok rq) (rq_digest_ok rq) (rq_flags_ok rq)
                   (rq_peer rq) false hops' (rq_tls rq) hdr' in
  identity cf rq' = identity cf rq /\ handle cf rq' = handle cf rq /\ fst (fst (identity cf rq)) = rq_peer rq.
Proof.
  intros cf rq hops' hdr' Ht rq'.
  assert (I : identity cf rq' = identity cf rq).
  { unfold identity, real_ip, rq'. cbn [rq_peer rq_peer_trusted rq_hops rq_tls rq_hdr].
    rewrite Ht. cbn. reflexivity. }
  split; [exact I|]. split.
  - unfold handle, dispatch. rewrite I. unfold serve_sign, serve_getkey, rq'. reflexivity.
  - unfold identity, real_ip. rewrite Ht. reflexivity.
Qed.

Lemma rightmost_untrusted_none : forall hops,
  rightmost_untrusted hops = None -> forallb snd hops = true.
Proof.
  induction hops as [|[h t] r IH]; intros H; [reflexivity|].
  cbn in H. destruct (rightmost_untrusted r); [discriminate|].
  destruct t; [|discriminate]. cbn. apply IH. reflexivity.
Qed.

Lemma rightmost_untrusted_some : forall hops a,
  rightmost_untrusted hops = Some a ->
  exists pre post, hops = pre ++ (a, false) :: post /\ forallb snd post = true.
Proof.
  induction hops as [|[h t] r IH]; intros a H; cbn in H; [discriminate|].
  destruct (rightmost_untrusted r) as [x|] eqn:R.
  - inversion H; subst. destruct (IH a eq_refl) as [pre [post [E F]]].
    exists ((h, t) :: pre), post. split; [rewrite E; reflexivity | exact F].
  - destruct t; [discriminate|]. inversion H; subst.
    exists [], r. split; [reflexivity | exact (rightmost_untrusted_none r R)].
Qed.

Lemma trusted_hop_spec : forall peer hops a,
  fst (real_ip peer true hops) = a ->
  (exists pre post, hops = pre ++ (a, false) :: post /\ forallb snd post = true) \/
  (forallb snd hops = true /\ a = match hops with [] => peer | (h, _) :: _ => h end).
Proof.
  intros peer hops a H. unfold real_ip in H. cbn [negb] in H.
  destruct (rightmost_untrusted hops) as [x|] eqn:R.
  - cbn in H. subst x. left. apply rightmost_untrusted_some. exact R.
  - right. split; [apply rightmost_untrusted_none; exact R|].
    destruct hops as [|[h t] r]; cbn in H; auto.
Qed.
