(* C04/Properties.v — what is claimed of the relic server's authentication, authorisation and key-name resolution, in
   the terms of the three models: C04/Model.v (one request), C04/History.v (sequences of requests on one server) and
   C04/Names.v (which entry every call site passes on). *)
From Relic Require Import Base.Prelude Generated.C04_gen C04.Model C04.Proofs C04.History C04.HistoryProofs C04.Names C04.NamesProofs.
Require Coq.Strings.String.
Import Coq.Strings.String.StringSyntax.
Delimit Scope string_scope with string.

(* a token is touched only for a recognised caller entitled to the key the name resolves to (one alias hop),
   and the token touched is that key's token *)
Theorem authz_sound : forall cf rq t k,
  handle cf rq = Touch t k ->
  exists u, snd (identity cf rq) = Ok u /\
  exists rn kc, resolve1 (cf_keys cf) (rq_key rq) = Some (rn, kc) /\ allowed u rn kc = true /\
                t = k_token kc /\ t <> 0 /\ mem t (cf_tokens cf) = true /\
                (k = rq_key rq \/ k = rn).
Proof. exact C04.Proofs.authz_sound. Qed.

(* every other signing / key-info request is refused: unauthenticated -> 401; authenticated but not entitled -> 403
   (or 400 for a missing parameter) — never a token call *)
Theorem unauthenticated_401 : forall cf rq,
  (forall u, snd (identity cf rq) <> Ok u) -> snd (identity cf rq) = Err 401 /\ handle cf rq = Status 401.
Proof.
  intros cf rq H.
  assert (E : snd (identity cf rq) = Err 401).
  { destruct (authenticate_cases (cf_clients cf) (peer_certs (snd (fst (identity cf rq))) (rq_tls rq) (rq_hdr rq)))
      as [[u Hu]|He]; [destruct (H u Hu) | exact He]. }
  unfold handle. rewrite E. split; reflexivity.
Qed.
Theorem not_entitled_refused : forall cf rq u,
  snd (identity cf rq) = Ok u -> (rq_ep rq = EpSign \/ rq_ep rq = EpGetKey) ->
  ~ entitled (cf_keys cf) u (rq_key rq) ->
  handle cf rq = Status 403 \/ (rq_ep rq = EpSign /\ handle cf rq = Status 400 /\ (rq_key rq = 0 \/ rq_has_filename rq = false)).
Proof.
  intros cf rq u Hi Hep Hne. unfold handle, dispatch. rewrite Hi.
  assert (G : (exists e, get_key (cf_keys cf) (rq_key rq) = Err e) \/
              (exists rn kc, get_key (cf_keys cf) (rq_key rq) = Ok (rn, kc) /\ allowed u rn kc = false)).
  { destruct (C04.Proofs.get_key_total (cf_keys cf) (rq_key rq)) as [E|[[rn kc] G]]; [left; exact E|right].
    exists rn, kc. split; [exact G|]. apply C04.Proofs.get_key_spec in G. destruct G as [R T].
    destruct (allowed u rn kc) eqn:A; [|reflexivity]. exfalso. apply Hne. exists rn, kc. auto. }
  destruct Hep as [Hep|Hep]; rewrite Hep.
  - unfold serve_sign. unfold_gen.
    destruct (rq_key rq =? 0) eqn:K0; [right; apply Z.eqb_eq in K0; auto|].
    destruct (rq_has_filename rq) eqn:F; cbn [negb]; [left|right; auto].
    destruct G as [[e G]|[rn [kc [G A]]]]; rewrite G; [|rewrite A]; reflexivity.
  - unfold serve_getkey. unfold_gen. left.
    destruct G as [[e G]|[rn [kc [G A]]]]; rewrite G; [|rewrite A]; reflexivity.
Qed.

(* ... and in the source, key resolution and the entitlement check come before the first token access *)
Theorem authz_precedes_token : sign_call_order = [0; 1; 2; 3; 4; 5; 6; 7; 8; 9].
Proof. reflexivity. Qed.

(* malformed configuration entries (unknown name, dangling alias, entry without token) yield an error, not a panic *)
Theorem get_key_total : forall ks n, (exists e, get_key ks n = Err e) \/ (exists r, get_key ks n = Ok r).
Proof. exact C04.Proofs.get_key_total. Qed.
Theorem get_key_spec : forall ks n rn kc,
  get_key ks n = Ok (rn, kc) <-> (resolve1 ks n = Some (rn, kc) /\ k_token kc <> 0).
Proof. exact C04.Proofs.get_key_spec. Qed.

(* listings contain exactly the non-hidden names the caller could sign with *)
Theorem list_keys_exact : forall ks u n,
  In n (list_keys ks u) <->
  exists kc, In (n, kc) ks /\ k_hide kc = false /\
  exists rn kc', get_key ks n = Ok (rn, kc') /\ k_hide kc' = false /\ allowed u rn kc' = true.
Proof. exact C04.Proofs.list_keys_exact. Qed.

(* headers from peers that are not trusted proxies never influence identity or recorded address *)
Theorem header_noninterference : forall cf rq hops' hdr',
  rq_peer_trusted rq = false ->
  let rq' := mkReq (rq_ep rq) (rq_key rq) (rq_has_filename rq) (rq_sigtype_ok rq) (rq_digest_ok rq) (rq_flags_ok rq)
                   (rq_peer rq) false hops' (rq_tls rq) hdr' in
  identity cf rq' = identity cf rq /\ handle cf rq' = handle cf rq /\ fst (fst (identity cf rq)) = rq_peer rq.
Proof. exact C04.Proofs.header_noninterference. Qed.

(* behind trusted proxies the recorded address is the rightmost untrusted hop *)
Theorem trusted_hop_spec : forall peer hops a,
  fst (real_ip peer true hops) = a ->
  (exists pre post, hops = pre ++ (a, false) :: post /\ forallb snd post = true) \/
  (forallb snd hops = true /\ a = match hops with [] => peer | (h, _) :: _ => h end).
Proof. exact C04.Proofs.trusted_hop_spec. Qed.

Example alias_and_roles :
  let ks := [(1, mkK 7 0 [10] false); (2, mkK 0 1 [] false); (3, mkK 0 9 [] false); (4, mkK 0 0 [10] false)] in
  let cf := mkCfg ks [mkCl 100 0 [10]; mkCl 0 5 [11]] [7] in
  let rq n tls := mkReq EpSign n true true true true 50 false [] tls [] in
  handle cf (rq 2 [mkCert 100 0]) = Touch 7 2 /\ handle cf (rq 2 [mkCert 101 5]) = Status 403 /\
  handle cf (rq 3 [mkCert 100 0]) = Status 403 /\ handle cf (rq 4 [mkCert 100 0]) = Status 403 /\
  handle cf (rq 1 [mkCert 102 0]) = Status 401 /\ list_keys ks (UCert [10]) = [1; 2].
Proof. vm_compute. repeat split. Qed.

(* every request's outcome (status / token touched / listing, and the identity the authenticator reports) equals the
   outcome the same request has on a FRESH server — for every configuration, every starting state and every sequence *)
Theorem history_independent : forall cf rqs st,
  hrun cf st rqs = map (fun rq => fst (hstep cf fresh rq)) rqs.
Proof. exact C04.HistoryProofs.history_independent. Qed.

(* ... because Authenticate reads no state that outlives a request (holds for ANY action table and ANY writes) *)
Theorem authenticate_reads_no_history : forall stores action cls st st' now chain,
  fst (hauth_g [] stores action cls st now chain) = fst (hauth_g [] stores action cls st' now chain).
Proof. intros. apply hauth_g_no_loads. Qed.
Theorem authenticate_keeps_no_history : forall cls st now chain, snd (hauth cls st now chain) = st.
Proof. intros. rewrite hauth_outcome. reflexivity. Qed.

(* Authenticate = the specification of "recognised": Ok with the roles of an entry that is keyed by the certificate's
   public key or whose CA pool verifies the presented chain now for client authentication; otherwise 401 *)
Theorem authenticate_spec : forall cls st now chain,
  match fst (hauth cls st now chain) with
  | Ok i => exists cl, In cl cls /\ spec_recognises cl now chain = true /\ id_roles i = xc_roles cl /\ id_name i = xc_nick cl
  | Err e => e = 401 /\ forall cl, In cl cls -> spec_recognises cl now chain = false
  | Panic _ => False
  end.
Proof. exact C04.HistoryProofs.hauth_result. Qed.
Theorem authenticate_complete : forall cls st now chain cl,
  In cl cls -> spec_recognises cl now chain = true -> exists i, fst (hauth cls st now chain) = Ok i.
Proof.
  intros cls st now chain cl Hin Hr. pose proof (hauth_result cls st now chain) as R.
  destruct (fst (hauth cls st now chain)) as [i|e|e].
  - exists i. reflexivity.
  - destruct R as [_ N]. rewrite (N cl Hin) in Hr. discriminate.
  - destruct R.
Qed.
Theorem match_is_path_validation : forall roots now leaf inter,
  fst (match_model roots now (leaf :: inter)) =
  (match roots with [] => false | _ => true end && verify_spec roots inter now [EKU_CLIENT] leaf).
Proof. exact C04.HistoryProofs.match_model_spec. Qed.

(* whatever the server has seen before, a certificate that nobody recognises at the time of the request gets 401 *)
Theorem history_unrecognised_refused : forall cf rqs st i rq,
  nth_error rqs i = Some rq ->
  (forall cl, In cl (hc_clients cf) -> spec_recognises cl (h_now rq) (h_chain rq) = false) ->
  exists r, nth_error (hrun cf st rqs) i = Some (Status 401, r).
Proof. exact C04.HistoryProofs.history_unrecognised_refused. Qed.

(* every response of every history satisfies the per-request specification *)
Theorem history_spec : forall cf rqs st i rq,
  nth_error rqs i = Some rq ->
  exists o r, nth_error (hrun cf st rqs) i = Some (o, r) /\ spec_response cf rq o.
Proof. exact C04.HistoryProofs.history_spec. Qed.

(* a token is touched in a history only for a caller recognised at that moment and entitled to the resolved key *)
Theorem history_authz_sound : forall cf rqs st i t k r,
  nth_error (hrun cf st rqs) i = Some (Touch t k, r) ->
  exists rq cl, nth_error rqs i = Some rq /\ In cl (hc_clients cf) /\
    spec_recognises cl (h_now rq) (h_chain rq) = true /\
    exists rn kc, resolve1 (cf_keys (hc_base cf)) (rq_key (h_base rq)) = Some (rn, kc) /\
                  allowed (UCert (xc_roles cl)) rn kc = true /\
                  t = k_token kc /\ t <> 0 /\ mem t (cf_tokens (hc_base cf)) = true /\
                  (k = rq_key (h_base rq) \/ k = rn).
Proof.
  intros cf rqs st i t k r H. rewrite history_nth in H.
  destruct (nth_error rqs i) as [rq|] eqn:N; [|discriminate]. cbn [option_map] in H.
  injection H as H.
  pose proof (hstep_spec cf fresh rq) as S. rewrite H in S. cbn [fst] in S.
  destruct S as [_ S]. destruct S as [cl [Hin [Hr Hd]]]; [discriminate|].
  exists rq, cl. split; [reflexivity|]. split; [exact Hin|]. split; [exact Hr|].
  symmetry in Hd. exact (dispatch_sound _ _ _ _ _ Hd).
Qed.

(* the mutable state reachable from request handling in the anchored packages is exactly the reviewed list, the
   authenticator mentions no receiver field but its configuration, it neither reads nor writes remembered verdicts *)
Theorem state_inventory_reviewed :
  c04_package_vars = reviewed_package_vars /\ c04_state_fields = reviewed_state_fields /\
  c04_state_writes = reviewed_state_writes /\ auth_receiver_fields = reviewed_receiver_fields.
Proof. repeat apply conj; reflexivity. Qed.
Theorem authenticator_has_no_memory : auth_memo_loads = [] /\ auth_memo_stores = [].
Proof. split; reflexivity. Qed.
Theorem client_loop_takes_exactly_matches : forall m e,
  bit (auth_loop_action m e) 1 = m /\ bit (auth_loop_action m e) 2 = m /\ bit (auth_loop_action m e) 8 = m /\
  bit (auth_loop_action m e) 16 = false /\ bit (auth_loop_action m e) 32 = false.
Proof. exact C04.HistoryProofs.gen_loop_action. Qed.
(* Authenticate: certificate-required refusal, lookup by fingerprint, then the client loop asking every entry about the
   whole presented chain, then the refusal, then the user — in this order, with nothing else in the loop *)
Theorem authenticate_stage_order : auth_match_arg = 1 /\ auth_loop_extra_stmts = 0 /\ auth_leaf_index = 0 /\ auth_first_lookup_key = 1 /\
  auth_stage_order = [6; 0; 1; 2; 3; 5].
Proof. repeat apply conj; reflexivity. Qed.
Theorem fingerprint_is_public_key_digest : forall c, fingerprint c = x_key c /\ fp_hash = 256 /\ fp_encoding = 1.
Proof. intros c. repeat apply conj; reflexivity. Qed.
(* every key-bearing route sits behind the authentication middleware, which ends the request when Authenticate fails *)
Theorem routes_behind_authentication :
  handler_routes = reviewed_routes /\ handler_middleware = reviewed_middleware /\
  mw_call_order = [0; 1; 2; 3] /\ mw_first_is_authenticate = true /\ mw_err_returns = true.
Proof. repeat apply conj; reflexivity. Qed.

(* non-vacuity: a history in which a CA-issued certificate is served and the same public key under a self-signed and
   under an expired certificate is refused before AND after it; and the remembered-by-public-key authenticator, run
   through the same definitions, serves both after the valid request (so the theorems above do exclude something) *)
Example history_same_key_other_certificates :
  map fst (hrun ex_cf fresh [ex_rq ex_selfsigned; ex_rq ex_good; ex_rq ex_selfsigned; ex_rq ex_expired])
  = [Status 401; Touch 7 1; Status 401; Status 401].
Proof. vm_compute. reflexivity. Qed.
Example remembering_by_public_key_is_refuted :
  map fst (hrun_g [1] [1] memo_action ex_cf fresh [ex_rq ex_selfsigned; ex_rq ex_good; ex_rq ex_selfsigned; ex_rq ex_expired])
  = [Status 401; Touch 7 1; Touch 7 1; Touch 7 1].
Proof. vm_compute. reflexivity. Qed.
Example recognition_is_satisfiable :
  spec_recognises (mkXC 900 [50] [10] 5) 1000 [ex_good] = true /\ spec_recognises (mkXC 900 [50] [10] 5) 1000 [ex_selfsigned] = false /\
  spec_recognises (mkXC 900 [50] [10] 5) 1000 [ex_expired] = false /\ spec_recognises (mkXC 77 [] [10] 5) 1000 [ex_selfsigned] = true /\
  (* through an intermediate presented by the peer, and not without it *)
  spec_recognises (mkXC 900 [50] [10] 5) 1000 [mkX 105 78 1 60 0 2000 [] false; mkX 60 61 2 50 0 2000 [] true] = true /\
  spec_recognises (mkXC 900 [50] [10] 5) 1000 [mkX 105 78 1 60 0 2000 [] false] = false.
Proof. vm_compute. repeat split. Qed.

(* the views assembled from the generated call sites (which name / which entry every call passes on) behave exactly like
   the single-request model above: same status, same token, same name handed to the token, same listing *)
Theorem views_refine_model : forall nc rq, erase (handle_e nc rq) = handle (n_base nc) rq.
Proof.
  intros nc rq. unfold handle_e, handle, dispatch_e, dispatch.
  destruct (snd (identity (n_base nc) rq)) as [u|e|e]; [|reflexivity|reflexivity].
  destruct (rq_ep rq); cbn [erase].
  - rewrite serve_sign_e_attach. apply erase_attach.
  - rewrite serve_getkey_e_attach. apply erase_attach.
  - rewrite list_keys_e_refines. reflexivity.
  - reflexivity.
Qed.

(* RESOLUTION IS IDEMPOTENT, for ALL alias graphs (chains of any length through complete entries, cycles, self-aliases,
   dangling links): the entry GetKey returns carries no alias of its own, and looking its name up again finds it again *)
Theorem resolved_entry_has_no_alias : forall ks n rn kc, get_key ks n = Ok (rn, kc) -> k_alias kc = 0.
Proof. exact C04.NamesProofs.resolved_entry_has_no_alias. Qed.
Theorem get_key_idempotent : forall ks n rn kc, get_key ks n = Ok (rn, kc) -> get_key ks rn = Ok (rn, kc).
Proof. exact C04.NamesProofs.get_key_idempotent. Qed.
(* ... so ANY pipeline of components that each resolve the name they are given — of any length, whatever each passes on
   (the name it received or Name() of the entry it found) — ends at the entry the first resolution found *)
Theorem pipeline_idempotent : forall ks fs n, relayers ks fs n = get_key ks n.
Proof. exact C04.NamesProofs.relayers_idempotent. Qed.
Theorem resolve_times_idempotent : forall ks k n, (1 <= k)%nat -> resolve_times ks k n = get_key ks n.
Proof.
  intros ks k. induction k as [|k IH]; intros n H; [lia|].
  destruct k as [|k']; [reflexivity|].
  change (resolve_times ks (S (S k')) n) with
    (match get_key ks n with Ok (rn, _) => resolve_times ks (S k') rn | Err e => Err e | Panic e => Panic e end).
  destruct (get_key ks n) as [[rn kc]|e|e] eqn:G; [|reflexivity|reflexivity].
  rewrite IH by lia. exact (C04.NamesProofs.get_key_idempotent _ _ _ _ G).
Qed.
(* in a chain of complete entries of any length, entry 2 denotes entry 1 and every name further up is a configuration error *)
Theorem chain_of_any_length_refused : forall len i, (3 <= i <= S len)%nat ->
  get_key (chain_keys len) (Z.of_nat i) = Err E_ALIAS_OF_ALIAS.
Proof.
  intros len i H. unfold get_key. rewrite (chain_lookup len i) by lia. unfold_gen. cbn [negb k_alias].
  destruct (Z.of_nat (pred i) =? 0) eqn:E; [apply Z.eqb_eq in E; lia|]. cbn [negb].
  rewrite (chain_lookup len (pred i)) by lia. cbn [k_alias].
  destruct (Z.of_nat (pred (pred i)) =? 0) eqn:E2; [apply Z.eqb_eq in E2; lia|]. reflexivity.
Qed.
Theorem chain_second_denotes_first : forall len, (1 <= len)%nat ->
  get_key (chain_keys len) (Z.of_nat 2) = Ok (Z.of_nat 1, mkK 7 0 [1] false).
Proof.
  intros len H. apply C04.Proofs.get_key_spec. split; [|cbn; discriminate].
  unfold resolve1. rewrite (chain_lookup len 2) by lia. cbn [k_alias pred].
  change (Z.of_nat 1 =? 0) with false. cbn iota.
  rewrite (chain_lookup len 1) by lia. reflexivity.
Qed.

(* AUTHORISATION AND USE MEET AT THE SAME ENTRY on every path that re-resolves by name — ALL configurations, ALL requests.
   /sign, tokens the server opens itself (handler -> Init -> InitKey -> Cache -> Limiter -> Metrics -> file token): the entry
   whose private key makes the signature is the entry the requested name resolves to following one alias, its roles were
   checked against the caller, the token is that entry's token, certificate and audit record are that entry's *)
Theorem sign_uses_checked_entry : forall nc rq t p m pr cp au,
  handle_e nc rq = ETouch t p (FSigned m pr cp au) -> mem t (n_worker nc) = false ->
  exists u, snd (identity (n_base nc) rq) = Ok u /\
  exists kc, resolve1 (cf_keys (n_base nc)) (rq_key rq) = Some (m, kc) /\ allowed u m kc = true /\
             t = k_token kc /\ t <> 0 /\ mem t (cf_tokens (n_base nc)) = true /\
             pr = m_key (mat_of (n_mats nc) m) /\ pr <> 0 /\ cp = pr /\ au = m.
Proof. exact C04.NamesProofs.sign_uses_checked_entry. Qed.
(* ... in the words of the specification: the entry is the one the name denotes, and its own roles admit the caller *)
Theorem sign_within_roles : forall nc rq t p m pr cp au,
  handle_e nc rq = ETouch t p (FSigned m pr cp au) -> mem t (n_worker nc) = false ->
  exists u, snd (identity (n_base nc) rq) = Ok u /\
            spec_may_use (cf_keys (n_base nc)) u (rq_key rq) m = true /\ spec_entitled (cf_keys (n_base nc)) u m = true.
Proof.
  intros nc rq t p m pr cp au H _.
  destruct (signed_with_checked_entry _ _ _ _ _ _ _ _ H) as [u [I [kc [R [A [Ht [Ht0 _]]]]]]].
  exists u. split; [exact I|]. subst t. exact (may_use_of_resolve1 _ _ _ _ _ R Ht0 A).
Qed.
(* /sign, token behind token/worker (type pkcs11): handler -> worker client (resolves, sends Name()) -> worker process
   (resolves again, for the public key and for every signature) *)
Theorem sign_worker_checked_entry : forall nc rq t p m pr cp au,
  handle_e nc rq = ETouch t p (FSigned m pr cp au) -> mem t (n_worker nc) = true ->
  exists u, snd (identity (n_base nc) rq) = Ok u /\
  exists kc, resolve1 (cf_keys (n_base nc)) (rq_key rq) = Some (m, kc) /\ allowed u m kc = true /\ t = k_token kc /\ au = m /\
             pr = m_key (mat_of (n_mats nc) m) /\ pr <> 0 /\
             spec_may_use (cf_keys (n_base nc)) u (rq_key rq) m = true /\ spec_entitled (cf_keys (n_base nc)) u m = true.
Proof.
  intros nc rq t p m pr cp au H _.
  destruct (signed_with_checked_entry _ _ _ _ _ _ _ _ H) as [u [I [kc [R [A [Ht [Ht0 [_ [P1 [P2 [_ Ha]]]]]]]]]]].
  exists u. split; [exact I|]. exists kc. subst t.
  destruct (may_use_of_resolve1 _ _ _ _ _ R Ht0 A) as [S1 S2]. auto 9.
Qed.
(* /keys/{key}: the view hands the token Name() of the checked entry, the token resolves it again *)
Theorem keys_discloses_checked_entry : forall nc rq t p m cp,
  handle_e nc rq = ETouch t p (FDisclosed m cp) -> mem t (n_worker nc) = false ->
  exists u, snd (identity (n_base nc) rq) = Ok u /\
  exists kc, resolve1 (cf_keys (n_base nc)) (rq_key rq) = Some (p, kc) /\ allowed u p kc = true /\ t = k_token kc /\
             (m = 0 \/ (m = p /\ cp = m_key (mat_of (n_mats nc) m) /\ cp <> 0 /\
                        spec_may_use (cf_keys (n_base nc)) u (rq_key rq) m = true /\ spec_entitled (cf_keys (n_base nc)) u m = true)).
Proof. exact C04.NamesProofs.keys_discloses_checked_entry. Qed.
(* /keys/{key} behind the worker: three look-ups by name, one entry *)
Theorem keys_worker_discloses_checked_entry : forall nc rq t p m cp,
  handle_e nc rq = ETouch t p (FDisclosed m cp) -> mem t (n_worker nc) = true ->
  exists u, snd (identity (n_base nc) rq) = Ok u /\
  exists kc, resolve1 (cf_keys (n_base nc)) (rq_key rq) = Some (p, kc) /\ allowed u p kc = true /\ t = k_token kc /\
             (m = 0 \/ (m = p /\ spec_may_use (cf_keys (n_base nc)) u (rq_key rq) m = true)).
Proof.
  intros nc rq t p m cp H _.
  destruct (disclosed_of_checked_entry _ _ _ _ _ _ H) as [u [I [kc [R [A [Ht D]]]]]].
  exists u. split; [exact I|]. exists kc. split; [exact R|]. split; [exact A|]. split; [exact Ht|].
  destruct D as [D|[D1 [_ [_ [D2 _]]]]]; auto.
Qed.

(* the concrete paths are instances of the general pipeline: the handler's choice of name is one component *)
Theorem sign_entry_is_pipeline : forall nc rq t p m pr cp au,
  handle_e nc rq = ETouch t p (FSigned m pr cp au) -> mem t (n_worker nc) = false ->
  exists f kc, fwd_of sign_init_name = Some f /\ relayers (cf_keys (n_base nc)) [f] (rq_key rq) = Ok (m, kc).
Proof.
  intros nc rq t p m pr cp au H _.
  destruct (signed_with_checked_entry _ _ _ _ _ _ _ _ H) as [u [_ [kc [R [_ [Ht [Ht0 _]]]]]]].
  exists false, kc. split; [reflexivity|]. rewrite relayers_idempotent.
  apply C04.Proofs.get_key_spec. subst t. auto.
Qed.
Theorem keys_entry_is_pipeline : forall nc rq t p m cp,
  handle_e nc rq = ETouch t p (FDisclosed m cp) -> mem t (n_worker nc) = false -> m <> 0 ->
  exists f kc, fwd_of info_init_name = Some f /\ relayers (cf_keys (n_base nc)) [f] (rq_key rq) = Ok (m, kc).
Proof.
  intros nc rq t p m cp H _ M0.
  destruct (handle_e_touch _ _ _ _ _ H) as [u [rn [kc [_ [G [_ [_ [_ [[_ Hf]|[Hp Hf]]]]]]]]]].
  { unfold sign_fin in Hf. destruct (init_sign _ _ _ _); discriminate. }
  symmetry in Hf. destruct (info_fin_disclosed _ _ _ _ _ Hf) as [[D _]|[kc2 [G2 _]]]; [contradiction|].
  exists true, kc2. split; [reflexivity|]. cbn [relayers]. rewrite G. subst p. exact G2.
Qed.

(* token wrappers of any depth that pass on the name they receive are transparent; the server's and the worker's are *)
Theorem wrappers_transparent : forall ks ws tok n, Forall (fun w => w = NParam 1) ws -> wraps ks ws tok n = tok n.
Proof. exact C04.NamesProofs.wraps_transparent. Qed.
Theorem relic_wrappers_pass_the_name_on :
  Forall (fun w => w = NParam 1) server_stack /\ Forall (fun w => w = NParam 1) worker_stack /\ server_stack <> [] /\ worker_stack <> [].
Proof. repeat apply conj; [exact server_stack_same | exact worker_stack_same | vm_compute; discriminate ..]. Qed.

(* the sites as read from the source: Name() is the map key; GetKey reads the requested entry and the entry its alias
   names and returns the latter; file and PKCS#11 tokens resolve the name they get and load that entry's material; the key
   cache is indexed by the name it looks up; only pkcs11 tokens (also the default type) sit behind the worker *)
Theorem name_sites_reviewed :
  (keyconf_name_is_field = true /\ normalize_names_keys_by_map_key = true) /\
  (getkey_map_lookups = [NParam 0; NAliasOf (CRaw (NParam 0))] /\ getkey_returns = CRaw (NAliasOf (CRaw (NParam 0)))) /\
  (file_resolve_name = NParam 1 /\ file_material_conf = CGetKey file_resolve_name /\ file_key_conf = file_material_conf /\
   p11_resolve_name = file_resolve_name /\ p11_material_conf = file_material_conf) /\
  (Forall (fun i => i = cache_inner_name) cache_index_names /\ cache_index_names <> []) /\
  (open_worker_types = ["pkcs11"%string] /\ default_token_type = "pkcs11"%string).
Proof. repeat apply conj; try reflexivity; [repeat constructor | discriminate]. Qed.

(* non-vacuity and regression: the chain old(3) -> legacy(2) -> release(1), the configuration that broke /keys and the worker
   path before relic 1867fd2.  A caller of `legacy` only is served nothing (old is a configuration error, legacy denotes
   release); a caller of `release` is served through `legacy` on every path with the key of release *)
Example names_examples :
  handle_e (wit_nc [20] [] wit_files) (wit_rq EpSign 3) = EStatus 403 /\
  handle_e (wit_nc [20] [] wit_files) (wit_rq EpGetKey 3) = EStatus 403 /\
  handle_e (wit_nc [20] [7] wit_hsm) (wit_rq EpSign 3) = EStatus 403 /\
  handle_e (wit_nc [20] [] wit_files) (wit_rq EpSign 2) = EStatus 403 /\
  handle_e (wit_nc [20] [] wit_files) (wit_rq EpSign 1) = EStatus 403 /\
  handle_e (wit_nc [20] [] wit_files) (wit_rq EpList 0) = EListing [] /\
  get_key wit_keys 3 = Err E_ALIAS_OF_ALIAS /\
  handle_e (wit_nc [10] [] wit_files) (wit_rq EpSign 2) = ETouch 7 2 (FSigned 1 101 101 1) /\
  handle_e (wit_nc [10] [] wit_files) (wit_rq EpGetKey 2) = ETouch 7 1 (FDisclosed 1 101) /\
  handle_e (wit_nc [10] [7] wit_hsm) (wit_rq EpSign 2) = ETouch 7 2 (FSigned 1 101 101 1) /\
  handle_e (wit_nc [10] [7] wit_hsm) (wit_rq EpGetKey 2) = ETouch 7 1 (FDisclosed 1 101) /\
  handle_e (wit_nc [10] [7] wit_files) (wit_rq EpSign 1) = ETouch 7 1 (FSigned 1 101 101 1) /\
  handle_e (wit_nc [10] [] wit_files) (wit_rq EpList 0) = EListing [1; 2].
Proof. vm_compute. repeat split. Qed.
