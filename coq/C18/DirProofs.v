(* C18/DirProofs.v — lemmas about the directory model of C18/DirModel.v: lessDirEnt as a comparison of keys; DeleteFile, AddFile and
   InsertMSISignature on directories whose children have unique names; rebuildTree and what Close leaves; the released sectors;
   the same in the terms of the specification; the storage refusal of InsertMSISignature. *)
From Relic Require Import Base.Prelude Base.Enc Base.Lists Generated.C18_gen C18.UnicodeSpec C18.Model C18.Proofs C18.DirModel.
From Coq Require Import Permutation.

(* number of loop iterations for a NameLength, and the upper-cased units the loop looks at *)
Definition iters (la : Z) : nat := Z.to_nat (Z.min (less_n la) name_runes).
Definition up_units (m : nat) (k : nat) (u : list Z) : list Z := map (fun j => upper_unit (nth j u 0)) (seq k m).
Definition ekey (e : dent) : list Z := f_nlen e :: up_units (iters (f_nlen e)) 0 (f_runes e).

(* the comparison loop (with the decisions srcgen reads) is the lexicographic comparison of the upper-cased units it looks at *)
Lemma less_loop_lex m : forall fuel k n ua ub, (m < fuel)%nat -> 0 <= k ->
  Z.of_nat m = Z.max 0 (Z.min n name_runes - k) ->
  less_loop fuel n name_runes k ua ub = lex_lt (up_units m (Z.to_nat k) ua) (up_units m (Z.to_nat k) ub).
Proof.
  induction m as [|m IH]; intros fuel k n ua ub Hf Hk Hm; (destruct fuel as [|f]; [lia|]); cbn [less_loop]; unfold less_loop_cond.
  - replace ((k <? n) && (k <? name_runes)) with false by lia. reflexivity.
  - replace ((k <? n) && (k <? name_runes)) with true by lia.
    unfold up_units, less_unit_differs, less_unit_ret. cbn [seq map lex_lt].
    destruct (upper_unit (nth (Z.to_nat k) ua 0) =? upper_unit (nth (Z.to_nat k) ub 0)); cbn [negb]; [|reflexivity].
    rewrite (IH f (k + 1) n ua ub) by lia. unfold up_units. replace (Z.to_nat (k + 1)) with (S (Z.to_nat k)) by lia. reflexivity.
Qed.

(* lessDirEnt compares the NameLengths the way it compares two code units, so the NameLength is the first component of the key *)
Lemma less_dirent_key la lb ua ub :
  less_dirent la lb ua ub = lex_lt (la :: up_units (iters la) 0 ua) (lb :: up_units (iters lb) 0 ub).
Proof.
  unfold less_dirent, less_len_differs, less_len_ret. cbn [lex_lt]. destruct (Z.eqb_spec la lb) as [->|_]; cbn [negb]; [|reflexivity].
  apply (less_loop_lex (iters lb)); unfold iters, name_runes, de_w_NameRunes; cbn; lia.
Qed.
Lemma ent_less_key a b : ent_less a b = lex_lt (ekey a) (ekey b).
Proof. apply less_dirent_key. Qed.

Lemma up_units_length m k u : length (up_units m k u) = m.
Proof. unfold up_units. now rewrite map_length, seq_length. Qed.

(* the relation "lessDirEnt orders the two entries neither way" is equality of keys *)
Definition ent_same (a b : dent) : bool := negb (ent_less a b) && negb (ent_less b a).
Lemma ent_same_iff a b : ent_same a b = true <-> ekey a = ekey b.
Proof.
  unfold ent_same. rewrite !ent_less_key. split.
  - intros [H1%negb_true_iff H2%negb_true_iff]%andb_true_iff. apply lex_lt_total; [|exact H1|exact H2].
    (* equal NameLengths, hence as many units: otherwise the first components already order the keys *)
    unfold ekey in *. cbn [lex_lt length] in *. rewrite !up_units_length.
    destruct (Z.eqb_spec (f_nlen a) (f_nlen b)) as [->|Hne]; [reflexivity|]. replace (f_nlen b =? f_nlen a) with false in H2 by lia. lia.
  - intros E. rewrite E, lex_lt_irrefl. reflexivity.
Qed.
Lemma ent_less_irrefl a : ent_less a a = false.
Proof. rewrite ent_less_key. apply lex_lt_irrefl. Qed.
Lemma ent_less_trans a b c : ent_less a b = true -> ent_less b c = true -> ent_less a c = true.
Proof. rewrite !ent_less_key. apply lex_lt_trans. Qed.
Lemma ent_less_cmp a b : ekey a <> ekey b -> ent_less a b = true \/ ent_less b a = true.
Proof.
  intros H. destruct (ent_less a b) eqn:E1; [left; reflexivity|]. destruct (ent_less b a) eqn:E2; [right; reflexivity|].
  exfalso. apply H. apply ent_same_iff. unfold ent_same. rewrite E1, E2. reflexivity.
Qed.

Lemma map_firstn_seq (f : Z -> Z) l : forall m, (m <= length l)%nat -> map f (firstn m l) = map (fun j => f (nth j l 0)) (seq 0 m).
Proof.
  induction l as [|x l IH]; intros [|m] H; cbn in H; try lia; try reflexivity.
  cbn [firstn map seq nth]. f_equal. rewrite IH by lia. rewrite <- seq_shift, map_map. reflexivity.
Qed.
Lemma up_units_firstn m l : (m <= length l)%nat -> up_units m 0 l = map upper_unit (firstn m l).
Proof. intros H. unfold up_units. symmetry. apply map_firstn_seq. exact H. Qed.
Lemma iters_even n : 0 <= n <= name_runes -> iters (2 * (n + 1)) = Z.to_nat n.
Proof.
  intros H. unfold iters, less_n. rewrite Z.quot_div_nonneg by lia. replace (2 * (n + 1)) with ((n + 1) * 2) by lia.
  rewrite Z.div_mul by lia. lia.
Qed.
(* the key of a name of at most 32 units that fills the start of the array *)
Lemma name_key u runes : zlen u <= name_runes -> firstn (length u) runes = u ->
  2 * (zlen u + 1) :: up_units (iters (2 * (zlen u + 1))) 0 runes = 2 * (zlen u + 1) :: map upper_unit u.
Proof.
  intros Hu Hr. pose proof (zlen_nonneg u). rewrite iters_even by lia. unfold zlen. rewrite Nat2Z.id.
  rewrite up_units_firstn, Hr; [reflexivity|]. rewrite <- Hr, firstn_length. lia.
Qed.

Lemma agreeing_units a : forallb unit_agrees a = true -> map upper_unit a = map upcase a.
Proof. intros H. rewrite forallb_forall in H. apply map_ext_in. intros x Hx. apply Z.eqb_eq, H, Hx. Qed.
Lemma name_keys_lt a b : forallb unit_agrees a = true -> forallb unit_agrees b = true ->
  lex_lt (2 * (zlen a + 1) :: map upper_unit a) (2 * (zlen b + 1) :: map upper_unit b) = cfb_less a b.
Proof.
  intros Ha Hb. rewrite cfb_less_lex, !agreeing_units by assumption. cbn [lex_lt].
  destruct (Z.eqb_spec (2 * (zlen a + 1)) (2 * (zlen b + 1))), (Z.eqb_spec (zlen a) (zlen b)),
    (Z.ltb_spec (2 * (zlen a + 1)) (2 * (zlen b + 1))), (Z.ltb_spec (zlen a) (zlen b)); reflexivity || lia.
Qed.

(* a directory entry name as [MS-CFB] 2.6.1 allows it: NameLength even, 2..64 bytes, 32 code units of storage *)
Definition wf_name (e : dent) : Prop := 2 <= f_nlen e <= 64 /\ f_nlen e mod 2 = 0 /\ length (f_runes e) = 32%nat.
Lemma ekey_wf e : wf_name e -> ekey e = 2 * (zlen (ent_units e) + 1) :: map upper_unit (ent_units e).
Proof.
  intros (H1 & H2 & H3).
  assert (Hl : length (ent_units e) = Z.to_nat (f_nlen e / 2 - 1)) by (unfold ent_units; rewrite firstn_length, H3; lia).
  assert (Hn : f_nlen e = 2 * (zlen (ent_units e) + 1)) by (unfold zlen; rewrite Hl; lia).
  unfold ekey. rewrite Hn at 1 2. apply name_key; [unfold zlen, name_runes, de_w_NameRunes; cbn; lia|]. rewrite Hl. reflexivity.
Qed.
Lemma ent_less_is_spec_less a b : wf_name a -> wf_name b -> ent_less a b = spec_less (ent_units a) (ent_units b).
Proof. intros Wa Wb. rewrite ent_less_key, !ekey_wf by assumption. apply name_keys_lt; apply forallb_unit_agrees. Qed.

Lemma get_set_same fs i e : 0 <= i < zlen fs -> get_ent (set_ent fs i e) i = e.
Proof. intros H. unfold get_ent, set_ent. apply set_nat_same. unfold zlen in H. lia. Qed.
Lemma get_set_other fs i j e : 0 <= i -> 0 <= j -> i <> j -> get_ent (set_ent fs i e) j = get_ent fs j.
Proof. intros Hi Hj H. unfold get_ent, set_ent. apply set_nat_other. lia. Qed.
Lemma zlen_set_ent fs i e : zlen (set_ent fs i e) = zlen fs.
Proof. unfold zlen, set_ent. now rewrite set_nat_length. Qed.
Lemma in_range_iff fs i : ent_in_range fs i = true <-> 0 <= i < zlen fs.
Proof. unfold ent_in_range. lia. Qed.

(* the keep test of DeleteFile as srcgen reads it: the entry and the probe are ordered one way or the other by lessDirEnt *)
Lemma ent_less_asym a b : ent_less a b = true -> ent_less b a = false.
Proof.
  intros H. destruct (ent_less b a) eqn:E; [|reflexivity]. pose proof (ent_less_trans _ _ _ H E) as T. rewrite ent_less_irrefl in T. discriminate.
Qed.
(* (any boolean combination of the two comparisons that agrees with "one of them holds" on the three possible outcomes passes:
   both cannot hold at once) *)
Lemma keeps_is_not_same (a p : dent) na n : delete_keeps ent_less a p na n = negb (ent_same a p).
Proof.
  unfold delete_keeps, ent_same. destruct (ent_less a p) eqn:E1; [rewrite (ent_less_asym _ _ E1); reflexivity|].
  destruct (ent_less p a); reflexivity.
Qed.

Definition matches (p : dent) (fs : list dent) (i : Z) : bool := ent_same (get_ent fs i) p.
Lemma matches_set_other p fs i e j : 0 <= i -> 0 <= j -> i <> j -> matches p (set_ent fs i e) j = matches p fs j.
Proof. intros. unfold matches. now rewrite get_set_other. Qed.

(* which table DeleteFile hands to freeSectors for an entry, and what becomes of the two tables *)
Definition freed_tables (cutoff : Z) (item : dent) (sat ssat : list Z) : list Z * list Z :=
  if delete_is_short (f_size item) cutoff then (sat, go_free ssat (f_start item)) else (go_free sat (f_start item), ssat).

Lemma delete_loop_step name p cutoff i rest fs sat ssat keep ch : 0 <= i < zlen fs ->
  delete_loop name p cutoff (i :: rest) fs sat ssat keep ch =
  if matches p fs i then
    if delete_refuses (f_type (get_ent fs i)) then (E_STORAGE, (fs, sat, ssat, keep, ch))
    else let '(sat', ssat') := freed_tables cutoff (get_ent fs i) sat ssat in
         delete_loop name p cutoff rest (set_ent fs i blank) sat' ssat' keep true
  else delete_loop name p cutoff rest fs sat ssat (keep ++ [i]) ch.
Proof.
  intros Hi%in_range_iff. cbn [delete_loop]. rewrite Hi, keeps_is_not_same. fold (matches p fs i). cbn [negb].
  destruct (matches p fs i); cbn [negb]; [|reflexivity]. destruct (delete_refuses (f_type (get_ent fs i))); [reflexivity|].
  unfold freed_tables, delete_free_table_short, delete_free_table_long. rewrite orb_true_r.
  destruct (delete_is_short (f_size (get_ent fs i)) cutoff); reflexivity.
Qed.

(* shows the fields of a state built with with_dir / with_changed *)
Ltac simpl_st := unfold with_dir, with_changed; cbn [d_files d_root_files d_sat d_ssat d_root d_ss d_mss d_cutoff d_changed].

Lemma delete_loop_nomatch name p cutoff : forall idxs fs sat ssat keep ch,
  Forall (fun i => 0 <= i < zlen fs) idxs -> (forall j, In j idxs -> matches p fs j = false) ->
  delete_loop name p cutoff idxs fs sat ssat keep ch = (0, (fs, sat, ssat, keep ++ idxs, ch)).
Proof.
  induction idxs as [|i rest IH]; intros fs sat ssat keep ch Hr Hm; [cbn; rewrite app_nil_r; reflexivity|].
  apply Forall_cons_iff in Hr as [Hi Hr']. rewrite delete_loop_step, (Hm i (or_introl eq_refl)) by exact Hi.
  rewrite IH; [rewrite <- app_assoc; reflexivity | exact Hr' | intros j Hj; apply Hm; right; exact Hj].
Qed.

(* When at most one of the indices matches, the loop does one of three things: nothing (no match), stop on the refusal, or blank the
   matching entry and free its chain; the other indices are kept in order *)
Lemma delete_loop_once name p cutoff : forall idxs fs sat ssat keep ch,
  NoDup idxs -> Forall (fun i => 0 <= i < zlen fs) idxs ->
  (forall i j, In i idxs -> In j idxs -> matches p fs i = true -> matches p fs j = true -> i = j) ->
  (existsb (matches p fs) idxs = false /\
   delete_loop name p cutoff idxs fs sat ssat keep ch = (0, (fs, sat, ssat, keep ++ idxs, ch))) \/
  exists i, In i idxs /\ matches p fs i = true /\
    if delete_refuses (f_type (get_ent fs i))
    then exists keep', delete_loop name p cutoff idxs fs sat ssat keep ch = (E_STORAGE, (fs, sat, ssat, keep', ch))
    else delete_loop name p cutoff idxs fs sat ssat keep ch =
           (0, (set_ent fs i blank, fst (freed_tables cutoff (get_ent fs i) sat ssat), snd (freed_tables cutoff (get_ent fs i) sat ssat),
                keep ++ filter (fun j => negb (matches p fs j)) idxs, true)).
Proof.
  induction idxs as [|i rest IH]; intros fs sat ssat keep ch Hnd Hr Hone.
  - left. split; [reflexivity|]. cbn. rewrite app_nil_r. reflexivity.
  - apply NoDup_cons_iff in Hnd as [Hni Hnd']. apply Forall_cons_iff in Hr as [Hi Hr'].
    rewrite delete_loop_step by exact Hi. cbn [existsb filter]. destruct (matches p fs i) eqn:Em; cbn [negb orb].
    + right. exists i. split; [left; reflexivity|]. split; [exact Em|].
      destruct (delete_refuses (f_type (get_ent fs i))); [exists keep; reflexivity|].
      destruct (freed_tables cutoff (get_ent fs i) sat ssat) as [sat1 ssat1]. cbn [fst snd].
      assert (Hno : forall j, In j rest -> matches p fs j = false).
      { intros j Hj. apply not_true_is_false. intros Mj. apply Hni. rewrite (Hone i j); auto using in_eq, in_cons. }
      rewrite delete_loop_nomatch, (filter_all _ rest); [reflexivity | | rewrite zlen_set_ent; exact Hr' |].
      * intros j Hj. rewrite (Hno j Hj). reflexivity.
      * intros j Hj. rewrite Forall_forall in Hr'. specialize (Hr' j Hj).
        rewrite matches_set_other; [exact (Hno j Hj) | lia | lia | intros ->; contradiction].
    + destruct (IH fs sat ssat (keep ++ [i]) ch Hnd' Hr') as [[Hno Heq] | (j & Hj & Mj & Hcase)].
      * intros a b Ha Hb. apply Hone; right; assumption.
      * left. split; [exact Hno|]. rewrite Heq, <- app_assoc. reflexivity.
      * right. exists j. split; [right; exact Hj|]. split; [exact Mj|]. rewrite <- app_assoc in Hcase. exact Hcase.
Qed.

Definition rkeys (fs : list dent) (rf : list Z) : list (list Z) := map (fun i => ekey (get_ent fs i)) rf.
(* what a compound file that was read gives: the root's children are entries of the directory, allocated ones, no two of them
   carry the same name under lessDirEnt, and the root storage is not its own child *)
Record wf (st : dstate) : Prop := mk_wf {
  wf_names : Forall (fun i => wf_name (get_ent (d_files st) i)) (d_root_files st);
  wf_range : Forall (fun i => 0 <= i < zlen (d_files st)) (d_root_files st);
  wf_used : Forall (fun i => append_slot_free (f_type (get_ent (d_files st) i)) = false) (d_root_files st);
  wf_uniq : NoDup (rkeys (d_files st) (d_root_files st));
  wf_root : ~ In (d_root st) (d_root_files st);
  wf_root_used : 0 <= d_root st < zlen (d_files st) /\ append_slot_free (f_type (get_ent (d_files st) (d_root st))) = false }.
Lemma wf_name_of st i : wf st -> In i (d_root_files st) -> wf_name (get_ent (d_files st) i).
Proof. intros W. revert i. apply Forall_forall. exact (wf_names _ W). Qed.
Lemma wf_in_range st i : wf st -> In i (d_root_files st) -> 0 <= i < zlen (d_files st).
Proof. intros W. revert i. apply Forall_forall. exact (wf_range _ W). Qed.
Lemma wf_used_of st i : wf st -> In i (d_root_files st) -> append_slot_free (f_type (get_ent (d_files st) i)) = false.
Proof. intros W. revert i. apply Forall_forall. exact (wf_used _ W). Qed.

Definition fits (name : list Z) : bool := negb (delete_name_too_long (zlen (name_units name delete_probe_terminated)) name_runes).
Definition same_geometry (st st' : dstate) : Prop :=
  d_root st' = d_root st /\ d_ss st' = d_ss st /\ d_mss st' = d_mss st /\ d_cutoff st' = d_cutoff st.
Lemma same_geometry_trans a b c : same_geometry a b -> same_geometry b c -> same_geometry a c.
Proof. unfold same_geometry. intros (A1 & A2 & A3 & A4) (B1 & B2 & B3 & B4). rewrite B1, B2, B3, B4. tauto. Qed.

Lemma rkeys_ext fs fs' rf : (forall i, In i rf -> get_ent fs' i = get_ent fs i) -> rkeys fs' rf = rkeys fs rf.
Proof. intros H. unfold rkeys. apply map_ext_in. intros i Hi. rewrite H by exact Hi. reflexivity. Qed.

Definition kept_of (name : list Z) (st : dstate) : list Z :=
  filter (fun i => negb (matches (probe_of name) (d_files st) i)) (d_root_files st).

(* the names of the children are unique, so at most one of them matches a probe *)
Lemma wf_one_match st p i j : wf st -> In i (d_root_files st) -> In j (d_root_files st) ->
  matches p (d_files st) i = true -> matches p (d_files st) j = true -> i = j.
Proof.
  intros W Hi Hj Mi%ent_same_iff Mj%ent_same_iff. apply (NoDup_map_inj _ _ _ _ (wf_uniq _ W) Hi Hj). cbv beta. congruence.
Qed.
Lemma wf_delete_loop name st : wf st -> let p := probe_of name in
  let run := delete_loop name p (d_cutoff st) (d_root_files st) (d_files st) (d_sat st) (d_ssat st) [] (d_changed st) in
  (existsb (matches p (d_files st)) (d_root_files st) = false /\ run = (0, (d_files st, d_sat st, d_ssat st, d_root_files st, d_changed st))) \/
  exists i, In i (d_root_files st) /\ matches p (d_files st) i = true /\
    if delete_refuses (f_type (get_ent (d_files st) i))
    then exists keep', run = (E_STORAGE, (d_files st, d_sat st, d_ssat st, keep', d_changed st))
    else let ft := freed_tables (d_cutoff st) (get_ent (d_files st) i) (d_sat st) (d_ssat st) in
         run = (0, (set_ent (d_files st) i blank, fst ft, snd ft, kept_of name st, true)).
Proof.
  intros W. exact (delete_loop_once name _ _ _ _ _ _ [] _ (NoDup_map_inv _ _ (wf_uniq _ W)) (wf_range _ W) (fun i j => wf_one_match st _ i j W)).
Qed.

Lemma delete_raw_spec name st st' : wf st -> delete_file_raw name st = (0, st') ->
  (fits name = false -> st' = st) /\
  (fits name = true ->
     d_root_files st' = kept_of name st /\
     zlen (d_files st') = zlen (d_files st) /\
     (forall j, 0 <= j -> (~ In j (d_root_files st) \/ matches (probe_of name) (d_files st) j = false) ->
                get_ent (d_files st') j = get_ent (d_files st) j) /\
     (forall j, In j (d_root_files st) -> matches (probe_of name) (d_files st) j = true ->
                get_ent (d_files st') j = blank /\ delete_refuses (f_type (get_ent (d_files st) j)) = false /\
                (d_sat st', d_ssat st') = freed_tables (d_cutoff st) (get_ent (d_files st) j) (d_sat st) (d_ssat st)) /\
     (existsb (matches (probe_of name) (d_files st)) (d_root_files st) = false -> d_sat st' = d_sat st /\ d_ssat st' = d_ssat st) /\
     d_changed st' = d_changed st || existsb (matches (probe_of name) (d_files st)) (d_root_files st)) /\
  same_geometry st st'.
Proof.
  intros W H. unfold delete_file_raw, fits in *.
  destruct (delete_name_too_long (zlen (name_units name delete_probe_terminated)) name_runes) eqn:E; cbn [negb].
  - injection H as <-. split; [reflexivity|]. split; [discriminate|]. unfold same_geometry. tauto.
  - split; [discriminate|]. destruct (wf_delete_loop name st W) as [[Hno Heq] | (i & Hi & Mi & Hcase)]; cbv zeta in *.
    + (* no child carries the name *)
      rewrite Heq in H. injection H as <-. simpl_st. split; [|unfold same_geometry; tauto]. intros _. unfold delete_commits_keep.
      assert (Hnone : forall j, In j (d_root_files st) -> matches (probe_of name) (d_files st) j = false).
      { intros j Hj. apply not_true_is_false. intros Mj. rewrite (proj2 (existsb_exists _ _)) in Hno by (exists j; auto). discriminate. }
      split; [symmetry; apply filter_all; intros j Hj; rewrite (Hnone j Hj); reflexivity|]. split; [reflexivity|]. split; [reflexivity|].
      split; [intros j Hj Mj; rewrite (Hnone j Hj) in Mj; discriminate|]. split; [split; reflexivity|]. rewrite Hno. symmetry. apply orb_false_r.
    + destruct (delete_refuses (f_type (get_ent (d_files st) i))) eqn:Eref; [destruct Hcase as [keep' Heq]; rewrite Heq in H; discriminate|].
      rewrite Hcase in H. injection H as <-. simpl_st. split; [|unfold same_geometry; tauto]. intros _. unfold delete_commits_keep.
      pose proof (wf_in_range _ _ W Hi) as Ri.
      split; [reflexivity|]. split; [apply zlen_set_ent|]. split; [|split; [|split]].
      * intros j Hj Hc. apply get_set_other; [lia | exact Hj | intros <-; destruct Hc; [contradiction | congruence]].
      * intros j Hj Mj. rewrite <- (wf_one_match _ _ _ _ W Hi Hj Mi Mj). split; [apply get_set_same, Ri|]. split; [exact Eref|].
        symmetry. apply surjective_pairing.
      * intros Hno. rewrite (proj2 (existsb_exists _ _)) in Hno by (exists i; auto). discriminate.
      * rewrite (proj2 (existsb_exists _ _)) by (exists i; auto). symmetry. apply orb_true_r.
Qed.
Lemma delete_raw_err name st code st1 : wf st -> delete_file_raw name st = (code, st1) -> code <> 0 ->
  code = E_STORAGE /\ exists i, In i (d_root_files st) /\ matches (probe_of name) (d_files st) i = true /\
                                delete_refuses (f_type (get_ent (d_files st) i)) = true.
Proof.
  intros W H Hc. unfold delete_file_raw in H.
  destruct (delete_name_too_long (zlen (name_units name delete_probe_terminated)) name_runes); [injection H as <- _; contradiction|].
  destruct (wf_delete_loop name st W) as [[_ Heq] | (i & Hi & Mi & Hcase)]; cbv zeta in *; [rewrite Heq in H; injection H as <- _; contradiction|].
  destruct (delete_refuses (f_type (get_ent (d_files st) i))) eqn:Eref; [|rewrite Hcase in H; injection H as <- _; contradiction].
  destruct Hcase as [keep' Heq]. rewrite Heq in H. injection H as <- _. split; [reflexivity|]. exists i. auto.
Qed.

Lemma delete_raw_kept name st st' : wf st -> delete_file_raw name st = (0, st') -> fits name = true ->
  forall i, In i (d_root_files st') ->
    In i (d_root_files st) /\ get_ent (d_files st') i = get_ent (d_files st) i /\ matches (probe_of name) (d_files st) i = false.
Proof.
  intros W H F i Hi. destruct (delete_raw_spec _ _ _ W H) as (_ & Hyes & _). destruct (Hyes F) as (RF & _ & Same & _).
  rewrite RF in Hi. apply filter_In in Hi as [Hi Hm%negb_true_iff]. split; [exact Hi|]. split; [|exact Hm].
  apply Same; [apply (wf_in_range _ _ W Hi) | right; exact Hm].
Qed.

Lemma wf_sub st st' g : wf st -> d_root st' = d_root st -> zlen (d_files st') = zlen (d_files st) ->
  d_root_files st' = filter g (d_root_files st) ->
  (forall i, In i (d_root_files st') -> get_ent (d_files st') i = get_ent (d_files st) i) ->
  f_type (get_ent (d_files st') (d_root st)) = f_type (get_ent (d_files st) (d_root st)) -> wf st'.
Proof.
  intros W Gr L RF Same Troot.
  assert (Hin : forall i, In i (d_root_files st') -> In i (d_root_files st)) by (intros i Hi; rewrite RF in Hi; apply filter_In in Hi; tauto).
  constructor; rewrite ?Gr, ?L.
  - apply Forall_forall. intros i Hi. rewrite Same by exact Hi. exact (wf_name_of _ _ W (Hin i Hi)).
  - apply Forall_forall. intros i Hi. exact (wf_in_range _ _ W (Hin i Hi)).
  - apply Forall_forall. intros i Hi. rewrite Same by exact Hi. exact (wf_used_of _ _ W (Hin i Hi)).
  - rewrite (rkeys_ext (d_files st)) by exact Same. rewrite RF. apply NoDup_map_filter. exact (wf_uniq _ W).
  - intros Hi. exact (wf_root _ W (Hin _ Hi)).
  - rewrite Troot. exact (wf_root_used _ W).
Qed.

Lemma delete_raw_wf name st st' : wf st -> delete_file_raw name st = (0, st') -> wf st'.
Proof.
  intros W H. destruct (delete_raw_spec _ _ _ W H) as (Hno & Hyes & G1 & _).
  destruct (fits name) eqn:F; [|rewrite Hno by reflexivity; exact W]. destruct (Hyes eq_refl) as (RF & L & Same & _).
  apply (wf_sub st st' _ W G1 L RF); [intros i Hi; apply (delete_raw_kept _ _ _ W H F i Hi)|].
  rewrite Same; [reflexivity | apply (wf_root_used _ W) | left; exact (wf_root _ W)].
Qed.

(* after DeleteFile(name) no child of the root carries the name any more *)
Lemma delete_raw_none_left name st st' : wf st -> delete_file_raw name st = (0, st') -> fits name = true ->
  forall i, In i (d_root_files st') -> matches (probe_of name) (d_files st') i = false.
Proof. intros W H F i Hi. destruct (delete_raw_kept _ _ _ W H F i Hi) as (_ & He & Hm). unfold matches in *. rewrite He. exact Hm. Qed.

Definition same_but_size (a b : dent) : Prop :=
  f_runes a = f_runes b /\ f_nlen a = f_nlen b /\ f_type a = f_type b /\ f_color a = f_color b /\ f_left a = f_left b /\
  f_right a = f_right b /\ f_child a = f_child b /\ f_start a = f_start b.

Lemma add_stream_frame len st first st2 : 0 <= d_root st -> add_stream len st = Ok (first, st2) ->
  d_root_files st2 = d_root_files st /\ zlen (d_files st2) = zlen (d_files st) /\ same_geometry st st2 /\ d_changed st2 = d_changed st /\
  (forall j, 0 <= j -> j <> d_root st -> get_ent (d_files st2) j = get_ent (d_files st) j) /\
  same_but_size (get_ent (d_files st2) (d_root st)) (get_ent (d_files st) (d_root st)).
Proof.
  intros Hroot. unfold add_stream. destruct (add_is_short len (d_cutoff st)).
  - destruct (ent_in_range (d_files st) (d_root st)) eqn:Er; cbn [negb]; [|discriminate].
    destruct (add_stream_short (d_ss st) (d_mss st) len (d_sat st) (d_ssat st) (f_start (get_ent (d_files st) (d_root st)))
                (f_size (get_ent (d_files st) (d_root st)))) as [[[[f ssat'] sat'] size']| |]; cbn [bind]; try discriminate.
    intros H; inversion H; subst; clear H. simpl_st. apply in_range_iff in Er.
    split; [reflexivity|]. split; [apply zlen_set_ent|]. split; [unfold same_geometry; simpl_st; tauto|]. split; [reflexivity|]. split.
    + intros j Hj Hne. apply get_set_other; lia.
    + rewrite get_set_same by exact Er. unfold same_but_size. cbn. tauto.
  - destruct (add_stream_long (d_ss st) len (d_sat st)) as [[f sat']| |]; cbn [bind]; try discriminate.
    intros H; inversion H; subst; clear H. simpl_st.
    split; [reflexivity|]. split; [reflexivity|]. split; [unfold same_geometry; simpl_st; tauto|]. split; [reflexivity|]. split; [reflexivity|].
    unfold same_but_size. tauto.
Qed.

(* addStream changes the allocation tables and, for a short stream, the size field of the root entry: the directory is as it was *)
Lemma add_stream_wf len st first st2 : wf st -> add_stream len st = Ok (first, st2) ->
  wf st2 /\ d_root_files st2 = d_root_files st /\ same_geometry st st2 /\
  (forall i, In i (d_root_files st) -> get_ent (d_files st2) i = get_ent (d_files st) i).
Proof.
  intros W H. destruct (wf_root_used _ W) as [Rr _].
  destruct (add_stream_frame _ _ _ _ (proj1 Rr) H) as (RF & L & G & _ & Same & (_ & _ & Ht & _)).
  assert (Hsame : forall i, In i (d_root_files st) -> get_ent (d_files st2) i = get_ent (d_files st) i).
  { intros i Hi. apply Same; [apply (wf_in_range _ _ W Hi) | intros ->; exact (wf_root _ W Hi)]. }
  split; [|auto]. apply (wf_sub st st2 (fun _ => true) W (proj1 G) L); [|rewrite RF; exact Hsame | exact Ht].
  rewrite RF. symmetry. apply filter_all. reflexivity.
Qed.

(* newDirEnt and the probe of DeleteFile are built the same way: same NameLength, same code units *)
Lemma new_dirent_spec name len first de : new_dirent name len first = Ok de ->
  fits name = true /\ ekey de = ekey (probe_of name) /\ f_type de = dir_stream /\ f_size de = len /\ f_start de = first /\
  f_runes de = pad_runes (name_units name true) /\ f_nlen de = 2 * zlen (name_units name true).
Proof.
  unfold new_dirent, fits, probe_of. unfold newde_terminated, delete_probe_terminated, newde_copied, delete_probe_copied.
  unfold newde_too_long, delete_name_too_long. change name_runes with 32.
  destruct (zlen (name_units name true) >? 32) eqn:E; [discriminate|]. intros H; inversion H; subst; clear H. cbn [negb].
  unfold ekey. cbn [f_nlen f_runes f_type f_size f_start]. unfold newde_namelen, delete_probe_namelen, newde_type, dir_stream. repeat split; reflexivity.
Qed.

Lemma first_free_spec fs : forall k, 0 <= k -> let idx := first_free k fs in
  (idx = -1 /\ Forall (fun e => append_slot_free (f_type e) = false) fs) \/
  (k <= idx < k + zlen fs /\ append_slot_free (f_type (nth (Z.to_nat (idx - k)) fs blank)) = true).
Proof.
  induction fs as [|e r IH]; intros k Hk; cbn [first_free].
  - left. split; [reflexivity | constructor].
  - rewrite zlen_cons. pose proof (zlen_nonneg r). destruct (append_slot_free (f_type e)) eqn:E.
    + right. split; [lia|]. rewrite Z.sub_diag. exact E.
    + destruct (IH (k + 1) ltac:(lia)) as [[H1 H2]|[H1 H2]].
      * left. split; [exact H1 | constructor; assumption].
      * right. split; [lia|].
        replace (Z.to_nat (first_free (k + 1) r - k)) with (S (Z.to_nat (first_free (k + 1) r - (k + 1)))) by lia. exact H2.
Qed.

Lemma get_ent_app_l fs tl j : 0 <= j < zlen fs -> get_ent (fs ++ tl) j = get_ent fs j.
Proof. intros H. unfold get_ent. apply app_nth1. unfold zlen in H. lia. Qed.
Lemma get_ent_app_at fs e tl : get_ent (fs ++ e :: tl) (zlen fs) = e.
Proof. unfold get_ent, zlen. rewrite Nat2Z.id. rewrite app_nth2 by lia. rewrite Nat.sub_diag. reflexivity. Qed.

(* appendDirEnt: the entry lands in a slot that was free (or in a new one); every other entry stays *)
Lemma append_dirent_spec ss de fs idx fs' : append_dirent ss de fs = Ok (idx, fs') ->
  0 <= idx < zlen fs' /\ get_ent fs' idx = de /\ zlen fs <= zlen fs' /\
  (forall j, 0 <= j < zlen fs -> j <> idx -> get_ent fs' j = get_ent fs j) /\
  (idx < zlen fs -> append_slot_free (f_type (get_ent fs idx)) = true).
Proof.
  unfold append_dirent. pose proof (first_free_spec fs 0 ltac:(lia)) as F. cbv zeta in F.
  unfold append_extends. destruct (first_free 0 fs <? 0) eqn:E.
  - destruct (append_grow ss <=? 0); [discriminate|]. intros H; inversion H; subst; clear H.
    rewrite zlen_app, zlen_cons. pose proof (zlen_nonneg fs). pose proof (zlen_nonneg (repeat blank (Z.to_nat (append_grow ss - 1)))).
    split; [lia|]. split; [apply get_ent_app_at|]. split; [lia|]. split; [|lia].
    intros j Hj _. apply get_ent_app_l. exact Hj.
  - intros H; inversion H; subst; clear H. destruct F as [[F1 _]|[F1 F2]]; [lia|]. rewrite Z.sub_0_r in F2.
    rewrite zlen_set_ent. split; [lia|]. split; [apply get_set_same; lia|]. split; [lia|]. split.
    + intros j Hj Hne. apply get_set_other; lia.
    + intros _. exact F2.
Qed.

Lemma NoDup_snoc {X} (l : list X) x : NoDup l -> ~ In x l -> NoDup (l ++ [x]).
Proof.
  intros Hl Hx. apply NoDup_app_iff. split; [exact Hl|]. split; [constructor; [intros [] | constructor]|].
  intros y Hy [<-|[]]. contradiction.
Qed.

Lemma pad_runes_length l : length (pad_runes l) = 32%nat.
Proof. unfold pad_runes. change (Z.to_nat name_runes) with 32%nat. rewrite firstn_length, app_length, repeat_length. lia. Qed.
Lemma new_name_wf name (e : dent) : fits name = true -> f_runes e = pad_runes (name_units name true) ->
  f_nlen e = 2 * zlen (name_units name true) -> wf_name e.
Proof.
  unfold fits, delete_probe_terminated, delete_name_too_long. change name_runes with 32. intros F R N. unfold wf_name. rewrite R, N.
  assert (1 <= zlen (name_units name true)).
  { unfold name_units. rewrite zlen_app. pose proof (zlen_nonneg (utf16_encode name)). unfold zlen at 2. cbn. lia. }
  split; [lia|]. split; [|apply pad_runes_length]. rewrite Z.mul_comm. apply Z.mod_mul. lia.
Qed.

Lemma append_wf st de idx fs ch : wf st -> append_dirent (d_ss st) de (d_files st) = Ok (idx, fs) ->
  wf_name de -> append_slot_free (f_type de) = false -> ~ In (ekey de) (rkeys (d_files st) (d_root_files st)) ->
  ~ In idx (d_root_files st) /\ idx <> d_root st /\ 0 <= idx < zlen fs /\ get_ent fs idx = de /\
  (forall i, In i (d_root_files st) -> get_ent fs i = get_ent (d_files st) i) /\
  wf (with_changed (with_dir st fs (d_root_files st ++ [idx]) (d_sat st) (d_ssat st)) ch).
Proof.
  intros W H Wde Ude Kde. destruct (append_dirent_spec _ _ _ _ _ H) as (Ri & Gi & L & Same & Free). destruct (wf_root_used _ W) as [Rr Ru].
  assert (Hfresh : forall i, 0 <= i < zlen (d_files st) -> append_slot_free (f_type (get_ent (d_files st) i)) = false -> i <> idx).
  { intros i Hi Hu ->. rewrite Free in Hu by lia. discriminate. }
  assert (Hnin : ~ In idx (d_root_files st)) by (intros Hi; exact (Hfresh idx (wf_in_range _ _ W Hi) (wf_used_of _ _ W Hi) eq_refl)).
  assert (Hsame : forall i, In i (d_root_files st) -> get_ent fs i = get_ent (d_files st) i).
  { intros i Hi. apply Same; [apply (wf_in_range _ _ W Hi) | intros ->; contradiction]. }
  split; [exact Hnin|]. split; [intros E; exact (Hfresh _ Rr Ru (eq_sym E))|]. split; [exact Ri|]. split; [exact Gi|]. split; [exact Hsame|].
  constructor; simpl_st.
  - apply Forall_app. split; [|constructor; [rewrite Gi; exact Wde | constructor]].
    apply Forall_forall. intros i Hi. rewrite Hsame by exact Hi. exact (wf_name_of _ _ W Hi).
  - apply Forall_app. split; [|constructor; [exact Ri | constructor]]. apply Forall_forall. intros i Hi. pose proof (wf_in_range _ _ W Hi). lia.
  - apply Forall_app. split; [|constructor; [rewrite Gi; exact Ude | constructor]].
    apply Forall_forall. intros i Hi. rewrite Hsame by exact Hi. exact (wf_used_of _ _ W Hi).
  - unfold rkeys. rewrite map_app. cbn [map]. rewrite Gi. fold (rkeys fs (d_root_files st)). rewrite (rkeys_ext (d_files st)) by exact Hsame.
    apply NoDup_snoc; [exact (wf_uniq _ W) | exact Kde].
  - intros [Hin|[Hin|[]]]%in_app_or; [exact (wf_root _ W Hin) | exact (Hfresh _ Rr Ru (eq_sym Hin))].
  - split; [lia|]. rewrite Same; [exact Ru | exact Rr | exact (Hfresh _ Rr Ru)].
Qed.

(* AddFile(name, contents): every child of the root that carries the name (under lessDirEnt) is gone, every other child is
   untouched, one new stream entry carrying the name is appended; the directory state stays well formed (names unique) *)
Lemma add_file_spec name len st st' : wf st -> add_file name len st = Ok st' ->
  exists idx,
    fits name = true /\
    d_root_files st' = kept_of name st ++ [idx] /\ ~ In idx (kept_of name st) /\ idx <> d_root st /\ 0 <= idx < zlen (d_files st') /\
    ekey (get_ent (d_files st') idx) = ekey (probe_of name) /\ f_type (get_ent (d_files st') idx) = dir_stream /\
    f_size (get_ent (d_files st') idx) = len /\
    (forall i, In i (kept_of name st) -> get_ent (d_files st') i = get_ent (d_files st) i) /\
    same_geometry st st' /\ d_changed st' = true /\ wf st'.
Proof.
  intros W. unfold add_file. destruct (delete_file_raw name st) as [code st1] eqn:ED.
  unfold addfile_delete_err_returned. cbn [orb]. rewrite andb_true_r.
  destruct (code =? 0) eqn:Ec; cbn [negb].
  2:{ unfold as_result. rewrite Ec. destruct (code <? 0); discriminate. }
  apply Z.eqb_eq in Ec. subst code.
  destruct (add_stream len st1) as [[first st2]| |] eqn:ES; cbn [bind]; try discriminate.
  destruct (new_dirent name len first) as [de| |] eqn:EN; cbn [bind]; try discriminate.
  destruct (append_dirent (d_ss st2) de (d_files st2)) as [[idx fs]| |] eqn:EA; cbn [bind]; try discriminate.
  intros [= <-]. unfold addfile_appends_root, addfile_marks_changed. rewrite orb_true_r.
  destruct (new_dirent_spec _ _ _ _ EN) as (F & Kde & Tde & Sde & _ & Rde & Nde).
  (* DeleteFile, addStream and appendDirEnt each leave a well-formed directory *)
  pose proof (delete_raw_wf _ _ _ W ED) as W1. pose proof (delete_raw_kept _ _ _ W ED F) as Keep1.
  destruct (delete_raw_spec _ _ _ W ED) as (_ & Hyes & G1). destruct (Hyes F) as (RF1 & _). clear Hyes.
  destruct (add_stream_wf _ _ _ _ W1 ES) as (W2 & RF2 & G2 & Keep2).
  assert (Hnew : ~ In (ekey de) (rkeys (d_files st2) (d_root_files st2))).
  { rewrite RF2, (rkeys_ext (d_files st1)) by exact Keep2. intros (i & Hk & Hi)%in_map_iff. rewrite Kde in Hk. apply ent_same_iff in Hk.
    pose proof (delete_raw_none_left _ _ _ W ED F i Hi) as Hm. unfold matches in Hm. congruence. }
  destruct (append_wf _ _ _ _ true W2 EA (new_name_wf name de F Rde Nde) ltac:(rewrite Tde; reflexivity) Hnew)
    as (Nin & Nroot & Ri & Gi & Keep3 & W3).
  pose proof (same_geometry_trans _ _ _ G1 G2) as G. rewrite RF2, RF1 in *. rewrite (proj1 G) in Nroot.
  exists idx. simpl_st. rewrite Gi.
  split; [exact F|]. split; [reflexivity|]. split; [exact Nin|]. split; [exact Nroot|]. split; [exact Ri|].
  split; [exact Kde|]. split; [exact Tde|]. split; [exact Sde|]. split; [|split; [exact G|]; split; [reflexivity | exact W3]].
  intros i Hi. rewrite Keep3, Keep2 by exact Hi. apply Keep1, Hi.
Qed.

Lemma delete_file_ok name st st' : delete_file name st = Ok st' -> delete_file_raw name st = (0, st').
Proof.
  unfold delete_file, as_result. destruct (delete_file_raw name st) as [code s]. destruct (code =? 0) eqn:E.
  - intros H; inversion H; subst. apply Z.eqb_eq in E. subst. reflexivity.
  - destruct (code <? 0); discriminate.
Qed.
Lemma as_result_err code st e : as_result (code, st) = Err e -> code = e /\ code <> 0.
Proof. unfold as_result. destruct (Z.eqb_spec code 0); [discriminate|]. destruct (code <? 0); [discriminate|]. intros [= <-]. auto. Qed.
Lemma delete_file_wf name st st' : wf st -> delete_file name st = Ok st' -> wf st'.
Proof. intros W H. eapply delete_raw_wf; [exact W | apply delete_file_ok; exact H]. Qed.
Lemma add_file_wf name len st st' : wf st -> add_file name len st = Ok st' -> wf st'.
Proof. intros W H. destruct (add_file_spec _ _ _ _ W H) as (idx & Hx). tauto. Qed.

Lemma run_step_wf pk ex s st st' : wf st -> run_step pk ex s st = Ok st' -> wf st'.
Proof.
  destruct s as [[op nm] pl]. unfold run_step. destruct (op =? 0); intros W H; [eapply add_file_wf | eapply delete_file_wf]; eassumption.
Qed.
Lemma run_plan_wf pk ex p : forall st st', wf st -> run_plan pk ex p st = Ok st' -> wf st'.
Proof.
  induction p as [|s p IH]; intros st st' W H; cbn [run_plan] in H.
  - inversion H; subst. exact W.
  - destruct (run_step pk ex s st) as [s1| |] eqn:E; cbn [bind] in H; try discriminate.
    eapply IH; [eapply run_step_wf; eassumption | exact H].
Qed.
Lemma run_op_wf o st st' : wf st -> run_op o st = Ok st' -> wf st'.
Proof.
  destruct o as [n len|n|pk ex]; cbn [run_op]; intros W H.
  - eapply add_file_wf; eassumption.
  - eapply delete_file_wf; eassumption.
  - unfold insert_sig in H. destruct (precheck st); cbn [bind] in H; try discriminate. unfold insert_sig_body in H. eapply run_plan_wf; eassumption.
Qed.

Definition p_sig : dent := probe_of msi_sig_name.
Definition p_ex : dent := probe_of msi_sigex_name.
(* the children of the root that carry neither of the two signature names *)
Definition others (st : dstate) : list Z :=
  filter (fun i => negb (matches p_ex (d_files st) i) && negb (matches p_sig (d_files st) i)) (d_root_files st).

Lemma sig_keys_differ : ekey p_ex <> ekey p_sig.
Proof. intros H. apply (f_equal (@hd Z 0)) in H. vm_compute in H. discriminate. Qed.
Lemma sig_names_fit : fits msi_sig_name = true /\ fits msi_sigex_name = true.
Proof. split; vm_compute; reflexivity. Qed.

(* the plan srcgen reads: the extended signature is added or, when there is none, deleted; then the signature is added *)
Definition sigex_step (ex : Z) (st : dstate) : result dstate :=
  if insert_has_exsig ex then add_file msi_sigex_name ex st else delete_file msi_sigex_name st.
Lemma insert_sig_body_eq pk ex st : insert_sig_body pk ex st = (s1 <- sigex_step ex st ;; add_file msi_sig_name pk s1).
Proof.
  assert (Hret : forall r : result dstate, (x <- r ;; Ok x) = r) by (intros []; reflexivity).
  unfold insert_sig_body, insert_plan, sigex_step, insert_plan_then, insert_plan_else, insert_plan_tail.
  destruct (insert_has_exsig ex); cbn [app run_plan run_step Z.eqb plan_name];
    [destruct (add_file msi_sigex_name ex st) | destruct (delete_file msi_sigex_name st)]; cbn [bind]; reflexivity || apply Hret.
Qed.

Lemma sigex_step_spec ex st s1 : wf st -> sigex_step ex st = Ok s1 ->
  wf s1 /\ same_geometry st s1 /\
  (forall i, In i (kept_of msi_sigex_name st) -> get_ent (d_files s1) i = get_ent (d_files st) i) /\
  exists extra, d_root_files s1 = kept_of msi_sigex_name st ++ extra /\
    Forall (fun j => ekey (get_ent (d_files s1) j) = ekey p_ex /\ f_type (get_ent (d_files s1) j) = dir_stream) extra /\
    if insert_has_exsig ex then exists iex, extra = [iex] /\ f_size (get_ent (d_files s1) iex) = ex else extra = [].
Proof.
  intros W. unfold sigex_step. destruct (insert_has_exsig ex); intros H.
  - destruct (add_file_spec _ _ _ _ W H) as (iex & _ & RF & _ & _ & _ & K & T & S & Keep & G & _ & W1).
    split; [exact W1|]. split; [exact G|]. split; [exact Keep|]. exists [iex]. split; [exact RF|]. split; [repeat constructor; assumption|].
    exists iex. split; [reflexivity | exact S].
  - apply delete_file_ok in H. destruct (delete_raw_spec _ _ _ W H) as (_ & Hyes & G). destruct (Hyes (proj2 sig_names_fit)) as (RF & _).
    split; [exact (delete_raw_wf _ _ _ W H)|]. split; [exact G|]. split.
    + intros i Hi. rewrite <- RF in Hi. apply (delete_raw_kept _ _ _ W H (proj2 sig_names_fit) i Hi).
    + exists []. rewrite app_nil_r. split; [exact RF|]. split; [constructor | reflexivity].
Qed.


(* InsertMSISignature = pre-check, then the plan.  A refusal of the pre-check happens before any AddFile / DeleteFile is evaluated: the
   model returns the error without having touched the state (the state is not even threaded through the pre-check) *)
Lemma insert_sig_ok pk ex st st' : insert_sig pk ex st = Ok st' -> precheck st = Ok tt /\ insert_sig_body pk ex st = Ok st'.
Proof.
  unfold insert_sig. destruct (precheck st) as [[]| |]; cbn [bind]; try discriminate. intros H. split; [reflexivity | exact H].
Qed.
Lemma insert_sig_spec pk ex st st' : wf st -> insert_sig pk ex st = Ok st' ->
  wf st' /\ d_changed st' = true /\ same_geometry st st' /\
  (forall i, In i (others st) -> get_ent (d_files st') i = get_ent (d_files st) i) /\
  exists isig,
    ekey (get_ent (d_files st') isig) = ekey p_sig /\ f_type (get_ent (d_files st') isig) = dir_stream /\ f_size (get_ent (d_files st') isig) = pk /\
    if insert_has_exsig ex then
      exists iex, d_root_files st' = others st ++ [iex; isig] /\
        ekey (get_ent (d_files st') iex) = ekey p_ex /\ f_type (get_ent (d_files st') iex) = dir_stream /\ f_size (get_ent (d_files st') iex) = ex
    else d_root_files st' = others st ++ [isig].
Proof.
  intros W H. apply insert_sig_ok in H as [_ H]. rewrite insert_sig_body_eq in H. destruct (sigex_step ex st) as [s1| |] eqn:E1; cbn [bind] in H; try discriminate.
  destruct (sigex_step_spec _ _ _ W E1) as (W1 & G1 & Keep1 & extra & RF1 & Hextra & Hex).
  destruct (add_file_spec _ _ _ _ W1 H) as (isig & _ & RF2 & _ & _ & _ & K2 & T2 & S2 & Keep2 & G2 & C2 & W2). fold p_sig in K2.
  (* what the second AddFile keeps: the former children that carry neither name, and the new Ex stream *)
  assert (Hk : kept_of msi_sig_name s1 = others st ++ extra).
  { unfold kept_of at 1. rewrite RF1, filter_app. fold p_sig. f_equal.
    - rewrite (filter_ext_in _ (fun i => negb (matches p_sig (d_files st) i))).
      + unfold kept_of, others. apply filter_filter.
      + intros i Hi. unfold matches. rewrite Keep1 by exact Hi. reflexivity.
    - apply filter_all. intros j Hj. rewrite Forall_forall in Hextra. destruct (Hextra j Hj) as [Kj _].
      apply negb_true_iff, not_true_is_false. intros Hs%ent_same_iff. rewrite Kj in Hs. exact (sig_keys_differ Hs). }
  rewrite Hk in RF2, Keep2.
  assert (Hsub : forall i, In i (others st) -> In i (kept_of msi_sigex_name st)).
  { intros i [Hi [Hm _]%andb_true_iff]%filter_In. apply filter_In. split; [exact Hi | exact Hm]. }
  split; [exact W2|]. split; [exact C2|]. split; [exact (same_geometry_trans _ _ _ G1 G2)|]. split.
  { intros i Hi. rewrite Keep2 by (apply in_or_app; left; exact Hi). apply Keep1, Hsub, Hi. }
  exists isig. split; [exact K2|]. split; [exact T2|]. split; [exact S2|].
  destruct (insert_has_exsig ex).
  - destruct Hex as (iex & -> & S1). inversion Hextra as [|? ? [K1 T1] _]; subst.
    exists iex. split; [rewrite RF2, <- app_assoc; reflexivity|].
    rewrite Keep2 by (apply in_or_app; right; left; reflexivity). auto.
  - rewrite Hex, app_nil_r in RF2. exact RF2.
Qed.

Lemma idx_less_trans fs i j k : idx_less fs i j = true -> idx_less fs j k = true -> idx_less fs i k = true.
Proof. unfold idx_less. apply ent_less_trans. Qed.

Lemma nodup_keys_pairwise fs l : NoDup (rkeys fs l) -> pairwise_cmp Z (idx_less fs) l.
Proof.
  induction l as [|a r IH]; cbn; intros H; [exact I|]. apply NoDup_cons_iff in H as [Hn Hd]. split; [|apply IH; exact Hd].
  apply Forall_forall. intros y Hy. unfold idx_less. apply ent_less_cmp. intros E. apply Hn. unfold rkeys. apply in_map_iff. exists y. split; [symmetry; exact E | exact Hy].
Qed.
Lemma rkeys_rev fs l : rkeys fs (rev l) = rev (rkeys fs l).
Proof. unfold rkeys. apply map_rev. Qed.

(* in-order sequence of a search tree *)
Fixpoint sorted_by {X} (lt : X -> X -> bool) (l : list X) : Prop :=
  match l with [] => True | x :: r => Forall (fun y => lt x y = true) r /\ sorted_by lt r end.
Lemma sorted_by_app {X} (lt : X -> X -> bool) a b :
  sorted_by lt a -> sorted_by lt b -> (forall x y, In x a -> In y b -> lt x y = true) -> sorted_by lt (a ++ b).
Proof.
  induction a as [|x a IH]; cbn; intros Ha Hb H; [exact Hb|]. destruct Ha as [Ha1 Ha2]. split.
  - apply Forall_app. split; [exact Ha1|]. apply Forall_forall. intros y Hy. apply H; [left; reflexivity | exact Hy].
  - apply IH; [exact Ha2 | exact Hb|]. intros u v Hu Hv. apply H; [right; exact Hu | exact Hv].
Qed.
Lemma bst_sorted {X} (lt : X -> X -> bool) (Htr : forall x y z, lt x y = true -> lt y z = true -> lt x z = true) t :
  bst X lt t -> sorted_by lt (elements X t).
Proof.
  induction t as [|c l IHl x r IHr]; cbn; [tauto|]. intros (Hl & Hr & Bl & Br).
  apply (proj1 (all_elements X lt _ _)) in Hl. apply (proj1 (all_elements X lt _ _)) in Hr. rewrite Forall_forall in Hl, Hr.
  apply sorted_by_app; [apply IHl; exact Bl | cbn; split; [apply Forall_forall; exact Hr | apply IHr; exact Br] |].
  intros u v Hu [<-|Hv]; [apply Hl; exact Hu|]. eapply Htr; [apply Hl; exact Hu | apply Hr; exact Hv].
Qed.

(* the tree rebuildTree builds from a well-formed state: a search tree under lessDirEnt, a valid red-black tree, holding exactly
   the root's children, whose in-order sequence is strictly increasing (so no two nodes carry the same key) *)
Lemma rebuild_tree_valid st : wf st ->
  let t := rebuild_tree (d_files st) (d_root_files st) in
  bst Z (idx_less (d_files st)) t /\ rb_valid Z t /\ Permutation (elements Z t) (d_root_files st) /\
  sorted_by (idx_less (d_files st)) (elements Z t).
Proof.
  intros W t. unfold t, rebuild_tree.
  assert (Hp : pairwise_cmp Z (idx_less (d_files st)) (rev (d_root_files st))).
  { apply nodup_keys_pairwise. rewrite rkeys_rev. apply NoDup_rev. exact (wf_uniq _ W). }
  destruct (insert_all_sound Z (idx_less (d_files st)) (idx_less_trans (d_files st)) rb_new_node_red rb_root_blackened _ Hp) as [B P].
  split; [exact B|]. split; [apply rb_as_coded_valid|]. split; [exact P|].
  apply bst_sorted; [apply idx_less_trans | exact B].
Qed.
Lemma sorted_no_equal_keys fs l : sorted_by (idx_less fs) l -> NoDup (rkeys fs l).
Proof.
  induction l as [|x r IH]; cbn; intros H; [constructor|]. destruct H as [H1 H2]. constructor; [|apply IH; exact H2].
  intros Hin. unfold rkeys in Hin. apply in_map_iff in Hin as (y & Hk & Hy). rewrite Forall_forall in H1. specialize (H1 y Hy).
  unfold idx_less in H1. rewrite ent_less_key, Hk, lex_lt_irrefl in H1. discriminate.
Qed.

Definition root_id (t : tree Z) : Z := match tree_root t with Some j => j | None => -1 end.
Fixpoint height {X} (t : tree X) : nat := match t with E => O | T _ l _ r => S (Nat.max (height l) (height r)) end.

Lemma write_links_frame t : forall fs, Forall (fun i => 0 <= i < zlen fs) (elements Z t) ->
  zlen (write_links t fs) = zlen fs /\ forall j, 0 <= j -> ~ In j (elements Z t) -> get_ent (write_links t fs) j = get_ent fs j.
Proof.
  induction t as [|c l IHl i r IHr]; intros fs Hr; cbn [write_links elements] in *; [split; reflexivity + (intros; reflexivity)|].
  apply Forall_app in Hr as [Hl [Hi Hr']%Forall_cons_iff].
  set (fs1 := set_ent fs i (link_node c l r (get_ent fs i))). assert (L1 : zlen fs1 = zlen fs) by apply zlen_set_ent.
  destruct (IHl fs1) as [L2 F2]; [rewrite L1; exact Hl|]. destruct (IHr (write_links l fs1)) as [L3 F3]; [rewrite L2, L1; exact Hr'|].
  split; [rewrite L3, L2; exact L1|].
  intros j Hj Hn. rewrite F3, F2; [apply get_set_other; [lia | lia |] | exact Hj | | exact Hj |].
  - intros ->. apply Hn. apply in_or_app. right. left. reflexivity.
  - intros Hin. apply Hn. apply in_or_app. left. exact Hin.
  - intros Hin. apply Hn. apply in_or_app. right. right. exact Hin.
Qed.

(* the colour and the two links of a node as link_node leaves them (the field numbers and the "no child" value are srcgen's) *)
Definition node_fields (c : color) (l r : tree Z) (e : dent) : Prop :=
  f_left e = root_id l /\ f_right e = root_id r /\ (f_color e =? 0) = (match c with Red => true | Black => false end).
Lemma link_node_fields c l r e : node_fields c l r (link_node c l r e).
Proof.
  unfold node_fields, link_node, set_link, set_color, root_id, rebuild_child0_field, rebuild_child1_field, rebuild_child0_none,
    rebuild_child1_none, rebuild_color_if_red, rebuild_color_if_black. cbn. destruct c; repeat split; reflexivity.
Qed.

(* the entries of fs describe the tree t: every node is an entry that carries the node's colour and the ids of its children *)
Fixpoint linked (fs : list dent) (t : tree Z) : Prop :=
  match t with
  | E => True
  | T c l i r => 0 <= i < zlen fs /\ node_fields c l r (get_ent fs i) /\ linked fs l /\ linked fs r
  end.
Lemma linked_read t : forall fs fuel, linked fs t -> (height t < fuel)%nat -> read_tree fuel fs (root_id t) = Some t.
Proof.
  induction t as [|c l IHl i r IHr]; intros fs fuel H Hf; [destruct fuel; reflexivity|].
  destruct H as (Hi & (Fl & Fr & Fc) & Ll & Lr). cbn [height] in Hf. destruct fuel as [|k]; [lia|].
  cbn [read_tree root_id tree_root]. replace (i =? -1) with false by lia. rewrite (proj2 (in_range_iff fs i) Hi). cbn [negb].
  rewrite Fl, Fr, Fc, (IHl fs k Ll), (IHr fs k Lr) by lia. destruct c; reflexivity.
Qed.
Lemma linked_ext fs fs' t : zlen fs' = zlen fs -> (forall j, In j (elements Z t) -> get_ent fs' j = get_ent fs j) ->
  linked fs t -> linked fs' t.
Proof.
  intros L. induction t as [|c l IHl i r IHr]; cbn [linked elements]; [trivial|]. intros Hs (Hi & F & Ll & Lr).
  rewrite L, (Hs i) by (apply in_or_app; right; left; reflexivity). split; [exact Hi|]. split; [exact F|].
  split; [apply IHl | apply IHr]; try assumption; intros j Hj; apply Hs, in_or_app; [left | right; right]; exact Hj.
Qed.

Lemma write_links_linked t : forall fs, NoDup (elements Z t) -> Forall (fun i => 0 <= i < zlen fs) (elements Z t) ->
  linked (write_links t fs) t.
Proof.
  induction t as [|c l IHl i r IHr]; intros fs Hnd Hr; [exact I|]. cbn [elements] in Hnd, Hr.
  apply Forall_app in Hr as [Hrl [Hi Hrr']%Forall_cons_iff].
  apply NoDup_app_iff in Hnd as (Hnd_l & [Hni_r Hnd_r]%NoDup_cons_iff & Hdis).
  cbn [write_links]. set (fs1 := set_ent fs i (link_node c l r (get_ent fs i))). set (fs2 := write_links l fs1).
  assert (L1 : zlen fs1 = zlen fs) by apply zlen_set_ent. rewrite <- L1 in Hrl.
  destruct (write_links_frame l fs1 Hrl) as [L2 F2]. fold fs2 in L2, F2. rewrite <- L1, <- L2 in Hrr'.
  destruct (write_links_frame r fs2 Hrr') as [L3 F3].
  cbn [linked]. rewrite L3, L2, L1. split; [exact Hi|]. split; [|split].
  - (* the node's entry is written first and stays *)
    rewrite F3, F2 by (lia || exact Hni_r || (intros Hin; apply (Hdis i Hin); left; reflexivity)).
    unfold fs1. rewrite get_set_same by exact Hi. apply link_node_fields.
  - (* writing the right subtree leaves the entries of the left one as they are *)
    apply (linked_ext fs2); [exact L3 | | apply IHl; assumption].
    intros j Hj. rewrite Forall_forall in Hrl. apply F3; [apply Hrl, Hj | intros Hin; apply (Hdis j Hj); right; exact Hin].
  - apply IHr; assumption.
Qed.

Lemma height_le_size {X} (t : tree X) : (height t <= length (elements X t))%nat.
Proof. induction t as [|c l IHl x r IHr]; cbn; [lia|]. rewrite app_length. cbn. lia. Qed.

(* the links and the colour are not part of the name: the code units an entry carries stay *)
Lemma units_set_ent fs i e' : 0 <= i < zlen fs -> ent_units e' = ent_units (get_ent fs i) ->
  forall j, ent_units (get_ent (set_ent fs i e') j) = ent_units (get_ent fs j).
Proof.
  intros Hi He j. unfold get_ent, set_ent in *. destruct (Nat.eq_dec (Z.to_nat i) (Z.to_nat j)) as [E|E].
  - rewrite <- E, set_nat_same by (unfold zlen in Hi; lia). exact He.
  - rewrite set_nat_other by exact E. reflexivity.
Qed.
Lemma write_links_units t : forall fs, Forall (fun i => 0 <= i < zlen fs) (elements Z t) ->
  forall j, ent_units (get_ent (write_links t fs) j) = ent_units (get_ent fs j).
Proof.
  induction t as [|c l IHl i r IHr]; intros fs Hr j; cbn [write_links elements] in *; [reflexivity|].
  apply Forall_app in Hr as [Hl [Hi Hr']%Forall_cons_iff].
  set (fs1 := set_ent fs i (link_node c l r (get_ent fs i))).
  assert (L1 : zlen fs1 = zlen fs) by apply zlen_set_ent. rewrite <- L1 in Hl.
  destruct (write_links_frame l fs1 Hl) as [L2 _].
  rewrite IHr by (rewrite L2, L1; exact Hr'). rewrite IHl by exact Hl. apply units_set_ent; [exact Hi | reflexivity].
Qed.

Lemma sorted_strictly_increasing fs l : Forall (fun i => wf_name (get_ent fs i)) l -> sorted_by (idx_less fs) l ->
  strictly_increasing (map (fun i => ent_units (get_ent fs i)) l) = true.
Proof.
  induction l as [|a r IH]; intros Hw Hs; [reflexivity|]. destruct r as [|b r']; [reflexivity|].
  cbn [sorted_by] in Hs. destruct Hs as [H1 H2]. apply Forall_cons_iff in Hw as [Wa Wr]. pose proof (Forall_inv Wr) as Wb.
  change (spec_less (ent_units (get_ent fs a)) (ent_units (get_ent fs b)) && strictly_increasing (map (fun i => ent_units (get_ent fs i)) (b :: r')) = true).
  rewrite (IH Wr H2), andb_true_r. rewrite <- ent_less_is_spec_less by assumption. inversion H1; subst. assumption.
Qed.

(* After any operation that changed the document, the directory entries Close leaves behind (colour, left, right of every child of
   the root and the root's child id) read back as a valid red-black tree whose in-order names are strictly increasing in the MS-CFB
   order and which holds exactly the root's children *)
Lemma close_dir_meets_spec st : wf st -> d_changed st = true -> d_root_files st <> [] ->
  spec_tree_ok (d_files (close_dir st)) (f_child (get_ent (d_files (close_dir st)) (d_root st))) (d_root_files st) = true.
Proof.
  intros W Hc Hne. unfold close_dir, close_skips. rewrite Hc. cbn [negb]. unfold rebuild.
  unfold wds_rebuilds_root, rebuild_by_less_dirent, rebuild_inserts_entries, rebuild_sets_storage_root. cbn [andb negb].
  destruct (rebuild_tree_valid st W) as (B & RB & P & Srt). set (t := rebuild_tree (d_files st) (d_root_files st)) in *.
  pose proof (NoDup_map_inv _ _ (wf_uniq _ W)) as Hnd_rf.
  assert (Hnd : NoDup (elements Z t)) by (eapply Permutation_NoDup; [apply Permutation_sym; exact P | exact Hnd_rf]).
  assert (Hin : forall i, In i (elements Z t) -> In i (d_root_files st)) by (intros i Hi; eapply Permutation_in; [exact P | exact Hi]).
  assert (Hr : Forall (fun i => 0 <= i < zlen (d_files st)) (elements Z t)) by (apply Forall_forall; intros i Hi; apply (wf_in_range _ _ W), Hin, Hi).
  destruct t as [|c l i0 r] eqn:Et.
  { exfalso. apply Hne. apply Permutation_nil. cbn in P. exact P. }
  rewrite <- Et in *. assert (Er : tree_root t = Some i0) by (rewrite Et; reflexivity). rewrite Er. simpl_st.
  set (fs := write_links t (d_files st)).
  destruct (write_links_frame t (d_files st) Hr) as [L F]. fold fs in L, F.
  destruct (wf_root_used _ W) as [Rr _].
  assert (Hroot_nin : ~ In (d_root st) (elements Z t)) by (intros Hi; exact (wf_root _ W (Hin _ Hi))).
  set (fs' := set_ent fs (d_root st) (set_child (get_ent fs (d_root st)) i0)).
  assert (L' : zlen fs' = zlen (d_files st)) by (unfold fs'; rewrite zlen_set_ent; exact L).
  assert (Gc : f_child (get_ent fs' (d_root st)) = i0) by (unfold fs'; rewrite get_set_same by lia; reflexivity).
  rewrite Gc. unfold spec_tree_ok.
  assert (Hread : read_tree (S (length fs')) fs' i0 = Some t).
  { replace i0 with (root_id t) by (unfold root_id; rewrite Er; reflexivity). apply linked_read.
    - (* the child id goes into the root storage's entry, which is not a node of the tree *)
      apply (linked_ext fs); [apply zlen_set_ent | | apply write_links_linked; assumption].
      intros j Hj. rewrite Forall_forall in Hr. apply get_set_other; [lia | apply Hr, Hj | intros E; apply Hroot_nin; rewrite E; exact Hj].
    - pose proof (height_le_size t). pose proof (nodup_range_length _ (length (d_files st)) Hnd Hr). unfold zlen in L'. lia. }
  rewrite Hread.
  assert (Hunits : forall j, ent_units (get_ent fs' j) = ent_units (get_ent (d_files st) j)).
  { intros j. unfold fs'. rewrite units_set_ent by (lia || reflexivity). apply write_links_units, Hr. }
  apply andb_true_iff. split; [apply andb_true_iff; split; [apply andb_true_iff; split|]|].
  - apply rb_ok_iff. exact RB.
  - erewrite map_ext by (intros j; apply Hunits). apply sorted_strictly_increasing; [|exact Srt].
    apply Forall_forall. intros j Hj. exact (wf_name_of _ _ W (Hin j Hj)).
  - apply Nat.eqb_eq. apply Permutation_length. exact P.
  - apply forallb_forall. intros j Hj. apply existsb_exists. exists j. split; [apply Hin; exact Hj | apply Z.eqb_refl].
Qed.

(* freeSectors as coded (it stops quietly on a start outside the table) agrees with the checked model wherever that succeeds *)
Lemma go_free_chain_is_free_chain fuel : forall t s t', free_chain fuel t s = Ok t' -> go_free_chain fuel t s = t'.
Proof.
  induction fuel as [|k IH]; intros t s t'; cbn [free_chain go_free_chain]; [discriminate|].
  unfold free_break, in_range. destruct ((0 <=? s) && (s <? zlen t)) eqn:E; cbn [negb]; [|discriminate].
  replace ((s <? 0) || (s >=? zlen t)) with false by lia.
  destruct (free_stop (sget t s)); [intros [= <-]; reflexivity | apply IH].
Qed.

(* DeleteFile(name) on a well-formed state removes at most one child; the sectors of that stream are released in the table its
   size selects (mini FAT below the cutoff, FAT otherwise) and the other table is not touched *)
Lemma delete_releases name st st' : wf st -> delete_file name st = Ok st' -> fits name = true ->
  (existsb (matches (probe_of name) (d_files st)) (d_root_files st) = false -> d_sat st' = d_sat st /\ d_ssat st' = d_ssat st) /\
  (forall i, In i (d_root_files st) -> matches (probe_of name) (d_files st) i = true ->
     (d_sat st', d_ssat st') = freed_tables (d_cutoff st) (get_ent (d_files st) i) (d_sat st) (d_ssat st) /\
     d_root_files st' = filter (fun j => negb (j =? i)) (d_root_files st)).
Proof.
  intros W H%delete_file_ok F. destruct (delete_raw_spec _ _ _ W H) as (_ & Hyes & _). destruct (Hyes F) as (RF & _ & _ & Gone & None & _).
  split; [exact None|]. intros i Hi Mi. split; [apply (Gone i Hi Mi)|].
  rewrite RF. apply filter_ext_in. intros j Hj. f_equal. destruct (matches (probe_of name) (d_files st) j) eqn:Mj.
  - rewrite (wf_one_match _ _ _ _ W Hj Hi Mj Mi). symmetry. apply Z.eqb_refl.
  - symmetry. apply Z.eqb_neq. intros ->. congruence.
Qed.

Lemma spec_same_is_ent_same a b : wf_name a -> wf_name b -> spec_same (ent_units a) (ent_units b) = ent_same a b.
Proof. intros Wa Wb. unfold spec_same, ent_same. rewrite !ent_less_is_spec_less by assumption. reflexivity. Qed.

(* names unique in the sense of [MS-CFB] (spec_unique on the names the entries carry) is the same as pairwise different keys *)
Lemma spec_unique_iff fs l : Forall (fun i => wf_name (get_ent fs i)) l ->
  spec_unique (map (fun i => ent_units (get_ent fs i)) l) = true <-> NoDup (rkeys fs l).
Proof.
  induction l as [|a r IH]; intros Hw; cbn [map spec_unique rkeys]; [split; [constructor | reflexivity]|].
  apply Forall_cons_iff in Hw as [Wa Wr]. rewrite andb_true_iff, (IH Wr). fold (rkeys fs r). split.
  - intros [H1 H2]. constructor; [|exact H2]. intros Hin. unfold rkeys in Hin. apply in_map_iff in Hin as (y & Hk & Hy).
    rewrite forallb_forall in H1. specialize (H1 (ent_units (get_ent fs y)) (in_map _ _ _ Hy)).
    rewrite Forall_forall in Wr. rewrite spec_same_is_ent_same in H1 by (assumption || apply Wr; exact Hy).
    apply negb_true_iff in H1. assert (ent_same (get_ent fs a) (get_ent fs y) = true) by (apply ent_same_iff; congruence). congruence.
  - intros [Hn Hd]%NoDup_cons_iff. split; [|exact Hd]. apply forallb_forall. intros u Hu.
    apply in_map_iff in Hu as (y & <- & Hy). rewrite Forall_forall in Wr. rewrite spec_same_is_ent_same by (assumption || apply Wr; exact Hy).
    apply negb_true_iff. apply not_true_is_false. intros Hs. apply ent_same_iff in Hs. apply Hn. unfold rkeys. apply in_map_iff. exists y. split; [symmetry; exact Hs | exact Hy].
Qed.
Lemma wf_spec_unique st : wf st -> spec_unique (root_names st) = true.
Proof. intros W. unfold root_names. apply spec_unique_iff; [exact (wf_names _ W) | exact (wf_uniq _ W)]. Qed.

(* a directory state as a valid compound file gives it, stated with the specification's notion of unique names *)
Definition valid_dir (st : dstate) : Prop :=
  Forall (fun i => wf_name (get_ent (d_files st) i)) (d_root_files st) /\
  Forall (fun i => 0 <= i < zlen (d_files st)) (d_root_files st) /\
  Forall (fun i => f_type (get_ent (d_files st) i) <> dir_empty) (d_root_files st) /\
  spec_unique (root_names st) = true /\
  ~ In (d_root st) (d_root_files st) /\ 0 <= d_root st < zlen (d_files st) /\ f_type (get_ent (d_files st) (d_root st)) <> dir_empty.
Lemma slot_used t : append_slot_free t = false <-> t <> dir_empty.
Proof. unfold append_slot_free, dir_empty. lia. Qed.
Lemma valid_dir_wf st : valid_dir st <-> wf st.
Proof.
  unfold valid_dir. split.
  - intros (A & B & C & D & E & F & G). constructor; try assumption.
    + eapply Forall_impl; [|exact C]. intros i. apply slot_used.
    + apply spec_unique_iff; assumption.
    + split; [exact F | apply slot_used, G].
  - intros W. destruct (wf_root_used _ W) as [R1 R2]. split; [exact (wf_names _ W)|]. split; [exact (wf_range _ W)|]. split.
    + eapply Forall_impl; [|exact (wf_used _ W)]. intros i. apply slot_used.
    + split; [apply wf_spec_unique; exact W|]. split; [exact (wf_root _ W)|]. split; [exact R1 | apply slot_used, R2].
Qed.

(* code units that are single non-surrogate characters survive utf16.Decode / utf16.Encode unchanged *)
Definition plain_unit (x : Z) : Prop := (0 <= x < 55296) \/ (57344 <= x < 65536).
Lemma utf16_decode_plain l : Forall plain_unit l -> utf16_decode l = l.
Proof.
  induction l as [|a r IH]; [reflexivity|]. intros [Ha Hr]%Forall_cons_iff. cbn [utf16_decode].
  assert (Eh : is_hi a = false) by (unfold is_hi, plain_unit in *; lia).
  assert (El : is_lo a = false) by (unfold is_lo, plain_unit in *; lia).
  rewrite Eh, El. cbn [andb orb]. destruct r as [|b r']; [reflexivity|]. rewrite (IH Hr). reflexivity.
Qed.
Lemma utf16_encode_plain l : Forall plain_unit l -> utf16_encode l = l.
Proof.
  induction l as [|a r IH]; [reflexivity|]. intros [Ha Hr]%Forall_cons_iff. unfold utf16_encode in *. cbn [map concat].
  rewrite (IH Hr). unfold utf16_encode_rune. replace (((0 <=? a) && (a <? 55296)) || ((57344 <=? a) && (a <? 65536))) with true by (unfold plain_unit in Ha; lia).
  reflexivity.
Qed.
(* a code unit whose upper-case form is an ASCII character is a plain unit *)
Lemma small_upper_plain x : 0 <= upper_unit x < 128 -> plain_unit x.
Proof.
  rewrite upper_unit_is_upcase. unfold upcase, plain_unit. destruct ((55296 <=? x) && (x <=? 57343)) eqn:E; [lia|].
  intros H. destruct (lookup_upper_range spec_upper_runs x spec_runs_in_range) as [H1|H1]; lia.
Qed.

Lemma same_loop_true a : forall b, map upper_unit a = map upper_unit b -> same_loop a b = true.
Proof.
  induction a as [|x a IH]; intros [|y b] H; cbn in H; try discriminate; [reflexivity|]. inversion H as [[H1 H2]]. cbn [same_loop].
  unfold same_unit_differs. rewrite H1, Z.eqb_refl. cbn [negb]. apply IH. exact H2.
Qed.

Definition ascii_name (n : list Z) : bool :=
  forallb (fun c => (0 <=? c) && (c <? 128) && (0 <=? upper_unit c) && (upper_unit c <? 128)) n.
Lemma ascii_plain n : ascii_name n = true -> Forall plain_unit n.
Proof.
  unfold ascii_name. rewrite forallb_forall. intros H. apply Forall_forall. intros c Hc. specialize (H c Hc). unfold plain_unit. lia.
Qed.

Lemma probe_units n : Forall plain_unit n -> fits n = true -> wf_name (probe_of n) /\ ent_units (probe_of n) = n.
Proof.
  intros P F. split; [apply (new_name_wf n); [exact F | reflexivity | reflexivity]|].
  unfold fits, delete_name_too_long in F. unfold probe_of, ent_units, name_units, delete_probe_terminated, delete_probe_copied, delete_probe_namelen in *.
  rewrite (utf16_encode_plain n P), zlen_app in *. change (zlen [0]) with 1 in *. change name_runes with 32 in F. cbn [f_nlen f_runes].
  replace (2 * (zlen n + 1) / 2 - 1) with (zlen n) by lia. unfold zlen in *. rewrite Nat2Z.id.
  unfold pad_runes. change (Z.to_nat name_runes) with 32%nat. rewrite firstn_firstn, <- app_assoc, firstn_app.
  replace (Nat.min (length n) 32) with (length n) by lia. rewrite firstn_all, Nat.sub_diag. apply app_nil_r.
Qed.
(* RawDirEnt.Name() of an allocated entry decodes the units its NameLength covers *)
Lemma ent_name_units e : wf_name e -> f_type e <> dir_empty -> ent_name e = utf16_decode (ent_units e).
Proof.
  intros (H1 & H2 & H3) Ht. unfold ent_name, name_used, name_is_empty, ent_units, ztake. rewrite Z.quot_div_nonneg by lia.
  replace (f_type e =? 0) with false by (unfold dir_empty in Ht; lia). replace (f_nlen e / 2 - 1 >? 32) with false by lia. reflexivity.
Qed.

(* an allocated entry with a well-formed name that lessDirEnt cannot tell from the probe of an ASCII name has that name for
   comdoc.SameName as well (its Go string is the decoded code units, which re-encode to themselves) *)
Lemma ent_same_same_name e n : ascii_name n = true -> fits n = true -> wf_name e -> f_type e <> dir_empty ->
  ent_same e (probe_of n) = true -> same_name (ent_name e) n = true.
Proof.
  intros An F We Ht Hs%ent_same_iff. pose proof (ascii_plain n An) as Pn. destruct (probe_units n Pn F) as [Wp Up].
  rewrite (ekey_wf e We), (ekey_wf _ Wp), Up in Hs.
  pose proof (f_equal (@hd Z 0) Hs) as Hl. pose proof (f_equal (@tl Z) Hs) as Hu. cbn [hd tl] in Hl, Hu.
  assert (Pu : Forall plain_unit (ent_units e)).
  { apply Forall_forall. intros x Hx. apply small_upper_plain.
    assert (Hin : In (upper_unit x) (map upper_unit n)) by (rewrite <- Hu; apply in_map; exact Hx).
    apply in_map_iff in Hin as (c & Hc & Hcn). unfold ascii_name in An. rewrite forallb_forall in An. specialize (An c Hcn). lia. }
  unfold same_name. rewrite (ent_name_units e We Ht), (utf16_decode_plain _ Pu), !utf16_encode_plain by assumption.
  unfold same_len_differs. replace (zlen (ent_units e) =? zlen n) with true by lia. apply same_loop_true, Hu.
Qed.

(* error codes of the allocation inside AddFile: never the storage refusal *)
Lemma walk_big_err fuel : forall sat id idx e, walk_big fuel sat id idx = Err e -> e = 1.
Proof.
  induction fuel as [|k IH]; intros sat id idx e; cbn [walk_big]; destruct (wss_walk_more idx); try discriminate.
  - intros H; inversion H; reflexivity.
  - destruct (negb (in_range sat id)); [discriminate|]. destruct (wss_walk_stop (sget sat id)); [discriminate|]. apply IH.
Qed.
Lemma extend_from_err fl : forall sat id e, extend_from sat id fl <> Err e.
Proof.
  induction fl as [|s r IH]; intros sat id e; cbn [extend_from]; destruct (in_range sat id); try discriminate. apply IH.
Qed.
Lemma write_short_sector_err ss mss st i e : write_short_sector ss mss st i = Err e -> e = 1 \/ e = E_NEGATIVE_OFFSET.
Proof.
  destruct st as [[sat rn] rs]. unfold write_short_sector.
  destruct (walk_big (S (Z.to_nat (wss_big_index i mss ss))) sat rn (wss_big_index i mss ss)) as [[id rest]| |] eqn:EW; cbn [bind]; try discriminate.
  2:{ intros H; inversion H; subst. left. eapply walk_big_err; exact EW. }
  destruct (wss_extend rest).
  - destruct (make_free ss rest sat) as [fl sat1]. destruct (extend_from sat1 id fl) as [[sat2 id2]| |] eqn:EE; cbn [bind]; try discriminate.
    + match goal with |- (if ?c then _ else _) = _ -> _ => destruct c end; [intros H; inversion H; right; reflexivity | discriminate].
    + exfalso. exact (extend_from_err _ _ _ _ EE).
  - cbn [bind]. match goal with |- (if ?c then _ else _) = _ -> _ => destruct c end; [intros H; inversion H; right; reflexivity | discriminate].
Qed.
Lemma write_short_sectors_err ss mss fl : forall st e, write_short_sectors ss mss st fl = Err e -> e = 1 \/ e = E_NEGATIVE_OFFSET.
Proof.
  induction fl as [|i r IH]; intros st e; cbn [write_short_sectors]; [discriminate|].
  destruct (write_short_sector ss mss st i) as [st'| |] eqn:E1; cbn [bind]; try discriminate.
  - apply IH.
  - intros H; inversion H; subst. eapply write_short_sector_err; exact E1.
Qed.
Lemma add_stream_err len st e : add_stream len st = Err e -> e <> E_STORAGE.
Proof.
  unfold add_stream. destruct (add_is_short len (d_cutoff st)).
  - destruct (negb (ent_in_range (d_files st) (d_root st))); [discriminate|]. unfold add_stream_short.
    destruct (make_free (d_ss st) (stream_need_short len (d_mss st)) (d_ssat st)) as [fl ssat1].
    destruct (write_short_sectors (d_ss st) (d_mss st) (d_sat st, f_start (get_ent (d_files st) (d_root st)), f_size (get_ent (d_files st) (d_root st))) fl)
      as [[[sat2 x] size2]| |] eqn:EW; cbn [bind]; try discriminate.
    + destruct fl; cbn [bind]; discriminate.
    + intros H; inversion H; subst. destruct (write_short_sectors_err _ _ _ _ _ EW) as [->| ->]; unfold E_STORAGE, E_NEGATIVE_OFFSET; lia.
  - unfold add_stream_long. destruct (make_free (d_ss st) (stream_need_long len (d_ss st)) (d_sat st)) as [fl sat1]. destruct fl; cbn [bind]; discriminate.
Qed.
Lemma add_file_storage_err name len st : wf st -> add_file name len st = Err E_STORAGE ->
  exists i, In i (d_root_files st) /\ matches (probe_of name) (d_files st) i = true /\ delete_refuses (f_type (get_ent (d_files st) i)) = true.
Proof.
  intros W. unfold add_file. destruct (delete_file_raw name st) as [code st1] eqn:ED.
  unfold addfile_delete_err_returned. cbn [orb]. rewrite andb_true_r.
  destruct (code =? 0) eqn:Ec; cbn [negb].
  - destruct (add_stream len st1) as [[first st2]| |] eqn:ES; cbn [bind]; try discriminate.
    + destruct (new_dirent name len first) as [de| |] eqn:EN; cbn [bind]; try discriminate.
      * destruct (append_dirent (d_ss st2) de (d_files st2)) as [[idx fs]| |] eqn:EA; cbn [bind]; try discriminate.
        unfold append_dirent in EA. destruct (append_extends (first_free 0 (d_files st2))); [destruct (append_grow (d_ss st2) <=? 0)|]; discriminate.
      * unfold new_dirent in EN. destruct (newde_too_long (zlen (name_units name newde_terminated))); [|discriminate].
        inversion EN; subst. intros H; inversion H.
    + intros H; inversion H; subst. exfalso. exact (add_stream_err _ _ _ ES eq_refl).
  - intros [-> Hc]%as_result_err. apply (delete_raw_err _ _ _ _ W ED Hc).
Qed.

Lemma sig_names_ascii_upper : ascii_name msi_sig_name = true /\ ascii_name msi_sigex_name = true.
Proof. split; vm_compute; reflexivity. Qed.

(* if the plan of InsertMSISignature runs into the storage refusal, a child of the root that is not a stream carried one of the two
   names in the state the call started from *)
Lemma body_storage_err pk ex st : wf st -> insert_sig_body pk ex st = Err E_STORAGE ->
  exists i, In i (d_root_files st) /\ (matches p_ex (d_files st) i = true \/ matches p_sig (d_files st) i = true) /\
            delete_refuses (f_type (get_ent (d_files st) i)) = true.
Proof.
  intros W H. rewrite insert_sig_body_eq in H. destruct (sigex_step ex st) as [s1|e|] eqn:E1; cbn [bind] in H; try discriminate.
  - (* the second AddFile refuses: the child is one the first step left alone, since what it added is a stream *)
    destruct (sigex_step_spec _ _ _ W E1) as (W1 & _ & Keep1 & extra & RF1 & Hextra & _).
    destruct (add_file_storage_err _ _ _ W1 H) as (i & Hi & Mi & Ri). fold p_sig in Mi.
    rewrite RF1 in Hi. apply in_app_or in Hi as [Hi|Hi].
    + exists i. unfold matches in *. rewrite Keep1 in Mi, Ri by exact Hi. split; [apply filter_In in Hi; tauto|]. split; [right; exact Mi | exact Ri].
    + rewrite Forall_forall in Hextra. destruct (Hextra i Hi) as [_ Ti]. rewrite Ti in Ri. discriminate Ri.
  - (* the first step refuses *)
    injection H as ->. unfold sigex_step in E1. destruct (insert_has_exsig ex).
    + destruct (add_file_storage_err _ _ _ W E1) as (i & Hi & Mi & Ri). exists i. split; [exact Hi|]. split; [left; exact Mi | exact Ri].
    + unfold delete_file in E1. destruct (delete_file_raw msi_sigex_name st) as [code s] eqn:ED. apply as_result_err in E1 as [-> Hc].
      destruct (delete_raw_err _ _ _ _ W ED Hc) as (_ & i & Hi & Mi & Ri). exists i. split; [exact Hi|]. split; [left; exact Mi | exact Ri].
Qed.

(* When ListDir sees every child of the root (true for a document as opened: readDir fills rootFiles from ListDir(nil)), the storage
   refusal of InsertMSISignature can only be the one of the pre-check, i.e. it happens before anything was changed: once the pre-check
   has passed, no AddFile / DeleteFile of the plan stops half-way on a storage *)
Lemma no_late_storage_refusal pk ex st l : wf st -> list_root st = Ok l -> (forall i, In i (d_root_files st) -> In i l) ->
  precheck st = Ok tt -> insert_sig pk ex st <> Err E_STORAGE.
Proof.
  intros W Hl Hcov Hp H. unfold insert_sig in H. rewrite Hp in H. cbn [bind] in H.
  destruct (body_storage_err _ _ _ W H) as (i & Hi & Hm & Href).
  unfold precheck, insert_precheck in Hp. cbn [negb] in Hp. rewrite Hl in Hp. cbn [bind] in Hp.
  replace (existsb (sig_slot_blocked (d_files st)) l) with true in Hp; [discriminate|].
  symmetry. apply existsb_exists. exists i. split; [apply Hcov; exact Hi|].
  unfold sig_slot_blocked, insert_refuses. unfold delete_refuses in Href. rewrite Href. cbn [andb].
  pose proof (wf_name_of _ _ W Hi) as Wi. pose proof (proj1 (slot_used _) (wf_used_of _ _ W Hi)) as Ht.
  unfold is_sig_name, is_sig_name_def. destruct Hm as [Hm|Hm].
  - rewrite (ent_same_same_name _ msi_sigex_name (proj2 sig_names_ascii_upper) (proj2 sig_names_fit) Wi Ht Hm). apply orb_true_r.
  - rewrite (ent_same_same_name _ msi_sig_name (proj1 sig_names_ascii_upper) (proj1 sig_names_fit) Wi Ht Hm). reflexivity.
Qed.
