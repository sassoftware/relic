(* C18/Properties.v — the property theorems of C18, then examples on concrete files and directories. *)
From Relic Require Import Base.Prelude Base.Enc Base.Lists Base.Slice Base.Hex Generated.C18_gen C18.Model C18.Proofs C18.DirModel C18.DirProofs.
From Coq Require Import Permutation String.

(* ---------------------------------------------------------------- (a) red-black insertion *)
(* 1. the repaired insertion (new nodes red, root blackened, same recursion as redblack.insert) keeps the tree a valid
      red-black tree: black root, no red node with a red child, equal black height on every path *)
Theorem rb_insert_valid : forall (A : Type) (lt : A -> A -> bool) a t,
  rb_valid A t -> rb_valid A (insert A lt true true a t).
Proof. exact C18.Proofs.rb_insert_valid. Qed.
Theorem rb_insert_all_valid : forall (A : Type) (lt : A -> A -> bool) l, rb_valid A (insert_all A lt true true l).
Proof. exact C18.Proofs.rb_insert_all_valid. Qed.

(* 2. search-tree order and contents are preserved by the insertion as coded AND as repaired (any colour flags),
      for every transitive comparator, when the new key differs from the keys present *)
Theorem rb_insert_bst : forall (A : Type) (lt : A -> A -> bool),
  (forall x y z, lt x y = true -> lt y z = true -> lt x z = true) ->
  forall nr br a t, bst A lt t -> fresh A lt a t -> bst A lt (insert A lt nr br a t).
Proof. exact C18.Proofs.bst_insert. Qed.
Theorem rb_insert_elements : forall (A : Type) (lt : A -> A -> bool) nr br a t,
  Permutation (elements A (insert A lt nr br a t)) (a :: elements A t).
Proof. exact C18.Proofs.elements_insert. Qed.
Theorem rb_insert_all_sound : forall (A : Type) (lt : A -> A -> bool),
  (forall x y z, lt x y = true -> lt y z = true -> lt x z = true) ->
  forall nr br l, pairwise_cmp A lt (rev l) ->
  bst A lt (insert_all A lt nr br l) /\ Permutation (elements A (insert_all A lt nr br l)) l.
Proof. exact C18.Proofs.insert_all_sound. Qed.

(* 3. the boolean checker used by the validator decides exactly the declarative notion *)
Theorem rb_ok_exact : forall (A : Type) (t : tree A), rb_ok A t = true <-> rb_valid A t.
Proof. exact C18.Proofs.rb_ok_iff. Qed.

(* 4. documented pre-fix witness (flags false/false = the code before fix f87d35e: nodes created black, root never
      recoloured): three ascending insertions are not a valid tree *)
Theorem rb_current_refuted : exists l : list Z, ~ rb_valid Z (insert_all Z Z.ltb false false l).
Proof. exact C18.Proofs.rb_current_refuted. Qed.
(* 5. LIVE: redblack.Tree.Insert as srcgen reads it now (colour of the node literal, `t.Root.Red = false`) always yields a
      valid red-black tree.  If either flag regresses this statement stops being provable. *)
Theorem rb_as_coded_valid : forall (A : Type) (lt : A -> A -> bool) l,
  rb_valid A (insert_all A lt rb_new_node_red rb_root_blackened l).
Proof. exact C18.Proofs.rb_as_coded_valid. Qed.

(* 6. the directory tree rebuilt with the repaired insertion under the MS-CFB name order passes the validator's tree
      conditions (15: order, 16: red-black) and contains exactly the given entries *)
Theorem rebuilt_tree_valid : forall ents files,
  pairwise_cmp Z (ent_lt ents) (rev files) ->
  let t := insert_all Z (ent_lt ents) true true files in
  bst_b Z (ent_lt ents) t = true /\ rb_ok Z t = true /\ Permutation (elements Z t) files.
Proof.
  intros ents files Hp t. destruct (insert_all_sound Z (ent_lt ents) (ent_lt_trans ents) true true files Hp) as [B P].
  split; [apply bst_b_iff; exact B|]. split; [apply rb_ok_iff; apply rb_insert_all_valid | exact P].
Qed.

(* ---------------------------------------------------------------- (c) sector allocation *)
(* 7. makeFreeSectors: exactly count distinct ids, each free in the table it returns, the table only grows by free entries *)
Theorem alloc_fresh : forall ss count t fl t', 0 < count -> 0 < mfs_per_block ss -> make_free ss count t = (fl, t') ->
  zlen fl = count /\ NoDup fl /\ (exists k, t' = t ++ repeat secid_free k) /\
  Forall (fun j => 0 <= j < zlen t' /\ sget t' j = secid_free) fl.
Proof.
  intros ss count t fl t' Hc Hper. unfold make_free, mfs_nothing. replace (count <=? 0) with false by lia.
  rewrite scan_free_positions by exact Hc. cbv beta iota zeta.
  pose proof (firstn_skipn (Z.to_nat count) (positions (fun x => x =? secid_free) 0 t)) as Hsplit.
  set (found := firstn _ _) in *. set (rem := count - zlen found).
  assert (Hrem : 0 <= rem /\ zlen found + rem = count) by (unfold rem, found, zlen; rewrite firstn_length; lia). clearbody rem.
  assert (Hnd : NoDup found).
  { pose proof (positions_NoDup (fun x => x =? secid_free) t 0) as N. rewrite <- Hsplit in N. apply NoDup_app_iff in N. tauto. }
  assert (Hfree : Forall (fun j => 0 <= j < zlen t /\ sget t j = secid_free) found).
  { apply Forall_forall. intros j Hj.
    assert (Hin : In j (found ++ skipn (Z.to_nat count) (positions (fun x => x =? secid_free) 0 t))) by (apply in_or_app; left; exact Hj).
    rewrite Hsplit in Hin. apply (positions_In _ 0) in Hin. rewrite Z.sub_0_r, Z.eqb_eq in Hin. exact Hin. }
  destruct (rem =? 0) eqn:Er; intros [= <- <-].
  - split; [lia|]. split; [exact Hnd|]. split; [exists O; symmetry; apply app_nil_r | exact Hfree].
  - (* the table grows by whole blocks of free entries; the missing ids are its first new positions *)
    set (per := mfs_per_block ss) in *. set (k := Z.to_nat (mfs_need_blocks rem per * per)).
    assert (Hk : (Z.to_nat rem <= k)%nat) by (pose proof (quot_ceil_ge rem per); unfold k, mfs_need_blocks; lia).
    rewrite Forall_forall in Hfree. pose proof (zlen_nonneg t). repeat split.
    + rewrite zlen_app, zlen_map. unfold zlen at 2. rewrite seq_length. lia.
    + apply NoDup_app_iff. split; [exact Hnd|]. split.
      * apply FinFun.Injective_map_NoDup; [intros a b Hab; lia | apply seq_NoDup].
      * intros j Hj (n & Hn & _)%in_map_iff. specialize (Hfree j Hj). lia.
    + exists k. reflexivity.
    + apply Forall_app. rewrite zlen_app, zlen_repeat. split; apply Forall_forall.
      * intros j Hj. destruct (Hfree j Hj) as [Hr Hv]. split; [lia|]. unfold sget. rewrite app_nth1; [exact Hv | unfold zlen in Hr; lia].
      * intros j (n & <- & Hn%in_seq)%in_map_iff. split; [lia|].
        unfold sget. rewrite app_nth2 by (unfold zlen; lia). apply nth_repeat_lt. unfold zlen. lia.
Qed.
(* 8. the chaining loop builds exactly the chain of the free list and touches nothing else *)
Theorem link_chain : forall fl t, fl <> [] -> NoDup fl -> Forall (fun j => 0 <= j < zlen t) fl ->
  schain (link t fl) (first_of fl) fl /\
  (forall j, 0 <= j -> ~ In j fl -> sget (link t fl) j = sget t j) /\ zlen (link t fl) = zlen t.
Proof.
  induction fl as [|a r IH]; intros t Hne Hnd Hr; [congruence|].
  apply NoDup_cons_iff in Hnd as [Ha Hnd']. apply Forall_cons_iff in Hr as [Har Hr'].
  destruct r as [|b r'].
  - cbn [link first_of]. repeat split.
    + constructor; [rewrite sset_zlen; exact Har|]. rewrite sget_sset_same by exact Har. constructor.
    + intros j Hj Hn. apply sget_sset_other; [lia | exact Hj |]. intros ->. apply Hn. left. reflexivity.
    + apply sset_zlen.
  - change (link t (a :: b :: r')) with (link (sset t a b) (b :: r')). cbn [first_of].
    assert (Hr2 : Forall (fun j => 0 <= j < zlen (sset t a b)) (b :: r')) by (rewrite sset_zlen; exact Hr').
    destruct (IH (sset t a b) ltac:(discriminate) Hnd' Hr2) as (Hc & Ho & Hl). cbn [first_of] in Hc.
    rewrite sset_zlen in Hl. repeat split.
    + constructor; [rewrite Hl; exact Har|]. rewrite Ho; [|lia|exact Ha]. rewrite sget_sset_same by exact Har. exact Hc.
    + intros j Hj Hn. rewrite Ho; [|exact Hj|intros Hin; apply Hn; right; exact Hin].
      apply sget_sset_other; [lia | exact Hj |]. intros ->. apply Hn. left. reflexivity.
    + exact Hl.
Qed.
(* 9. addStream above the cutoff: a fresh chain of ceil(len/ss) sectors *)
Theorem add_stream_chain : forall ss len sat, 0 < len -> 0 < ss -> 0 < mfs_per_block ss ->
  exists fl sat1 k,
    sat1 = sat ++ repeat secid_free k /\
    add_stream_long ss len sat = Ok (first_of fl, link sat1 fl) /\
    zlen fl = ceil_div len ss /\ NoDup fl /\
    Forall (fun j => 0 <= j < zlen sat1 /\ sget sat1 j = secid_free) fl /\
    schain (link sat1 fl) (first_of fl) fl /\
    (forall j, 0 <= j -> ~ In j fl -> sget (link sat1 fl) j = sget sat1 j).
Proof.
  intros ss len sat Hlen Hss Hper. unfold add_stream_long.
  assert (Hneed : stream_need_long len ss = ceil_div len ss).
  { unfold stream_need_long, ceil_div. apply Z.quot_div_nonneg; lia. }
  assert (Hpos : 0 < ceil_div len ss).
  { unfold ceil_div. apply Z.div_str_pos. lia. }
  destruct (make_free ss (stream_need_long len ss) sat) as [fl sat1] eqn:Em.
  rewrite Hneed in Em. destruct (alloc_fresh _ _ _ _ _ Hpos Hper Em) as (H1 & H2 & (k & H3) & H4).
  exists fl, sat1, k.
  assert (Hne : fl <> []) by (intros ->; unfold zlen in H1; cbn in H1; lia).
  assert (Hr : Forall (fun j => 0 <= j < zlen sat1) fl) by (eapply Forall_impl; [|exact H4]; cbv beta; tauto).
  destruct (link_chain fl sat1 Hne H2 Hr) as (Hc & Ho & _).
  repeat split; try assumption. destruct fl; [congruence | reflexivity].
Qed.
(* 10. every chain that existed before is unchanged and disjoint from the new one *)
Theorem add_stream_keeps_chains : forall sat k fl s l,
  Forall (fun j => 0 <= j < zlen (sat ++ repeat secid_free k) /\ sget (sat ++ repeat secid_free k) j = secid_free) fl ->
  fl <> [] -> NoDup fl -> schain sat s l ->
  schain (link (sat ++ repeat secid_free k) fl) s l /\ (forall j, In j l -> ~ In j fl).
Proof.
  intros sat k fl s l Hfl Hne Hnd Hc. set (sat1 := sat ++ repeat secid_free k) in *.
  assert (Hr : Forall (fun j => 0 <= j < zlen sat1) fl) by (eapply Forall_impl; [|exact Hfl]; cbv beta; tauto).
  destruct (link_chain fl sat1 Hne Hnd Hr) as (_ & Ho & Hl).
  pose proof (schain_in_range _ _ _ Hc) as R. rewrite Forall_forall in R.
  assert (Hsame : forall j, In j l -> sget sat1 j = sget sat j).
  { intros j Hj. specialize (R j Hj). unfold sget, sat1. apply app_nth1. unfold zlen in R. lia. }
  assert (Hdis : forall j, In j l -> ~ In j fl).
  { intros j Hj Hin. rewrite Forall_forall in Hfl. destruct (Hfl j Hin) as [_ Hfree].
    rewrite Hsame in Hfree by exact Hj. exact (schain_elem_used _ _ _ Hc j Hj Hfree). }
  split; [|exact Hdis].
  eapply schain_preserved; [exact Hc | rewrite Hl; unfold sat1; rewrite zlen_app; pose proof (zlen_nonneg (repeat secid_free k)); lia |].
  intros j Hj. specialize (R j Hj). rewrite Ho; [apply Hsame; exact Hj | lia | apply Hdis; exact Hj].
Qed.
(* 11. freeSectors frees exactly its own chain *)
Theorem delete_frees_only_own : forall t s l, schain t s l -> l <> [] ->
  exists t', free_sectors t s = Ok t' /\ zlen t' = zlen t /\
    (forall j, In j l -> sget t' j = secid_free) /\ (forall j, 0 <= j -> ~ In j l -> sget t' j = sget t j).
Proof. exact C18.Proofs.free_sectors_spec. Qed.
(* 12. a chain that reaches its end marker never repeats a sector *)
Theorem chain_acyclic : forall t s l, schain t s l -> NoDup l.
Proof. exact C18.Proofs.schain_NoDup. Qed.

(* ---------------------------------------------------------------- (b) the validator *)
(* 13. whatever cfb_check accepts is a valid compound file in the declarative sense of C18/Proofs.v (valid_with) *)
Theorem cfb_check_sound : forall b, cfb_check b = true -> cfb_valid b.
Proof.
  intros b. unfold cfb_check. intros [Hh H]%andb_true_iff.
  destruct (cfb_layout b) as [L|] eqn:EL; [|discriminate]. exists L.
  destruct (header_ok_sizes b Hh) as [Hss Hnsect].
  pose proof (cfb_layout_facts b L EL) as F. apply forallb_all_hold in H. unfold cfb_conditions in H. unfold valid_with. cbv zeta in F, H |- *.
  set (h := parse_header b) in *. set (ss := sector_size h) in *. set (nsect := sector_count b h) in *.
  set (fat := fat_of b ss (l_fatsects L)) in *. set (minifat := fat_of b ss (l_mf L)) in *.
  destruct F as (Fdif & Ffat & Ffatb & Fdir & Fmf & (root & rest & Eents & Fms) & Fbig & Fmini & Ftrees).
  cbn [all_hold snd] in H. rewrite Eents in *.
  (* Cn = condition n of cfb_conditions *)
  destruct H as (C2%Z.eqb_eq & C3 & C4%Z.eqb_eq & [C5a%Z.leb_le C5b]%andb_true_iff & [C6a C6b]%andb_true_iff & [C7a C7b]%andb_true_iff &
                 C8%Z.eqb_eq & [C9a [C9b%Z.eqb_eq C9c]%andb_true_iff]%andb_true_iff & [C10a%Z.leb_le C10b]%andb_true_iff &
                 C11 & C12 & C13 & C14 & C15 & C16 & C17 & _).
  destruct (sort_used _ _ _ (conj Hnsect C5a) C13) as [Nown Mown].
  rewrite <- (Nat2Z.id (List.length minifat)) in C14. destruct (sort_used _ _ _ (conj (zlen_nonneg _) (Z.le_refl _)) C14) as [Nmini Mmini].
  destruct (sort_eq_spec _ _ C17 (marked_NoDup _ _ _)) as [Nnodes Mnodes].
  repeat match goal with |- _ /\ _ => split end.
  - exact Hh.
  - exact Fdif.
  - exact C2.
  - rewrite Ffat. exact (used_then_free _ C3).
  - exact Ffatb.
  - exact C4.
  - exact C5a.
  - exact (all_free_zdrop _ _ Hnsect C5b).
  - exact (proj2 (sort_marked _ _ _ C6a)).
  - exact (proj2 (sort_marked _ _ _ C6b)).
  - exact Fdir.
  - intros Hnil. rewrite Hnil in C7a. discriminate.
  - destruct (h_major h =? 3); apply Z.eqb_eq, C7b.
  - exact Fmf.
  - exact C8.
  - revert C9a. apply forallb_Forall. trivial.
  - exists root, rest. repeat match goal with |- _ /\ _ => split end.
    + reflexivity.
    + exact C9b.
    + revert C9c. apply forallb_Forall. intros e He%negb_true_iff. apply Z.eqb_neq, He.
    + exact Fms.
    + exact C10a.
    + apply all_free_zdrop; [|exact C10b]. apply Z.div_pos; [|reflexivity]. apply Z.mul_nonneg_nonneg; [apply zlen_nonneg | apply Z.lt_le_incl, Hss].
    + eapply Forall2_forallb2; [|exact Fmini|exact C12]. cbv beta. intros e ch Hc [Hl Hs]%andb_true_iff.
      split; [exact Hc|]. split; [apply Z.eqb_eq, Hl|]. revert Hs. apply forallb_Forall. intros s. apply Z.leb_le.
  - eapply Forall2_forallb2; [|exact Fbig|exact C11]. cbv beta. intros e ch Hc Hl. split; [exact Hc | apply Z.eqb_eq, Hl].
  - exact Nown.
  - exact Mown.
  - exact Nmini.
  - exact Mmini.
  - eapply Forall2_impl_in; [|exact Ftrees]. cbv beta. intros e t Ht Hd. rewrite forallb_forall in C15, C16.
    split; [exact Hd|]. split; [apply bst_b_iff, C15, Ht | apply rb_ok_iff, C16, Ht].
  - exact Nnodes.
  - intros i. rewrite Mnodes. apply object_indices_spec.
Qed.

(* ---------------------------------------------------------------- directory order *)
(* 14. relic's lessDirEnt (NameLength, then upper-cased code units with the toolchain's unicode.ToUpper table) IS the MS-CFB
       sibling order on every pair of names whose code units lie in the agreement domain ... *)
Theorem relic_order_eq_cfb : forall a b, zlen a < name_runes -> zlen b < name_runes ->
  forallb unit_agrees a = true -> forallb unit_agrees b = true -> relic_less a b = cfb_less a b.
Proof.
  intros a b Hla Hlb Ha Hb. unfold relic_less. rewrite less_dirent_key, !name_key by (lia || apply firstn_all). apply name_keys_lt; assumption.
Qed.
(* ... and the domain is every code unit: relic's upperUnit (unicode.ToUpper of the toolchain as read by srcgen, surrogate halves
   untouched) equals the upper-casing of the MS-CFB order (Unicode Character Database table, C18/UnicodeSpec.v) *)
Theorem agreement_domain : forall u, unit_agrees u = true.
Proof. exact C18.Proofs.unit_agrees_all. Qed.
Theorem upper_unit_is_ucd_simple_upper : forall u, upper_unit u = upcase u.
Proof. exact C18.Proofs.upper_unit_is_upcase. Qed.
Theorem relic_order_is_cfb : forall a b, zlen a < name_runes -> zlen b < name_runes -> relic_less a b = cfb_less a b.
Proof. intros a b Hla Hlb. apply relic_order_eq_cfb; try assumption; apply forallb_unit_agrees. Qed.
(* 15. the MS-CFB order is a strict order (what theorem 2 needs of the comparator) *)
Theorem cfb_order_strict : (forall a, cfb_less a a = false) /\
  (forall a b c, cfb_less a b = true -> cfb_less b c = true -> cfb_less a c = true).
Proof. split; [intros a; rewrite cfb_less_lex; apply lex_lt_irrefl | exact cfb_less_trans]. Qed.

(* ---------------------------------------------------------------- (d) the children of the root storage: DeleteFile / AddFile / InsertMSISignature / rebuildTree
   Model: C18/DirModel.v (every comparison, constant, branch condition and statement-presence flag is a definition of Generated/C18_gen.v);
   specification: spec_unique / spec_same / spec_tree_ok of C18/DirModel.v Part D over cfb_less of C18/Model.v Part 3.
   valid_dir st = the directory of a valid compound file: every child of the root is an allocated entry with a well-formed name, no two
   children carry the same name under the MS-CFB comparison, the root storage is not its own child. *)
(* 16. lessDirEnt on two directory entries with well-formed names IS the MS-CFB order of the names they carry *)
Theorem ent_order_is_cfb_order : forall a b, wf_name a -> wf_name b -> ent_less a b = cfb_less (ent_units a) (ent_units b).
Proof. exact C18.DirProofs.ent_less_is_spec_less. Qed.
(* 17. lessDirEnt is a strict order on ALL entries (any NameLength, any code units), and "ordered neither way" is equality of the
       key (NameLength, upper-cased units the loop looks at): what the red-black tree needs of its comparator *)
Theorem ent_less_strict :
  (forall a, ent_less a a = false) /\
  (forall a b c, ent_less a b = true -> ent_less b c = true -> ent_less a c = true) /\
  (forall a b, ent_same a b = true <-> ekey a = ekey b).
Proof. exact (conj C18.DirProofs.ent_less_irrefl (conj C18.DirProofs.ent_less_trans C18.DirProofs.ent_same_iff)). Qed.
(* 18. DeleteFile(name): the result is again a valid directory; a name of more than 31 code units changes nothing; otherwise exactly
       the children carrying the name (MS-CFB comparison) are removed, they were streams and their entries are blanked, every other
       child is the same entry as before and does not carry the name *)
Theorem delete_file_spec : forall name st st', valid_dir st -> delete_file name st = Ok st' ->
  valid_dir st' /\ same_geometry st st' /\
  (fits name = false -> st' = st) /\
  (fits name = true ->
     d_root_files st' = kept_of name st /\
     (forall i, In i (d_root_files st') -> get_ent (d_files st') i = get_ent (d_files st) i /\
                                           spec_same (ent_units (get_ent (d_files st') i)) (ent_units (probe_of name)) = false) /\
     (forall i, In i (d_root_files st) -> ~ In i (d_root_files st') ->
                get_ent (d_files st') i = blank /\ f_type (get_ent (d_files st) i) = dir_stream /\
                spec_same (ent_units (get_ent (d_files st) i)) (ent_units (probe_of name)) = true)).
Proof.
  intros name st st' W%valid_dir_wf H%delete_file_ok.
  pose proof (delete_raw_wf _ _ _ W H) as W1. destruct (delete_raw_spec _ _ _ W H) as (Hno & Hyes & G).
  split; [apply valid_dir_wf; exact W1|]. split; [exact G|]. split; [exact Hno|]. intros F.
  destruct (Hyes F) as (RF & _ & _ & Gone & _). split; [exact RF|].
  assert (Wp : wf_name (probe_of name)) by (apply (new_name_wf name); [exact F | reflexivity | reflexivity]).
  split.
  - intros i Hi. destruct (delete_raw_kept _ _ _ W H F i Hi) as (Hi0 & He & Hm).
    split; [exact He|]. rewrite He, spec_same_is_ent_same by (exact (wf_name_of _ _ W Hi0) || exact Wp). exact Hm.
  - intros i Hi Hn. assert (Hm : matches (probe_of name) (d_files st) i = true).
    { apply not_false_is_true. intros E. apply Hn. rewrite RF. apply filter_In. split; [exact Hi|]. rewrite E. reflexivity. }
    destruct (Gone i Hi Hm) as (G1 & G2 & _). split; [exact G1|]. split.
    + unfold delete_refuses in G2. apply negb_false_iff in G2. unfold dir_stream. lia.
    + rewrite spec_same_is_ent_same by (exact (wf_name_of _ _ W Hi) || exact Wp). exact Hm.
Qed.
(* 19. AddFile(name, contents): the children that carried the name are gone, every other child is the same entry as before, exactly
       one new stream entry with that key and the given size is appended, and the state is well formed again (names unique) *)
Theorem add_file_spec : forall name len st st', wf st -> add_file name len st = Ok st' ->
  exists idx,
    fits name = true /\
    d_root_files st' = kept_of name st ++ [idx] /\ ~ In idx (kept_of name st) /\ idx <> d_root st /\ 0 <= idx < zlen (d_files st') /\
    ekey (get_ent (d_files st') idx) = ekey (probe_of name) /\ f_type (get_ent (d_files st') idx) = dir_stream /\
    f_size (get_ent (d_files st') idx) = len /\
    (forall i, In i (kept_of name st) -> get_ent (d_files st') i = get_ent (d_files st) i) /\
    same_geometry st st' /\ d_changed st' = true /\ wf st'.
Proof. exact C18.DirProofs.add_file_spec. Qed.
Theorem valid_dir_is_wf : forall st, valid_dir st <-> wf st.
Proof. exact C18.DirProofs.valid_dir_wf. Qed.
(* 20. every history of AddFile / DeleteFile / InsertMSISignature (any names, any sizes, any length) that succeeds leaves the names
       of the root's children unique *)
Theorem history_names_unique : forall ops st st', wf st -> run_ops ops st = Ok st' -> wf st'.
Proof.
  induction ops as [|o r IH]; intros st st' W H; cbn [run_ops] in H.
  - inversion H; subst. exact W.
  - destruct (run_op o st) as [s1| |] eqn:E; cbn [bind] in H; try discriminate.
    eapply IH; [eapply run_op_wf; eassumption | exact H].
Qed.
(* 21. InsertMSISignature: afterwards the root's children are, in order, the former children that carried neither signature name
       (same entries), then - only if an extended signature was given - ONE stream entry with the key of msiDigitalSignatureEx and
       len(exsig) bytes, then ONE stream entry with the key of msiDigitalSignature and len(pkcs) bytes; whatever carried one of the
       two names before, in any spelling, is gone *)
Theorem insert_sig_spec : forall pk ex st st', wf st -> insert_sig pk ex st = Ok st' ->
  wf st' /\ d_changed st' = true /\ same_geometry st st' /\
  (forall i, In i (others st) -> get_ent (d_files st') i = get_ent (d_files st) i) /\
  exists isig,
    ekey (get_ent (d_files st') isig) = ekey p_sig /\ f_type (get_ent (d_files st') isig) = dir_stream /\ f_size (get_ent (d_files st') isig) = pk /\
    if insert_has_exsig ex then
      exists iex, d_root_files st' = others st ++ [iex; isig] /\
        ekey (get_ent (d_files st') iex) = ekey p_ex /\ f_type (get_ent (d_files st') iex) = dir_stream /\ f_size (get_ent (d_files st') iex) = ex
    else d_root_files st' = others st ++ [isig].
Proof. exact C18.DirProofs.insert_sig_spec. Qed.
(* 21b. the pre-check: a refusal is returned before any AddFile / DeleteFile is evaluated, so the document is as it was; an entry
        that is not a stream, is listed in the root storage and carries one of the two signature names (comdoc.SameName) is refused *)
Theorem insert_sig_refusal_is_early : forall pk ex st e, precheck st = Err e -> insert_sig pk ex st = Err e.
Proof. intros pk ex st e H. unfold insert_sig. rewrite H. reflexivity. Qed.
Theorem storage_in_signature_slot_refused : forall pk ex st l i, list_root st = Ok l -> In i l -> sig_slot_blocked (d_files st) i = true ->
  insert_sig pk ex st = Err E_STORAGE.
Proof.
  intros pk ex st l i Hl Hi Hb. apply insert_sig_refusal_is_early. unfold precheck, insert_precheck. cbn [negb]. rewrite Hl. cbn [bind].
  replace (existsb (sig_slot_blocked (d_files st)) l) with true; [reflexivity|]. symmetry. apply existsb_exists. exists i. split; assumption.
Qed.
(* 21c. ... and that early refusal is the ONLY storage refusal: when ListDir sees every child of the root (a document as opened: readDir
        fills rootFiles from ListDir(nil)) and the pre-check has passed, no AddFile / DeleteFile of the plan stops half-way with
        "can't delete or replace storages".  So a signing refused because of a storage leaves the document exactly as it was. *)
Theorem no_late_storage_refusal : forall pk ex st l, wf st -> list_root st = Ok l -> (forall i, In i (d_root_files st) -> In i l) ->
  precheck st = Ok tt -> insert_sig pk ex st <> Err E_STORAGE.
Proof. exact C18.DirProofs.no_late_storage_refusal. Qed.
(* 22. the tree rebuildTree builds: a search tree under lessDirEnt, a valid red-black tree, exactly the root's children, in-order
       strictly increasing (no duplicate keys) *)
Theorem rebuild_tree_valid : forall st, wf st ->
  let t := rebuild_tree (d_files st) (d_root_files st) in
  bst Z (idx_less (d_files st)) t /\ rb_valid Z t /\ Permutation (elements Z t) (d_root_files st) /\
  sorted_by (idx_less (d_files st)) (elements Z t).
Proof. exact C18.DirProofs.rebuild_tree_valid. Qed.
(* 23. the links rebuildTree writes into the entries read back as that tree *)
Theorem write_links_readback : forall t fs fuel, NoDup (elements Z t) -> Forall (fun i => 0 <= i < zlen fs) (elements Z t) ->
  (height t < fuel)%nat -> read_tree fuel (write_links t fs) (root_id t) = Some t.
Proof. intros t fs fuel Hnd Hr. apply linked_read, write_links_linked; assumption. Qed.
(* 24. after ANY successful history that changed the document and left the root non-empty, the names of the root's children are unique
       in the sense of [MS-CFB] and the directory Close leaves behind satisfies the specification of the root's tree: it reads back,
       is a valid red-black tree, its in-order names are strictly increasing in the MS-CFB order, it holds exactly the root's children *)
Theorem history_then_close : forall ops st st', valid_dir st -> run_ops ops st = Ok st' -> d_changed st' = true -> d_root_files st' <> [] ->
  spec_unique (root_names st') = true /\
  spec_tree_ok (d_files (close_dir st')) (f_child (get_ent (d_files (close_dir st')) (d_root st'))) (d_root_files st') = true.
Proof.
  intros ops st st' V H Hc Hne. apply valid_dir_wf in V. pose proof (history_names_unique _ _ _ V H) as W'.
  split; [apply wf_spec_unique; exact W' | apply close_dir_meets_spec; assumption].
Qed.
(* 25. the same for one InsertMSISignature (no side conditions: it always changes the document and leaves a child) *)
Theorem sign_then_close : forall pk ex st st', valid_dir st -> insert_sig pk ex st = Ok st' ->
  spec_unique (root_names st') = true /\
  spec_tree_ok (d_files (close_dir st')) (f_child (get_ent (d_files (close_dir st')) (d_root st'))) (d_root_files st') = true.
Proof.
  intros pk ex st st' V H. apply valid_dir_wf in V. destruct (insert_sig_spec _ _ _ _ V H) as (W' & Hc & _ & _ & isig & _ & _ & _ & Hrf).
  split; [apply wf_spec_unique; exact W'|]. apply close_dir_meets_spec; [exact W' | exact Hc|].
  destruct (insert_has_exsig ex); [destruct Hrf as (iex & -> & _) | rewrite Hrf]; intros E; apply app_eq_nil in E as [_ E]; discriminate.
Qed.
(* 26. replaced streams release their sectors: freeSectors frees exactly the chain it is given; DeleteFile on a valid directory removes
       at most one child and hands that stream's chain to freeSectors in the table its size selects, leaving the other table alone *)
Theorem free_sectors_exact : forall t s l, schain t s l ->
  zlen (go_free t s) = zlen t /\ (forall j, In j l -> sget (go_free t s) j = secid_free) /\
  (forall j, 0 <= j -> ~ In j l -> sget (go_free t s) j = sget t j).
Proof.
  intros t s l Hc. destruct l as [|x l].
  - inversion Hc; subst. split; [reflexivity|]. split; [intros j []|]. reflexivity.
  - destruct (free_sectors_spec _ _ _ Hc ltac:(discriminate)) as (t' & Hf & H).
    unfold go_free. rewrite (go_free_chain_is_free_chain _ _ _ _ Hf). exact H.
Qed.
Theorem delete_releases : forall name st st', wf st -> delete_file name st = Ok st' -> fits name = true ->
  (existsb (matches (probe_of name) (d_files st)) (d_root_files st) = false -> d_sat st' = d_sat st /\ d_ssat st' = d_ssat st) /\
  (forall i, In i (d_root_files st) -> matches (probe_of name) (d_files st) i = true ->
     (d_sat st', d_ssat st') = freed_tables (d_cutoff st) (get_ent (d_files st) i) (d_sat st) (d_ssat st) /\
     d_root_files st' = filter (fun j => negb (j =? i)) (d_root_files st)).
Proof. exact C18.DirProofs.delete_releases. Qed.
(* 27. LIVE facts about the source as srcgen reads it: the tree descends right exactly when Less(node, new) holds; every error of
       DeleteFile / addStream / newDirEnt / AddFile is returned to the caller; the two signature names are ASCII *)
Theorem source_facts :
  (forall (X : Type) (lt : X -> X -> bool) x a, rb_descend_right lt x a = lt x a) /\
  addfile_delete_err_returned && addfile_stream_err_returned && addfile_dirent_err_returned &&
    insert_err0_returned && insert_err1_returned && insert_err2_returned = true /\
  forallb (fun b => (0 <=? b) && (b <? 128)) (msi_sig_name ++ msi_sigex_name) = true.
Proof. split; [reflexivity|]. split; [reflexivity | vm_compute; reflexivity]. Qed.

(* ---------------------------------------------------------------- non-vacuity *)
Example repaired_tree_is_valid : rb_ok Z (insert_all Z Z.ltb true true [5; 3; 8; 1; 4; 7; 9; 2; 6; 0]) = true.
Proof. vm_compute. reflexivity. Qed.
Example case_pair_now_ordered : relic_less [97] [66] = true /\ cfb_less [97] [66] = true.
Proof. vm_compute. split; reflexivity. Qed.
Example prefix_tree_was_a_list : insert_all Z Z.ltb false false [0; 1; 2] = T Black E 0 (T Black E 1 (T Black E 2 E)).
Proof. vm_compute. reflexivity. Qed.
Example alloc_example : make_free 512 3 [-3; 5; -1; -2; -1; -2] = ([2; 4; 6], [-3; 5; -1; -2; -1; -2] ++ repeat (-1) 128).
Proof. vm_compute. reflexivity. Qed.
Example add_stream_example :
  add_stream_long 512 1000 [-3; 5; -1; -2; -1; -2] = Ok (2, [-3; 5; 4; -2; -2; -2]).
Proof. vm_compute. reflexivity. Qed.
(* a complete compound file (512-byte sectors, one stream "Only" of 100 bytes in the mini stream) is accepted *)
Definition sample_file : bytes := hex "d0cf11e0a1b11ae1000000000000000000000000000000003e000300feff0900060000000000000000000000010000000300000000000000001000000200000001000000feffffff0000000000000000fffffffffffffffffffffffffffffffffffffffffffffffffffffffffffffffffffffffffffffffffffffffffffffffffffffffffffffffffffffffffffffffffffffffffffffffffffffffffffffffffffffffffffffffffffffffffffffffffffffffffffffffffffffffffffffffffffffffffffffffffffffffffffffffffffffffffffffffffffffffffffffffffffffffffffffffffffffffffffffffffffffffffffffffffffffffffffffffffffffffffffffffffffffffffffffffffffffffffffffffffffffffffffffffffffffffffffffffffffffffffffffffffffffffffffffffffffffffffffffffffffffffffffffffffffffffffffffffffffffffffffffffffffffffffffffffffffffffffffffffffffffffffffffffffffffffffffffffffffffffffffffffffffffffffffffffffffffffffffffffffffffffffffffffffffffffffffffffffffffffffffffffffffffffffffffffffffffffffffffffffffffffffffffffffffffffffffffffffffffffffffffffffffffffffffffffffffffffffffffffffffffffffffffffffffffffffffffffffffffffffffffffffffffffffffffffffdfffffffefffffffefffffffeffffffffffffffffffffffffffffffffffffffffffffffffffffffffffffffffffffffffffffffffffffffffffffffffffffffffffffffffffffffffffffffffffffffffffffffffffffffffffffffffffffffffffffffffffffffffffffffffffffffffffffffffffffffffffffffffffffffffffffffffffffffffffffffffffffffffffffffffffffffffffffffffffffffffffffffffffffffffffffffffffffffffffffffffffffffffffffffffffffffffffffffffffffffffffffffffffffffffffffffffffffffffffffffffffffffffffffffffffffffffffffffffffffffffffffffffffffffffffffffffffffffffffffffffffffffffffffffffffffffffffffffffffffffffffffffffffffffffffffffffffffffffffffffffffffffffffffffffffffffffffffffffffffffffffffffffffffffffffffffffffffffffffffffffffffffffffffffffffffffffffffffffffffffffffffffffffffffffffffffffffffffffffffffffffffffffffffffffffffffffffffffffffffffffffffffffffffffffffffffffffffffffffffffffffffffffffffffffffffffffffffffffffffffffffffffffffffffffffffffffffffffffffffffffffffffffffffffffffffffffffffffffffffffffffffffffffffffffffffffffffffffffffffffffffffffffffffffffffffff3f1a59bbaea4fa4cad88dc14f300c848b5636066652343d8ae82d4316b1b3a308d0f3da5639ce25a945e5cdf691704a522d505b4e699f505472fc407adc445cd1485bb1436facf072bb3b3d7861b828cc2da142e492615a58e14511ec4cd88238971e4cd0000000000000000000000000000000000000000000000000000000000000000000000000000000000000000000000000000000000000000000000000000000000000000000000000000000000000000000000000000000000000000000000000000000000000000000000000000000000000000000000000000000000000000000000000000000000000000000000000000000000000000000000000000000000000000000000000000000000000000000000000000000000000000000000000000000000000000000000000000000000000000000000000000000000000000000000000000000000000000000000000000000000000000000000000000000000000000000000000000000000000000000000000000000000000000000000000000000000000000000000000000000000000000000000000000000000000000000000000000000000000000000000000000000000000000000000000000000000000000000000000000000000000000000000000000000000000000000000000000000000000000000000000000000000000000000000000000000001000000feffffffffffffffffffffffffffffffffffffffffffffffffffffffffffffffffffffffffffffffffffffffffffffffffffffffffffffffffffffffffffffffffffffffffffffffffffffffffffffffffffffffffffffffffffffffffffffffffffffffffffffffffffffffffffffffffffffffffffffffffffffffffffffffffffffffffffffffffffffffffffffffffffffffffffffffffffffffffffffffffffffffffffffffffffffffffffffffffffffffffffffffffffffffffffffffffffffffffffffffffffffffffffffffffffffffffffffffffffffffffffffffffffffffffffffffffffffffffffffffffffffffffffffffffffffffffffffffffffffffffffffffffffffffffffffffffffffffffffffffffffffffffffffffffffffffffffffffffffffffffffffffffffffffffffffffffffffffffffffffffffffffffffffffffffffffffffffffffffffffffffffffffffffffffffffffffffffffffffffffffffffffffffffffffffffffffffffffffffffffffffffffffffffffffffffffffffffffffffffffffffffffffffffffffffffffffffffffffffffffffffffffffffffffffffffffffffffffffffffffffffffffffffffffffffffffffffffffffffffffffffffffffffffffffffffffffffffffffffffffffffffffffffffffffffffffffffffffffffffffffffffffffffffff52006f006f007400200045006e00740072007900000000000000000000000000000000000000000000000000000000000000000000000000000000000000000016000501ffffffffffffffff010000000000000000000000000000000000000000000000c3b42fc5c38635b0401c5c7bb91e359e0100000080000000000000004f006e006c00790000000000000000000000000000000000000000000000000000000000000000000000000000000000000000000000000000000000000000000a000201ffffffffffffffffffffffff0000000000000000000000000000000000000000000000000000000000000000000000000000000064000000000000000000000000000000000000000000000000000000000000000000000000000000000000000000000000000000000000000000000000000000000000000000000000000000ffffffffffffffffffffffff0000000000000000000000000000000000000000000000000000000000000000000000000000000000000000000000000000000000000000000000000000000000000000000000000000000000000000000000000000000000000000000000000000000000000000000000000000000000000000ffffffffffffffffffffffff000000000000000000000000000000000000000000000000000000000000000000000000000000000000000000000000"%string.
Example sample_file_accepted : cfb_check sample_file = true.
Proof. vm_compute. reflexivity. Qed.
Example sample_file_valid : cfb_valid sample_file.
Proof. apply cfb_check_sound. exact sample_file_accepted. Qed.

(* a directory with a root (entry 0), a stream "\5digitalsignature" (entry 1, 5000 bytes at sector 3) and a stream "Other" (entry 2) *)
Definition ex_entry (name : list Z) (typ start size : Z) : dent :=
  mkDent (pad_runes (name ++ [0])) (2 * (zlen name + 1)) typ 1 (-1) (-1) (-1) start size.
Definition ex_state : dstate :=
  mkD [ex_entry [82; 111; 111; 116] 5 (-2) 0;
       ex_entry [5; 100; 105; 103; 105; 116; 97; 108; 115; 105; 103; 110; 97; 116; 117; 114; 101] 2 3 5000;
       ex_entry [79; 116; 104; 101; 114] 2 13 4096; blank]
      [1; 2] ([-3; -2; -2] ++ [4; 5; 6; 7; 8; 9; 10; 11; 12; -2] ++ [14; 15; 16; 17; 18; 19; 20; -2] ++ repeat (-1) 107) [] 0 512 64 4096 false.
Example ex_state_valid : valid_dir ex_state.
Proof.
  unfold valid_dir. split; [|split; [|split; [|split; [|split; [|split]]]]].
  - repeat constructor; vm_compute; try reflexivity; intros H; discriminate H.
  - repeat constructor; vm_compute; try reflexivity; intros H; discriminate H.
  - repeat constructor; vm_compute; intros H; discriminate H.
  - vm_compute. reflexivity.
  - vm_compute. intros [H|[H|[]]]; discriminate H.
  - vm_compute. split; [intros H; discriminate H | reflexivity].
  - vm_compute. intros H; discriminate H.
Qed.
(* signing it replaces the lower-case stream: the children are then Other, \5MsiDigitalSignatureEx (in the free entry 3) and
   \5DigitalSignature (in entry 1, which the replaced stream gave up together with its sectors 3..12) *)
Example ex_sign_names :
  match insert_sig 5000 4096 ex_state with
  | Ok st' => map (fun i => ent_units (get_ent (d_files st') i)) (d_root_files st') = [[79; 116; 104; 101; 114]; msi_sigex_name; msi_sig_name]
              /\ d_root_files st' = [2; 3; 1]
  | _ => False
  end.
Proof. vm_compute. split; reflexivity. Qed.
Example ex_sign_then_close_ok :
  match insert_sig 5000 4096 ex_state with
  | Ok st' => spec_tree_ok (d_files (close_dir st')) (f_child (get_ent (d_files (close_dir st')) (d_root st'))) (d_root_files st') = true
  | _ => False
  end.
Proof. vm_compute. reflexivity. Qed.
(* the specification does reject what the seeded change produced: two children whose names differ only in letter case *)
Example ex_duplicate_rejected :
  spec_unique [[5; 100; 105; 103; 105; 116; 97; 108; 115; 105; 103; 110; 97; 116; 117; 114; 101]; msi_sig_name] = false.
Proof. vm_compute. reflexivity. Qed.
(* dotless i (U+0131) upper-cases to I: "\5DıgitalSignature" is the signature name too, the Kelvin sign (U+212A) is not k *)
Example ex_dotless_i_same : spec_same [5; 68; 305; 103; 305; 116; 97; 108; 83; 305; 103; 110; 97; 116; 117; 114; 101] msi_sig_name = true
                            /\ spec_same [8490] [107] = false.
Proof. vm_compute. split; reflexivity. Qed.
(* a storage carrying the name makes DeleteFile refuse *)
Example ex_storage_refused :
  delete_file [79; 84; 72; 69; 82] (mkD [ex_entry [82] 5 (-2) 0; ex_entry [79; 116; 104; 101; 114] 1 0 0] [1] [] [] 0 512 64 4096 false) = Err E_STORAGE.
Proof. vm_compute. reflexivity. Qed.
(* InsertMSISignature refuses, before touching anything, a document whose root lists a STORAGE spelled like the signature stream
   (entry 1, "\5DIGITALSIGNATURE", reached from the root's child link); the same entry as a stream is replaced *)
Definition ex_slot_state (typ : Z) : dstate :=
  mkD [mkDent (pad_runes [82; 0]) 4 5 1 (-1) (-1) 1 (-2) 0;
       mkDent (pad_runes ([5; 68; 73; 71; 73; 84; 65; 76; 83; 73; 71; 78; 65; 84; 85; 82; 69] ++ [0])) 36 typ 1 (-1) (-1) (-1) 3 5000; blank; blank]
      [1] ([-3; -2; -2] ++ [4; 5; 6; 7; 8; 9; 10; 11; 12; -2] ++ repeat (-1) 115) [] 0 512 64 4096 false.
Example ex_storage_in_slot_refused :
  list_root (ex_slot_state 1) = Ok [1] /\ sig_slot_blocked (d_files (ex_slot_state 1)) 1 = true /\
  insert_sig 5000 4096 (ex_slot_state 1) = Err E_STORAGE /\ insert_sig 5000 0 (ex_slot_state 1) = Err E_STORAGE.
Proof.
  assert (Hl : list_root (ex_slot_state 1) = Ok [1]) by (vm_compute; reflexivity).
  assert (Hb : sig_slot_blocked (d_files (ex_slot_state 1)) 1 = true) by (vm_compute; reflexivity).
  split; [exact Hl|]. split; [exact Hb|]. split; apply (storage_in_signature_slot_refused _ _ _ [1] 1 Hl (or_introl eq_refl) Hb).
Qed.
Example ex_stream_in_slot_replaced :
  match insert_sig 5000 0 (ex_slot_state 2) with
  | Ok st' => map (fun i => ent_units (get_ent (d_files st') i)) (d_root_files st') = [msi_sig_name]
  | _ => False
  end.
Proof. vm_compute. reflexivity. Qed.
