(* C18/Proofs.v — the declarative notions the C18 properties are stated in (valid red-black tree, search-tree order, sector
   chain, valid compound file) and the lemmas about C18/Model.v, in the order: red-black insertion, list facts, sector
   allocation, the MS-CFB validator, the two name orders. *)
From Relic Require Import Base.Prelude Base.Enc Base.Lists Base.Slice Generated.C18_gen C18.UnicodeSpec C18.Model.
From Coq Require Import Permutation.

Section RBProofs.
Variable A : Type.
Variable lt : A -> A -> bool.
Notation tree := (tree A).
Notation ins := (ins A lt).
Notation insert := (insert A lt).

(* declarative red-black trees: rbt t c n = t has root colour c (E counts as black), no red node has a red child,
   and every path from the root to a leaf crosses exactly n black nodes *)
Inductive rbt : tree -> color -> nat -> Prop :=
| rbt_E : rbt E Black 0
| rbt_R l x r n : rbt l Black n -> rbt r Black n -> rbt (T Red l x r) Red n
| rbt_B l x r cl cr n : rbt l cl n -> rbt r cr n -> rbt (T Black l x r) Black (S n).

(* a valid red-black tree in the sense of the property: black root, no red-red, equal black height *)
Definition rb_valid (t : tree) : Prop := exists n, rbt t Black n.

(* red root whose children are red-black trees, at most one of them red: what insertion may hand to its parent *)
Inductive infrared : tree -> nat -> Prop :=
| infra l x r cl cr n : rbt l cl n -> rbt r cr n -> (cl = Black \/ cr = Black) -> infrared (T Red l x r) n.

Lemma rbt_is_red t c n : rbt t c n -> is_red A t = match c with Red => true | Black => false end.
Proof. destruct 1; reflexivity. Qed.

Lemma infrared_is_red t n : infrared t n -> is_red A t = true.
Proof. destruct 1; reflexivity. Qed.

Lemma rbt_blacken_red t n : rbt t Red n -> rbt (blacken A t) Black (S n).
Proof. inversion 1; subst. cbn. econstructor; eassumption. Qed.

(* rewrites is_red of every tree whose colour a hypothesis gives *)
Ltac red_facts :=
  repeat match goal with
  | H : rbt ?t ?c ?n |- context [is_red A ?t] => rewrite (rbt_is_red _ _ _ H)
  | H : infrared ?t ?n |- context [is_red A ?t] => rewrite (infrared_is_red _ _ H)
  end; cbn [negb].

Definition ins_post (t' : tree) (c : color) (n : nat) : Prop :=
  match c with Black => exists c', rbt t' c' n | Red => infrared t' n end.

Lemma rbt_red_infrared t n : rbt t Red n -> infrared t n.
Proof. inversion 1; subst. econstructor; [eassumption | eassumption | left; reflexivity]. Qed.
Lemma ins_post_weak t' c n : ins_post t' c n -> infrared t' n \/ rbt t' Black n.
Proof. destruct c; [left; assumption|]. intros [[] H]; [left; apply rbt_red_infrared; exact H | right; exact H]. Qed.

Lemma ins_rbt a t c n : rbt t c n -> ins_post (ins true a t) c n.
Proof.
  induction 1 as [| l x r n Hl IHl Hr IHr | l x r cl cr n Hl IHl Hr IHr]; cbn [ins ins_post].
  - exists Red. constructor; constructor.
  - (* red node, both children black *)
    remember (ins true a l) as l' eqn:El'. remember (ins true a r) as r' eqn:Er'. clear El' Er'.
    cbn [ins_post] in IHl, IHr. destruct IHl as [cl' Hl'], IHr as [cr' Hr'].
    destruct (lt x a).
    + destruct cr'.
      * red_facts. inversion Hr'; subst. cbn [right_of left_of]. red_facts.
        econstructor; [eassumption | eassumption | left; reflexivity].
      * red_facts. econstructor; [eassumption | eassumption | left; reflexivity].
    + destruct cl'.
      * red_facts. inversion Hl'; subst. cbn [right_of left_of]. red_facts.
        econstructor; [eassumption | eassumption | right; reflexivity].
      * red_facts. econstructor; [eassumption | eassumption | left; reflexivity].
  - (* black node: a red root that comes up may have a red child *)
    apply ins_post_weak in IHl, IHr.
    remember (ins true a l) as l' eqn:El'. remember (ins true a r) as r' eqn:Er'. clear El' Er'.
    destruct (lt x a).
    + destruct IHr as [Hr'|Hr']; [|red_facts; exists Black; econstructor; eassumption].
      destruct Hr' as [rl rx rr c1 c2 n H1 H2 Hor]. cbn [is_red negb right_of left_of]. destruct cl; red_facts.
      { exists Red. constructor; [eapply rbt_blacken_red; eassumption | cbn; econstructor; eassumption]. }
      destruct c2; red_facts.
      { (* right-right red: single rotation *)
        destruct Hor as [->|Hc]; [|discriminate]. cbn [rotate_left].
        exists Black. econstructor; [econstructor; eassumption | eassumption]. }
      destruct c1; red_facts.
      { (* right-left red: double rotation *)
        inversion H1; subst. cbn [rotate_right rotate_left].
        exists Black. econstructor; econstructor; eassumption. }
      exists Black. econstructor; [eassumption | econstructor; eassumption].
    + destruct IHl as [Hl'|Hl']; [|red_facts; exists Black; econstructor; eassumption].
      destruct Hl' as [ll lx lr c1 c2 n H1 H2 Hor]. cbn [is_red negb right_of left_of]. destruct cr; red_facts.
      { exists Red. constructor; [cbn; econstructor; eassumption | eapply rbt_blacken_red; eassumption]. }
      destruct c1; red_facts.
      { destruct Hor as [Hc| ->]; [discriminate|]. cbn [rotate_right].
        exists Black. econstructor; [eassumption | econstructor; eassumption]. }
      destruct c2; red_facts.
      { inversion H2; subst. cbn [rotate_right rotate_left].
        exists Black. econstructor; econstructor; eassumption. }
      exists Black. econstructor; [econstructor; eassumption | eassumption].
Qed.

Lemma blacken_valid t c n : rbt t c n -> rb_valid (blacken A t).
Proof.
  destruct 1; cbn.
  - exists O. constructor.
  - exists (S n). econstructor; eassumption.
  - exists (S n). econstructor; eassumption.
Qed.

(* new nodes red + root blackened: validity is preserved by every insertion *)
Lemma rb_insert_valid a t : rb_valid t -> rb_valid (insert true true a t).
Proof.
  intros [n H]. unfold Model.insert. pose proof (ins_rbt a _ _ _ H) as [c' H']. cbn in H'.
  eapply blacken_valid; eassumption.
Qed.

Lemma rb_insert_all_valid l : rb_valid (insert_all A lt true true l).
Proof.
  unfold insert_all. assert (Hg : forall t, rb_valid t -> rb_valid (fold_left (fun t a => insert true true a t) l t)).
  { induction l as [|a l IH]; intros t Ht; cbn; [exact Ht|]. apply IH. apply rb_insert_valid; exact Ht. }
  apply Hg. exists O. constructor.
Qed.

Lemma black_height_rbt t c n : rbt t c n -> black_height A t = Some n.
Proof.
  induction 1; cbn; [reflexivity| |]; rewrite IHrbt1, IHrbt2, Nat.eqb_refl; reflexivity.
Qed.
Lemma no_red_red_rbt t c n : rbt t c n -> no_red_red A t = true.
Proof.
  induction 1; cbn; [reflexivity| |].
  - rewrite (rbt_is_red _ _ _ H), (rbt_is_red _ _ _ H0), IHrbt1, IHrbt2. reflexivity.
  - rewrite IHrbt1, IHrbt2. reflexivity.
Qed.
Lemma rbt_of_checks t : no_red_red A t = true -> forall n, black_height A t = Some n ->
  rbt t (if is_red A t then Red else Black) n.
Proof.
  induction t as [|c l IHl x r IHr]; cbn; intros Hn n Hb.
  - inversion Hb. constructor.
  - destruct (black_height A l) as [a|] eqn:El; [|discriminate].
    destruct (black_height A r) as [b|] eqn:Er; [|discriminate].
    destruct (Nat.eqb a b) eqn:Eab; [|discriminate]. apply Nat.eqb_eq in Eab. subst b.
    apply andb_true_iff in Hn as [Hn Hnr]. apply andb_true_iff in Hn as [Hc Hnl].
    specialize (IHl Hnl a eq_refl). specialize (IHr Hnr a eq_refl).
    destruct c; inversion Hb; subst.
    + apply andb_true_iff in Hc as [H1 H2]. apply negb_true_iff in H1, H2. rewrite H1 in IHl. rewrite H2 in IHr.
      constructor; assumption.
    + econstructor; eassumption.
Qed.
Lemma rb_ok_iff t : rb_ok A t = true <-> rb_valid t.
Proof.
  unfold rb_ok, rb_valid. split.
  - intros H. apply andb_true_iff in H as [H Hb]. apply andb_true_iff in H as [Hr Hn].
    destruct (black_height A t) as [n|] eqn:E; [|discriminate]. exists n.
    pose proof (rbt_of_checks t Hn n E) as Ht. apply negb_true_iff in Hr. rewrite Hr in Ht. exact Ht.
  - intros [n H]. rewrite (rbt_is_red _ _ _ H), (no_red_red_rbt _ _ _ H), (black_height_rbt _ _ _ H). reflexivity.
Qed.

Fixpoint all (P : A -> Prop) (t : tree) : Prop :=
  match t with E => True | T _ l x r => P x /\ all P l /\ all P r end.
Fixpoint bst (t : tree) : Prop :=
  match t with
  | E => True
  | T _ l x r => all (fun y => lt y x = true) l /\ all (fun y => lt x y = true) r /\ bst l /\ bst r
  end.

Lemma all_b_iff p t : all_b A p t = true <-> all (fun y => p y = true) t.
Proof.
  induction t as [|c l IHl x r IHr]; cbn; [tauto|]. rewrite !andb_true_iff, IHl, IHr. tauto.
Qed.
Lemma bst_b_iff t : bst_b A lt t = true <-> bst t.
Proof.
  induction t as [|c l IHl x r IHr]; cbn; [tauto|]. rewrite !andb_true_iff, !all_b_iff, IHl, IHr. tauto.
Qed.
Lemma all_imp (P Q : A -> Prop) t : (forall y, P y -> Q y) -> all P t -> all Q t.
Proof. intros H. induction t; cbn; [tauto|]. intuition. Qed.
Lemma all_elements P t : all P t <-> Forall P (elements A t).
Proof.
  induction t as [|c l IHl x r IHr]; cbn; [split; constructor|].
  rewrite Forall_app, Forall_cons_iff, IHl, IHr. tauto.
Qed.
Lemma all_blacken P t : all P (blacken A t) <-> all P t.
Proof. destruct t; cbn; tauto. Qed.
Lemma bst_blacken t : bst (blacken A t) <-> bst t.
Proof. destruct t; cbn; tauto. Qed.
Lemma all_rotate_right P t : all P (rotate_right A t) <-> all P t.
Proof. destruct t as [|c [|c2 al ax ar] x r]; cbn; tauto. Qed.
Lemma all_rotate_left P t : all P (rotate_left A t) <-> all P t.
Proof. destruct t as [|c l x [|c2 bl bx br]]; cbn; tauto. Qed.

Lemma elements_blacken t : elements A (blacken A t) = elements A t.
Proof. destruct t; reflexivity. Qed.
Lemma elements_rotate_right t : elements A (rotate_right A t) = elements A t.
Proof. destruct t as [|c [|c2 al ax ar] x r]; cbn; try reflexivity. rewrite <- app_assoc. reflexivity. Qed.
Lemma elements_rotate_left t : elements A (rotate_left A t) = elements A t.
Proof. destruct t as [|c l x [|c2 bl bx br]]; cbn; try reflexivity. rewrite <- app_assoc. reflexivity. Qed.

(* What Node.insert makes of a node once the key has gone into one of its subtrees: it leaves the node alone, flips the colours, or
   rotates once or twice.  Which of these happens matters for the colours only; order and contents survive all of them. *)
Inductive rebalanced : tree -> tree -> Prop :=
| reb_none t : rebalanced t t
| reb_flip c l x r : rebalanced (T c l x r) (T Red (blacken A l) x (blacken A r))
| reb_left t : rebalanced t (rotate_left A t)
| reb_right t : rebalanced t (rotate_right A t)
| reb_right_left c l x r : rebalanced (T c l x r) (rotate_left A (T c l x (rotate_right A r)))
| reb_left_right c l x r : rebalanced (T c l x r) (rotate_right A (T c (rotate_left A l) x r)).

Lemma ins_node nr a c l x r :
  rebalanced (if lt x a then T c l x (ins nr a r) else T c (ins nr a l) x r) (ins nr a (T c l x r)).
Proof. cbn [ins]. destruct (lt x a); repeat match goal with |- context [if ?b then _ else _] => destruct b end; constructor. Qed.

Lemma rebalanced_elements t t' : rebalanced t t' -> elements A t' = elements A t.
Proof.
  destruct 1; rewrite ?elements_rotate_left, ?elements_rotate_right; cbn [elements];
    rewrite ?elements_blacken, ?elements_rotate_left, ?elements_rotate_right; reflexivity.
Qed.

Lemma elements_ins nr a t : Permutation (elements A (ins nr a t)) (a :: elements A t).
Proof.
  induction t as [|c l IHl x r IHr]; [reflexivity|]. rewrite (rebalanced_elements _ _ (ins_node nr a c l x r)).
  destruct (lt x a); cbn [elements]; [|rewrite IHl; reflexivity]. rewrite IHr, (perm_swap a x). symmetry. apply Permutation_middle.
Qed.
Lemma all_ins (P : A -> Prop) nr a t : P a -> all P t -> all P (ins nr a t).
Proof.
  rewrite !all_elements. intros Pa Pt. apply (Permutation_Forall (Permutation_sym (elements_ins nr a t))). constructor; assumption.
Qed.

(* the new key is comparable with (different from) every key already in the tree *)
Definition fresh (a : A) (t : tree) : Prop := all (fun y => lt a y = true \/ lt y a = true) t.

Hypothesis lt_trans : forall x y z, lt x y = true -> lt y z = true -> lt x z = true.

Lemma bst_rotate_right t : bst t -> bst (rotate_right A t).
Proof.
  destruct t as [|c [|c2 al ax ar] x r]; cbn; try tauto.
  intros ((Hax & Hal & Har) & Hr & (Hal' & Har' & Bal & Bar) & Br).
  repeat split; try assumption.
  eapply all_imp; [|exact Hr]. intros y Hy. cbn in Hy. eapply lt_trans; eassumption.
Qed.
Lemma bst_rotate_left t : bst t -> bst (rotate_left A t).
Proof.
  destruct t as [|c l x [|c2 bl bx br]]; cbn; try tauto.
  intros (Hl & (Hbx & Hbl & Hbr) & Bl & (Hbl' & Hbr' & Bbl & Bbr)).
  repeat split; try assumption.
  eapply all_imp; [|exact Hl]. intros y Hy. cbn in Hy. eapply lt_trans; eassumption.
Qed.
Lemma rebalanced_bst t t' : rebalanced t t' -> bst t -> bst t'.
Proof.
  destruct 1; auto using bst_rotate_left, bst_rotate_right; cbn [bst]; intros (Hl & Hr & Bl & Br).
  - rewrite !all_blacken, !bst_blacken. tauto.
  - apply bst_rotate_left. cbn [bst]. rewrite all_rotate_right. auto using bst_rotate_right.
  - apply bst_rotate_right. cbn [bst]. rewrite all_rotate_left. auto using bst_rotate_left.
Qed.

Lemma bst_ins nr a t : bst t -> fresh a t -> bst (ins nr a t).
Proof.
  induction t as [|c l IHl x r IHr]; [cbn; tauto|]. intros (Hl & Hr & Bl & Br) (Fx & Fl & Fr).
  apply (rebalanced_bst _ _ (ins_node nr a c l x r)).
  (* the key has gone to the side of x on which it belongs *)
  destruct (lt x a) eqn:Exa; cbn [bst].
  - auto using all_ins.
  - assert (Hax : lt a x = true) by (destruct Fx as [H|H]; [exact H | congruence]). auto using all_ins.
Qed.

Lemma bst_insert nr br a t : bst t -> fresh a t -> bst (insert nr br a t).
Proof. intros. unfold Model.insert. destruct br; [apply bst_blacken|]; apply bst_ins; assumption. Qed.
Lemma elements_insert nr br a t : Permutation (elements A (insert nr br a t)) (a :: elements A t).
Proof. unfold Model.insert. destruct br; [rewrite elements_blacken|]; apply elements_ins. Qed.

(* all keys pairwise comparable (a strict total order on distinct names gives this) *)
Fixpoint pairwise_cmp (l : list A) : Prop :=
  match l with [] => True | a :: r => Forall (fun y => lt a y = true \/ lt y a = true) r /\ pairwise_cmp r end.

Lemma insert_all_rev nr br l : pairwise_cmp l ->
  bst (insert_all A lt nr br (rev l)) /\ Permutation (elements A (insert_all A lt nr br (rev l))) l.
Proof.
  unfold insert_all. induction l as [|a l IH]; intros Hp.
  - cbn. split; [exact I | constructor].
  - cbn [rev]. rewrite fold_left_app. cbn [fold_left]. cbn in Hp. destruct Hp as [Hf Hp]. destruct (IH Hp) as [B P].
    split.
    + apply bst_insert; [exact B|]. unfold fresh. apply all_elements.
      eapply Permutation_Forall; [apply Permutation_sym; exact P|]. exact Hf.
    + rewrite elements_insert. rewrite P. apply Permutation_refl.
Qed.
Lemma insert_all_sound nr br l : pairwise_cmp (rev l) ->
  bst (insert_all A lt nr br l) /\ Permutation (elements A (insert_all A lt nr br l)) l.
Proof.
  intros Hp. destruct (insert_all_rev nr br (rev l) Hp) as [B P]. rewrite rev_involutive in B, P.
  split; [exact B|]. rewrite P. apply Permutation_sym, Permutation_rev.
Qed.
End RBProofs.

(* Tree.Insert with the two flags as srcgen reads them in the source *)
Lemma rb_as_coded_valid (A : Type) (lt : A -> A -> bool) l :
  rb_valid A (insert_all A lt rb_new_node_red rb_root_blackened l).
Proof. change rb_new_node_red with true. change rb_root_blackened with true. apply rb_insert_all_valid. Qed.

(* with both flags off (redblack.go before its fix: nodes created black, the root never recoloured) three ascending insertions
   give a right spine of three black nodes: black heights 1 and 3 at the root *)
Lemma rb_current_refuted : exists l : list Z, ~ rb_valid Z (insert_all Z Z.ltb false false l).
Proof.
  exists [0; 1; 2]. intros H. apply rb_ok_iff in H. vm_compute in H. discriminate.
Qed.
Lemma rb_current_refuted_two : ~ rb_valid Z (insert_all Z Z.ltb false false [0; 1]).
Proof. intros H. apply rb_ok_iff in H. vm_compute in H. discriminate. Qed.

Lemma forallb_Forall {X} (f : X -> bool) (P : X -> Prop) l : (forall x, f x = true -> P x) -> forallb f l = true -> Forall P l.
Proof. intros H Hf. rewrite forallb_forall in Hf. apply Forall_forall. intros x Hx. apply H, Hf, Hx. Qed.
Lemma map_opt_Forall2 {X Y} (f : X -> option Y) (R : X -> Y -> Prop) l : (forall x y, f x = Some y -> R x y) ->
  forall ys, map_opt f l = Some ys -> Forall2 R l ys.
Proof.
  intros HR. induction l as [|x l IH]; cbn; intros ys H.
  - injection H as <-. constructor.
  - destruct (f x) as [y|] eqn:E; [|discriminate]. destruct (map_opt f l) as [ys'|]; [|discriminate].
    injection H as <-. constructor; [apply HR, E | apply IH; reflexivity].
Qed.
Lemma Forall2_forallb2 {X Y} (P Q : X -> Y -> Prop) (f : X -> Y -> bool) a b : (forall x y, P x y -> f x y = true -> Q x y) ->
  Forall2 P a b -> forallb2 f a b = true -> Forall2 Q a b.
Proof. intros H. induction 1; cbn; intros Hf; [constructor|]. apply andb_true_iff in Hf as [Hxy Hr]. constructor; auto. Qed.
Lemma Forall2_impl_in {X Y} (P Q : X -> Y -> Prop) a b : (forall x y, In y b -> P x y -> Q x y) -> Forall2 P a b -> Forall2 Q a b.
Proof.
  intros H F. induction F as [|x y a b Hxy F IH]; constructor; [apply H; [left; reflexivity | exact Hxy]|].
  apply IH. intros u v Hv. apply H. right. exact Hv.
Qed.
Lemma nth_firstn_lt {X} (l : list X) n k d : (k < n)%nat -> nth k (firstn n l) d = nth k l d.
Proof. revert l k. induction n as [|n IH]; intros [|x l] [|k] H; cbn; try lia; try reflexivity. apply IH. lia. Qed.
Lemma nth_repeat_lt {X} (a d : X) m : forall n, (n < m)%nat -> nth n (repeat a m) d = a.
Proof. induction m as [|m IH]; intros [|n] H; cbn; try lia; auto. apply IH. lia. Qed.
Lemma nodup_range_length (l : list Z) n : NoDup l -> Forall (fun i => 0 <= i < Z.of_nat n) l -> (length l <= n)%nat.
Proof.
  intros Hnd R. rewrite <- (seq_length n 0), <- (map_length Z.of_nat). apply NoDup_incl_length; [exact Hnd|].
  intros j Hj. rewrite Forall_forall in R. specialize (R j Hj). rewrite <- (Z2Nat.id j) by lia. apply in_map, in_seq. lia.
Qed.

(* the positions, counted from j, of the entries that pass a test: what marked, used_from and scan_free compute *)
Fixpoint positions (p : Z -> bool) (j : Z) (t : list Z) : list Z :=
  match t with [] => [] | x :: r => if p x then j :: positions p (j + 1) r else positions p (j + 1) r end.
Lemma positions_In p d t : forall j i,
  In i (positions p j t) <-> j <= i < j + zlen t /\ p (nth (Z.to_nat (i - j)) t d) = true.
Proof.
  induction t as [|x r IH]; intros j i; cbn [positions].
  - rewrite zlen_nil. cbn [In]. lia.
  - rewrite zlen_cons. pose proof (zlen_nonneg r). destruct (Z.lt_trichotomy i j) as [Hlt|[->|Hgt]].
    + destruct (p x); cbn [In]; rewrite IH; intuition lia.
    + (* the head: later positions are above j *)
      assert (Hj : ~ In j (positions p (j + 1) r)) by (rewrite IH; lia).
      rewrite Z.sub_diag. cbn [Z.to_nat nth]. destruct (p x); cbn [In]; intuition lia.
    + replace (Z.to_nat (i - j)) with (S (Z.to_nat (i - (j + 1)))) by lia. cbn [nth].
      destruct (p x); cbn [In]; rewrite IH; intuition lia.
Qed.
Lemma positions_NoDup p t : forall j, NoDup (positions p j t).
Proof.
  induction t as [|x r IH]; intros j; cbn [positions]; [constructor|].
  destruct (p x); [constructor|]; try apply IH. rewrite (positions_In p 0). lia.
Qed.

(* chains in relic's signed tables *)
Inductive schain (t : list Z) : Z -> list Z -> Prop :=
| schain_end : schain t secid_eoc []
| schain_step s l : 0 <= s < zlen t -> schain t (sget t s) l -> schain t s (s :: l).

Lemma set_nat_length {X} n (v : X) l : length (set_nat n v l) = length l.
Proof. revert n; induction l as [|x r IH]; intros [|n]; cbn; auto. Qed.
Lemma sset_zlen t i v : zlen (sset t i v) = zlen t.
Proof. unfold zlen, sset. now rewrite set_nat_length. Qed.
Lemma set_nat_same {X} n (v d : X) l : (n < length l)%nat -> nth n (set_nat n v l) d = v.
Proof. revert n; induction l as [|x r IH]; intros [|n]; cbn; intros H; try lia; auto. apply IH. lia. Qed.
Lemma set_nat_other {X} n m (v d : X) l : n <> m -> nth m (set_nat n v l) d = nth m l d.
Proof. revert n m; induction l as [|x r IH]; intros [|n] [|m]; cbn; intros H; try congruence; auto. Qed.
Lemma sget_sset_same t i v : 0 <= i < zlen t -> sget (sset t i v) i = v.
Proof. intros H. unfold sget, sset. apply set_nat_same. unfold zlen in H. lia. Qed.
Lemma sget_sset_other t i j v : 0 <= i -> 0 <= j -> i <> j -> sget (sset t i v) j = sget t j.
Proof. intros Hi Hj H. unfold sget, sset. apply set_nat_other. lia. Qed.

Lemma scan_free_positions t : forall i count, 0 < count ->
  scan_free i count t = let l := firstn (Z.to_nat count) (positions (fun x => x =? secid_free) i t) in (l, count - zlen l).
Proof.
  induction t as [|x r IH]; intros i count Hc; cbn [scan_free positions].
  - rewrite firstn_nil. cbn. f_equal. lia.
  - unfold mfs_skip. change (-1) with secid_free. destruct (x =? secid_free); cbn [negb]; [|apply IH, Hc].
    replace (Z.to_nat count) with (S (Z.to_nat (count - 1))) by lia. cbn [firstn]. cbv zeta. rewrite zlen_cons.
    destruct (Z.eqb_spec (count - 1) 0) as [E|E].
    + rewrite E. cbn. f_equal. lia.
    + rewrite IH by lia. cbv beta iota zeta. f_equal. lia.
Qed.

Lemma quot_ceil_ge rem per : 0 < rem -> 0 < per -> rem <= Z.quot (rem + per - 1) per * per.
Proof. intros. rewrite Z.quot_div_nonneg by lia. nia. Qed.

Lemma schain_in_range t s l : schain t s l -> Forall (fun j => 0 <= j < zlen t) l.
Proof. induction 1; constructor; auto. Qed.
Lemma schain_elem_used t s l : schain t s l -> forall j, In j l -> sget t j <> secid_free.
Proof.
  induction 1 as [|s l Hs Hc IH]; intros j Hin; [destruct Hin|].
  destruct Hin as [->|Hin]; [|apply IH; exact Hin].
  remember (sget t j) as v eqn:Ev. inversion Hc; subst; unfold secid_eoc, secid_free in *; lia.
Qed.
Lemma schain_preserved t t' s l : schain t s l -> zlen t <= zlen t' -> (forall j, In j l -> sget t' j = sget t j) -> schain t' s l.
Proof.
  induction 1 as [|s l Hs Hc IH]; intros Hl Hsame; [constructor|].
  constructor; [lia|]. rewrite Hsame by (left; reflexivity). apply IH; [exact Hl|]. intros j Hj. apply Hsame. right. exact Hj.
Qed.
Lemma schain_det t s l1 : schain t s l1 -> forall l2, schain t s l2 -> l1 = l2.
Proof.
  induction 1 as [|s l Hs Hc IH]; intros l2 H2; inversion H2; subst; try reflexivity.
  - unfold secid_eoc in *. lia.
  - unfold secid_eoc in *. lia.
  - f_equal. apply IH. assumption.
Qed.
Lemma schain_suffix t s l : schain t s l -> forall x, In x l -> exists a b, l = a ++ x :: b /\ schain t x (x :: b).
Proof.
  induction 1 as [|s l Hs Hc IH]; intros x Hin; [destruct Hin|].
  destruct Hin as [->|Hin].
  - exists [], l. split; [reflexivity|]. constructor; assumption.
  - destruct (IH x Hin) as (a & b & -> & Hx). exists (s :: a), b. split; [reflexivity | exact Hx].
Qed.
(* a sector that came up again would start the same chain again, which would then be longer than itself *)
Lemma schain_NoDup t s l : schain t s l -> NoDup l.
Proof.
  induction 1 as [|s l Hs Hc IH]; constructor; [|exact IH].
  intros Hin. assert (Hfull : schain t s (s :: l)) by (constructor; assumption).
  destruct (schain_suffix _ _ _ Hc s Hin) as (a & b & -> & Hx).
  pose proof (schain_det _ _ _ Hx _ Hfull) as E. inversion E as [E'].
  apply (f_equal (@length Z)) in E'. rewrite app_length in E'. cbn in E'. lia.
Qed.
Lemma schain_length t s l : schain t s l -> (length l <= length t)%nat.
Proof. intros Hc. exact (nodup_range_length _ _ (schain_NoDup _ _ _ Hc) (schain_in_range _ _ _ Hc)). Qed.
Lemma schain_tail_freed t s l : schain t s (s :: l) -> schain (sset t s secid_free) (sget t s) l.
Proof.
  intros Hc. pose proof (schain_NoDup _ _ _ Hc) as Hnd. inversion Hc as [|? ? Hs Hc']; subst. apply NoDup_cons_iff in Hnd as [Hni _].
  eapply schain_preserved; [exact Hc' | rewrite sset_zlen; lia|].
  intros j Hj. pose proof (schain_in_range _ _ _ Hc') as R. rewrite Forall_forall in R. specialize (R j Hj).
  apply sget_sset_other; [lia | lia | intros ->; contradiction].
Qed.

(* freeSectors frees exactly the sectors of the chain it is given *)
Lemma free_chain_spec fuel : forall t s l, schain t s l -> l <> [] -> (length l <= fuel)%nat ->
  exists t', free_chain fuel t s = Ok t' /\ zlen t' = zlen t /\
    (forall j, In j l -> sget t' j = secid_free) /\ (forall j, 0 <= j -> ~ In j l -> sget t' j = sget t j).
Proof.
  induction fuel as [|k IH]; intros t s l Hc Hne Hlen; [destruct l; [congruence | cbn in Hlen; lia]|].
  pose proof (schain_NoDup _ _ _ Hc) as Hnd. destruct Hc as [|s l Hs Hc]; [congruence|]. apply NoDup_cons_iff in Hnd as [Hnotin _].
  pose proof (schain_tail_freed _ _ _ (schain_step _ _ _ Hs Hc)) as Hc2.
  cbn [free_chain]. unfold in_range, free_stop. replace ((0 <=? s) && (s <? zlen t)) with true by lia. cbn [negb].
  inversion Hc as [|? l' Hx _]; subst.
  - (* the chain ends here *)
    change (secid_eoc <? 0) with true. cbv iota.
    eexists. split; [reflexivity|]. split; [apply sset_zlen|]. split.
    + intros j [->|[]]. apply sget_sset_same. exact Hs.
    + intros j Hj Hn. apply sget_sset_other; [lia | exact Hj | intros ->; apply Hn; left; reflexivity].
  - replace (sget t s <? 0) with false by lia.
    destruct (IH _ _ _ Hc2 ltac:(discriminate) ltac:(cbn in Hlen |- *; lia)) as (t' & Hf & Hz & Hfree & Hother).
    exists t'. split; [exact Hf|]. split; [rewrite Hz; apply sset_zlen|]. split.
    + intros j [->|Hj]; [|apply Hfree; exact Hj]. rewrite Hother; [apply sget_sset_same; exact Hs | lia | exact Hnotin].
    + intros j Hj Hn. rewrite Hother; [|exact Hj|intros Hin; apply Hn; right; exact Hin].
      apply sget_sset_other; [lia | exact Hj | intros ->; apply Hn; left; reflexivity].
Qed.
Lemma free_sectors_spec t s l : schain t s l -> l <> [] ->
  exists t', free_sectors t s = Ok t' /\ zlen t' = zlen t /\
    (forall j, In j l -> sget t' j = secid_free) /\ (forall j, 0 <= j -> ~ In j l -> sget t' j = sget t j).
Proof.
  intros Hc Hne. apply free_chain_spec; [exact Hc | exact Hne|]. pose proof (schain_length _ _ _ Hc). lia.
Qed.

Inductive chain (t : list Z) : Z -> list Z -> Prop :=
| chain_end : chain t ENDOFCHAIN []
| chain_step s l : 0 <= s < zlen t -> chain t (znth s t) l -> chain t s (s :: l).

Inductive difat_chain (b : bytes) (ss nsect : Z) : Z -> list Z -> Prop :=
| dc_end : difat_chain b ss nsect ENDOFCHAIN []
| dc_step s l : 0 <= s < nsect -> difat_chain b ss nsect (difat_next b ss s) l -> difat_chain b ss nsect s (s :: l).

Inductive dtree (ents : list dirent) : Z -> tree Z -> Prop :=
| dt_none : dtree ents NOSTREAM E
| dt_node i e l r : nth_ent ents i = Some e -> is_object e = true ->
    dtree ents (d_left e) l -> dtree ents (d_right e) r ->
    dtree ents i (T (if d_color e =? 0 then Red else Black) l i r).

Definition valid_with (b : bytes) (L : layout) : Prop :=
  let h := parse_header b in
  let ss := sector_size h in
  let nsect := sector_count b h in
  let fat := fat_of b ss (l_fatsects L) in
  let ents := dirents b ss (l_dir L) in
  let minifat := fat_of b ss (l_mf L) in
  let owned := l_fatsects L ++ l_difsects L ++ l_dir L ++ l_mf L ++ l_ms L ++ concat (l_big L) in
  let nodes := concat (map (elements Z) (l_trees L)) in
  header_ok b = true /\
  (* DIFAT: its sector chain, the FAT sector list it carries (no gaps), header counts *)
  difat_chain b ss nsect (h_dif0 h) (l_difsects L) /\ zlen (l_difsects L) = h_ndif h /\
  (exists k, difat_entries b h (l_difsects L) = l_fatsects L ++ repeat FREESECT k) /\
  Forall (fun s => 0 <= s < nsect) (l_fatsects L) /\ zlen (l_fatsects L) = h_nfat h /\
  (* the FAT covers the file and allocates nothing beyond it *)
  nsect <= zlen fat /\ (forall i, nsect <= i < zlen fat -> znth i fat = FREESECT) /\
  (* FAT and DIFAT sectors carry their markers and nothing else does *)
  (forall i, In i (l_fatsects L) <-> 0 <= i < zlen fat /\ znth i fat = FATSECT) /\
  (forall i, In i (l_difsects L) <-> 0 <= i < zlen fat /\ znth i fat = DIFSECT) /\
  (* directory chain, mini FAT chain, header counts *)
  chain fat (h_dir0 h) (l_dir L) /\ l_dir L <> [] /\
  (if h_major h =? 3 then h_ndir h = 0 else h_ndir h = zlen (l_dir L)) /\
  chain fat (h_mf0 h) (l_mf L) /\ zlen (l_mf L) = h_nmf h /\
  (* directory entries: syntactically well formed, entry 0 is the only root *)
  Forall (fun e => dirent_ok (h_major h) e = true) ents /\
  (exists root rest, ents = root :: rest /\ d_type root = 5 /\ Forall (fun e => d_type e <> 5) rest /\
     (* mini stream container and the streams stored in it *)
     chain fat (d_start root) (l_ms L) /\ d_size root <= zlen (l_ms L) * ss /\
     (forall i, zlen (l_ms L) * ss / 64 <= i < zlen minifat -> znth i minifat = FREESECT) /\
     Forall2 (fun e ch => chain minifat (d_start e) ch /\ zlen ch = ceil_div (d_size e) 64 /\
                          Forall (fun s => (s + 1) * 64 <= d_size root) ch)
             (mini_streams (h_cutoff h) ents) (l_mini L)) /\
  (* streams at or above the cutoff *)
  Forall2 (fun e ch => chain fat (d_start e) ch /\ zlen ch = ceil_div (d_size e) ss)
          (big_streams (h_cutoff h) ents) (l_big L) /\
  (* every allocated sector belongs to exactly one structure; nothing else is allocated *)
  NoDup owned /\ (forall i, In i owned <-> 0 <= i < nsect /\ znth i fat <> FREESECT) /\
  NoDup (concat (l_mini L)) /\
  (forall i, In i (concat (l_mini L)) <-> 0 <= i < zlen minifat /\ znth i minifat <> FREESECT) /\
  (* each storage's children: a tree of entries, ordered by the MS-CFB name order, valid red-black;
     every stream/storage entry is in exactly one tree *)
  Forall2 (fun e t => dtree ents (d_child e) t /\ bst Z (ent_lt ents) t /\ rb_valid Z t) (storages ents) (l_trees L) /\
  NoDup nodes /\ (forall i, In i nodes <-> exists e, nth_ent ents i = Some e /\ is_object e = true).

Definition cfb_valid (b : bytes) : Prop := exists L, valid_with b L.

Lemma walk_sound fuel t : forall s l, walk fuel t (zlen t) s = Some l -> chain t s l.
Proof.
  induction fuel as [|k IH]; intros s l; cbn [walk]; destruct (Z.eqb_spec s ENDOFCHAIN) as [->|_].
  1, 3: intros [= <-]; constructor.
  - discriminate.
  - destruct ((0 <=? s) && (s <? zlen t)) eqn:B; [|discriminate].
    destruct (walk k t (zlen t) (znth s t)) as [l'|] eqn:W; [|discriminate].
    intros [= <-]. constructor; [lia | apply IH; exact W].
Qed.
Lemma walk_table_sound t s l : walk_table t s = Some l -> chain t s l.
Proof. apply walk_sound. Qed.

Lemma walk_difat_sound fuel b ss nsect : forall s l, walk_difat fuel b ss nsect s = Some l -> difat_chain b ss nsect s l.
Proof.
  induction fuel as [|k IH]; intros s l; cbn [walk_difat]; destruct (Z.eqb_spec s ENDOFCHAIN) as [->|_].
  1, 3: intros [= <-]; constructor.
  - discriminate.
  - destruct ((0 <=? s) && (s <? nsect)) eqn:B; [|discriminate].
    destruct (walk_difat k b ss nsect (difat_next b ss s)) as [l'|] eqn:W; [|discriminate].
    intros [= <-]. constructor; [lia | apply IH; exact W].
Qed.

Lemma build_sound fuel ents : forall i bud t bud', build fuel ents i bud = Some (t, bud') -> dtree ents i t.
Proof.
  induction fuel as [|k IH]; intros i bud t bud'; cbn [build]; destruct (Z.eqb_spec i NOSTREAM) as [->|_].
  1, 3: intros [= <- _]; constructor.
  - discriminate.
  - destruct bud as [|bud]; [discriminate|].
    destruct (nth_ent ents i) as [e|] eqn:Ee; [|discriminate].
    destruct (is_object e) eqn:Eo; [|discriminate].
    destruct (build k ents (d_left e) bud) as [[l b1]|] eqn:El; [|discriminate].
    destruct (build k ents (d_right e) b1) as [[r b2]|] eqn:Er; [|discriminate].
    intros [= <- _]. econstructor; eauto.
Qed.
Lemma build_tree_sound ents i t : build_tree ents i = Some t -> dtree ents i t.
Proof.
  unfold build_tree. destruct (build (S (length ents)) ents i (length ents)) as [[t' b']|] eqn:E; [|discriminate].
  intros [= <-]. eapply build_sound; exact E.
Qed.

Lemma used_then_free l : all_free (drop_used l) = true -> exists k, l = take_used l ++ repeat FREESECT k.
Proof.
  induction l as [|v r IH]; cbn [take_used drop_used]; [exists O; reflexivity|]. destruct (Z.eqb_spec v FREESECT) as [->|_].
  - intros H. exists (S (length r)). cbn [all_free] in H. apply andb_true_iff in H as [_ H]. cbn. f_equal.
    clear IH. induction r as [|x r IH]; [reflexivity|]. cbn in H. apply andb_true_iff in H as [->%Z.eqb_eq H]. cbn. f_equal. exact (IH H).
  - intros H. destruct (IH H) as [k Hk]. exists k. cbn. f_equal. exact Hk.
Qed.
Lemma znth_nth i t : 0 <= i -> znth i t = nth (Z.to_nat i) t FREESECT.
Proof. intros. unfold znth. destruct (i <? 0) eqn:E; [lia|reflexivity]. Qed.
Lemma all_free_skipn l : forall n k, all_free (skipn n l) = true -> (n <= k)%nat -> nth k l FREESECT = FREESECT.
Proof.
  induction l as [|v r IH]; intros n k H Hk; [destruct k; reflexivity|]. destruct n, k; try lia.
  - cbn in H. apply andb_true_iff in H as [H _]. apply Z.eqb_eq, H.
  - apply (IH O k); [|lia]. cbn in H. apply andb_true_iff in H as [_ H]. exact H.
  - apply (IH n k); [exact H | lia].
Qed.
Lemma all_free_zdrop n l : 0 <= n -> all_free (zdrop n l) = true -> forall i, n <= i < zlen l -> znth i l = FREESECT.
Proof. intros Hn H i Hi. rewrite znth_nth by lia. apply (all_free_skipn _ _ _ H). lia. Qed.

Lemma marked_positions v t : forall j, marked v j t = positions (fun x => x =? v) j t.
Proof. induction t as [|x r IH]; intros j; cbn; [reflexivity|]. now rewrite IH. Qed.
Lemma used_from_positions t : forall n j, used_from j n t = positions (fun x => negb (x =? FREESECT)) j (firstn n t).
Proof. induction t as [|x r IH]; intros [|n] j; cbn; try reflexivity. rewrite IH. now destruct (x =? FREESECT). Qed.

Lemma marked_NoDup v t j : NoDup (marked v j t).
Proof. rewrite marked_positions. apply positions_NoDup. Qed.

(* sorted equality gives "same elements, no repetition" *)
Lemma sort_eq_spec l u : list_eqb Z.eqb (ZSort.sort l) u = true -> NoDup u -> NoDup l /\ forall i, In i l <-> In i u.
Proof.
  intros H Hu. apply list_eqb_Z_eq in H. pose proof (ZSort.Permuted_sort l) as P. rewrite H in P. split.
  - exact (Permutation_NoDup (Permutation_sym P) Hu).
  - intros i. split; apply Permutation_in; [exact P | exact (Permutation_sym P)].
Qed.
Lemma sort_marked l v t : list_eqb Z.eqb (ZSort.sort l) (marked v 0 t) = true ->
  NoDup l /\ forall i, In i l <-> 0 <= i < zlen t /\ znth i t = v.
Proof.
  rewrite marked_positions. intros H. destruct (sort_eq_spec _ _ H (positions_NoDup _ _ _)) as [N M]. split; [exact N|].
  intros i. rewrite M, (positions_In _ FREESECT), Z.sub_0_r, Z.eqb_eq.
  split; intros [Hi Hv]; (split; [exact Hi|]); rewrite znth_nth in * by lia; exact Hv.
Qed.
Lemma sort_used l n t : 0 <= n <= zlen t -> list_eqb Z.eqb (ZSort.sort l) (used_from 0 (Z.to_nat n) t) = true ->
  NoDup l /\ forall i, In i l <-> 0 <= i < n /\ znth i t <> FREESECT.
Proof.
  rewrite used_from_positions. intros Hn H. destruct (sort_eq_spec _ _ H (positions_NoDup _ _ _)) as [N M]. split; [exact N|].
  intros i. rewrite M, (positions_In _ FREESECT), Z.sub_0_r, negb_true_iff, Z.eqb_neq. unfold zlen in *. rewrite firstn_length_le by lia.
  split; intros [Hi Hv]; (split; [lia|]); rewrite znth_nth, nth_firstn_lt in * by lia; exact Hv.
Qed.

Lemma object_indices_spec ents i :
  In i (object_indices ents) <-> exists e, nth_ent ents i = Some e /\ is_object e = true.
Proof.
  unfold object_indices, nth_ent. rewrite marked_positions, (positions_In _ FREESECT), Z.sub_0_r, Z.eqb_eq, zlen_map. split.
  - intros [Hi Hv]. replace (i <? 0) with false by lia.
    destruct (nth_error ents (Z.to_nat i)) as [e|] eqn:Ee; [|apply nth_error_None in Ee; unfold zlen in Hi; lia].
    exists e. split; [reflexivity|]. rewrite (nth_error_nth _ _ _ (map_nth_error _ _ _ Ee)) in Hv. now destruct (is_object e).
  - intros (e & He & Ho). destruct (i <? 0) eqn:E; [discriminate|]. split.
    + assert (Z.to_nat i < length ents)%nat by (apply nth_error_Some; congruence). unfold zlen. lia.
    + rewrite (nth_error_nth _ _ _ (map_nth_error _ _ _ He)), Ho. reflexivity.
Qed.

Lemma cfb_layout_facts b L : cfb_layout b = Some L ->
  let h := parse_header b in
  let ss := sector_size h in
  let nsect := sector_count b h in
  let fat := fat_of b ss (l_fatsects L) in
  let ents := dirents b ss (l_dir L) in
  let minifat := fat_of b ss (l_mf L) in
  difat_chain b ss nsect (h_dif0 h) (l_difsects L) /\
  l_fatsects L = take_used (difat_entries b h (l_difsects L)) /\
  Forall (fun s => 0 <= s < nsect) (l_fatsects L) /\
  chain fat (h_dir0 h) (l_dir L) /\ chain fat (h_mf0 h) (l_mf L) /\
  (exists root rest, ents = root :: rest /\ chain fat (d_start root) (l_ms L)) /\
  Forall2 (fun e ch => chain fat (d_start e) ch) (big_streams (h_cutoff h) ents) (l_big L) /\
  Forall2 (fun e ch => chain minifat (d_start e) ch) (mini_streams (h_cutoff h) ents) (l_mini L) /\
  Forall2 (fun e t => dtree ents (d_child e) t) (storages ents) (l_trees L).
Proof.
  unfold cfb_layout. intros H.
  set (h := parse_header b) in *. set (ss := sector_size h) in *. set (nsect := sector_count b h) in *.
  destruct (walk_difat (S (Z.to_nat nsect)) b ss nsect (h_dif0 h)) as [difsects|] eqn:Ed; [|discriminate].
  set (fatsects := take_used (difat_entries b h difsects)) in *.
  destruct (negb (forallb (fun s => (0 <=? s) && (s <? nsect)) fatsects)) eqn:Ef; [discriminate|].
  set (fat := fat_of b ss fatsects) in *.
  destruct (walk_table fat (h_dir0 h)) as [dir|] eqn:Edir; [|discriminate].
  destruct (walk_table fat (h_mf0 h)) as [mf|] eqn:Emf; [|discriminate].
  destruct (negb (forallb (fun s => s <? nsect) (dir ++ mf))) eqn:Eb; [discriminate|].
  set (ents := dirents b ss dir) in *. set (minifat := fat_of b ss mf) in *.
  destruct ents as [|root rest] eqn:Eents; [discriminate|].
  destruct (walk_table fat (d_start root)) as [ms|] eqn:Ems; [|discriminate].
  destruct (map_opt _ (big_streams _ _)) as [big|] eqn:Ebig; [|discriminate].
  destruct (map_opt _ (mini_streams _ _)) as [mini|] eqn:Emini; [|discriminate].
  destruct (map_opt _ (storages _)) as [trees|] eqn:Etrees; [|discriminate].
  injection H as <-. cbn [l_difsects l_fatsects l_dir l_mf l_ms l_big l_mini l_trees].
  fold fatsects. fold fat. fold minifat. subst ents. rewrite Eents.
  repeat split.
  - eapply walk_difat_sound; exact Ed.
  - apply negb_false_iff in Ef. revert Ef. apply forallb_Forall. lia.
  - apply walk_table_sound; exact Edir.
  - apply walk_table_sound; exact Emf.
  - exists root, rest. split; [reflexivity | apply walk_table_sound; exact Ems].
  - eapply map_opt_Forall2; [|exact Ebig]. intros e ch. apply walk_table_sound.
  - eapply map_opt_Forall2; [|exact Emini]. intros e ch. apply walk_table_sound.
  - eapply map_opt_Forall2; [|exact Etrees]. intros e t. apply build_tree_sound.
Qed.

Lemma header_ok_sizes b : header_ok b = true -> 0 < sector_size (parse_header b) /\ 0 <= sector_count b (parse_header b).
Proof.
  unfold header_ok, sector_count, sector_size. cbv zeta. set (h := parse_header b). intros H.
  (* of the eleven conjuncts: the version / sector shift pairs (5th) and sector size <= file length (10th) *)
  apply andb_true_iff in H as [H _]. apply andb_true_iff in H as [H Hle%Z.leb_le].
  do 4 apply andb_true_iff in H as [H _]. apply andb_true_iff in H as [_ Hv]. rewrite orb_true_iff, !andb_true_iff in Hv.
  assert (Hs : 0 <= h_sshift h) by (destruct Hv as [[_ ->%Z.eqb_eq]|[_ ->%Z.eqb_eq]]; discriminate).
  assert (Hss : 0 < 2 ^ h_sshift h) by (apply Z.pow_pos_nonneg; [reflexivity | exact Hs]).
  split; [exact Hss|]. apply Z.le_0_sub, Z.div_le_lower_bound; [exact Hss | rewrite Z.mul_1_r; exact Hle].
Qed.

(* a list of numbered conditions as a conjunction (cheaper to take apart than the boolean by rewriting) *)
Fixpoint all_hold (l : list (Z * bool)) : Prop := match l with [] => True | c :: r => snd c = true /\ all_hold r end.
Lemma forallb_all_hold l : forallb snd l = true -> all_hold l.
Proof. induction l as [|c r IH]; cbn; [trivial|]. intros [Hc Hr]%andb_true_iff. split; [exact Hc | exact (IH Hr)]. Qed.

(* relic upper-cases a code unit with unicode.ToUpper of the toolchain (srcgen table go_upper_runs, kept when the result fits 16
   bits, surrogate halves untouched); the MS-CFB order uses the Unicode Character Database table of C18/UnicodeSpec.v.  The two
   tables are the same list of runs and no run leaves the 16-bit range, so the two functions agree on EVERY code unit. *)
Lemma go_table_is_spec_table : go_upper_runs = spec_upper_runs.
Proof. reflexivity. Qed.
Lemma spec_runs_in_range :
  forallb (fun r => let '(lo, hi, d) := r in (0 <=? lo) && (hi <=? 65535) && (hi + d <=? 65535)) spec_upper_runs = true.
Proof. vm_compute. reflexivity. Qed.
(* with such a table only 16-bit units are moved, and they stay 16-bit units *)
Lemma lookup_upper_range runs u :
  forallb (fun r => let '(lo, hi, d) := r in (0 <=? lo) && (hi <=? 65535) && (hi + d <=? 65535)) runs = true ->
  lookup_upper runs u = u \/ 0 <= u <= 65535 /\ lookup_upper runs u <= 65535.
Proof.
  induction runs as [|[[lo hi] d] r IH]; cbn [lookup_upper forallb]; intros H; [left; reflexivity|].
  apply andb_true_iff in H as [H1 H2]. destruct ((lo <=? u) && (u <=? hi)) eqn:E; [right; lia | apply IH; exact H2].
Qed.
Lemma upper_unit_is_upcase u : upper_unit u = upcase u.
Proof.
  unfold upper_unit, upcase, upper_unit_is_surrogate, go_to_upper, upper_unit_fits. rewrite go_table_is_spec_table.
  replace ((u >=? 55296) && (u <=? 57343)) with ((55296 <=? u) && (u <=? 57343)) by lia.
  destruct ((55296 <=? u) && (u <=? 57343)); [reflexivity|].
  destruct (lookup_upper_range spec_upper_runs u spec_runs_in_range) as [H|[_ H]].
  - rewrite H. destruct (u <=? 65535); reflexivity.
  - replace (lookup_upper spec_upper_runs u <=? 65535) with true by lia. reflexivity.
Qed.
Lemma unit_agrees_all u : unit_agrees u = true.
Proof. unfold unit_agrees. rewrite upper_unit_is_upcase. apply Z.eqb_refl. Qed.
Lemma forallb_unit_agrees l : forallb unit_agrees l = true.
Proof. induction l as [|x l IH]; cbn; [reflexivity|]. rewrite unit_agrees_all. exact IH. Qed.
(* Both name orders compare a key lexicographically: the MS-CFB order the length and the upper-cased units, lessDirEnt the
   NameLength and the upper-cased units its loop looks at.  What a search tree needs of its comparator is proved once, for keys. *)
Fixpoint lex_lt (a b : list Z) : bool :=
  match a, b with
  | x :: a', y :: b' => if x =? y then lex_lt a' b' else x <? y
  | _, _ => false
  end.
Lemma lex_lt_irrefl a : lex_lt a a = false.
Proof. induction a as [|x a IH]; cbn; [reflexivity|]. rewrite Z.eqb_refl. exact IH. Qed.
Lemma lex_lt_trans a : forall b c, lex_lt a b = true -> lex_lt b c = true -> lex_lt a c = true.
Proof.
  induction a as [|x a IH]; intros [|y b] [|z c]; cbn; try discriminate.
  destruct (Z.eqb_spec x y) as [->|Hxy]; destruct (Z.eqb_spec y z) as [->|Hyz]; intros H1 H2.
  - eapply IH; eassumption.
  - exact H2.
  - rewrite (proj2 (Z.eqb_neq _ _) Hxy). exact H1.
  - replace (x =? z) with false by lia. lia.
Qed.
Lemma lex_lt_total a : forall b, length a = length b -> lex_lt a b = false -> lex_lt b a = false -> a = b.
Proof.
  induction a as [|x a IH]; intros [|y b] Hl; cbn in Hl; try lia; [reflexivity|]. cbn. rewrite (Z.eqb_sym y x).
  destruct (Z.eqb_spec x y) as [->|Hne]; [|lia]. intros H1 H2. f_equal. apply IH; [lia | assumption | assumption].
Qed.

Lemma units_lt_lex a : forall b, units_lt a b = lex_lt (map upcase a) (map upcase b).
Proof.
  induction a as [|x a IH]; intros [|y b]; cbn [map lex_lt units_lt]; try reflexivity. rewrite IH.
  destruct (Z.eqb_spec (upcase x) (upcase y)), (Z.ltb_spec (upcase x) (upcase y)), (Z.ltb_spec (upcase y) (upcase x)); reflexivity || lia.
Qed.
Lemma cfb_less_lex a b : cfb_less a b = lex_lt (zlen a :: map upcase a) (zlen b :: map upcase b).
Proof.
  unfold cfb_less. cbn [lex_lt]. rewrite units_lt_lex.
  destruct (Z.eqb_spec (zlen a) (zlen b)), (Z.ltb_spec (zlen a) (zlen b)), (Z.ltb_spec (zlen b) (zlen a)); reflexivity || lia.
Qed.
Lemma cfb_less_trans a b c : cfb_less a b = true -> cfb_less b c = true -> cfb_less a c = true.
Proof. rewrite !cfb_less_lex. apply lex_lt_trans. Qed.
Lemma ent_lt_trans ents i j k : ent_lt ents i j = true -> ent_lt ents j k = true -> ent_lt ents i k = true.
Proof. unfold ent_lt. apply cfb_less_trans. Qed.
