(* FmtPS/ProofsPS2.v — PowerShell, second part: the format record and the laws on the guarded embed, the refusal classes of
   signer and verifier, the text conversions (UTF-8 / UTF-16), protection, and the witness files that refute the
   unrestricted statements. *)
From Relic Require Import Base.Prelude Base.Enc Base.Lists Base.Slice Generated.FmtPS_gen FmtPS.Model FmtPS.Lib FmtPS.ProofsPS Laws.Pipeline.

Definition ps_format (style : Z) : format bytes :=
  mkFormat bytes (ps_hashin style) (ps_embed_wf style) (ps_extract style) (ps_payload style).

Lemma embed_wf_inv style f b g : ps_embed_wf style f b = Ok g ->
  ps_dom style f = true /\ all_bytes b = true /\ ps_embed style f b = Ok g.
Proof.
  unfold ps_embed_wf. destruct (ps_dom style f); [|discriminate]. destruct (all_bytes b); [|discriminate]. cbn [andb]. auto.
Qed.

Theorem ps_law_extract style : law_extract bytes (ps_format style).
Proof.
  unfold law_extract, ps_format. cbn [f_embed f_extract]. intros f b g He.
  apply embed_wf_inv in He as [Hd [Hb He]]. eapply ps_law_extract_dom; eauto.
Qed.
Theorem ps_law_hashin style : law_hashin bytes (ps_format style).
Proof.
  unfold law_hashin, ps_format. cbn [f_embed f_hashin]. intros f b g He.
  apply embed_wf_inv in He as [Hd [Hb He]]. eapply ps_law_hashin_dom; eauto.
Qed.
Theorem ps_law_payload style : law_payload bytes (ps_format style).
Proof.
  unfold law_payload, ps_format. cbn [f_embed f_payload]. intros f b g He.
  apply embed_wf_inv in He as [Hd [Hb He]]. eapply ps_law_payload_dom; eauto.
Qed.

(* what the signer's scan can return *)
Lemma dig_scan_result i first flen ok : forall ls saved pos,
  match dig_scan i first flen ok saved pos ls with
  | SBad => ls = [] \/ ok = false
  | SMalf => begin_too_early i first saved ls
  | SPanic => False
  | SText _ _ tsz _ => tsz <= zlen saved + zlen (concat ls)
  end.
Proof.
  induction ls as [|l ls IH]; intros saved pos; [now left|].
  cbn [dig_scan concat]. rewrite zlen_app. pose proof (zlen_nonneg l). pose proof (zlen_nonneg (concat ls)).
  unfold ps_dig_is_first. destruct (bytes_eqb l first) eqn:El.
  - (* the guard in front of the slice is the slice's own bound check *)
    rewrite short_keep. fold (keep_of i saved). destruct (keep_of i saved <? 0) eqn:Ek.
    + apply bytes_eqb_eq in El. subst l. exists [], ls. split; [reflexivity|]. split; [constructor|]. cbn [List.last].
      unfold keep_of, ps_dig_keep16, ps_dig_keep8 in Ek. destruct i; lia.
    + pose proof (zlen_ztake_le (keep_of i saved) saved). lia.
  - destruct ls as [|l2 ls2].
    + destruct ok; cbn [sprepend concat]; [rewrite zlen_nil; lia|now right].
    + specialize (IH l (pos + zlen l)). destruct (dig_scan i first flen ok l (pos + zlen l) (l2 :: ls2)); cbn [sprepend].
      * destruct IH as [IH|IH]; [discriminate|now right].
      * destruct IH as [Ls [rest [E3 [Hn Hs]]]]. exists (l :: Ls), rest. split; [rewrite E3; reflexivity|].
        apply bytes_eqb_neq in El. split; [constructor; assumption|]. rewrite last_cons. exact Hs.
      * exact IH.
      * lia.
Qed.

(* hashin refuses (Err) exactly for an unknown style, in UTF-16 mode on a line feed byte followed by a non-zero byte, or when the begin line of a
   signature block comes first in the file / after a line too short to hold the line break that the signer would strip *)
Theorem ps_refuses_clean style f e : ps_hashin style f = Err e ->
  (spec_style style = None /\ e = E_STYLE) \/
  (e = E_UTF16 /\ spec_bom16 f = true /\ exists pre z r, f = pre ++ 10 :: z :: r /\ z <> 0) \/
  (e = E_MALFORMED /\ exists st en, spec_style style = Some (st, en) /\
     begin_too_early (spec_bom16 f) (ps_marker (spec_bom16 f) (ps_first_of st en)) [] (fst (ps_lines (spec_bom16 f) f))).
Proof.
  unfold ps_hashin, ps_digest. rewrite spec_style_eq. change (spec_bom16 f) with (ps_is16 f).
  destruct (style_lookup style) as [[st en]|]; [|cbn [bind]; intros E; inversion E; left; auto].
  pose proof (ps_lines_shape (ps_is16 f) f) as Hs. destruct (ps_lines (ps_is16 f) f) as [ls ok]. cbn [fst].
  pose proof (dig_scan_result (ps_is16 f) (ps_marker (ps_is16 f) (ps_first_of st en)) (zlen f) ok ls [] 0) as Hr.
  destruct (dig_scan _ _ _ _ _ _ _); cbn [bind]; intros E; inversion E; right.
  - (* a failed read: no lines at all, or readLine's error *)
    left. assert (ok = false) as -> by (destruct Hr as [-> | ->]; [now inversion Hs|reflexivity]).
    destruct (lshape_false_form _ _ _ _ Hs eq_refl) as [Hi Hex]. auto.
  - right. split; [reflexivity|]. exists st, en. split; [reflexivity|exact Hr].
Qed.
(* the model never panics in DigestPowershell (after relic commit 4f70e5f) *)
Theorem ps_hashin_no_panic style f p : ps_hashin style f <> Panic p.
Proof.
  unfold ps_hashin, ps_digest. destruct (style_lookup style) as [[st en]|]; [|discriminate].
  destruct (ps_lines (ps_is16 f) f) as [ls ok].
  pose proof (dig_scan_result (ps_is16 f) (ps_marker (ps_is16 f) (ps_first_of st en)) (zlen f) ok ls [] 0) as Hr.
  destruct (dig_scan _ _ _ _ _ _ _); cbn [bind]; try discriminate. destruct Hr.
Qed.
(* apart from a misplaced begin line, the 8-bit reading never refuses a known style *)
Theorem ps_8bit_never_err style f e : spec_style style <> None -> spec_bom16 f = false -> e <> E_MALFORMED -> ps_hashin style f <> Err e.
Proof.
  intros Hs Hb Hm E. destruct (ps_refuses_clean _ _ _ E) as [[E1 _]|[[_ [E1 _]]|[E1 _]]]; congruence.
Qed.

Lemma ver_found_not_none i st en first last ok : forall ls, ver_scan i st en first last ok true ls <> Ok None.
Proof.
  induction ls as [|l ls IH]; cbn [ver_scan]; [discriminate|].
  unfold ps_ver_notsigned. cbn [negb]. rewrite andb_false_r.
  destruct (match ls with [] => ok | _ :: _ => false end); [discriminate|].
  destruct (ps_ver_is_last true l last); [discriminate|].
  destruct (ps_ver_malformed _ st en); [discriminate|].
  destruct (ps_ver_overlap _ _); [discriminate|].
  destruct (Z.ltb _ _); [discriminate|].
  destruct (b64_dec _); cbn [bind]; try discriminate.
  destruct (ver_scan i st en first last ok true ls) as [[acc|]| |]; cbn [bind]; try discriminate. contradiction.
Qed.
Lemma b64_dec_q_no_panic : forall n l, (length l <= n)%nat -> forall q, b64_dec_q l <> Panic q.
Proof.
  induction n as [|n IH]; intros l Hl q.
  - destruct l; [discriminate|cbn in Hl; lia].
  - destruct l as [|c0 [|c1 [|c2 [|c3 r]]]]; try discriminate. cbn [b64_dec_q].
    destruct (b64_val c0); [|discriminate]. destruct (b64_val c1); [|discriminate].
    destruct (b64_val c2).
    + destruct (b64_val c3).
      * assert (Hr : (length r <= n)%nat) by (cbn [length] in Hl; lia).
        specialize (IH r Hr q). destruct (b64_dec_q r); cbn [bind]; try discriminate. exact IH.
      * destruct (c3 =? 61); [destruct r|]; discriminate.
    + destruct ((c2 =? 61) && (c3 =? 61)); [destruct r|]; discriminate.
Qed.
Lemma b64_dec_no_panic l q : b64_dec l = Panic q -> False.
Proof. unfold b64_dec. apply (b64_dec_q_no_panic _ _ (le_n _)). Qed.
(* VerifyPowershell never panics (after relic commit 0aded3e: overlapping comment prefix and suffix are refused) *)
Lemma ver_scan_no_panic i st en first last ok : forall ls found p, ver_scan i st en first last ok found ls <> Panic p.
Proof.
  induction ls as [|l ls IH]; intros found p; cbn [ver_scan]; [discriminate|].
  destruct (ps_ver_notsigned _ found); [discriminate|].
  destruct (match ls with [] => ok | _ :: _ => false end); [discriminate|].
  destruct (ps_ver_is_last found l last); [discriminate|].
  destruct found.
  - destruct (ps_ver_malformed _ st en); [discriminate|].
    unfold ps_ver_overlap. destruct (Z.ltb _ _) eqn:E; [discriminate|]. cbv iota.
    destruct (b64_dec _) as [d|e|q] eqn:Eb; cbn [bind]; try discriminate.
    + specialize (IH true p). destruct (ver_scan i st en first last ok true ls) as [[acc|]| |]; cbn [bind]; try discriminate.
      intros X. apply IH. exact X.
    + exfalso. eapply b64_dec_no_panic; exact Eb.
  - destruct (ps_ver_is_first l first); apply IH.
Qed.
Theorem ps_extract_no_panic style f p : ps_extract style f <> Panic p.
Proof.
  unfold ps_extract. destruct (style_lookup style) as [[st en]|]; [|discriminate].
  destruct (ps_lines (ps_is16 f) f) as [ls ok]. apply ver_scan_no_panic.
Qed.

(* []rune(string) resynchronises at a line feed, so converting a text line by line is converting the text *)
Lemma go_runes_n_fuel : forall n m l, (length l <= n)%nat -> (length l <= m)%nat -> go_runes_n n l = go_runes_n m l.
Proof.
  induction n as [|n IH]; intros m l Hn Hm.
  - destruct l; [|cbn in Hn; lia]. destruct m; reflexivity.
  - destruct l as [|b0 r]; [destruct m; reflexivity|]. destruct m as [|m]; [cbn in Hm; lia|].
    cbn [go_runes_n]. destruct (dec1 b0 r) as [c w]. f_equal. cbn [length] in *.
    apply IH; unfold zdrop; rewrite skipn_length; lia.
Qed.
Lemma go_runes_cons b0 r : go_runes (b0 :: r) = let '(c, w) := dec1 b0 r in c :: go_runes (zdrop (w - 1) r).
Proof.
  unfold go_runes. cbn [length go_runes_n]. destruct (dec1 b0 r) as [c w]. f_equal.
  apply go_runes_n_fuel; unfold zdrop; rewrite skipn_length; lia.
Qed.
Lemma go_runes_nil : go_runes [] = [].
Proof. reflexivity. Qed.

Lemma is_cont_10 : is_cont 10 = false.
Proof. reflexivity. Qed.
(* finishes a case of dec1_lf once the bytes in front of the line feed are named: what is left of the decoder's matches and tests
   is split, and every case shows the same pair for both inputs *)
Ltac dec_fin :=
  repeat match goal with |- context [match ?l with [] => _ | _ :: _ => _ end] => destruct l end;
  repeat match goal with |- context [if ?c then _ else _] => destruct c end;
  eexists _, _; (split; [reflexivity|split; [reflexivity|
    rewrite ?zlen_cons, ?zlen_nil; try match goal with |- context [zlen ?x] => pose proof (zlen_nonneg x) end; split; lia]]).
Lemma dec1_lf b0 x r : no10 x -> exists c w,
  dec1 b0 (x ++ 10 :: r) = (c, w) /\ dec1 b0 (x ++ [10]) = (c, w) /\ 1 <= w /\ w - 1 <= zlen x.
Proof.
  intros Hx. unfold dec1.
  destruct (b0 <? 128). { exists b0, 1. pose proof (zlen_nonneg x). repeat split; lia. }
  destruct ((192 <=? b0) && (b0 <? 224)).
  { destruct x as [|b1 x]; cbn [app]; cbv beta iota; rewrite ?is_cont_10; cbn [andb]; dec_fin. }
  destruct ((224 <=? b0) && (b0 <? 240)).
  { destruct x as [|b1 [|b2 x]]; cbn [app]; cbv beta iota; rewrite ?is_cont_10, ?andb_false_r; cbn [andb]; dec_fin. }
  destruct ((240 <=? b0) && (b0 <? 248)).
  { destruct x as [|b1 [|b2 [|b3 x]]]; cbn [app]; cbv beta iota; rewrite ?is_cont_10, ?andb_false_r; cbn [andb]; dec_fin. }
  exists RUNE_ERR, 1. pose proof (zlen_nonneg x). repeat split; lia.
Qed.
Lemma go_runes_lf r : forall n body, (length body <= n)%nat -> no10 body ->
  go_runes (body ++ 10 :: r) = go_runes (body ++ [10]) ++ go_runes r.
Proof.
  induction n as [|n IH]; intros body Hn Hb.
  - destruct body; [|cbn in Hn; lia]. cbn [app]. rewrite !go_runes_cons. reflexivity.
  - destruct body as [|b0 x]; [cbn [app]; rewrite !go_runes_cons; reflexivity|].
    apply no10_cons in Hb as [Hb0 Hx]. cbn [app]. rewrite !go_runes_cons.
    destruct (dec1_lf b0 x r Hx) as [c [w [E1 [E2 [Hw1 Hw2]]]]]. rewrite E1, E2. cbn [app]. f_equal.
    rewrite !zdrop_app_l by lia. apply IH.
    + unfold zdrop. rewrite skipn_length. cbn [length] in Hn. lia.
    + now apply no10_zdrop.
Qed.
Lemma to_utf16_app_line l r : cline false l -> to_utf16 (l ++ r) = to_utf16 l ++ to_utf16 r.
Proof.
  intros [body [-> Hb]]. cbn [nl]. unfold to_utf16. rewrite <- app_assoc. cbn [app].
  rewrite (go_runes_lf r (length body) body) by (auto; lia). now rewrite !flat_map_app.
Qed.
Lemma to_utf16_concat Ls s : Forall (cline false) Ls -> to_utf16 (concat Ls ++ s) = concat (map to_utf16 Ls) ++ to_utf16 s.
Proof.
  induction 1 as [|l Ls Hl HLs IH]; [reflexivity|]. cbn [concat map]. rewrite <- !app_assoc, to_utf16_app_line by assumption. now rewrite IH.
Qed.
Lemma pre_of_conv i Ls s : Forall (cline i) Ls -> pre_of i Ls s = ps_conv i (concat Ls ++ s).
Proof.
  intros H. unfold pre_of. destruct i; cbn [ps_conv].
  - now rewrite map_id.
  - symmetry. now apply to_utf16_concat.
Qed.

Lemma dom_hash_payload style f : ps_dom style f = true -> exists p,
  ps_payload style f = Ok p /\ ps_hashin style f = Ok (ps_conv (ps_is16 f) p).
Proof.
  intros Hd. destruct (ps_digest_dom _ _ Hd) as [st [en [Ls [s [fd [ssz [Es Hsty H1 H2 Hdig _ _ H6]]]]]]].
  exists (concat Ls ++ s). split; [eapply payload_shape; eauto|].
  unfold ps_hashin. rewrite Hdig. cbn [bind d_pre]. f_equal. apply pre_of_conv. eapply Forall_app_l; eauto.
Qed.

(* ---- RFC 3629 round trip through Go's decoder, and RFC 2781 = utf16.Encode on scalar values *)
Lemma go_runes_enc1 c R : valid_scalar c = true -> go_runes (utf8_enc1 c ++ R) = c :: go_runes R.
Proof.
  intros Hv. unfold valid_scalar in Hv. unfold utf8_enc1.
  destruct (c <? 128) eqn:E1.
  { cbn [app]. rewrite go_runes_cons. unfold dec1. rewrite E1. reflexivity. }
  destruct (c <? 2048) eqn:E2.
  { assert (128 <= c < 2048) as Hc by lia. clear Hv E1 E2. cbn [app]. rewrite go_runes_cons. unfold dec1, is_cont.
    replace (192 + c / 64 <? 128) with false by lia.
    replace ((192 <=? 192 + c / 64) && (192 + c / 64 <? 224)) with true by lia.
    replace ((128 <=? 128 + c mod 64) && (128 + c mod 64 <=? 191)) with true by lia.
    replace ((192 + c / 64) mod 32 * 64 + (128 + c mod 64) mod 64) with c by lia.
    replace (127 <? c) with true by lia. reflexivity. }
  destruct (c <? 65536) eqn:E3.
  { assert (2048 <= c < 65536 /\ ~ 55296 <= c <= 57343) as Hc by lia. clear Hv E1 E2 E3. cbn [app]. rewrite go_runes_cons. unfold dec1, is_cont.
    replace (224 + c / 4096 <? 128) with false by lia.
    replace ((192 <=? 224 + c / 4096) && (224 + c / 4096 <? 224)) with false by lia.
    replace ((224 <=? 224 + c / 4096) && (224 + c / 4096 <? 240)) with true by lia.
    replace ((128 <=? 128 + (c / 64) mod 64) && (128 + (c / 64) mod 64 <=? 191)) with true by lia.
    replace ((128 <=? 128 + c mod 64) && (128 + c mod 64 <=? 191)) with true by lia.
    replace ((224 + c / 4096) mod 16 * 4096 + (128 + (c / 64) mod 64) mod 64 * 64 + (128 + c mod 64) mod 64) with c by lia.
    replace (2047 <? c) with true by lia.
    replace (negb ((55296 <=? c) && (c <=? 57343))) with true by lia. reflexivity. }
  assert (65536 <= c <= 1114111) as Hc by lia. clear Hv E1 E2 E3. cbn [app]. rewrite go_runes_cons. unfold dec1, is_cont.
  replace (240 + c / 262144 <? 128) with false by lia.
  replace ((192 <=? 240 + c / 262144) && (240 + c / 262144 <? 224)) with false by lia.
  replace ((224 <=? 240 + c / 262144) && (240 + c / 262144 <? 240)) with false by lia.
  replace ((240 <=? 240 + c / 262144) && (240 + c / 262144 <? 248)) with true by lia.
  replace ((128 <=? 128 + (c / 4096) mod 64) && (128 + (c / 4096) mod 64 <=? 191)) with true by lia.
  replace ((128 <=? 128 + (c / 64) mod 64) && (128 + (c / 64) mod 64 <=? 191)) with true by lia.
  replace ((128 <=? 128 + c mod 64) && (128 + c mod 64 <=? 191)) with true by lia.
  replace ((240 + c / 262144) mod 8 * 262144 + (128 + (c / 4096) mod 64) mod 64 * 4096 + (128 + (c / 64) mod 64) mod 64 * 64 + (128 + c mod 64) mod 64) with c by lia.
  replace (65535 <? c) with true by lia. replace (c <=? 1114111) with true by lia. reflexivity.
Qed.
Lemma scalars_ok_forall cps : scalars_ok cps = true <-> Forall (fun c => valid_scalar c = true) cps.
Proof. unfold scalars_ok. rewrite forallb_forall, Forall_forall. tauto. Qed.
Lemma go_runes_utf8_enc cps : scalars_ok cps = true -> go_runes (utf8_enc cps) = cps.
Proof.
  intros H. apply scalars_ok_forall in H. induction H as [|c cps Hc Hr IH]; [reflexivity|].
  unfold utf8_enc. cbn [flat_map]. rewrite go_runes_enc1 by assumption. f_equal. exact IH.
Qed.
Lemma u16_units_rfc c : valid_scalar c = true -> u16_units c = rfc2781_units c.
Proof.
  unfold valid_scalar, u16_units, rfc2781_units. intros H.
  destruct (Z_lt_dec c 65536) as [E|E].
  - replace (((0 <=? c) && (c <? 55296)) || ((57344 <=? c) && (c <? 65536))) with true by lia.
    replace (c <? 65536) with true by lia. reflexivity.
  - replace (((0 <=? c) && (c <? 55296)) || ((57344 <=? c) && (c <? 65536))) with false by lia.
    replace (c <? 65536) with false by lia.
    replace ((65536 <=? c) && (c <=? 1114111)) with true by lia.
    replace (((c - 65536) / 1024) mod 1024) with ((c - 65536) / 1024) by lia. reflexivity.
Qed.
(* Go's conversion of UTF-8 text to UTF-16LE is the RFC 2781 encoding of the code points the RFC 3629 bytes stand for *)
Theorem to_utf16_spec cps : scalars_ok cps = true -> to_utf16 (utf8_enc cps) = utf16le_enc cps.
Proof.
  intros H. unfold to_utf16, utf16le_enc. rewrite go_runes_utf8_enc by assumption. f_equal.
  apply scalars_ok_forall in H. induction H as [|c cps Hc Hr IH]; [reflexivity|]. cbn [flat_map]. now rewrite IH, u16_units_rfc.
Qed.

(* C05: what relic digests is the specification's digest input: the content in front of the block — verbatim for a UTF-16LE
   file, as RFC 2781 UTF-16LE of its code points for a file that is RFC 3629 text *)
Theorem ps_hashin_eq_spec style f p : ps_dom style f = true -> ps_payload style f = Ok p ->
  (spec_bom16 f = true -> ps_hashin style f = Ok p) /\
  (spec_bom16 f = false -> forall cps, scalars_ok cps = true -> p = utf8_enc cps -> ps_hashin style f = Ok (utf16le_enc cps)).
Proof.
  intros Hd Hp. destruct (dom_hash_payload _ _ Hd) as [p' [Hp' Hh]]. rewrite Hp in Hp'. injection Hp' as <-.
  change (spec_bom16 f) with (ps_is16 f). split; intros Hb; rewrite Hb in Hh; cbn [ps_conv] in Hh.
  - exact Hh.
  - intros cps Hc ->. rewrite Hh. f_equal. now apply to_utf16_spec.
Qed.

Lemma units_of_le16 us : Forall (fun u => 0 <= u < 65536) us -> units_of (flat_map le16 us) = us.
Proof.
  induction 1 as [|u us Hu Hr IH]; [reflexivity|]. cbn [flat_map le16 app units_of]. rewrite IH. f_equal. lia.
Qed.
Lemma u16_units_range c : valid_scalar c = true -> Forall (fun u => 0 <= u < 65536) (u16_units c).
Proof.
  unfold valid_scalar, u16_units. intros H.
  destruct (((0 <=? c) && (c <? 55296)) || ((57344 <=? c) && (c <? 65536))) eqn:E; [constructor; [lia|constructor]|].
  replace ((65536 <=? c) && (c <=? 1114111)) with true by lia. constructor; [lia|constructor; [lia|constructor]].
Qed.
Lemma u16_decode_units rs : Forall (fun c => valid_scalar c = true) rs -> u16_decode (flat_map u16_units rs) = rs.
Proof.
  induction 1 as [|c rs Hc Hr IH]; [reflexivity|]. cbn [flat_map]. unfold valid_scalar in Hc. unfold u16_units at 1.
  destruct (((0 <=? c) && (c <? 55296)) || ((57344 <=? c) && (c <? 65536))) eqn:E.
  - cbn [app u16_decode]. replace ((c <? 55296) || (57344 <=? c)) with true by lia. now rewrite IH.
  - replace ((65536 <=? c) && (c <=? 1114111)) with true by lia. cbn [app u16_decode].
    set (hi := 55296 + ((c - 65536) / 1024) mod 1024). set (lo := 56320 + (c - 65536) mod 1024).
    replace ((hi <? 55296) || (57344 <=? hi)) with false by (unfold hi; lia).
    replace (hi <? 56320) with true by (unfold hi; lia).
    replace ((56320 <=? lo) && (lo <? 57344)) with true by (unfold lo; lia).
    rewrite IH. f_equal. unfold hi, lo. lia.
Qed.
Lemma units_range_flat rs : Forall (fun c => valid_scalar c = true) rs -> Forall (fun u => 0 <= u < 65536) (flat_map u16_units rs).
Proof. induction 1 as [|c rs Hc Hr IH]; [constructor|]. cbn [flat_map]. apply Forall_app. split; [now apply u16_units_range|exact IH]. Qed.

Lemma dec1_valid b0 r : 0 <= b0 -> valid_scalar (fst (dec1 b0 r)) = true /\ 1 <= snd (dec1 b0 r).
Proof.
  (* a decoded value has passed the decoder's own range checks; everything else is U+FFFD *)
  assert (forall (t : bool) c k, (t = true -> valid_scalar c = true) -> 1 <= k ->
            valid_scalar (fst (if t then (c, k) else (RUNE_ERR, 1))) = true /\ 1 <= snd (if t then (c, k) else (RUNE_ERR, 1))) as G.
  { intros [|] c k Hc Hk; cbn [fst snd]; [split; [now apply Hc|exact Hk]|split; [reflexivity|lia]]. }
  pose proof (G false 0 1 ltac:(discriminate) ltac:(lia)) as G0. cbv iota in G0.
  intros Hb. unfold dec1. cbv zeta.
  destruct (b0 <? 128) eqn:E0; [unfold valid_scalar; cbn [fst snd]; split; lia|].
  destruct ((192 <=? b0) && (b0 <? 224)).
  { destruct r as [|b1 r]; [exact G0|]. apply G; [|lia]. intros _. unfold valid_scalar. lia. }
  destruct ((224 <=? b0) && (b0 <? 240)).
  { destruct r as [|b1 [|b2 r]]; try exact G0. apply G; [|lia]. intros H. unfold valid_scalar. lia. }
  destruct ((240 <=? b0) && (b0 <? 248)).
  { destruct r as [|b1 [|b2 [|b3 r]]]; try exact G0. apply G; [|lia]. intros H. unfold valid_scalar. lia. }
  exact G0.
Qed.
Lemma go_runes_n_valid : forall n l, all_bytes l = true -> Forall (fun c => valid_scalar c = true) (go_runes_n n l).
Proof.
  induction n as [|n IH]; intros l Hl; [constructor|]. destruct l as [|b0 r]; [constructor|].
  cbn [go_runes_n]. apply all_bytes_forall in Hl. inversion Hl as [|? ? Hb Hr]; subst.
  pose proof (dec1_valid b0 r ltac:(lia)) as [Hv _]. destruct (dec1 b0 r) as [c w]. cbn [fst] in Hv.
  constructor; [exact Hv|]. apply IH. apply all_bytes_forall. unfold zdrop. now apply Forall_skipn.
Qed.
Lemma to_utf16_inj a b : all_bytes a = true -> all_bytes b = true -> to_utf16 a = to_utf16 b -> go_runes a = go_runes b.
Proof.
  intros Ha Hb E. unfold to_utf16 in E.
  pose proof (go_runes_n_valid (length a) a Ha) as Va. pose proof (go_runes_n_valid (length b) b Hb) as Vb.
  fold (go_runes a) in Va. fold (go_runes b) in Vb.
  apply (f_equal units_of) in E. rewrite !units_of_le16 in E by (now apply units_range_flat).
  apply (f_equal u16_decode) in E. now rewrite !u16_decode_units in E.
Qed.
Lemma utf8_enc_inj_runes c1 c2 : scalars_ok c1 = true -> scalars_ok c2 = true ->
  go_runes (utf8_enc c1) = go_runes (utf8_enc c2) -> c1 = c2.
Proof. intros H1 H2. now rewrite !go_runes_utf8_enc. Qed.

Lemma payload_bytes style f p : all_bytes f = true -> ps_payload style f = Ok p -> all_bytes p = true.
Proof.
  unfold ps_payload. destruct (spec_style style) as [[st en]|]; [|discriminate].
  destruct (find_sub _ f 0); intros H E; inversion E; subst; [now apply all_bytes_ztake|exact H].
Qed.

(* two files of the domain in the same encoding with equal digest input have the same content in front of the block:
   byte for byte when UTF-16LE; as sequences of code points (Go's reading: an invalid byte is U+FFFD) when 8-bit, hence
   byte for byte when both contents are RFC 3629 text *)
Theorem ps_protect style g1 g2 p1 p2 :
  ps_dom style g1 = true -> ps_dom style g2 = true -> all_bytes g1 = true -> all_bytes g2 = true ->
  spec_bom16 g1 = spec_bom16 g2 -> ps_hashin style g1 = ps_hashin style g2 ->
  ps_payload style g1 = Ok p1 -> ps_payload style g2 = Ok p2 ->
  (spec_bom16 g1 = true -> p1 = p2) /\
  (spec_bom16 g1 = false -> go_runes p1 = go_runes p2 /\
     forall c1 c2, scalars_ok c1 = true -> scalars_ok c2 = true -> p1 = utf8_enc c1 -> p2 = utf8_enc c2 -> p1 = p2).
Proof.
  intros D1 D2 B1 B2 Hb Hh P1 P2.
  destruct (dom_hash_payload _ _ D1) as [q1 [Q1 H1]]. destruct (dom_hash_payload _ _ D2) as [q2 [Q2 H2]].
  rewrite P1 in Q1. rewrite P2 in Q2. injection Q1 as <-. injection Q2 as <-.
  change (spec_bom16 g1) with (ps_is16 g1) in *. change (spec_bom16 g2) with (ps_is16 g2) in *.
  rewrite H1, H2, <- Hb in Hh. injection Hh as Hh.
  split; intros E; rewrite E in Hh; cbn [ps_conv] in Hh; [exact Hh|].
  assert (go_runes p1 = go_runes p2) as Hr by (apply to_utf16_inj; eauto using payload_bytes).
  split; [exact Hr|]. intros c1 c2 S1 S2 -> ->. f_equal. now apply utf8_enc_inj_runes.
Qed.

(* witness files, where the unrestricted statements fail (Properties.v: *_refuted) *)
Definition w_hash_begin : bytes := ps_first_of [35; 32] [].      (* "# SIG # Begin signature block" CR LF *)
Definition w_hash_end : bytes := ps_last_of [35; 32] [].         (* "# SIG # End signature block" CR LF *)
Definition w_block1 : bytes := w_hash_begin ++ [35; 32; 65; 81; 61; 61; 13; 10] ++ w_hash_end.   (* block holding the blob [1]: "# AQ==" *)

(* W1: the last line of an unsigned script is the begin-marker text without line end *)
Definition w_marker_last : bytes := [120; 13; 10] ++ [35; 32] ++ ps_begin.

(* W2: an existing block preceded by LF instead of CR LF *)
Definition w_foreign_lf : bytes := [97; 98; 10] ++ w_block1.

(* a signed script "a" CR LF block (W3 appends text behind the end line, W4 replaces the separator by "X" LF) *)
Definition w_signed : bytes := [97; 13; 10] ++ w_block1.

(* W5 (C01) the begin marker as first line, or after a line shorter than the two bytes the signer strips: refused with
   "malformed powershell signature" (an index-out-of-range panic before relic commit 4f70e5f) although the verifier finds a block *)
Theorem ps_begin_first_refused :
  ps_hashin 1 w_block1 = Err E_MALFORMED /\ ps_embed 1 w_block1 [1] = Err E_MALFORMED /\ ps_hashin 1 (10 :: w_block1) = Err E_MALFORMED
  /\ ps_extract 1 w_block1 = Ok (Some [1]).
Proof. vm_compute. repeat split; reflexivity. Qed.
