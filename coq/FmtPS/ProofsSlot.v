(* FmtPS/ProofsSlot.v — the Debian signature SLOT: signing a package that already carries a signature of the same role — under
   either spelling of the member name, System V / GNU ("_gpgbuilder/", GNU ar, debsigs) or BSD / common ("_gpgbuilder", dpkg-deb,
   relic) — replaces that member.  Domain deb_wf2 (Model.v): every name field is a spelling of a proper logical name, and the
   logical names are pairwise different. *)
From Relic Require Import Base.Prelude Base.Enc Base.Lists Base.Slice Generated.FmtPS_gen FmtPS.Model FmtPS.Lib FmtPS.ProofsAR FmtPS.ProofsWalk FmtPS.ProofsDEB Laws.Pipeline.

(* pairwise different logical names: at most one member per slot *)
Lemma distinct_app_single k : forall l, distinct_names l = true -> Forall (fun n => bytes_eqb n k = false) l -> distinct_names (l ++ [k]) = true.
Proof.
  induction l as [|n l IH]; intros Hd Hk; [reflexivity|]. cbn [app distinct_names] in *. apply andb_true_iff in Hd as [H1 H2].
  inversion Hk as [|? ? Hn Hl]; subst. rewrite existsb_app. cbn [existsb]. rewrite Hn, orb_false_r. apply negb_true_iff in H1. rewrite H1.
  cbn [negb andb]. now apply IH.
Qed.
Lemma distinct_before k : forall x y, distinct_names (x ++ k :: y) = true -> Forall (fun n => bytes_eqb n k = false) x.
Proof.
  induction x as [|h x IH]; intros y H; [constructor|]. cbn [app distinct_names] in H. apply andb_true_iff in H as [H1 H2].
  constructor; [|now apply (IH y)]. apply negb_true_iff in H1. rewrite existsb_app in H1. apply orb_false_iff in H1 as [_ H1].
  cbn [existsb] in H1. now apply orb_false_iff in H1 as [H1 _].
Qed.
Lemma bytes_eqb_sym a b : bytes_eqb a b = bytes_eqb b a.
Proof. apply Slice.bytes_eqb_sym. Qed.
Lemma lslot_others role a x b : distinct_names (map ent_lname (a ++ x :: b)) = true -> lslot role x = true ->
  Forall (fun e => lslot role e = false) a /\ Forall (fun e => lslot role e = false) b.
Proof.
  intros Hd Hx. unfold lslot in *. apply bytes_eqb_eq in Hx. rewrite map_app in Hd. cbn [map] in Hd. rewrite Hx in Hd. split.
  - apply distinct_before in Hd. rewrite Forall_forall in *. intros e He. apply Hd. now apply in_map.
  - apply distinct_split in Hd. rewrite Forall_forall in *. intros e He. apply Hd. now apply in_map.
Qed.
Lemma filter_none {A} (p : A -> bool) l : Forall (fun x => p x = false) l -> filter p l = [].
Proof. intros H. apply Lists.filter_none, Forall_forall, H. Qed.
Lemma filter_all {A} (p : A -> bool) l : Forall (fun x => p x = false) l -> filter (fun x => negb (p x)) l = l.
Proof. intros H. apply Lists.filter_all. intros x Hx. rewrite Forall_forall in H. now rewrite (H x Hx). Qed.

(* signing on entries with pairwise different logical names: the new member is the only one in the slot, the others are untouched *)
Lemma sign_l_slot role new es : ent_lname new = spec_sig_name role -> distinct_names (map ent_lname es) = true ->
  filter (lslot role) (spec_sign_l role new es) = [new] /\
  filter (fun e => negb (lslot role e)) (spec_sign_l role new es) = filter (fun e => negb (lslot role e)) es /\
  distinct_names (map ent_lname (spec_sign_l role new es)) = true.
Proof.
  intros Hnl Wd. assert (lslot role new = true) as Hnew by (unfold lslot; rewrite Hnl; apply bytes_eqb_refl).
  destruct (spec_sign_l_cases role new es) as [a [old [b [-> [-> [Hb [[-> [-> Ha]]|[x [-> Hx]]]]]]]]]; cbn [app] in Wd.
  - rewrite app_nil_r in Wd. split; [|split].
    + rewrite filter_app. cbn [filter]. now rewrite Hnew, (filter_none _ a Ha).
    + rewrite !filter_app. cbn [filter app]. now rewrite Hnew.
    + rewrite map_app. cbn [map]. apply distinct_app_single; [exact Wd|].
      rewrite Forall_forall in *. intros n Hin. apply in_map_iff in Hin as [e [<- He]]. specialize (Ha e He). unfold lslot in Ha. now rewrite Hnl.
  - destruct (lslot_others role a x b Wd Hx) as [Ha _]. split; [|split].
    + rewrite filter_app. cbn [filter]. now rewrite Hnew, (filter_none _ a Ha), (filter_none _ b Hb).
    + rewrite !filter_app. cbn [filter app]. now rewrite Hnew, Hx.
    + rewrite map_app in *. cbn [map] in *. unfold lslot in Hx. apply bytes_eqb_eq in Hx. now rewrite Hnl, <- Hx.
Qed.

Record wf2_form (ctl : bytes -> bytes -> bool) (f : bytes) (es : list ent) : Prop := mkWf2 {
  w2_base : wf_base ctl f es;
  w2_distinct : distinct_names (map ent_lname es) = true
}.
Lemma deb_wf2_form ctl f : deb_wf2 ctl f = true -> exists es, wf2_form ctl f es.
Proof.
  unfold deb_wf2. destruct (ar_spec_parse f) as [es|] eqn:Ep; [|discriminate]. intros H.
  apply andb_true_iff in H as [H H5]. apply andb_true_iff in H as [Hg H4]. apply forallb3 in Hg.
  apply spec_parse_sound in Ep as ->. exists es. split; [now apply wf_base_intro|exact H4].
Qed.
Lemma wf2_form_wf ctl f es : wf2_form ctl f es -> deb_wf2 ctl f = true.
Proof.
  intros [W Hd]. unfold deb_wf2. rewrite (wb_parse _ _ _ W), (proj2 (forallb3 ent_ok ent_spelled_ok ent_mode_ok es) (wb_good _ _ _ W)).
  now rewrite Hd, (scan_base _ _ _ W).
Qed.
Lemma deb_embed_form2 ctl role mtime f blob g : deb_embed_wf2 ctl role mtime f blob = Ok g ->
  exists es, wf2_form ctl f es /\ embedded ctl role mtime f blob g es.
Proof.
  intros He. apply guard_inv in He as [Hw [Hr [Hb He]]]. destruct (deb_wf2_form _ _ Hw) as [es W]. exists es. split; [exact W|].
  now apply embed_base; [apply W| | |].
Qed.

Lemma ent_eqb_refl e : ent_eqb e e = true.
Proof. unfold ent_eqb. now rewrite !bytes_eqb_refl. Qed.
Lemma list_eqb_refl {A} (eqb : A -> A -> bool) : (forall x, eqb x x = true) -> forall l, list_eqb eqb l l = true.
Proof. intros H. induction l as [|x l IH]; [reflexivity|]. cbn [list_eqb]. now rewrite H, IH. Qed.

Definition deb_format2 (ctl : bytes -> bytes -> bool) (role : bytes) (mtime : Z) : format (list (bytes * bytes)) :=
  mkFormat (list (bytes * bytes)) (deb_hashin ctl) (deb_embed_wf2 ctl role mtime) (deb_extract role) deb_payload.

Theorem deb_law_hashin2 ctl role mtime : law_hashin _ (deb_format2 ctl role mtime).
Proof. intros f b g He. destruct (deb_embed_form2 _ _ _ _ _ _ He) as [es [_ E]]. exact (embedded_hashin _ _ _ _ _ _ _ E). Qed.
Theorem deb_law_payload2 ctl role mtime : law_payload _ (deb_format2 ctl role mtime).
Proof. intros f b g He. destruct (deb_embed_form2 _ _ _ _ _ _ He) as [es [_ E]]. exact (embedded_payload _ _ _ _ _ _ _ E). Qed.
Theorem deb_law_extract2 ctl role mtime : law_extract _ (deb_format2 ctl role mtime).
Proof. intros f b g He. destruct (deb_embed_form2 _ _ _ _ _ _ He) as [es [_ E]]. exact (embedded_extract _ _ _ _ _ _ _ E). Qed.

(* C08: no stale signature of the role is left for the verifier: every entry of Verify's role map whose role is `role`, with or
   without a terminating slash, is the new signature under the key `role` *)
Theorem deb_no_stale_signature ctl role mtime f b g : deb_embed_wf2 ctl role mtime f b = Ok g ->
  exists sg, deb_sigs g = Ok sg /\ lookup_last role sg = Some b /\
    forall r s, In (r, s) sg -> strip_slash r = role -> r = role /\ s = b.
Proof.
  intros He. destruct (deb_embed_form2 _ _ _ _ _ _ He) as [es [[_ Hd] E]].
  exists (sig_pairs (spec_sign_l role (new_ent role mtime b) es)).
  split; [exact (embedded_sigs _ _ _ _ _ _ _ E)|]. split; [exact (embedded_lookup _ _ _ _ _ _ _ E)|].
  (* such an entry comes from a member in the slot, and the only one there is the new member *)
  destruct (sign_l_slot role (new_ent role mtime b) es (embedded_lname _ _ _ _ _ _ _ E) Hd) as [Hone _]. destruct E as [_ Hrole _ _ Hn _].
  intros r s Hrs Hk. apply in_sig_pairs in Hrs as [e [He' [Hs [-> ->]]]]. pose proof (role_key_lslot role e (role_nonempty role Hrole) Hs Hk) as Hsl.
  assert (In e (filter (lslot role) (spec_sign_l role (new_ent role mtime b) es))) as Hf by (apply filter_In; auto).
  rewrite Hone in Hf. destruct Hf as [<-|[]]. split; [|reflexivity]. rewrite Hn. apply zdrop_gpg.
Qed.

(* distinct logical names give distinct stored names, of all members and so of those that are not signatures *)
Lemma distinct_filter {A} (f : A -> bytes) (p : A -> bool) : forall l, distinct_names (map f l) = true -> distinct_names (map f (filter p l)) = true.
Proof.
  induction l as [|x l IH]; intros H; [reflexivity|]. cbn [map distinct_names] in H. apply andb_true_iff in H as [H1 H2]. cbn [filter].
  destruct (p x); [|now apply IH]. cbn [map distinct_names]. rewrite IH by assumption. rewrite andb_true_r.
  apply negb_true_iff in H1. apply negb_true_iff. destruct (existsb (bytes_eqb (f x)) (map f (filter p l))) eqn:E; [|reflexivity].
  apply existsb_exists in E as [n [Hin Hn]]. apply in_map_iff in Hin as [y [<- Hy]]. apply filter_In in Hy as [Hy _].
  assert (existsb (bytes_eqb (f x)) (map f l) = true); [|congruence]. apply existsb_exists. exists (f y). split; [now apply in_map|exact Hn].
Qed.
Lemma distinct_finer {A} (f g : A -> bytes) : (forall x y, g x = g y -> f x = f y) -> forall l, distinct_names (map f l) = true -> distinct_names (map g l) = true.
Proof.
  intros Hfg. induction l as [|x l IH]; intros H; [reflexivity|]. cbn [map distinct_names] in *. apply andb_true_iff in H as [H1 H2].
  rewrite IH by assumption. rewrite andb_true_r. apply negb_true_iff in H1. apply negb_true_iff.
  destruct (existsb (bytes_eqb (g x)) (map g l)) eqn:E; [|reflexivity].
  apply existsb_exists in E as [n [Hin Hn]]. apply in_map_iff in Hin as [y [<- Hy]]. apply bytes_eqb_eq in Hn.
  assert (existsb (bytes_eqb (f x)) (map f l) = true); [|congruence]. apply existsb_exists. exists (f y). split; [now apply in_map|].
  apply bytes_eqb_eq. now apply Hfg.
Qed.

(* witnesses *)
Definition w_name_gpgbuilder : bytes := spec_gpg ++ [98; 117; 105; 108; 100; 101; 114].                 (* "_gpgbuilder" *)
Definition w_role_builder : bytes := [98; 117; 105; 108; 100; 101; 114].
(* a package whose members were all written by GNU ar (names terminated by a slash), signed in role builder by debsigs *)
Definition w_deb_gnu : bytes :=
  spec_ar_magic ++ ar_wmember (w_name_control ++ [47]) 0 33188 [1; 2; 3] ++ ar_wmember (w_name_data ++ [47]) 0 33188 [4; 5]
  ++ ar_wmember (w_name_gpgbuilder ++ [47]) 0 33188 [9; 9; 9].
(* a dpkg-deb package with a debsigs signature appended by GNU ar *)
Definition w_deb_mixed : bytes := w_deb ++ ar_wmember (w_name_gpgbuilder ++ [47]) 0 33188 [9; 9; 9].
(* the role under BOTH spellings at once: outside the domain (logical names not pairwise different) *)
Definition w_deb_both : bytes := w_deb ++ ar_wmember (w_name_gpgbuilder ++ [47]) 0 33188 [9; 9; 9] ++ ar_wmember w_name_gpgbuilder 0 33188 [8; 8].
(* an 11-character role: the member name has 15 characters, its System V spelling fills the 16-byte field *)
Definition w_role11 : bytes := repeat 97 11.
Definition w_deb_role11 : bytes := w_deb ++ ar_wmember (spec_gpg ++ w_role11 ++ [47]) 0 33188 [9; 9; 9].
