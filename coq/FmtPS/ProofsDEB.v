(* FmtPS/ProofsDEB.v — the Debian theorems on the domain deb_wf (name fields without '/': there the logical name of a member is its
   name and spec_sign_l is spec_sign), relic's checkSig, and the witnesses. *)
From Relic Require Import Base.Prelude Base.Enc Base.Lists Base.Slice Generated.FmtPS_gen FmtPS.Model FmtPS.Lib FmtPS.ProofsAR FmtPS.ProofsWalk Laws.Pipeline.

Lemma zslice_at_end {A} (a b : list A) lo hi : zlen a = lo -> zlen b = hi - lo -> zslice lo hi (a ++ b) = b.
Proof. intros H1 H2. apply zslice_app_tail; lia. Qed.
Lemma forallb_Forall {A} (p : A -> bool) l : forallb p l = true <-> Forall (fun x => p x = true) l.
Proof. apply Lists.forallb_Forall. Qed.

Lemma replace_last_ext (p q : ent -> bool) new : forall es, Forall (fun e => p e = q e) es -> replace_last p new es = replace_last q new es.
Proof. induction 1 as [|e es He Hes IH]; [reflexivity|]. cbn [replace_last]. now rewrite IH, He. Qed.
Lemma spec_sign_plain role new es : Forall ent_plain es -> spec_sign_l role new es = spec_sign role new es.
Proof.
  intros H. unfold spec_sign_l, spec_sign. rewrite (replace_last_ext (lslot role) (fun e => bytes_eqb (ent_name e) (spec_sig_name role)) new es); [reflexivity|].
  eapply Forall_impl; [|exact H]. intros e He. unfold lslot. now rewrite (plain_lname e He).
Qed.

Record wf_form (ctl : bytes -> bytes -> bool) (f : bytes) (es : list ent) : Prop := mkWf {
  wf_base_ : wf_base ctl f es;
  wf_plain : Forall ent_plain es;
  wf_distinct : distinct_names (map ent_name (filter nonsig es)) = true
}.
Lemma deb_wf_form ctl f : deb_wf ctl f = true -> exists es, wf_form ctl f es.
Proof.
  unfold deb_wf. destruct (ar_spec_parse f) as [es|] eqn:Ep; [|discriminate]. intros H.
  apply andb_true_iff in H as [H H5]. apply andb_true_iff in H as [Hp H4]. apply forallb3 in Hp.
  apply spec_parse_sound in Ep as ->. exists es. constructor; [|exact Hp|exact H4].
  apply wf_base_intro; [|exact H5]. eapply Forall_impl; [|exact Hp]. apply plain_good.
Qed.
Lemma wf_form_wf ctl f es : wf_form ctl f es -> deb_wf ctl f = true.
Proof.
  intros [W Hp Hd]. unfold deb_wf. rewrite (wb_parse _ _ _ W), (proj2 (forallb3 ent_ok ent_name_ok ent_mode_ok es) Hp).
  fold nonsig. now rewrite Hd, (scan_base _ _ _ W).
Qed.
Lemma deb_embed_form ctl role mtime f blob g : deb_embed_wf ctl role mtime f blob = Ok g ->
  exists es, wf_form ctl f es /\ embedded ctl role mtime f blob g es.
Proof.
  intros He. apply guard_inv in He as [Hw [Hr [Hb He]]]. destruct (deb_wf_form _ _ Hw) as [es W]. exists es. split; [exact W|].
  now apply embed_base; [apply W| | |].
Qed.

Definition deb_format (ctl : bytes -> bytes -> bool) (role : bytes) (mtime : Z) : format (list (bytes * bytes)) :=
  mkFormat (list (bytes * bytes)) (deb_hashin ctl) (deb_embed_wf ctl role mtime) (deb_extract role) deb_payload.

Theorem deb_law_hashin ctl role mtime : law_hashin _ (deb_format ctl role mtime).
Proof. intros f b g He. destruct (deb_embed_form _ _ _ _ _ _ He) as [es [_ E]]. exact (embedded_hashin _ _ _ _ _ _ _ E). Qed.
Theorem deb_law_payload ctl role mtime : law_payload _ (deb_format ctl role mtime).
Proof. intros f b g He. destruct (deb_embed_form _ _ _ _ _ _ He) as [es [_ E]]. exact (embedded_payload _ _ _ _ _ _ _ E). Qed.
Theorem deb_law_extract ctl role mtime : law_extract _ (deb_format ctl role mtime).
Proof. intros f b g He. destruct (deb_embed_form _ _ _ _ _ _ He) as [es [_ E]]. exact (embedded_extract _ _ _ _ _ _ _ E). Qed.

(* C05 / C03: the signed package is the specification's signing operation applied to the parsed package *)
Theorem deb_embed_eq_spec ctl role mtime f b g es : deb_embed_wf ctl role mtime f b = Ok g -> ar_spec_parse f = Some es ->
  g = ar_spec_file (spec_sign role (mkEnt (ar_whdr (spec_sig_name role) mtime 33188 (zlen b)) b) es).
Proof.
  intros He Hp. destruct (deb_embed_form _ _ _ _ _ _ He) as [es' [[W Hpl _] E]]. rewrite (wb_parse _ _ _ W) in Hp. injection Hp as <-.
  rewrite <- spec_sign_plain by assumption. exact (wb_file _ _ _ (em_g _ _ _ _ _ _ _ E)).
Qed.

(* an error is raised at a truncated header or by the control.tar check, or it comes from the rest of the walk *)
Lemma ar_scan_err : forall fuel verify chk pos l e, ar_scan fuel verify chk pos l = Err e ->
  e = E_SHORT \/ e = E_CONTROL.
Proof.
  induction fuel as [|fuel IH]; intros verify chk pos l e; [discriminate|]. cbn [ar_scan].
  assert (forall p x (k : list member * Z -> list member * Z), (r <- ar_scan fuel verify chk p x ;; Ok (k r)) = Err e -> e = E_SHORT \/ e = E_CONTROL) as Hrec.
  { intros p x k. destruct (ar_scan fuel verify chk p x) eqn:E; cbn [bind]; [discriminate| |discriminate]. intros [= <-]. eauto. }
  destruct (zlen l =? 0); [discriminate|].
  destruct (zlen l <? 60); [destruct (verify || deb_next_err_returns); [intros [= <-]; now left|discriminate]|].
  destruct (zlen (ar_trim _) <? 3); [discriminate|].
  destruct (go_parse_int _ <? 0); [destruct (_ && negb verify); [apply Hrec|discriminate]|].
  destruct (negb _ && negb _); [intros [= <-]; now right|].
  destruct (zlen (zdrop 60 l) <? _); [discriminate|apply Hrec].
Qed.

Lemma sig_pairs_exists es : negb (match sig_pairs es with [] => true | _ :: _ => false end) = existsb ent_is_sig es.
Proof.
  induction es as [|e es IH]; [reflexivity|]. unfold sig_pairs in *. cbn [filter existsb]. destruct (ent_is_sig e); [reflexivity|exact IH].
Qed.

Lemma name16 e : ent_ok e = true -> pad_sp 16 (ent_name e) = zslice 0 16 (e_hdr e).
Proof.
  intros H. pose proof (field16 e H) as L. unfold ent_name. pose proof (rtrim_length (zslice 0 16 (e_hdr e))).
  rewrite pad_sp_short by lia. now apply rtrim_spec_field.
Qed.
Lemma ent_ser_spec e : ent_ok e = true -> ent_ser e = spec_ser (zslice 0 16 (e_hdr e), e_data e).
Proof. intros H. unfold ent_ser, spec_ser. cbn [fst snd]. now rewrite name16. Qed.
(* C05: relic's digest input is the specification's *)
Theorem deb_hashin_eq_spec ctl f : deb_wf ctl f = true -> deb_hashin ctl f = deb_spec_hashin f.
Proof.
  intros Hw. destruct (deb_wf_form _ _ Hw) as [es [W _ _]].
  unfold deb_spec_hashin. rewrite (hashin_base _ _ _ W), (wb_parse _ _ _ W). f_equal. f_equal.
  unfold spec_payload_of. fold nonsig. rewrite map_map. apply map_ext_in. intros e He.
  apply filter_In in He as [He _]. pose proof (wb_good _ _ _ W) as Wg. rewrite Forall_forall in Wg. apply ent_ser_spec. apply (Wg e He).
Qed.

Definition nd_ok (nd : bytes * bytes) : Prop := length (fst nd) = 16%nat /\ zlen (snd nd) < 256 ^ 8.
Lemma spec_ser_inj : forall l1 l2, Forall nd_ok l1 -> Forall nd_ok l2 -> concat (map spec_ser l1) = concat (map spec_ser l2) -> l1 = l2.
Proof.
  induction l1 as [|[n1 d1] l1 IH]; intros [|[n2 d2] l2] H1 H2 E; cbn [map concat] in E.
  - reflexivity.
  - exfalso. inversion H2 as [|? ? [L _] _]; subst. cbn [fst] in L. apply (f_equal (@length Z)) in E. unfold spec_ser in E. cbn [fst] in E.
    rewrite !app_length in E. cbn [length] in E. lia.
  - exfalso. inversion H1 as [|? ? [L _] _]; subst. cbn [fst] in L. apply (f_equal (@length Z)) in E. unfold spec_ser in E. cbn [fst] in E.
    rewrite !app_length in E. cbn [length] in E. lia.
  - inversion H1 as [|? ? [La Lb] H1']; subst. inversion H2 as [|? ? [Lc Ld] H2']; subst. cbn [fst snd] in *.
    unfold spec_ser in E. cbn [fst snd] in E. rewrite <- !app_assoc in E.
    apply app_inv_length in E as [-> E]; [|lia].
    apply app_inv_length in E as [E8 E]; [|now rewrite !be_enc_length].
    apply (f_equal be_dec) in E8. pose proof (zlen_nonneg d1). pose proof (zlen_nonneg d2).
    rewrite !be_dec_enc in E8 by (change (Z.of_nat 8) with 8; lia).
    apply app_inv_length in E as [_ E]; [|now rewrite !be_enc_length].
    apply app_inv_length in E as [-> E]; [|unfold zlen in E8; lia].
    f_equal. now apply IH.
Qed.
Lemma payload_nd_ok es : Forall ent_good es -> Forall nd_ok (spec_payload_of es).
Proof.
  intros Hg. unfold spec_payload_of. apply Forall_forall. intros nd Hin. apply in_map_iff in Hin as [e [<- He]].
  apply filter_In in He as [He _]. rewrite Forall_forall in Hg. destruct (Hg e He) as [Hok _].
  destruct (ent_ok_facts e Hok) as [_ _ _ Hs]. split; cbn [fst snd]; [now apply field16|]. change (256 ^ 8) with 18446744073709551616. lia.
Qed.
(* C02: equal digest inputs, equal payloads *)
Theorem deb_protect ctl g1 g2 : deb_wf ctl g1 = true -> deb_wf ctl g2 = true ->
  deb_hashin ctl g1 = deb_hashin ctl g2 -> deb_payload g1 = deb_payload g2.
Proof.
  intros W1 W2. rewrite !deb_hashin_eq_spec by assumption.
  destruct (deb_wf_form _ _ W1) as [e1 [[P1 _ G1 _ _] _ _]]. destruct (deb_wf_form _ _ W2) as [e2 [[P2 _ G2 _ _] _ _]].
  unfold deb_spec_hashin, deb_payload. rewrite P1, P2. intros E. injection E as E. f_equal.
  apply spec_ser_inj; auto using payload_nd_ok.
Qed.

Lemma check_lines_ok : forall lines dg, check_lines lines dg = Ok tt ->
  Forall (fun ln => lookup_last (snd ln) dg = Some (fst ln) /\ fst ln <> []) lines.
Proof.
  induction lines as [|[sums name] lines IH]; intros dg H; [constructor|]. cbn [check_lines] in H.
  unfold deb_cs_unknown, deb_cs_mismatch in H.
  destruct (lookup_last name dg) as [c|] eqn:El; [|discriminate].
  destruct (bytes_eqb c []) eqn:E1; [discriminate|]. destruct (bytes_eqb c sums) eqn:E2; [|discriminate]. cbn [negb] in H.
  apply bytes_eqb_eq in E2. subst c. apply bytes_eqb_neq in E1. constructor; [cbn [fst snd]; auto|now apply IH].
Qed.
(* relic's own manifest passes relic's check: lines and digests built from the same (distinctly named) members *)
Lemma distinct_split k : forall x y, distinct_names (x ++ k :: y) = true -> Forall (fun n => bytes_eqb n k = false) y.
Proof.
  induction x as [|h x IH]; intros y H; cbn [app distinct_names] in H; apply andb_true_iff in H as [H1 H2].
  - apply negb_true_iff in H1. apply Forall_forall. intros n Hn. destruct (bytes_eqb n k) eqn:E; [|reflexivity].
    apply bytes_eqb_eq in E. subst n. exfalso. assert (existsb (bytes_eqb k) y = true); [|congruence].
    apply existsb_exists. exists k. split; [assumption|apply bytes_eqb_refl].
  - now apply IH.
Qed.
Lemma lookup_last_distinct (kvs : list (bytes * bytes)) k v : distinct_names (map fst kvs) = true -> In (k, v) kvs -> lookup_last k kvs = Some v.
Proof.
  intros Hd Hin. apply in_split in Hin as [a [b ->]]. rewrite map_app in Hd. cbn [map fst] in Hd.
  apply distinct_split in Hd. unfold lookup_last. rewrite fold_left_app. cbn [fold_left fst snd]. rewrite bytes_eqb_refl.
  apply (fold_last_skip (fun kv => bytes_eqb (fst kv) k) snd). apply Forall_forall. intros kv Hkv. rewrite Forall_forall in Hd. apply Hd. now apply in_map.
Qed.
Lemma check_self {A} (n d : A -> bytes) D (l : list A) : distinct_names (map n l) = true -> (forall x, D x <> []) ->
  deb_check (map (fun x => (D (d x), n x)) l) (map (fun x => (n x, D (d x))) l) = Ok tt.
Proof.
  intros Hd HD. set (dg := map (fun x => (n x, D (d x))) l).
  assert (distinct_names (map fst dg) = true) as Hd' by (unfold dg; rewrite map_map; exact Hd).
  assert (forall sub, incl sub l -> check_lines (map (fun x => (D (d x), n x)) sub) dg = Ok tt) as G.
  { induction sub as [|x sub IH]; intros Hi; [reflexivity|]. cbn [map check_lines].
    assert (lookup_last (n x) dg = Some (D (d x))) as ->.
    { apply lookup_last_distinct; [exact Hd'|]. unfold dg. apply in_map_iff. exists x. split; [reflexivity|]. apply Hi. now left. }
    unfold deb_cs_unknown, deb_cs_mismatch. rewrite bytes_eqb_refl. cbn [negb].
    replace (bytes_eqb (D (d x)) []) with false by (symmetry; apply bytes_eqb_neq; apply HD).
    apply IH. intros y Hy. apply Hi. now right. }
  unfold deb_check. rewrite (G l (incl_refl l)). cbn [bind].
  replace (forallb _ dg) with true; [reflexivity|]. symmetry. apply forallb_forall. intros [k c] Hin.
  unfold dg in Hin. apply in_map_iff in Hin as [x [E Hin]]. inversion E; subst. apply existsb_exists.
  exists (D (d x), n x). split; [|cbn [fst snd]; apply bytes_eqb_refl]. apply in_map_iff. exists x. auto.
Qed.
(* Sign lists the members of f that are not signatures, Verify digests those of g: the same members, since signing touches no other *)
Lemma embedded_accepts ctl role mtime f b g es D s ms : embedded ctl role mtime f b g es ->
  distinct_names (map ent_name (filter nonsig es)) = true -> (forall d, D d <> []) -> deb_scan ctl f = Ok s -> deb_vmembers g = Ok ms ->
  deb_check (deb_lines D (deb_signed_members (ds_members s))) (deb_digests D ms) = Ok tt.
Proof.
  intros [Wf _ Wg _ _ Hf] Hd HD Hs Hv. rewrite (scan_base _ _ _ Wf) in Hs. injection Hs as <-.
  pose proof Wg as [_ -> Hg _ _]. rewrite deb_vmembers_spec in Hv by assumption. injection Hv as <-. cbn [ds_members].
  unfold deb_lines, deb_digests, deb_signed_members.
  rewrite (mems_filter_map false _ _ (fun e => negb (ent_is_lsig e)) (fun e => (D (e_data e), ent_name e))) by reflexivity.
  rewrite (mems_filter_map true _ _ nonsig (fun e => (ent_name e, D (e_data e)))) by reflexivity.
  rewrite lnonsig_filter, Hf by apply Wf. now apply check_self.
Qed.

(* witnesses *)
Definition w_ctl : bytes -> bytes -> bool := fun _ _ => true.
Definition w_name_control : bytes := [99; 111; 110; 116; 114; 111; 108; 46; 116; 97; 114].     (* "control.tar" *)
Definition w_name_data : bytes := [100; 97; 116; 97; 46; 116; 97; 114].                        (* "data.tar" *)
Definition w_deb : bytes := spec_ar_magic ++ ar_wmember w_name_control 0 33188 [1; 2; 3] ++ ar_wmember w_name_data 0 33188 [4; 5].

(* member headers on which the walk panics: a mode field shorter than three characters, a negative size field *)
Definition w_hdr_shortmode : bytes := pad_sp 16 [97] ++ pad_sp 12 [48] ++ pad_sp 6 [48] ++ pad_sp 6 [48] ++ pad_sp 8 [] ++ pad_sp 10 [48] ++ [96; 10].
Definition w_hdr_negsize : bytes := pad_sp 16 [97] ++ pad_sp 12 [48] ++ pad_sp 6 [48] ++ pad_sp 6 [48] ++ pad_sp 8 [49; 48; 48; 54; 52; 52] ++ pad_sp 10 [45; 49] ++ [96; 10].

(* a role of 13 letters: the member name does not fit the name field *)
Definition w_longrole : bytes := repeat 97 13.
