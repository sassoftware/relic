(* FmtPS/ProofsText.v — the text encoding step: the generated per-rune encoder is Go's utf16.Encode + little-endian write (the
   hand model used by ps_hashin), it is the UTF-16-LE of the Unicode standard on every scalar value (surrogate pairs for planes
   1..16), and it is injective on valid UTF-8 texts: a change of any character, in any plane, changes the digest input. *)
From Relic Require Import Base.Prelude Base.Enc Generated.FmtPS_gen FmtPS.Model FmtPS.Lib FmtPS.ProofsPS FmtPS.ProofsPS2 FmtPS.ModelText.

Lemma flat_map_flat_map {A B C} (f : B -> list C) (g : A -> list B) l :
  flat_map f (flat_map g l) = flat_map (fun x => flat_map f (g x)) l.
Proof. induction l as [|a l IH]; [reflexivity|]. cbn [flat_map]. now rewrite flat_map_app, IH. Qed.

(* the generated encoder expression of writeUtf16 / toUtf16 is the hand model the digest model is built on *)
Lemma ps_w16_rune_model r : ps_w16_rune r = flat_map le16 (u16_units r).
Proof. reflexivity. Qed.
Lemma ps_t16_rune_model r : ps_t16_rune r = flat_map le16 (u16_units r).
Proof. reflexivity. Qed.
Theorem ps_write_utf16_model is16 x : ps_write_utf16 is16 x = ps_conv is16 x.
Proof.
  unfold ps_write_utf16, ps_conv, to_utf16. destruct is16; [reflexivity|].
  rewrite flat_map_flat_map. apply flat_map_ext. intros r. apply ps_w16_rune_model.
Qed.
Lemma uni_utf16le_rfc cps : uni_utf16le cps = utf16le_enc cps.
Proof. unfold uni_utf16le, utf16le_enc. now rewrite flat_map_flat_map. Qed.
(* the digest input determines the text: it decodes back to the code points *)
Theorem ps_utf16_decodes cps : scalars_ok cps = true ->
  u16_decode (units_of (ps_write_utf16 false (utf8_enc cps))) = cps.
Proof.
  intros H. rewrite ps_write_utf16_model. cbn [ps_conv]. unfold to_utf16. rewrite go_runes_utf8_enc by assumption.
  pose proof (proj1 (scalars_ok_forall _) H) as HF. rewrite units_of_le16 by (now apply units_range_flat). now apply u16_decode_units.
Qed.
Theorem ps_utf16_encode_injective cps1 cps2 t1 t2 :
  scalars_ok cps1 = true -> t1 = utf8_enc cps1 -> scalars_ok cps2 = true -> t2 = utf8_enc cps2 ->
  ps_write_utf16 false t1 = ps_write_utf16 false t2 -> t1 = t2 /\ cps1 = cps2.
Proof.
  intros H1 -> H2 -> E. assert (cps1 = cps2) as ->.
  { rewrite <- (ps_utf16_decodes cps1 H1), <- (ps_utf16_decodes cps2 H2). now rewrite E. }
  split; reflexivity.
Qed.
