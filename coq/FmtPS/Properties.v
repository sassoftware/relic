(* FmtPS/Properties.v — the property theorems for the two formats of this module:
   ps_  PowerShell script signatures (lib/authenticode/powershell.go),  deb_  Debian package signatures (lib/signdeb);
   the lemmas they rest on are in FmtPS/Proofs*.v.  Grouped by the property served (C01 C08 C03 C02 C05); checks/fmtps.py
   ASPECT_THEOREMS lists the same names.
   Where the faithful model violates a statement at full strength, the full statement is quoted in the comment, the theorem
   `*_refuted` exhibits a concrete witness (replayed on the real code by checks/fmtps.py) and the theorem itself is stated on
   the decidable domain ps_dom / deb_wf. *)
From Relic Require Import Base.Prelude Base.Enc Base.Slice Generated.FmtPS_gen FmtPS.Model FmtPS.Lib FmtPS.ProofsPS FmtPS.ProofsPS2 FmtPS.ProofsAR FmtPS.ProofsWalk FmtPS.ProofsDEB FmtPS.ProofsSlot FmtPS.ModelText FmtPS.ProofsText Laws.Pipeline.

(* PowerShell *)
(* the format handed to Laws/Pipeline.v is  ps_format style = (ps_hashin style, ps_embed_wf style, ps_extract style, ps_payload style);
   ps_embed_wf style f b = ps_embed style f b  when  ps_dom style f && all_bytes b,  Err E_DOMAIN otherwise.
   ps_dom (Model.v): known style; the signer's scan neither fails nor panics; an existing begin line is preceded by CR LF; the
   last line of an unsigned script followed by CR LF is not the begin line; the lines read are exactly the file. *)

(* ---- C01 *)
(* Laws.law_extract (ps_format style).  Full statement, without ps_dom: fails, see ps_law_extract_refuted *)
Theorem ps_law_extract : forall style f b g,
  ps_dom style f = true -> all_bytes b = true -> ps_embed style f b = Ok g -> ps_extract style g = Ok (Some b).
Proof. exact FmtPS.ProofsPS.ps_law_extract_dom. Qed.
(* witness W1: "x" CR LF "# SIG # Begin signature block" (no line end), blob [1]: signing succeeds, the verifier fails with a
   base64 error on the signed file and the digest of the signed file differs from that of the script *)
Theorem ps_law_extract_refuted : exists g,
  ps_embed 1 w_marker_last [1] = Ok g /\ ps_extract 1 g = Err E_B64 /\ ps_hashin 1 g <> ps_hashin 1 w_marker_last.
Proof. eexists. split; [vm_compute; reflexivity|]. split; [vm_compute; reflexivity|vm_compute; discriminate]. Qed.

(* C01 + C08: Laws.law_hashin (ps_format style): the digest input ignores the signature just written.  Without ps_dom: W1 *)
Theorem ps_law_hashin : forall style f b g,
  ps_dom style f = true -> all_bytes b = true -> ps_embed style f b = Ok g -> ps_hashin style g = ps_hashin style f.
Proof. exact FmtPS.ProofsPS.ps_law_hashin_dom. Qed.

(* on the domain the signer always succeeds (so the hypotheses of the laws are satisfiable on all of ps_dom) *)
Theorem ps_embed_total : forall style f b, ps_dom style f = true -> all_bytes b = true -> exists g, ps_embed_wf style f b = Ok g.
Proof.
  intros style f b Hd Hb. unfold ps_embed_wf. rewrite Hd, Hb. cbn [andb].
  destruct (ps_digest_dom _ _ Hd) as [st [en [Ls [s [fd [ssz [Es _ _ _ Hdig Hle _ _]]]]]]].
  unfold ps_embed. rewrite Es, Hdig. cbn [bind d_tsz d_ssz d_is16].
  replace (zlen f <? zlen (concat Ls ++ s)) with false by lia. eauto.
Qed.

(* refusals.  The digest refuses (ordinary error) exactly for an unknown style, or — UTF-16 reading only — at a line feed byte
   followed by a non-zero byte, or when the begin line of a signature block has no previous line (or one shorter than the line break
   the signer strips) in front of it; embedding adds one case, a UTF-16 file ending in a lone line feed byte (patch offset past EOF).
   Full statement "every input is either signed or refused with an error": holds since relic commit 4f70e5f (ps_hashin_no_panic);
   before it the third class was an index-out-of-range panic. *)
Theorem ps_refuses_clean : forall style f e, ps_hashin style f = Err e ->
  (spec_style style = None /\ e = E_STYLE) \/
  (e = E_UTF16 /\ spec_bom16 f = true /\ exists pre z r, f = pre ++ 10 :: z :: r /\ z <> 0) \/
  (e = E_MALFORMED /\ exists st en, spec_style style = Some (st, en) /\
     begin_too_early (spec_bom16 f) (ps_marker (spec_bom16 f) (ps_first_of st en)) [] (fst (ps_lines (spec_bom16 f) f))).
Proof. exact FmtPS.ProofsPS2.ps_refuses_clean. Qed.
Theorem ps_hashin_no_panic : forall style f p, ps_hashin style f <> Panic p.
Proof. exact FmtPS.ProofsPS2.ps_hashin_no_panic. Qed.
(* C11: the verifier's scan (VerifyPowershell up to the PKCS#7 parser) never panics either, on any byte string *)
Theorem ps_extract_no_panic : forall style f p, ps_extract style f <> Panic p.
Proof. exact FmtPS.ProofsPS2.ps_extract_no_panic. Qed.
Theorem ps_embed_refuses_clean : forall style f b e, ps_embed style f b = Err e ->
  ps_hashin style f = Err e \/ (e = E_COPY /\ spec_bom16 f = true /\ exists body, f = body ++ [10]).
Proof.
  intros style f b e. unfold ps_embed, ps_hashin. change (spec_bom16 f) with (ps_is16 f).
  destruct (style_lookup style) as [[st en]|] eqn:Es.
  2:{ intros E. inversion E. left. unfold ps_digest. rewrite Es. reflexivity. }
  destruct (ps_digest style f) as [d| |] eqn:Ed; cbn [bind]; intros E; try (left; exact E).
  destruct (zlen f <? d_tsz d) eqn:Elt; [|discriminate]. inversion E. right. split; [reflexivity|].
  unfold ps_digest in Ed. rewrite Es in Ed.
  pose proof (ps_lines_shape (ps_is16 f) f) as Hs. destruct (ps_lines (ps_is16 f) f) as [ls ok].
  destruct (dig_scan (ps_is16 f) (ps_marker (ps_is16 f) (ps_first_of st en)) (zlen f) ok [] 0 ls) as [| | |fd pre tsz ssz] eqn:E2; try discriminate.
  inversion Ed. subst d. cbn [d_tsz] in Elt.
  pose proof (dig_scan_result (ps_is16 f) (ps_marker (ps_is16 f) (ps_first_of st en)) (zlen f) ok ls [] 0) as Ht. rewrite E2, zlen_nil in Ht.
  destruct (lshape_len _ _ _ _ Hs) as [Hl|[Hi Hex]]; [lia|]. split; assumption.
Qed.
(* witness W5: the begin line as first line of the file, or after a one-byte line: refused cleanly (third class above is inhabited) *)
Theorem ps_begin_first_refused :
  ps_hashin 1 w_block1 = Err E_MALFORMED /\ ps_embed 1 w_block1 [1] = Err E_MALFORMED /\ ps_hashin 1 (10 :: w_block1) = Err E_MALFORMED
  /\ ps_extract 1 w_block1 = Ok (Some [1]).
Proof. exact FmtPS.ProofsPS2.ps_begin_first_refused. Qed.
(* witnesses W6 / W7: a valid UTF-16LE script containing U+010A (bytes 0A 01) is refused as "malformed utf16"; a UTF-16 file
   ending in a lone 0A byte is digested (with a zero byte that is not in the file) and then cannot be patched *)
Theorem ps_utf16_refused_refuted :
  ps_hashin 1 [255; 254; 10; 1] = Err E_UTF16 /\
  ps_hashin 1 [255; 254; 97; 0; 10] = Ok [255; 254; 97; 0; 10; 0] /\ ps_embed 1 [255; 254; 97; 0; 10] [1] = Err E_COPY.
Proof. vm_compute. repeat split; reflexivity. Qed.

(* ---- C08 *)
(* NotSignedError coincides with the specification reader's "no CR LF + begin line" *)
Theorem ps_is_signed_spec : forall style f, ps_dom style f = true ->
  (ps_extract style f = Ok None <-> ps_spec_signed style f = false).
Proof.
  intros style f Hd. unfold ps_dom in Hd. destruct (style_lookup style) as [[st en]|] eqn:Es; [|discriminate].
  pose proof (style_lookup_ok _ _ _ Es) as Hsty.
  destruct (dom_shape (ps_is16 f) st en Hsty f Hd) as [Ls s H1 H2 H3 H4 H5 H6|Ls s lsR H1 H2 H3 H4 HlsR].
  - assert (ps_extract style f = Ok None) as ->.
    { unfold ps_extract. rewrite Es, H6. fold (firstW (ps_is16 f) st en). fold (lastW (ps_is16 f) st en).
      now rewrite ver_skip by (auto; discriminate). }
    destruct (payload_unsigned style f st en Ls s Es Hsty H1 H2 H3 H5) as [_ ->]. tauto.
  - assert (ps_extract style f <> Ok None) as Hx.
    { unfold ps_extract. rewrite Es, H4. fold (firstW (ps_is16 f) st en). fold (lastW (ps_is16 f) st en).
      rewrite ver_skip by (auto; discriminate). rewrite ver_first by assumption. apply ver_found_not_none. }
    destruct (payload_signed style f st en Ls s (concat lsR) Es Hsty H1 H2 H3) as [_ ->].
    split; [intros E; contradiction|discriminate].
Qed.
Theorem ps_signed_after_embed : forall style f b g, ps_embed_wf style f b = Ok g ->
  ps_spec_signed style g = true /\ ps_extract style g = Ok (Some b).
Proof.
  intros style f b g He. split; [|now apply (ProofsPS2.ps_law_extract style f b g)].
  apply embed_wf_inv in He as [Hd [Hb He]]. destruct (embed_form _ _ _ _ Hd Hb He) as [st [en [Ls [s E]]]].
  now destruct (payload_of_embedded _ _ _ _ _ _ _ _ E) as [_ [_ [H _]]].
Qed.
(* the signed script is again in the domain: signing can be repeated *)
Theorem ps_dom_preserved : forall style f b g, ps_embed_wf style f b = Ok g -> ps_dom style g = true.
Proof.
  intros style f b g He. apply embed_wf_inv in He as [Hd [Hb He]].
  destruct (embed_form _ _ _ _ Hd Hb He) as [st [en [Ls [s E]]]]. destruct E as [Xstyle Xsty Xcl Xnf Xg _ Xis _ _ _].
  unfold ps_dom. rewrite Xstyle, Xis.
  pose proof (signed_lines (ps_is16 f) st en (Ls ++ [s ++ crlfW (ps_is16 f)]) b Xsty Xcl Hb) as Hl. cbv zeta in Hl. rewrite <- Xg in Hl.
  rewrite Hl. fold (firstW (ps_is16 f) st en). fold (crlfW (ps_is16 f)).
  rewrite dom_scan_found by assumption. rewrite last_last, has_suffix_app. cbn [andb]. apply Z.eqb_eq. f_equal.
  rewrite (concat_app (Ls ++ [s ++ crlfW (ps_is16 f)])). cbn [concat].
  rewrite (concat_app (map (wline (ps_is16 f) st en) (chunks64 (b64_enc b)))). cbn [concat]. rewrite !app_nil_r. symmetry. exact Xg.
Qed.

(* ---- C03 *)
(* Laws.law_payload (ps_format style): the specification reader's content (everything in front of CR LF + begin line) is
   unchanged.  Full statement without ps_dom: fails, see ps_law_payload_refuted *)
Theorem ps_law_payload : forall style f b g,
  ps_dom style f = true -> all_bytes b = true -> ps_embed style f b = Ok g -> ps_payload style g = ps_payload style f.
Proof. exact FmtPS.ProofsPS.ps_law_payload_dom. Qed.
(* witness W2: "ab" LF + a well-formed block: the signer strips two bytes in front of the begin line, the "b" is lost *)
Theorem ps_law_payload_refuted : exists g,
  ps_embed 1 w_foreign_lf [1] = Ok g /\ ps_payload 1 w_foreign_lf = Ok w_foreign_lf /\ ps_payload 1 g = Ok [97]
  /\ ps_extract 1 g = Ok (Some [1]) /\ ztake 2 g <> ztake 2 w_foreign_lf.
Proof. eexists. split; [vm_compute; reflexivity|]. vm_compute. repeat split. discriminate. Qed.
(* input and output agree on the content; everything behind it in the output is exactly the specified block *)
Theorem ps_only_these_ranges_differ : forall style f b g st en,
  ps_embed_wf style f b = Ok g -> spec_style style = Some (st, en) ->
  exists p, ps_payload style f = Ok p /\ ztake (zlen p) f = p /\ ztake (zlen p) g = p
            /\ zdrop (zlen p) g = spec_w (spec_bom16 f) (spec_block_text st en b).
Proof.
  intros style f b g st en He Hs. apply embed_wf_inv in He as [Hd [Hb He]].
  destruct (embed_form _ _ _ _ Hd Hb He) as [st' [en' [Ls [s E]]]].
  destruct (payload_of_embedded _ _ _ _ _ _ _ _ E) as [H1 _]. destruct E as [Xstyle _ _ _ _ Xspec _ _ Xtake _].
  rewrite spec_style_eq, Xstyle in Hs. injection Hs as E1 E2. subst st' en'.
  exists (concat Ls ++ s). split; [exact H1|]. split; [exact Xtake|].
  change (spec_bom16 f) with (ps_is16 f). rewrite Xspec. split; [apply ztake_app_exact|apply zdrop_app_exact].
Qed.

(* ---- C02 *)
(* protected = the content in front of the block.  Two files of the domain in the same encoding with equal digest input have
   equal content: byte for byte (UTF-16LE); as code point sequences in Go's reading, hence byte for byte when both are
   RFC 3629 text (8-bit).  (The extracted blobs need not be compared for this.)
   Full statement "equal digest input and equal blob imply equal files outside the block": fails, W3 and W4 *)
Theorem ps_protect : forall style g1 g2 p1 p2,
  ps_dom style g1 = true -> ps_dom style g2 = true -> all_bytes g1 = true -> all_bytes g2 = true ->
  spec_bom16 g1 = spec_bom16 g2 -> ps_hashin style g1 = ps_hashin style g2 ->
  ps_payload style g1 = Ok p1 -> ps_payload style g2 = Ok p2 ->
  (spec_bom16 g1 = true -> p1 = p2) /\
  (spec_bom16 g1 = false -> go_runes p1 = go_runes p2 /\
     forall c1 c2, scalars_ok c1 = true -> scalars_ok c2 = true -> p1 = utf8_enc c1 -> p2 = utf8_enc c2 -> p1 = p2).
Proof. exact FmtPS.ProofsPS2.ps_protect. Qed.
(* witness W3: text appended after "# SIG # End signature block" — same digest input, same blob, both files in the domain *)
Theorem ps_protect_trailing_refuted : let g2 := w_signed ++ [101; 118; 105; 108] in
  ps_hashin 1 g2 = ps_hashin 1 w_signed /\ ps_extract 1 g2 = ps_extract 1 w_signed /\ ps_extract 1 w_signed = Ok (Some [1])
  /\ ps_dom 1 g2 = true /\ ps_dom 1 w_signed = true.
Proof. vm_compute. repeat split; reflexivity. Qed.
(* witness W4: "a" CR LF block  against  "aX" LF block — the byte in front of the LF is dropped unseen *)
Theorem ps_protect_separator_refuted : let g2 := [97; 88; 10] ++ w_block1 in
  ps_hashin 1 g2 = ps_hashin 1 w_signed /\ ps_extract 1 g2 = ps_extract 1 w_signed /\ ps_extract 1 w_signed = Ok (Some [1])
  /\ ps_payload 1 g2 = Ok g2 /\ ps_payload 1 w_signed = Ok [97].
Proof. vm_compute. repeat split; reflexivity. Qed.

(* ---- C05 *)
(* relic's digest input is the specification's: the content verbatim (UTF-16LE file), or the RFC 2781 UTF-16LE encoding of
   the code points whose RFC 3629 encoding the content is (8-bit file) *)
Theorem ps_hashin_eq_spec : forall style f p, ps_dom style f = true -> ps_payload style f = Ok p ->
  (spec_bom16 f = true -> ps_hashin style f = Ok p) /\
  (spec_bom16 f = false -> forall cps, scalars_ok cps = true -> p = utf8_enc cps -> ps_hashin style f = Ok (utf16le_enc cps)).
Proof. exact FmtPS.ProofsPS2.ps_hashin_eq_spec. Qed.
Theorem ps_text_conversion_spec : forall cps, scalars_ok cps = true -> to_utf16 (utf8_enc cps) = utf16le_enc cps.
Proof. exact FmtPS.ProofsPS2.to_utf16_spec. Qed.
(* the signed file is the content followed by exactly the specified block in the file's encoding *)
Theorem ps_embed_eq_spec : forall style f blob g st en,
  ps_dom style f = true -> all_bytes blob = true -> ps_embed style f blob = Ok g -> spec_style style = Some (st, en) ->
  exists p, ps_payload style f = Ok p /\ g = p ++ spec_w (spec_bom16 f) (spec_block_text st en blob).
Proof.
  intros style f blob g st en Hd Hb He Hs. destruct (embed_form _ _ _ _ Hd Hb He) as [st' [en' [Ls [s E]]]].
  destruct (payload_of_embedded _ _ _ _ _ _ _ _ E) as [H1 _]. destruct E as [Xstyle _ _ _ _ Xspec _ _ _ _].
  rewrite spec_style_eq, Xstyle in Hs. injection Hs as E1 E2. rewrite <- E1, <- E2.
  exists (concat Ls ++ s). split; [exact H1|]. rewrite bom_eq. exact Xspec.
Qed.

(* Debian *)
(* deb_format ctl role mtime = (deb_hashin ctl, deb_embed_wf ctl role mtime, deb_extract role, deb_payload);
   ctl = the control.tar oracle (is this member data a readable control tarball with Package and Version?);
   deb_embed_wf = deb_embed when  deb_wf ctl f && role_ok role && |blob| < 10^10 && 0 <= mtime,  Err E_DOMAIN otherwise.
   deb_wf (Model.v): the strict ar reader of the specification accepts f; canonical size fields; printable names without '/'
   not starting with a blank; mode fields of at least 3 characters; distinct names of the non-signature members;
   relic's scan succeeds (control.tar present and readable).  role_ok: 1..12 lower-case letters. *)

(* ---- C01 *)
(* Laws.law_extract.  Full statement (any role): fails, see deb_law_extract_refuted *)
Theorem deb_law_extract : forall ctl role mtime f b g,
  deb_embed_wf ctl role mtime f b = Ok g -> deb_extract role g = Ok (Some b).
Proof. exact FmtPS.ProofsDEB.deb_law_extract. Qed.
(* witness: role of 13 letters — stored under a truncated member name: not found under the role, and signing again appends a
   second signature member instead of replacing the first (C08) *)
Theorem deb_law_extract_refuted : exists g g2,
  deb_embed w_ctl w_longrole 0 w_deb [7] = Ok g /\ deb_extract w_longrole g = Ok None /\
  deb_embed w_ctl w_longrole 0 g [8] = Ok g2 /\ zlen g2 = zlen g + 62 /\ deb_wf w_ctl w_deb = true.
Proof. eexists _, _. split; [vm_compute; reflexivity|]. split; [vm_compute; reflexivity|]. split; [vm_compute; reflexivity|]. split; vm_compute; reflexivity. Qed.
(* C01 + C08: Laws.law_hashin *)
Theorem deb_law_hashin : forall ctl role mtime f b g,
  deb_embed_wf ctl role mtime f b = Ok g -> deb_hashin ctl g = deb_hashin ctl f.
Proof. exact FmtPS.ProofsDEB.deb_law_hashin. Qed.
Theorem deb_embed_total : forall ctl role mtime f b,
  deb_wf ctl f = true -> role_ok role = true -> zlen b < 10000000000 -> 0 <= mtime -> exists g, deb_embed_wf ctl role mtime f b = Ok g.
Proof.
  intros ctl role mtime f b Hw Hr Hb Hm. unfold deb_embed_wf. rewrite guard_true by assumption.
  destruct (deb_wf_form _ _ Hw) as [es [W _ _]]. exact (embed_total _ _ _ _ _ _ W).
Qed.
(* refusals: truncated member header (E_SHORT), unreadable / unknown control.tar (E_CONTROL), no control.tar (E_NOCONTROL);
   E_UNMODELLED is produced by no function of the model (member names containing '/' are followed through deb_norm).
   Full statement "signed or refused with an error": fails, see deb_refuses_clean_refuted *)
Theorem deb_refuses_clean : forall ctl f e, deb_hashin ctl f = Err e ->
  e = E_SHORT \/ e = E_UNMODELLED \/ e = E_CONTROL \/ e = E_NOCONTROL.
Proof.
  intros ctl f e. unfold deb_hashin, deb_scan, ar_members. 
  destruct (ar_scan (length f) false (deb_chk ctl) (Z.min 8 (zlen f)) (zdrop 8 f)) as [r| |] eqn:E; cbn [bind]; try discriminate.
  - destruct (deb_no_control _); cbn [bind]; intros H; inversion H. auto.
  - intros H. inversion H. subst. destruct (ar_scan_err _ _ _ _ _ _ E) as [?|?]; auto.
Qed.
Theorem deb_embed_refuses_clean : forall ctl role mtime f b e, deb_embed ctl role mtime f b = Err e -> deb_hashin ctl f = Err e \/ e = E_COPY.
Proof.
  intros ctl role mtime f b e. unfold deb_embed, deb_hashin. destruct (deb_scan ctl f) as [s| |]; cbn [bind]; try (intros H; left; exact H); try discriminate.
  destruct (deb_slot _ _); destruct (deb_append_cond _); destruct (Z.ltb _ _); intros H; inversion H; auto.
Qed.
(* witnesses: a member header whose mode field is blank (index out of range in the ar reader), a negative size field *)
Theorem deb_refuses_clean_refuted :
  deb_hashin w_ctl (w_deb ++ w_hdr_shortmode) = Panic 3 /\ deb_hashin w_ctl (w_deb ++ w_hdr_negsize) = Panic 4
  /\ deb_extract [120] (w_deb ++ w_hdr_shortmode) = Panic 3 /\ deb_extract [120] (w_deb ++ w_hdr_negsize) = Panic 4.
Proof. vm_compute. repeat split; reflexivity. Qed.
(* relic's manifest of the package passes relic's checkSig against the members of the signed package (D = the per-member digest pair) *)
Theorem deb_verifier_accepts_signed : forall ctl role mtime f b g (D : bytes -> bytes) s ms,
  deb_embed_wf ctl role mtime f b = Ok g -> (forall d, D d <> []) -> deb_scan ctl f = Ok s -> deb_vmembers g = Ok ms ->
  deb_check (deb_lines D (deb_signed_members (ds_members s))) (deb_digests D ms) = Ok tt.
Proof.
  intros ctl role mtime f b g D s ms He HD Hs Hv. destruct (deb_embed_form _ _ _ _ _ _ He) as [es [[_ _ Hd] E]].
  exact (embedded_accepts _ _ _ _ _ _ _ D s ms E Hd HD Hs Hv).
Qed.

(* ---- C08 *)
Theorem deb_is_signed_spec : forall ctl f, deb_wf ctl f = true -> deb_is_signed f = Ok (deb_spec_signed f).
Proof.
  intros ctl f Hw. destruct (deb_wf_form _ _ Hw) as [es [[Wp -> Wg _ _] _ _]].
  unfold deb_is_signed, deb_spec_signed. rewrite Wp, deb_sigs_spec by assumption. cbn [bind]. now rewrite sig_pairs_exists.
Qed.
Theorem deb_wf_preserved : forall ctl role mtime f b g, deb_embed_wf ctl role mtime f b = Ok g -> deb_wf ctl g = true.
Proof.
  intros ctl role mtime f b g He. destruct (deb_embed_form _ _ _ _ _ _ He) as [es [[_ Hp Hd] [_ _ Wg Hn _ Hf]]].
  apply (wf_form_wf ctl g (spec_sign_l role (new_ent role mtime b) es)). constructor; [exact Wg|now apply sign_l_forall|now rewrite Hf].
Qed.

(* ---- C03 *)
(* Laws.law_payload: name field and data of every non-signature member, in order *)
Theorem deb_law_payload : forall ctl role mtime f b g,
  deb_embed_wf ctl role mtime f b = Ok g -> deb_payload g = deb_payload f.
Proof. exact FmtPS.ProofsDEB.deb_law_payload. Qed.
(* the files differ only in the slot: the last member named _gpg<role> (header, data, padding), or the end of file *)
Theorem deb_only_these_ranges_differ : forall ctl role mtime f b g, deb_embed_wf ctl role mtime f b = Ok g ->
  exists pre old post, f = pre ++ old ++ post /\ g = pre ++ ar_wmember (spec_sig_name role) mtime 33188 b ++ post /\
    ((old = [] /\ post = []) \/ exists x, old = ent_enc x /\ ent_name x = spec_sig_name role).
Proof.
  intros ctl role mtime f b g He. destruct (deb_embed_form _ _ _ _ _ _ He) as [es [[[_ -> _ _ _] Hp _] [_ _ [_ -> _ _ _] _ _ _]]].
  destruct (spec_sign_l_cases role (new_ent role mtime b) es) as [a [old [bb [-> [-> [_ Hc]]]]]].
  exists (spec_ar_magic ++ enc_all a), (enc_all old), (enc_all bb).
  rewrite !spec_file_enc, !enc_all_app, enc_all_cons, <- !app_assoc. split; [reflexivity|]. split.
  - change (ar_wmember (spec_sig_name role) mtime 33188 b) with (ar_wmember (deb_hdr_name (deb_filename role)) mtime deb_hdr_mode b).
    now rewrite new_ent_enc.
  - destruct Hc as [[-> [-> _]]|[x [-> Hx]]]; [left; split; reflexivity|right]. exists x. split.
    + apply enc_all_single.
    + apply Forall_app in Hp as [_ Hp]. inversion Hp as [|? ? Hx' _]. rewrite <- (plain_lname x Hx'). now apply bytes_eqb_eq.
Qed.

(* ---- C02 *)
(* equal digest inputs: equal payloads (name fields, data, order) *)
Theorem deb_protect : forall ctl g1 g2, deb_wf ctl g1 = true -> deb_wf ctl g2 = true ->
  deb_hashin ctl g1 = deb_hashin ctl g2 -> deb_payload g1 = deb_payload g2.
Proof. exact FmtPS.ProofsDEB.deb_protect. Qed.
(* what checkSig (the verifier's comparison of the signed manifest with the archive) guarantees when it accepts *)
Theorem deb_check_sound : forall lines dg, deb_check lines dg = Ok tt ->
  (forall sums name, In (sums, name) lines -> lookup_last name dg = Some sums /\ sums <> []) /\
  (forall name c, In (name, c) dg -> exists sums, In (sums, name) lines).
Proof.
  intros lines dg. unfold deb_check. destruct (check_lines lines dg) as [[]| |] eqn:E; cbn [bind]; try discriminate.
  destruct (forallb _ dg) eqn:Ef; [|discriminate]. intros _. split.
  - intros sums name Hin. pose proof (check_lines_ok _ _ E) as Hl. rewrite Forall_forall in Hl. exact (Hl _ Hin).
  - intros name c Hin. rewrite forallb_forall in Ef. specialize (Ef _ Hin). apply existsb_exists in Ef as [[s n] [Hl Hn]].
    cbn [fst snd] in Hn. apply bytes_eqb_eq in Hn. subst n. eauto.
Qed.
(* ... and what it does not: the order of the members, and a member in front of a later member of the same name *)
Theorem deb_check_order_refuted :
  let lines := [([1], w_name_control); ([2], w_name_data)] in
  deb_check lines [(w_name_control, [1]); (w_name_data, [2])] = Ok tt /\ deb_check lines [(w_name_data, [2]); (w_name_control, [1])] = Ok tt.
Proof. vm_compute. split; reflexivity. Qed.
Theorem deb_check_shadow_refuted :
  let lines := [([1], w_name_control); ([2], w_name_data)] in
  deb_check lines [(w_name_control, [1]); (w_name_data, [66]); (w_name_data, [2])] = Ok tt.
Proof. vm_compute. reflexivity. Qed.

(* ---- C05 *)
Theorem deb_hashin_eq_spec : forall ctl f, deb_wf ctl f = true -> deb_hashin ctl f = deb_spec_hashin f.
Proof. exact FmtPS.ProofsDEB.deb_hashin_eq_spec. Qed.
(* the signed package is the specification's signing operation (replace the last member _gpg<role>, or append) applied to the
   members the strict reader finds, written back in the common ar format *)
Theorem deb_embed_eq_spec : forall ctl role mtime f b g es, deb_embed_wf ctl role mtime f b = Ok g -> ar_spec_parse f = Some es ->
  g = ar_spec_file (spec_sign role (mkEnt (ar_whdr (spec_sig_name role) mtime 33188 (zlen b)) b) es).
Proof. exact FmtPS.ProofsDEB.deb_embed_eq_spec. Qed.

(* Debian: signature slots by LOGICAL member name
   Domain deb_wf2 (Model.v): as deb_wf, but every 16-byte name field may be either spelling of a proper logical name — BSD / common
   ("_gpgbuilder" + blanks: dpkg-deb, BSD ar, relic) or System V / GNU ("_gpgbuilder/" + blanks: GNU ar, debsigs) — and logical names
   are pairwise different.  ar_logical / is_spelling are written from ar(5) and deb(5); deb_norm is GENERATED from
   `name := path.Clean(hdr.Name)` in lib/signdeb/debsign.go, and every test of the member loop is made on it in the model. *)

(* C08 (specification): both spellings of a name have that name as their logical name *)
Theorem ar_logical_of_spellings : forall n field, lname_ok n = true -> is_spelling n field = true -> ar_logical field = n.
Proof. exact FmtPS.ProofsAR.ar_logical_of_spellings. Qed.
(* C08 (the tie): the name relic's signer compares with "_gpg"+role is the logical name, for every spelling *)
Theorem deb_norm_is_logical : forall e, ent_spelled_ok e = true -> deb_norm (ent_name e) = ent_lname e.
Proof. exact FmtPS.ProofsAR.deb_norm_is_logical. Qed.
Theorem deb_norm_spellings : forall n, lname_ok n = true -> deb_norm n = n /\ deb_norm (n ++ [47]) = n.
Proof. intros n H. destruct (lname_ok_facts n H) as [_ Hne _ _ _ Hns]. split; [norm_plain|norm_sysv]. Qed.
(* C08: after Sign there is exactly one member whose logical name is _gpg<role>, it is the new signature, every other member
   is byte-identical and in order; the signed package is the specification's operation on logical names *)
Theorem deb_slot_replaced : forall ctl role mtime f b g, deb_embed_wf2 ctl role mtime f b = Ok g ->
  exists es es', ar_spec_parse f = Some es /\ ar_spec_parse g = Some es' /\
    es' = spec_sign_l role (mkEnt (ar_whdr (spec_sig_name role) mtime 33188 (zlen b)) b) es /\
    filter (lslot role) es' = [mkEnt (ar_whdr (spec_sig_name role) mtime 33188 (zlen b)) b] /\
    filter (fun e => negb (lslot role e)) es' = filter (fun e => negb (lslot role e)) es.
Proof.
  intros ctl role mtime f b g He. destruct (deb_embed_form2 _ _ _ _ _ _ He) as [es [[W Hd] E]].
  destruct (sign_l_slot role (new_ent role mtime b) es (embedded_lname _ _ _ _ _ _ _ E) Hd) as [Hone [Hrest _]].
  exists es, (spec_sign_l role (new_ent role mtime b) es). split; [apply W|]. split; [apply E|]. split; [reflexivity|]. split; assumption.
Qed.
Theorem deb_slot_replaced_check : forall ctl role mtime f b g es es', deb_embed_wf2 ctl role mtime f b = Ok g ->
  ar_spec_parse f = Some es -> ar_spec_parse g = Some es' -> slot_replaced_ok role b es es' = true.
Proof.
  intros ctl role mtime f b g es es' He Hp Hp'. destruct (deb_slot_replaced _ _ _ _ _ _ He) as [es0 [es0' [P [P' [_ [H1 H2]]]]]].
  rewrite Hp in P. injection P as <-. rewrite Hp' in P'. injection P' as <-.
  unfold slot_replaced_ok. rewrite H1, H2. cbn [e_data]. rewrite bytes_eqb_refl. cbn [andb]. apply list_eqb_refl. apply ent_eqb_refl.
Qed.
(* C08: the result is in the domain again (signing repeats), and the old domain with one member per name is inside the new one *)
Theorem deb_wf2_preserved : forall ctl role mtime f b g, deb_embed_wf2 ctl role mtime f b = Ok g -> deb_wf2 ctl g = true.
Proof.
  intros ctl role mtime f b g He. destruct (deb_embed_form2 _ _ _ _ _ _ He) as [es [[_ Hd] E]].
  apply (wf2_form_wf ctl g (spec_sign_l role (new_ent role mtime b) es)). split; [apply E|].
  apply (sign_l_slot role (new_ent role mtime b) es (embedded_lname _ _ _ _ _ _ _ E) Hd).
Qed.
Theorem deb_wf_in_wf2 : forall ctl f es, deb_wf ctl f = true -> ar_spec_parse f = Some es -> distinct_names (map ent_name es) = true -> deb_wf2 ctl f = true.
Proof.
  intros ctl f es Hw Hp Hd. destruct (deb_wf_form _ _ Hw) as [es' [W Hpl _]]. rewrite (wb_parse _ _ _ W) in Hp. injection Hp as <-.
  apply (wf2_form_wf ctl f es'). split; [exact W|]. rewrite (map_ext_in ent_lname ent_name es'); [exact Hd|].
  intros e He. apply plain_lname. rewrite Forall_forall in Hpl. now apply Hpl.
Qed.
(* C08: Verify's role map holds the new signature under `role` and no other entry for that role under either spelling *)
Theorem deb_no_stale_signature : forall ctl role mtime f b g, deb_embed_wf2 ctl role mtime f b = Ok g ->
  exists sg, deb_sigs g = Ok sg /\ lookup_last role sg = Some b /\
    forall r s, In (r, s) sg -> strip_slash r = role -> r = role /\ s = b.
Proof. exact FmtPS.ProofsSlot.deb_no_stale_signature. Qed.
(* C08: the digest input ignores the existing signature, whatever its spelling *)
Theorem deb_law_hashin2 : forall ctl role mtime f b g,
  deb_embed_wf2 ctl role mtime f b = Ok g -> deb_hashin ctl g = deb_hashin ctl f.
Proof. exact FmtPS.ProofsSlot.deb_law_hashin2. Qed.
(* C03 *)
Theorem deb_law_payload2 : forall ctl role mtime f b g,
  deb_embed_wf2 ctl role mtime f b = Ok g -> deb_payload g = deb_payload f.
Proof. exact FmtPS.ProofsSlot.deb_law_payload2. Qed.
(* C01 *)
Theorem deb_law_extract2 : forall ctl role mtime f b g,
  deb_embed_wf2 ctl role mtime f b = Ok g -> deb_extract role g = Ok (Some b).
Proof. exact FmtPS.ProofsSlot.deb_law_extract2. Qed.
Theorem deb_embed_total2 : forall ctl role mtime f b,
  deb_wf2 ctl f = true -> role_ok role = true -> zlen b < 10000000000 -> 0 <= mtime -> exists g, deb_embed_wf2 ctl role mtime f b = Ok g.
Proof.
  intros ctl role mtime f b Hw Hr Hb Hm. unfold deb_embed_wf2. rewrite guard_true by assumption.
  destruct (deb_wf2_form _ _ Hw) as [es [W _]]. exact (embed_total _ _ _ _ _ _ W).
Qed.
(* C01: a package whose last member header is cut short is refused (the ar reader's error is returned by Sign, not swallowed) *)
Theorem deb_truncated_header_refused : forall ctl f junk, deb_wf2 ctl f = true -> 0 < zlen junk < 60 ->
  deb_hashin ctl (f ++ junk) = Err E_SHORT /\ forall role mtime b, deb_embed ctl role mtime (f ++ junk) b = Err E_SHORT.
Proof.
  intros ctl f junk Hw Hj. destruct (deb_wf2_form _ _ Hw) as [es [[_ -> Wg Wc _] _]].
  assert (deb_scan ctl (ar_spec_file es ++ junk) = Err E_SHORT) as Hs.
  { unfold deb_scan, ar_members. rewrite spec_file_enc, <- app_assoc, (zdrop_app_len 8 spec_ar_magic) by reflexivity.
    pose proof (enc_all_long es Wg) as Hl. rewrite scan_tail by (auto; rewrite !app_length; lia). rewrite Wc.
    (* fuel is left for the truncated header: the members took one unit each, and there are more bytes than members *)
    destruct (length (spec_ar_magic ++ enc_all es ++ junk) - length es)%nat as [|k] eqn:Ek.
    { rewrite !app_length in Ek. unfold zlen in Hj. lia. }
    cbn [ar_scan]. replace (zlen junk =? 0) with false by lia. replace (zlen junk <? 60) with true by lia. reflexivity. }
  split; [unfold deb_hashin; now rewrite Hs|]. intros role mtime b. unfold deb_embed. now rewrite Hs.
Qed.
(* C01: relic's manifest (names as stored) passes relic's check on the re-signed package (digest map keyed by the stored names) *)
Theorem deb_verifier_accepts_resigned : forall ctl role mtime f b g (D : bytes -> bytes) s ms,
  deb_embed_wf2 ctl role mtime f b = Ok g -> (forall d, D d <> []) -> deb_scan ctl f = Ok s -> deb_vmembers g = Ok ms ->
  deb_check (deb_lines D (deb_listed_members (ds_members s))) (deb_digests D ms) = Ok tt.
Proof.
  intros ctl role mtime f b g D s ms He HD Hs Hv. destruct (deb_embed_form2 _ _ _ _ _ _ He) as [es [[_ Hd] E]].
  apply (embedded_accepts _ _ _ _ _ _ _ D s ms E); auto.
  apply distinct_filter. apply (distinct_finer ent_lname ent_name); [|exact Hd]. intros x y Exy. now rewrite !ent_lname_strip, Exy.
Qed.
(* the hypothesis "logical names pairwise different" is needed: a package that already carries the role under BOTH spellings keeps
   one of them (only the last member of the slot is replaced) *)
Theorem deb_slot_two_spellings_refuted : exists g es',
  deb_wf2 w_ctl w_deb_both = false /\ deb_embed w_ctl w_role_builder 0 w_deb_both [7] = Ok g /\ ar_spec_parse g = Some es' /\
  length (filter (lslot w_role_builder) es') = 2%nat.
Proof. eexists _, _. split; [vm_compute; reflexivity|]. split; [vm_compute; reflexivity|]. split; vm_compute; reflexivity. Qed.

(* the pipeline *)
(* C01 / C08: Laws.Pipeline.sign_then_verify and resign_history for both formats; cryptography symbolic *)
Section Crypto.
  Variables key pubk sigv : Type.
  Variable H : Z -> bytes -> bytes.
  Variable pub : key -> pubk.
  Variable sign : key -> bytes -> sigv.
  Variable vrfy : pubk -> bytes -> sigv -> bool.
  Hypothesis sign_correct : forall k m, vrfy (pub k) m (sign k m) = true.
  Variable tbs : Z -> bytes -> bytes.
  Variable ser : sigblob pubk sigv -> bytes.
  Variable deser : bytes -> option (sigblob pubk sigv).
  Hypothesis deser_ser : forall b, deser (ser b) = Some b.

  Theorem ps_sign_then_verify : forall style k a f g,
    sign_file key pubk sigv H pub sign tbs ser bytes (ps_format style) k a f = Ok g ->
    verify_file pubk sigv H vrfy tbs deser bytes (ps_format style) g = Accept pubk (pub k) a.
  Proof.
    intros style. apply (sign_then_verify key pubk sigv H pub sign vrfy sign_correct tbs ser deser deser_ser bytes (ps_format style)).
    - apply ProofsPS2.ps_law_extract.
    - apply ProofsPS2.ps_law_hashin.
  Qed.
  Theorem ps_resign_history : forall style hist f g k a,
    resign key pubk sigv H pub sign tbs ser bytes (ps_format style) (hist ++ [(k, a)]) f = Ok g ->
    verify_file pubk sigv H vrfy tbs deser bytes (ps_format style) g = Accept pubk (pub k) a
    /\ is_signed bytes (ps_format style) g = true
    /\ ps_payload style g = ps_payload style f /\ ps_hashin style g = ps_hashin style f.
  Proof.
    intros style. apply (resign_history key pubk sigv H pub sign vrfy sign_correct tbs ser deser deser_ser bytes (ps_format style)).
    - apply ProofsPS2.ps_law_extract.
    - apply ProofsPS2.ps_law_hashin.
    - apply ProofsPS2.ps_law_payload.
  Qed.

  Theorem deb_sign_then_verify : forall ctl role mtime k a f g,
    sign_file key pubk sigv H pub sign tbs ser _ (deb_format ctl role mtime) k a f = Ok g ->
    verify_file pubk sigv H vrfy tbs deser _ (deb_format ctl role mtime) g = Accept pubk (pub k) a.
  Proof.
    intros ctl role mtime. apply (sign_then_verify key pubk sigv H pub sign vrfy sign_correct tbs ser deser deser_ser _ (deb_format ctl role mtime)).
    - apply ProofsDEB.deb_law_extract.
    - apply ProofsDEB.deb_law_hashin.
  Qed.
  Theorem deb_resign_history : forall ctl role mtime hist f g k a,
    resign key pubk sigv H pub sign tbs ser _ (deb_format ctl role mtime) (hist ++ [(k, a)]) f = Ok g ->
    verify_file pubk sigv H vrfy tbs deser _ (deb_format ctl role mtime) g = Accept pubk (pub k) a
    /\ is_signed _ (deb_format ctl role mtime) g = true
    /\ deb_payload g = deb_payload f /\ deb_hashin ctl g = deb_hashin ctl f.
  Proof.
    intros ctl role mtime. apply (resign_history key pubk sigv H pub sign vrfy sign_correct tbs ser deser deser_ser _ (deb_format ctl role mtime)).
    - apply ProofsDEB.deb_law_extract.
    - apply ProofsDEB.deb_law_hashin.
    - apply ProofsDEB.deb_law_payload.
  Qed.
  (* C01 / C08 on the extended domain: histories that start from a package signed by a third party under either spelling *)
  Theorem deb_sign_then_verify2 : forall ctl role mtime k a f g,
    sign_file key pubk sigv H pub sign tbs ser _ (deb_format2 ctl role mtime) k a f = Ok g ->
    verify_file pubk sigv H vrfy tbs deser _ (deb_format2 ctl role mtime) g = Accept pubk (pub k) a.
  Proof.
    intros ctl role mtime. apply (sign_then_verify key pubk sigv H pub sign vrfy sign_correct tbs ser deser deser_ser _ (deb_format2 ctl role mtime)).
    - apply ProofsSlot.deb_law_extract2.
    - apply ProofsSlot.deb_law_hashin2.
  Qed.
  Theorem deb_resign_history2 : forall ctl role mtime hist f g k a,
    resign key pubk sigv H pub sign tbs ser _ (deb_format2 ctl role mtime) (hist ++ [(k, a)]) f = Ok g ->
    verify_file pubk sigv H vrfy tbs deser _ (deb_format2 ctl role mtime) g = Accept pubk (pub k) a
    /\ is_signed _ (deb_format2 ctl role mtime) g = true
    /\ deb_payload g = deb_payload f /\ deb_hashin ctl g = deb_hashin ctl f.
  Proof.
    intros ctl role mtime. apply (resign_history key pubk sigv H pub sign vrfy sign_correct tbs ser deser deser_ser _ (deb_format2 ctl role mtime)).
    - apply ProofsSlot.deb_law_extract2.
    - apply ProofsSlot.deb_law_hashin2.
    - apply ProofsSlot.deb_law_payload2.
  Qed.
End Crypto.

(* non-vacuity *)
(* a UTF-16LE .ps1xml script "a" CR LF "b" (with BOM), a UTF-8 .ps1 script with a two-byte character and LF line ends, and a
   .mof script that already carries a block are in the domain; signing them computes, and the result verifies in the model *)
Definition ex_u16 : bytes := [255; 254] ++ widen [97; 13; 10; 98].
Definition ex_u8 : bytes := [195; 164; 10; 98; 10].
Example ps_dom_inhabited : ps_dom 2 ex_u16 = true /\ ps_dom 1 ex_u8 = true /\ ps_dom 1 w_signed = true /\ ps_dom 1 w_marker_last = false /\ ps_dom 1 w_foreign_lf = false.
Proof. vm_compute. repeat split; reflexivity. Qed.
Example ps_laws_computed :
  match ps_embed_wf 2 ex_u16 [1; 2; 3] with
  | Ok g => ps_extract 2 g = Ok (Some [1; 2; 3]) /\ ps_hashin 2 g = Ok ex_u16 /\ ps_payload 2 g = Ok ex_u16 /\ ps_dom 2 g = true
  | _ => False
  end /\
  match ps_embed_wf 1 w_signed [9] with
  | Ok g => ps_extract 1 g = Ok (Some [9]) /\ ps_hashin 1 g = Ok [97; 0] /\ ps_payload 1 g = Ok [97]
  | _ => False
  end /\
  ps_hashin 1 ex_u8 = Ok [228; 0; 10; 0; 98; 0; 10; 0].
Proof. vm_compute. repeat split; reflexivity. Qed.

(* a package with control.tar (odd length: padding byte) and data.tar, unsigned / carrying a signature of another role /
   carrying one of the same role, is in the domain; signing appends or replaces, and the result is again in the domain *)
Definition ex_role : bytes := [111; 114; 105; 103; 105; 110].     (* "origin" *)
Definition ex_deb_other : bytes := w_deb ++ ar_wmember (spec_sig_name [120]) 5 33188 [1].
Example deb_wf_inhabited : deb_wf w_ctl w_deb = true /\ deb_wf w_ctl ex_deb_other = true /\ role_ok ex_role = true /\ role_ok w_longrole = false.
Proof. vm_compute. repeat split; reflexivity. Qed.
Example deb_laws_computed :
  match deb_embed_wf w_ctl ex_role 7 ex_deb_other [1; 2; 3] with
  | Ok g => deb_extract ex_role g = Ok (Some [1; 2; 3]) /\ deb_extract [120] g = Ok (Some [1]) /\ deb_payload g = deb_payload w_deb /\ deb_wf w_ctl g = true /\
            match deb_embed_wf w_ctl ex_role 8 g [4] with
            | Ok g2 => deb_extract ex_role g2 = Ok (Some [4]) /\ zlen g2 = zlen g - 2 /\ deb_hashin w_ctl g2 = deb_hashin w_ctl w_deb
            | _ => False
            end
  | _ => False
  end.
Proof. vm_compute. repeat split; reflexivity. Qed.

(* the symbolic cryptography of the pipeline theorems has a model: a toy scheme with unit keys, for which signing a script
   succeeds (so the hypothesis of ps_sign_then_verify / deb_sign_then_verify is satisfiable) *)
Definition toy_ser (b : sigblob unit unit) : bytes := sb_alg unit unit b :: sb_digest unit unit b.
Definition toy_deser (l : bytes) : option (sigblob unit unit) := match l with a :: d => Some (mkBlob unit unit a d tt tt) | [] => None end.
Example toy_deser_ser : forall b, toy_deser (toy_ser b) = Some b.
Proof. intros [a d [] []]. reflexivity. Qed.
Example sign_hypothesis_satisfiable :
  is_ok (sign_file unit unit unit (fun a m => [a; zlen m]) (fun _ => tt) (fun _ _ => tt) (fun _ d => d) toy_ser bytes (ps_format 1) tt 4 ex_u8) = true /\
  is_ok (sign_file unit unit unit (fun a m => [a; zlen m mod 256]) (fun _ => tt) (fun _ _ => tt) (fun _ d => d) toy_ser _ (deb_format w_ctl ex_role 0) tt 4 w_deb) = true.
Proof. vm_compute. split; reflexivity. Qed.

(* packages written by GNU ar (every name terminated by a slash) or by dpkg-deb with a debsigs signature appended by GNU ar are in
   the extended domain (and outside the old one); signing in the occupied role replaces the member under either spelling, twice;
   an 11-character role (15-character member name: the System V spelling fills the field) and a 12-character role work too *)
Example deb_wf2_inhabited :
  deb_wf2 w_ctl w_deb_gnu = true /\ deb_wf2 w_ctl w_deb_mixed = true /\ deb_wf w_ctl w_deb_mixed = false /\ deb_wf2 w_ctl w_deb = true
  /\ deb_wf2 w_ctl w_deb_role11 = true.
Proof. vm_compute. repeat split; reflexivity. Qed.
Example deb_slot_computed :
  match deb_embed_wf2 w_ctl w_role_builder 7 w_deb_mixed [1; 2; 3], ar_spec_parse w_deb_mixed with
  | Ok g, Some es =>
      zlen g = zlen w_deb_mixed /\ deb_extract w_role_builder g = Ok (Some [1; 2; 3]) /\ deb_sigs g = Ok [(w_role_builder, [1; 2; 3])] /\
      match ar_spec_parse g with Some es' => slot_replaced_ok w_role_builder [1; 2; 3] es es' = true /\ length es' = length es | None => False end /\
      match deb_embed_wf2 w_ctl w_role_builder 8 g [4] with
      | Ok g2 => deb_sigs g2 = Ok [(w_role_builder, [4])] /\ deb_payload g2 = deb_payload w_deb /\ deb_hashin w_ctl g2 = deb_hashin w_ctl w_deb_mixed
      | _ => False
      end
  | _, _ => False
  end /\
  match deb_embed_wf2 w_ctl w_role_builder 7 w_deb_gnu [5] with
  | Ok g => deb_sigs g = Ok [(w_role_builder, [5])] /\ deb_payload g = deb_payload w_deb_gnu /\ deb_wf2 w_ctl g = true
  | _ => False
  end /\
  match deb_embed_wf2 w_ctl w_role11 7 w_deb_role11 [6] with
  | Ok g => deb_sigs g = Ok [(w_role11, [6])] /\ zlen g = zlen w_deb_role11 - 2
  | _ => False
  end.
Proof. vm_compute. repeat split; reflexivity. Qed.
(* the tie is sensitive to the normalisation: trimming blanks (or nothing) leaves the System V terminator in place *)
Example deb_norm_sensitive :
  go_path_clean (w_name_gpgbuilder ++ [47]) = w_name_gpgbuilder /\ go_trim_space (w_name_gpgbuilder ++ [47]) <> w_name_gpgbuilder
  /\ go_trim_suffix (w_name_gpgbuilder ++ [47]) [47] = w_name_gpgbuilder /\ go_path_base (w_name_gpgbuilder ++ [47]) = w_name_gpgbuilder.
Proof. vm_compute. repeat split; try reflexivity. discriminate. Qed.
Example sign_hypothesis_satisfiable2 :
  is_ok (sign_file unit unit unit (fun a m => [a; zlen m mod 256]) (fun _ => tt) (fun _ _ => tt) (fun _ d => d) toy_ser _ (deb_format2 w_ctl w_role_builder 0) tt 4 w_deb_mixed) = true.
Proof. vm_compute. reflexivity. Qed.

(* text encoding step
   writeUtf16 / toUtf16 of lib/authenticode/powershell.go. ps_w16_rune / ps_t16_rune / ps_w16_pass are GENERATED from the Go
   source (Generated/FmtPS_gen.v): the bytes emitted for one rune of the UTF-8 text, and what the UTF-16 path writes. *)
(* ---- C02 *)
(* the generated encoder is the conversion the digest model ps_hashin uses (ps_conv), for both paths *)
Theorem ps_write_utf16_model : forall is16 x, ps_write_utf16 is16 x = ps_conv is16 x.
Proof. exact FmtPS.ProofsText.ps_write_utf16_model. Qed.
(* for all valid UTF-8 texts: equal digest input implies equal text (every change of a character, in any plane, changes it) *)
Theorem ps_utf16_encode_injective : forall cps1 cps2 t1 t2,
  scalars_ok cps1 = true -> t1 = utf8_enc cps1 -> scalars_ok cps2 = true -> t2 = utf8_enc cps2 ->
  ps_write_utf16 false t1 = ps_write_utf16 false t2 -> t1 = t2 /\ cps1 = cps2.
Proof. exact FmtPS.ProofsText.ps_utf16_encode_injective. Qed.
Theorem ps_conv_injective : forall cps1 cps2, scalars_ok cps1 = true -> scalars_ok cps2 = true ->
  ps_conv false (utf8_enc cps1) = ps_conv false (utf8_enc cps2) -> utf8_enc cps1 = utf8_enc cps2.
Proof.
  intros cps1 cps2 H1 H2 E. rewrite <- !ps_write_utf16_model in E.
  exact (proj1 (ps_utf16_encode_injective cps1 cps2 _ _ H1 eq_refl H2 eq_refl E)).
Qed.
Theorem ps_utf16_char_change : forall pre c1 c2 post,
  scalars_ok (pre ++ c1 :: post) = true -> scalars_ok (pre ++ c2 :: post) = true -> c1 <> c2 ->
  ps_write_utf16 false (utf8_enc (pre ++ c1 :: post)) <> ps_write_utf16 false (utf8_enc (pre ++ c2 :: post)).
Proof.
  intros pre c1 c2 post H1 H2 Hne E. destruct (ps_utf16_encode_injective _ _ _ _ H1 eq_refl H2 eq_refl E) as [_ Hc].
  apply app_inv_head in Hc. injection Hc as Hc. contradiction.
Qed.
(* the UTF-16 path hands the text to the hash unchanged (injective trivially) *)
Theorem ps_utf16_pass_identity : forall x, ps_write_utf16 true x = x.
Proof. intros x. reflexivity. Qed.
(* ---- C05 *)
(* the emitted bytes are the UTF-16-LE of the Unicode standard: per scalar value, with surrogate pairs for planes 1..16, and for a text *)
Theorem ps_w16_rune_is_spec : forall c, valid_scalar c = true -> ps_w16_rune c = uni_utf16le_cp c.
Proof. intros c H. rewrite ps_w16_rune_model, (u16_units_rfc c H). reflexivity. Qed.
Theorem ps_w16_rune_surrogates : forall c, 65536 <= c <= 1114111 ->
  ps_w16_rune c = [ (55296 + (c - 65536) / 1024) mod 256; (55296 + (c - 65536) / 1024) / 256;
                    (56320 + (c - 65536) mod 1024) mod 256; (56320 + (c - 65536) mod 1024) / 256 ].
Proof.
  intros c H. rewrite ps_w16_rune_is_spec by (unfold valid_scalar; lia).
  unfold uni_utf16le_cp, uni_units. replace (c <? 65536) with false by lia. reflexivity.
Qed.
Theorem ps_utf16_is_spec : forall cps, scalars_ok cps = true -> ps_write_utf16 false (utf8_enc cps) = uni_utf16le cps.
Proof. intros cps H. rewrite ps_write_utf16_model, uni_utf16le_rfc. cbn [ps_conv]. now apply to_utf16_spec. Qed.
Theorem ps_to_utf16_model : forall x, ps_to_utf16 x = to_utf16 x.
Proof. intros x. unfold ps_to_utf16, to_utf16. rewrite flat_map_flat_map. apply flat_map_ext. intros r. apply ps_t16_rune_model. Qed.
Theorem ps_bom_is_spec : forall b0 b1 r, ps_is16 (b0 :: b1 :: r) = bytes_eqb [b0; b1] uni_bom.
Proof. intros b0 b1 r. unfold ps_is16, ps_bom_cond, uni_bom, uni_le. cbn. destruct (b0 =? 255) eqn:E0, (b1 =? 254) eqn:E1; cbn; try reflexivity. Qed.
(* non-vacuity: U+1F600 is f0 9f 98 80 in UTF-8 and the pair D83D DE00 in the digest input; U+2F600 and U+F600 (same low 16 bits)
   give different digest inputs; the hypotheses of ps_utf16_char_change are satisfiable with an astral character *)
Example ps_astral_bytes :
  utf8_enc [128512] = [240; 159; 152; 128] /\ ps_write_utf16 false [240; 159; 152; 128] = [61; 216; 0; 222]
  /\ ps_write_utf16 false [240; 175; 152; 128] = [125; 216; 0; 222] /\ ps_write_utf16 false [239; 152; 128] = [0; 246]
  /\ ps_write_utf16 false (utf8_enc [65536]) = [0; 216; 0; 220] /\ ps_write_utf16 false (utf8_enc [1114111]) = [255; 219; 255; 223].
Proof. vm_compute. repeat split; reflexivity. Qed.
Example ps_astral_change_satisfiable :
  scalars_ok ([39] ++ 128512 :: [39]) = true /\ scalars_ok ([39] ++ 193024 :: [39]) = true /\ 128512 <> 193024.
Proof. split; [reflexivity|split; [reflexivity|discriminate]]. Qed.
