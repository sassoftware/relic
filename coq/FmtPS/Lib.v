(* FmtPS/Lib.v — lemmas about lists and about the library-level functions of FmtPS/Model.v: prefixes and slices, the text
   encoders, base64, decimal formatting and parsing, padding and trimming of fixed-width fields. *)
From Relic Require Import Base.Prelude Base.Enc Base.Slice Generated.FmtPS_gen FmtPS.Model.

(* lists, prefixes, slices *)
Lemma has_prefix_app l r : has_prefix (l ++ r) l = true.
Proof. induction l as [|x l IH]; cbn; [reflexivity|]. now rewrite Z.eqb_refl, IH. Qed.
Lemma has_prefix_spec l p : has_prefix l p = true <-> exists r, l = p ++ r.
Proof.
  revert l; induction p as [|x p IH]; intros l; cbn.
  - split; [intros _; now exists l|reflexivity].
  - destruct l as [|y l]; [split; [discriminate|intros [r H]; discriminate]|].
    rewrite andb_true_iff, Z.eqb_eq, IH. split.
    + intros [-> [r ->]]. now exists r.
    + intros [r H]. inversion H; subst. split; [reflexivity|now exists r].
Qed.
Lemma has_prefix_nil l : has_prefix l [] = true.
Proof. destruct l; reflexivity. Qed.
Lemma has_suffix_app l r : has_suffix (l ++ r) r = true.
Proof. unfold has_suffix. rewrite rev_app_distr. apply has_prefix_app. Qed.
Lemma has_suffix_spec l s : has_suffix l s = true <-> exists a, l = a ++ s.
Proof.
  unfold has_suffix. rewrite has_prefix_spec. split; intros [r H].
  - exists (rev r). apply (f_equal (@rev Z)) in H. rewrite rev_involutive, rev_app_distr, rev_involutive in H. exact H.
  - exists (rev r). rewrite H, rev_app_distr. reflexivity.
Qed.

Lemma zlen_map {A B} (f : A -> B) l : zlen (map f l) = zlen l.
Proof. apply Slice.zlen_map. Qed.
Lemma zlen_rev {A} (l : list A) : zlen (rev l) = zlen l.
Proof. apply Slice.zlen_rev. Qed.
Lemma zlen_repeat {A} (x : A) n : zlen (repeat x n) = Z.of_nat n.
Proof. apply Slice.zlen_repeat. Qed.
Lemma zlen_0_nil {A} (l : list A) : zlen l = 0 -> l = [].
Proof. apply Slice.zlen_0_nil. Qed.
Lemma ztake_0 {A} (l : list A) : ztake 0 l = [].
Proof. reflexivity. Qed.
Lemma zdrop_beyond {A} n (l : list A) : zlen l <= n -> zdrop n l = [].
Proof. apply zdrop_all. Qed.

Lemma Forall_app_iff {A} (P : A -> Prop) a b : Forall P (a ++ b) <-> Forall P a /\ Forall P b.
Proof. apply Forall_app. Qed.
Lemma concat_app_single {A} (ls : list (list A)) l : concat (ls ++ [l]) = concat ls ++ l.
Proof. rewrite concat_app. cbn. now rewrite app_nil_r. Qed.

Lemma flat_map_app_distr {A B} (f : A -> list B) a b : flat_map f (a ++ b) = flat_map f a ++ flat_map f b.
Proof. apply flat_map_app. Qed.
Lemma Forall_app_l {A} (P : A -> Prop) a b : Forall P (a ++ b) -> Forall P a.
Proof. now intros [? _]%Forall_app. Qed.
Lemma fold_left_rev {A B} (f : A -> B -> A) l a : fold_left f (rev l) a = fold_right (fun x acc => f acc x) a l.
Proof. rewrite <- fold_left_rev_right. rewrite rev_involutive. reflexivity. Qed.

Lemma andb3 a b c : a && b && c = true -> a = true /\ b = true /\ c = true.
Proof. destruct a, b, c; cbn; intros H; try discriminate; auto. Qed.
Lemma forallb3 {A} (p q r : A -> bool) l :
  forallb p l && forallb q l && forallb r l = true <-> Forall (fun x => p x = true /\ q x = true /\ r x = true) l.
Proof.
  rewrite !andb_true_iff, !forallb_forall, Forall_forall. split.
  - intros [[H1 H2] H3] x Hx. auto.
  - intros H. repeat split; intros x Hx; apply (H x Hx).
Qed.
Lemma zslice_skip {A} (a r : list A) k lo hi : zlen a = k -> k <= lo -> zslice lo hi (a ++ r) = zslice (lo - k) (hi - k) r.
Proof. intros <-. apply zslice_app_r. Qed.
Lemma existsb_map {A B} (p : B -> bool) (g : A -> B) l : existsb p (map g l) = existsb (fun x => p (g x)) l.
Proof. induction l as [|x l IH]; [reflexivity|]. cbn [map existsb]. now rewrite IH. Qed.
Lemma existsb_rev {A} (p : A -> bool) l : existsb p (rev l) = existsb p l.
Proof. induction l as [|x l IH]; [reflexivity|]. cbn [rev existsb]. rewrite existsb_app, IH. cbn [existsb]. now rewrite orb_false_r, orb_comm. Qed.
Lemma forallb_rev {A} (p : A -> bool) l : forallb p (rev l) = forallb p l.
Proof. induction l as [|x l IH]; [reflexivity|]. cbn [rev forallb]. rewrite forallb_app, IH. cbn [forallb]. now rewrite andb_true_r, andb_comm. Qed.
(* the last hit of a fold that remembers hits: nothing changes over a stretch without one *)
Lemma fold_last_skip {A B} (p : A -> bool) (g : A -> B) : forall l acc, Forall (fun x => p x = false) l ->
  fold_left (fun acc x => if p x then Some (g x) else acc) l acc = acc.
Proof. induction l as [|x l IH]; intros acc H; [reflexivity|]. inversion H as [|? ? Hx Hl]; subst. cbn [fold_left]. rewrite Hx. now apply IH. Qed.
Lemma last_occ {A} (p : A -> bool) : forall l,
  Forall (fun x => p x = false) l \/ exists a x b, l = a ++ x :: b /\ p x = true /\ Forall (fun y => p y = false) b.
Proof.
  induction l as [|x l [IH|[a [y [b [-> [Hy Hb]]]]]]].
  - left. constructor.
  - destruct (p x) eqn:E; [right; exists [], x, l; auto|left; constructor; auto].
  - right. exists (x :: a), y, b. auto.
Qed.
(* a patch that replaces the middle part, as binpatch applies it *)
Lemma splice_mid {A} (p m q n : list A) : ztake (zlen p) (p ++ m ++ q) ++ n ++ zdrop (zlen p + zlen m) (p ++ m ++ q) = p ++ n ++ q.
Proof. now rewrite ztake_app_exact, (app_assoc p m q), <- zlen_app, zdrop_app_exact. Qed.

(* no occurrence of a value *)
Definition no10 (l : bytes) : Prop := ~ In 10 l.
Lemma no10_app a b : no10 (a ++ b) <-> no10 a /\ no10 b.
Proof. unfold no10. rewrite in_app_iff. tauto. Qed.
Lemma no10_cons x l : no10 (x :: l) <-> x <> 10 /\ no10 l.
Proof. unfold no10. cbn [In]. tauto. Qed.
Lemma no10_nil : no10 [].
Proof. intros []. Qed.

(* ASCII text through the UTF conversions *)
Definition ascii (l : bytes) : Prop := Forall (fun c => 0 <= c < 128) l.
Lemma ascii_app a b : ascii (a ++ b) <-> ascii a /\ ascii b.
Proof. apply Forall_app. Qed.

Lemma go_runes_n_ascii n l : ascii l -> (length l <= n)%nat -> go_runes_n n l = l.
Proof.
  revert l; induction n as [|n IH]; intros l Ha Hn.
  - destruct l; [reflexivity|cbn in Hn; lia].
  - destruct l as [|c r]; [reflexivity|]. inversion Ha as [|? ? Hc Hr]; subst.
    cbn [go_runes_n]. unfold dec1. replace (c <? 128) with true by lia.
    replace (zdrop (1 - 1) r) with r by reflexivity. f_equal. apply IH; [assumption|cbn in Hn; lia].
Qed.
Lemma go_runes_ascii l : ascii l -> go_runes l = l.
Proof. intros H. apply go_runes_n_ascii; [assumption|lia]. Qed.
Lemma widen_app a b : widen (a ++ b) = widen a ++ widen b.
Proof. apply flat_map_app. Qed.
Lemma u16_units_ascii l : ascii l -> flat_map u16_units l = l.
Proof.
  induction 1 as [|c r Hc Hr IH]; [reflexivity|]. cbn [flat_map]. rewrite IH. unfold u16_units.
  replace (((0 <=? c) && (c <? 55296)) || ((57344 <=? c) && (c <? 65536))) with true by lia. reflexivity.
Qed.
Lemma le16_ascii l : ascii l -> flat_map le16 l = widen l.
Proof.
  induction 1 as [|c r Hc Hr IH]; [reflexivity|]. unfold widen. cbn [flat_map]. fold (widen r). rewrite IH. unfold le16.
  replace (c mod 256) with c by lia. replace (c / 256) with 0 by lia. reflexivity.
Qed.
Lemma to_utf16_ascii l : ascii l -> to_utf16 l = widen l.
Proof. intros H. unfold to_utf16. rewrite go_runes_ascii, u16_units_ascii by assumption. now apply le16_ascii. Qed.
Lemma units_of_widen l : units_of (widen l) = l.
Proof. induction l as [|c r IH]; [reflexivity|]. unfold widen. cbn [flat_map app units_of]. fold (widen r). rewrite IH. f_equal. lia. Qed.
Lemma u16_decode_ascii l : ascii l -> u16_decode l = l.
Proof.
  induction 1 as [|c r Hc Hr IH]; [reflexivity|]. cbn [u16_decode].
  replace ((c <? 55296) || (57344 <=? c)) with true by lia. now rewrite IH.
Qed.
Lemma go_utf8_ascii l : ascii l -> flat_map go_utf8_enc1 l = l.
Proof.
  induction 1 as [|c r Hc Hr IH]; [reflexivity|]. cbn [flat_map]. rewrite IH. unfold go_utf8_enc1, valid_scalar, utf8_enc1.
  replace (((0 <=? c) && (c <? 55296)) || ((57344 <=? c) && (c <=? 1114111))) with true by lia.
  replace (c <? 128) with true by lia. reflexivity.
Qed.
Lemma from_utf16_widen l : ascii l -> from_utf16 (widen l) = l.
Proof. intros H. unfold from_utf16. rewrite units_of_widen, u16_decode_ascii by assumption. now apply go_utf8_ascii. Qed.
Lemma zlen_widen l : zlen (widen l) = 2 * zlen l.
Proof. induction l as [|c r IH]; [reflexivity|]. cbn [widen flat_map app]. rewrite !zlen_cons. fold (widen r). lia. Qed.
Lemma widen_inj a b : widen a = widen b -> a = b.
Proof.
  revert b; induction a as [|x a IH]; intros [|y b] H; cbn in H; try discriminate; [reflexivity|].
  inversion H. f_equal. now apply IH.
Qed.
Lemma no10_widen l : no10 l -> no10 (widen l).
Proof.
  induction l as [|c r IH]; intros H; [exact H|]. apply no10_cons in H as [Hc Hr].
  cbn [widen flat_map app]. apply no10_cons. split; [assumption|]. apply no10_cons. split; [lia|]. now apply IH.
Qed.

(* base64 *)
Lemma b64_val_char v : 0 <= v < 64 -> b64_val (b64_char v) = Some v.
Proof.
  intros H. unfold b64_char, b64_val.
  destruct (v <? 26) eqn:E1.
  { replace ((65 <=? 65 + v) && (65 + v <=? 90)) with true by lia. f_equal. lia. }
  destruct (v <? 52) eqn:E2.
  { replace ((65 <=? 71 + v) && (71 + v <=? 90)) with false by lia.
    replace ((97 <=? 71 + v) && (71 + v <=? 122)) with true by lia. f_equal. lia. }
  destruct (v <? 62) eqn:E3.
  { replace ((65 <=? v - 4) && (v - 4 <=? 90)) with false by lia.
    replace ((97 <=? v - 4) && (v - 4 <=? 122)) with false by lia.
    replace ((48 <=? v - 4) && (v - 4 <=? 57)) with true by lia. f_equal. lia. }
  destruct (v =? 62) eqn:E4; cbn; f_equal; lia.
Qed.
Definition b64_alpha (c : Z) : Prop := (65 <= c <= 90) \/ (97 <= c <= 122) \/ (48 <= c <= 57) \/ c = 43 \/ c = 47.
Lemma b64_char_alpha v : 0 <= v < 64 -> b64_alpha (b64_char v).
Proof.
  intros H. unfold b64_char, b64_alpha.
  destruct (v <? 26) eqn:E1; [lia|]. destruct (v <? 52) eqn:E2; [lia|]. destruct (v <? 62) eqn:E3; [lia|].
  destruct (v =? 62); lia.
Qed.
Definition b64_text (l : bytes) : Prop := Forall (fun c => b64_alpha c \/ c = 61) l.

(* induction three elements at a time *)
Lemma list_ind3 {A} (P : list A -> Prop) :
  P [] -> (forall a, P [a]) -> (forall a b, P [a; b]) -> (forall a b c r, P r -> P (a :: b :: c :: r)) -> forall l, P l.
Proof.
  intros H0 H1 H2 H3.
  assert (forall n l, (length l <= n)%nat -> P l) as G.
  { induction n as [|n IH]; intros l Hl.
    - destruct l; [exact H0|cbn in Hl; lia].
    - destruct l as [|a [|b [|c r]]]; auto. apply H3. apply IH. cbn in Hl. lia. }
  intros l. apply (G (length l)). lia.
Qed.

Lemma byte_parts a : 0 <= a < 256 -> 0 <= a / 4 < 64 /\ 0 <= a mod 4 < 4 /\ 0 <= a / 16 < 16 /\ 0 <= a mod 16 < 16 /\ 0 <= a / 64 < 4 /\ 0 <= a mod 64 < 64.
Proof. intros H. repeat split; lia. Qed.

Ltac b64t := unfold b64_text;
  repeat first [apply Forall_nil | apply Forall_cons; [first [left; apply b64_char_alpha; lia | right; reflexivity]|]].
Lemma b64_enc_text l : all_bytes l = true -> b64_text (b64_enc l).
Proof.
  induction l as [| a | a b | a b c r IH] using list_ind3; intros H.
  - constructor.
  - apply all_bytes_cons in H as [Ha _]. cbn [b64_enc]. b64t.
  - apply all_bytes_cons in H as [Ha [Hb _]%all_bytes_cons]. cbn [b64_enc]. b64t.
  - apply all_bytes_cons in H as [Ha [Hb [Hc Hr]%all_bytes_cons]%all_bytes_cons]. cbn [b64_enc]. b64t. now apply IH.
Qed.
Lemma b64_alpha_not_crlf c : b64_alpha c \/ c = 61 -> not_crlf c = true.
Proof. unfold b64_alpha, not_crlf. intros H. lia. Qed.
Lemma b64_text_filter l : b64_text l -> filter not_crlf l = l.
Proof.
  induction 1 as [|c r Hc Hr IH]; [reflexivity|]. cbn [filter]. rewrite (b64_alpha_not_crlf _ Hc). now f_equal.
Qed.
Lemma b64_text_no10 l : b64_text l -> no10 l.
Proof. induction 1 as [|c r Hc Hr IH]; [apply no10_nil|]. apply no10_cons. split; [unfold b64_alpha in Hc; lia|exact IH]. Qed.
Lemma b64_text_ascii l : b64_text l -> ascii l.
Proof. unfold b64_text, ascii. apply Forall_impl. unfold b64_alpha. intros c H. lia. Qed.
Lemma b64_text_app a b : b64_text (a ++ b) <-> b64_text a /\ b64_text b.
Proof. apply Forall_app. Qed.

Lemma b64_dec_q_enc l : all_bytes l = true -> b64_dec_q (b64_enc l) = Ok l.
Proof.
  induction l as [| a | a b | a b c r IH] using list_ind3; intros H.
  - reflexivity.
  - apply all_bytes_cons in H as [Ha _]. cbn [b64_enc b64_dec_q].
    rewrite !b64_val_char by lia. cbn. f_equal. f_equal. lia.
  - apply all_bytes_cons in H as [Ha [Hb _]%all_bytes_cons].
    cbn [b64_enc b64_dec_q]. rewrite !b64_val_char by lia. cbn. f_equal. f_equal; [lia|f_equal; lia].
  - apply all_bytes_cons in H as [Ha [Hb [Hc Hr]%all_bytes_cons]%all_bytes_cons]. cbn [b64_enc b64_dec_q].
    rewrite !b64_val_char by lia. rewrite IH by exact Hr. cbn [bind].
    f_equal. f_equal; [lia|]. f_equal; [lia|]. f_equal. lia.
Qed.
Lemma b64_dec_enc l : all_bytes l = true -> b64_dec (b64_enc l) = Ok l.
Proof. intros H. unfold b64_dec. rewrite b64_text_filter by (now apply b64_enc_text). now apply b64_dec_q_enc. Qed.

Lemma b64_enc_length l : length (b64_enc l) = (4 * ((length l + 2) / 3))%nat.
Proof.
  induction l as [| a | a b | a b c r IH] using list_ind3; try reflexivity.
  cbn [b64_enc length]. rewrite IH.
  replace (S (S (S (length r))) + 2)%nat with (length r + 2 + 1 * 3)%nat by lia.
  rewrite Nat.div_add by lia. lia.
Qed.
(* 48 input bytes <-> 64 output characters *)
Lemma b64_enc_app3 a l : (length a mod 3 = 0)%nat -> b64_enc (a ++ l) = b64_enc a ++ b64_enc l.
Proof.
  induction a as [| x | x y | x y z r IH] using list_ind3; intros H.
  - reflexivity.
  - cbn in H. discriminate.
  - cbn in H. discriminate.
  - cbn [app b64_enc]. rewrite IH; [reflexivity|]. cbn [length] in H.
    replace (S (S (S (length r)))) with (length r + 1 * 3)%nat in H by lia. now rewrite Nat.mod_add in H by lia.
Qed.
Lemma b64_firstn l : (48 <= length l)%nat -> firstn 64 (b64_enc l) = b64_enc (firstn 48 l) /\ skipn 64 (b64_enc l) = b64_enc (skipn 48 l).
Proof.
  intros H. rewrite <- (firstn_skipn 48 l) at 1 3.
  assert (length (firstn 48 l) = 48%nat) as L by (rewrite firstn_length; lia).
  rewrite b64_enc_app3 by (rewrite L; reflexivity).
  assert (length (b64_enc (firstn 48 l)) = 64%nat) as L2 by (rewrite b64_enc_length, L; reflexivity).
  set (A := b64_enc (firstn 48 l)) in *. set (B := b64_enc (skipn 48 l)).
  split.
  - rewrite firstn_app, L2, Nat.sub_diag, firstn_O, app_nil_r. apply firstn_all2. lia.
  - rewrite skipn_app, L2, Nat.sub_diag, skipn_O, skipn_all2 by lia. reflexivity.
Qed.
Lemma b64_short l : (length l < 48)%nat -> (length (b64_enc l) <= 64)%nat.
Proof.
  intros H. rewrite b64_enc_length.
  assert ((length l + 2) / 3 < 17)%nat; [|lia].
  apply Nat.div_lt_upper_bound; lia.
Qed.
Lemma b64_enc_nil_iff l : b64_enc l = [] <-> l = [].
Proof.
  split; [|intros ->; reflexivity]. destruct l as [|a [|b [|c r]]]; cbn; intros H; try discriminate; reflexivity.
Qed.

(* decimal / octal digits *)
Lemma digits_le_value n base z :
  1 < base <= 10 -> 0 <= z < base ^ Z.of_nat n ->
  fold_right (fun d acc => acc * base + (d - 48)) 0 (digits_le n base z) = z.
Proof.
  intros Hb. revert z; induction n as [|n IH]; intros z Hz.
  - change (Z.of_nat 0) with 0 in Hz. rewrite Z.pow_0_r in Hz. cbn [digits_le fold_right]. lia.
  - cbn [digits_le fold_right]. destruct (z <? base) eqn:E.
    + cbn [fold_right]. rewrite Z.mod_small by lia. lia.
    + rewrite IH.
      * pose proof (Z.div_mod z base). lia.
      * rewrite Nat2Z.inj_succ, Z.pow_succ_r in Hz by lia. split; [apply Z.div_pos; lia|apply Z.div_lt_upper_bound; lia].
Qed.
Lemma digits_le_digits n base z : 1 < base <= 10 -> 0 <= z -> Forall (fun c => 48 <= c <= 57) (digits_le n base z).
Proof.
  intros Hb. revert z; induction n as [|n IH]; intros z Hz; [constructor|].
  cbn [digits_le]. constructor; [pose proof (Z.mod_pos_bound z base); lia|].
  destruct (z <? base); [constructor|]. apply IH. apply Z.div_pos; lia.
Qed.
Lemma digits_le_length n base z k :
  1 < base -> 0 <= z < base ^ Z.of_nat k -> (1 <= k)%nat -> (length (digits_le n base z) <= k)%nat.
Proof.
  intros Hb. revert z k; induction n as [|n IH]; intros z k Hz Hk; [cbn; lia|].
  cbn [digits_le length]. destruct (z <? base) eqn:E; [cbn; lia|].
  destruct k as [|k]; [lia|]. destruct k as [|k].
  - cbn in Hz. lia.
  - assert (length (digits_le n base (z / base)) <= S k)%nat; [|lia].
    apply IH; [|lia]. rewrite Nat2Z.inj_succ, Z.pow_succ_r in Hz by lia.
    split; [apply Z.div_pos; lia|apply Z.div_lt_upper_bound; lia].
Qed.
Lemma digits_le_nonempty n base z : digits_le (S n) base z <> [].
Proof. cbn. discriminate. Qed.
Lemma forallb_is_digit l : Forall (fun c => 48 <= c <= 57) l -> forallb is_digit l = true.
Proof. induction 1 as [|c r Hc Hr IH]; [reflexivity|]. cbn. rewrite IH. unfold is_digit. lia. Qed.

Lemma spec_dec_nonempty z : spec_dec z <> [].
Proof. unfold spec_dec. intros H. apply (f_equal (@rev Z)) in H. rewrite rev_involutive in H. exact (digits_le_nonempty 63 10 z H). Qed.
Lemma parse_udec_spec_dec z : 0 <= z < 10 ^ 64 -> parse_udec (spec_dec z) = Some z.
Proof.
  intros Hz. unfold parse_udec. destruct (spec_dec z) eqn:E; [now apply spec_dec_nonempty in E|]. rewrite <- E. unfold spec_dec.
  rewrite forallb_is_digit.
  - f_equal. rewrite fold_left_rev. apply (digits_le_value 64 10 z); [lia|exact Hz].
  - apply Forall_rev. apply digits_le_digits; lia.
Qed.
Lemma spec_dec_digits z : 0 <= z -> Forall (fun c => 48 <= c <= 57) (spec_dec z).
Proof. intros H. unfold spec_dec. apply Forall_rev. apply digits_le_digits; lia. Qed.
Lemma spec_dec_length z k : 0 <= z < 10 ^ Z.of_nat k -> (1 <= k)%nat -> (length (spec_dec z) <= k)%nat.
Proof. intros Hz Hk. unfold spec_dec. rewrite rev_length. apply digits_le_length; [lia|exact Hz|exact Hk]. Qed.
Lemma fmt_int_nonneg z : 0 <= z -> fmt_int z = spec_dec z.
Proof. intros H. unfold fmt_int, fmt_base, spec_dec. replace (z <? 0) with false by lia. reflexivity. Qed.

Lemma go_parse_int_dec z : 0 <= z < 10 ^ 64 -> go_parse_int (spec_dec z) = z.
Proof.
  intros Hz. unfold go_parse_int. pose proof (spec_dec_digits z (proj1 Hz)) as Hd.
  destruct (spec_dec z) as [|c r] eqn:E; [exfalso; now apply (spec_dec_nonempty z)|].
  inversion Hd as [|? ? Hc _]; subst.
  replace (c =? 43) with false by lia. replace (c =? 45) with false by lia.
  rewrite <- E, parse_udec_spec_dec by exact Hz. reflexivity.
Qed.

Lemma parse_udec_nonneg l v : parse_udec l = Some v -> 0 <= v.
Proof.
  assert (forall l a, forallb is_digit l = true -> 0 <= a -> 0 <= fold_left (fun a d => a * 10 + (d - 48)) l a) as G.
  { clear. induction l as [|d l IH]; intros a Hd Ha; [exact Ha|]. cbn [fold_left forallb] in *. apply andb_true_iff in Hd as [H1 H2].
    apply IH; [exact H2|]. unfold is_digit in H1. lia. }
  unfold parse_udec. destruct l as [|c r]; [discriminate|]. destruct (forallb is_digit (c :: r)) eqn:E; [|discriminate].
  intros [= <-]. exact (G (c :: r) 0 E ltac:(lia)).
Qed.

(* padding to a field width *)
Lemma zlen_pad_sp n s : zlen (pad_sp n s) = Z.of_nat n.
Proof. unfold zlen, pad_sp. rewrite firstn_length, app_length, repeat_length. lia. Qed.
Lemma pad_sp_short n s : (length s <= n)%nat -> pad_sp n s = spec_field n s.
Proof.
  intros H. unfold pad_sp, spec_field. replace n with ((n - length s) + length s)%nat at 2 by lia.
  rewrite repeat_app, app_assoc. rewrite firstn_app.
  replace (n - length (s ++ repeat 32%Z (n - length s)))%nat with 0%nat by (rewrite app_length, repeat_length; lia).
  cbn [firstn]. rewrite app_nil_r. apply firstn_all2. rewrite app_length, repeat_length. lia.
Qed.

(* trimming *)
Lemma drop_sp_repeat n l : drop_sp (repeat 32 n ++ l) = drop_sp l.
Proof. induction n as [|n IH]; [reflexivity|]. cbn. exact IH. Qed.
Lemma rev_repeat {A} (x : A) n : rev (repeat x n) = repeat x n.
Proof. induction n as [|n IH]; [reflexivity|]. cbn [rev repeat]. now rewrite IH, <- repeat_cons. Qed.
Lemma rtrim_field s n : (forall c r, rev s = c :: r -> c <> 32) -> rtrim (s ++ repeat 32 n) = s.
Proof.
  intros H. unfold rtrim. rewrite rev_app_distr, rev_repeat.
  rewrite drop_sp_repeat. destruct (rev s) as [|c r] eqn:E.
  - cbn. apply (f_equal (@rev Z)) in E. now rewrite rev_involutive in E.
  - cbn [drop_sp]. specialize (H c r eq_refl). replace (c =? 32) with false by lia.
    rewrite <- E. apply rev_involutive.
Qed.
Lemma drop_sp_snoc q c : c <> 32 -> drop_sp (q ++ [c]) = drop_sp q ++ [c].
Proof.
  intros H. induction q as [|x q IH]; cbn [app drop_sp].
  - replace (c =? 32) with false by lia. reflexivity.
  - destruct (x =? 32); [exact IH|reflexivity].
Qed.
Lemma ar_trim_rtrim l : match l with c :: _ => c <> 32 | [] => True end -> ar_trim l = rtrim l.
Proof.
  destruct l as [|c r]; intros H; [reflexivity|]. unfold ar_trim, rtrim. cbn [rev].
  now rewrite drop_sp_snoc, rev_app_distr.
Qed.

(* rtrim takes blanks off the end, and only blanks *)
Lemma drop_sp_suffix l : exists k, l = repeat 32 k ++ drop_sp l.
Proof.
  induction l as [|c l [k IH]]; [exists 0%nat; reflexivity|]. cbn [drop_sp]. destruct (c =? 32) eqn:E.
  - exists (S k). cbn. apply Z.eqb_eq in E. subst c. now rewrite <- IH.
  - exists 0%nat. reflexivity.
Qed.
Lemma rtrim_prefix l : exists k, l = rtrim l ++ repeat 32 k.
Proof.
  unfold rtrim. destruct (drop_sp_suffix (rev l)) as [k H]. exists k.
  apply (f_equal (@rev Z)) in H. rewrite rev_involutive, rev_app_distr, rev_repeat in H. exact H.
Qed.
Lemma rtrim_length l : (length (rtrim l) <= length l)%nat.
Proof. destruct (rtrim_prefix l) as [k H]. rewrite H at 2. rewrite app_length. lia. Qed.
(* a field is its trimmed content padded again *)
Lemma rtrim_spec_field n fld : length fld = n -> spec_field n (rtrim fld) = fld.
Proof.
  intros L. destruct (rtrim_prefix fld) as [k Hk]. rewrite Hk, app_length, repeat_length in L.
  unfold spec_field. replace (n - length (rtrim fld))%nat with k by lia. symmetry. exact Hk.
Qed.
Lemma rtrim_forallb p l : forallb p l = true -> forallb p (rtrim l) = true.
Proof. destruct (rtrim_prefix l) as [k H]. rewrite H at 1. rewrite forallb_app. now intros [? _]%andb_true_iff. Qed.
Lemma rtrim_last_not_sp l c r : rev (rtrim l) = c :: r -> c <> 32.
Proof.
  unfold rtrim. rewrite rev_involutive. generalize (rev l). clear. induction l as [|x l IH]; cbn [drop_sp]; [discriminate|].
  destruct (x =? 32) eqn:E; [exact IH|]. intros H. inversion H. subst. lia.
Qed.
