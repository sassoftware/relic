(* FmtPS/ProofsPS.v — the PowerShell half of FmtPS/Model.v: what readLine returns (ps_lines) as a list of complete lines, the
   signer's and the verifier's loop over such lines, the block MakePatch writes against the specified block, and from these
   the three laws on the domain ps_dom. *)
From Relic Require Import Base.Prelude Base.Enc Base.Lists Base.Slice Generated.FmtPS_gen FmtPS.Model FmtPS.Lib.

(* readLine: the shape of ps_lines *)
Definition nl (i : bool) : bytes := if i then [10; 0] else [10].
Definition cline (i : bool) (l : bytes) : Prop := exists body, l = body ++ nl i /\ no10 body.

Lemma ps_lines_nil i : ps_lines i [] = ([[]], true).
Proof. reflexivity. Qed.
Lemma ps_lines_other i b r : b <> 10 ->
  ps_lines i (b :: r) = let '(ls, ok) := ps_lines i r in match ls with h :: t => ((b :: h) :: t, ok) | [] => ([], ok) end.
Proof. intros H. cbn [ps_lines]. unfold ps_rl_delim. replace (b =? 10) with false by lia. reflexivity. Qed.
Lemma ps_lines_nl8 r : ps_lines false (10 :: r) = let '(ls, ok) := ps_lines false r in ([10] :: ls, ok).
Proof. reflexivity. Qed.
Lemma ps_lines_nl16_end : ps_lines true [10] = ([[10; 0]], true).
Proof. reflexivity. Qed.
Lemma ps_lines_nl16_ok r : ps_lines true (10 :: 0 :: r) = let '(ls, ok) := ps_lines true r in ([10; 0] :: ls, ok).
Proof. reflexivity. Qed.
Lemma ps_lines_nl16_bad z r : z <> 0 -> ps_lines true (10 :: z :: r) = ([], false).
Proof. intros H. cbn [ps_lines]. unfold ps_rl_delim, ps_rl_more, ps_rl_bad. cbn [Z.eqb andb]. replace (z =? 0) with false by lia. reflexivity. Qed.

Lemma ps_lines_cline i l r : cline i l -> ps_lines i (l ++ r) = let '(ls, ok) := ps_lines i r in (l :: ls, ok).
Proof.
  intros [body [-> Hb]]. induction body as [|b body IH].
  - destruct i; cbn [nl app]; [apply ps_lines_nl16_ok|apply ps_lines_nl8].
  - apply no10_cons in Hb as [Hb1 Hb2]. cbn [app]. rewrite ps_lines_other by assumption.
    rewrite (IH Hb2). destruct (ps_lines i r) as [ls ok]. reflexivity.
Qed.
Lemma ps_lines_last i l : no10 l -> ps_lines i l = ([l], true).
Proof.
  induction l as [|b l IH]; intros H; [reflexivity|]. apply no10_cons in H as [H1 H2].
  rewrite ps_lines_other by assumption. now rewrite (IH H2).
Qed.
Lemma ps_lines_fake body : no10 body -> ps_lines true (body ++ [10]) = ([body ++ [10; 0]], true).
Proof.
  induction body as [|b l IH]; intros H; [reflexivity|]. apply no10_cons in H as [H1 H2].
  cbn [app]. rewrite ps_lines_other by assumption. now rewrite (IH H2).
Qed.
Lemma ps_lines_concat i Ls r : Forall (cline i) Ls ->
  ps_lines i (concat Ls ++ r) = let '(ls, ok) := ps_lines i r in (Ls ++ ls, ok).
Proof.
  induction 1 as [|l Ls Hl HLs IH]; cbn [concat app].
  - destruct (ps_lines i r); reflexivity.
  - rewrite <- app_assoc, (ps_lines_cline _ _ _ Hl), IH. destruct (ps_lines i r); reflexivity.
Qed.

Inductive lshape (i : bool) : bytes -> list bytes -> bool -> Prop :=
| LS_last l : no10 l -> lshape i l [l] true
| LS_fake body : i = true -> no10 body -> lshape i (body ++ [10]) [body ++ [10; 0]] true
| LS_bad pre z r : i = true -> no10 pre -> z <> 0 -> lshape i (pre ++ 10 :: z :: r) [] false
| LS_cons l r ls ok : cline i l -> lshape i r ls ok -> lshape i (l ++ r) (l :: ls) ok.

Lemma cline_cons i b l : b <> 10 -> cline i l -> cline i (b :: l).
Proof. intros Hb [body [-> H]]. exists (b :: body). split; [reflexivity|]. apply no10_cons. now split. Qed.
Lemma lshape_cons_byte i b r ls ok : b <> 10 -> lshape i r ls ok ->
  lshape i (b :: r) (match ls with h :: t => (b :: h) :: t | [] => [] end) ok.
Proof.
  intros Hb H. inversion H; subst.
  - apply LS_last. apply no10_cons. now split.
  - apply (LS_fake _ (b :: body)); [reflexivity|]. apply no10_cons. now split.
  - apply (LS_bad _ (b :: pre)); [reflexivity| |assumption]. apply no10_cons. now split.
  - apply (LS_cons _ (b :: l) r0); [now apply cline_cons|assumption].
Qed.
Lemma ps_lines_shape i : forall l, let '(ls, ok) := ps_lines i l in lshape i l ls ok.
Proof.
  assert (forall n l, (length l <= n)%nat -> let '(ls, ok) := ps_lines i l in lshape i l ls ok) as G.
  { induction n as [|n IH]; intros l Hl.
    - destruct l; [|cbn in Hl; lia]. cbn. apply LS_last. apply no10_nil.
    - destruct l as [|b r]; [cbn; apply LS_last; apply no10_nil|].
      destruct (Z.eq_dec b 10) as [->|Hb].
      + destruct i.
        * destruct r as [|z r'].
          { rewrite ps_lines_nl16_end. apply (LS_fake true []); [reflexivity|apply no10_nil]. }
          destruct (Z.eq_dec z 0) as [->|Hz].
          { rewrite ps_lines_nl16_ok. specialize (IH r'). cbn in Hl.
            destruct (ps_lines true r') as [ls ok]. apply (LS_cons true [10; 0] r').
            - exists []. split; [reflexivity|apply no10_nil].
            - apply IH. lia. }
          rewrite ps_lines_nl16_bad by assumption. apply (LS_bad true [] z r'); [reflexivity|apply no10_nil|assumption].
        * rewrite ps_lines_nl8. specialize (IH r). cbn in Hl. destruct (ps_lines false r) as [ls ok].
          apply (LS_cons false [10] r); [exists []; split; [reflexivity|apply no10_nil]|apply IH; lia].
      + rewrite ps_lines_other by assumption. specialize (IH r). cbn in Hl.
        destruct (ps_lines i r) as [ls ok].
        assert (lshape i r ls ok) as Hs by (apply IH; lia).
        pose proof (lshape_cons_byte i b r ls ok Hb Hs) as G. destruct ls; exact G. }
  intros l. apply (G (length l)). lia.
Qed.

(* the lines read are no longer than the file, unless readLine padded a lone final line feed byte *)
Lemma lshape_len i f ls ok : lshape i f ls ok -> zlen (concat ls) <= zlen f \/ (i = true /\ exists body, f = body ++ [10]).
Proof.
  induction 1 as [l Hl|body Hi Hb|pre z r Hi Hp Hz|l r ls ok Hl Hr IH].
  - left. cbn [concat]. rewrite app_nil_r. lia.
  - right. split; [assumption|]. now exists body.
  - left. cbn [concat]. rewrite zlen_nil. apply zlen_nonneg.
  - destruct IH as [IH|[Hi [body ->]]].
    + left. cbn [concat]. rewrite !zlen_app. lia.
    + right. split; [assumption|]. exists (l ++ body). now rewrite app_assoc.
Qed.
(* they are exactly the file only when the read succeeded without padding: complete lines and a last line without LF *)
Lemma lshape_exact i f ls ok : lshape i f ls ok -> zlen (concat ls) = zlen f ->
  ok = true /\ exists Ls lastl, ls = Ls ++ [lastl] /\ Forall (cline i) Ls /\ no10 lastl /\ f = concat Ls ++ lastl.
Proof.
  induction 1 as [l Hl|body Hi Hb|pre z r Hi Hp Hz|l r ls ok Hl Hr IH]; cbn [concat]; intros Hlen.
  - split; [reflexivity|]. exists [], l. repeat split; auto.
  - rewrite app_nil_r, !zlen_app, !zlen_cons, !zlen_nil in Hlen. lia.
  - rewrite zlen_nil, zlen_app, !zlen_cons in Hlen. pose proof (zlen_nonneg pre). pose proof (zlen_nonneg r). lia.
  - rewrite !zlen_app in Hlen. destruct (IH ltac:(lia)) as [-> [Ls [lastl [-> [H1 [H2 ->]]]]]]. split; [reflexivity|].
    exists (l :: Ls), lastl. repeat split; auto. cbn [concat]. now rewrite app_assoc.
Qed.
Lemma lshape_false_form i f ls ok : lshape i f ls ok -> ok = false ->
  i = true /\ exists pre z r, f = pre ++ 10 :: z :: r /\ z <> 0.
Proof.
  induction 1 as [l Hl|body Hi Hb|pre z r Hi Hp Hz|l r ls ok Hl Hr IH]; intros E; try discriminate.
  - split; [assumption|]. exists pre, z, r. auto.
  - destruct (IH E) as [Hi [pre [z [r' [-> Hz]]]]]. split; [assumption|]. exists (l ++ pre), z, r'. rewrite <- app_assoc. auto.
Qed.

(* a complete line is never a line without LF, and two complete lines that are prefix-comparable are equal *)
Lemma cline_has10 i l : cline i l -> In 10 l.
Proof. intros [body [-> _]]. apply in_or_app. right. destruct i; left; reflexivity. Qed.
Lemma no10_not_cline i l : no10 l -> ~ cline i l.
Proof. intros H C. apply H. eapply cline_has10; eauto. Qed.
Lemma nl_head i : exists z, nl i = 10 :: z /\ no10 z.
Proof. destruct i; [exists [0]|exists []]; split; try reflexivity; [|apply no10_nil]. apply no10_cons. split; [lia|apply no10_nil]. Qed.
(* position of the first LF *)
Lemma split_first10 a1 z1 a2 z2 : no10 a1 -> no10 a2 -> a1 ++ 10 :: z1 = a2 ++ 10 :: z2 -> a1 = a2 /\ z1 = z2.
Proof.
  revert a2; induction a1 as [|x a1 IH]; intros a2 H1 H2 E.
  - destruct a2 as [|y a2]; [inversion E; split; reflexivity|]. inversion E; subst. apply no10_cons in H2 as [H _]. congruence.
  - apply no10_cons in H1 as [Hx H1]. destruct a2 as [|y a2]; [inversion E; congruence|].
    apply no10_cons in H2 as [Hy H2]. inversion E; subst. destruct (IH a2 H1 H2 H3) as [-> ->]. split; reflexivity.
Qed.
Lemma cline_prefix_eq i l1 r1 l2 r2 : cline i l1 -> cline i l2 -> l1 ++ r1 = l2 ++ r2 -> l1 = l2 /\ r1 = r2.
Proof.
  intros [b1 [-> H1]] [b2 [-> H2]] E. destruct (nl_head i) as [z [Ez Hz]]. rewrite Ez in *.
  rewrite <- !app_assoc in E. cbn [app] in E.
  destruct (split_first10 _ _ _ _ H1 H2 E) as [-> E2]. apply app_inv_head in E2. now subst.
Qed.

Definition sty_ok (st en : bytes) : Prop := ascii st /\ ascii en /\ no10 st /\ no10 en.
Ltac ascii_tac := unfold ascii; repeat (first [apply Forall_nil | apply Forall_cons; [lia|]]).
Ltac no10_tac := unfold no10; cbn [In]; intros Hno; repeat (destruct Hno as [Hno|Hno]; [lia|]); exact Hno.
Lemma style_lookup_cases s st en : style_lookup s = Some (st, en) ->
  (s = 1 /\ st = [35; 32] /\ en = []) \/ (s = 2 /\ st = [60; 33; 45; 45; 32] /\ en = [32; 45; 45; 62]) \/ (s = 3 /\ st = [47; 42; 32] /\ en = [32; 42; 47]).
Proof.
  unfold style_lookup, ps_styles. cbn [find fst snd].
  destruct (1 =? s) eqn:E1; [intros H; inversion H; left; repeat split; lia|].
  destruct (2 =? s) eqn:E2; [intros H; inversion H; right; left; repeat split; lia|].
  destruct (3 =? s) eqn:E3; [intros H; inversion H; right; right; repeat split; lia|]. discriminate.
Qed.
Lemma style_lookup_ok s st en : style_lookup s = Some (st, en) -> sty_ok st en.
Proof.
  intros H. destruct (style_lookup_cases _ _ _ H) as [[_ [-> ->]]|[[_ [-> ->]]|[_ [-> ->]]]]; unfold sty_ok;
    (split; [ascii_tac|split; [ascii_tac|split; no10_tac]]).
Qed.
(* the specification's table is the generated one *)
Lemma spec_style_eq s : spec_style s = style_lookup s.
Proof.
  unfold spec_style, style_lookup, ps_styles. cbn [find fst snd].
  rewrite (Z.eqb_sym 1 s), (Z.eqb_sym 2 s), (Z.eqb_sym 3 s).
  destruct (s =? 1); [reflexivity|]. destruct (s =? 2); [reflexivity|]. destruct (s =? 3); reflexivity.
Qed.
Lemma spec_begin_eq : spec_begin = ps_begin. Proof. reflexivity. Qed.
Lemma spec_end_eq : spec_end = ps_end. Proof. reflexivity. Qed.
Lemma ps_begin_ascii : ascii ps_begin /\ no10 ps_begin.
Proof. split; [unfold ps_begin; ascii_tac|unfold ps_begin; no10_tac]. Qed.
Lemma ps_end_ascii : ascii ps_end /\ no10 ps_end.
Proof. split; [unfold ps_end; ascii_tac|unfold ps_end; no10_tac]. Qed.

(* the marker in the file's encoding *)
Lemma marker_ascii i l : ascii l -> ps_marker i l = spec_w i l.
Proof. intros H. unfold ps_marker, spec_w. destruct i; [now apply to_utf16_ascii|reflexivity]. Qed.
Lemma spec_w_app i a b : spec_w i (a ++ b) = spec_w i a ++ spec_w i b.
Proof. destruct i; [apply widen_app|reflexivity]. Qed.
Lemma spec_w_nl i : spec_w i [10] = nl i.
Proof. destruct i; reflexivity. Qed.
Lemma no10_spec_w i l : no10 l -> no10 (spec_w i l).
Proof. destruct i; [apply no10_widen|auto]. Qed.
Lemma spec_w_inj i a b : spec_w i a = spec_w i b -> a = b.
Proof. destruct i; [apply widen_inj|auto]. Qed.
Lemma zlen_spec_w i l : zlen (spec_w i l) = (if i then 2 else 1) * zlen l.
Proof. destruct i; [apply zlen_widen|unfold spec_w; lia]. Qed.
(* a text line  body CR LF  in the file's encoding is a complete line *)
Lemma cline_text i body : no10 body -> cline i (spec_w i (body ++ [13; 10])).
Proof.
  intros H. exists (spec_w i (body ++ [13])). split.
  - rewrite <- spec_w_nl, <- spec_w_app, <- app_assoc. reflexivity.
  - apply no10_spec_w. apply no10_app. split; [assumption|]. apply no10_cons. split; [lia|apply no10_nil].
Qed.

(* the domain's scan (dom_scan): up to the first begin line, or to the end *)
Lemma dom_scan_found first crlf ok : forall PL saved rest, Forall (fun l => l <> first) PL ->
  dom_scan first crlf ok saved (PL ++ first :: rest) = has_suffix (List.last PL saved) crlf.
Proof.
  induction PL as [|l PL IH]; intros saved rest H.
  - cbn [app dom_scan List.last]. now rewrite bytes_eqb_refl.
  - inversion H as [|? ? Hl H']; subst. cbn [app dom_scan].
    replace (bytes_eqb l first) with false by (symmetry; now apply bytes_eqb_neq).
    destruct (PL ++ first :: rest) as [|x y] eqn:E; [destruct PL; discriminate|]. rewrite <- E.
    rewrite IH by assumption. now rewrite last_cons.
Qed.
Lemma dom_scan_cases first crlf ok : forall ls saved, dom_scan first crlf ok saved ls = true ->
  (exists Ls lsR, ls = Ls ++ first :: lsR /\ Forall (fun l => l <> first) Ls /\ has_suffix (List.last Ls saved) crlf = true)
  \/ (ok = true /\ exists Ls lastl, ls = Ls ++ [lastl] /\ Forall (fun l => l <> first) (Ls ++ [lastl]) /\ lastl ++ crlf <> first).
Proof.
  induction ls as [|l ls IH]; intros saved H; [discriminate|].
  cbn [dom_scan] in H. destruct (bytes_eqb l first) eqn:E.
  - apply bytes_eqb_eq in E. subst l. left. exists [], ls. repeat split; auto.
  - apply bytes_eqb_neq in E. destruct ls as [|l2 ls2].
    + apply andb_true_iff in H as [H1 H2]. apply negb_true_iff, bytes_eqb_neq in H2.
      right. split; [assumption|]. exists [], l. repeat split; auto. cbn [app]. constructor; [assumption|constructor].
    + destruct (IH _ H) as [[Ls [lsR [E1 [E2 E3]]]]|[Hok [Ls [lastl [E1 [E2 E3]]]]]].
      * left. exists (l :: Ls), lsR. rewrite E1. repeat split; auto. now rewrite last_cons.
      * right. split; [assumption|]. exists (l :: Ls), lastl. rewrite E1. repeat split; auto. cbn [app]. constructor; assumption.
Qed.


Definition firstW (i : bool) (st en : bytes) : bytes := ps_marker i (ps_first_of st en).
Definition lastW (i : bool) (st en : bytes) : bytes := ps_marker i (ps_last_of st en).
Definition crlfW (i : bool) : bytes := ps_marker i [13; 10].

Section Style.
  Variables (i : bool) (st en : bytes).
  Hypothesis Hsty : sty_ok st en.
  Local Notation first := (firstW i st en).
  Local Notation last := (lastW i st en).
  Local Notation crlf := (crlfW i).

  Lemma marker_eq mid : ascii mid -> ps_marker i (((st ++ mid) ++ en) ++ [13; 10]) = spec_w i ((st ++ mid ++ en) ++ [13; 10]).
  Proof.
    intros Hm. destruct Hsty as [H1 [H2 _]]. rewrite marker_ascii.
    - f_equal. now rewrite <- !app_assoc.
    - repeat (apply ascii_app; split); try assumption. ascii_tac.
  Qed.
  Lemma cline_marker mid : no10 mid -> cline i (spec_w i ((st ++ mid ++ en) ++ [13; 10])).
  Proof. intros Hm. apply cline_text. destruct Hsty as [_ [_ [H3 H4]]]. repeat (apply no10_app; split); assumption. Qed.
  Lemma first_eq : first = spec_w i ((st ++ ps_begin ++ en) ++ [13; 10]).
  Proof. apply marker_eq, ps_begin_ascii. Qed.
  Lemma last_eq : last = spec_w i ((st ++ ps_end ++ en) ++ [13; 10]).
  Proof. apply marker_eq, ps_end_ascii. Qed.
  Lemma crlf_eq : crlf = spec_w i [13; 10].
  Proof. unfold crlfW. apply marker_ascii. ascii_tac. Qed.
  Lemma cline_first : cline i first.
  Proof. rewrite first_eq. apply cline_marker, ps_begin_ascii. Qed.
  Lemma cline_last : cline i last.
  Proof. rewrite last_eq. apply cline_marker, ps_end_ascii. Qed.
  Lemma zlen_crlf : zlen crlf = if i then 4 else 2.
  Proof. rewrite crlf_eq. destruct i; reflexivity. Qed.
  Lemma first_neq_no10 l : no10 l -> l <> first.
  Proof. intros H E. subst l. eapply no10_not_cline; eauto using cline_first. Qed.

  (* DigestPowershell's loop *)
  Lemma conv_nil : ps_conv i [] = [].
  Proof. destruct i; reflexivity. Qed.

  Definition keep_of (s : bytes) : Z := if i then ps_dig_keep16 (zlen s) else ps_dig_keep8 (zlen s).
  Definition eol_of : Z := if i then ps_dig_eol16 else ps_dig_eol8.

  Lemma short_keep s : ps_dig_short i (zlen s) = (keep_of s <? 0).
  Proof. unfold ps_dig_short, keep_of, ps_dig_keep16, ps_dig_keep8. destruct i; cbn [andb]; lia. Qed.

  Lemma dig_scan_found flen ok : forall Ls saved pos rest,
    Forall (fun l => l <> first) Ls ->
    dig_scan i first flen ok saved pos (Ls ++ first :: rest) =
      let s := List.last Ls saved in
      let init := removelast (saved :: Ls) in
      if keep_of s <? 0 then SMalf else
      SText true (concat (map (ps_conv i) init) ++ ps_conv i (ztake (keep_of s) s))
                 (zlen (concat init) + zlen (ztake (keep_of s) s))
                 (eol_of + zlen first + Z.max 0 (flen - (pos + zlen (concat Ls) + zlen first))).
  Proof.
    induction Ls as [|l Ls IH]; intros saved pos rest HLs.
    - cbn [app dig_scan List.last removelast concat map]. unfold ps_dig_is_first. rewrite bytes_eqb_refl.
      rewrite short_keep. unfold keep_of, eol_of, ps_dig_sig_line. destruct (_ <? 0); [reflexivity|].
      f_equal.
      all: cbn [concat app]; change (@zlen Z []) with 0; try reflexivity; try lia.
    - inversion HLs as [|? ? Hl HLs']; subst. cbn [app dig_scan]. unfold ps_dig_is_first.
      replace (bytes_eqb l first) with false by (symmetry; now apply bytes_eqb_neq).
      destruct (Ls ++ first :: rest) as [|x y] eqn:E; [destruct Ls; discriminate|]. rewrite <- E.
      rewrite (IH l (pos + zlen l) rest HLs'). rewrite last_cons.
      replace (removelast (saved :: l :: Ls)) with (saved :: removelast (l :: Ls)) by reflexivity.
      cbv zeta. destruct (keep_of (List.last Ls l) <? 0); [reflexivity|].
      cbn [sprepend concat map]. rewrite <- app_assoc, zlen_app. cbn [concat]. rewrite zlen_app.
      f_equal; lia.
  Qed.

  Lemma dig_scan_notfound flen : forall Ls lastl saved pos,
    Forall (fun l => l <> first) (Ls ++ [lastl]) ->
    dig_scan i first flen true saved pos (Ls ++ [lastl]) =
      SText false (ps_conv i saved ++ concat (map (ps_conv i) (Ls ++ [lastl]))) (zlen saved + zlen (concat (Ls ++ [lastl]))) 0.
  Proof.
    induction Ls as [|l Ls IH]; intros lastl saved pos H.
    - inversion H as [|? ? Hl _]; subst. cbn [app dig_scan]. unfold ps_dig_is_first.
      replace (bytes_eqb lastl first) with false by (symmetry; now apply bytes_eqb_neq).
      cbn [sprepend concat map]. rewrite !app_nil_r. reflexivity.
    - inversion H as [|? ? Hl H']; subst. cbn [app dig_scan]. unfold ps_dig_is_first.
      replace (bytes_eqb l first) with false by (symmetry; now apply bytes_eqb_neq).
      destruct (Ls ++ [lastl]) as [|x y] eqn:E; [destruct Ls; discriminate|]. rewrite <- E in *.
      rewrite (IH lastl l (pos + zlen l) H'). cbn [sprepend concat map]. rewrite zlen_app. f_equal; lia.
  Qed.

  Lemma cline_app_crlf l : no10 l -> cline i (l ++ crlf).
  Proof.
    intros H. rewrite crlf_eq. exists (l ++ spec_w i [13]). split.
    - rewrite <- app_assoc. f_equal. rewrite <- spec_w_nl, <- spec_w_app. reflexivity.
    - apply no10_app. split; [assumption|]. apply no10_spec_w. apply no10_cons. split; [lia|apply no10_nil].
  Qed.
  Lemma crlf_nonempty : crlf <> [].
  Proof. intros E. pose proof zlen_crlf as H. rewrite E, zlen_nil in H. destruct i; lia. Qed.

  (* a file in the domain: Ls are the complete lines in front of the last content line s; T = concat Ls ++ s is the content *)
  Inductive domshape (f : bytes) : Prop :=
  | DS_unsigned Ls s :
      Forall (cline i) Ls -> Forall (fun l => l <> first) Ls -> no10 s -> s ++ crlf <> first ->
      f = concat Ls ++ s -> ps_lines i f = (Ls ++ [s], true) -> domshape f
  | DS_signed Ls s lsR :
      Forall (cline i) (Ls ++ [s ++ crlf]) -> Forall (fun l => l <> first) (Ls ++ [s ++ crlf]) ->
      f = concat (Ls ++ [s ++ crlf]) ++ first ++ concat lsR ->
      ps_lines i f = ((Ls ++ [s ++ crlf]) ++ first :: lsR, true) -> lsR <> [] -> domshape f.

  Lemma dom_shape f :
    (let '(ls, ok) := ps_lines i f in dom_scan first crlf ok [] ls && (zlen (concat ls) =? zlen f)) = true -> domshape f.
  Proof.
    pose proof (ps_lines_shape i f) as Hs. destruct (ps_lines i f) as [ls ok] eqn:El. intros H.
    apply andb_true_iff in H as [Hd Hlen]. apply Z.eqb_eq in Hlen.
    destruct (lshape_exact _ _ _ _ Hs Hlen) as [-> [Ls0 [lastl [-> [Hc [Hn ->]]]]]].
    destruct (dom_scan_cases _ _ _ _ _ Hd) as [[Ls [lsR [E1 [E2 E3]]]]|[_ [Ls [l2 [E1 [E2 E3]]]]]].
    - (* a marker line exists; it is not the last (LF-free) line *)
      destruct (exists_last (l:=lsR)) as [lsR' [x Ex]].
      { intros ->. apply app_inj_tail in E1 as [_ E]. subst lastl. eapply first_neq_no10; eauto. }
      subst lsR. rewrite app_comm_cons, app_assoc in E1. apply app_inj_tail in E1 as [E1 <-]. subst Ls0.
      destruct (exists_last (l:=Ls)) as [Ls1 [sl Es]].
      { intros ->. cbn [List.last] in E3. unfold has_suffix in E3. cbn [rev] in E3.
        destruct (rev crlf) eqn:Er; [|discriminate]. apply (f_equal (@rev Z)) in Er. rewrite rev_involutive in Er. now apply crlf_nonempty. }
      subst Ls. rewrite last_last in E3. apply has_suffix_spec in E3 as [s ->].
      apply Forall_app in Hc as [Hc _].
      apply (DS_signed _ Ls1 s (lsR' ++ [lastl])); auto.
      + rewrite !concat_app. cbn [concat]. rewrite !app_nil_r, <- !app_assoc. reflexivity.
      + rewrite El. f_equal. rewrite <- !app_assoc. reflexivity.
      + destruct lsR'; discriminate.
    - apply app_inj_tail in E1 as [<- <-]. apply Forall_app in E2 as [E2 _].
      apply (DS_unsigned _ Ls0 lastl); auto.
  Qed.

  (* the digest input of the content  concat Ls ++ s,  converted line by line as DigestPowershell does *)
  Definition pre_of (Ls : list bytes) (s : bytes) : bytes := concat (map (ps_conv i) Ls) ++ ps_conv i s.

  Lemma keep_crlf s : keep_of (s ++ crlf) = zlen s.
  Proof. unfold keep_of, ps_dig_keep16, ps_dig_keep8. rewrite zlen_app, zlen_crlf. destruct i; lia. Qed.
  Lemma eol_crlf : eol_of = zlen crlf.
  Proof. rewrite zlen_crlf. unfold eol_of. destruct i; reflexivity. Qed.

  (* the scan of a signed file: the content line in front of the begin line loses its CR LF *)
  Lemma dig_scan_signed flen Ls s rest : Forall (fun l => l <> first) (Ls ++ [s ++ crlf]) ->
    dig_scan i first flen true [] 0 ((Ls ++ [s ++ crlf]) ++ first :: rest) =
      SText true (pre_of Ls s) (zlen (concat Ls ++ s))
        (eol_of + zlen first + Z.max 0 (flen - (0 + zlen (concat (Ls ++ [s ++ crlf])) + zlen first))).
  Proof.
    intros H. etransitivity; [exact (dig_scan_found flen true _ [] 0 rest H)|]. cbv zeta. rewrite last_last, keep_crlf.
    replace (zlen s <? 0) with false by (pose proof (zlen_nonneg s); lia).
    rewrite app_comm_cons, removelast_last. cbn [map concat]. rewrite conv_nil, ztake_app_exact. cbn [app]. now rewrite zlen_app.
  Qed.
End Style.

Lemma concat_PL i Ls s : concat (Ls ++ [s ++ crlfW i]) = (concat Ls ++ s) ++ crlfW i.
Proof. rewrite concat_app_single. now rewrite app_assoc. Qed.

(* the digest of a file in the domain, for both shapes: T = concat Ls ++ s is digested, TextSize = |T|, and SigSize reaches the
   end of the file *)
Record digested (style : Z) (f st en : bytes) (Ls : list bytes) (s : bytes) (fd : bool) (ssz : Z) : Prop := mkDigested {
  dg_style : style_lookup style = Some (st, en);
  dg_sty : sty_ok st en;
  dg_cl : Forall (cline (ps_is16 f)) (Ls ++ [s ++ crlfW (ps_is16 f)]);
  dg_nf : Forall (fun l => l <> firstW (ps_is16 f) st en) (Ls ++ [s ++ crlfW (ps_is16 f)]);
  dg_digest : ps_digest style f = Ok (mkDig (pre_of (ps_is16 f) Ls s) (zlen (concat Ls ++ s)) ssz (ps_is16 f) fd);
  dg_len : zlen (concat Ls ++ s) <= zlen f <= zlen (concat Ls ++ s) + ssz;
  dg_take : ztake (zlen (concat Ls ++ s)) f = concat Ls ++ s;
  dg_f : (f = concat Ls ++ s /\ no10 s) \/ exists R, f = concat (Ls ++ [s ++ crlfW (ps_is16 f)]) ++ firstW (ps_is16 f) st en ++ R
}.
Lemma ps_digest_dom style f : ps_dom style f = true -> exists st en Ls s fd ssz, digested style f st en Ls s fd ssz.
Proof.
  intros Hd. unfold ps_dom in Hd. destruct (style_lookup style) as [[st en]|] eqn:Es; [|discriminate].
  pose proof (style_lookup_ok _ _ _ Es) as Hsty. pose proof (dom_shape (ps_is16 f) st en Hsty f Hd) as Hf.
  remember (ps_is16 f) as i eqn:Ei in *. destruct Hf as [Ls s H1 H2 H3 H4 H5 H6|Ls s lsR H1 H2 H3 H4 HlsR].
  - exists st, en, Ls, s, false, 0. constructor; rewrite <- ?Ei; auto.
    + apply Forall_app. split; [assumption|]. constructor; [now apply cline_app_crlf|constructor].
    + apply Forall_app. split; [assumption|]. constructor; [assumption|constructor].
    + unfold ps_digest. rewrite Es, <- Ei, H6. fold (firstW i st en). rewrite dig_scan_notfound
        by (apply Forall_app; split; [assumption|constructor; [now apply (first_neq_no10 i st en)|constructor]]).
      unfold pre_of. rewrite conv_nil, zlen_nil, map_app. cbn [map]. now rewrite !(@concat_app_single Z).
    + rewrite <- H5. lia.
    + rewrite <- H5. apply ztake_all. lia.
  - exists st, en, Ls, s, true. eexists. constructor; rewrite <- ?Ei; auto.
    + unfold ps_digest. rewrite Es, <- Ei, H4. fold (firstW i st en). now rewrite dig_scan_signed.
    + assert (zlen f = zlen (concat Ls) + zlen s + zlen (crlfW i) + zlen (firstW i st en) + zlen (concat lsR)) as Lf
        by (rewrite H3 at 1; rewrite concat_PL, !zlen_app; lia).
      pose proof (zlen_nonneg (concat lsR)). pose proof (zlen_nonneg (crlfW i)). pose proof (zlen_nonneg (firstW i st en)).
      rewrite eol_crlf, concat_PL, !zlen_app. lia.
    + rewrite H3, concat_PL, <- app_assoc. apply ztake_app_exact.
    + right. now exists (concat lsR).
Qed.

(* MakePatch's text and the specified block: the base64 text in chunks of 64 characters *)
Lemma chunks_n_nil fuel n : chunks_n fuel n [] = [].
Proof. destruct fuel; reflexivity. Qed.
Lemma chunks_n_fuel n : (1 <= n)%nat -> forall f1 f2 (l : bytes), (length l <= f1)%nat -> (length l <= f2)%nat ->
  chunks_n f1 n l = chunks_n f2 n l.
Proof.
  intros Hn. induction f1 as [|f1 IH]; intros f2 l H1 H2.
  - destruct l; [|cbn in H1; lia]. destruct f2; reflexivity.
  - destruct l as [|x l]; [destruct f2; reflexivity|]. destruct f2 as [|f2]; [cbn in H2; lia|].
    cbn [chunks_n]. f_equal. apply IH; rewrite skipn_length; cbn [length] in *; lia.
Qed.
Lemma concat_chunks n : (1 <= n)%nat -> forall fuel (l : bytes), (length l <= fuel)%nat -> concat (chunks_n fuel n l) = l.
Proof.
  intros Hn. induction fuel as [|fuel IH]; intros l H.
  - destruct l; [reflexivity|cbn in H; lia].
  - destruct l as [|x l]; [reflexivity|]. cbn [chunks_n concat]. rewrite IH; [apply firstn_skipn|].
    rewrite skipn_length. cbn [length] in *. lia.
Qed.
Lemma chunks_n_Forall (Q : Z -> Prop) n : forall fuel l, Forall Q l -> Forall (Forall Q) (chunks_n fuel n l).
Proof.
  induction fuel as [|fuel IH]; intros l H; [constructor|]. destruct l as [|x l]; [constructor|].
  cbn [chunks_n]. constructor; [now apply Forall_firstn|apply IH; now apply Forall_skipn].
Qed.
(* 64 base64 characters are 48 bytes: the chunks of the block decode to the blob *)
Lemma chunks_b64 : forall fuel blob, (length blob <= fuel)%nat ->
  chunks_n fuel 64 (b64_enc blob) = map b64_enc (chunks_n fuel 48 blob).
Proof.
  induction fuel as [|fuel IH]; intros blob H.
  - destruct blob; [reflexivity|cbn in H; lia].
  - destruct blob as [|x l]; [reflexivity|].
    destruct (b64_enc (x :: l)) as [|y ys] eqn:E; [apply (proj1 (b64_enc_nil_iff _)) in E; discriminate|]. rewrite <- E.
    replace (chunks_n (S fuel) 64 (b64_enc (x :: l))) with (firstn 64 (b64_enc (x :: l)) :: chunks_n fuel 64 (skipn 64 (b64_enc (x :: l))))
      by (rewrite E; reflexivity).
    cbn [chunks_n map].
    destruct (le_lt_dec 48 (length (x :: l))) as [Hge|Hlt].
    + destruct (b64_firstn (x :: l) Hge) as [E1 E2]. rewrite E1, E2. f_equal. apply IH.
      rewrite skipn_length. cbn [length] in *. lia.
    + rewrite (firstn_all2 (n:=64)) by (apply b64_short; exact Hlt).
      rewrite (firstn_all2 (n:=48)) by lia.
      rewrite (skipn_all2 (n:=64)) by (apply b64_short; exact Hlt).
      rewrite (skipn_all2 (n:=48)) by lia. now rewrite !chunks_n_nil.
Qed.
Lemma b64_chunks_text blob : all_bytes blob = true -> Forall b64_text (chunks64 (b64_enc blob)).
Proof. intros H. apply chunks_n_Forall. now apply b64_enc_text. Qed.
Lemma block_decodes blob : all_bytes blob = true ->
  exists ds, Forall2 (fun c d => b64_text c /\ b64_dec c = Ok d) (chunks64 (b64_enc blob)) ds /\ concat ds = blob.
Proof.
  intros H. set (F := (length (b64_enc blob) + length blob)%nat).
  exists (chunks_n F 48 blob). split.
  - unfold chunks64. rewrite (chunks_n_fuel 64 ltac:(lia) _ F) by (unfold F; lia).
    rewrite chunks_b64 by (unfold F; lia).
    assert (Forall (fun d => all_bytes d = true) (chunks_n F 48 blob)) as Hd.
    { eapply Forall_impl; [intros d; apply all_bytes_forall|]. apply chunks_n_Forall. now apply all_bytes_forall. }
    induction Hd as [|d ds Hd Hds IH]; [constructor|]. cbn [map]. constructor; [|exact IH].
    split; [now apply b64_enc_text|now apply b64_dec_enc].
  - apply concat_chunks; unfold F; lia.
Qed.
Section Block.
  Variables (i : bool) (st en : bytes).
  Hypothesis Hsty : sty_ok st en.
  Local Notation first := (firstW i st en).
  Local Notation last := (lastW i st en).
  Local Notation crlf := (crlfW i).

  Definition bline (c : bytes) : bytes := st ++ c ++ en ++ [13; 10].
  Lemma mp_line_eq c : ps_mp_line st c en = bline c.
  Proof. unfold ps_mp_line, bline. now rewrite <- !app_assoc. Qed.

  Lemma mp_lines_chunks b64 : forall fuel k, 0 <= k ->
    mp_lines fuel st en b64 k = concat (map bline (chunks_n fuel 64 (zdrop k b64))).
  Proof.
    induction fuel as [|fuel IH]; intros k Hk; [reflexivity|].
    cbn [mp_lines]. unfold ps_mp_more, ps_mp_chunk_end, ps_mp_clip, ps_mp_step.
    destruct (k <? zlen b64) eqn:E.
    - assert (zlen (zdrop k b64) = zlen b64 - k) as Hl by (apply zlen_zdrop; lia).
      destruct (zdrop k b64) as [|x xs] eqn:Ed; [rewrite zlen_nil in Hl; lia|]. rewrite <- Ed in *.
      replace (chunks_n (S fuel) 64 (zdrop k b64)) with (firstn 64 (zdrop k b64) :: chunks_n fuel 64 (skipn 64 (zdrop k b64)))
        by (rewrite Ed; reflexivity).
      cbn [map concat]. rewrite mp_line_eq, (IH (k + 64)) by lia. f_equal; [f_equal|].
      + unfold zslice. destruct (k + 64 >? zlen b64) eqn:E2.
        * rewrite ztake_all by lia. symmetry. apply firstn_all2. unfold zlen in *. lia.
        * replace (k + 64 - k) with 64 by lia. reflexivity.
      + f_equal. f_equal. replace (k + 64) with (64 + k) by lia. rewrite <- (zdrop_zdrop 64 k) by lia. reflexivity.
    - rewrite zdrop_all by lia. reflexivity.
  Qed.

  Lemma patch_text_eq blob : ps_patch_text st en blob = spec_block_text st en blob.
  Proof.
    unfold ps_patch_text, spec_block_text, ps_mp_head, ps_mp_tail, spec_begin_line, spec_end_line, spec_crlf, chunks64.
    rewrite mp_lines_chunks by lia. rewrite zdrop_0.
    rewrite (chunks_n_fuel 64 ltac:(lia) (S (length (b64_enc blob))) (length (b64_enc blob))) by lia.
    rewrite <- !app_assoc. reflexivity.
  Qed.

  Lemma ascii_bline c : b64_text c -> ascii (bline c).
  Proof.
    intros H. destruct Hsty as [H1 [H2 _]]. unfold bline.
    repeat (apply ascii_app; split); auto using b64_text_ascii. ascii_tac.
  Qed.
  Lemma ascii_concat_blines cs : Forall b64_text cs -> ascii (concat (map bline cs)).
  Proof.
    induction 1 as [|c cs Hc Hcs IH]; [constructor|]. cbn [map concat]. apply ascii_app. split; [now apply ascii_bline|exact IH].
  Qed.
  Definition wline (c : bytes) : bytes := spec_w i (bline c).
  Lemma spec_w_concat cs : spec_w i (concat (map bline cs)) = concat (map wline cs).
  Proof. induction cs as [|c cs IH]; [destruct i; reflexivity|]. cbn [map concat]. now rewrite spec_w_app, IH. Qed.

  Lemma patch_eq blob : all_bytes blob = true ->
    ps_patch st en i blob = crlf ++ first ++ concat (map wline (chunks64 (b64_enc blob))) ++ last
    /\ ps_patch st en i blob = spec_w i (spec_block_text st en blob).
  Proof.
    intros Hb. pose proof (b64_chunks_text _ Hb) as Hc. destruct Hsty as [H1 [H2 _]].
    assert (ps_patch st en i blob = spec_w i (spec_block_text st en blob)) as E.
    { unfold ps_patch. rewrite patch_text_eq. apply marker_ascii. unfold spec_block_text, spec_crlf, spec_begin_line, spec_end_line, spec_crlf.
      repeat (apply ascii_app; split); auto; try apply ps_begin_ascii; try apply ps_end_ascii; try ascii_tac.
      now apply ascii_concat_blines. }
    split; [|exact E]. rewrite E. unfold spec_block_text, spec_begin_line, spec_end_line, spec_crlf.
    change (map (fun c : list Z => st ++ c ++ en ++ [13; 10])) with (map bline).
    rewrite !spec_w_app, (spec_w_concat (chunks64 (b64_enc blob))).
    rewrite (crlf_eq i), (first_eq i st en Hsty), (last_eq i st en Hsty), !spec_w_app, <- !app_assoc. reflexivity.
  Qed.

  Lemma cline_wline c : b64_text c -> cline i (wline c).
  Proof.
    intros H. unfold wline, bline. replace (st ++ c ++ en ++ [13; 10]) with ((st ++ c ++ en) ++ [13; 10]) by now rewrite <- !app_assoc.
    apply cline_text. destruct Hsty as [_ [_ [H3 H4]]]. repeat (apply no10_app; split); auto using b64_text_no10.
  Qed.

  (* VerifyPowershell's loop on such a file *)
  Lemma ver_skip ok : forall PL rest, Forall (fun l => l <> first) PL -> rest <> [] ->
    ver_scan i st en first last ok false (PL ++ rest) = ver_scan i st en first last ok false rest.
  Proof.
    induction PL as [|l PL IH]; intros rest H Hr; [reflexivity|]. inversion H as [|? ? Hl H']; subst.
    cbn [app ver_scan]. destruct (PL ++ rest) as [|x y] eqn:E; [destruct PL; [cbn in E; contradiction|discriminate]|]. rewrite <- E.
    unfold ps_ver_notsigned, ps_ver_is_last, ps_ver_is_first. cbn [andb negb].
    replace (bytes_eqb l first) with false by (symmetry; now apply bytes_eqb_neq). now apply IH.
  Qed.
  Lemma ver_first ok rest : rest <> [] ->
    ver_scan i st en first last ok false (first :: rest) = ver_scan i st en first last ok true rest.
  Proof.
    intros Hr. cbn [ver_scan]. destruct rest as [|x y]; [contradiction|].
    unfold ps_ver_notsigned, ps_ver_is_last, ps_ver_is_first. cbn [andb negb]. now rewrite bytes_eqb_refl.
  Qed.

  Lemma end_not_b64 : ~ b64_text ps_end.
  Proof.
    intros H. unfold b64_text in H. rewrite Forall_forall in H. specialize (H 32).
    assert (In 32 ps_end) as Hin by (unfold ps_end; cbn [In]; tauto).
    specialize (H Hin). unfold b64_alpha in H. lia.
  Qed.
  Lemma wline_neq_last c : b64_text c -> wline c <> last.
  Proof.
    intros H E. rewrite (last_eq i st en Hsty) in E. unfold wline in E. apply spec_w_inj in E. unfold bline in E.
    rewrite <- !app_assoc in E. apply app_inv_head in E.
    assert (c = ps_end) as ->; [|now apply end_not_b64].
    apply (app_inv_tail (en ++ [13; 10])). exact E.
  Qed.

  Lemma ver_block ok : forall cs ds, Forall2 (fun c d => b64_text c /\ b64_dec c = Ok d) cs ds ->
    ver_scan i st en first last ok true (map wline cs ++ [last; []]) = Ok (Some (concat ds)).
  Proof.
    induction 1 as [|c d cs ds [Hc Hd] Hr IH].
    - cbn [map app ver_scan]. unfold ps_ver_notsigned, ps_ver_is_last. cbn [andb negb]. now rewrite bytes_eqb_refl.
    - cbn [map app ver_scan]. destruct (map wline cs ++ [last; []]) as [|x y] eqn:E; [destruct cs; discriminate|]. rewrite <- E in *.
      unfold ps_ver_notsigned, ps_ver_is_last. cbn [andb negb].
      replace (bytes_eqb (wline c) last) with false by (symmetry; apply bytes_eqb_neq; now apply wline_neq_last).
      assert ((if i then from_utf16 (wline c) else wline c) = bline c) as ->.
      { unfold wline, spec_w. destruct i; [apply from_utf16_widen; now apply ascii_bline|reflexivity]. }
      unfold ps_ver_malformed. unfold bline at 1 2.
      rewrite has_prefix_app. replace (st ++ c ++ en ++ [13; 10]) with ((st ++ c) ++ en ++ [13; 10]) at 1 by now rewrite <- app_assoc.
      rewrite has_suffix_app. cbn [negb orb].
      unfold ps_ver_lo, ps_ver_hi, ps_ver_overlap.
      assert (zlen (bline c) - zlen en - 2 = zlen st + zlen c) as ->.
      { unfold bline. rewrite !zlen_app. change (zlen [13; 10]) with 2. lia. }
      replace (zlen st + zlen c <? zlen st) with false by (pose proof (zlen_nonneg c); lia).
      unfold bline. rewrite zslice_app_mid, Hd by reflexivity. cbn [bind]. rewrite IH. reflexivity.
  Qed.
End Block.

Lemma ps_dom_style style f : ps_dom style f = true -> exists st en, style_lookup style = Some (st, en).
Proof. unfold ps_dom. destruct (style_lookup style) as [[st en]|]; [eauto|discriminate]. Qed.

Section Signed.
  (* a file of the form  complete lines ++ begin line ++ block written for blob *)
  Variables (i : bool) (st en : bytes) (PL : list bytes) (blob : bytes).
  Hypothesis Hsty : sty_ok st en.
  Hypothesis Hcl : Forall (cline i) PL.
  Hypothesis Hnf : Forall (fun l => l <> firstW i st en) PL.
  Hypothesis Hb : all_bytes blob = true.
  Let g := concat PL ++ firstW i st en ++ concat (map (wline i st en) (chunks64 (b64_enc blob))) ++ lastW i st en.

  Lemma signed_lines : ps_lines i g =
    (PL ++ firstW i st en :: map (wline i st en) (chunks64 (b64_enc blob)) ++ [lastW i st en; []], true).
  Proof.
    unfold g.
    replace (concat PL ++ firstW i st en ++ concat (map (wline i st en) (chunks64 (b64_enc blob))) ++ lastW i st en)
      with (concat (PL ++ firstW i st en :: map (wline i st en) (chunks64 (b64_enc blob)) ++ [lastW i st en]) ++ []).
    - rewrite ps_lines_concat.
      + rewrite ps_lines_nil. f_equal. rewrite <- !app_assoc. cbn [app]. f_equal. f_equal. rewrite <- app_assoc. reflexivity.
      + apply Forall_app. split; [assumption|]. constructor; [now apply cline_first|].
        apply Forall_app. split; [|constructor; [now apply cline_last|constructor]].
        pose proof (b64_chunks_text blob Hb) as Hc. induction Hc; cbn [map]; constructor; auto. now apply cline_wline.
    - rewrite app_nil_r, concat_app. cbn [concat]. rewrite concat_app. cbn [concat]. now rewrite app_nil_r.
  Qed.

  Lemma signed_extract style : style_lookup style = Some (st, en) -> ps_is16 g = i -> ps_extract style g = Ok (Some blob).
  Proof.
    intros Es Ei. unfold ps_extract. rewrite Es, Ei, signed_lines.
    fold (firstW i st en). fold (lastW i st en).
    rewrite ver_skip by (auto; discriminate). rewrite ver_first by (destruct (chunks64 (b64_enc blob)); discriminate).
    destruct (block_decodes blob Hb) as [ds [Hds <-]]. now apply ver_block.
  Qed.

  Lemma signed_digest style Ls s : style_lookup style = Some (st, en) -> ps_is16 g = i -> PL = Ls ++ [s ++ crlfW i] ->
    ps_hashin style g = Ok (pre_of i Ls s).
  Proof.
    intros Es Ei EP. unfold ps_hashin, ps_digest. rewrite Es, Ei, signed_lines. fold (firstW i st en).
    subst PL. now rewrite (dig_scan_signed i st en).
  Qed.
End Signed.

(* the specification reader: substring search *)
Lemma find_sub_eq pat l pos :
  find_sub pat l pos = if has_prefix l pat then Some pos else match l with [] => None | _ :: r => find_sub pat r (pos + 1) end.
Proof. destruct l; reflexivity. Qed.
Lemma find_sub_skip pat : forall a r pos,
  (forall k, 0 <= k < zlen a -> has_prefix (zdrop k (a ++ r)) pat = false) ->
  find_sub pat (a ++ r) pos = find_sub pat r (pos + zlen a).
Proof.
  induction a as [|x a IH]; intros r pos H.
  - cbn [app]. rewrite zlen_nil. f_equal. lia.
  - rewrite find_sub_eq. pose proof (H 0) as H0. rewrite zdrop_0 in H0. rewrite H0 by (rewrite zlen_cons; pose proof (zlen_nonneg a); lia).
    cbn [app]. rewrite IH.
    + f_equal. rewrite zlen_cons. lia.
    + intros k Hk. rewrite <- (zdrop_cons k x) by lia. apply H. rewrite zlen_cons. lia.
Qed.
Lemma no10_zdrop k l : no10 l -> no10 (zdrop k l).
Proof. unfold no10, zdrop. intros H Hin. apply H. rewrite <- (firstn_skipn (Z.to_nat k) l). apply in_or_app. now right. Qed.
Lemma bom_eq f : spec_bom16 f = ps_is16 f.
Proof. destruct f as [|a [|b r]]; reflexivity. Qed.

Section Find.
  Variables (i : bool) (st en : bytes).
  Hypothesis Hsty : sty_ok st en.
  Local Notation first := (firstW i st en).
  Local Notation crlf := (crlfW i).

  Lemma crlf_split : exists cr cz, crlf = cr ++ nl i /\ cr = 13 :: cz /\ no10 cr /\ (forall z r, nl i = 10 :: z :: r -> z <> 13).
  Proof.
    rewrite crlf_eq. destruct i.
    - exists [13; 0], [0]. repeat split; try reflexivity; [no10_tac|]. cbn [nl]. intros z r E. inversion E. lia.
    - exists [13], []. repeat split; try reflexivity; [no10_tac|]. cbn [nl]. intros z r E. inversion E.
  Qed.

  Lemma occ_in_line l rest k : cline i l -> 0 <= k < zlen l ->
    has_prefix (zdrop k (l ++ rest)) (crlf ++ first) = true ->
    k = zlen l - zlen crlf /\ has_prefix rest first = true.
  Proof.
    intros [body [-> Hb]] Hk H. apply has_prefix_spec in H as [y Hy].
    destruct crlf_split as [cr [cz [Ec [Ecr [Hcr Hz]]]]]. rewrite Ec in *.
    destruct (nl_head i) as [z [Ez Hzz]]. rewrite Ez in *. rewrite !zlen_app, zlen_cons in *.
    destruct (Z_le_gt_dec k (zlen body)) as [Hle|Hgt].
    - rewrite <- !app_assoc in Hy. rewrite zdrop_app_l in Hy by lia. cbn [app] in Hy.
      apply split_first10 in Hy as [E1 E2]; [|now apply no10_zdrop|assumption].
      apply app_inv_head in E2. split.
      + assert (zlen (zdrop k body) = zlen body - k) as Hl by (apply zlen_zdrop; lia). rewrite E1 in Hl. lia.
      + apply has_prefix_spec. exists y. exact E2.
    - (* k points into the terminator: only possible for the two-byte terminator, where the byte there is not CR *)
      exfalso. rewrite <- app_assoc, zdrop_app_r in Hy by lia.
      destruct z as [|z0 z']; [unfold zlen in Hk, Hgt; cbn [length] in Hk; lia|].
      assert (k - zlen body = 1) as Hk1.
      { destruct i; cbn [nl] in Ez; inversion Ez; subst. unfold zlen in Hk, Hgt |- *. cbn [length] in Hk. lia. }
      rewrite Hk1 in Hy. cbn [app] in Hy. change (zdrop 1 (10 :: z0 :: z' ++ rest)) with (z0 :: z' ++ rest) in Hy.
      rewrite Ecr in Hy. cbn [app] in Hy. inversion Hy. eapply Hz; eauto.
  Qed.
  Lemma occ_first_no10 x : no10 x -> has_prefix x first = false.
  Proof.
    intros H. destruct (has_prefix x first) eqn:E; [|reflexivity]. exfalso.
    apply has_prefix_spec in E as [y ->]. apply H. apply in_or_app. left. eapply cline_has10. now apply cline_first.
  Qed.
  Lemma line_not_first l rest : cline i l -> l <> first -> has_prefix (l ++ rest) first = false.
  Proof.
    intros Hl Hn. destruct (has_prefix (l ++ rest) first) eqn:E; [|reflexivity]. exfalso. apply Hn. apply has_prefix_spec in E as [y Hy].
    now destruct (cline_prefix_eq i l rest first y Hl (cline_first i st en Hsty) Hy).
  Qed.
  (* the search passes a complete line that is not followed by the begin line *)
  Lemma find_sub_line l rest pos : cline i l -> has_prefix rest first = false ->
    find_sub (crlf ++ first) (l ++ rest) pos = find_sub (crlf ++ first) rest (pos + zlen l).
  Proof.
    intros Hl Hr. apply find_sub_skip. intros k Hk. destruct (has_prefix (zdrop k (l ++ rest)) (crlf ++ first)) eqn:E; [|reflexivity].
    apply occ_in_line in E as [_ E]; auto. congruence.
  Qed.
  Lemma find_sub_no10 : forall l pos, no10 l -> find_sub (crlf ++ first) l pos = None.
  Proof.
    induction l as [|x l IH]; intros pos H; rewrite find_sub_eq.
    - destruct (has_prefix [] (crlf ++ first)) eqn:E; [|reflexivity]. apply has_prefix_spec in E as [y Hy].
      destruct crlf_split as [cr [cz [Ec [Ecr _]]]]. rewrite Ec, Ecr in Hy. discriminate.
    - destruct (has_prefix (x :: l) (crlf ++ first)) eqn:E.
      + exfalso. apply has_prefix_spec in E as [y Hy]. apply H. rewrite Hy. apply in_or_app. left. apply in_or_app. right.
        eapply cline_has10. now apply cline_first.
      + apply IH. apply no10_cons in H. tauto.
  Qed.

  Lemma find_sub_lines R : forall PL pos, Forall (cline i) PL -> Forall (fun l => l <> first) PL -> PL <> [] ->
    has_suffix (List.last PL []) crlf = true ->
    find_sub (crlf ++ first) (concat PL ++ first ++ R) pos = Some (pos + zlen (concat PL) - zlen crlf).
  Proof.
    induction PL as [|l PL IH]; intros pos Hc Hn Hne Hs; [contradiction|].
    inversion Hc as [|? ? Hl Hc']; subst. inversion Hn as [|? ? Hnl Hn']; subst.
    destruct PL as [|l2 PL'].
    - cbn [List.last concat] in *. rewrite app_nil_r. apply has_suffix_spec in Hs as [a ->].
      rewrite <- !app_assoc. rewrite find_sub_skip.
      + rewrite find_sub_eq. rewrite (app_assoc crlf first R), has_prefix_app. f_equal. rewrite zlen_app. lia.
      + intros k Hk. destruct (has_prefix (zdrop k (a ++ crlf ++ first ++ R)) (crlf ++ first)) eqn:E; [|reflexivity].
        exfalso. rewrite (app_assoc a crlf) in E. apply occ_in_line in E as [E _]; [|assumption|rewrite zlen_app; pose proof (zlen_nonneg crlf); lia].
        rewrite zlen_app in E. lia.
    - change (concat (l :: l2 :: PL')) with (l ++ concat (l2 :: PL')). rewrite <- app_assoc, find_sub_line.
      + rewrite (IH (pos + zlen l)); auto; [|discriminate]. f_equal. rewrite zlen_app. lia.
      + assumption.
      + inversion Hc'; inversion Hn'; subst. cbn [concat]. rewrite <- app_assoc. now apply line_not_first.
  Qed.

  Lemma find_sub_none : forall Ls s pos, Forall (cline i) Ls -> Forall (fun l => l <> first) Ls -> no10 s ->
    find_sub (crlf ++ first) (concat Ls ++ s) pos = None.
  Proof.
    induction Ls as [|l Ls IH]; intros s pos Hc Hn Hs; [now apply find_sub_no10|].
    inversion Hc as [|? ? Hl Hc']; subst. inversion Hn as [|? ? Hnl Hn']; subst.
    cbn [concat]. rewrite <- app_assoc, find_sub_line; [now apply IH|assumption|].
    destruct Ls as [|l2 Ls']; [now apply occ_first_no10|]. inversion Hc'; inversion Hn'; subst. cbn [concat]. rewrite <- app_assoc. now apply line_not_first.
  Qed.

  Lemma spec_pat_eq : spec_w i (spec_crlf ++ spec_begin_line st en) = crlf ++ first.
  Proof.
    rewrite spec_w_app, crlf_eq, (first_eq i st en Hsty). unfold spec_crlf, spec_begin_line, spec_crlf.
    rewrite <- !app_assoc. reflexivity.
  Qed.
End Find.

(* what embedding does on the domain.  The encoding flag is read from the first two bytes and CR is neither FF nor FE: it is
   decided in front of the first CR LF *)
Lemma is16_app_cr T R : ps_is16 (T ++ 13 :: R) = ps_is16 T.
Proof. destruct T as [|a [|b T]]; [destruct R; reflexivity| |reflexivity]. cbn. unfold ps_bom_cond. cbn. apply andb_false_r. Qed.
Lemma is16_content i T R : ps_is16 (T ++ crlfW i ++ R) = ps_is16 T.
Proof. destruct i; apply is16_app_cr. Qed.

Record ps_embedded (style : Z) (f blob g : bytes) (st en : bytes) (Ls : list bytes) (s : bytes) : Prop := mkPsEmbedded {
  pe_style : style_lookup style = Some (st, en);
  pe_sty : sty_ok st en;
  pe_cl : Forall (cline (ps_is16 f)) (Ls ++ [s ++ crlfW (ps_is16 f)]);
  pe_nf : Forall (fun l => l <> firstW (ps_is16 f) st en) (Ls ++ [s ++ crlfW (ps_is16 f)]);
  pe_g : g = concat (Ls ++ [s ++ crlfW (ps_is16 f)]) ++ firstW (ps_is16 f) st en
             ++ concat (map (wline (ps_is16 f) st en) (chunks64 (b64_enc blob))) ++ lastW (ps_is16 f) st en;
  pe_spec : g = (concat Ls ++ s) ++ spec_w (ps_is16 f) (spec_block_text st en blob);
  pe_is16 : ps_is16 g = ps_is16 f;
  pe_hash : ps_hashin style f = Ok (pre_of (ps_is16 f) Ls s);
  pe_take : ztake (zlen (concat Ls ++ s)) f = concat Ls ++ s;
  pe_f : (f = concat Ls ++ s /\ no10 s) \/
         exists R, f = concat (Ls ++ [s ++ crlfW (ps_is16 f)]) ++ firstW (ps_is16 f) st en ++ R
}.

Lemma embed_form style f blob g : ps_dom style f = true -> all_bytes blob = true -> ps_embed style f blob = Ok g ->
  exists st en Ls s, ps_embedded style f blob g st en Ls s.
Proof.
  intros Hd Hb He. destruct (ps_digest_dom _ _ Hd) as [st [en [Ls [s [fd [ssz [H1 H2 H3 H4 Hdig Hlen H7 H8]]]]]]].
  unfold ps_embed in He. rewrite H1, Hdig in He. cbn [bind d_tsz d_ssz d_is16] in He.
  replace (zlen f <? zlen (concat Ls ++ s)) with false in He by lia. rewrite H7, zdrop_all, app_nil_r in He by lia.
  injection He as H5. symmetry in H5.
  exists st, en, Ls, s. destruct (patch_eq (ps_is16 f) st en H2 blob Hb) as [P1 P2].
  assert (g = concat (Ls ++ [s ++ crlfW (ps_is16 f)]) ++ firstW (ps_is16 f) st en
              ++ concat (map (wline (ps_is16 f) st en) (chunks64 (b64_enc blob))) ++ lastW (ps_is16 f) st en) as Eg.
  { rewrite H5, P1, concat_PL, <- !app_assoc. reflexivity. }
  constructor; auto.
  - rewrite H5, P2. reflexivity.
  - transitivity (ps_is16 (concat Ls ++ s)).
    + rewrite Eg, concat_PL, <- (app_assoc (concat Ls ++ s)). apply is16_content.
    + destruct H8 as [[Hf _]|[R Hf]]; [now rewrite <- Hf|]. symmetry. rewrite Hf at 1.
      rewrite concat_PL, <- (app_assoc (concat Ls ++ s)). apply is16_content.
  - unfold ps_hashin. now rewrite Hdig.
Qed.

Theorem ps_law_extract_dom style f blob g :
  ps_dom style f = true -> all_bytes blob = true -> ps_embed style f blob = Ok g -> ps_extract style g = Ok (Some blob).
Proof.
  intros Hd Hb He. destruct (embed_form _ _ _ _ Hd Hb He) as [st [en [Ls [s [Es Hsty Hcl Hnf Hg _ His _ _ _]]]]].
  rewrite Hg. apply signed_extract; auto. now rewrite <- Hg.
Qed.
Theorem ps_law_hashin_dom style f blob g :
  ps_dom style f = true -> all_bytes blob = true -> ps_embed style f blob = Ok g -> ps_hashin style g = ps_hashin style f.
Proof.
  intros Hd Hb He. destruct (embed_form _ _ _ _ Hd Hb He) as [st [en [Ls [s [Es Hsty Hcl Hnf Hg _ His Hh _ _]]]]].
  rewrite Hh, Hg. apply (signed_digest (ps_is16 f) st en _ blob Hsty Hcl Hnf Hb style Ls s Es); [now rewrite <- Hg|reflexivity].
Qed.

Lemma payload_unsigned style f st en Ls s :
  style_lookup style = Some (st, en) -> sty_ok st en ->
  Forall (cline (ps_is16 f)) Ls -> Forall (fun l => l <> firstW (ps_is16 f) st en) Ls -> no10 s -> f = concat Ls ++ s ->
  ps_payload style f = Ok f /\ ps_spec_signed style f = false.
Proof.
  intros Es Hsty Hc Hn Hs Hf. unfold ps_payload, ps_spec_signed. rewrite spec_style_eq, Es, bom_eq, (spec_pat_eq _ _ _ Hsty).
  pose proof (find_sub_none (ps_is16 f) st en Hsty Ls s 0 Hc Hn Hs) as E. rewrite <- Hf in E. rewrite E. split; reflexivity.
Qed.
Lemma payload_signed style f st en Ls s R :
  style_lookup style = Some (st, en) -> sty_ok st en ->
  Forall (cline (ps_is16 f)) (Ls ++ [s ++ crlfW (ps_is16 f)]) ->
  Forall (fun l => l <> firstW (ps_is16 f) st en) (Ls ++ [s ++ crlfW (ps_is16 f)]) ->
  f = concat (Ls ++ [s ++ crlfW (ps_is16 f)]) ++ firstW (ps_is16 f) st en ++ R ->
  ps_payload style f = Ok (concat Ls ++ s) /\ ps_spec_signed style f = true.
Proof.
  intros Es Hsty Hc Hn Hf. unfold ps_payload, ps_spec_signed. rewrite spec_style_eq, Es, bom_eq, (spec_pat_eq _ _ _ Hsty).
  assert (find_sub (crlfW (ps_is16 f) ++ firstW (ps_is16 f) st en) f 0 = Some (zlen (concat Ls ++ s))) as E.
  { pose proof (find_sub_lines (ps_is16 f) st en Hsty R _ 0 Hc Hn) as E. rewrite <- Hf in E. rewrite E.
    - f_equal. rewrite concat_PL, zlen_app. lia.
    - destruct Ls; discriminate.
    - rewrite last_last. apply has_suffix_app. }
  rewrite E. split; [|reflexivity]. f_equal.
  assert (f = (concat Ls ++ s) ++ crlfW (ps_is16 f) ++ firstW (ps_is16 f) st en ++ R) as Hf2 by (rewrite Hf at 1; rewrite concat_PL, <- !app_assoc; reflexivity).
  rewrite Hf2 at 1. apply ztake_app_exact.
Qed.

Lemma payload_shape style f st en Ls s : style_lookup style = Some (st, en) -> sty_ok st en ->
  Forall (cline (ps_is16 f)) (Ls ++ [s ++ crlfW (ps_is16 f)]) -> Forall (fun l => l <> firstW (ps_is16 f) st en) (Ls ++ [s ++ crlfW (ps_is16 f)]) ->
  ((f = concat Ls ++ s /\ no10 s) \/ exists R, f = concat (Ls ++ [s ++ crlfW (ps_is16 f)]) ++ firstW (ps_is16 f) st en ++ R) ->
  ps_payload style f = Ok (concat Ls ++ s).
Proof.
  intros Es Hsty Hc Hn [[Hf Hs]|[R Hf]]; [|eapply payload_signed; eauto].
  destruct (payload_unsigned style f st en Ls s Es Hsty (Forall_app_l _ _ _ Hc) (Forall_app_l _ _ _ Hn) Hs Hf) as [E _]. now rewrite E, <- Hf.
Qed.

Lemma payload_of_embedded style f blob g st en Ls s : ps_embedded style f blob g st en Ls s ->
  ps_payload style f = Ok (concat Ls ++ s) /\ ps_payload style g = Ok (concat Ls ++ s) /\ ps_spec_signed style g = true
  /\ (ps_spec_signed style f = false -> f = concat Ls ++ s).
Proof.
  intros [Es Hsty Hcl Hnf Hg _ His _ _ Hf]. split; [eapply payload_shape; eauto|].
  split; [|split]; [rewrite <- His in Hcl, Hnf, Hg; eapply payload_signed; eauto ..|].
  intros Hu. destruct Hf as [[Hf Hs]|[R Hf]]; [exact Hf|].
  destruct (payload_signed _ _ _ _ _ _ _ Es Hsty Hcl Hnf Hf) as [_ E]. congruence.
Qed.

Theorem ps_law_payload_dom style f blob g :
  ps_dom style f = true -> all_bytes blob = true -> ps_embed style f blob = Ok g -> ps_payload style g = ps_payload style f.
Proof.
  intros Hd Hb He. destruct (embed_form _ _ _ _ Hd Hb He) as [st [en [Ls [s E]]]].
  destruct (payload_of_embedded _ _ _ _ _ _ _ _ E) as [H1 [H2 _]]. congruence.
Qed.
