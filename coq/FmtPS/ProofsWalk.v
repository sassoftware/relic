(* FmtPS/ProofsWalk.v — relic's member walk and patch (lib/signdeb Sign / Verify over the ar framing) on an archive given by its
   entries, for every spelling of the member names: Sign makes each test on the normalised name (m_cname = deb_norm hdr.Name,
   generated), Verify on the raw one, and the only fact about the normalisation used is ProofsAR.deb_norm_is_logical.
   The file ends with the three laws of Laws/Pipeline.v on the common part of the domains deb_wf and deb_wf2 (wf_base:
   the strict reader accepts, every name field is a spelling of a proper logical name, relic's scan succeeds); neither
   needs the names to be distinct for them. *)
From Relic Require Import Base.Prelude Base.Enc Base.Slice Generated.FmtPS_gen FmtPS.Model FmtPS.Lib FmtPS.ProofsAR.

Lemma odd_pad_eq n : (if n mod 2 =? 1 then [10] else @nil Z) = (if Z.odd n then [10] else []).
Proof. rewrite Zmod_odd. destruct (Z.odd n); reflexivity. Qed.
Lemma zlen_pad n : zlen (if Z.odd n then [10] else @nil Z) = n mod 2.
Proof. rewrite Zmod_odd. destruct (Z.odd n); reflexivity. Qed.

Definition enc_all (es : list ent) : bytes := concat (map ent_enc es).
Lemma enc_all_cons e es : enc_all (e :: es) = ent_enc e ++ enc_all es.
Proof. reflexivity. Qed.
Lemma enc_all_app a b : enc_all (a ++ b) = enc_all a ++ enc_all b.
Proof. unfold enc_all. now rewrite map_app, concat_app. Qed.
Lemma enc_all_single e : enc_all [e] = ent_enc e.
Proof. apply app_nil_r. Qed.
Lemma spec_file_enc es : ar_spec_file es = spec_ar_magic ++ enc_all es.
Proof. reflexivity. Qed.

Record ent_facts (e : ent) : Prop := mkFacts {
  ef_hlen : zlen (e_hdr e) = 60;
  ef_magic : zslice 58 60 (e_hdr e) = [96; 10];
  ef_sizefld : zslice 48 58 (e_hdr e) = spec_field 10 (spec_dec (zlen (e_data e)));
  ef_small : zlen (e_data e) < 10000000000
}.
Lemma ent_ok_facts e : ent_ok e = true -> ent_facts e.
Proof.
  unfold ent_ok. intros H. apply andb_true_iff in H as [H H4]. apply andb3 in H as [H1 [H2 H3]].
  constructor; [lia|now apply bytes_eqb_eq|now apply bytes_eqb_eq|lia].
Qed.
Lemma zlen_ent_enc e : ent_ok e = true -> zlen (ent_enc e) = 60 + zlen (e_data e) + zlen (e_data e) mod 2.
Proof. intros H. destruct (ent_ok_facts e H). unfold ent_enc. rewrite !zlen_app, zlen_pad. lia. Qed.
(* an encoded entry in front of `rest`, as both readers cut it up: 60 bytes of header, then the data, the padding and `rest` *)
Lemma ent_enc_split e rest : ent_ok e = true -> let n := zlen (e_data e) in
  exists body, ztake 60 (ent_enc e ++ rest) = e_hdr e /\ zdrop 60 (ent_enc e ++ rest) = body /\
    zlen (ent_enc e ++ rest) = 60 + zlen body /\ zlen body = n + n mod 2 + zlen rest /\
    ztake n body = e_data e /\ zdrop (n + n mod 2) body = rest /\ (Z.odd n = true -> zslice n (n + 1) body = [10]).
Proof.
  intros H n. destruct (ent_ok_facts e H) as [H60 _ _ _]. set (padb := if Z.odd n then [10] else @nil Z).
  assert (zlen padb = n mod 2) as Hpad by apply zlen_pad.
  assert (ent_enc e ++ rest = e_hdr e ++ e_data e ++ padb ++ rest) as -> by (unfold ent_enc; fold n; fold padb; now rewrite <- !app_assoc).
  exists (e_data e ++ padb ++ rest). split; [now apply ztake_app_len|]. split; [now apply zdrop_app_len|].
  split; [rewrite zlen_app; lia|]. split; [rewrite !zlen_app; fold n; lia|]. split; [now apply ztake_app_len|].
  split; [rewrite app_assoc; apply zdrop_app_len; rewrite zlen_app; fold n; lia|].
  intros Ho. unfold padb. rewrite Ho. now apply zslice_app_mid.
Qed.
Lemma field16 e : ent_ok e = true -> length (zslice 0 16 (e_hdr e)) = 16%nat.
Proof. intros H. destruct (ent_ok_facts e H) as [H60 _ _ _]. apply Nat2Z.inj. apply (zlen_zslice 0 16); lia. Qed.

(* the size field: canonical decimal, read back by both readers *)
Lemma spec_dec_last_digit z c r : 0 <= z -> rev (spec_dec z) = c :: r -> c <> 32.
Proof.
  intros Hz E. pose proof (spec_dec_digits z Hz) as Hd. apply Forall_rev in Hd. rewrite E in Hd. inversion Hd. lia.
Qed.
Lemma size_field_relic z : 0 <= z < 10 ^ 64 -> go_parse_int (ar_trim (spec_field 10 (spec_dec z))) = z.
Proof.
  intros Hz. unfold spec_field.
  rewrite ar_trim_rtrim.
  - rewrite rtrim_field; [now apply go_parse_int_dec|]. intros c r. now apply spec_dec_last_digit.
  - pose proof (spec_dec_digits z (proj1 Hz)) as Hd. destruct (spec_dec z) as [|c r] eqn:E; [exfalso; now apply (spec_dec_nonempty z)|].
    cbn [app]. inversion Hd. lia.
Qed.
Lemma size_field_spec z : 0 <= z < 10 ^ 64 -> spec_parse_size (spec_field 10 (spec_dec z)) = Some z.
Proof.
  intros Hz. unfold spec_parse_size, spec_field. rewrite rtrim_field; [now apply parse_udec_spec_dec|].
  intros c r. now apply spec_dec_last_digit.
Qed.

(* what the walk needs of an entry; ent_plain is the narrower demand of deb_wf (no slash in the name field) *)
Definition ent_good (e : ent) : Prop := ent_ok e = true /\ ent_spelled_ok e = true /\ ent_mode_ok e = true.
Definition ent_plain (e : ent) : Prop := ent_ok e = true /\ ent_name_ok e = true /\ ent_mode_ok e = true.

Lemma name_noslash e : ent_name_ok e = true -> has_slash (ent_name e) = false.
Proof.
  unfold ent_name_ok, ent_name. intros [H _]%andb_true_iff. apply rtrim_forallb in H. unfold has_slash.
  induction (rtrim (zslice 0 16 (e_hdr e))) as [|c l IH]; [reflexivity|]. cbn [forallb existsb] in *. apply andb_true_iff in H as [H1 H2].
  rewrite IH by assumption. unfold name_char_ok in H1. lia.
Qed.
Lemma plain_lname e : ent_plain e -> ent_lname e = ent_name e.
Proof. intros [_ [Hn _]]. rewrite ent_lname_strip. now apply strip_slash_noslash, name_noslash. Qed.
Lemma plain_good e : ent_plain e -> ent_good e.
Proof.
  intros Hp. pose proof (plain_lname e Hp) as El. destruct Hp as [Hok [Hname Hmode]]. split; [exact Hok|split; [|exact Hmode]].
  pose proof (field16 e Hok) as L. unfold ent_name_ok in Hname. apply andb_true_iff in Hname as [Hchars Hfirst].
  unfold ent_spelled_ok. rewrite El. unfold ent_name. set (fld := zslice 0 16 (e_hdr e)) in *. pose proof (rtrim_length fld) as Ln.
  (* the first character of the field is not a blank, so it is the first character of the name *)
  assert (exists c r, rtrim fld = c :: r /\ c <> 32) as [c [r [En Hc]]].
  { destruct fld as [|c r]; [discriminate|]. exists c, (rtrim r). split; [|lia]. symmetry. apply (ar_trim_rtrim (c :: r)). lia. }
  apply andb_true_iff. split.
  - unfold lname_ok. rewrite (rtrim_forallb _ _ Hchars), En. replace (c =? 32) with false by lia. cbn [negb andb]. rewrite <- En.
    destruct (rev (rtrim fld)) as [|c' r'] eqn:Er; [apply (f_equal (@rev Z)) in Er; rewrite rev_involutive, En in Er; discriminate|].
    pose proof (rtrim_last_not_sp fld c' r' Er). replace (c' =? 32) with false by lia. reflexivity.
  - unfold is_spelling. apply orb_true_iff. left. apply andb_true_iff. split; [|unfold zlen; lia].
    apply bytes_eqb_eq. symmetry. now apply rtrim_spec_field.
Qed.

Definition cname_of (verify : bool) (e : ent) : bytes := if verify then ent_name e else ent_lname e.
Definition mem_of (verify : bool) (pos : Z) (e : ent) : member :=
  mkMember (ent_name e) (zlen (e_data e)) (e_data e) pos (cname_of verify e).
Fixpoint mems (verify : bool) (pos : Z) (es : list ent) : list member :=
  match es with [] => [] | e :: r => mem_of verify pos e :: mems verify (pos + zlen (ent_enc e)) r end.
Definition chk_all (verify : bool) (chk : bytes -> bytes -> bool) (es : list ent) : bool :=
  forallb (fun e => ent_is_sig e || chk (cname_of verify e) (e_data e)) es.

Lemma mems_app verify pos a b : mems verify pos (a ++ b) = mems verify pos a ++ mems verify (pos + zlen (enc_all a)) b.
Proof.
  revert pos; induction a as [|e a IH]; intros pos.
  - cbn [app mems enc_all map concat]. rewrite zlen_nil. f_equal. lia.
  - cbn [app mems]. f_equal. rewrite IH, enc_all_cons, zlen_app. f_equal. f_equal. lia.
Qed.

Lemma scan_step fuel verify chk pos e rest : ent_good e ->
  ar_scan (S fuel) verify chk pos (ent_enc e ++ rest) =
    if negb (ent_is_sig e) && negb (chk (cname_of verify e) (e_data e)) then Err E_CONTROL
    else r <- ar_scan fuel verify chk (pos + zlen (ent_enc e)) rest ;; Ok (mem_of verify pos e :: fst r, snd r).
Proof.
  intros [Hok [Hname Hmode]]. destruct (ent_ok_facts e Hok) as [_ _ Hsz Hsmall].
  destruct (spelled_of_ok e Hname) as [_ _ _ Hn]. pose proof (deb_norm_is_logical e Hname) as Hnorm. pose proof (lsig_is_sig e Hname) as Hsig.
  destruct (ent_enc_split e rest Hok) as [body [Ht [Hd [Hlen [Hb [Htk [Hdr _]]]]]]]. pose proof (zlen_ent_enc e Hok) as Le.
  set (n := zlen (e_data e)) in *. assert (0 <= n) as Hn0 by apply zlen_nonneg. pose proof (zlen_nonneg rest) as Hr0.
  cbn [ar_scan]. rewrite Ht, Hd, Hlen, Hb.
  replace (60 + (n + n mod 2 + zlen rest) =? 0) with false by lia.
  replace (60 + (n + n mod 2 + zlen rest) <? 60) with false by lia.
  unfold ent_mode_ok in Hmode. replace (zlen (ar_trim (zslice 40 48 (e_hdr e))) <? 3) with false by lia.
  rewrite Hn, Hnorm, Hsz. fold (cname_of verify e).
  replace (if verify then deb_v_is_gpg (ent_name e) else deb_is_gpg (cname_of verify e)) with (ent_is_sig e)
    by (destruct verify; [reflexivity|symmetry; exact Hsig]).
  rewrite size_field_relic by lia. fold n. replace (n <? 0) with false by lia. rewrite Htk.
  destruct (negb (ent_is_sig e) && negb (chk (cname_of verify e) (e_data e))); [reflexivity|].
  replace (n + n mod 2 + zlen rest <? n + n mod 2) with false by lia. rewrite Hdr.
  replace (pos + 60 + n + n mod 2) with (pos + zlen (ent_enc e)) by lia. reflexivity.
Qed.

Lemma ar_scan_nil fuel verify chk pos : ar_scan fuel verify chk pos [] = Ok ([], pos).
Proof. destruct fuel; reflexivity. Qed.
(* one unit of fuel per member is enough *)
Lemma scan_tail verify chk : forall es fuel pos tail, Forall ent_good es -> (length es <= fuel)%nat ->
  ar_scan fuel verify chk pos (enc_all es ++ tail) =
    if chk_all verify chk es
    then r <- ar_scan (fuel - length es) verify chk (pos + zlen (enc_all es)) tail ;; Ok (mems verify pos es ++ fst r, snd r)
    else Err E_CONTROL.
Proof.
  induction es as [|e es IH]; intros fuel pos tail Hg Hf.
  - cbn [enc_all map concat app chk_all forallb mems length]. rewrite zlen_nil, Z.add_0_r, Nat.sub_0_r.
    destruct (ar_scan fuel verify chk pos tail) as [[a b]| |]; reflexivity.
  - inversion Hg as [|? ? He Hes]; subst. cbn [length] in Hf. destruct fuel as [|fuel]; [lia|].
    rewrite enc_all_cons, <- app_assoc. rewrite scan_step by assumption. cbn [chk_all forallb]. fold (chk_all verify chk es).
    rewrite <- negb_orb. destruct (ent_is_sig e || chk (cname_of verify e) (e_data e)); cbn [negb andb]; [|reflexivity].
    rewrite IH by (auto; lia). cbn [length Nat.sub]. destruct (chk_all verify chk es); cbn [bind]; [|reflexivity].
    rewrite zlen_app, Z.add_assoc.
    destruct (ar_scan (fuel - length es) verify chk (pos + zlen (ent_enc e) + zlen (enc_all es)) tail) as [[a b]| |]; reflexivity.
Qed.
Lemma enc_all_long es : Forall ent_good es -> (length es <= length (enc_all es))%nat.
Proof.
  induction 1 as [|e es He Hes IH]; [cbn; lia|]. rewrite enc_all_cons, app_length. cbn [length].
  pose proof (zlen_ent_enc e (proj1 He)). pose proof (zlen_nonneg (e_data e)). unfold zlen in *. lia.
Qed.
Lemma zlen_magic : zlen spec_ar_magic = 8.
Proof. reflexivity. Qed.
Lemma members_spec verify chk es : Forall ent_good es ->
  ar_members verify chk (ar_spec_file es) =
    if chk_all verify chk es then Ok (mems verify 8 es, zlen (ar_spec_file es)) else Err E_CONTROL.
Proof.
  intros Hg. unfold ar_members. rewrite spec_file_enc, (zdrop_app_len 8 spec_ar_magic) by reflexivity.
  rewrite zlen_app, zlen_magic. pose proof (zlen_nonneg (enc_all es)). replace (Z.min 8 (8 + zlen (enc_all es))) with 8 by lia.
  rewrite <- (app_nil_r (enc_all es)) at 2.
  rewrite scan_tail, ar_scan_nil by (auto; pose proof (enc_all_long es Hg); rewrite app_length; lia).
  destruct (chk_all verify chk es); [|reflexivity]. cbn [bind fst snd]. now rewrite app_nil_r.
Qed.

(* what Sign and Verify read off the members is read off the entries: the member offsets play no part *)
Lemma mems_filter_map {B} verify (p : member -> bool) (g : member -> B) (p' : ent -> bool) (g' : ent -> B) :
  (forall pos e, p (mem_of verify pos e) = p' e) -> (forall pos e, g (mem_of verify pos e) = g' e) ->
  forall es pos, map g (filter p (mems verify pos es)) = map g' (filter p' es).
Proof.
  intros Hp Hg. induction es as [|e es IH]; intros pos; [reflexivity|]. cbn [mems filter]. rewrite Hp.
  destruct (p' e); cbn [map]; now rewrite ?Hg, IH.
Qed.
Definition nonsig (e : ent) : bool := negb (ent_is_sig e).
Lemma lnonsig_filter es : Forall ent_good es -> filter (fun e => negb (ent_is_lsig e)) es = filter nonsig es.
Proof. intros Hg. apply filter_ext_in. intros e He. rewrite Forall_forall in Hg. unfold nonsig. now rewrite (lsig_is_sig e (proj1 (proj2 (Hg e He)))). Qed.

Lemma spec_ents_sound : forall fuel l es, ar_spec_ents fuel l = Some es -> l = enc_all es.
Proof.
  induction fuel as [|fuel IH]; intros l es H; [discriminate|]. cbn [ar_spec_ents] in H.
  destruct l as [|x l']; [inversion H; reflexivity|]. set (l := x :: l') in *.
  destruct (zlen l <? 60) eqn:E60; [discriminate|].
  destruct (negb (bytes_eqb (zslice 58 60 (ztake 60 l)) [96; 10])); [discriminate|].
  destruct (spec_parse_size (zslice 48 58 (ztake 60 l))) as [n|] eqn:En; [|discriminate].
  set (body := zdrop 60 l) in *.
  destruct (zlen body <? n + (if Z.odd n then 1 else 0)) eqn:Eb; [discriminate|].
  destruct (Z.odd n && negb (bytes_eqb (zslice n (n + 1) body) [10])) eqn:Ep; [discriminate|].
  destruct (ar_spec_ents fuel (zdrop (n + (if Z.odd n then 1 else 0)) body)) as [es'|] eqn:Er; [|discriminate].
  inversion H; subst es. apply IH in Er.
  assert (0 <= n) as Hn0 by (unfold spec_parse_size in En; eapply parse_udec_nonneg; exact En).
  assert (zlen (ztake n body) = n) as Hn by (apply zlen_ztake; destruct (Z.odd n); lia).
  rewrite enc_all_cons. unfold ent_enc. cbn [e_hdr e_data]. rewrite Hn, <- Er.
  rewrite <- (ztake_zdrop 60 l) at 1. rewrite <- !app_assoc. f_equal. fold body.
  rewrite <- (ztake_zdrop n body) at 1. f_equal.
  destruct (Z.odd n) eqn:Eo.
  - cbn [andb] in Ep. apply negb_false_iff, bytes_eqb_eq in Ep. unfold zslice in Ep. replace (n + 1 - n) with 1 in Ep by lia.
    rewrite <- (ztake_zdrop 1 (zdrop n body)), Ep. rewrite zdrop_zdrop by lia. replace (1 + n) with (n + 1) by lia. reflexivity.
  - cbn [app]. now rewrite Z.add_0_r.
Qed.
Lemma spec_parse_sound f es : ar_spec_parse f = Some es -> f = ar_spec_file es.
Proof.
  unfold ar_spec_parse. destruct (bytes_eqb (ztake 8 f) spec_ar_magic) eqn:E; [|discriminate].
  apply bytes_eqb_eq in E. intros H. apply spec_ents_sound in H. rewrite spec_file_enc, <- H, <- E. symmetry. apply ztake_zdrop.
Qed.

Lemma spec_ents_complete : forall es fuel, Forall (fun e => ent_ok e = true) es -> (length (enc_all es) < fuel)%nat ->
  ar_spec_ents fuel (enc_all es) = Some es.
Proof.
  induction es as [|e es IH]; intros fuel Hg Hf.
  - destruct fuel; [cbn in Hf; lia|reflexivity].
  - inversion Hg as [|? ? Hok Hes]; subst. rewrite enc_all_cons in *. rewrite app_length in Hf.
    destruct fuel as [|fuel]; [lia|].
    destruct (ent_ok_facts e Hok) as [_ Hmag Hsz Hsmall].
    destruct (ent_enc_split e (enc_all es) Hok) as [body [Ht [Hd [Hlen [Hb [Htk [Hdr Hpad]]]]]]].
    set (n := zlen (e_data e)) in *. assert (0 <= n) as Hn0 by apply zlen_nonneg. pose proof (zlen_nonneg (enc_all es)) as Hr0.
    cbn [ar_spec_ents]. destruct (ent_enc e ++ enc_all es) as [|x l'] eqn:El; [rewrite zlen_nil in Hlen; lia|]. rewrite <- El in *.
    rewrite Ht, Hd, Hlen, Hb. replace (60 + (n + n mod 2 + zlen (enc_all es)) <? 60) with false by lia.
    rewrite Hmag, bytes_eqb_refl. cbn [negb]. rewrite Hsz, size_field_spec by (fold n; lia). fold n. rewrite <- Zmod_odd.
    replace (n + n mod 2 + zlen (enc_all es) <? n + n mod 2) with false by lia.
    replace (Z.odd n && negb (bytes_eqb (zslice n (n + 1) body) [10])) with false by (destruct (Z.odd n); [now rewrite Hpad|reflexivity]).
    rewrite Htk, Hdr, IH by (auto; unfold zlen in Hlen, Hb; rewrite app_length in Hlen; lia).
    destruct e; reflexivity.
Qed.
Lemma spec_parse_complete es : Forall ent_good es -> ar_spec_parse (ar_spec_file es) = Some es.
Proof.
  intros H. unfold ar_spec_parse. rewrite spec_file_enc.
  rewrite (ztake_app_len 8 spec_ar_magic), (zdrop_app_len 8 spec_ar_magic), bytes_eqb_refl by reflexivity.
  apply spec_ents_complete; [|rewrite app_length; lia]. eapply Forall_impl; [|exact H]. now intros e [He _].
Qed.

Definition new_ent (role : bytes) (mtime : Z) (blob : bytes) : ent :=
  mkEnt (ar_whdr (spec_sig_name role) mtime deb_hdr_mode (zlen blob)) blob.
Lemma new_ent_enc role mtime blob :
  ar_wmember (deb_hdr_name (deb_filename role)) mtime deb_hdr_mode blob = ent_enc (new_ent role mtime blob).
Proof. unfold ar_wmember, ent_enc, new_ent. cbn [e_hdr e_data]. rewrite odd_pad_eq. reflexivity. Qed.

Lemma role_ok_facts role : role_ok role = true ->
  1 <= zlen role <= 12 /\ Forall (fun c => 97 <= c <= 122) role.
Proof.
  unfold role_ok. intros H. apply andb3 in H as [H1 [H2 H3]]. split; [lia|].
  rewrite forallb_forall in H3. apply Forall_forall. intros c Hc. specialize (H3 c Hc). lia.
Qed.
Lemma role_nonempty role : role_ok role = true -> role <> [].
Proof. intros H ->. destruct (role_ok_facts [] H) as [Hl _]. cbn in Hl. lia. Qed.
Lemma role_last role c r : role_ok role = true -> rev role = c :: r -> 97 <= c <= 122.
Proof. intros H E. destruct (role_ok_facts role H) as [_ Hc]. apply Forall_rev in Hc. rewrite E in Hc. now inversion Hc. Qed.
Lemma strip_slash_role role : role_ok role = true -> strip_slash role = role.
Proof. intros H. apply strip_slash_id. intros c r E. pose proof (role_last role c r H E). lia. Qed.
Lemma sig_name_last role c r : role_ok role = true -> rev (spec_sig_name role) = c :: r -> 97 <= c <= 122.
Proof.
  intros H E. unfold spec_sig_name in E. rewrite rev_app_distr in E. destruct (rev role) as [|c' r'] eqn:Er.
  - apply (f_equal (@rev Z)) in Er. rewrite rev_involutive in Er. now apply role_nonempty in H.
  - cbn [app] in E. inversion E. subst c'. exact (role_last role c r' H Er).
Qed.

(* ar.Writer.WriteHeader: the fields at their offsets *)
Lemma ar_whdr_fields name mtime mode size : let h := ar_whdr name mtime mode size in
  zlen h = 60 /\ zslice 0 16 h = pad_sp 16 name /\ zslice 40 48 h = pad_sp 8 ([49; 48; 48] ++ fmt_base 8 mode) /\
  zslice 48 58 h = pad_sp 10 (fmt_int size) /\ zslice 58 60 h = [96; 10].
Proof.
  set (F1 := pad_sp 16 name). set (F2 := pad_sp 12 (fmt_int mtime)). set (F3 := pad_sp 6 (fmt_int 0)).
  set (F5 := pad_sp 8 ([49; 48; 48] ++ fmt_base 8 mode)). set (F6 := pad_sp 10 (fmt_int size)).
  change (ar_whdr name mtime mode size) with (F1 ++ F2 ++ F3 ++ F3 ++ F5 ++ F6 ++ [96; 10]). cbv zeta.
  assert (zlen F1 = 16 /\ zlen F2 = 12 /\ zlen F3 = 6 /\ zlen F5 = 8 /\ zlen F6 = 10) as [L1 [L2 [L3 [L5 L6]]]]
    by (unfold F1, F2, F3, F5, F6; rewrite !zlen_pad_sp; repeat split; reflexivity).
  assert (forall lo hi, 40 <= lo -> zslice lo hi (F1 ++ F2 ++ F3 ++ F3 ++ F5 ++ F6 ++ [96; 10]) = zslice (lo - 40) (hi - 40) (F5 ++ F6 ++ [96; 10])) as Hskip.
  { intros lo hi H. rewrite (zslice_skip F1 _ 16), (zslice_skip F2 _ 12), (zslice_skip F3 _ 6), (zslice_skip F3 _ 6) by (auto; lia).
    f_equal; lia. }
  split; [rewrite !zlen_app, L1, L2, L3, L5, L6; reflexivity|]. split; [now apply zslice_app_head|].
  split; [rewrite Hskip by lia; now apply zslice_app_head|].
  split; [rewrite Hskip, (zslice_skip F5 _ 8) by (auto; lia); now apply zslice_app_head|].
  rewrite Hskip, (zslice_skip F5 _ 8), (zslice_skip F6 _ 10) by (auto; lia). reflexivity.
Qed.

Lemma new_ent_plain role mtime blob : role_ok role = true -> zlen blob < 10000000000 ->
  ent_plain (new_ent role mtime blob) /\ ent_name (new_ent role mtime blob) = spec_sig_name role.
Proof.
  intros Hr Hb. destruct (role_ok_facts role Hr) as [Hl Hc]. pose proof (zlen_nonneg blob) as Hb0.
  destruct (ar_whdr_fields (spec_sig_name role) mtime deb_hdr_mode (zlen blob)) as [L [S1 [S5 [S6 S7]]]].
  change (ar_whdr (spec_sig_name role) mtime deb_hdr_mode (zlen blob)) with (e_hdr (new_ent role mtime blob)) in L, S1, S5, S6, S7.
  assert (length (spec_sig_name role) <= 16)%nat as Hnl by (unfold spec_sig_name; rewrite app_length; unfold zlen in Hl; cbn; lia).
  rewrite pad_sp_short in S1 by exact Hnl.
  rewrite fmt_int_nonneg, pad_sp_short in S6 by (try apply spec_dec_length; try change (10 ^ Z.of_nat 10) with 10000000000; lia).
  assert (ent_name (new_ent role mtime blob) = spec_sig_name role) as En.
  { unfold ent_name. rewrite S1. unfold spec_field. apply rtrim_field. intros c r E. pose proof (sig_name_last role c r Hr E). lia. }
  split; [|exact En]. split; [|split].
  - unfold ent_ok. rewrite S7, S6, L. change (e_data (new_ent role mtime blob)) with blob. rewrite !bytes_eqb_refl.
    replace (zlen blob <? 10000000000) with true by lia. reflexivity.
  - unfold ent_name_ok. rewrite S1. unfold spec_field, spec_sig_name. rewrite <- app_assoc, !forallb_app.
    apply andb_true_iff. split; [apply andb_true_iff; split; [reflexivity|apply andb_true_iff; split]|reflexivity].
    + apply forallb_forall. intros c Hin. rewrite Forall_forall in Hc. specialize (Hc c Hin). unfold name_char_ok. lia.
    + generalize (16 - length (spec_gpg ++ role))%nat. intros k. induction k as [|k IH]; [reflexivity|]. cbn [repeat forallb]. now rewrite IH.
  - unfold ent_mode_ok. rewrite S5. reflexivity.
Qed.
Lemma sig_name_is_sig role e : ent_name e = spec_sig_name role -> ent_is_sig e = true.
Proof. intros H. unfold ent_is_sig. rewrite H. apply has_prefix_app. Qed.

Definition has_control (es : list ent) : bool := existsb (fun e => deb_is_control (ent_lname e)) (filter nonsig es).
Definition ent_ser (e : ent) : bytes :=
  pad_sp 16 (ent_name e) ++ be_enc 8 (zlen (e_data e)) ++ be_enc 8 (zlen (e_data e)) ++ e_data e.

Lemma deb_scan_spec ctl es : Forall ent_good es ->
  deb_scan ctl (ar_spec_file es) =
    if chk_all false (deb_chk ctl) es
    then (if has_control es then Ok (mkScan (mems false 8 es) (zlen (ar_spec_file es))) else Err E_NOCONTROL)
    else Err E_CONTROL.
Proof.
  intros Hg. unfold deb_scan. rewrite members_spec by assumption. destruct (chk_all false (deb_chk ctl) es); [|reflexivity].
  cbn [bind fst snd]. unfold deb_no_control, deb_signed_members, has_control.
  rewrite <- existsb_map, (mems_filter_map false _ _ (fun e => negb (ent_is_lsig e)) ent_lname), lnonsig_filter, existsb_map by auto.
  destruct (existsb _ _); reflexivity.
Qed.

(* the slot: the last member whose logical name is _gpg<role> *)
Lemma deb_slot_last role pos : forall b acc, Forall (fun e => lslot role e = false) b ->
  fold_left (fun acc m => if deb_slot_hit (deb_filename role) m then Some m else acc) (mems false pos b) acc = acc.
Proof.
  intros b acc Hb. apply (fold_last_skip (deb_slot_hit (deb_filename role)) (fun m => m)).
  clear acc. revert pos. induction Hb as [|e b He Hb IH]; intros pos; constructor; auto.
Qed.
Lemma deb_slot_none role es pos : Forall (fun e => lslot role e = false) es -> deb_slot (deb_filename role) (mems false pos es) = None.
Proof. apply deb_slot_last. Qed.
Lemma deb_slot_some role a x b pos : lslot role x = true -> Forall (fun e => lslot role e = false) b ->
  deb_slot (deb_filename role) (mems false pos (a ++ x :: b)) = Some (mem_of false (pos + zlen (enc_all a)) x).
Proof.
  intros Hx Hb. unfold deb_slot. rewrite mems_app, fold_left_app. cbn [mems fold_left].
  change (deb_slot_hit (deb_filename role) (mem_of false (pos + zlen (enc_all a)) x)) with (lslot role x). rewrite Hx.
  now apply deb_slot_last.
Qed.

Lemma replace_last_none p new es : Forall (fun e => p e = false) es -> replace_last p new es = None.
Proof. induction 1 as [|e es He Hes IH]; [reflexivity|]. cbn [replace_last]. now rewrite IH, He. Qed.
Lemma replace_last_some p new : forall a x b, p x = true -> Forall (fun e => p e = false) b ->
  replace_last p new (a ++ x :: b) = Some (a ++ new :: b).
Proof.
  induction a as [|y a IH]; intros x b Hx Hb; cbn [app replace_last].
  - now rewrite (replace_last_none p new b Hb), Hx.
  - now rewrite IH.
Qed.
Lemma spec_sign_l_none role new es : Forall (fun e => lslot role e = false) es -> spec_sign_l role new es = es ++ [new].
Proof. intros H. unfold spec_sign_l. now rewrite (replace_last_none (lslot role) new es H). Qed.
Lemma spec_sign_l_some role new a x b : lslot role x = true -> Forall (fun e => lslot role e = false) b ->
  spec_sign_l role new (a ++ x :: b) = a ++ new :: b.
Proof. intros Hx Hb. unfold spec_sign_l. now rewrite (replace_last_some (lslot role) new a x b Hx Hb). Qed.

(* relic's patch on a specified archive is the specification's signing operation on logical names *)
Lemma deb_embed_spec ctl role mtime es blob : Forall ent_good es -> chk_all false (deb_chk ctl) es = true -> has_control es = true ->
  deb_embed ctl role mtime (ar_spec_file es) blob = Ok (ar_spec_file (spec_sign_l role (new_ent role mtime blob) es)).
Proof.
  intros Hg Hc Hctl. unfold deb_embed. rewrite deb_scan_spec, Hc, Hctl by assumption. cbn [bind ds_members ds_n].
  rewrite new_ent_enc. set (new := new_ent role mtime blob).
  destruct (last_occ (lslot role) es) as [Hn|[a [x [b [-> [Hx Hb]]]]]].
  - (* no member in the slot: the patch is empty and stands at the end of the file *)
    rewrite deb_slot_none, spec_sign_l_none by assumption.
    unfold deb_append_cond, deb_patch_eof. cbn [Z.eqb]. rewrite Z.ltb_irrefl.
    rewrite ztake_all, zdrop_all, app_nil_r by lia.
    now rewrite !spec_file_enc, enc_all_app, enc_all_single, <- app_assoc.
  - (* the patch covers header, data and padding of the last member in the slot *)
    rewrite deb_slot_some, spec_sign_l_some by assumption.
    apply Forall_app in Hg as [_ Hgxb]. inversion Hgxb as [|? ? Hgx _]; subst.
    pose proof (zlen_ent_enc x (proj1 Hgx)) as Lx. pose proof (zlen_nonneg (e_data x)). pose proof (zlen_nonneg (enc_all a)). pose proof (zlen_nonneg (enc_all b)).
    cbn [m_off m_size mem_of]. unfold deb_patch_off, deb_patch_len, deb_append_cond. rewrite Z.quot_div_nonneg by lia.
    replace (60 + (zlen (e_data x) + 1) / 2 * 2) with (zlen (ent_enc x)) by (rewrite Lx; lia).
    replace (8 + zlen (enc_all a) + 60 - 60) with (zlen (spec_ar_magic ++ enc_all a)) by (rewrite zlen_app, zlen_magic; lia).
    rewrite !spec_file_enc, !enc_all_app, !enc_all_cons, !(app_assoc spec_ar_magic).
    replace (zlen (spec_ar_magic ++ enc_all a) =? 0) with false by (rewrite zlen_app, zlen_magic; lia).
    replace (zlen ((spec_ar_magic ++ enc_all a) ++ ent_enc x ++ enc_all b) <? zlen (spec_ar_magic ++ enc_all a)) with false by (rewrite !zlen_app; lia).
    now rewrite splice_mid.
Qed.

Lemma spec_sign_l_cases role new es : exists a old b,
  es = a ++ old ++ b /\ spec_sign_l role new es = a ++ new :: b /\ Forall (fun e => lslot role e = false) b /\
  ((old = [] /\ b = [] /\ Forall (fun e => lslot role e = false) a) \/ exists x, old = [x] /\ lslot role x = true).
Proof.
  destruct (last_occ (lslot role) es) as [Hn|[a [x [b [-> [Hx Hb]]]]]].
  - exists es, [], []. rewrite spec_sign_l_none by assumption. rewrite app_nil_r. repeat split; auto.
  - exists a, [x], b. rewrite spec_sign_l_some by assumption. repeat split; auto. right. eauto.
Qed.
Lemma sign_l_forall (P : ent -> Prop) role new es : Forall P es -> P new -> Forall P (spec_sign_l role new es).
Proof.
  intros Hg Hn. destruct (spec_sign_l_cases role new es) as [a [old [b [-> [-> _]]]]].
  apply Forall_app in Hg as [Ha [_ Hb]%Forall_app]. apply Forall_app. split; [exact Ha|constructor; assumption].
Qed.
Lemma lslot_is_sig role x : ent_spelled_ok x = true -> lslot role x = true -> ent_is_sig x = true.
Proof.
  intros Hs Hx. rewrite <- (lsig_is_sig x Hs). unfold ent_is_lsig, lslot in *. apply bytes_eqb_eq in Hx. rewrite Hx. apply has_prefix_app.
Qed.
(* a signature replaces a signature, or is added: the other members stay as they are *)
Lemma sign_l_nonsig role new es : Forall ent_good es -> ent_is_sig new = true ->
  filter nonsig (spec_sign_l role new es) = filter nonsig es.
Proof.
  intros Hg Hn. assert (nonsig new = false) as Nn by (unfold nonsig; now rewrite Hn).
  destruct (spec_sign_l_cases role new es) as [a [old [b [-> [-> [_ [[-> [-> _]]|[x [-> Hx]]]]]]]]].
  - rewrite !filter_app. cbn [filter app]. now rewrite Nn.
  - assert (nonsig x = false) as Nx.
    { apply Forall_app in Hg as [_ Hg]. inversion Hg as [|? ? Hgx _]. unfold nonsig. now rewrite (lslot_is_sig role x (proj1 (proj2 Hgx)) Hx). }
    rewrite !filter_app. cbn [filter app]. now rewrite Nn, Nx.
Qed.

(* the common part of the two domains *)
Record wf_base (ctl : bytes -> bytes -> bool) (f : bytes) (es : list ent) : Prop := mkBase {
  wb_parse : ar_spec_parse f = Some es;
  wb_file : f = ar_spec_file es;
  wb_good : Forall ent_good es;
  wb_chk : chk_all false (deb_chk ctl) es = true;
  wb_ctl : has_control es = true
}.
Lemma wf_base_intro ctl es : Forall ent_good es -> is_ok (deb_scan ctl (ar_spec_file es)) = true -> wf_base ctl (ar_spec_file es) es.
Proof.
  intros Hg Hs. rewrite deb_scan_spec in Hs by assumption.
  destruct (chk_all false (deb_chk ctl) es) eqn:Ec; [|discriminate]. destruct (has_control es) eqn:Eh; [|discriminate].
  constructor; auto using spec_parse_complete.
Qed.
Lemma chk_all_filter verify chk es : chk_all verify chk es = forallb (fun e => chk (cname_of verify e) (e_data e)) (filter nonsig es).
Proof.
  induction es as [|e es IH]; [reflexivity|]. unfold chk_all in *. cbn [forallb filter]. unfold nonsig at 1.
  destruct (ent_is_sig e); cbn [negb orb forallb]; now rewrite IH.
Qed.
(* scan and control check look at the other members only *)
Lemma wf_base_nonsig ctl es es' : wf_base ctl (ar_spec_file es) es -> Forall ent_good es' -> filter nonsig es' = filter nonsig es ->
  wf_base ctl (ar_spec_file es') es'.
Proof.
  intros [_ _ _ Hc Hh] Hg Hf. constructor; auto using spec_parse_complete.
  - now rewrite chk_all_filter, Hf, <- chk_all_filter.
  - unfold has_control. now rewrite Hf.
Qed.

Section Base.
  Variables (ctl : bytes -> bytes -> bool) (f : bytes) (es : list ent).
  Hypothesis W : wf_base ctl f es.

  Lemma scan_base : deb_scan ctl f = Ok (mkScan (mems false 8 es) (zlen f)).
  Proof. destruct W as [_ -> Hg Hc Hh]. now rewrite deb_scan_spec, Hc, Hh. Qed.
  Lemma hashin_base : deb_hashin ctl f = Ok (concat (map ent_ser (filter nonsig es))).
  Proof.
    unfold deb_hashin. rewrite scan_base. cbn [bind ds_members].
    change (deb_listed_members (mems false 8 es)) with (deb_signed_members (mems false 8 es)). unfold deb_signed_members, ser_members.
    now rewrite (mems_filter_map false _ _ (fun e => negb (ent_is_lsig e)) ent_ser), lnonsig_filter by (auto; apply W).
  Qed.
  Lemma payload_base : deb_payload f = Ok (spec_payload_of es).
  Proof. unfold deb_payload. now rewrite (wb_parse _ _ _ W). Qed.
End Base.

(* the verifier's view of the signature members *)
Definition sig_pairs (es : list ent) : list (bytes * bytes) :=
  map (fun e => (zdrop deb_v_role_from (ent_name e), e_data e)) (filter ent_is_sig es).
Lemma chk_all_true verify es : chk_all verify (fun _ _ => true) es = true.
Proof. unfold chk_all. apply forallb_forall. intros e _. apply orb_true_r. Qed.
Lemma deb_sigs_spec es : Forall ent_good es -> deb_sigs (ar_spec_file es) = Ok (sig_pairs es).
Proof.
  intros Hg. unfold deb_sigs. rewrite members_spec, chk_all_true by assumption. cbn [bind fst].
  now rewrite (mems_filter_map true _ _ ent_is_sig (fun e => (zdrop deb_v_role_from (ent_name e), e_data e))).
Qed.
Lemma deb_vmembers_spec es : Forall ent_good es -> deb_vmembers (ar_spec_file es) = Ok (filter (fun m => negb (deb_v_is_gpg (m_name m))) (mems true 8 es)).
Proof. intros Hg. unfold deb_vmembers. now rewrite members_spec, chk_all_true. Qed.
Lemma sig_pairs_app a b : sig_pairs (a ++ b) = sig_pairs a ++ sig_pairs b.
Proof. unfold sig_pairs. now rewrite filter_app, map_app. Qed.
Lemma in_sig_pairs r s es : In (r, s) (sig_pairs es) -> exists e, In e es /\ ent_is_sig e = true /\ r = zdrop deb_v_role_from (ent_name e) /\ s = e_data e.
Proof.
  unfold sig_pairs. intros H. apply in_map_iff in H as [e [E He]]. apply filter_In in He as [He Hs]. inversion E. eauto.
Qed.
Lemma zdrop_gpg role : zdrop deb_v_role_from (spec_sig_name role) = role.
Proof. unfold spec_sig_name. apply (zdrop_app_exact spec_gpg). Qed.

Lemma strip_slash_app_r p r : r <> [] -> strip_slash (p ++ r) = p ++ strip_slash r.
Proof.
  intros Hr. unfold strip_slash. rewrite rev_app_distr. destruct (rev r) as [|c t] eqn:E.
  - apply (f_equal (@rev Z)) in E. rewrite rev_involutive in E. contradiction.
  - cbn [app]. destruct (c =? 47); [|reflexivity]. now rewrite rev_app_distr, rev_involutive.
Qed.
(* a signature member whose role — with or without the System V terminator — is `role` occupies the slot *)
Lemma role_key_lslot role e : role <> [] -> ent_is_sig e = true -> strip_slash (zdrop deb_v_role_from (ent_name e)) = role -> lslot role e = true.
Proof.
  intros Hr Hs Hk. unfold ent_is_sig in Hs. apply has_prefix_spec in Hs as [r Er]. unfold lslot. rewrite ent_lname_strip, Er in *.
  change deb_v_role_from with (zlen spec_gpg) in Hk. rewrite zdrop_app_exact in Hk.
  destruct r as [|c r']; [cbn in Hk; congruence|]. rewrite strip_slash_app_r by discriminate. rewrite Hk. apply bytes_eqb_refl.
Qed.

Record embedded (ctl : bytes -> bytes -> bool) (role : bytes) (mtime : Z) (f blob g : bytes) (es : list ent) : Prop := mkEmb {
  em_f : wf_base ctl f es;
  em_role : role_ok role = true;
  em_g : wf_base ctl g (spec_sign_l role (new_ent role mtime blob) es);
  em_new : ent_plain (new_ent role mtime blob);
  em_name : ent_name (new_ent role mtime blob) = spec_sig_name role;
  em_filter : filter nonsig (spec_sign_l role (new_ent role mtime blob) es) = filter nonsig es
}.
Lemma embed_base ctl role mtime f blob g es : wf_base ctl f es -> role_ok role = true -> zlen blob < 10000000000 ->
  deb_embed ctl role mtime f blob = Ok g -> embedded ctl role mtime f blob g es.
Proof.
  intros W Hr Hb He. pose proof W as [_ -> Hg Hc Hh]. rewrite deb_embed_spec in He by assumption. injection He as <-.
  destruct (new_ent_plain role mtime blob Hr Hb) as [Hp Hn].
  assert (filter nonsig (spec_sign_l role (new_ent role mtime blob) es) = filter nonsig es) as Hf
    by (apply sign_l_nonsig; [exact Hg|exact (sig_name_is_sig role _ Hn)]).
  constructor; auto. apply (wf_base_nonsig ctl es); auto. apply sign_l_forall; auto using plain_good.
Qed.
Lemma embed_total ctl role mtime f blob es : wf_base ctl f es -> exists g, deb_embed ctl role mtime f blob = Ok g.
Proof. intros [_ -> Hg Hc Hh]. rewrite deb_embed_spec by assumption. eauto. Qed.
(* the guard of deb_embed_wf and deb_embed_wf2 *)
Lemma guard_inv (w : bool) role mtime (blob : bytes) (r : result bytes) g :
  (if w && role_ok role && (zlen blob <? 10000000000) && (0 <=? mtime) then r else Err E_DOMAIN) = Ok g ->
  w = true /\ role_ok role = true /\ zlen blob < 10000000000 /\ r = Ok g.
Proof.
  destruct w; [|discriminate]. destruct (role_ok role); [|discriminate]. destruct (zlen blob <? 10000000000) eqn:E; [|discriminate].
  destruct (0 <=? mtime); [|discriminate]. repeat split; auto. lia.
Qed.
Lemma guard_true (w : bool) role mtime (blob : bytes) (r : result bytes) :
  w = true -> role_ok role = true -> zlen blob < 10000000000 -> 0 <= mtime ->
  (if w && role_ok role && (zlen blob <? 10000000000) && (0 <=? mtime) then r else Err E_DOMAIN) = r.
Proof. intros -> -> Hb Hm. replace (zlen blob <? 10000000000) with true by lia. replace (0 <=? mtime) with true by lia. reflexivity. Qed.

Section Embedded.
  Variables (ctl : bytes -> bytes -> bool) (role : bytes) (mtime : Z) (f blob g : bytes) (es : list ent).
  Hypothesis E : embedded ctl role mtime f blob g es.

  Lemma embedded_lname : ent_lname (new_ent role mtime blob) = spec_sig_name role.
  Proof. destruct E as [_ _ _ Hp Hn _]. now rewrite (plain_lname _ Hp). Qed.
  Lemma embedded_hashin : deb_hashin ctl g = deb_hashin ctl f.
  Proof. destruct E as [Wf _ Wg _ _ Hf]. now rewrite (hashin_base _ _ _ Wf), (hashin_base _ _ _ Wg), Hf. Qed.
  Lemma embedded_payload : deb_payload g = deb_payload f.
  Proof. destruct E as [Wf _ Wg _ _ Hf]. rewrite (payload_base _ _ _ Wf), (payload_base _ _ _ Wg). unfold spec_payload_of. fold nonsig. now rewrite Hf. Qed.
  Lemma embedded_sigs : deb_sigs g = Ok (sig_pairs (spec_sign_l role (new_ent role mtime blob) es)).
  Proof. destruct E as [_ _ [_ -> Hg _ _] _ _ _]. now apply deb_sigs_spec. Qed.
  (* behind the new member no member is in the slot, so no later entry of Verify's role map has the key `role` *)
  Lemma embedded_lookup : lookup_last role (sig_pairs (spec_sign_l role (new_ent role mtime blob) es)) = Some blob.
  Proof.
    destruct E as [_ Hr _ _ Hn _]. destruct (spec_sign_l_cases role (new_ent role mtime blob) es) as [a [old [b [_ [-> [Hb _]]]]]].
    change (a ++ new_ent role mtime blob :: b) with (a ++ [new_ent role mtime blob] ++ b). rewrite !sig_pairs_app.
    unfold lookup_last. rewrite !fold_left_app. rewrite (fold_last_skip (fun kv => bytes_eqb (fst kv) role) snd).
    - unfold sig_pairs at 1. cbn [filter]. rewrite (sig_name_is_sig role _ Hn). cbn [map fold_left fst snd].
      now rewrite Hn, zdrop_gpg, bytes_eqb_refl.
    - apply Forall_forall. intros [r s] Hrs. cbn [fst]. apply bytes_eqb_neq. intros ->.
      apply in_sig_pairs in Hrs as [e [Hie [Hs [Er _]]]]. rewrite Forall_forall in Hb. specialize (Hb e Hie).
      rewrite (role_key_lslot role e (role_nonempty role Hr) Hs) in Hb; [discriminate|]. rewrite <- Er. now apply strip_slash_role.
  Qed.
  Lemma embedded_extract : deb_extract role g = Ok (Some blob).
  Proof. unfold deb_extract. now rewrite embedded_sigs, <- embedded_lookup. Qed.
End Embedded.
