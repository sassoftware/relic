(* C10/Properties.v — the property theorems of the unit; the lemmas they rest on are in C10/Proofs.v (client, stamp,
   attach), C10/ChainProofs.v (verification histories) and C10/TimingProofs.v (time).
   H is an arbitrary digest function (algorithm -> data -> digest); injectivity is assumed only where stated. *)
From Coq Require Import String Btauto.
From Relic Require Import Base.Prelude Base.Lists Base.Slice Generated.C10_gen C10.ChainIR C10.Model C10.Proofs C10.Chain C10.ChainProofs C10.Timing C10.TimingProofs.

(* ---------------------------------------------------------------- signing side, RFC 3161 *)

(* 1. A token is returned to the signer only if it came from a reply that was delivered (HTTP 200, one DER
      TimeStampResp), granted (status 0/1), well signed, echoes the request nonce and carries the digest of this
      signature value; it is the FIRST such reply in configured order and exactly the authorities up to it were
      contacted.  Holds for every fault sequence, including panicking replies and context expiry. *)
Theorem attached_only_if_genuine : forall H q rs t hits,
  q_legacy q = false ->
  ts_client H q rs = (Ok t, hits) ->
  exists k r, nth_error rs k = Some r /\ t = r_stamp r /\ genuine_bytes H q r = true /\ hits = upto 0 (S k) /\
    forall j r', (j < k)%nat -> nth_error rs j = Some r' -> genuine_bytes H q r' = false.
Proof. exact C10.Proofs.attached_only_if_genuine. Qed.

(* 1'. full strength (the imprint must also name the requested algorithm) where authorities label it honestly *)
Theorem attached_only_if_genuine_full : forall H q rs t hits,
  q_legacy q = false ->
  (forall r, In r rs -> imprint_alg_match q (r_stamp r) = true) ->
  ts_client H q rs = (Ok t, hits) ->
  exists k r, nth_error rs k = Some r /\ t = r_stamp r /\ genuine H q r = true /\ hits = upto 0 (S k) /\
    forall j r', (j < k)%nat -> nth_error rs j = Some r' -> genuine H q r' = false.
Proof.
  intros H q rs t hits Hleg Halg E.
  destruct (attached_only_if_genuine H q rs t hits Hleg E) as (k & r & Hn & Ht & Hg & Hh & Hb).
  exists k, r. unfold genuine. rewrite Hg, (Halg r (nth_error_In _ _ Hn)). repeat split; auto.
  intros j r' Hj Hnj. rewrite (Hb j r' Hj Hnj). reflexivity.
Qed.

(* 2. Ordered failover = the specification "first genuine authority in configured order wins; none => error",
      for every sequence of replies, as long as the caller's context stays alive. *)
Theorem failover_in_order : forall H q rs,
  q_legacy q = false ->
  (forall r, In r rs -> r_ctx_dead r = false) ->
  rs <> [] ->
  match spec_client (genuine_bytes H q) rs 0 with
  | (Some t, h) => ts_client H q rs = (Ok t, h)
  | (None, h) => exists e, ts_client H q rs = (Err e, h)
  end.
Proof. exact C10.Proofs.failover_in_order. Qed.

(* 3. If every authority fails the client never reports success — in particular never success without a token;
      any style, any fault sequence (panics, context expiry, empty URL list included). *)
Theorem all_fail_means_error : forall H q rs,
  (forall r, In r rs -> accepts H q r = false) -> forall t, fst (ts_client H q rs) <> Ok t.
Proof.
  intros H q rs Hall t E. destruct (ts_client H q rs) as [res hits] eqn:C. cbn [fst] in E. subst res.
  destruct (ts_client_ok H q rs t hits C) as (k & r & Hn & _ & Ha & _).
  rewrite (Hall r (nth_error_In _ _ Hn)) in Ha. discriminate.
Qed.
Theorem all_fail_means_error_rfc : forall H q rs,
  q_legacy q = false ->
  (forall r, In r rs -> genuine_bytes H q r = false) -> forall t, fst (ts_client H q rs) <> Ok t.
Proof.
  intros H q rs Hleg Hall. apply all_fail_means_error. intros r Hin.
  rewrite (accepts_rfc H q r Hleg). exact (Hall r Hin).
Qed.

(* 3'. Robustness of the client: no reply makes it panic; a token without nonce is an ordinary nonce mismatch (so the
       next authority is tried, by failover_in_order); a PKIStatus outside {granted, grantedWithMods} is never accepted. *)
Theorem client_never_panics : forall H q rs p, fst (ts_client H q rs) <> Panic p.
Proof. intros H q rs p. rewrite ts_client_loop. apply ts_loop_no_panic. Qed.
Theorem missing_nonce_is_mismatch : forall H q r,
  q_legacy q = false -> st_nonce (r_stamp r) = None -> exists e, ts_do H q r = Err e.
Proof.
  intros H q r Hleg Hn. pose proof (ts_do_spec H q r) as S.
  destruct (ts_do H q r) as [t|e|p]; [|exists e; reflexivity|contradiction].
  destruct S as [_ S]. unfold passes, genuine_bytes, echoes in S. rewrite Hleg, Hn, andb_false_r in S. discriminate.
Qed.
Theorem status_outside_rejected : forall H q r,
  q_legacy q = false -> r_status r <> 0 -> r_status r <> 1 -> is_ok (ts_do H q r) = false.
Proof.
  intros H q r Hleg H0 H1. change (accepts H q r = false). rewrite (accepts_rfc H q r Hleg).
  unfold genuine_bytes, granted. replace ((r_status r =? 0) || (r_status r =? 1)) with false by lia.
  destruct (delivered r); reflexivity.
Qed.

(* 4. With a timestamper configured, a successful signing always carries a timestamp ... *)
Theorem sign_never_unstamped : forall H cls q rs o hits,
  sign_with_ts H cls true q rs = (Ok o, hits) -> exists t, o = Some t.
Proof.
  intros H cls q rs o hits E. destruct (sign_with_ts_ok H cls q rs o hits E) as (t & -> & _). exists t. reflexivity.
Qed.
(* ... and when all authorities fail, signing fails *)
Theorem sign_all_fail_no_output : forall H cls q rs,
  (forall r, In r rs -> accepts H q r = false) -> forall o, fst (sign_with_ts H cls true q rs) <> Ok o.
Proof.
  intros H cls q rs Hall o E. destruct (sign_with_ts H cls true q rs) as [res hits] eqn:S. cbn [fst] in E. subst res.
  destruct (sign_with_ts_ok H cls q rs o hits S) as (t & _ & C & _).
  apply (all_fail_means_error H q rs Hall t). rewrite C. reflexivity.
Qed.

(* 5. Formats with a self-check (all but VSIX): the attached stamp verifies for THIS signature value *)
Theorem self_check_binds : forall H cls q rs t hits,
  cls <> 2 -> sign_with_ts H cls true q rs = (Ok (Some t), hits) ->
  stamp_valid H t (q_sig q) = true /\
  exists k r, nth_error rs k = Some r /\ t = r_stamp r /\ hits = upto 0 (S k).
Proof.
  intros H cls q rs t hits Hcls E.
  destruct (sign_with_ts_ok H cls q rs _ hits E) as (t' & Et & C & S). injection Et as <-.
  rewrite (self_check_ok H cls t (q_sig q) Hcls) in S. split; [exact S|].
  destruct (ts_client_ok H q rs t hits C) as (k & r & Hn & Ht & _ & Hh & _). exists k, r. auto.
Qed.

(* 6. Legacy Microsoft style (application manifests): attached only if genuine — through the self-check, because the
      client itself checks nothing (see legacy_no_failover_refuted) *)
Theorem legacy_attached_only_if_genuine : forall H q rs t hits,
  q_legacy q = true -> (forall r, In r rs -> st_form (r_stamp r) = 1) ->
  sign_with_ts H 1 true q rs = (Ok (Some t), hits) ->
  exists k r, nth_error rs k = Some r /\ t = r_stamp r /\ genuine_legacy q r = true.
Proof.
  intros H q rs t hits Hleg Hform E.
  destruct (sign_with_ts_ok H 1 q rs _ hits E) as (t' & Et & C & S). injection Et as <-.
  rewrite (self_check_ok H 1 t (q_sig q)) in S by discriminate.
  destruct (ts_client_ok H q rs t hits C) as (k & r & Hn & -> & Ha & _). exists k, r. repeat split; auto.
  (* the client vouches for the delivery only; content and signature come from the self-check *)
  rewrite accepts_passes in Ha. unfold passes in Ha. rewrite Hleg in Ha.
  unfold stamp_valid, covers in S. rewrite (Hform r (nth_error_In _ _ Hn)) in S. cbn [Z.eqb Pos.eqb] in S.
  apply andb_true_iff in S as [S Hc]. apply andb_true_iff in S as [S _]. apply andb_true_iff in S as [Hcov Hs].
  unfold genuine_legacy. rewrite Ha, Hc, Hs, Hcov. reflexivity.
Qed.

(* ---------------------------------------------------------------- verification side *)

(* 7. A countersignature / timestamp token is accepted only if it covers this exact signature value *)
Theorem countersig_binds : forall H st data t,
  verify_stamp H st data = Ok t ->
  covers H st data = true /\ st_sig_ok st = true /\ t = st_time st.
Proof. exact C10.Proofs.countersig_binds. Qed.
Theorem countersig_binds_unique : forall H st d1 d2 t1 t2,
  (forall a x y, H a x = H a y -> x = y) ->
  verify_stamp H st d1 = Ok t1 -> verify_stamp H st d2 = Ok t2 -> d1 = d2.
Proof.
  intros H st d1 d2 t1 t2 Hinj E1 E2.
  destruct (countersig_binds H _ _ _ E1) as [C1 _]. destruct (countersig_binds H _ _ _ E2) as [C2 _].
  unfold covers in *. destruct (st_form st =? 1); apply bytes_eqb_eq in C1, C2; [congruence|].
  apply (Hinj (st_alg st)). congruence.
Qed.

(* 7'. The verifier never panics; a token without attached content is an ordinary error *)
Theorem verify_never_panics : forall H now s p, verify_all H now s <> Panic p.
Proof.
  intros H now s p. unfold verify_all. destruct (s_stamp s) as [st|]; [|apply verify_chain_no_panic].
  apply bind_no_panic; [apply verify_stamp_no_panic|intros t _; apply verify_chain_no_panic].
Qed.
Theorem detached_token_is_error : forall H st data,
  st_form st = 0 -> st_nsigners st = 1 -> st_has_content st = false -> verify_stamp H st data = Err E_INFO.
Proof.
  intros H st data Hf Hn Hc. unfold verify_stamp, signer_count_bad, info_empty, content_len. rewrite Hf, Hn, Hc. reflexivity.
Qed.

(* 8. Verification = specification (chains judged at the attested time) whenever the attested time is not Go's zero time *)
Theorem verify_refines_spec : forall H now s,
  (forall st, s_stamp s = Some st -> st_time st <> 0) ->
  accepted H now s = spec_accept H now s.
Proof.
  intros H now s Hnz. rewrite accepted_closed. unfold spec_accept.
  destruct (s_stamp s) as [st|]; [|apply chain_ok_window].
  rewrite (eff_time_nz _ now (Hnz st eq_refl)), !chain_ok_window. btauto.
Qed.

(* 9. An expired signer certificate is accepted only with a valid timestamp from within its lifetime, issued by an
      authority whose own chain was valid (with the timeStamping purpose) at that time.  No side condition. *)
Theorem expired_needs_timestamp : forall H now s,
  accepted H now s = true -> c_na (s_leaf s) < now ->
  exists st, s_stamp s = Some st /\ stamp_valid H st (s_value s) = true /\ st_time st <> 0 /\
    in_window (s_leaf s) (st_time st) = true /\
    chain_ok (st_cert st) (st_time st) = true /\ c_ts_eku (st_cert st) = true.
Proof. exact C10.Proofs.expired_needs_timestamp. Qed.

(* ---------------------------------------------------------------- verification histories within one process
   The three VerifyChain functions are the programs vc7_prog / vc9cs_prog / vc9ts_prog that srcgen translated from the
   Go source; verify_seq threads the process state (package-level memo tables) through a list of verifications. *)

(* 10. The generated programs neither read nor write process state and contain nothing the translator did not
       understand (re-computed on every run from the source). *)
Theorem programs_stateless : stateless vc7_prog && stateless vc9cs_prog && stateless vc9ts_prog = true.
Proof. exact C10.ChainProofs.programs_stateless. Qed.

(* 11. Any program of the language that passes that check ignores the process state, whatever its callees are, as long
       as they do too (the generic half of 12; proved by induction on programs). *)
Theorem exec_stateless : forall callf,
  (forall f, sigma_indep (callf f)) ->
  forall p, stateless p = true ->
  forall e r s, exec callf p e r s = (fst (exec callf p e r []), s).
Proof. exact C10.ChainProofs.exec_stateless. Qed.

(* 12. For EVERY sequence of verifications in one process, from every initial process state: each verdict equals the
       verdict of the same single verification done first in a fresh process, and the state is left untouched. *)
Theorem history_independent : forall h s, verify_seq s h = (map fresh h, s).
Proof. exact C10.ChainProofs.history_independent. Qed.
Theorem history_independent_nth : forall h1 c h2 s,
  nth_error (fst (verify_seq s (h1 ++ c :: h2))) (length h1) = Some (fresh c).
Proof.
  intros h1 c h2 s. rewrite history_independent. cbn [fst]. rewrite nth_error_map, nth_error_mid. reflexivity.
Qed.

(* 13. That verdict is the specification's: a function of (signature, countersignature, trust store, usage, attested
       time or wall clock) only — whenever the attested time is not Go's zero time (see zero_time_judged_now_refuted). *)
Theorem fresh_is_spec : forall c,
  (forall cs, v_cs c = Some cs -> cs_time cs <> 0) ->
  is_ok (fresh c) = spec_chain_accept c.
Proof.
  intros c Hnz. rewrite fresh_closed_form. unfold fresh_value, spec_chain_accept.
  destruct (v_cs c) as [cs|].
  - rewrite (eff_time_nz _ (v_now c) (Hnz cs eq_refl)).
    rewrite (path_ok_app_comm (o_leaf (cs_sig cs)) (v_extra c)), (path_ok_app_comm (o_leaf (v_sig c)) (v_extra c)).
    destruct (path_ok (o_leaf (cs_sig cs)) _ _ _ _); [destruct (path_ok (o_leaf (v_sig c)) _ _ _ _)|]; reflexivity.
  - unfold eff_time. cbn [Z.eqb]. rewrite (path_ok_app_comm (o_leaf (v_sig c)) (v_extra c)).
    destruct (path_ok _ _ _ _ _); reflexivity.
Qed.
Theorem fresh_never_panics : forall c x, fresh c <> Panic x.
Proof.
  intros c x. rewrite fresh_closed_form. unfold fresh_value. destruct (v_cs c) as [cs|].
  - destruct (path_ok _ _ _ _ _); [destruct (path_ok _ _ _ _ _)|]; discriminate.
  - destruct (path_ok _ _ _ _ _); discriminate.
Qed.

(* 14. The property at every position of every history: an expired signer certificate is accepted only with a
       countersignature attested within its lifetime whose authority chain is valid for timeStamping at that time;
       the authority's own certificate is judged at the attested time as well.  No side condition. *)
Theorem seq_expired_needs_timestamp : forall h s i c,
  nth_error h i = Some c ->
  nth_error (fst (verify_seq s h)) i = Some (Ok tt) ->
  x_na (o_leaf (v_sig c)) < v_now c ->
  exists cs, v_cs c = Some cs /\ cs_time cs <> 0 /\
    win (o_leaf (v_sig c)) (cs_time cs) = true /\
    path_ok (o_leaf (cs_sig cs)) (v_extra c ++ o_inter (cs_sig cs)) (p_roots (v_roots c)) (cs_time cs) [8] = true /\
    path_ok (o_leaf (v_sig c)) (v_extra c ++ o_inter (v_sig c)) (p_roots (v_roots c)) (cs_time cs) [v_usage c] = true.
Proof. exact C10.ChainProofs.seq_expired_needs_timestamp. Qed.
Theorem seq_tsa_judged_at_attested_time : forall h s i c cs,
  nth_error h i = Some c ->
  nth_error (fst (verify_seq s h)) i = Some (Ok tt) ->
  v_cs c = Some cs -> cs_time cs <> 0 ->
  win (o_leaf (cs_sig cs)) (cs_time cs) = true /\ eku_ok 8 (o_leaf (cs_sig cs)) = true.
Proof.
  intros h s i c cs Hc Hv Hcs Hnz. pose proof (seq_nth_fresh h s i c _ Hc Hv) as F.
  rewrite fresh_closed_form in F. unfold fresh_value in F. rewrite Hcs in F.
  destruct (path_ok (o_leaf (cs_sig cs)) _ _ _ _) eqn:P1; [|discriminate].
  rewrite (eff_time_nz _ _ Hnz) in P1. split; [exact (path_ok_win _ _ _ _ _ P1)|].
  unfold path_ok in P1. apply andb_true_iff in P1 as [P1 _]. apply andb_true_iff in P1 as [_ P1].
  unfold usages_ok in P1. cbn [existsb] in P1. rewrite orb_false_r in P1. exact P1.
Qed.

(* 15. The package-level mutable state of lib/pkcs7, lib/pkcs9, lib/x509tools is exactly the reviewed list, and the
       functions reachable from the verification entry points touch none of it. *)
Theorem state_inventory_reviewed :
  mutable_state_pkcs7 = reviewed_state_pkcs7 /\ mutable_state_pkcs9 = reviewed_state_pkcs9 /\
  mutable_state_x509tools = reviewed_state_x509tools.
Proof. exact C10.ChainProofs.state_inventory_reviewed. Qed.
Theorem verify_path_touches_no_state : verify_path_state = reviewed_path_state.
Proof. reflexivity. Qed.

(* 16. The history model agrees with the single-verification model (Model.verify_chain, theorems 8 and 9) on
       directly issued certificates. *)
Theorem fresh_refines_verify_chain : forall c,
  v_extra c = [] -> o_inter (v_sig c) = [] -> (forall cs, v_cs c = Some cs -> o_inter (cs_sig cs) = []) ->
  is_ok (fresh c) =
  is_ok (verify_chain (v_now c) (abs_cert (o_leaf (v_sig c)) (p_roots (v_roots c)) [v_usage c])
           (match v_cs c with
            | Some cs => Some (cs_time cs, abs_cert (o_leaf (cs_sig cs)) (p_roots (v_roots c)) [8])
            | None => None
            end)).
Proof.
  intros c He Hi Hci. rewrite fresh_closed_form. unfold fresh_value. rewrite He, Hi. cbn [app].
  destruct (v_cs c) as [cs|].
  - rewrite (Hci cs eq_refl). rewrite verify_chain_some, !path_ok_direct.
    set (T := abs_cert (o_leaf (cs_sig cs)) (p_roots (v_roots c)) [8]).
    set (L := abs_cert (o_leaf (v_sig c)) (p_roots (v_roots c)) [v_usage c]).
    set (tm := eff_time (cs_time cs) (v_now c)).
    (* the timeStamping usage of the authority's certificate is already part of its path validation *)
    assert (Hts : chain_ok T tm = true -> c_ts_eku T = true).
    { unfold chain_ok, T, abs_cert. cbn [c_trusted c_nb c_na c_ts_eku]. unfold usages_ok. cbn [existsb].
      destruct (eku_ok 8 (o_leaf (cs_sig cs))); [reflexivity|].
      rewrite orb_false_r, andb_false_r. cbn [andb]. discriminate. }
    destruct (chain_ok T tm) eqn:C1; cbn [andb]; [|reflexivity].
    rewrite (Hts eq_refl). cbn [andb]. destruct (chain_ok L tm); reflexivity.
  - rewrite verify_chain_none, path_ok_direct. unfold eff_time. cbn [Z.eqb].
    destruct (chain_ok _ _); reflexivity.
Qed.

(* 17. Sensitivity of the analysis: the program of a VerifyChain that memoises accepted (trust store, usage, leaf)
       triples without the judgement time is NOT history independent — after one in-lifetime timestamp the expired
       certificate is accepted with no timestamp and with a timestamp from after its expiry. *)
Theorem timeblind_memo_refuted :
  exists good bad1 bad2,
    let '(v1, s1) := verify_step_memo [] good in
    let '(v2, s2) := verify_step_memo s1 bad1 in
    let '(v3, _) := verify_step_memo s2 bad2 in
    v1 = Ok tt /\ v2 = Ok tt /\ v3 = Ok tt /\
    fst (verify_step_memo [] bad1) = Err E_CHAIN /\ fst (verify_step_memo [] bad2) = Err E_CHAIN /\
    spec_chain_accept bad1 = false /\ spec_chain_accept bad2 = false /\
    x_na (o_leaf (v_sig bad1)) < v_now bad1.
Proof. exists (w_call (Some 150)), (w_call None), (w_call (Some 250)). vm_compute. repeat split; reflexivity. Qed.
Example timeblind_memo_is_flagged : stateless memo7_timeblind = false.
Proof. reflexivity. Qed.

(* ---------------------------------------------------------------- TIME: hanging, stalling, dripping, torn and slow authorities
   Authorities are timed scripts (C10/Timing.v); the client's limits are what tsclient.New / tsClient.do attach, read from
   the source as functions of timestamp.timeout = ct seconds (limits_of ct).  All times in nanoseconds. *)

(* 18. For EVERY configured timestamp.timeout (also unset = 0, and negative) the client is under a positive OVERALL limit,
       i.e. one that also covers reading the reply body (http.Client.Timeout or a per-attempt context deadline) — not
       merely connect / handshake / header timeouts.  A positive value means that many seconds, anything else 60 s. *)
Theorem timeout_covers_whole_exchange : forall ct, 0 < l_total (limits_of ct).
Proof. exact C10.TimingProofs.limit_positive. Qed.
Theorem timeout_is_the_configured_seconds : forall ct, 0 < ct -> l_total (limits_of ct) = 1000000000 * ct.
Proof. intros ct Hct. rewrite limit_value. replace (0 <? ct) with true by lia. reflexivity. Qed.
Theorem default_timeout_when_unset : forall ct, ct <= 0 -> l_total (limits_of ct) = 60 * 1000000000.
Proof. intros ct Hct. rewrite limit_value. replace (0 <? ct) with false by lia. reflexivity. Qed.

(* 19. Every attempt ends within the timeout: whatever the authority does (any script), with or without a caller deadline *)
Theorem attempt_ends_within_timeout : forall ct ctx a now,
  exists f ph t, attempt (limits_of ct) ctx a now = Done f ph t /\ now <= t <= now + l_total (limits_of ct).
Proof. intros ct ctx a now. apply attempt_bounded, limit_positive. Qed.

(* 20. An exchange succeeds exactly when the authority's complete reply fits the configured limits (clock-and-deadline
       walk of the client = the specification over durations); any limits, no caller deadline. *)
Theorem exchange_succeeds_iff_in_time : forall l a now,
  fok (attempt l None a now) = spec_in_time l (a_tls a) (a_script a).
Proof. exact C10.TimingProofs.attempt_spec. Qed.

(* 21. The call always returns; the authorities are asked in configured order, the first at once, each next one no later
       than one timeout after the previous one, and the call returns no later than one timeout after the last. *)
Theorem timed_client_returns : forall H ct ctx q al t0,
  exists r t hits, tclient H (limits_of ct) ctx q al t0 = (TRet r t, hits) /\
                   timeline (l_total (limits_of ct)) 0 t0 hits t /\ (length hits <= length al)%nat.
Proof. intros H ct ctx q al t0. apply TimingProofs.timed_client_returns, limit_positive. Qed.

(* 22. Ordered failover = specification, for every list of authorities and every behaviour: success iff some authority
       answered in time with a token that passes the checks, and then it is the first such in order and nobody after it
       was asked; failure only after ALL were asked. *)
Theorem timed_failover_spec : forall H ct q al t0,
  q_legacy q = false -> al <> [] ->
  match spec_timed (spec_good H (limits_of ct) q) al 0 with
  | (Some s, h) => exists t hits, tclient H (limits_of ct) None q al t0 = (TRet (Ok s) t, hits) /\ map fst hits = h
  | (None, h) => exists e t hits, tclient H (limits_of ct) None q al t0 = (TRet (Err e) t, hits) /\ map fst hits = h /\
                                  h = upto 0 (length al)
  end.
Proof. intros H ct q al t0. apply TimingProofs.timed_failover_spec, limit_positive. Qed.

(* 23. No behaviour of earlier authorities can prevent a later good one from being asked and used — and it is reached
       within one timeout per earlier authority. *)
Theorem no_behaviour_blocks_later : forall H ct q bad g rest t0,
  q_legacy q = false ->
  (forall a, In a bad -> spec_good H (limits_of ct) q a = false) -> spec_good H (limits_of ct) q g = true ->
  exists t hits, tclient H (limits_of ct) None q (bad ++ g :: rest) t0 = (TRet (Ok (r_stamp (a_reply g))) t, hits) /\
                 map fst hits = upto 0 (S (length bad)) /\
                 t0 <= t <= t0 + Z.of_nat (S (length bad)) * l_total (limits_of ct).
Proof. intros H ct q bad g rest t0. apply TimingProofs.no_behaviour_blocks_later, limit_positive. Qed.

(* 24. If no authority gives a good answer in time the signing FAILS — it neither succeeds, nor hangs, nor panics — under
       any caller deadline, after at most one timeout per configured authority. *)
Theorem timed_all_fail_is_error : forall H ct ctx q al t0,
  q_legacy q = false -> (forall a, In a al -> spec_good H (limits_of ct) q a = false) ->
  exists e t hits, tclient H (limits_of ct) ctx q al t0 = (TRet (Err e) t, hits) /\
                   t0 <= t <= t0 + zlen al * l_total (limits_of ct).
Proof. intros H ct ctx q al t0. apply TimingProofs.timed_all_fail_is_error, limit_positive. Qed.

(* 25. Success under ANY caller deadline and any limits: the token comes from an authority whose complete reply fits the
       limits and passes the checks; exactly the authorities up to it were asked. *)
Theorem timed_sound : forall H l ctx q al t0 s te hits,
  q_legacy q = false ->
  tclient H l ctx q al t0 = (TRet (Ok s) te, hits) ->
  exists k a, nth_error al k = Some a /\ s = r_stamp (a_reply a) /\ spec_good H l q a = true /\ map fst hits = upto 0 (S k).
Proof. exact C10.TimingProofs.timed_sound. Qed.

(* 26. A caller whose own deadline lies beyond one timeout per authority observes exactly what a caller without deadline
       observes (so 22-23 hold for the server, whose requests carry a deadline, as well). *)
Theorem patient_caller : forall H ct c q al t0,
  t0 + zlen al * l_total (limits_of ct) < c ->
  tclient H (limits_of ct) (Some c) q al t0 = tclient H (limits_of ct) None q al t0.
Proof. intros H ct c q al t0. apply TimingProofs.patient_caller, limit_positive. Qed.

(* 27. The timed client refines the untimed model of theorems 1-6 with "a complete reply arrived in time" as r_transport *)
Theorem timed_refines_untimed : forall H ct q al t0,
  exists t hits,
    tclient H (limits_of ct) None q al t0 = (TRet (fst (ts_client H q (map (reply_at (limits_of ct)) al))) t, hits) /\
    map fst hits = snd (ts_client H q (map (reply_at (limits_of ct)) al)) /\ t0 <= t.
Proof. intros H ct q al t0. apply TimingProofs.timed_refines_untimed, limit_positive. Qed.

(* 28. Rate limiter in front of the client: a wait that would end after the caller's deadline fails at once and nobody is
       asked; otherwise the client runs after the wait. *)
Theorem limiter_spec : forall H l ctx q al wait,
  limited_client H l ctx q al wait =
  if wait_fails ctx wait then (TRet (Err E_LIMIT) 0, []) else tclient H l ctx q al (posd wait).
Proof. reflexivity. Qed.

(* 29. What the model takes from the shape of the source: the loop ranges over all URLs, its only early exits are the two
       translated ones, the request carries the caller's context, no other context is derived in Timestamp, the limiter
       waits before calling, and the HTTP client literal sets no field the model does not know. *)
Theorem timing_source_reviewed :
  ts_loop_header = reviewed_loop_header /\ ts_loop_attempts = reviewed_loop_attempts /\ ts_loop_exits = reviewed_loop_exits /\
  ts_context_derivations = [] /\ do_request_ctx = 0 /\ do_uses_configured_client = true /\
  limiter_order = [0; 1] /\ limiter_passes_ctx_and_request = true /\
  all_known known_client_fields client_fields = true /\ all_known known_transport_fields transport_fields = true /\
  all_known known_dialer_fields dialer_fields = true.
Proof. exact C10.TimingProofs.timing_source_reviewed. Qed.

(* ---------------------------------------------------------------- where the code as it exists violates the statement *)
Theorem legacy_no_failover_refuted :
  exists q rs good, q_legacy q = true /\
    spec_client (genuine_legacy q) rs 0 = (Some good, [0; 1]) /\
    ts_client Hsym q rs = (Ok (w_lstamp 0 [9; 9; 9]), [0]) /\
    sign_with_ts Hsym 1 true q rs = (Err E_IMPRINT, [0]).
Proof. exact C10.Proofs.legacy_no_failover_refuted. Qed.
Theorem alg_label_unchecked_refuted :
  exists q rs t hits, q_legacy q = false /\ ts_client Hsym q rs = (Ok t, hits) /\
    (forall r, In r rs -> genuine Hsym q r = false) /\
    is_ok (verify_stamp Hsym t (q_sig q)) = false.
Proof.
  exists w_req, [w_reply (w_stamp 0 (Some 7) 9) 0], (w_stamp 0 (Some 7) 9), [0].
  repeat apply conj; try (vm_compute; reflexivity). intros r [<-|[]]. vm_compute. reflexivity.
Qed.
Theorem alg_label_no_failover_refuted :
  exists q rs, spec_client (genuine Hsym q) rs 0 = (Some (r_stamp w_good), [0; 1]) /\
    sign_with_ts Hsym 0 true q rs = (Err E_ALG, [0]).
Proof. exists w_req, [w_reply (w_stamp 0 (Some 7) 9) 0; w_good]. vm_compute. auto. Qed.
Theorem vsix_attaches_unverifiable_refuted :
  exists q rs t hits, sign_with_ts Hsym 2 true q rs = (Ok (Some t), hits) /\
    (forall r, In r rs -> genuine Hsym q r = false) /\ is_ok (verify_stamp Hsym t (q_sig q)) = false.
Proof.
  exists w_req, [w_reply (w_stamp 0 (Some 7) 9) 0], (w_stamp 0 (Some 7) 9), [0].
  repeat apply conj; try (vm_compute; reflexivity). intros r [<-|[]]. vm_compute. reflexivity.
Qed.
Theorem zero_time_judged_now_refuted :
  exists now s, accepted Hsym now s = true /\ spec_accept Hsym now s = false.
Proof.
  exists 150, (mkSig [1; 2; 3] w_cert (Some (mkStamp 0 0 1 true true true None 3 (Hsym 3 [1; 2; 3]) 0 true w_cert))).
  vm_compute. auto.
Qed.

(* sensitivity of 18-24: connect / handshake / header limits alone do not bound the body read *)
Theorem header_only_limits_refuted :
  exists q al good,
    let l := mkLimits 0 SEC SEC SEC in
    spec_timed (spec_good Hsym l q) al 0 = (Some good, [0; 1]) /\
    tclient Hsym l None q al 0 = (THang, [(0, 0)]) /\
    tclient Hsym l (Some (5 * SEC)) q al 0 = (TRet (Err E_TRANSPORT) (5 * SEC), [(0, 0)]) /\
    tclient Hsym l None q [w_hang 0; w_answer 1 5000000] 0 = (TRet (Ok good) (SEC + 5000000), [(0, 0); (1, SEC)]).
Proof.
  exists w_req, [w_stall_after_headers 0; w_answer 1 5000000], (w_stamp 1 (Some 7) 3). vm_compute. repeat split; reflexivity.
Qed.

(* ---------------------------------------------------------------- non-vacuity *)
(* failover over three authorities: wrong nonce, rejection, then a genuine one *)
Example failover_example :
  let bad_nonce := w_reply (w_stamp 0 (Some 8) 3) 0 in
  let rejected := w_reply (w_stamp 1 (Some 7) 3) 2 in
  let good := w_reply (w_stamp 2 (Some 7) 3) 0 in
  ts_client Hsym w_req [bad_nonce; rejected; good] = (Ok (w_stamp 2 (Some 7) 3), [0; 1; 2]) /\
  spec_client (genuine Hsym w_req) [bad_nonce; rejected; good] 0 = (Some (w_stamp 2 (Some 7) 3), [0; 1; 2]) /\
  ts_client Hsym w_req [bad_nonce; rejected] = (Err E_DENIED, [0; 1]).
Proof. vm_compute. auto. Qed.
(* an expired leaf with a timestamp from within its lifetime is accepted; without it, or with a stamp for another
   signature value, it is not *)
Example expired_leaf_example :
  let leaf := mkCert 100 200 true false in
  let st := mkStamp 0 0 1 true true true (Some 1) 3 (Hsym 3 [1; 2; 3]) 150 true (mkCert 120 400 true true) in
  accepted Hsym 300 (mkSig [1; 2; 3] leaf (Some st)) = true /\
  accepted Hsym 300 (mkSig [1; 2; 3] leaf None) = false /\
  accepted Hsym 300 (mkSig [1; 2; 4] leaf (Some st)) = false /\
  c_na leaf < 300.
Proof. vm_compute. auto. Qed.
(* a token without nonce and a reply with PKIStatus -1 are skipped; the third authority's token is used *)
Example missing_nonce_fails_over :
  let no_nonce := w_reply (w_stamp 0 None 3) 0 in
  let minus1 := w_reply (w_stamp 1 (Some 7) 3) (-1) in
  ts_client Hsym w_req [no_nonce; minus1; w_good] = (Ok (r_stamp w_good), [0; 1; 2]).
Proof. vm_compute. reflexivity. Qed.
Example hsym_injective : forall a x y, Hsym a x = Hsym a y -> x = y.
Proof. intros a x y E. inversion E. reflexivity. Qed.

(* a history over one leaf certificate, one trust-store object and one usage: accepted with an in-lifetime timestamp,
   then without timestamp, after expiry, before notBefore, at notAfter exactly, one second later — and the reverse *)
Example history_example :
  let h := [w_call (Some 150); w_call None; w_call (Some 250); w_call (Some 50); w_call (Some 200); w_call (Some 201)] in
  fst (verify_seq [] h) = [Ok tt; Err E_CHAIN; Err E_CHAIN; Err E_CHAIN; Ok tt; Err E_CHAIN] /\
  fst (verify_seq [] (rev h)) = rev [Ok tt; Err E_CHAIN; Err E_CHAIN; Err E_CHAIN; Ok tt; Err E_CHAIN] /\
  map spec_chain_accept h = [true; false; false; false; true; false].
Proof. vm_compute. auto. Qed.
(* the authority's certificate outside its own lifetime at the attested time: rejected as a timestamp failure *)
Example tsa_window_example :
  let tsa := mkX 20 120 180 w_root [8] in
  let c t := mkCall w_pool [] 0 300 (mkSobj w_leaf []) (Some (mkCs (mkSobj tsa []) t)) (fun _ => false) in
  fst (verify_seq [] [c 150; c 190; c 110; c 180; c 181]) = [Ok tt; Err E_CHAIN_TSA; Err E_CHAIN_TSA; Ok tt; Err E_CHAIN_TSA].
Proof. vm_compute. reflexivity. Qed.
(* a path through a bundled intermediate, a second trust-store object, and a usage the leaf does not have *)
Example intermediate_and_pool_example :
  let ica := mkX 5 0 1000 w_root [] in
  let leaf := mkX 11 100 200 5 [3] in
  let c (p : pool) (u : Z) (inter : list xcert) := mkCall p [] u 150 (mkSobj leaf inter) None (fun _ => false) in
  fst (verify_seq [] [c w_pool 0 [ica]; c w_pool 0 []; c (mkPool 78 [2]) 0 [ica]; c w_pool 1 [ica]; c w_pool 3 [ica]]) =
  [Ok tt; Err E_CHAIN; Err E_CHAIN; Err E_CHAIN; Ok tt].
Proof. vm_compute. reflexivity. Qed.

(* time: an authority that stalls after its headers, one that drips a byte every 300 ms, one that closes in mid-body and
   one that answers after 400 ms, with timestamp.timeout = 1: asked at 0 s, 1 s, 2 s and 2.004 s; the fourth one's token
   is returned at 2.404 s — and that is what the specification says *)
Example timed_failover_example :
  let al := [w_stall_after_headers 0; w_drip 1; w_torn 2; w_answer 3 400000000] in
  tclient Hsym (limits_of 1) None w_req al 0 =
    (TRet (Ok (w_stamp 3 (Some 7) 3)) 2404000000, [(0, 0); (1, 1000000000); (2, 2000000000); (3, 2004000000)]) /\
  spec_timed (spec_good Hsym (limits_of 1) w_req) al 0 = (Some (w_stamp 3 (Some 7) 3), [0; 1; 2; 3]) /\
  0 < 1.
Proof. vm_compute. repeat split; reflexivity. Qed.
(* all authorities hang in different ways: failure after one timeout each; a caller deadline in the middle of the second
   attempt ends the call there *)
Example timed_all_hang_example :
  tclient Hsym (limits_of 1) None w_req [w_stall_after_headers 0; w_hang 1] 0 = (TRet (Err E_TRANSPORT) 2000000000, [(0, 0); (1, 1000000000)]) /\
  tclient Hsym (limits_of 1) (Some 1500000000) w_req [w_stall_after_headers 0; w_hang 1; w_answer 2 5] 0 =
    (TRet (Err E_TRANSPORT) 1500000000, [(0, 0); (1, 1000000000)]) /\
  spec_good Hsym (limits_of 1) w_req (w_answer 2 5) = true /\ spec_good Hsym (limits_of 1) w_req (w_hang 1) = false.
Proof. vm_compute. repeat split; reflexivity. Qed.
(* an answer that would be complete after 1.2 s is not an answer under a 1 s timeout; after 0.9 s it is *)
Example timed_boundary_example :
  spec_good Hsym (limits_of 1) w_req (w_answer 0 1200000000) = false /\
  spec_good Hsym (limits_of 1) w_req (w_answer 0 900000000) = true /\
  answered (limits_of 1) (w_answer 0 1200000000) = false /\ answered (limits_of 1) (w_answer 0 900000000) = true.
Proof. vm_compute. repeat split; reflexivity. Qed.
(* timestamp.timeout unset or negative: the silent first authority is abandoned after the default 60 s, the second is used *)
Example timeout_unset_fails_over :
  let al := [w_hang 0; w_answer 1 5000000] in
  tclient Hsym (limits_of 0) None w_req al 0 = (TRet (Ok (w_stamp 1 (Some 7) 3)) (60 * SEC + 5000000), [(0, 0); (1, 60 * SEC)]) /\
  tclient Hsym (limits_of (-3)) None w_req al 0 = tclient Hsym (limits_of 0) None w_req al 0 /\
  spec_timed (spec_good Hsym (limits_of 0) w_req) al 0 = (Some (w_stamp 1 (Some 7) 3), [0; 1]).
Proof. vm_compute. repeat split; reflexivity. Qed.
