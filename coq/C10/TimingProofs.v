(* C10/TimingProofs.v — lemmas about the timed client (C10/Timing.v): every exchange ends within the overall limit, an
   exchange succeeds exactly when the specification's durations fit, and the loop over timed authorities refines the
   untimed loop of C10/Model.v. *)
From Coq Require Import String Btauto.
From Relic Require Import Base.Prelude Generated.C10_gen C10.Model C10.Proofs C10.Timing.
Open Scope Z_scope.

Lemma posd_nonneg d : 0 <= posd d.
Proof. unfold posd. lia. Qed.

Lemma next_deadline_total l ctx ph start ps :
  0 < l_total l -> exists d f, next_deadline l ctx ph start ps = Some (d, f) /\ d <= start + l_total l.
Proof.
  intros Hpos. unfold next_deadline, own_deadline, total_deadline. replace (0 <? l_total l) with true by lia.
  destruct (phase_deadline l ph ps) as [p|]; cbn [omin]; destruct ctx as [c|]; [destruct (c <=? _) eqn:C| |destruct (c <=? _) eqn:C|];
    eexists; eexists; (split; [reflexivity|lia]).
Qed.

Lemma next_deadline_ctx l c ph start ps :
  exists d f, next_deadline l (Some c) ph start ps = Some (d, f) /\ d <= c.
Proof.
  unfold next_deadline. destruct (own_deadline l ph start ps) as [d|]; [destruct (c <=? d) eqn:C|];
    eexists; eexists; (split; [reflexivity|lia]).
Qed.

Lemma walk_bounded_gen l ctx tls start B :
  (forall ph ps, exists d f, next_deadline l ctx ph start ps = Some (d, f) /\ d <= B) ->
  forall s ph ps now, now <= B ->
  exists f ph' t, walk l ctx tls ph start ps now s = Done f ph' t /\ now <= t <= B.
Proof.
  intros Hdl. induction s as [|[d e] rest IH]; intros ph ps now Hnow; cbn [walk]; unfold fires;
    destruct (Hdl ph ps) as (d0 & f0 & -> & Hd).
  - exists f0, ph, (Z.max now d0). split; [reflexivity|lia].
  - pose proof (posd_nonneg d). destruct (d0 <=? now + posd d) eqn:F.
    + exists f0, ph, (Z.max now d0). split; [reflexivity|lia].
    + destruct (step_ev tls ph e) as [ph'|f].
      * destruct (IH ph' (match e with EvBytes _ => ps | _ => now + posd d end) (now + posd d)) as (f1 & ph1 & t1 & W & Ht); [lia|].
        exists f1, ph1, t1. split; [exact W|lia].
      * exists f, ph, (now + posd d). split; [reflexivity|lia].
Qed.

Lemma attempt_bounded l ctx a now :
  0 < l_total l ->
  exists f ph t, attempt l ctx a now = Done f ph t /\ now <= t <= now + l_total l.
Proof.
  intros Hpos. apply walk_bounded_gen; [|lia]. intros ph ps. apply next_deadline_total, Hpos.
Qed.

(* under a caller deadline an attempt ends no later than that deadline (or at once, if it has already passed) *)
Lemma attempt_bounded_ctx l c a now :
  exists f ph t, attempt l (Some c) a now = Done f ph t /\ now <= t <= Z.max now c.
Proof.
  apply walk_bounded_gen; [|lia].
  intros ph ps. destruct (next_deadline_ctx l c ph now ps) as (d & f & E & Hd). exists d, f. split; [exact E|lia].
Qed.

Lemma next_deadline_patient l c ph start ps :
  0 < l_total l -> start + l_total l < c ->
  next_deadline l (Some c) ph start ps = next_deadline l None ph start ps.
Proof.
  intros Hpos Hc. unfold next_deadline, own_deadline, total_deadline. replace (0 <? l_total l) with true by lia.
  destruct (phase_deadline l ph ps) as [p|]; cbn [omin]; destruct (c <=? _) eqn:C; [lia|reflexivity|lia|reflexivity].
Qed.
Lemma fires_patient l c ph start ps t' :
  0 < l_total l -> start + l_total l < c -> fires l (Some c) ph start ps t' = fires l None ph start ps t'.
Proof. intros Hpos Hc. unfold fires. rewrite next_deadline_patient by assumption. reflexivity. Qed.
Lemma walk_patient l c tls start :
  0 < l_total l -> start + l_total l < c ->
  forall s ph ps now, walk l (Some c) tls ph start ps now s = walk l None tls ph start ps now s.
Proof.
  intros Hpos Hc. induction s as [|[d e] rest IH]; intros ph ps now; cbn [walk].
  - rewrite next_deadline_patient by assumption. reflexivity.
  - rewrite fires_patient by assumption. destruct (fires l None ph start ps (now + posd d)) as [[dl f]|]; [reflexivity|].
    destruct (step_ev tls ph e); [apply IH|reflexivity].
Qed.

(* the overall limit at an absolute instant, and the limit of a phase after x nanoseconds in that phase *)
Definition tot_ok (l : limits) (start t : Z) : bool := if 0 <? l_total l then t <? start + l_total l else true.
Definition phase_ok (l : limits) (ph : phase) (x : Z) : bool :=
  match ph with
  | PDial => lim_nz (l_dial l) x
  | PTls => lim_nz (l_tls l) x
  | PHeader => lim_pos (l_header l) x
  | PBody => true
  end.
Definition fin_ok (f : fin) : bool := match f with FOk => true | _ => false end.
(* instant t lies before the deadline, if there is one *)
Definition before (o : option Z) (t : Z) : bool := match o with Some d => t <? d | None => true end.

Lemma tot_ok_mono l start t1 t2 : t1 <= t2 -> tot_ok l start t2 = true -> tot_ok l start t1 = true.
Proof. unfold tot_ok. destruct (0 <? l_total l); [lia|reflexivity]. Qed.
Lemma tot_ok_rel l start x : tot_ok l start (start + x) = lim_pos (l_total l) x.
Proof. unfold tot_ok, lim_pos. destruct (0 <? l_total l); [lia|reflexivity]. Qed.

(* the client's own deadline is the earlier of two, so an instant lies before it iff both limits allow it *)
Lemma own_deadline_before l ph start ps t :
  before (own_deadline l ph start ps) t = tot_ok l start t && phase_ok l ph (t - ps).
Proof.
  assert (P : before (phase_deadline l ph ps) t = phase_ok l ph (t - ps)).
  { destruct ph; cbn [phase_deadline phase_ok]; unfold lim_nz, lim_pos;
      [destruct (l_dial l =? 0)|destruct (l_tls l =? 0)|destruct (0 <? l_header l)|]; cbn [before]; try reflexivity; lia. }
  rewrite <- P. unfold own_deadline, total_deadline, tot_ok.
  destruct (0 <? l_total l), (phase_deadline l ph ps); cbn [omin before]; try reflexivity; lia.
Qed.

Lemma walk_nil_fok l tls ph start ps now : fok (walk l None tls ph start ps now []) = false.
Proof. cbn [walk]. unfold next_deadline. destruct (own_deadline l ph start ps); reflexivity. Qed.

(* without a caller deadline: the next event is reached iff it comes before the client's own deadline *)
Lemma walk_step_fok l tls ph start ps now d e r :
  fok (walk l None tls ph start ps now ((d, e) :: r)) =
  tot_ok l start (now + posd d) && phase_ok l ph (now + posd d - ps) &&
  match step_ev tls ph e with
  | inr f => fin_ok f
  | inl ph' => fok (walk l None tls ph' start (match e with EvBytes _ => ps | _ => now + posd d end) (now + posd d) r)
  end.
Proof.
  rewrite <- own_deadline_before. cbn [walk]. unfold fires, next_deadline. destruct (own_deadline l ph start ps) as [dl|]; cbn [before].
  - destruct (dl <=? now + posd d) eqn:E.
    + replace (now + posd d <? dl) with false by lia. reflexivity.
    + replace (now + posd d <? dl) with true by lia. destruct (step_ev tls ph e) as [ph'|[]]; reflexivity.
  - destruct (step_ev tls ph e) as [ph'|[]]; reflexivity.
Qed.

(* the overall limit is an absolute instant and the clock only moves forward: an exchange that succeeds had not passed
   the limit when it began ... *)
Lemma walk_fok_tot l tls s ph start ps now :
  fok (walk l None tls ph start ps now s) = true -> tot_ok l start now = true.
Proof.
  destruct s as [|[d e] r]; [rewrite walk_nil_fok; discriminate|].
  rewrite walk_step_fok. intros E. apply andb_true_iff in E as [E _]. apply andb_true_iff in E as [E _].
  pose proof (posd_nonneg d). apply (tot_ok_mono l start now (now + posd d)); [lia|exact E].
Qed.

(* ... so the limit need only be looked at where the exchange ends, as the specification does *)
Lemma walk_cons_fok l tls ph start ps now d e r :
  fok (walk l None tls ph start ps now ((d, e) :: r)) =
  phase_ok l ph (now + posd d - ps) &&
  match step_ev tls ph e with
  | inr f => fin_ok f && tot_ok l start (now + posd d)
  | inl ph' => fok (walk l None tls ph' start (match e with EvBytes _ => ps | _ => now + posd d end) (now + posd d) r)
  end.
Proof.
  rewrite walk_step_fok. destruct (step_ev tls ph e) as [ph'|f]; [|btauto].
  destruct (fok _) eqn:W; [rewrite (walk_fok_tot _ _ _ _ _ _ _ W); reflexivity|rewrite !andb_false_r; reflexivity].
Qed.

Lemma walk_body l tls : forall s start ps now,
  fok (walk l None tls PBody start ps now s) =
  match body_time s with Some tb => tot_ok l start (now + tb) | None => false end.
Proof.
  induction s as [|[d e] r IH]; intros start ps now; [apply walk_nil_fok|].
  rewrite walk_cons_fok. destruct e; cbn [phase_ok step_ev body_time fin_ok andb]; try reflexivity.
  rewrite IH. destruct (body_time r) as [tb|]; [rewrite Z.add_assoc|]; reflexivity.
Qed.

(* the header phase as the specification sees it: t0 = time spent since the attempt began *)
Lemma walk_header_spec l tls s start t0 :
  fok (walk l None tls PHeader start (start + t0) (start + t0) s) = after_connect l t0 s.
Proof.
  unfold after_connect. destruct s as [|[d e] r]; [apply walk_nil_fok|].
  rewrite walk_cons_fok, Z.add_simpl_l. destruct e; cbn [phase_ok step_ev fin_ok andb]; try apply andb_false_r.
  rewrite walk_body. f_equal. destruct (body_time r) as [tb|]; [|reflexivity].
  rewrite <- (tot_ok_rel l start). f_equal. lia.
Qed.

Lemma walk_tls l tls s start t0 :
  fok (walk l None tls PTls start (start + t0) (start + t0) s) =
  match s with
  | (d2, EvSecure) :: s2 => lim_nz (l_tls l) (posd d2) && after_connect l (t0 + posd d2) s2
  | _ => false
  end.
Proof.
  destruct s as [|[d e] r]; [apply walk_nil_fok|].
  rewrite walk_cons_fok, Z.add_simpl_l. destruct e; cbn [phase_ok step_ev fin_ok andb]; try apply andb_false_r.
  rewrite <- Z.add_assoc, walk_header_spec. reflexivity.
Qed.

(* the whole exchange: the client's clock-and-deadline walk succeeds exactly when the specification's durations fit *)
Lemma attempt_spec l a now :
  fok (attempt l None a now) = spec_in_time l (a_tls a) (a_script a).
Proof.
  unfold attempt, spec_in_time. destruct (a_script a) as [|[d e] r]; [apply walk_nil_fok|].
  rewrite walk_cons_fok, Z.add_simpl_l. destruct e; cbn [phase_ok step_ev fin_ok andb]; try apply andb_false_r.
  destruct (a_tls a); [rewrite walk_tls|rewrite walk_header_spec]; reflexivity.
Qed.

Lemma answered_spec l a : answered l a = spec_in_time l (a_tls a) (a_script a).
Proof. apply attempt_spec. Qed.

Lemma next_deadline_fin l ctx ph start ps d f :
  next_deadline l ctx ph start ps = Some (d, f) -> f <> FOk.
Proof.
  unfold next_deadline. destruct ctx as [c|], (own_deadline l ph start ps) as [o|]; [destruct (c <=? o)|..];
    intros E; inversion E; discriminate.
Qed.
Lemma fires_fin l ctx ph start ps t' d f : fires l ctx ph start ps t' = Some (d, f) -> f <> FOk.
Proof.
  unfold fires. destruct (next_deadline l ctx ph start ps) as [[dl f0]|] eqn:N; [|discriminate].
  destruct (dl <=? t'); [|discriminate]. intros E. injection E as _ <-. apply (next_deadline_fin _ _ _ _ _ _ _ N).
Qed.
Lemma fires_ctx_none l c ph start ps t' :
  fires l (Some c) ph start ps t' = None -> fires l None ph start ps t' = None.
Proof.
  unfold fires, next_deadline. destruct (own_deadline l ph start ps) as [o|]; [|reflexivity].
  destruct (c <=? o) eqn:C.
  - destruct (c <=? t') eqn:D; [discriminate|]. intros _. replace (o <=? t') with false by lia. reflexivity.
  - destruct (o <=? t'); [discriminate|reflexivity].
Qed.
Lemma fok_done_not_ok f ph t : f <> FOk -> fok (Done f ph t) = false.
Proof. destruct f; try reflexivity. congruence. Qed.

(* a caller deadline can only cut an exchange short: one that succeeds under it succeeds without it *)
Lemma walk_ctx_ok l c tls : forall s ph start ps now,
  fok (walk l (Some c) tls ph start ps now s) = true -> fok (walk l None tls ph start ps now s) = true.
Proof.
  induction s as [|[d e] r IH]; intros ph start ps now; cbn [walk].
  - destruct (next_deadline l (Some c) ph start ps) as [[dl f]|] eqn:N; [|discriminate].
    rewrite (fok_done_not_ok _ _ _ (next_deadline_fin _ _ _ _ _ _ _ N)). discriminate.
  - destruct (fires l (Some c) ph start ps (now + posd d)) as [[dl f]|] eqn:F.
    + rewrite (fok_done_not_ok _ _ _ (fires_fin _ _ _ _ _ _ _ _ F)). discriminate.
    + rewrite (fires_ctx_none _ _ _ _ _ _ F). destruct (step_ev tls ph e); [apply IH|auto].
Qed.
Lemma attempt_ctx_ok l ctx a now : fok (attempt l ctx a now) = true -> spec_in_time l (a_tls a) (a_script a) = true.
Proof.
  intros E. rewrite <- (attempt_spec l a now). destruct ctx as [c|]; [|exact E]. apply (walk_ctx_ok l c), E.
Qed.

Section Loop.
Variable H : Z -> bytes -> bytes.

(* tsClient.do on a timed authority = the untimed tsClient.do on "did a complete reply arrive in time" *)
Lemma attempt_outcome_untimed l q a now f ph t :
  attempt l None a now = Done f ph t ->
  attempt_outcome H q a f ph = ts_do H q (reply_at l a).
Proof.
  intros W. pose proof (attempt_spec l a now) as S. rewrite W in S.
  unfold reply_at. rewrite answered_spec, <- S. unfold attempt_outcome.
  destruct f; cbn [fok]; try reflexivity;
    (destruct ph; unfold do_read_failed, do_transport_failed; symmetry; apply ts_do_no_transport; reflexivity).
Qed.

Lemma attempt_outcome_no_panic q a f ph p : attempt_outcome H q a f ph <> Panic p.
Proof.
  unfold attempt_outcome, do_read_failed, do_transport_failed.
  destruct f; try apply ts_do_no_panic; destruct ph; discriminate.
Qed.

Lemma attempt_outcome_ok l ctx q a now f ph t s :
  attempt l ctx a now = Done f ph t -> attempt_outcome H q a f ph = Ok s ->
  spec_in_time l (a_tls a) (a_script a) = true /\ ts_do H q (deliver (a_reply a)) = Ok s.
Proof.
  intros W O. unfold attempt_outcome, do_read_failed, do_transport_failed in O.
  destruct f; try (destruct ph; discriminate).
  split; [|exact O]. apply (attempt_ctx_ok l ctx a now). rewrite W. reflexivity.
Qed.

(* one turn of the loop, in the shape of Proofs.ts_loop_cons *)
Lemma tloop_cons l ctx q a rest i now last :
  tloop H l ctx q (a :: rest) i now last =
  match attempt l ctx a now with
  | Forever => (THang, [(i, now)])
  | Done f ph t =>
      if is_ok (attempt_outcome H q a f ph) || ctx_dead_at ctx t then (TRet (attempt_outcome H q a f ph) t, [(i, now)])
      else let '(x, h) := tloop H l ctx q rest (i + 1) t (match attempt_outcome H q a f ph with Err e => e | _ => 0 end) in
           (x, (i, now) :: h)
  end.
Proof.
  cbn [tloop]. destruct (attempt l ctx a now) as [f ph t|]; [|reflexivity].
  pose proof (attempt_outcome_no_panic q a f ph) as N.
  destruct (attempt_outcome H q a f ph) as [s|e|p]; [reflexivity| |destruct (N p eq_refl)].
  unfold loop_returns_token, loop_stops_on_ctx, failed. cbn [is_ok negb orb]. destruct (ctx_dead_at ctx t); reflexivity.
Qed.

Lemma tclient_loop l ctx q al t0 : tclient H l ctx q al t0 = tloop H l ctx q al 0 t0 E_EMPTY.
Proof. destruct al; reflexivity. Qed.

Lemma tloop_refines l q :
  0 < l_total l ->
  forall al i now last,
  exists t hits,
    tloop H l None q al i now last = (TRet (fst (ts_loop H q (map (reply_at l) al) i last)) t, hits) /\
    map fst hits = snd (ts_loop H q (map (reply_at l) al) i last) /\ now <= t.
Proof.
  intros Hpos. induction al as [|a rest IH]; intros i now last.
  - exists now, []. repeat split. lia.
  - cbn [map]. rewrite tloop_cons, ts_loop_cons.
    destruct (attempt_bounded l None a now Hpos) as (f & ph & t & W & Ht).
    rewrite W, (attempt_outcome_untimed l q a now f ph t W). unfold accepts.
    change (r_ctx_dead (reply_at l a)) with (ctx_dead_at None t).
    destruct (is_ok (ts_do H q (reply_at l a)) || ctx_dead_at None t).
    + exists t, [(i, now)]. repeat split. lia.
    + destruct (IH (i + 1) t (match ts_do H q (reply_at l a) with Err e => e | _ => 0 end)) as (t1 & h1 & -> & Hh & Ht1).
      destruct (ts_loop H q (map (reply_at l) rest) (i + 1) _) as [x h]. cbn [fst snd] in *.
      exists t1, ((i, now) :: h1). cbn [map fst]. rewrite Hh. repeat split. lia.
Qed.

Theorem timed_refines_untimed l q al t0 :
  0 < l_total l ->
  exists t hits,
    tclient H l None q al t0 = (TRet (fst (ts_client H q (map (reply_at l) al))) t, hits) /\
    map fst hits = snd (ts_client H q (map (reply_at l) al)) /\ t0 <= t.
Proof. intros Hpos. rewrite tclient_loop, ts_client_loop. apply tloop_refines, Hpos. Qed.

(* the shape of every run: the call returns; authorities are asked in order i, i+1, ...; the first at once, each
   next one no later than one limit after the previous one; the call returns no later than one limit after the last *)
Fixpoint timeline (L i t : Z) (hits : list (Z * Z)) (tend : Z) : Prop :=
  match hits with
  | [] => tend = t
  | (j, tj) :: rest =>
      j = i /\ tj = t /\
      match rest with
      | [] => t <= tend <= t + L
      | (_, t') :: _ => t <= t' <= t + L /\ timeline L (i + 1) t' rest tend
      end
  end.

(* an attempt begun at t that ends at t' within the limit, followed by the timeline of the rest begun at t' *)
Lemma timeline_cons L i t t' hits tend :
  t <= t' <= t + L -> timeline L (i + 1) t' hits tend -> timeline L i t ((i, t) :: hits) tend.
Proof.
  intros B T. cbn [timeline]. split; [reflexivity|]. split; [reflexivity|].
  destruct hits as [|[j tj] rest]; cbn [timeline] in T.
  - subst tend. exact B.
  - destruct T as (-> & -> & T). split; [exact B|]. cbn [timeline]. auto.
Qed.

Lemma timeline_end L : forall hits i t tend,
  timeline L i t hits tend -> t <= tend <= t + Z.of_nat (length hits) * L.
Proof.
  induction hits as [|[j tj] rest IH]; intros i t tend T; cbn [timeline] in T.
  - subst. cbn [length]. lia.
  - destruct T as (_ & _ & T). destruct rest as [|[j' t'] rest'].
    + cbn [length]. lia.
    + destruct T as (Hs & T). specialize (IH _ _ _ T). cbn [length] in *. nia.
Qed.

Lemma tloop_timeline l ctx q :
  0 < l_total l ->
  forall al i now last,
  exists r t hits,
    tloop H l ctx q al i now last = (TRet r t, hits) /\ (forall p, r <> Panic p) /\
    timeline (l_total l) i now hits t /\ (length hits <= length al)%nat.
Proof.
  intros Hpos. induction al as [|a rest IH]; intros i now last.
  - exists (Err last), now, []. repeat split; [discriminate|apply le_n].
  - rewrite tloop_cons. destruct (attempt_bounded l ctx a now Hpos) as (f & ph & t & -> & Ht).
    destruct (is_ok _ || ctx_dead_at ctx t).
    + exists (attempt_outcome H q a f ph), t, [(i, now)]. split; [reflexivity|]. split; [apply attempt_outcome_no_panic|].
      split; [apply (timeline_cons _ _ _ t); [exact Ht|reflexivity]|cbn [length]; lia].
    + destruct (IH (i + 1) t (match attempt_outcome H q a f ph with Err e => e | _ => 0 end)) as (r1 & t1 & h1 & -> & N1 & T1 & L1).
      exists r1, t1, ((i, now) :: h1). split; [reflexivity|]. split; [exact N1|].
      split; [exact (timeline_cons _ _ _ t _ _ Ht T1)|cbn [length]; lia].
Qed.

Theorem timed_client_returns l ctx q al t0 :
  0 < l_total l ->
  exists r t hits, tclient H l ctx q al t0 = (TRet r t, hits) /\ timeline (l_total l) 0 t0 hits t /\
                   (length hits <= length al)%nat.
Proof.
  intros Hpos. rewrite tclient_loop.
  destruct (tloop_timeline l ctx q Hpos al 0 t0 E_EMPTY) as (r & t & hits & E & _ & T). exists r, t, hits. auto.
Qed.

Lemma tloop_ok_sound l ctx q : forall al i now last s te hits,
  tloop H l ctx q al i now last = (TRet (Ok s) te, hits) ->
  exists k a, nth_error al k = Some a /\ spec_in_time l (a_tls a) (a_script a) = true /\
              ts_do H q (deliver (a_reply a)) = Ok s /\ map fst hits = upto i (S k).
Proof.
  induction al as [|a rest IH]; intros i now last s te hits E; [discriminate|].
  rewrite tloop_cons in E. destruct (attempt l ctx a now) as [f ph t|] eqn:W; [|discriminate].
  destruct (is_ok _ || ctx_dead_at ctx t).
  - injection E as O <- <-. destruct (attempt_outcome_ok l ctx q a now f ph t s W O) as [Sp D].
    exists 0%nat, a. repeat split; assumption.
  - destruct (tloop H l ctx q rest (i + 1) t _) as [x h] eqn:L. injection E as -> <-.
    destruct (IH _ _ _ _ _ _ L) as (k & a0 & Hn & Sp & D & Hh).
    exists (S k), a0. cbn [map fst]. rewrite Hh. repeat split; assumption.
Qed.

Theorem timed_sound l ctx q al t0 s te hits :
  q_legacy q = false ->
  tclient H l ctx q al t0 = (TRet (Ok s) te, hits) ->
  exists k a, nth_error al k = Some a /\ s = r_stamp (a_reply a) /\ spec_good H l q a = true /\ map fst hits = upto 0 (S k).
Proof.
  intros Hleg E. rewrite tclient_loop in E.
  destruct (tloop_ok_sound l ctx q _ _ _ _ _ _ _ E) as (k & a & Hn & Sp & D & Hh).
  exists k, a. repeat split; auto.
  - exact (ts_do_ok_stamp H q _ _ D).
  - unfold spec_good. rewrite Sp, <- (accepts_rfc H q _ Hleg). unfold accepts. rewrite D. reflexivity.
Qed.

Theorem timed_all_fail_is_error l ctx q al t0 :
  0 < l_total l -> q_legacy q = false ->
  (forall a, In a al -> spec_good H l q a = false) ->
  exists e t hits, tclient H l ctx q al t0 = (TRet (Err e) t, hits) /\ t0 <= t <= t0 + zlen al * l_total l.
Proof.
  intros Hpos Hleg Hbad. pose proof (tclient_loop l ctx q al t0) as C.
  destruct (tloop_timeline l ctx q Hpos al 0 t0 E_EMPTY) as (r & t & hits & E & N & T & L). rewrite E in C.
  destruct r as [s|e|p]; [|clear N|destruct (N p eq_refl)].
  - destruct (timed_sound l ctx q al t0 s t hits Hleg C) as (k & a & Hn & _ & G & _).
    rewrite (Hbad a (nth_error_In _ _ Hn)) in G. discriminate.
  - exists e, t, hits. split; [exact C|].
    pose proof (timeline_end (l_total l) hits 0 t0 t T). unfold zlen. nia.
Qed.

Lemma tloop_patient l c q :
  0 < l_total l ->
  forall al i now last, now + zlen al * l_total l < c ->
  tloop H l (Some c) q al i now last = tloop H l None q al i now last.
Proof.
  intros Hpos. induction al as [|a rest IH]; intros i now last Hc; [reflexivity|].
  rewrite !tloop_cons. rewrite zlen_cons, Z.mul_add_distr_r, Z.mul_1_l in Hc.
  pose proof (Z.mul_nonneg_nonneg _ _ (zlen_nonneg rest) (Z.lt_le_incl _ _ Hpos)) as Hn.
  replace (attempt l (Some c) a now) with (attempt l None a now) by (symmetry; apply walk_patient; [exact Hpos|lia]).
  destruct (attempt_bounded l None a now Hpos) as (f & ph & t & -> & Ht).
  replace (ctx_dead_at (Some c) t) with (ctx_dead_at None t) by (cbn [ctx_dead_at]; lia).
  rewrite IH by lia. reflexivity.
Qed.
Theorem patient_caller l c q al t0 :
  0 < l_total l -> t0 + zlen al * l_total l < c ->
  tclient H l (Some c) q al t0 = tclient H l None q al t0.
Proof. intros Hpos Hc. rewrite !tclient_loop. apply tloop_patient; assumption. Qed.

Lemma genuine_reply_at l q a : genuine_bytes H q (reply_at l a) = spec_good H l q a.
Proof.
  unfold spec_good, genuine_bytes, delivered, reply_at, deliver. cbn [r_transport r_http r_parses r_rest r_status r_stamp].
  rewrite answered_spec. destruct (spec_in_time l (a_tls a) (a_script a)); reflexivity.
Qed.
Lemma spec_client_timed l q : forall al i,
  spec_client (genuine_bytes H q) (map (reply_at l) al) i = spec_timed (spec_good H l q) al i.
Proof.
  induction al as [|a rest IH]; intros i; [reflexivity|].
  cbn [map spec_client spec_timed]. rewrite genuine_reply_at, IH. reflexivity.
Qed.

Lemma spec_timed_none_hits (good : authority -> bool) : forall al i h,
  spec_timed good al i = (None, h) -> h = upto i (length al).
Proof.
  induction al as [|a rest IH]; intros i h S; cbn [spec_timed] in S.
  - injection S as <-. reflexivity.
  - destruct (good a); [discriminate|].
    destruct (spec_timed good rest (i + 1)) as [x h'] eqn:S'. injection S as -> <-.
    cbn [length upto]. f_equal. apply (IH _ _ S').
Qed.

Theorem timed_failover_spec l q al t0 :
  0 < l_total l -> q_legacy q = false -> al <> [] ->
  match spec_timed (spec_good H l q) al 0 with
  | (Some s, h) => exists t hits, tclient H l None q al t0 = (TRet (Ok s) t, hits) /\ map fst hits = h
  | (None, h) => exists e t hits, tclient H l None q al t0 = (TRet (Err e) t, hits) /\ map fst hits = h /\ h = upto 0 (length al)
  end.
Proof.
  intros Hpos Hleg Hne.
  destruct (timed_refines_untimed l q al t0 Hpos) as (t & hits & E & Hh & _).
  assert (Hne' : map (reply_at l) al <> []) by (destruct al; [congruence|discriminate]).
  assert (Hctx : forall r, In r (map (reply_at l) al) -> r_ctx_dead r = false).
  { intros r Hin. apply in_map_iff in Hin as (a & <- & _). reflexivity. }
  pose proof (failover_in_order H q (map (reply_at l) al) Hleg Hctx Hne') as F.
  rewrite spec_client_timed in F.
  destruct (spec_timed (spec_good H l q) al 0) as [[s|] h] eqn:S.
  - rewrite F in E, Hh. exists t, hits. split; assumption.
  - destruct F as [e F]. rewrite F in E, Hh. exists e, t, hits. repeat split; try assumption.
    apply (spec_timed_none_hits _ _ _ _ S).
Qed.

Lemma spec_timed_app (good : authority -> bool) bad g rest : forall i,
  (forall a, In a bad -> good a = false) -> good g = true ->
  spec_timed good (bad ++ g :: rest) i = (Some (r_stamp (a_reply g)), upto i (S (length bad))).
Proof.
  induction bad as [|b bad IH]; intros i Hb Hg; cbn [app spec_timed length upto].
  - rewrite Hg. reflexivity.
  - rewrite (Hb b (or_introl eq_refl)). rewrite (IH (i + 1) (fun a Hin => Hb a (or_intror Hin)) Hg). reflexivity.
Qed.

Theorem no_behaviour_blocks_later l q bad g rest t0 :
  0 < l_total l -> q_legacy q = false ->
  (forall a, In a bad -> spec_good H l q a = false) -> spec_good H l q g = true ->
  exists t hits, tclient H l None q (bad ++ g :: rest) t0 = (TRet (Ok (r_stamp (a_reply g))) t, hits) /\
                 map fst hits = upto 0 (S (length bad)) /\
                 t0 <= t <= t0 + Z.of_nat (S (length bad)) * l_total l.
Proof.
  intros Hpos Hleg Hb Hg.
  pose proof (timed_failover_spec l q (bad ++ g :: rest) t0 Hpos Hleg ltac:(destruct bad; discriminate)) as F.
  rewrite (spec_timed_app _ bad g rest 0 Hb Hg) in F. destruct F as (t & hits & E & Hh).
  exists t, hits. split; [exact E|]. split; [exact Hh|].
  (* the time bound: one limit for each authority asked *)
  destruct (timed_client_returns l None q (bad ++ g :: rest) t0 Hpos) as (r' & t' & hits' & E' & T & _).
  rewrite E in E'. injection E' as _ <- <-.
  pose proof (timeline_end (l_total l) hits 0 t0 t T) as B.
  rewrite <- (map_length fst hits), Hh, length_upto in B. exact B.
Qed.

End Loop.

(* the client is ALWAYS under a positive overall limit that covers the body read: http.Client.Timeout (or a per-attempt
   context deadline) is timestamp.timeout seconds, and a default of 60 s when that is unset, zero or negative.  Re-proved
   on every run from the generated definitions; a client built with connect / handshake / header timeouts only, or one
   whose limit vanishes for some configured value, does not satisfy it. *)
Lemma limit_value ct : l_total (limits_of ct) = if 0 <? ct then 1000000000 * ct else 60 * 1000000000.
Proof.
  unfold limits_of, do_uses_configured_client, client_timeout_ns, attempt_ctx_timeout_ns, pos_min, dur. cbn [l_total Z.ltb Z.compare].
  destruct (0 <? ct) eqn:C; destruct (1000000000 * ct <=? 0) eqn:D; try lia; [destruct (0 <? 1000000000 * ct) eqn:P; lia|reflexivity].
Qed.
Lemma limit_positive ct : 0 < l_total (limits_of ct).
Proof. rewrite limit_value. destruct (0 <? ct) eqn:C; lia. Qed.

Lemma timing_source_reviewed :
  ts_loop_header = reviewed_loop_header /\ ts_loop_attempts = reviewed_loop_attempts /\ ts_loop_exits = reviewed_loop_exits /\
  ts_context_derivations = [] /\ do_request_ctx = 0 /\ do_uses_configured_client = true /\
  limiter_order = [0; 1] /\ limiter_passes_ctx_and_request = true /\
  all_known known_client_fields client_fields = true /\ all_known known_transport_fields transport_fields = true /\
  all_known known_dialer_fields dialer_fields = true.
Proof. repeat split; reflexivity. Qed.

Definition SEC := 1000000000.
Definition w_tgood (id : Z) : reply := w_reply (w_stamp id (Some 7) 3) 0.
Definition w_answer (id d : Z) : authority := mkAuth false [(0, EvConnected); (d, EvHeaders); (0, EvBytes 1500); (0, EvEnd)] (w_tgood id).
Definition w_stall_after_headers (id : Z) : authority := mkAuth false [(0, EvConnected); (5000000, EvHeaders)] (w_tgood id).
Definition w_hang (id : Z) : authority := mkAuth false [(0, EvConnected)] (w_tgood id).
Definition w_drip (id : Z) : authority :=
  mkAuth false ((0, EvConnected) :: (1000000, EvHeaders) :: repeat (300000000, EvBytes 1) 8 ++ [(0, EvEnd)]) (w_tgood id).
Definition w_torn (id : Z) : authority := mkAuth false [(0, EvConnected); (1000000, EvHeaders); (1000000, EvBytes 700); (2000000, EvAbort)] (w_tgood id).
