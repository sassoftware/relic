(* C10/ChainProofs.v — history independence of chain verification, and what a fresh verification decides. *)
From Coq Require Import String.
From Relic Require Import Base.Prelude Generated.C10_gen C10.ChainIR C10.Model C10.Proofs C10.Chain.
From Coq Require Import Btauto.

Lemma eval_c_stateless e r c : cond_stateless c = true -> forall s s', eval_c e r s c = eval_c e r s' c.
Proof.
  induction c; cbn [cond_stateless eval_c]; intros Hs s s'; try reflexivity; try discriminate.
  - rewrite (IHc Hs s s'). reflexivity.
  - apply andb_true_iff in Hs as [H1 H2]. rewrite (IHc1 H1 s s'), (IHc2 H2 s s'). reflexivity.
  - apply andb_true_iff in Hs as [H1 H2]. rewrite (IHc1 H1 s s'), (IHc2 H2 s s'). reflexivity.
Qed.

(* a function of (call, process state) whose result does not depend on the state and which leaves the state alone *)
Definition sigma_indep (f : env -> store -> result unit * store) : Prop :=
  forall e s, f e s = (fst (f e []), s).

Lemma exec_stateless callf :
  (forall f, sigma_indep (callf f)) ->
  forall p, stateless p = true ->
  forall e r s, exec callf p e r s = (fst (exec callf p e r []), s).
Proof.
  intros Hc. induction p; cbn [stateless]; intros Hs e r s; try discriminate; try reflexivity; cbn [exec].
  - (* SSeq: whatever state the first half leaves behind, the second half ignores it *)
    apply andb_true_iff in Hs as [H1 H2]. rewrite (IHp1 H1 e r s).
    destruct (exec callf p1 e r []) as [[[res|] r'] s0]; cbn [fst]; [reflexivity|].
    rewrite (IHp2 H2 e r' s), (IHp2 H2 e r' s0). reflexivity.
  - (* SIf *)
    apply andb_true_iff in Hs as [H12 H3]. apply andb_true_iff in H12 as [H1 H2].
    rewrite (eval_c_stateless e r c H1 s []).
    destruct (eval_c e r [] c) as [[|]|x|x]; [apply IHp1, H2|apply IHp2, H3|reflexivity..].
  - (* SVerify *)
    destruct (eval_t e r t); reflexivity.
  - (* SCall *)
    destruct (callee_env e r f roots extra u t) as [e'|x|x]; try reflexivity.
    rewrite (Hc f e' s). destruct (callf f e' []) as [[] s0]; reflexivity.
  - (* SSetTime *)
    destruct (eval_t e r t); reflexivity.
  - (* SRetCall *)
    destruct (callee_env e r f roots extra u t) as [e'|x|x]; try reflexivity.
    rewrite (Hc f e' s). destruct (callf f e' []); reflexivity.
Qed.

Lemma run_prog_stateless callf p :
  (forall f, sigma_indep (callf f)) -> stateless p = true -> sigma_indep (run_prog callf p).
Proof.
  intros Hc Hs e s. unfold run_prog. rewrite (exec_stateless callf Hc p Hs e (mkRegs false 0) s).
  destruct (exec callf p e (mkRegs false 0) []) as [[[res|] r'] s0]; reflexivity.
Qed.

(* re-checked by computation on what srcgen read from the source *)
Lemma programs_stateless : stateless vc7_prog && stateless vc9cs_prog && stateless vc9ts_prog = true.
Proof. reflexivity. Qed.

Lemma no_call_indep f : sigma_indep (no_call f).
Proof. intros e s. reflexivity. Qed.
Lemma run7_indep : sigma_indep run7.
Proof. apply run_prog_stateless; [exact no_call_indep|reflexivity]. Qed.
Lemma call9cs_indep f : sigma_indep (call9cs f).
Proof. destruct f; [exact run7_indep | exact (no_call_indep F9cs)]. Qed.
Lemma run9cs_indep : sigma_indep run9cs.
Proof. apply run_prog_stateless; [exact call9cs_indep|reflexivity]. Qed.
Lemma call9ts_indep f : sigma_indep (call9ts f).
Proof. destruct f; [exact run7_indep | exact run9cs_indep]. Qed.
Lemma run9ts_indep : sigma_indep run9ts.
Proof. apply run_prog_stateless; [exact call9ts_indep|reflexivity]. Qed.

Theorem verify_step_fresh s c : verify_step s c = (fresh c, s).
Proof. apply run9ts_indep. Qed.

(* every history: each verdict equals the verdict of the same single verification done first in a fresh process *)
Theorem history_independent h : forall s, verify_seq s h = (map fresh h, s).
Proof.
  induction h as [|c rest IH]; intros s; cbn [verify_seq map]; [reflexivity|].
  rewrite verify_step_fresh, IH. reflexivity.
Qed.

(* the verdict at a position of a history is the fresh verdict of the verification standing there *)
Lemma seq_nth_fresh h s i c v :
  nth_error h i = Some c -> nth_error (fst (verify_seq s h)) i = Some v -> fresh c = v.
Proof.
  intros Hc Hv. rewrite history_independent in Hv. cbn [fst] in Hv.
  rewrite nth_error_map, Hc in Hv. injection Hv as Hv. exact Hv.
Qed.

Lemma path_ok_app_comm leaf a b roots t us : path_ok leaf (a ++ b) roots t us = path_ok leaf (b ++ a) roots t us.
Proof. unfold path_ok. rewrite !existsb_app, (orb_comm (existsb _ a)). reflexivity. Qed.
Lemma path_ok_win leaf inter roots t us : path_ok leaf inter roots t us = true -> win leaf t = true.
Proof. unfold path_ok. intros H. apply andb_true_iff in H as [H _]. apply andb_true_iff in H as [H _]. exact H. Qed.

(* Each generated program is evaluated once, on an arbitrary call, and its callers rewrite with the result: evaluating
   the three nested in one another is much slower to check. *)
Lemma run7_value e s :
  run7 e s =
  (if x509_verify (e_now e) (o_leaf (e_self e)) (e_extra e ++ o_inter (e_self e)) (e_roots e) (e_tparam e) [e_usage e]
   then Ok tt else Err E_CHAIN, s).
Proof.
  unfold run7, run_prog, vc7_prog. cbn [exec eval_t eval_r eval_i eval_u flat_map map app]. rewrite app_nil_r.
  destruct (x509_verify _ _ _ _ _ _); cbn [exec eval_c g_failed negb bind]; [reflexivity|].
  (* the two conditions the translator left opaque only choose between two returns of the same error *)
  destruct (e_opq e _); [destruct (e_opq e _)|]; reflexivity.
Qed.
#[local] Arguments run7 : simpl never.

Lemma run9cs_value e s c :
  e_cs e = Some c ->
  run9cs e s =
  (if x509_verify (e_now e) (o_leaf (e_self e)) (e_extra e ++ o_inter (e_self e)) (e_roots e) (cs_time c) [8]
   then Ok tt else Err E_CHAIN, s).
Proof.
  intros Hc. unfold run9cs, run_prog, vc9cs_prog. cbn [exec callee_env eval_t]. rewrite Hc. cbn [bind call9cs].
  rewrite run7_value. cbn. rewrite app_nil_r. reflexivity.
Qed.
#[local] Arguments run9cs : simpl never.

(* closed form of the verdict of a fresh process, read off the generated programs *)
Definition fresh_value (c : vcall) : result unit :=
  let roots := p_roots (v_roots c) in
  match v_cs c with
  | None =>
      if path_ok (o_leaf (v_sig c)) (v_extra c ++ o_inter (v_sig c)) roots (eff_time 0 (v_now c)) [v_usage c]
      then Ok tt else Err E_CHAIN
  | Some cs =>
      if path_ok (o_leaf (cs_sig cs)) (v_extra c ++ o_inter (cs_sig cs)) roots (eff_time (cs_time cs) (v_now c)) [8]
      then if path_ok (o_leaf (v_sig c)) (v_extra c ++ o_inter (v_sig c)) roots (eff_time (cs_time cs) (v_now c)) [v_usage c]
           then Ok tt else Err E_CHAIN
      else Err E_CHAIN_TSA
  end.

Lemma fresh_closed_form c : fresh c = fresh_value c.
Proof.
  unfold fresh, verify_step, run9ts, run_prog, vc9ts_prog, fresh_value.
  destruct c as [roots extra usage now sig [cs|] opqf]; cbn -[path_ok eff_time].
  - rewrite (run9cs_value _ _ cs) by reflexivity. cbn -[path_ok eff_time]. rewrite !app_nil_r.
    destruct (path_ok _ _ _ _ _); cbn -[path_ok eff_time]; [|reflexivity].
    rewrite run7_value. cbn -[path_ok eff_time]. destruct (path_ok _ _ _ _ _); reflexivity.
  - rewrite run7_value. cbn -[path_ok eff_time]. rewrite app_nil_r. destruct (path_ok _ _ _ _ _); reflexivity.
Qed.

(* the property for one fresh verification; seq_expired_needs_timestamp carries it to every position of every history *)
Lemma fresh_expired_needs_timestamp c :
  fresh c = Ok tt ->
  x_na (o_leaf (v_sig c)) < v_now c ->
  exists cs, v_cs c = Some cs /\ cs_time cs <> 0 /\
    win (o_leaf (v_sig c)) (cs_time cs) = true /\
    path_ok (o_leaf (cs_sig cs)) (v_extra c ++ o_inter (cs_sig cs)) (p_roots (v_roots c)) (cs_time cs) [8] = true /\
    path_ok (o_leaf (v_sig c)) (v_extra c ++ o_inter (v_sig c)) (p_roots (v_roots c)) (cs_time cs) [v_usage c] = true.
Proof.
  rewrite fresh_closed_form. unfold fresh_value. intros Hv Hexp.
  (* judged now — without a countersignature, or with one whose attested time is zero — the expired leaf fails *)
  assert (Hnow : forall inter roots us, path_ok (o_leaf (v_sig c)) inter roots (eff_time 0 (v_now c)) us <> true).
  { intros inter roots us P. apply path_ok_win in P. unfold win, eff_time in P. cbn [Z.eqb] in P. lia. }
  destruct (v_cs c) as [cs|].
  - exists cs. split; [reflexivity|].
    destruct (path_ok (o_leaf (cs_sig cs)) _ _ _ _) eqn:P1; [|discriminate].
    destruct (path_ok (o_leaf (v_sig c)) _ _ _ _) eqn:P2; [|discriminate].
    assert (Hnz : cs_time cs <> 0) by (intros Hz; rewrite Hz in P2; exact (Hnow _ _ _ P2)).
    rewrite (eff_time_nz _ _ Hnz) in P1, P2. pose proof (path_ok_win _ _ _ _ _ P2). auto.
  - destruct (path_ok _ _ _ _ _) eqn:P; [destruct (Hnow _ _ _ P)|discriminate].
Qed.

(* in any history of verifications in one process, at any position: an expired signer certificate is accepted only
   with a countersignature whose attested time lies within the certificate's lifetime and whose authority chain is
   valid, for the timeStamping purpose, at that time *)
Theorem seq_expired_needs_timestamp h s i c :
  nth_error h i = Some c ->
  nth_error (fst (verify_seq s h)) i = Some (Ok tt) ->
  x_na (o_leaf (v_sig c)) < v_now c ->
  exists cs, v_cs c = Some cs /\ cs_time cs <> 0 /\
    win (o_leaf (v_sig c)) (cs_time cs) = true /\
    path_ok (o_leaf (cs_sig cs)) (v_extra c ++ o_inter (cs_sig cs)) (p_roots (v_roots c)) (cs_time cs) [8] = true /\
    path_ok (o_leaf (v_sig c)) (v_extra c ++ o_inter (v_sig c)) (p_roots (v_roots c)) (cs_time cs) [v_usage c] = true.
Proof. intros Hc Hv. apply fresh_expired_needs_timestamp. exact (seq_nth_fresh h s i c _ Hc Hv). Qed.

Theorem state_inventory_reviewed :
  mutable_state_pkcs7 = reviewed_state_pkcs7 /\ mutable_state_pkcs9 = reviewed_state_pkcs9 /\
  mutable_state_x509tools = reviewed_state_x509tools.
Proof. repeat split; reflexivity. Qed.

(* agreement with the single-verification model (Model.verify_chain) for directly issued certificates (no
   intermediates): the abstraction under which Properties.fresh_refines_verify_chain compares the two models *)
Definition abs_cert (c : xcert) (roots : list Z) (us : list Z) : cert :=
  mkCert (x_nb c) (x_na c) (memz (x_issuer c) roots && usages_ok us c) (eku_ok 8 c).

Lemma path_ok_direct leaf roots t us :
  path_ok leaf [] roots t us = chain_ok (abs_cert leaf roots us) t.
Proof. unfold path_ok, chain_ok, abs_cert, win. cbn [existsb c_trusted c_nb c_na]. btauto. Qed.

(* witnesses for Properties.timeblind_memo_refuted: a time-blind memo is not history independent *)
Definition w_root : Z := 1.
Definition w_pool : pool := mkPool 77 [w_root].
Definition w_leaf : xcert := mkX 10 100 200 w_root [3].                 (* code signing, valid 100..200 *)
Definition w_tsa : xcert := mkX 20 0 1000 w_root [8].
Definition w_call (cs : option Z) : vcall :=
  mkCall w_pool [] 0 300 (mkSobj w_leaf [])
    (match cs with Some t => Some (mkCs (mkSobj w_tsa []) t) | None => None end) (fun _ => false).
