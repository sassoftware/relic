(* C10/Proofs.v — lemmas about the timestamp model: what one attempt accepts, the failover loop, verification of a
   stamp, chain time, attaching. *)
From Relic Require Import Base.Prelude Base.Slice Generated.C10_gen C10.Model.
From Coq Require Import Btauto.

Lemma nonce_mismatch_spec hn a b : nonce_mismatch true hn a b = negb hn || negb (b =? a).
Proof.
  unfold nonce_mismatch, cmp3. cbn [andb]. f_equal.
  destruct (Z.compare_spec a b) as [E|E|E]; cbn; destruct (b =? a) eqn:F; try reflexivity; lia.
Qed.

Lemma resp_denied_spec r : resp_denied (r_status r) = negb (granted r).
Proof. unfold resp_denied, granted. lia. Qed.

Fixpoint upto (i : Z) (n : nat) : list Z :=
  match n with O => [] | S n' => i :: upto (i + 1) n' end.

Lemma length_upto n : forall i, length (upto i n) = n.
Proof. induction n as [|n IH]; intros i; cbn [upto length]; [|rewrite IH]; reflexivity. Qed.

Lemma nth_error_In' {A} (l : list A) k x : nth_error l k = Some x -> In x l.
Proof. apply nth_error_In. Qed.

Lemma eff_time_nz t now : t <> 0 -> eff_time t now = t.
Proof. unfold eff_time. intros Hnz. destruct (t =? 0) eqn:E; [lia | reflexivity]. Qed.

Lemma verify_chain_none now leaf :
  is_ok (verify_chain now leaf None) = chain_ok leaf now.
Proof. unfold verify_chain, vc_has_countersig, eff_time. cbn. destruct (chain_ok leaf now); reflexivity. Qed.

Lemma verify_chain_some now leaf t tsa :
  is_ok (verify_chain now leaf (Some (t, tsa))) =
  chain_ok tsa (eff_time t now) && c_ts_eku tsa && chain_ok leaf (eff_time t now).
Proof.
  unfold verify_chain, vc_has_countersig, cs_chain_judged_at_cs_time_with_ts_eku, vc_bad_tsa_chain_is_error,
    vc_leaf_judged_at_signing_time, vc_signing_time.
  destruct (chain_ok tsa (eff_time t now)); cbn [negb andb]; [|reflexivity].
  destruct (c_ts_eku tsa); cbn [negb andb]; [|reflexivity].
  destruct (chain_ok leaf (eff_time t now)); reflexivity.
Qed.

Lemma verify_chain_no_panic now leaf cs p : verify_chain now leaf cs <> Panic p.
Proof.
  unfold verify_chain, vc_has_countersig, vc_bad_tsa_chain_is_error. destruct cs as [[t tsa]|].
  - destruct (negb _); [discriminate|]. destruct (chain_ok _ _); discriminate.
  - destruct (chain_ok _ _); discriminate.
Qed.

Lemma chain_ok_window c t : chain_ok c t = c_trusted c && in_window c t.
Proof. unfold chain_ok, in_window. btauto. Qed.

Section Proofs.
Variable H : Z -> bytes -> bytes.

Definition accepts (q : request) (r : reply) : bool := is_ok (ts_do H q r).

(* what an attempt accepts, in the specification's words.  RFC 3161: the reply is delivered, granted, well signed, echoes
   the nonce and carries the digest of the signature value.  Legacy: it is delivered and parses — nothing about the
   token is checked *)
Definition passes (q : request) (r : reply) : bool :=
  if q_legacy q then delivered_legacy r else genuine_bytes H q r.

Lemma ts_do_spec q r :
  match ts_do H q r with
  | Ok t => t = r_stamp r /\ passes q r = true
  | Err _ => passes q r = false
  | Panic _ => False
  end.
Proof.
  unfold ts_do, passes, do_parse_legacy, http_bad. destruct (q_legacy q) eqn:Hleg.
  - unfold parse_legacy, delivered_legacy.
    destruct (r_transport r); [|reflexivity]. destruct (r_http r =? 200); [|reflexivity].
    destruct (r_parses r); [split|]; reflexivity.
  - unfold parse_response, genuine_bytes, delivered, resp_trailing. rewrite resp_denied_spec.
    destruct (r_transport r); [|reflexivity]. destruct (r_http r =? 200); [|reflexivity].
    destruct (r_parses r); [|reflexivity]. destruct (r_rest r =? 0); [|reflexivity].
    destruct (granted r); [|reflexivity]. cbn [negb andb].
    unfold sanity_check, sanity_order, well_signed, echoes, imprint_bytes_match. cbn [run_steps].
    unfold sanity_step, info_empty, content_len, has_nonce, nonce_val. cbn [Z.eqb Pos.eqb].
    destruct (st_has_content (r_stamp r)); [|reflexivity].
    destruct (st_sig_ok (r_stamp r)); [|destruct (st_info_ok (r_stamp r)); reflexivity].
    destruct (st_info_ok (r_stamp r)); [|reflexivity]. cbn [andb bind Z.eqb].
    rewrite nonce_mismatch_spec. destruct (st_nonce (r_stamp r)) as [n|]; [|reflexivity].
    destruct (n =? q_nonce q); [|reflexivity]. cbn [negb orb bind].
    unfold imprint_mismatch, request_imprint, imprint_is_hashed. rewrite Hleg. cbn [negb].
    destruct (bytes_eqb (st_hashed (r_stamp r)) (H (q_alg q) (q_sig q))); [split|]; reflexivity.
Qed.

Lemma ts_do_no_transport q r : r_transport r = false -> ts_do H q r = Err E_TRANSPORT.
Proof. intros E. unfold ts_do. rewrite E. reflexivity. Qed.

Lemma ts_do_no_panic q r p : ts_do H q r <> Panic p.
Proof. intros E. pose proof (ts_do_spec q r) as S. rewrite E in S. exact S. Qed.

Lemma ts_do_ok_stamp q r t : ts_do H q r = Ok t -> t = r_stamp r.
Proof. intros E. pose proof (ts_do_spec q r) as S. rewrite E in S. apply S. Qed.

Lemma accepts_passes q r : accepts q r = passes q r.
Proof.
  unfold accepts. pose proof (ts_do_spec q r) as S.
  destruct (ts_do H q r); [destruct S as [_ S]| |contradiction]; rewrite S; reflexivity.
Qed.

Lemma accepts_rfc q r : q_legacy q = false -> accepts q r = genuine_bytes H q r.
Proof. intros Hleg. rewrite accepts_passes. unfold passes. rewrite Hleg. reflexivity. Qed.

Lemma accepts_ok q r : accepts q r = true -> ts_do H q r = Ok (r_stamp r).
Proof.
  unfold accepts. intros A. destruct (ts_do H q r) as [t| |] eqn:D; try discriminate.
  rewrite (ts_do_ok_stamp q r t D). reflexivity.
Qed.

(* one turn of the loop.  The code handed on is used only when no authority is left *)
Lemma ts_loop_cons q r rest i last :
  ts_loop H q (r :: rest) i last =
  if accepts q r || r_ctx_dead r then (ts_do H q r, [i])
  else let '(x, h) := ts_loop H q rest (i + 1) (match ts_do H q r with Err e => e | _ => 0 end) in (x, i :: h).
Proof.
  cbn [ts_loop]. unfold accepts. pose proof (ts_do_no_panic q r) as N.
  destruct (ts_do H q r) as [t|e|p]; [reflexivity| |destruct (N p eq_refl)].
  unfold loop_returns_token, loop_stops_on_ctx, failed. cbn [is_ok negb orb]. destruct (r_ctx_dead r); reflexivity.
Qed.

(* an empty list of authorities is the loop that ends at once, with its own error code *)
Lemma ts_client_loop q rs : ts_client H q rs = ts_loop H q rs 0 E_EMPTY.
Proof. destruct rs; reflexivity. Qed.

Lemma ts_loop_no_panic q rs : forall i last p, fst (ts_loop H q rs i last) <> Panic p.
Proof.
  induction rs as [|r rest IH]; intros i last p; [discriminate|].
  rewrite ts_loop_cons. destruct (accepts q r || r_ctx_dead r); [apply ts_do_no_panic|].
  specialize (IH (i + 1) (match ts_do H q r with Err e => e | _ => 0 end) p).
  destruct (ts_loop H q rest (i + 1) _). exact IH.
Qed.

Lemma ts_loop_ok q rs : forall i last t hits,
  ts_loop H q rs i last = (Ok t, hits) ->
  exists k r, nth_error rs k = Some r /\ t = r_stamp r /\ accepts q r = true /\ hits = upto i (S k) /\
    forall j r', (j < k)%nat -> nth_error rs j = Some r' -> accepts q r' = false.
Proof.
  induction rs as [|r rest IH]; intros i last t hits E; [discriminate|].
  rewrite ts_loop_cons in E. destruct (accepts q r || r_ctx_dead r) eqn:A.
  - injection E as D <-. exists 0%nat, r. unfold accepts. rewrite D.
    repeat split; [exact (ts_do_ok_stamp q r t D)|]. intros j r' Hj. lia.
  - apply orb_false_iff in A as [A _].
    destruct (ts_loop H q rest (i + 1) _) as [x h] eqn:L. injection E as -> <-.
    destruct (IH _ _ _ _ L) as (k & r0 & Hn & Ht & Ha & -> & Hb).
    exists (S k), r0. repeat split; auto. intros [|j] r' Hj Hnth.
    + injection Hnth as <-. exact A.
    + apply (Hb j r'); [lia|exact Hnth].
Qed.

Lemma ts_client_ok q rs t hits :
  ts_client H q rs = (Ok t, hits) ->
  exists k r, nth_error rs k = Some r /\ t = r_stamp r /\ accepts q r = true /\ hits = upto 0 (S k) /\
    forall j r', (j < k)%nat -> nth_error rs j = Some r' -> accepts q r' = false.
Proof. rewrite ts_client_loop. apply ts_loop_ok. Qed.

Theorem attached_only_if_genuine q rs t hits :
  q_legacy q = false ->
  ts_client H q rs = (Ok t, hits) ->
  exists k r, nth_error rs k = Some r /\ t = r_stamp r /\ genuine_bytes H q r = true /\ hits = upto 0 (S k) /\
    forall j r', (j < k)%nat -> nth_error rs j = Some r' -> genuine_bytes H q r' = false.
Proof.
  intros Hleg E. destruct (ts_client_ok _ _ _ _ E) as (k & r & Hn & Ht & Ha & Hh & Hb).
  exists k, r. rewrite <- (accepts_rfc q r Hleg). repeat split; auto.
  intros j r' Hj Hnj. rewrite <- (accepts_rfc q r' Hleg). exact (Hb j r' Hj Hnj).
Qed.

(* completeness: while the caller's context stays alive the loop is "first acceptable authority in order" *)
Lemma ts_loop_complete q rs : forall i last,
  (forall r, In r rs -> r_ctx_dead r = false) ->
  match spec_client (accepts q) rs i with
  | (Some t, h) => ts_loop H q rs i last = (Ok t, h)
  | (None, h) => exists e, ts_loop H q rs i last = (Err e, h)
  end.
Proof.
  induction rs as [|r rest IH]; intros i last Hctx; [exists last; reflexivity|].
  rewrite ts_loop_cons, (Hctx r (or_introl eq_refl)), orb_false_r. cbn [spec_client].
  destruct (accepts q r) eqn:A; [rewrite (accepts_ok q r A); reflexivity|].
  specialize (IH (i + 1) (match ts_do H q r with Err e => e | _ => 0 end) (fun r0 Hin => Hctx r0 (or_intror Hin))).
  destruct (spec_client (accepts q) rest (i + 1)) as [[t|] h].
  - rewrite IH. reflexivity.
  - destruct IH as [e ->]. exists e. reflexivity.
Qed.

Lemma spec_client_ext (g1 g2 : reply -> bool) rs : forall i,
  (forall r, In r rs -> g1 r = g2 r) -> spec_client g1 rs i = spec_client g2 rs i.
Proof.
  induction rs as [|r rest IH]; intros i Hext; [reflexivity|].
  cbn [spec_client]. rewrite (Hext r (or_introl eq_refl)).
  rewrite (IH (i + 1) (fun r0 Hin => Hext r0 (or_intror Hin))). reflexivity.
Qed.

Theorem failover_in_order q rs :
  q_legacy q = false ->
  (forall r, In r rs -> r_ctx_dead r = false) ->             (* the caller's context stays alive *)
  rs <> [] ->
  match spec_client (genuine_bytes H q) rs 0 with
  | (Some t, h) => ts_client H q rs = (Ok t, h)
  | (None, h) => exists e, ts_client H q rs = (Err e, h)
  end.
Proof.
  intros Hleg Hctx _. rewrite ts_client_loop.
  rewrite <- (spec_client_ext (accepts q) (genuine_bytes H q) rs 0) by (intros r _; apply accepts_rfc, Hleg).
  apply ts_loop_complete. exact Hctx.
Qed.

(* a stamp verifies, with its attested time as the result, exactly when the specification calls it valid; otherwise the
   outcome is an ordinary error.  The checks are taken in the order of the code, one form of stamp after the other *)
Lemma verify_stamp_spec st data :
  match verify_stamp H st data with
  | Ok t => t = st_time st /\ stamp_valid H st data = true
  | Err _ => stamp_valid H st data = false
  | Panic _ => False
  end.
Proof.
  unfold verify_stamp, stamp_valid, covers, imprint_verify, signer_count_bad, imprint_verify_bad, ms_content_bad,
    info_empty, content_len.
  destruct (st_form st =? 0) eqn:F0.
  - replace (st_form st =? 1) with false by lia.
    destruct (st_nsigners st =? 1); [|cbn; btauto].
    destruct (st_has_content st); [|cbn; btauto].
    destruct (st_info_ok st); [|cbn; btauto].
    destruct (known_alg (st_alg st)); [|cbn; btauto].
    rewrite (bytes_eqb_sym (H (st_alg st) data)).
    destruct (bytes_eqb (st_hashed st) (H (st_alg st) data)); [|reflexivity].
    destruct (st_sig_ok st); [|reflexivity].
    destruct (st_time_ok st); [split|]; reflexivity.
  - destruct (st_form st =? 1).
    + destruct (st_has_content st); [|cbn; btauto].
      destruct (st_sig_ok st); [|cbn; btauto].
      destruct (bytes_eqb (st_hashed st) data); [|reflexivity].
      destruct (st_time_ok st); [split|]; reflexivity.
    + destruct (known_alg (st_alg st)); [|cbn; btauto].
      destruct (bytes_eqb (st_hashed st) (H (st_alg st) data)); [|reflexivity].
      destruct (st_sig_ok st); [|reflexivity].
      destruct (st_time_ok st); [split|]; reflexivity.
Qed.

Theorem countersig_binds st data t :
  verify_stamp H st data = Ok t ->
  covers H st data = true /\ st_sig_ok st = true /\ t = st_time st.
Proof.
  intros E. pose proof (verify_stamp_spec st data) as S. rewrite E in S. destruct S as [Ht V].
  unfold stamp_valid in V. apply andb_true_iff in V as [V _]. apply andb_true_iff in V as [V _].
  apply andb_true_iff in V as [C S]. auto.
Qed.

Lemma verify_stamp_ok_iff st data :
  is_ok (verify_stamp H st data) = stamp_valid H st data.
Proof.
  pose proof (verify_stamp_spec st data) as S.
  destruct (verify_stamp H st data); [destruct S as [_ S]| |contradiction]; rewrite S; reflexivity.
Qed.

Lemma verify_stamp_no_panic st data p : verify_stamp H st data <> Panic p.
Proof. intros E. pose proof (verify_stamp_spec st data) as S. rewrite E in S. exact S. Qed.

(* acceptance in closed form: the stamp is valid and both chains hold at the effective attested time *)
Lemma accepted_closed now s :
  accepted H now s =
  match s_stamp s with
  | Some st =>
      stamp_valid H st (s_value s) &&
      (chain_ok (st_cert st) (eff_time (st_time st) now) && c_ts_eku (st_cert st) &&
       chain_ok (s_leaf s) (eff_time (st_time st) now))
  | None => chain_ok (s_leaf s) now
  end.
Proof.
  unfold accepted, verify_all. destruct (s_stamp s) as [st|]; [|apply verify_chain_none].
  pose proof (verify_stamp_spec st (s_value s)) as V.
  destruct (verify_stamp H st (s_value s)) as [t|e|p]; cbn [bind is_ok]; [|rewrite V; reflexivity|contradiction].
  destruct V as [-> ->]. apply verify_chain_some.
Qed.

Theorem expired_needs_timestamp now s :
  accepted H now s = true -> c_na (s_leaf s) < now ->
  exists st, s_stamp s = Some st /\ stamp_valid H st (s_value s) = true /\ st_time st <> 0 /\
    in_window (s_leaf s) (st_time st) = true /\
    chain_ok (st_cert st) (st_time st) = true /\ c_ts_eku (st_cert st) = true.
Proof.
  rewrite accepted_closed. intros Hacc Hexp. destruct (s_stamp s) as [st|]; [|unfold chain_ok in Hacc; lia].
  apply andb_true_iff in Hacc as [Hv Hacc]. apply andb_true_iff in Hacc as [Hacc Hleaf].
  apply andb_true_iff in Hacc as [Htsa Heku].
  (* a zero attested time would have the expired leaf judged now *)
  assert (Hnz : st_time st <> 0).
  { intros Hz. rewrite Hz in Hleaf. unfold eff_time, chain_ok in Hleaf. cbn [Z.eqb] in Hleaf. lia. }
  rewrite (eff_time_nz _ now Hnz) in Htsa, Hleaf. rewrite chain_ok_window in Hleaf.
  apply andb_true_iff in Hleaf as [_ Hwin]. exists st. auto 8.
Qed.

Lemma self_check_ok cls t sigv : cls <> 2 -> is_ok (self_check H cls t sigv) = stamp_valid H t sigv.
Proof.
  intros Hcls. unfold self_check. replace (cls =? 2) with false by lia.
  rewrite <- verify_stamp_ok_iff. destruct (verify_stamp H t sigv); reflexivity.
Qed.

(* a successful signing with a timestamper: the client returned a token and the self-check let it pass *)
Lemma sign_with_ts_ok cls q rs o hits :
  sign_with_ts H cls true q rs = (Ok o, hits) ->
  exists t, o = Some t /\ ts_client H q rs = (Ok t, hits) /\ is_ok (self_check H cls t (q_sig q)) = true.
Proof.
  unfold sign_with_ts, tam_uses_timestamper. destruct (ts_client H q rs) as [[t|e|p] h]; [|discriminate..].
  destruct (self_check H cls t (q_sig q)) eqn:S; [|discriminate..]. intros E. injection E as <- <-.
  exists t. rewrite S. auto.
Qed.

End Proofs.

(* witnesses where the faithful model violates the statement *)

Definition w_cert : cert := mkCert 100 200 true true.
Definition w_req : request := mkReq [1; 2; 3] 3 7 false.
Definition w_stamp (id : Z) (nonce : option Z) (alg : Z) : stamp :=
  mkStamp id 0 1 true true true nonce alg (Hsym 3 [1; 2; 3]) 150 true w_cert.
Definition w_reply (t : stamp) (status : Z) : reply := mkReply true 200 true 0 status t false.
Definition w_good : reply := w_reply (w_stamp 1 (Some 7) 3) 0.

(* F18b: the legacy reply is not checked by the client, so a bad token stops the failover; the attach step rejects it
   and signing fails although the second authority is genuine *)
Definition w_lreq : request := mkReq [1; 2; 3] 3 7 true.
Definition w_lstamp (id : Z) (content : bytes) : stamp :=
  mkStamp id 1 1 true true true None 3 content 150 true w_cert.
Theorem legacy_no_failover_refuted :
  exists q rs good, q_legacy q = true /\
    spec_client (genuine_legacy q) rs 0 = (Some good, [0; 1]) /\
    ts_client Hsym q rs = (Ok (w_lstamp 0 [9; 9; 9]), [0]) /\
    sign_with_ts Hsym 1 true q rs = (Err E_IMPRINT, [0]).
Proof.
  exists w_lreq, [w_reply (w_lstamp 0 [9; 9; 9]) 0; w_reply (w_lstamp 1 [1; 2; 3]) 0], (w_lstamp 1 [1; 2; 3]).
  vm_compute. auto.
Qed.

(* call orders the hand-written model relies on *)
Lemma orders_as_modelled :
  parse_response_order = [0; 1] /\ do_order = [0; 1; 2; 3; 4; 5] /\ legacy_parse_calls = [0; 1] /\
  tam_order = [0; 1; 2; 3; 4; 5] /\ verify_order = [0; 1; 2] /\ finish_verify_order = [0; 1].
Proof. repeat split; reflexivity. Qed.
