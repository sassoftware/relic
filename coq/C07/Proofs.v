(* C07/Proofs.v — what the history proofs, the OpenPGP proofs and C07/Properties.v share about C07/Model.v:
   SameKey, the loaders, the second guards, the signing sites, key lookup. *)
From Relic Require Import Base.Prelude Base.Slice Generated.C07_gen C07.Model.

Lemma zcmp_eqb a b : (zcmp a b =? 0) = (a =? b).
Proof. unfold zcmp. rewrite (Z.eqb_compare a b). now destruct (a ?= b). Qed.

Lemma pub_eqb_eq p q : pub_eqb p q = true <-> p = q.
Proof. destruct p, q; cbn; rewrite ?andb_true_iff, ?Z.eqb_eq; split; try discriminate; intuition congruence. Qed.
Lemma pub_eqb_refl p : pub_eqb p p = true.
Proof. now apply pub_eqb_eq. Qed.
Lemma pub_eqb_sym p q : pub_eqb p q = pub_eqb q p.
Proof. apply eq_true_iff_eq. rewrite !pub_eqb_eq. split; congruence. Qed.

Lemma vrfy_sig p k m : vrfy p m (mkSig k m) = pub_eqb p (k_pub k).
Proof. unfold vrfy. cbn. now rewrite Z.eqb_refl, andb_true_r. Qed.

(* a private key stands for its public half *)
Lemma same_key_norm a b : same_key a b = match pub_of a, pub_of b with
                                         | Some p, Some q => same_key (KPub p) (KPub q)
                                         | _, _ => false end.
Proof. destruct a as [ka|pa|], b as [kb|pb|]; try reflexivity; [destruct ka as [? []]|destruct pa]; reflexivity. Qed.

(* RSA keys are compared by (E, N), ECDSA keys by (X, Y): the curve is not looked at *)
Lemma same_key_pub p q :
  same_key (KPub p) (KPub q) = match p, q with
                               | PRsa n1 e1, PRsa n2 e2 => (e1 =? e2) && (n1 =? n2)
                               | PEc _ x1 y1, PEc _ x2 y2 => (x1 =? x2) && (y1 =? y2)
                               | _, _ => false end.
Proof. destruct p, q; try reflexivity; cbn; unfold same_key_rsa, same_key_ec; now rewrite !zcmp_eqb. Qed.

(* from here on SameKey is used through the two lemmas above *)
Arguments same_key : simpl never.

Lemma same_key_sound a b :
  same_key a b = true ->
  exists p q, pub_of a = Some p /\ pub_of b = Some q /\ supported p = true /\ (curve_ok p q = true -> p = q).
Proof.
  rewrite same_key_norm. destruct (pub_of a) as [p|], (pub_of b) as [q|]; try discriminate.
  rewrite same_key_pub. intro H. exists p, q. do 2 (split; [reflexivity|]).
  destruct p, q; try discriminate; apply andb_true_iff in H as [->%Z.eqb_eq ->%Z.eqb_eq]; (split; [reflexivity|]); cbn.
  - reflexivity.
  - rewrite !Z.eqb_refl. cbn. now intros ->%Z.eqb_eq.
Qed.

Lemma key_cert_equal key p :
  same_key (KPriv key) (KPub p) = true -> curve_ok (k_pub key) p = true -> pub_eqb p (k_pub key) = true.
Proof.
  intros (a & b & [= <-] & [= <-] & _ & E)%same_key_sound Hc. rewrite (E Hc). apply pub_eqb_refl.
Qed.

Lemma parse_certs_eq s :
  parse_certs s = if cs_bad s then Err E_PARSE else match cs_certs s with [] => Err E_NOCERTS | l :: r => Ok (l, l :: r) end.
Proof. unfold parse_certs. destruct (cs_bad s), (cs_certs s), (cs_der s); reflexivity. Qed.

Lemma load_x509_eq key s :
  load_x509 key s =
  if cs_bad s then Err E_PARSE else
  match cs_certs s with
  | [] => Err E_NOCERTS
  | l :: r => if same_key (KPriv key) (KPub (c_pub l)) then Ok (mkBundle (Some l) (l :: r) None (Some key)) else Err E_MISMATCH
  end.
Proof.
  unfold load_x509. rewrite parse_certs_eq. destruct (cs_bad s); [reflexivity|]. destruct (cs_certs s) as [|l r]; [reflexivity|].
  cbn [bind load_sets_private_key]. unfold load_x509_mismatch. now destruct (same_key _ _).
Qed.

Lemma load_x509_ok key s b :
  load_x509 key s = Ok b ->
  exists l r, cs_certs s = l :: r /\ b = mkBundle (Some l) (l :: r) None (Some key) /\
              same_key (KPriv key) (KPub (c_pub l)) = true.
Proof.
  rewrite load_x509_eq. destruct (cs_bad s); [discriminate|]. destruct (cs_certs s) as [|l r]; [discriminate|].
  destruct (same_key _ _) eqn:S; [|discriminate]. intros [= <-]. eauto.
Qed.

Definition curve_hyp (key : priv) (cs : list cert) : Prop := forall c, In c cs -> curve_ok (k_pub key) (c_pub c) = true.

(* the loader never panics, and what it returns is the file with its first certificate as leaf, which is one for the key *)
Lemma load_x509_cases key s :
  curve_hyp key (cs_certs s) ->
  (exists e, load_x509 key s = Err e) \/
  exists l r, cs_certs s = l :: r /\ pub_eqb (c_pub l) (k_pub key) = true /\
              load_x509 key s = Ok (mkBundle (Some l) (l :: r) None (Some key)).
Proof.
  rewrite load_x509_eq. destruct (cs_bad s); [eauto|]. destruct (cs_certs s) as [|l r]; [eauto|]. intro Hc.
  destruct (same_key _ _) eqn:S; [|eauto]. right. exists l, r. repeat split.
  apply key_cert_equal; [exact S|]. apply Hc. now left.
Qed.

(* LoadTokenCertificates: shape of every successful result *)
Lemma load_token_certs_ok key xc file xb blob pc ring b :
  load_token_certs key xc file xb blob pc ring = Ok b ->
  b_priv b = Some key /\
  (forall l, b_leaf b = Some l ->
     same_key (KPriv key) (KPub (c_pub l)) = true /\
     exists r, b_certs b = l :: r /\
       ((xc <> [] /\ exists s, file = Ok s /\ cs_certs s = l :: r) \/ (xc = [] /\ cs_certs blob = l :: r))) /\
  (forall e, b_pgp b = Some e ->
     same_key (KPriv key) (KPub (en_pub e)) = true /\ ring = Ok [e] /\ pc <> []).
Proof.
  unfold load_token_certs. intros (b0 & F & H)%bind_ok.
  (* the X.509 stage gives the key alone, or what load_x509 makes of the file or of the token's own certificates *)
  assert (H0 : b0 = only_key key \/
               exists l r, b0 = mkBundle (Some l) (l :: r) None (Some key) /\ same_key (KPriv key) (KPub (c_pub l)) = true /\
                 ((xc <> [] /\ exists s, file = Ok s /\ cs_certs s = l :: r) \/ (xc = [] /\ cs_certs blob = l :: r))).
  { destruct xc as [|x xc']; cbn in F.
    - destruct (load_case_blob xb); [|injection F as <-; now left].
      apply load_x509_ok in F as (l & r & Hc & -> & S). right. exists l, r. auto.
    - apply bind_ok in F as (s & -> & (l & r & Hc & -> & S)%load_x509_ok). right. exists l, r.
      repeat split; [exact S|]. left. split; [discriminate|eauto]. }
  (* the PGP stage leaves the bundle alone, or adds the one entity of the ring after SameKey accepted it *)
  assert (H1 : b = b0 \/
               exists e, b = mkBundle (b_leaf b0) (b_certs b0) (Some e) (b_priv b0) /\
                 same_key (KPriv key) (KPub (en_pub e)) = true /\ ring = Ok [e] /\ pc <> []).
  { destruct pc as [|p pc']; cbn in H; [injection H as <-; now left|].
    apply bind_ok in H as (rg & -> & H). unfold load_pgp_count_bad in H.
    destruct (zlen rg =? 1) eqn:Hn; [|discriminate]. apply Z.eqb_eq in Hn.
    destruct rg as [|e rg]; [discriminate|]. rewrite zlen_cons in Hn. rewrite (zlen_0_nil rg) in * by lia.
    cbn in H. unfold load_pgp_mismatch in H. destruct (same_key _ _) eqn:S; [|discriminate].
    injection H as <-. right. exists e. repeat split; [exact S|discriminate]. }
  clear F H. destruct H0 as [->|(l & r & -> & S & Src)], H1 as [->|(e & -> & Se & R & N)];
    cbn [b_leaf b_certs b_pgp b_priv only_key]; (split; [reflexivity|split]); intros ? [= <-]; eauto.
Qed.

Lemma chain_begins_with_leaf b l : b_leaf b = Some l -> exists r, chain b = l :: r.
Proof. unfold chain. intros ->. cbn. eauto. Qed.

(* the loop only keeps certificates of the bundle, and never the leaf object: it occurs once, at the head *)
Lemma chain_loop_in i lid cs c : In c (chain_loop i lid cs) -> In c cs /\ c_id c <> lid.
Proof.
  revert i. induction cs as [|x cs IH]; intros i H; cbn in H; [contradiction|].
  unfold chain_skip_leaf in H. destruct (chain_skip_root _ _ _); [apply IH in H; cbn; tauto|].
  destruct (c_id x =? lid) eqn:E; [apply IH in H; cbn; tauto|].
  destruct H as [<-|H]; [|apply IH in H; cbn; tauto]. split; [now left|now apply Z.eqb_neq].
Qed.

(* with the generated conditions and call orders put in: both refuse before the private key is used, and otherwise
   name / embed the first certificate *)
Lemma builder_sign_eq key certs m :
  builder_sign key certs m =
  match certs with
  | l :: _ => if same_key (KPub (k_pub key)) (KPub (c_pub l)) then (Ok (mkP7 l l certs (mkSig key m)), [mkSig key m])
              else (Err E_GUARD, [])
  | [] => (Err E_GUARD, [])
  end.
Proof.
  destruct certs as [|l r]; [reflexivity|]. unfold builder_sign, builder_refuses.
  cbn [builder_cert_indexes nth]. rewrite zlen_cons. pose proof (zlen_nonneg r).
  replace (1 + zlen r <? 1) with false by lia. replace (1 + zlen r <=? 0) with false by lia.
  cbn. now destruct (same_key _ _).
Qed.

Lemma xml_sign_eq env key certs m :
  xml_sign env key certs m =
  match certs with
  | l :: _ => if same_key (KPub (k_pub key)) (KPub (c_pub l)) then (Ok (mkXml certs (k_pub key) (mkSig key m)), [mkSig key m])
              else (Err E_GUARD, [])
  | [] => (Err E_GUARD, [])
  end.
Proof.
  destruct certs as [|l r]; [now destruct env|]. unfold xml_sign, xmldsig_env_refuses, xmldsig_sign_refuses.
  rewrite zlen_cons. pose proof (zlen_nonneg r). replace (1 + zlen r <? 1) with false by lia.
  destruct env; cbn; now destruct (same_key _ _).
Qed.

Lemma builder_sign_ok key certs m o :
  fst (builder_sign key certs m) = Ok o ->
  exists l r, certs = l :: r /\ o = mkP7 l l certs (mkSig key m) /\ same_key (KPub (k_pub key)) (KPub (c_pub l)) = true.
Proof.
  rewrite builder_sign_eq. destruct certs as [|l r]; [discriminate|]. destruct (same_key _ _) eqn:S; [|discriminate].
  intros [= <-]. eauto.
Qed.

Lemma xml_sign_ok env key certs m o :
  fst (xml_sign env key certs m) = Ok o ->
  exists l r, certs = l :: r /\ o = mkXml certs (k_pub key) (mkSig key m) /\ same_key (KPub (k_pub key)) (KPub (c_pub l)) = true.
Proof.
  rewrite xml_sign_eq. destruct certs as [|l r]; [discriminate|]. destruct (same_key _ _) eqn:S; [|discriminate].
  intros [= <-]. eauto.
Qed.

(* what the loader guarantees about a bundle *)
Definition bundle_ok (key : priv) (b : bundle) : Prop :=
  b_priv b = Some key /\
  exists l r, b_leaf b = Some l /\ b_certs b = l :: r /\ pub_eqb (c_pub l) (k_pub key) = true.

(* Whatever the site descriptor: an output is signed with the bundle's private key, names the head of Chain() or of
   Certificates as signer and embeds that list; a site without second guard states that certificate's key or the leaf's,
   one with a guard that certificate's key or the signer's, and SameKey accepted the pair. *)
Lemma emit_ok s b m e :
  emit s b m = Ok e ->
  exists k l r p, b_priv b = Some k /\ (l :: r = chain b \/ l :: r = b_certs b) /\ e = mkEm l (l :: r) p (mkSig k m) /\
    ((st_guard s = GNone /\ (p = c_pub l \/ option_map c_pub (b_leaf b) = Some p)) \/
     (same_key (KPub (k_pub k)) (KPub (c_pub l)) = true /\ (p = c_pub l \/ p = k_pub k))).
Proof.
  unfold emit, key_of_class, certs_of_class.
  destruct (_ || _); [|discriminate]. destruct (b_priv b) as [k|]; [|discriminate].
  destruct (if st_certs s =? 2 then _ else _) as [cs|] eqn:C; [|discriminate].
  assert (Hcs : cs = chain b \/ cs = b_certs b)
    by (destruct (_ =? 2); [|destruct (_ =? 3); [|discriminate]]; injection C as <-; auto).
  clear C. destruct (st_guard s) eqn:G.
  2-3: intros (o & (l & r & -> & -> & S)%xml_sign_ok & [= <-])%bind_ok; exists k, l, r, (k_pub k); auto 8.
  - intros (o & (l & r & -> & -> & S)%builder_sign_ok & H)%bind_ok. cbn in H. rewrite Z.eqb_refl in H. injection H as <-.
    exists k, l, r, (c_pub l). auto 8.
  - destruct cs as [|l r]; [discriminate|]. destruct (st_pub s =? 0); [|destruct (_ || _); [|discriminate]].
    + intros [= <-]. exists k, l, r, (c_pub l). auto 8.
    + destruct (option_map c_pub (b_leaf b)) as [p|]; [|discriminate]. intros [= <-]. exists k, l, r, p. auto 8.
Qed.

Lemma emit_shape s key b m e l r :
  b_priv b = Some key -> b_leaf b = Some l -> b_certs b = l :: r -> emit s b m = Ok e ->
  exists rr p, e = mkEm l (l :: rr) p (mkSig key m) /\ (p = c_pub l \/ p = k_pub key).
Proof.
  intros Hp Hl Hc (k & l' & r' & p & Hk & Hcs & -> & G)%emit_ok. rewrite Hp in Hk. injection Hk as <-.
  destruct (chain_begins_with_leaf b l Hl) as [rr Hch]. rewrite Hch, Hc in Hcs. rewrite Hl in G.
  assert (l' = l) as -> by (destruct Hcs as [[= -> _]|[= -> _]]; reflexivity).
  exists r', p. split; [reflexivity|]. destruct G as [[_ [->|[= <-]]]|[_ P]]; auto.
Qed.

Lemma spec_emitted_intro key m l rr p :
  pub_eqb (c_pub l) (k_pub key) = true -> p = c_pub l \/ p = k_pub key ->
  spec_emitted key m (mkEm l (l :: rr) p (mkSig key m)) = true.
Proof.
  intros H P. unfold spec_emitted. cbn. rewrite vrfy_sig, H, Z.eqb_refl. destruct P as [->| ->]; [exact H|apply pub_eqb_refl].
Qed.

(* holds of every site descriptor, not only of those in the generated table *)
Lemma emit_sound s key b m e : bundle_ok key b -> emit s b m = Ok e -> spec_emitted key m e = true.
Proof.
  intros (Hp & l & r & Hl & Hc & Heq) (rr & p & -> & P)%(emit_shape s key b m e l r Hp Hl Hc).
  now apply spec_emitted_intro.
Qed.

Lemma emit_pgp_shape cls b m e sg :
  emit_pgp cls b m = Ok (e, sg) -> exists k, b_pgp b = Some e /\ b_priv b = Some k /\ sg = mkSig k m.
Proof.
  unfold emit_pgp. destruct (_ || _); [|discriminate].
  destruct (b_pgp b) as [e0|]; [|discriminate]. destruct (b_priv b) as [k|]; [|discriminate].
  intros [= <- <-]. eauto.
Qed.

Lemma cfg_find_name c n k : cfg_find c n = Some k -> kc_name k = n.
Proof.
  induction c as [|x c IH]; cbn; [discriminate|]. destruct (kc_name x =? n) eqn:E; [|exact IH]. intros [= <-]. now apply Z.eqb_eq.
Qed.

(* Config.GetKey with the generated conditions put in: an alias is followed one level, an alias of an alias is refused *)
Lemma cfg_get_key_eq c n :
  cfg_get_key c n =
  match cfg_find c n with
  | None => Err E_NOKEY
  | Some k =>
      kc <- (if kc_alias k =? 0 then Ok k else
             match cfg_find c (kc_alias k) with
             | Some t => if kc_alias t =? 0 then Ok t else Err E_ALIAS
             | None => Err E_ALIAS
             end) ;;
      if kc_token kc =? 0 then Err E_NOTOKEN else Ok kc
  end.
Proof.
  unfold cfg_get_key, cfg_follow_alias, cfg_alias_chain_refused. destruct (cfg_find c n) as [k|]; [|reflexivity].
  cbn [cfg_missing negb cfg_alias_one_level]. destruct (kc_alias k =? 0); [reflexivity|].
  destruct (cfg_find c (kc_alias k)) as [t|]; [|reflexivity]. now destruct (kc_alias t =? 0).
Qed.

(* what GetKey returns is the section the name resolves to, which is not an alias and names a token *)
Lemma cfg_get_key_ok c n kc :
  cfg_get_key c n = Ok kc -> spec_resolve c n = Some kc /\ kc_alias kc = 0 /\ kc_token kc <> 0.
Proof.
  rewrite cfg_get_key_eq. unfold spec_resolve. destruct (cfg_find c n) as [k|]; [|discriminate].
  intros (t & R & H)%bind_ok. destruct (kc_token t =? 0) eqn:T; [discriminate|]. injection H as <-. apply Z.eqb_neq in T.
  destruct (kc_alias k =? 0) eqn:A.
  - injection R as <-. apply Z.eqb_eq in A. auto.
  - destruct (cfg_find c (kc_alias k)) as [t'|]; [|discriminate]. destruct (kc_alias t' =? 0) eqn:B; [|discriminate].
    injection R as <-. apply Z.eqb_eq in B. auto.
Qed.

Definition cache_inv (base : Z -> result fkey) (s : cache) : Prop :=
  forall n k, cache_find s n = Some k -> base n = Ok k.

Lemma cache_inv_cons base s n k : cache_inv base s -> base n = Ok k -> cache_inv base ((n, k) :: s).
Proof.
  intros Hinv B n' k' H. cbn in H. destruct (n =? n') eqn:E; [|now apply Hinv].
  apply Z.eqb_eq in E. injection H as <-. now subst n'.
Qed.

Lemma cache_get_key_right base exp s n fresh wl ie :
  cache_inv base s ->
  fst (cache_get_key base exp s n fresh wl ie) = base n /\ cache_inv base (snd (cache_get_key base exp s n fresh wl ie)).
Proof.
  intro Hinv. unfold cache_get_key. cbn [tc_lookup_by_name tc_fetch_by_name].
  destruct (cache_find s n) as [k|] eqn:F; [destruct (_ && _)|].
  1: now split; [symmetry; apply Hinv|].
  all: destruct (base n) as [k'|e|e] eqn:B; cbn; (split; [reflexivity|]); auto;
       destruct (tc_may_store exp wl); auto using cache_inv_cons.
Qed.

(* a history of requests against one cache, with the answer to each *)
Fixpoint cache_run (base : Z -> result fkey) (exp : Z) (s : cache) (reqs : list (Z * bool * Z * bool)) : list (Z * result fkey) :=
  match reqs with
  | [] => []
  | (n, fresh, wl, ie) :: r =>
      let '(res, s') := cache_get_key base exp s n fresh wl ie in (n, res) :: cache_run base exp s' r
  end.
