(* C07/PgpProofs.v — the OpenPGP loader, go-crypto's key selection and the PGP signing sites (C07/Pgp.v): what
   C07/Properties.v builds on *)
From Relic Require Import Base.Prelude Generated.C07_gen C07.Model C07.Proofs C07.Pgp.

Lemma loader_shape : pgp_loader_shape_ok = true.
Proof. reflexivity. Qed.
Lemma select_shape : gocrypto_select_shape_ok = true.
Proof. reflexivity. Qed.
Lemma detach_shape : gocrypto_detach_shape_ok = true.
Proof. reflexivity. Qed.
Lemma clearsign_shape : gocrypto_clearsign_shape_ok = true.
Proof. reflexivity. Qed.
Lemma rpmutils_shape : rpmutils_shape_ok = true.
Proof. reflexivity. Qed.
Lemma pgp_signer_shape : pgp_signer_shape_ok = true.
Proof. reflexivity. Qed.

Definition loaded (key : priv) (e : pent) : pent := set_priv e (Some (mkPp (pe_primary e) false key)).

Lemma load_pgp_eq key e :
  load_pgp key e = if same_key (KPriv key) (KPub (kp_pub (pe_primary e))) then Ok (loaded key e) else Err E_MISMATCH.
Proof.
  unfold load_pgp. rewrite loader_shape. cbn [negb load_pgp_priv_pub Z.eqb Pos.eqb load_pgp_priv_enc pp_pub].
  unfold load_pgp_mismatch. destruct (same_key (KPriv key) (KPub (kp_pub (pe_primary e)))); reflexivity.
Qed.

Lemma load_pgp_ok key e e' :
  load_pgp key e = Ok e' ->
  e' = loaded key e /\ same_key (KPriv key) (KPub (kp_pub (pe_primary e))) = true.
Proof. rewrite load_pgp_eq. destruct (same_key _ _); [|discriminate]. intros [= <-]. auto. Qed.

Lemma pick_sub_in flags id mt cur l s :
  pick_sub flags id mt cur l = Some s -> cur = Some s \/ In s l.
Proof.
  revert mt cur. induction l as [|x l IH]; intros mt cur H; cbn in H; [left; exact H|].
  destruct (gc_subkey_candidate _ _ _ _ _ _ _ _ _ _ _ _) in H.
  - apply IH in H as [H|H]; [injection H as <-; right; left; reflexivity|right; right; exact H].
  - apply IH in H as [H|H]; [left; exact H|right; right; exact H].
Qed.

Lemma signing_key_cases e id pk op :
  signing_key e id = Ok (pk, op) ->
  (pk = pe_primary e /\ op = pe_priv e /\ pick_sub key_flag_sign id 0 None (pe_subs e) = None)
  \/ (exists s, In s (pe_subs e) /\ pk = sb_pkt s /\ op = sb_priv s /\ pick_sub key_flag_sign id 0 None (pe_subs e) = Some s).
Proof.
  unfold signing_key. rewrite select_shape. cbn [negb].
  destruct (primary_identity e) as [i|]; [|discriminate].
  destruct (gc_entity_unusable _ _ _ _ _); [discriminate|].
  destruct (pick_sub key_flag_sign id 0 None (pe_subs e)) as [s|] eqn:P.
  - intro H. injection H as <- <-. right. exists s. apply pick_sub_in in P as [P|P]; [discriminate|]. auto.
  - destruct (gc_primary_usable _ _ _ _ _ _ _); [|discriminate]. intro H. injection H as <- <-. left. auto.
Qed.

(* never a panic on a parsed certificate (at least one user id): once an identity is preferred, one stays preferred *)
Lemma primary_identity_from_some c l : primary_identity_from (Some c) l <> None.
Proof. revert c. induction l as [|i l IH]; intro c; cbn [primary_identity_from]; [discriminate|]. destruct (should_prefer (Some c) i); apply IH. Qed.

Lemma signing_key_no_panic e id x : pe_idents e <> [] -> signing_key e id <> Panic x.
Proof.
  intros Hi. unfold signing_key, primary_identity. rewrite select_shape. cbn [negb].
  destruct (pe_idents e) as [|i0 l]; [contradiction|]. cbn [primary_identity_from should_prefer].
  destruct (primary_identity_from (Some i0) l) as [i|] eqn:P; [|now apply primary_identity_from_some in P].
  destruct (gc_entity_unusable _ _ _ _ _); [discriminate|]. destruct (pick_sub _ _ _ _ _); [discriminate|].
  destruct (gc_primary_usable _ _ _ _ _ _ _); discriminate.
Qed.

Lemma vrfy_self k m : vrfy (k_pub k) m (mkSig k m) = true.
Proof. rewrite vrfy_sig. apply pub_eqb_refl. Qed.

(* the signature the loader's packet makes: the primary key packet as issuer, the token key's value *)
Definition primary_sig (key : priv) (e : pent) (m : Z) : pgpsig :=
  mkPs (kp_id (pe_primary e)) (kp_id (pe_primary e)) (mkSig key m).

(* every signature of every mode is either that one or a signature by a secret subkey found in the file *)
Definition sig_from (key : priv) (e : pent) (m : Z) (sg : pgpsig) : Prop :=
  sg = primary_sig key e m
  \/ (exists s p, In s (pe_subs e) /\ sb_priv s = Some p /\ pp_enc p = false /\ sg = sig_sign (sb_pkt s) p m).

Lemma detach_sign_loaded id key e m sg :
  detach_sign id (loaded key e) m = Ok sg ->
  (sg = primary_sig key e m /\ pick_sub key_flag_sign id 0 None (pe_subs e) = None)
  \/ (exists s p, In s (pe_subs e) /\ sb_priv s = Some p /\ pp_enc p = false /\ sg = sig_sign (sb_pkt s) p m).
Proof.
  unfold detach_sign. rewrite detach_shape. cbn [negb].
  destruct (signing_key (loaded key e) id) as [[pk op]|x|x] eqn:K; cbn [gc_detach_no_key negb]; try discriminate.
  apply signing_key_cases in K. cbn [loaded set_priv pe_primary pe_priv pe_subs] in K.
  destruct K as [(-> & -> & Hn)|(s & Hin & -> & -> & _)].
  - cbn [gc_detach_no_priv gc_detach_encrypted pp_enc]. intros [= <-]. left. auto.
  - destruct (sb_priv s) as [p|] eqn:Hp; cbn [gc_detach_no_priv]; [|discriminate].
    unfold gc_detach_encrypted. destruct (pp_enc p) eqn:He; [discriminate|]. intros [= <-]. right. exists s, p. auto.
Qed.

Lemma detach_sign_no_panic id key e m x : pe_idents e <> [] -> detach_sign id (loaded key e) m <> Panic x.
Proof.
  intros Hi. unfold detach_sign. rewrite detach_shape. cbn [negb].
  destruct (signing_key (loaded key e) id) as [[pk op]|y|y] eqn:K.
  - cbn [gc_detach_no_key negb]. destruct op as [p|]; cbn [gc_detach_no_priv]; [|discriminate].
    unfold gc_detach_encrypted. destruct (pp_enc p); discriminate.
  - cbn. discriminate.
  - now apply signing_key_no_panic in K.
Qed.

Lemma clear_sign_loaded key e m : clear_sign (loaded key e) m = Ok (primary_sig key e m).
Proof. unfold clear_sign, clearsign_encode. rewrite clearsign_shape. reflexivity. Qed.

(* every PGP-family signer on a loaded entity: only the detached modes of signers/pgp let go-crypto choose the key *)
Lemma pgp_emit_loaded_eq key e md m :
  pgp_emit md (loaded key e) m =
  if md_kind md =? 0 then
    if md_miniclear md || md_clearsign md then Ok [primary_sig key e m]
    else s <- detach_sign 0 (loaded key e) m ;; Ok [s]
  else if md_kind md =? 1 then Ok [primary_sig key e m; primary_sig key e m]
  else if md_kind md =? 2 then Ok [primary_sig key e m]
  else Panic 37.
Proof.
  unfold pgp_emit, pgp_sign, rpm_sign, rpm_sign_stream, deb_sign, detach_clear_sign.
  rewrite pgp_signer_shape, rpmutils_shape, !clear_sign_loaded. unfold pgp_sf_choice.
  destruct (md_kind md =? 0); [|reflexivity]. destruct (md_miniclear md), (md_clearsign md); try reflexivity.
  all: now destruct (md_armor md), (md_textmode md).
Qed.

Lemma pgp_emit_loaded key e md m l :
  pgp_emit md (loaded key e) m = Ok l -> l <> [] /\ forall sg, In sg l -> sig_from key e m sg.
Proof.
  rewrite pgp_emit_loaded_eq.
  destruct (_ =? 0); [destruct (_ || _)|destruct (_ =? 1); [|destruct (_ =? 2); [|discriminate]]].
  2: intros (sg & D%detach_sign_loaded & [= <-])%bind_ok; split; [discriminate|]; intros ? [<-|[]];
     destruct D as [[-> _]|D]; [now left|now right].
  all: intros [= <-]; split; [discriminate|]; intros sg Hin; left; cbn in Hin; intuition congruence.
Qed.

Lemma pgp_emit_no_panic key e md m x :
  pe_idents e <> [] -> 0 <= md_kind md <= 2 -> pgp_emit md (loaded key e) m <> Panic x.
Proof.
  intros Hi Hk. rewrite pgp_emit_loaded_eq.
  destruct (md_kind md =? 0) eqn:K0; [destruct (_ || _); [discriminate|]|].
  - destruct (detach_sign 0 (loaded key e) m) eqn:D; try discriminate. now apply detach_sign_no_panic in D.
  - destruct (md_kind md =? 1) eqn:K1; [discriminate|]. destruct (md_kind md =? 2) eqn:K2; [discriminate|lia].
Qed.

Definition curve_hyp_pgp (key : priv) (e : pent) : Prop := curve_ok (k_pub key) (kp_pub (pe_primary e)) = true.

Lemma pgp_request_ok key e md m l :
  curve_hyp_pgp key e -> pgp_request key e md m = Ok l ->
  pub_eqb (kp_pub (pe_primary e)) (k_pub key) = true /\ l <> [] /\ forall sg, In sg l -> sig_from key e m sg.
Proof.
  intros Hc (e' & [-> S]%load_pgp_ok & H%pgp_emit_loaded)%bind_ok. split; [|exact H]. exact (key_cert_equal _ _ S Hc).
Qed.

Lemma sig_from_spec key e m sg :
  ent_file_wf e = true -> pub_eqb (kp_pub (pe_primary e)) (k_pub key) = true -> sig_from key e m sg ->
  spec_pgp_sig_ok (cert_packets e) m sg = true.
Proof.
  unfold spec_pgp_sig_ok, cert_packets. intros Hw Hp [->|(s & p & Hin & Hs & _ & ->)].
  - cbn. now rewrite !Z.eqb_refl, vrfy_sig, Hp.
  - unfold ent_file_wf in Hw. rewrite forallb_forall in Hw. specialize (Hw s Hin). unfold sub_file_wf in Hw. rewrite Hs in Hw.
    apply andb_true_iff in Hw as [[H1%Z.eqb_eq H2]%andb_true_iff H3].
    apply existsb_exists. exists (sb_pkt s). split; [right; now apply in_map|].
    cbn. now rewrite <- H1, !Z.eqb_refl, vrfy_sig, H3.
Qed.

Lemma public_only_subs e s : public_only e = true -> In s (pe_subs e) -> sb_priv s = None.
Proof.
  unfold public_only. intros [_ H]%andb_true_iff Hin. rewrite forallb_forall in H. specialize (H s Hin).
  now destruct (sb_priv s).
Qed.

(* witnesses against the stronger reading "the value is made by the token key": the configured file itself carries an
   unencrypted secret signing subkey; go-crypto selects that subkey and signs with the secret from the FILE; the signature
   is still consistent (it names the subkey and verifies under it) *)
Definition ex_id : ident := mkId 0 true true 100 true true true false false false.
Definition wit_key : priv := mkPriv 1 (PRsa 77 65537).
Definition wit_sub_secret : priv := mkPriv 2 (PRsa 91 65537).
Definition wit_ent : pent :=
  mkPent 500 (mkKp 10 (PRsa 77 65537)) true false [ex_id]
         [mkSub (mkKp 11 (PRsa 91 65537)) true false true true false false false 200 (Some (mkPp (mkKp 11 (PRsa 91 65537)) false wit_sub_secret))] None.
