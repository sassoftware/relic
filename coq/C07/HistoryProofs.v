(* C07/HistoryProofs.v — one request and histories of requests (C07/History.v): what C07/Properties.v builds on *)
From Relic Require Import Base.Prelude Generated.C07_gen C07.Model C07.Proofs C07.History.

(* the character codes of a name, without the detour through unary numbers *)
Lemma zs_N s : zs s = map (fun a => Z.of_N (Ascii.N_of_ascii a)) (String.list_ascii_of_string s).
Proof. apply map_ext. intro a. apply N_nat_Z. Qed.

Lemma initkey_shape : initkey_shape_ok = true.
Proof. vm_compute. reflexivity. Qed.
Lemma init_shape : init_shape_ok = true.
Proof. vm_compute. reflexivity. Qed.
Lemma callers_shape : callers_ok = true.
Proof. vm_compute. reflexivity. Qed.
Lemma filekey_shape : filekey_shape_ok = true.
Proof. vm_compute. reflexivity. Qed.

Lemma tok_get_key_intro c w n kc p b :
  cfg_get_key c n = Ok kc -> kc_keyfile kc <> 0 -> w_key w (kc_keyfile kc) = Ok (p, b) -> tok_get_key c w n = Ok (mkTk kc p b).
Proof.
  intros G F K. unfold tok_get_key. rewrite filekey_shape. cbn [negb filetoken_conf_by_name filetoken_reads_conf_keyfile]. unfold bind.
  rewrite G. apply Z.eqb_neq in F. rewrite F, K. reflexivity.
Qed.

(* a request is answered either from a live entry stored under the requested name, or by the token, NOW *)
Lemma hcache_get_key_cases base exp s n fresh wl ie :
  (exists k, hcache_find s n = Some k /\ fresh = true /\ hcache_get_key base exp s n fresh wl ie = (Ok k, s)) \/
  (fst (hcache_get_key base exp s n fresh wl ie) = base n /\
   (snd (hcache_get_key base exp s n fresh wl ie) = s \/
    exists k, base n = Ok k /\ snd (hcache_get_key base exp s n fresh wl ie) = (n, k) :: s)).
Proof.
  unfold hcache_get_key. cbn [tc_lookup_by_name tc_fetch_by_name]. unfold tc_entry_live. cbn [andb].
  destruct (hcache_find s n) as [k|] eqn:F; [destruct fresh; [destruct (tc_id_acceptable wl ie)|]|]; cbn [andb].
  1: now left; exists k.
  all: right; destruct (base n) as [k'|e|e]; cbn [fst snd]; split; auto;
       destruct (tc_may_store exp wl && tc_stores_fetched_key); [right; eauto|left; reflexivity].
Qed.

(* an expired (or absent) entry is never used: the token is asked now *)
Lemma hcache_expired base exp s n wl ie : fst (hcache_get_key base exp s n false wl ie) = base n.
Proof.
  destruct (hcache_get_key_cases base exp s n false wl ie) as [(k & _ & F & _)|[H _]]; [discriminate|exact H].
Qed.

(* without an expiry nothing is ever stored *)
Lemma hcache_nocache base exp n fresh wl ie : exp <= 0 -> hcache_get_key base exp [] n fresh wl ie = (base n, []).
Proof.
  intro H. unfold hcache_get_key. cbn [tc_lookup_by_name tc_fetch_by_name hcache_find]. unfold tc_may_store.
  replace (exp >? 0) with false by lia. cbn [andb]. destruct (base n); reflexivity.
Qed.

Definition key_for (c : cfg) (exp : Z) (w : world) (s : hcache) (q : request) : result tkey :=
  fst (hcache_get_key (tok_get_key c w) exp s (q_name q) (q_fresh q) (q_want q) (q_ideq q)).
Definition cache_after (c : cfg) (exp : Z) (w : world) (s : hcache) (q : request) : hcache :=
  snd (hcache_get_key (tok_get_key c w) exp s (q_name q) (q_fresh q) (q_want q) (q_ideq q)).

Lemma init_key_h_eq c exp w s q :
  init_key_h c exp w s q =
  (k <- key_for c exp w s q ;;
   load_token_certs (tk_priv k) (path_bytes (kc_x509 (tk_conf k))) (w_x509 w (kc_x509 (tk_conf k))) (blob_bytes (tk_blob k)) (tk_blob k)
                    (path_bytes (kc_pgp (tk_conf k))) (w_pgp w (kc_pgp (tk_conf k))), cache_after c exp w s q).
Proof.
  unfold init_key_h, key_for, cache_after. rewrite initkey_shape. cbn [negb].
  destruct (hcache_get_key (tok_get_key c w) exp s (q_name q) (q_fresh q) (q_want q) (q_ideq q)) as [rk s']. reflexivity.
Qed.

Lemma path_bytes_nil f : path_bytes f = [] <-> f = 0.
Proof. unfold path_bytes. destruct (Z.eqb_spec f 0); split; intro; try discriminate; congruence. Qed.

(* every bundle InitKey returns was checked, in this invocation, against the key the token layer handed out in this
   invocation and against what the certificate sources hold now *)
Lemma init_key_h_ok c exp w s q b :
  fst (init_key_h c exp w s q) = Ok b ->
  exists k, key_for c exp w s q = Ok k /\ b_priv b = Some (tk_priv k) /\
    (forall l, b_leaf b = Some l ->
       same_key (KPriv (tk_priv k)) (KPub (c_pub l)) = true /\
       exists r, b_certs b = l :: r /\
         ((kc_x509 (tk_conf k) <> 0 /\ exists src, w_x509 w (kc_x509 (tk_conf k)) = Ok src /\ cs_certs src = l :: r) \/
          (kc_x509 (tk_conf k) = 0 /\ cs_certs (tk_blob k) = l :: r))) /\
    (forall e, b_pgp b = Some e ->
       same_key (KPriv (tk_priv k)) (KPub (en_pub e)) = true /\ kc_pgp (tk_conf k) <> 0 /\ w_pgp w (kc_pgp (tk_conf k)) = Ok [e]).
Proof.
  rewrite init_key_h_eq. cbn [fst]. intros (k & Hk & (Hp & Hl & Hg)%load_token_certs_ok)%bind_ok.
  setoid_rewrite path_bytes_nil in Hl. setoid_rewrite path_bytes_nil in Hg.
  exists k. do 3 (split; [assumption|]). intros e (S & R & N)%Hg. auto.
Qed.

Lemma init_h_ok ct b b' :
  init_h ct b = Ok b' ->
  b' = b /\ (init_needs_x509 ct = true -> b_leaf b <> None) /\ (init_needs_pgp ct = true -> b_pgp b <> None).
Proof.
  unfold init_h. rewrite init_shape. cbn [negb]. unfold init_has_leaf, init_has_pgp.
  destruct (b_leaf b) as [l|]; destruct (b_pgp b) as [e|]; cbn [is_some];
    destruct (init_needs_x509 ct); destruct (init_needs_pgp ct); try discriminate;
    intro H; injection H as <-; repeat split; intro; discriminate.
Qed.

Definition req_wf (q : request) : Prop :=
  match q_signer q with
  | SgX509 st => In st sites /\ init_needs_x509 (q_ct q) = true
  | SgPgp cls => In cls pgp_sites /\ init_needs_pgp (q_ct q) = true
  end.

(* what an issued signature is, in terms of the key object k the token layer handed out for THIS request and the world
   at the time of THIS request *)
Definition issued_ok (w : world) (k : tkey) (m : Z) (o : outv) : Prop :=
  match o with
  | OX509 e =>
      exists l rr p r,
        e = mkEm l (l :: rr) p (mkSig (tk_priv k) m) /\ (p = c_pub l \/ p = k_pub (tk_priv k)) /\
        same_key (KPriv (tk_priv k)) (KPub (c_pub l)) = true /\
        ((kc_x509 (tk_conf k) <> 0 /\ exists src, w_x509 w (kc_x509 (tk_conf k)) = Ok src /\ cs_certs src = l :: r) \/
         (kc_x509 (tk_conf k) = 0 /\ cs_certs (tk_blob k) = l :: r))
  | OPgp en sg =>
      sg = mkSig (tk_priv k) m /\ same_key (KPriv (tk_priv k)) (KPub (en_pub en)) = true /\
      kc_pgp (tk_conf k) <> 0 /\ w_pgp w (kc_pgp (tk_conf k)) = Ok [en]
  end.

Lemma serve_eq c exp w s q :
  serve c exp w s q =
  (b <- fst (init_key_h c exp w s q) ;;
   b' <- init_h (q_ct q) b ;;
   match q_signer q with
   | SgX509 st => e <- emit st b' (q_msg q) ;; Ok (OX509 e)
   | SgPgp cls => es <- emit_pgp cls b' (q_msg q) ;; Ok (OPgp (fst es) (snd es))
   end, cache_after c exp w s q).
Proof.
  unfold serve. rewrite callers_shape. cbn [negb]. rewrite init_key_h_eq. reflexivity.
Qed.
Lemma serve_snd c exp w s q : snd (serve c exp w s q) = cache_after c exp w s q.
Proof. rewrite serve_eq. reflexivity. Qed.

Lemma serve_issue_checked c exp w s q o :
  fst (serve c exp w s q) = Ok o -> req_wf q ->
  exists k, key_for c exp w s q = Ok k /\ issued_ok w k (q_msg q) o.
Proof.
  rewrite serve_eq. cbn [fst].
  intros (b & (k & Hk & Hp & Hl & Hg)%init_key_h_ok & (b' & (-> & Nx & Np)%init_h_ok & H)%bind_ok)%bind_ok Wf.
  exists k. split; [exact Hk|]. unfold req_wf in Wf. destruct (q_signer q) as [st|cls], Wf as [_ Hneed].
  - apply bind_ok in H as (e & E & [= <-]). destruct (b_leaf b) as [l|] eqn:L; [|now destruct (Nx Hneed)].
    destruct (Hl l eq_refl) as (S & r & Hc & Hsrc).
    destruct (emit_shape st (tk_priv k) b (q_msg q) e l r Hp L Hc E) as (rr & p & -> & Hpp).
    cbn. exists l, rr, p, r. auto.
  - apply bind_ok in H as ([en sg] & (k' & G & Hp' & ->)%emit_pgp_shape & [= <-]). rewrite Hp in Hp'. injection Hp' as <-.
    destruct (Hg en G) as (S & Hne & Hr). cbn. auto.
Qed.

(* a configuration that is mismatched at the time of the request is refused, whatever happened before *)
Lemma serve_mismatch_refused c exp w s q k src l r :
  key_for c exp w s q = Ok k ->
  kc_x509 (tk_conf k) <> 0 -> w_x509 w (kc_x509 (tk_conf k)) = Ok src -> cs_bad src = false -> cs_certs src = l :: r ->
  same_key (KPriv (tk_priv k)) (KPub (c_pub l)) = false ->
  fst (serve c exp w s q) = Err E_MISMATCH.
Proof.
  intros Hk Hx Hf Hb Hc Hs. rewrite serve_eq, init_key_h_eq. cbn [fst]. rewrite Hk. cbn [bind].
  unfold load_token_certs. unfold path_bytes at 1. apply Z.eqb_neq in Hx. rewrite Hx.
  cbn [load_case_file bytes_eqb list_eqb negb load_case_file_fallthrough]. rewrite Hf. cbn [bind].
  now rewrite load_x509_eq, Hb, Hc, Hs.
Qed.

Lemma run_req c exp w s q evs :
  run c exp w s (EReq q :: evs) = (w, s, q, fst (serve c exp w s q)) :: run c exp w (snd (serve c exp w s q)) evs.
Proof. cbn [run]. destruct (serve c exp w s q). reflexivity. Qed.
Lemma run_key c exp w s f v evs : run c exp w s (EKey f v :: evs) = run c exp (apply_event w (EKey f v)) s evs.
Proof. reflexivity. Qed.
Lemma run_x509 c exp w s f v evs : run c exp w s (EX509 f v :: evs) = run c exp (apply_event w (EX509 f v)) s evs.
Proof. reflexivity. Qed.
Lemma run_pgp c exp w s f v evs : run c exp w s (EPgp f v :: evs) = run c exp (apply_event w (EPgp f v)) s evs.
Proof. reflexivity. Qed.

(* the world at the start and after each replacement of a file *)
Fixpoint worlds (w : world) (evs : list event) : list world :=
  match evs with
  | [] => [w]
  | EReq _ :: r => worlds w r
  | e :: r => w :: worlds (apply_event w e) r
  end.
Lemma worlds_head w evs : In w (worlds w evs).
Proof. induction evs as [|e evs IH]; [left; reflexivity|]. destruct e; cbn; auto. Qed.

(* Every entry of the trace is what serve answers in the world and with the cache recorded beside it; that world is one
   of the history, and the cache has every property that holds at the start and that requests in such worlds preserve. *)
Lemma run_invariant c exp (ws : world -> Prop) (I : hcache -> Prop) evs w s w' s0 q r :
  (forall x, In x (worlds w evs) -> ws x) ->
  (forall x s q, ws x -> I s -> I (cache_after c exp x s q)) -> I s ->
  In (w', s0, q, r) (run c exp w s evs) -> ws w' /\ I s0 /\ r = fst (serve c exp w' s0 q).
Proof.
  intros Hws Hstep. revert w s Hws. induction evs as [|e evs IH]; intros w s Hws Hs H; [contradiction|].
  pose proof (Hws w (worlds_head w _)) as Hw. destruct e as [f v|f v|f v|q0].
  1-3: refine (IH _ s _ Hs H); intros x Hx; apply Hws; now right.
  rewrite run_req, serve_snd in H. destruct H as [[= <- <- <- <-]|H]; [auto|].
  exact (IH w _ Hws (Hstep w s q0 Hw Hs) H).
Qed.

Lemma run_serve c exp evs w s w' s0 q r : In (w', s0, q, r) (run c exp w s evs) -> r = fst (serve c exp w' s0 q).
Proof. intro H. now apply (run_invariant c exp (fun _ => True) (fun _ => True)) in H. Qed.

Definition out_curve_ok (o : outv) : Prop :=
  match o with
  | OX509 e => curve_ok (k_pub (s_key (em_sig e))) (c_pub (em_leaf e)) = true
  | OPgp en sg => curve_ok (k_pub (s_key sg)) (en_pub en) = true
  end.

Lemma issued_meets_spec w k m o : issued_ok w k m o -> out_curve_ok o -> spec_output_ok m o = true.
Proof.
  destruct o as [e|en sg]; cbn.
  - intros (l & rr & p & r & -> & Hp & S & _) Hc. cbn in *. pose proof (key_cert_equal _ _ S Hc) as Heq.
    rewrite vrfy_sig, Heq, Z.eqb_refl. destruct Hp as [->| ->]; [exact Heq|apply pub_eqb_refl].
  - intros (-> & S & _) Hc. rewrite vrfy_sig. exact (key_cert_equal _ _ S Hc).
Qed.

(* A request that is not answered from the cache is refused in every world whose key file and certificate file do not
   belong together; the two rotations are the ways of getting into such a world. *)
Lemma stale_request_refused c exp w s q kc P blob src l r :
  cfg_get_key c (q_name q) = Ok kc -> kc_keyfile kc <> 0 -> kc_x509 kc <> 0 ->
  w_key w (kc_keyfile kc) = Ok (P, blob) -> w_x509 w (kc_x509 kc) = Ok src -> cs_bad src = false -> cs_certs src = l :: r ->
  same_key (KPriv P) (KPub (c_pub l)) = false -> q_fresh q = false ->
  fst (serve c exp w s q) = Err E_MISMATCH.
Proof.
  intros G F X Hk Hf Hb Hc Hs Hfr. apply (serve_mismatch_refused c exp w s q (mkTk kc P blob) src l r); auto.
  unfold key_for. rewrite Hfr, hcache_expired. now apply tok_get_key_intro.
Qed.

Lemma key_rotation_refused c exp w name kc B blobB src l r q1 q2 :
  cfg_get_key c name = Ok kc -> kc_keyfile kc <> 0 -> kc_x509 kc <> 0 ->
  w_x509 w (kc_x509 kc) = Ok src -> cs_bad src = false -> cs_certs src = l :: r ->
  same_key (KPriv B) (KPub (c_pub l)) = false ->
  q_name q2 = name -> q_fresh q2 = false ->
  exists r1, map snd (run c exp w [] [EReq q1; EKey (kc_keyfile kc) (Ok (B, blobB)); EReq q2]) = [r1; Err E_MISMATCH].
Proof.
  intros G F X Hf Hb Hc Hs <- Hfr. rewrite run_req, run_key, run_req. eexists. cbn [map snd run]. do 2 f_equal.
  apply (stale_request_refused c exp _ _ q2 kc B blobB src l r); auto. cbn. unfold upd. now rewrite Z.eqb_refl.
Qed.

Lemma cert_rotation_refused c exp w name kc A blobA src' l' r' q1 q2 :
  cfg_get_key c name = Ok kc -> kc_keyfile kc <> 0 -> kc_x509 kc <> 0 ->
  w_key w (kc_keyfile kc) = Ok (A, blobA) -> cs_bad src' = false -> cs_certs src' = l' :: r' ->
  same_key (KPriv A) (KPub (c_pub l')) = false ->
  q_name q2 = name -> q_fresh q2 = false ->
  exists r1, map snd (run c exp w [] [EReq q1; EX509 (kc_x509 kc) (Ok src'); EReq q2]) = [r1; Err E_MISMATCH].
Proof.
  intros G F X Hk Hb Hc Hs <- Hfr. rewrite run_req, run_x509, run_req. eexists. cbn [map snd run]. do 2 f_equal.
  apply (stale_request_refused c exp _ _ q2 kc A blobA src' l' r'); auto. cbn. unfold upd. now rewrite Z.eqb_refl.
Qed.

(* with a live cache entry the OLD key may still be used after the key file was replaced; what is issued then still
   matches, since the bundle is checked against the cached key (serve_issue_checked, of every entry of the trace by
   run_serve); and the key always is one the token handed out for the requested name at some moment of the history *)
Definition prov (c : cfg) (ws : world -> Prop) (s : hcache) : Prop :=
  forall n k, hcache_find s n = Some k -> exists w, ws w /\ tok_get_key c w n = Ok k.

Lemma prov_step c exp (ws : world -> Prop) w s q :
  ws w -> prov c ws s ->
  prov c ws (cache_after c exp w s q) /\
  (forall k, key_for c exp w s q = Ok k -> exists w0, ws w0 /\ tok_get_key c w0 (q_name q) = Ok k).
Proof.
  intros Hw Hp. unfold cache_after, key_for.
  destruct (hcache_get_key_cases (tok_get_key c w) exp s (q_name q) (q_fresh q) (q_want q) (q_ideq q)) as [(k & F & _ & E)|[E1 E2]].
  - rewrite E. split; [exact Hp|]. intros k0 [= <-]. now apply Hp.
  - rewrite E1. split; [|eauto]. destruct E2 as [->|(k & B & ->)]; [exact Hp|]. intros n k0 H0. cbn [hcache_find] in H0.
    destruct (Z.eqb_spec (q_name q) n) as [<-|_]; [|now apply Hp]. injection H0 as <-. eauto.
Qed.

Lemma prov_empty c ws : prov c ws [].
Proof. intros n k H. discriminate. Qed.

(* without an expiry the cache stays empty *)
Lemma no_cache_stays_empty c exp evs w w' s0 q r :
  exp <= 0 -> In (w', s0, q, r) (run c exp w [] evs) -> s0 = [].
Proof.
  intros He H. apply (run_invariant c exp (fun _ => True) (fun s => s = [])) in H as (_ & H & _); auto.
  intros x s q' _ ->. unfold cache_after. now rewrite hcache_nocache.
Qed.
