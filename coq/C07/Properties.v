(* C07/Properties.v — the property theorems of C07, over the lemmas of C07/Proofs.v, HistoryProofs.v and PgpProofs.v *)
From Relic Require Import Base.Prelude Generated.C07_gen C07.Model C07.Proofs C07.History C07.HistoryProofs C07.Pgp C07.PgpProofs.

(* 1. SameKey answers "same public key": sound up to the curve identifier, complete on RSA/ECDSA keys *)
Theorem same_key_sound : forall a b, same_key a b = true ->
  exists p q, pub_of a = Some p /\ pub_of b = Some q /\ supported p = true /\ (curve_ok p q = true -> p = q).
Proof. exact C07.Proofs.same_key_sound. Qed.
Theorem same_key_complete : forall a b p,
  pub_of a = Some p -> pub_of b = Some p -> supported p = true -> same_key a b = true.
Proof.
  intros a b p Ha Hb Hs. rewrite same_key_norm, Ha, Hb, same_key_pub. destruct p; try discriminate; now rewrite !Z.eqb_refl.
Qed.
Theorem same_key_eq_spec : forall a b,
  (forall p q, pub_of a = Some p -> pub_of b = Some q -> curve_ok p q = true /\ supported p = true) ->
  same_key a b = spec_same a b.
Proof.
  intros a b H. unfold spec_same. destruct (same_key a b) eqn:E.
  - apply same_key_sound in E as (p & q & Ha & Hb & _ & Hc). rewrite Ha, Hb. destruct (H p q Ha Hb) as [Hk _].
    rewrite (Hc Hk). symmetry. apply pub_eqb_refl.
  - destruct (pub_of a) as [p|] eqn:Ha; [|reflexivity]. destruct (pub_of b) as [q|] eqn:Hb; [|reflexivity].
    destruct (pub_eqb p q) eqn:F; [|reflexivity]. apply pub_eqb_eq in F. subst q.
    destruct (H p p eq_refl eq_refl) as [_ Hs]. now rewrite (same_key_complete a b p Ha Hb Hs) in E.
Qed.
(* the full statement (no hypothesis on curves) is false of the code as written: the curve is not compared *)
Theorem same_key_full_refuted : exists a b, same_key a b = true /\ spec_same a b = false.
Proof. exists (KPub (PEc 1 5 7)), (KPub (PEc 2 5 7)). split; reflexivity. Qed.

(* 2. loader invariant: every bundle LoadTokenCertificates returns has the token key as private key, its leaf is the
      first certificate of the source that was used and SameKey accepted it; likewise the PGP entity *)
Theorem loader_invariant : forall key xc file xb blob pc ring b,
  load_token_certs key xc file xb blob pc ring = Ok b ->
  b_priv b = Some key /\
  (forall l, b_leaf b = Some l ->
     same_key (KPriv key) (KPub (c_pub l)) = true /\
     exists r, b_certs b = l :: r /\
       ((xc <> [] /\ exists s, file = Ok s /\ cs_certs s = l :: r) \/ (xc = [] /\ cs_certs blob = l :: r))) /\
  (forall e, b_pgp b = Some e -> same_key (KPriv key) (KPub (en_pub e)) = true /\ ring = Ok [e] /\ pc <> []).
Proof. exact C07.Proofs.load_token_certs_ok. Qed.
Theorem loader_leaf_matches : forall key p,
  same_key (KPriv key) (KPub p) = true -> curve_ok (k_pub key) p = true -> pub_eqb p (k_pub key) = true.
Proof. exact C07.Proofs.key_cert_equal. Qed.

(* 3. the loader meets the independent specification; a file without a certificate for the key is an error *)
Theorem load_meets_spec : forall key s,
  curve_hyp key (cs_certs s) -> spec_load key (cs_certs s) (load_x509 key s) = true.
Proof.
  intros key s [[e ->]|(l & r & E & P & ->)]%load_x509_cases; [reflexivity|].
  rewrite E. unfold spec_load, chain. cbn. now rewrite P, !Z.eqb_refl.
Qed.
Theorem mismatch_errors : forall key s,
  curve_hyp key (cs_certs s) -> spec_must_fail key (cs_certs s) = true -> exists e, load_x509 key s = Err e.
Proof.
  intros key s [H|(l & r & E & P & _)]%load_x509_cases Hm; [exact H|].
  unfold spec_must_fail in Hm. rewrite E in Hm. cbn in Hm. now rewrite P in Hm.
Qed.
Theorem matching_leaf_loads : forall key s l r,
  cs_bad s = false -> cs_certs s = l :: r -> c_pub l = k_pub key -> supported (k_pub key) = true ->
  load_x509 key s = Ok (mkBundle (Some l) (l :: r) None (Some key)).
Proof.
  intros key s l r Hb Hs Hp Hsup. rewrite load_x509_eq, Hb, Hs, (same_key_complete _ _ (k_pub key)); cbn; congruence.
Qed.
Theorem load_full_refuted : exists key s b,
  load_x509 key s = Ok b /\ spec_load key (cs_certs s) (Ok b) = false /\ spec_must_fail key (cs_certs s) = true.
Proof.
  exists (mkPriv 1 (PEc 1 5 7)), (mkSrc false false [mkCert 0 100 (PEc 2 5 7) 1 2]). eexists. repeat split.
Qed.

(* 4. Chain(): begins with the leaf, contains only certificates of the bundle, the leaf object only once,
      and keeps every non-self-signed certificate *)
Theorem chain_begins_with_leaf : forall b l, b_leaf b = Some l -> exists r, chain b = l :: r.
Proof. exact C07.Proofs.chain_begins_with_leaf. Qed.
Theorem chain_incl : forall b c, In c (chain b) -> b_leaf b = Some c \/ In c (b_certs b).
Proof.
  intros b c [H|H%chain_loop_in]%in_app_or; [|now right].
  destruct (b_leaf b) as [l|]; cbn in H; [|contradiction]. destruct H as [<-|[]]. now left.
Qed.
Theorem chain_tail_no_leaf : forall i lid cs c, In c (chain_loop i lid cs) -> c_id c <> lid.
Proof. intros i lid cs c H. now apply chain_loop_in in H. Qed.
Theorem chain_keeps_intermediates : forall i lid cs c,
  In c cs -> c_iss c <> c_subj c -> c_id c <> lid -> In c (chain_loop i lid cs).
Proof.
  intros i lid cs c H Hs Hl. revert i. induction cs as [|x cs IH]; intro i; cbn in *; [contradiction|].
  destruct H as [->|H].
  - unfold chain_skip_root, chain_skip_leaf. apply Z.eqb_neq in Hs, Hl. rewrite Hs, Hl, andb_false_r. now left.
  - destruct (chain_skip_root _ _ _); [auto|]. destruct (chain_skip_leaf _ _); [auto|]. right. auto.
Qed.

(* 5. second guards: whatever they are given, the PKCS#7 builder and both XML-DSig entry points only produce output
      when the first certificate matches the signing key, name/embed exactly that certificate, and a refusal happens
      before any private-key operation *)
Theorem builder_guard : forall key certs m o, fst (builder_sign key certs m) = Ok o ->
  exists l r, certs = l :: r /\ o = mkP7 l l certs (mkSig key m) /\ same_key (KPub (k_pub key)) (KPub (c_pub l)) = true.
Proof. exact C07.Proofs.builder_sign_ok. Qed.
Theorem builder_refuses_before_signing : forall key certs m e,
  fst (builder_sign key certs m) = Err e -> snd (builder_sign key certs m) = [].
Proof. intros key certs m e. rewrite builder_sign_eq. destruct certs; [reflexivity|]. now destruct (same_key _ _). Qed.
Theorem builder_mismatch_refused : forall key certs m,
  (forall l r, certs = l :: r -> same_key (KPub (k_pub key)) (KPub (c_pub l)) = false) ->
  builder_sign key certs m = (Err E_GUARD, []).
Proof.
  intros key certs m H. rewrite builder_sign_eq. destruct certs as [|l r]; [reflexivity|]. now rewrite (H l r eq_refl).
Qed.
Theorem xmldsig_guard : forall env key certs m o, fst (xml_sign env key certs m) = Ok o ->
  exists l r, certs = l :: r /\ o = mkXml certs (k_pub key) (mkSig key m) /\ same_key (KPub (k_pub key)) (KPub (c_pub l)) = true.
Proof. exact C07.Proofs.xml_sign_ok. Qed.
Theorem xmldsig_refuses_before_signing : forall env key certs m e,
  fst (xml_sign env key certs m) = Err e -> snd (xml_sign env key certs m) = [].
Proof. intros env key certs m e. rewrite xml_sign_eq. destruct certs; [reflexivity|]. now destruct (same_key _ _). Qed.

(* 6. every signing site (table generated from the source) embeds the bundle's leaf first and signs with the bundle's key *)
Theorem sites_shape : sites_shape_ok = true.
Proof. reflexivity. Qed.
Theorem every_signer_matches : forall s key b m e,
  In s sites -> bundle_ok key b -> emit s b m = Ok e -> spec_emitted key m e = true.
Proof. intros s key b m e _. apply emit_sound. Qed.
Theorem guarded_signer_safe_without_loader : forall s b m e k,
  In s sites -> st_guard s <> GNone -> key_of_class b (st_key s) = Some k -> emit s b m = Ok e ->
  curve_ok (k_pub k) (c_pub (em_leaf e)) = true -> spec_emitted k m e = true.
Proof.
  intros s b m e k _ Hg Hk (k' & l & r & p & Hp & _ & -> & [[G _]|[S P]])%emit_ok Hc; [contradiction|].
  unfold key_of_class in Hk. destruct (_ || _); [|discriminate]. rewrite Hk in Hp. injection Hp as <-.
  apply spec_emitted_intro; [|exact P]. destruct (same_key_sound _ _ S) as (? & ? & [= <-] & [= <-] & _ & E).
  rewrite (E Hc). apply pub_eqb_refl.
Qed.
Theorem pgp_signer_matches : forall key xc file xb blob pc ring b cls m e s,
  load_token_certs key xc file xb blob pc ring = Ok b -> In cls pgp_sites -> emit_pgp cls b m = Ok (e, s) ->
  curve_ok (k_pub key) (en_pub e) = true ->
  pub_eqb (en_pub e) (k_pub key) = true /\ vrfy (en_pub e) m s = true /\ ring = Ok [e].
Proof.
  intros key xc file xb blob pc ring b cls m e s (Hp & _ & Hg)%load_token_certs_ok _ (k & G & Hk & ->)%emit_pgp_shape Hc.
  rewrite Hp in Hk. injection Hk as <-. destruct (Hg e G) as (S & R & _).
  rewrite vrfy_sig, (key_cert_equal key _ S Hc). auto.
Qed.

(* 7. the whole flow of a request: success satisfies the property, a mismatched configuration is an error *)
Theorem sign_flow_sound : forall key s st m e,
  curve_hyp key (cs_certs s) -> In st sites -> sign_x509 key s st m = Ok e -> spec_emitted key m e = true.
Proof.
  intros key s st m e [[x E]|(l & r & _ & P & E)]%load_x509_cases _ (b & L & H)%bind_ok; rewrite E in L; [discriminate|].
  injection L as <-. apply (emit_sound st key _ m e) in H; [exact H|]. split; [reflexivity|]. exists l, r. auto.
Qed.
Theorem sign_flow_mismatch : forall key s st m,
  curve_hyp key (cs_certs s) -> spec_must_fail key (cs_certs s) = true -> exists e, sign_x509 key s st m = Err e.
Proof.
  intros key s st m Hc Hm. destruct (mismatch_errors key s Hc Hm) as [e He]. exists e. unfold sign_x509. now rewrite He.
Qed.

(* 8. key lookup: the configuration, the file token, the cache (any history, any clock, any requested key id) and
      InitKey use the key and the certificate files of the section the name resolves to *)
Theorem config_resolves : forall c n kc, cfg_get_key c n = Ok kc -> spec_resolve c n = Some kc /\ kc_token kc <> 0.
Proof. intros c n kc (R & _ & T)%cfg_get_key_ok. auto. Qed.
Theorem alias_of_alias_refused : forall c n k t,
  cfg_find c n = Some k -> kc_alias k <> 0 -> cfg_find c (kc_alias k) = Some t -> kc_alias t <> 0 -> cfg_get_key c n = Err E_ALIAS.
Proof.
  intros c n k t Hk Ha Ht Hb. apply Z.eqb_neq in Ha, Hb. now rewrite cfg_get_key_eq, Hk, Ha, Ht, Hb.
Qed.
Theorem lookup_idempotent : forall c n kc, cfg_get_key c n = Ok kc -> cfg_get_key c (kc_name kc) = Ok kc.
Proof.
  intros c n kc (R & A & T)%cfg_get_key_ok.
  (* the section was found under some name, hence is found under its own *)
  assert (F : exists n', cfg_find c n' = Some kc).
  { unfold spec_resolve in R. destruct (cfg_find c n) as [k|] eqn:F; [|discriminate].
    destruct (kc_alias k =? 0); [injection R as <-|]; eauto. }
  destruct F as [n' F]. rewrite <- (cfg_find_name c n' kc F) in F.
  apply Z.eqb_neq in T. rewrite cfg_get_key_eq, F, A. cbn. now rewrite T.
Qed.
Theorem token_key_right : forall c kf n k, token_get_key c kf n = Ok k ->
  spec_resolve c n = Some (fk_conf k) /\ kf (kc_keyfile (fk_conf k)) = Ok (fk_priv k).
Proof.
  intros c kf n k. unfold token_get_key. cbn [filetoken_conf_by_name filetoken_reads_conf_keyfile].
  intros (kc & [R _]%cfg_get_key_ok & H)%bind_ok. destruct (kc_keyfile kc =? 0); [discriminate|].
  apply bind_ok in H as (p & F & [= <-]). auto.
Qed.
Theorem cache_never_returns_another_key : forall base exp s reqs,
  cache_inv base s -> forall n r, In (n, r) (cache_run base exp s reqs) -> r = base n.
Proof.
  intros base exp s reqs. revert s. induction reqs as [|[[[n fresh] wl] ie] reqs IH]; intros s Hinv n' r H; cbn in H; [contradiction|].
  pose proof (cache_get_key_right base exp s n fresh wl ie Hinv) as [H1 H2].
  destruct (cache_get_key base exp s n fresh wl ie) as [res s']. destruct H as [[= <- <-]|H]; [exact H1|]. exact (IH s' H2 n' r H).
Qed.
Theorem cache_empty_ok : forall base, cache_inv base [].
Proof. intros base n k H. discriminate. Qed.
Theorem lookup_right_key : forall getkey xf pf n b, init_key getkey xf pf n = Ok b ->
  exists k, getkey n = Ok k /\ b_priv b = Some (fk_priv k) /\
    (forall l, b_leaf b = Some l ->
       same_key (KPriv (fk_priv k)) (KPub (c_pub l)) = true /\
       exists r s, xf (kc_x509 (fk_conf k)) = Ok s /\ cs_certs s = l :: r /\ b_certs b = l :: r) /\
    (forall e, b_pgp b = Some e ->
       same_key (KPriv (fk_priv k)) (KPub (en_pub e)) = true /\ pf (kc_pgp (fk_conf k)) = Ok [e]).
Proof.
  intros getkey xf pf n b. unfold init_key. cbn [initkey_key_by_name initkey_conf_from_key initkey_args list_eqb Z.eqb andb negb].
  intros (k & K & (Hp & Hl & Hg)%load_token_certs_ok)%bind_ok. exists k. do 2 (split; [assumption|]). split.
  - intros l (S & r & Hc & [(_ & s & Hf & Hs)|(_ & [=])])%Hl. eauto 6.
  - intros e (S & Hr & _)%Hg. auto.
Qed.

(* 9. HISTORY inside a long-lived process: the n-th request as well as the first.
      9a. the process state that survives a request is the reviewed one (package-level variables of internal/signinit,
          lib/certloader, signers + unguarded signer packages, token/tokencache, token/filetoken; fields of Cache, cachedKey,
          fileToken, fileKey, certloader.Certificate): only tokencache.Cache.keys holds key material *)
Theorem long_lived_state_is_reviewed : process_state_reviewed = true.
Proof.
  (* evaluated over binary character codes: zs goes through unary numbers, which is cheap for vm_compute but not for
     the evaluator that re-checks the compiled file *)
  unfold process_state_reviewed, pkg_state_reviewed, objects_reviewed, fields_are.
  erewrite !map_ext by (intro; rewrite !zs_N; reflexivity). vm_compute. reflexivity.
Qed.
(*    9b. data flow: every non-nil bundle InitKey returns is the result of LoadTokenCertificates called in the same
          invocation with the key GetKey returned in the same invocation; Init returns InitKey's bundle; serveSign and
          signCmd hand exactly that bundle to mod.Sign *)
Theorem field_names_are_what_they_say : field_names_ok = true.
Proof. vm_compute. reflexivity. Qed.
Theorem initkey_returns_checked_bundle : initkey_shape_ok = true.
Proof. exact C07.HistoryProofs.initkey_shape. Qed.
Theorem init_returns_initkey_bundle : init_shape_ok = true.
Proof. exact C07.HistoryProofs.init_shape. Qed.
Theorem callers_sign_with_init_bundle : callers_ok = true.
Proof. exact C07.HistoryProofs.callers_shape. Qed.
Theorem file_key_object_is_conf_key_cert : filekey_shape_ok = true.
Proof. exact C07.HistoryProofs.filekey_shape. Qed.
Theorem signer_modules_require_their_certificate : signer_certtypes_ok = true.
Proof. vm_compute. reflexivity. Qed.
(*    9c. EVERY issuance of EVERY history (any configuration, any initial world and cache contents, any sequence of key
          file / certificate file / PGP file replacements and requests, any clock, any cache expiry): the signature was
          made by the key k the token layer handed out for this request, and the embedded leaf is the first certificate
          of what the certificate source holds AT THE TIME OF THIS REQUEST, accepted by SameKey against k *)
Theorem history_every_issuance_checked : forall c exp evs w s w' s0 q o,
  In (w', s0, q, Ok o) (History.run c exp w s evs) -> req_wf q ->
  exists k, key_for c exp w' s0 q = Ok k /\ issued_ok w' k (q_msg q) o.
Proof. intros c exp evs w s w' s0 q o H%run_serve. now apply serve_issue_checked. Qed.
(*    hence it meets the specification written from the property text *)
Theorem history_sound : forall c exp evs w s w' s0 q o,
  In (w', s0, q, Ok o) (History.run c exp w s evs) -> req_wf q -> out_curve_ok o -> spec_output_ok (q_msg q) o = true.
Proof.
  intros c exp evs w s w' s0 q o H Wf Hc. destruct (history_every_issuance_checked c exp evs w s w' s0 q o H Wf) as (k & _ & Hi).
  exact (issued_meets_spec w' k _ o Hi Hc).
Qed.
(*    9d. a configuration that is mismatched at the time of a request is refused, whatever happened before *)
Theorem history_mismatch_refused : forall c exp evs w s w' s0 q res k src l r,
  In (w', s0, q, res) (History.run c exp w s evs) ->
  key_for c exp w' s0 q = Ok k ->
  kc_x509 (tk_conf k) <> 0 -> w_x509 w' (kc_x509 (tk_conf k)) = Ok src -> cs_bad src = false -> cs_certs src = l :: r ->
  same_key (KPriv (tk_priv k)) (KPub (c_pub l)) = false ->
  res = Err E_MISMATCH.
Proof. intros c exp evs w s w' s0 q res k src l r ->%run_serve. apply serve_mismatch_refused. Qed.
Theorem pgp_mismatch_refused : forall c exp w s q k e,
  key_for c exp w s q = Ok k -> kc_x509 (tk_conf k) = 0 -> cs_certs (tk_blob k) = [] ->
  kc_pgp (tk_conf k) <> 0 -> w_pgp w (kc_pgp (tk_conf k)) = Ok [e] ->
  same_key (KPriv (tk_priv k)) (KPub (en_pub e)) = false ->
  fst (serve c exp w s q) = Err E_MISMATCH.
Proof.
  intros c exp w s q k e Hk Hx Hbl Hp Hf Hs. rewrite serve_eq, init_key_h_eq. cbn [fst]. rewrite Hk. cbn [bind].
  unfold load_token_certs, path_bytes, blob_bytes. apply Z.eqb_neq in Hp. rewrite Hx, Hp, Hbl, Hf. cbn.
  unfold load_pgp_mismatch. now rewrite Hs.
Qed.
(*    the two rotations: sign, replace the key file (certificate files stay) / the certificate file (key stays), sign
          again without a live cache entry: refused, for all keys, certificates, sections, signers and first requests *)
Theorem key_rotation_refused : forall c exp w name kc B blobB src l r q1 q2,
  cfg_get_key c name = Ok kc -> kc_keyfile kc <> 0 -> kc_x509 kc <> 0 ->
  w_x509 w (kc_x509 kc) = Ok src -> cs_bad src = false -> cs_certs src = l :: r ->
  same_key (KPriv B) (KPub (c_pub l)) = false ->
  q_name q2 = name -> q_fresh q2 = false ->
  exists r1, map snd (History.run c exp w [] [EReq q1; EKey (kc_keyfile kc) (Ok (B, blobB)); EReq q2]) = [r1; Err E_MISMATCH].
Proof. exact C07.HistoryProofs.key_rotation_refused. Qed.
Theorem cert_rotation_refused : forall c exp w name kc A blobA src' l' r' q1 q2,
  cfg_get_key c name = Ok kc -> kc_keyfile kc <> 0 -> kc_x509 kc <> 0 ->
  w_key w (kc_keyfile kc) = Ok (A, blobA) -> cs_bad src' = false -> cs_certs src' = l' :: r' ->
  same_key (KPriv A) (KPub (c_pub l')) = false ->
  q_name q2 = name -> q_fresh q2 = false ->
  exists r1, map snd (History.run c exp w [] [EReq q1; EX509 (kc_x509 kc) (Ok src'); EReq q2]) = [r1; Err E_MISMATCH].
Proof. exact C07.HistoryProofs.cert_rotation_refused. Qed.
(*    9e. which key: a request is answered from a live cache entry stored under the requested name or by the token now;
          an expired entry is never used; without an expiry the key is the one the key file holds at the time of the
          request; in every case it is a key the token handed out for the requested name in some world of the history *)
Theorem cache_answers : forall base exp s n fresh wl ie,
  (exists k, hcache_find s n = Some k /\ fresh = true /\ hcache_get_key base exp s n fresh wl ie = (Ok k, s)) \/
  (fst (hcache_get_key base exp s n fresh wl ie) = base n /\
   (snd (hcache_get_key base exp s n fresh wl ie) = s \/
    exists k, base n = Ok k /\ snd (hcache_get_key base exp s n fresh wl ie) = (n, k) :: s)).
Proof. exact C07.HistoryProofs.hcache_get_key_cases. Qed.
Theorem expired_entry_not_used : forall base exp s n wl ie, fst (hcache_get_key base exp s n false wl ie) = base n.
Proof. exact C07.HistoryProofs.hcache_expired. Qed.
Theorem no_cache_current_key : forall c exp evs w w' s0 q r,
  exp <= 0 -> In (w', s0, q, r) (History.run c exp w [] evs) -> key_for c exp w' s0 q = tok_get_key c w' (q_name q).
Proof.
  intros c exp evs w w' s0 q r He H. rewrite (no_cache_stays_empty c exp evs w w' s0 q r He H).
  unfold key_for. now rewrite hcache_nocache.
Qed.
Theorem history_key_provenance : forall c exp evs w s (ws : world -> Prop) w' s0 q r,
  (forall x, In x (worlds w evs) -> ws x) -> prov c ws s ->
  In (w', s0, q, r) (History.run c exp w s evs) ->
  forall k, key_for c exp w' s0 q = Ok k -> exists w0, ws w0 /\ tok_get_key c w0 (q_name q) = Ok k.
Proof.
  intros c exp evs w s ws w' s0 q r Hws Hp H.
  apply (run_invariant c exp ws (prov c ws)) in H as (Hw & Hp' & _); [|exact Hws| |exact Hp].
  - now apply prov_step.
  - intros x s1 q1 Hx Hs. now apply prov_step.
Qed.
Theorem file_token_key_right : forall c w n k, tok_get_key c w n = Ok k ->
  cfg_get_key c n = Ok (tk_conf k) /\ spec_resolve c n = Some (tk_conf k) /\ kc_keyfile (tk_conf k) <> 0 /\
  w_key w (kc_keyfile (tk_conf k)) = Ok (tk_priv k, tk_blob k).
Proof.
  intros c w n k. unfold tok_get_key. rewrite filekey_shape. cbn [negb filetoken_conf_by_name filetoken_reads_conf_keyfile].
  intros (kc & G & H)%bind_ok. destruct (kc_keyfile kc =? 0) eqn:F; [discriminate|].
  apply bind_ok in H as ([p b] & K & [= <-]). apply Z.eqb_neq in F. destruct (cfg_get_key_ok c n kc G) as [R _]. auto.
Qed.
(*    9f. Init refuses a bundle that lacks the certificate type the signer module needs *)
Theorem init_requires_certificate : forall ct b b', init_h ct b = Ok b' ->
  b' = b /\ (init_needs_x509 ct = true -> b_leaf b <> None) /\ (init_needs_pgp ct = true -> b_pgp b <> None).
Proof. exact C07.HistoryProofs.init_h_ok. Qed.


(* 10. OpenPGP: WHICH key packet a signature names and WHICH private key computes its value (C07/Pgp.v), for every
       certificate structure (primary key, any number of subkeys with any binding flags / times / expiry / revocation, any
       number of user ids, secret material already present in the configured file), every token key and every PGP-family
       signer (signers/pgp detached / armored / text mode / inline / clearsign / 2.0 mini-clear, rpm, deb).
   10a. the generated shape of the mechanism is the reviewed one: statement list of the loader's PGP block with the guard before
        the assignment, the only places of lib/certloader that build or store a private-key packet, how each signing site
        uses the entity / the bundle, the pinned go-crypto / go-rpmutils versions and the issuer fields they fill in *)
Theorem pgp_loader_block_reviewed : pgp_loader_shape_ok = true.
Proof. exact C07.PgpProofs.loader_shape. Qed.
Theorem pgp_private_key_pairings_reviewed : certloader_privkey_reviewed = true.
Proof. vm_compute. reflexivity. Qed.
Theorem pgp_signing_sites_reviewed : pgp_site_uses_reviewed = true.
Proof. vm_compute. reflexivity. Qed.
Theorem pgp_libraries_reviewed : pgp_libs_reviewed = true.
Proof. vm_compute. reflexivity. Qed.
(* 10b. the loader: the only private-key packet it creates pairs the PRIMARY key packet with the token key, after SameKey
        accepted exactly that pair; nothing else of the entity changes; it agrees with the coarser model of section 2 *)
Theorem pgp_loader_pairs_primary_with_token_key : forall key e e',
  load_pgp key e = Ok e' -> e' = loaded key e /\ same_key (KPriv key) (KPub (kp_pub (pe_primary e))) = true.
Proof. exact C07.PgpProofs.load_pgp_ok. Qed.
Theorem pgp_loader_refines_model : forall key e,
  match load_pgp_ring key (Ok [e]), load_token_certs key [] (Err E_READ) [] (mkSrc true false []) [1] (Ok [to_entity e]) with
  | Ok e', Ok b => b_pgp b = Some (to_entity e') /\ b_priv b = Some key /\ b_leaf b = None
  | Err a, Err b => a = b
  | _, _ => False
  end.
Proof.
  intros key e. change (load_pgp_ring key (Ok [e])) with (load_pgp key e). rewrite load_pgp_eq.
  unfold load_token_certs, load_pgp_mismatch. cbn. now destruct (same_key _ _).
Qed.
(* 10c. go-crypto's selection returns the (public packet, private packet) pair of the primary key or of one subkey of the
        certificate - never a mixture *)
Theorem pgp_selection_is_a_certificate_key : forall e id pk op,
  signing_key e id = Ok (pk, op) ->
  (pk = pe_primary e /\ op = pe_priv e /\ pick_sub key_flag_sign id 0 None (pe_subs e) = None)
  \/ (exists s, In s (pe_subs e) /\ pk = sb_pkt s /\ op = sb_priv s /\ pick_sub key_flag_sign id 0 None (pe_subs e) = Some s).
Proof. exact C07.PgpProofs.signing_key_cases. Qed.
(* 10d. THE PROPERTY: either the request is refused, or every emitted signature names - with its issuer key id AND its issuer
        fingerprint - one key packet of the configured certificate, and the value verifies under that packet's key *)
Theorem pgp_signature_names_signing_key : forall key e md m l,
  ent_file_wf e = true -> curve_hyp_pgp key e ->
  pgp_request key e md m = Ok l ->
  l <> [] /\ forallb (spec_pgp_sig_ok (cert_packets e) m) l = true.
Proof.
  intros key e md m l Hw Hc (Hp & Hne & Hall)%pgp_request_ok; [|exact Hc]. split; [exact Hne|].
  apply forallb_forall. intros sg Hin. apply (sig_from_spec key); auto.
Qed.
Theorem pgp_request_meets_spec : forall key e md m,
  ent_file_wf e = true -> curve_hyp_pgp key e -> pe_idents e <> [] -> (0 <= md_kind md <= 2) ->
  spec_pgp_out_ok (cert_packets e) m (pgp_request key e md m) = true.
Proof.
  intros key e md m Hw Hc Hi Hk. destruct (pgp_request key e md m) as [l|x|x] eqn:R.
  - apply pgp_signature_names_signing_key in R as [Hne Hall]; auto. cbn. rewrite Hall.
    destruct l; [contradiction|reflexivity].
  - reflexivity.
  - unfold pgp_request in R. rewrite load_pgp_eq in R. destruct (same_key _ _); [|discriminate].
    now apply pgp_emit_no_panic in R.
Qed.
(* 10e. for a certificate file with public parts only (the ordinary configuration): the value is made by the TOKEN key, the issuer
        is the primary key packet and its key material is the token key's; a detached signature comes out only when
        go-crypto selects no subkey (otherwise: "signing key doesn't have a private key") *)
Theorem pgp_public_certificate_signed_by_token_key : forall key e md m l sg,
  public_only e = true -> curve_hyp_pgp key e ->
  pgp_request key e md m = Ok l -> In sg l ->
  s_key (ps_val sg) = key /\ ps_keyid sg = kp_id (pe_primary e) /\ ps_fpr sg = kp_id (pe_primary e)
  /\ pub_eqb (kp_pub (pe_primary e)) (k_pub key) = true.
Proof.
  intros key e md m l sg Hpo Hc (Hp & _ & Hall)%pgp_request_ok Hin; [|exact Hc].
  destruct (Hall sg Hin) as [->|(s & p & Hs & Hpr & _)]; [now cbn|].
  now rewrite (public_only_subs e s Hpo Hs) in Hpr.
Qed.
Theorem pgp_detached_only_without_selected_subkey : forall key e m sg,
  public_only e = true -> detach_sign 0 (loaded key e) m = Ok sg -> pick_sub key_flag_sign 0 0 None (pe_subs e) = None.
Proof.
  intros key e m sg Hpo [[_ H]|(s & p & Hs & Hpr & _)]%detach_sign_loaded; [exact H|].
  now rewrite (public_only_subs e s Hpo Hs) in Hpr.
Qed.
(* 10f. mismatched configurations are errors: a primary key that is not the token key (whatever the subkeys are - a bound,
        cross-signed signing subkey equal to the token key included), and in particular a certificate none of whose key
        packets is the token key *)
Theorem pgp_other_primary_refused : forall key e md m,
  curve_hyp_pgp key e -> pub_eqb (kp_pub (pe_primary e)) (k_pub key) = false -> pgp_request key e md m = Err E_MISMATCH.
Proof.
  intros key e md m Hc Hn. unfold pgp_request. rewrite load_pgp_eq. destruct (same_key _ _) eqn:S; [|reflexivity].
  now rewrite (key_cert_equal key _ S Hc) in Hn.
Qed.
Theorem pgp_unrelated_certificate_refused : forall key e md m,
  curve_hyp_pgp key e -> spec_pgp_must_fail key e = true -> pgp_request key e md m = Err E_MISMATCH.
Proof.
  intros key e md m Hc Hm. apply pgp_other_primary_refused; [exact Hc|].
  unfold spec_pgp_must_fail, cert_packets in Hm. cbn [existsb] in Hm. now apply negb_true_iff, orb_false_iff in Hm.
Qed.
(* 10g. the guard does not refuse valid configurations: primary key = token key signs through every entity.PrivateKey site *)
Theorem pgp_matching_primary_signs : forall key e m,
  kp_pub (pe_primary e) = k_pub key -> supported (k_pub key) = true ->
  pgp_request key e (mkMode 0 true false false false) m = Ok [mkPs (kp_id (pe_primary e)) (kp_id (pe_primary e)) (mkSig key m)]
  /\ pgp_request key e (mkMode 1 false false false false) m
     = Ok [mkPs (kp_id (pe_primary e)) (kp_id (pe_primary e)) (mkSig key m); mkPs (kp_id (pe_primary e)) (kp_id (pe_primary e)) (mkSig key m)]
  /\ pgp_request key e (mkMode 2 false false false false) m = Ok [mkPs (kp_id (pe_primary e)) (kp_id (pe_primary e)) (mkSig key m)].
Proof.
  intros key e m Hp Hs. unfold pgp_request. rewrite load_pgp_eq, (same_key_complete _ _ (k_pub key)) by (cbn; congruence).
  cbn [bind]. now rewrite !pgp_emit_loaded_eq.
Qed.
(* 10h. the stronger reading "the value is made by the token key" is FALSE of the code as written when the configured file is
        a transferable SECRET key with an unencrypted signing subkey: go-crypto signs with the secret from the file (the
        signature stays consistent: 10d) *)
Theorem pgp_token_key_statement_refuted : exists key e md m sg,
  ent_file_wf e = true /\ pgp_request key e md m = Ok [sg] /\ spec_pgp_sig_ok (cert_packets e) m sg = true
  /\ spec_pgp_by_token_key key sg = false.
Proof.
  exists wit_key, wit_ent, (mkMode 0 false false false false), 5, (mkPs 11 11 (mkSig wit_sub_secret 5)). vm_compute. auto.
Qed.

(* non-vacuity *)
Example rsa_chain_signs :
  let key := mkPriv 1 (PRsa 77 65537) in
  let leaf := mkCert 0 10 (PRsa 77 65537) 1 2 in
  let inter := mkCert 1 11 (PRsa 88 65537) 2 3 in
  let root := mkCert 2 12 (PRsa 99 65537) 3 3 in
  forallb (fun st => match sign_x509 key (mkSrc false false [leaf; inter; root]) st 5 with
                     | Ok e => spec_emitted key 5 e && (c_der (em_leaf e) =? 10) | _ => false end) sites = true.
Proof. vm_compute. reflexivity. Qed.
Example chain_drops_trailing_root :
  let leaf := mkCert 0 10 (PRsa 77 65537) 1 2 in
  let inter := mkCert 1 11 (PRsa 88 65537) 2 3 in
  let root := mkCert 2 12 (PRsa 99 65537) 3 3 in
  map c_der (chain (mkBundle (Some leaf) [leaf; inter; root] None None)) = [10; 11].
Proof. reflexivity. Qed.
Example reordered_chain_refused :
  let key := mkPriv 1 (PRsa 77 65537) in
  let leaf := mkCert 1 10 (PRsa 77 65537) 1 2 in
  let inter := mkCert 0 11 (PRsa 88 65537) 2 3 in
  load_x509 key (mkSrc false false [inter; leaf]) = Err E_MISMATCH.
Proof. reflexivity. Qed.
Example ec_mismatch_refused :
  sign_x509 (mkPriv 1 (PEc 1 5 7)) (mkSrc false false [mkCert 0 10 (PEc 1 5 8) 1 2]) (mkSite 11 GNone 1 2 7) 5 = Err E_MISMATCH.
Proof. reflexivity. Qed.
Example alias_resolves :
  let c := [mkKc 1 0 9 21 31 0; mkKc 2 1 0 22 32 0] in
  match token_get_key c (fun f => Ok (mkPriv f (POther f))) 2 with
  | Ok k => (k_id (fk_priv k) =? 21) && (kc_x509 (fk_conf k) =? 31) | _ => false end = true.
Proof. reflexivity. Qed.

(* histories: key A (file 1) with certificate a (file 11), PGP certificate of A (file 21); section 1; cosign site 12 *)
Definition exA := mkPriv 1 (PRsa 77 65537).
Definition exB := mkPriv 2 (PRsa 91 65537).
Definition ex_a := mkCert 0 10 (PRsa 77 65537) 1 2.
Definition ex_b := mkCert 0 20 (PRsa 91 65537) 3 2.
Definition ex_cfg : cfg := [mkKc 1 0 9 1 11 21].
Definition ex_world : world :=
  mkWorld (fun f => if f =? 1 then Ok (exA, mkSrc true false []) else Err E_READ)
          (fun f => if f =? 11 then Ok (mkSrc false false [ex_a]) else Err E_READ)
          (fun f => if f =? 21 then Ok [mkEnt 500 (PRsa 77 65537)] else Err E_READ).
Definition ex_cosign : site := mkSite 12 GNone 1 2 0.
Definition ex_req (fresh : bool) : request := mkReq 1 fresh 0 false 1 (SgX509 ex_cosign) 5.
Definition ex_pgp_req (fresh : bool) : request := mkReq 1 fresh 0 false 2 (SgPgp 5) 5.
Definition ex_status (t : world * hcache * request * result outv) : Z :=
  match snd t with
  | Ok (OX509 e) => 1000 * k_id (s_key (em_sig e)) + c_der (em_leaf e)
  | Ok (OPgp en sg) => 1000 * k_id (s_key sg) + en_id en
  | Err e => - e | Panic e => -100 - e end.
Example ex_cosign_in_sites : In ex_cosign sites.
Proof. do 11 right. now left. Qed.
Example ex_req_wf : req_wf (ex_req true) /\ req_wf (ex_pgp_req false).
Proof. split; (split; [|reflexivity]); [exact ex_cosign_in_sites|now left]. Qed.
(* no cache: sign; rotate the key file -> refused; install B's certificate -> still refused (LoadTokenCertificates also
   checks the PGP certificate of the section, which is A's); install B's PGP certificate -> B signs under b / its own PGP key *)
Example history_rotation_no_cache :
  map ex_status (History.run ex_cfg 0 ex_world []
    [EReq (ex_req true); EReq (ex_pgp_req true); EKey 1 (Ok (exB, mkSrc true false [])); EReq (ex_req true);
     EX509 11 (Ok (mkSrc false false [ex_b])); EReq (ex_req true); EReq (ex_pgp_req true);
     EPgp 21 (Ok [mkEnt 501 (PRsa 91 65537)]); EReq (ex_req true); EReq (ex_pgp_req true)])
  = [1010; 1500; - E_MISMATCH; - E_MISMATCH; - E_MISMATCH; 2020; 2501].
Proof. vm_compute. reflexivity. Qed.
(* one-hour cache, section without PGP certificate: after the key file is replaced the live entry still answers with A,
   and what is issued is A under a; when the certificate is replaced as well the cached A no longer matches: refused;
   once the entry has expired B signs under b *)
Definition ex_cfg_x : cfg := [mkKc 1 0 9 1 11 0].
Example history_rotation_cached :
  map ex_status (History.run ex_cfg_x 3600 ex_world []
    [EReq (ex_req true); EKey 1 (Ok (exB, mkSrc true false [])); EReq (ex_req true);
     EX509 11 (Ok (mkSrc false false [ex_b])); EReq (ex_req true); EReq (ex_req false); EReq (ex_req true)])
  = [1010; 1010; - E_MISMATCH; 2020; 2020].
Proof. vm_compute. reflexivity. Qed.
Example history_examples_meet_spec :
  spec_history_ok (History.run ex_cfg 3600 ex_world []
    [EReq (ex_req true); EKey 1 (Ok (exB, mkSrc true false [])); EReq (ex_req true); EReq (ex_pgp_req true);
     EX509 11 (Ok (mkSrc false false [ex_b])); EReq (ex_req false); EReq (ex_pgp_req false)]) = true.
Proof. vm_compute. reflexivity. Qed.
(* the hypotheses of key_rotation_refused are satisfiable *)
Example key_rotation_hyps :
  cfg_get_key ex_cfg 1 = Ok (mkKc 1 0 9 1 11 21) /\ w_x509 ex_world 11 = Ok (mkSrc false false [ex_a]) /\
  same_key (KPriv exB) (KPub (c_pub ex_a)) = false.
Proof. repeat split. Qed.
(* the specification is not trivially true: A's certificate over a value made by B is rejected *)
Example spec_rejects_mismatch :
  spec_output_ok 5 (OX509 (mkEm ex_a [ex_a] (c_pub ex_a) (mkSig exB 5))) = false.
Proof. reflexivity. Qed.

(* OpenPGP: token key K = RSA 77; P = RSA 91; S = RSA 55 *)
Definition pgK := mkPriv 1 (PRsa 77 65537).
Definition pg_uid : ident := mkId 0 true true 100 true true true false false false.
Definition pg_uid2 : ident := mkId 0 true false 150 true true false false false false.
Definition pg_signsub (id n t : Z) : subk := mkSub (mkKp id (PRsa n 65537)) true false true true false false false t None.
Definition pg_encsub (id n t : Z) : subk := mkSub (mkKp id (PRsa n 65537)) true false false true false false false t None.
Definition pg_all_modes : list pgpmode :=
  [mkMode 0 false false false false; mkMode 0 false true false false; mkMode 0 false false true false; mkMode 0 false true true false;
   mkMode 0 true false false false; mkMode 0 false false false true; mkMode 1 false false false false; mkMode 2 false false false false].
(* primary = K, an encryption subkey, two user ids: every mode signs, names the primary packet 10, meets the specification *)
Definition pg_plain : pent := mkPent 500 (mkKp 10 (PRsa 77 65537)) true false [pg_uid2; pg_uid] [pg_encsub 12 33 120] None.
Example pgp_plain_certificate_signs :
  forallb (fun md => match pgp_request pgK pg_plain md 5 with
                     | Ok l => forallb (fun s => (ps_keyid s =? 10) && (ps_fpr s =? 10) && spec_pgp_sig_ok (cert_packets pg_plain) 5 s && spec_pgp_by_token_key pgK s) l
                               && negb (zlen l =? 0)
                     | _ => false end) pg_all_modes = true.
Proof. vm_compute. reflexivity. Qed.
(* primary = P, the token key K is a bound signing subkey (newest), plus an older foreign signing subkey: refused in every mode *)
Definition pg_subcert : pent := mkPent 501 (mkKp 20 (PRsa 91 65537)) true false [pg_uid] [pg_signsub 22 55 110; pg_signsub 21 77 130] None.
Example pgp_signing_subkey_certificate_refused :
  map (fun md => pgp_request pgK pg_subcert md 5) pg_all_modes = map (fun _ => Err E_MISMATCH) pg_all_modes
  /\ spec_pgp_must_fail pgK pg_subcert = false.
Proof. vm_compute. auto. Qed.
(* primary = K with a foreign signing subkey S: the openpgp-selected modes refuse (no private key for S), the entity.PrivateKey
   modes sign under the primary packet *)
Definition pg_foreign : pent := mkPent 502 (mkKp 10 (PRsa 77 65537)) true false [pg_uid] [pg_signsub 31 55 130] None.
Example pgp_foreign_signing_subkey :
  map (fun md => match pgp_request pgK pg_foreign md 5 with Ok l => map ps_keyid l | Err x => [- x] | Panic x => [-100 - x] end) pg_all_modes
  = [[- E_NOPRIV]; [- E_NOPRIV]; [- E_NOPRIV]; [- E_NOPRIV]; [10]; [10]; [10; 10]; [10]].
Proof. vm_compute. reflexivity. Qed.
(* the specification is not trivially true: a signature that names the primary packet 20 (key P) over a value made by K, the
   certificate's signing subkey, is rejected - and so is one whose key id and fingerprint name different packets *)
Example pgp_spec_rejects_issuer_of_other_key :
  spec_pgp_sig_ok (cert_packets pg_subcert) 5 (mkPs 20 20 (mkSig pgK 5)) = false
  /\ spec_pgp_sig_ok (cert_packets pg_subcert) 5 (mkPs 21 20 (mkSig pgK 5)) = false
  /\ spec_pgp_sig_ok (cert_packets pg_subcert) 5 (mkPs 21 21 (mkSig pgK 5)) = true.
Proof. vm_compute. auto. Qed.
(* hypotheses of 10d/10e are satisfiable *)
Example pgp_hypotheses_satisfiable :
  ent_file_wf pg_plain = true /\ public_only pg_plain = true /\ curve_hyp_pgp pgK pg_plain /\ pe_idents pg_plain <> [] /\ ent_file_wf wit_ent = true.
Proof. repeat split; try reflexivity. discriminate. Qed.
