(* Laws/Pipeline.v — the digest-then-patch pipeline shared by every signer
   (Transform.GetReader -> Signer.Sign -> Transformer.Apply -> Fixup), abstracted as a `format`, the laws each
   format model has to prove, and the generic theorems that follow for C01 / C02 / C03 / C08.
   Cryptography is symbolic: section variables and hypotheses, no axioms. *)
From Relic Require Import Base.Prelude Base.Slice.

Section Pipeline.
  (* ---- symbolic cryptography *)
  Variables key pubk sigv : Type.
  Variable H : Z -> bytes -> bytes.                 (* digest algorithm id -> message -> digest *)
  Variable pub : key -> pubk.
  Variable sign : key -> bytes -> sigv.
  Variable vrfy : pubk -> bytes -> sigv -> bool.
  Hypothesis sign_correct : forall k m, vrfy (pub k) m (sign k m) = true.

  (* the signature blob embedded in an artefact (CMS SignedData / PGP signature), abstractly *)
  Record sigblob := mkBlob { sb_alg : Z; sb_digest : bytes; sb_cert : pubk; sb_sig : sigv }.
  Variable tbs : Z -> bytes -> bytes.               (* what the signature value covers: signed attributes with the digest *)
  Variable ser : sigblob -> bytes.
  Variable deser : bytes -> option sigblob.
  Hypothesis deser_ser : forall b, deser (ser b) = Some b.

  Definition mksig (k : key) (a : Z) (d : bytes) : sigblob := mkBlob a d (pub k) (sign k (tbs a d)).
  Definition blob_ok (b : sigblob) : bool := vrfy (sb_cert b) (tbs (sb_alg b) (sb_digest b)) (sb_sig b).

  (* ---- a format *)
  Variable payload : Type.
  Record format := mkFormat {
    f_hashin  : bytes -> result bytes;            (* digest preimage of a file; existing signature regions skipped *)
    f_embed   : bytes -> bytes -> result bytes;   (* file -> blob -> signed file (patch applied, fixups done) *)
    f_extract : bytes -> result (option bytes);   (* the embedded blob; None = not signed *)
    f_payload : bytes -> result payload           (* the independent reader's view of everything that is not signature *)
  }.
  Variable F : format.

  (* the laws (per-format proof obligations) *)
  Definition law_extract := forall f b g, f_embed F f b = Ok g -> f_extract F g = Ok (Some b).
  Definition law_hashin  := forall f b g, f_embed F f b = Ok g -> f_hashin F g = f_hashin F f.
  Definition law_payload := forall f b g, f_embed F f b = Ok g -> f_payload F g = f_payload F f.
  Definition law_hash_defined := forall f b g, f_embed F f b = Ok g -> exists pre, f_hashin F f = Ok pre.

  (* ---- sign and verify *)
  Definition sign_file (k : key) (a : Z) (f : bytes) : result bytes :=
    pre <- f_hashin F f ;; f_embed F f (ser (mksig k a (H a pre))).

  Inductive verdict := Accept (p : pubk) (a : Z) | NotSigned | Reject.
  Definition verify_file (g : bytes) : verdict :=
    match f_extract F g with
    | Ok None => NotSigned
    | Ok (Some bb) =>
        match deser bb with
        | None => Reject
        | Some b =>
            match f_hashin F g with
            | Ok pre => if blob_ok b && bytes_eqb (H (sb_alg b) pre) (sb_digest b) then Accept (sb_cert b) (sb_alg b) else Reject
            | _ => Reject
            end
        end
    | _ => Reject
    end.
  Definition is_signed (g : bytes) : bool :=
    match f_extract F g with Ok (Some _) => true | _ => false end.

  Hypothesis L1 : law_extract.
  Hypothesis L2 : law_hashin.
  Hypothesis L3 : law_payload.

  (* C01: whatever is signed verifies, and names the configured certificate and the requested digest *)
  Theorem sign_then_verify : forall k a f g,
    sign_file k a f = Ok g -> verify_file g = Accept (pub k) a.
  Proof.
    unfold sign_file, verify_file. intros k a f g Hs.
    destruct (f_hashin F f) as [pre| |] eqn:Hh; cbn [bind] in Hs; try discriminate.
    rewrite (L1 _ _ _ Hs), deser_ser, (L2 _ _ _ Hs), Hh.
    unfold blob_ok, mksig. cbn [sb_alg sb_digest sb_cert sb_sig].
    now rewrite sign_correct, bytes_eqb_refl.
  Qed.

  (* one round of signing: everything the history theorems need to know about it *)
  Lemma sign_file_spec k a f g : sign_file k a f = Ok g ->
    verify_file g = Accept (pub k) a /\ is_signed g = true /\ f_payload F g = f_payload F f /\ f_hashin F g = f_hashin F f.
  Proof.
    intros Hs. split; [exact (sign_then_verify _ _ _ _ Hs)|].
    unfold sign_file in Hs. destruct (f_hashin F f) as [pre| |] eqn:Hh; cbn [bind] in Hs; try discriminate.
    unfold is_signed. now rewrite (L1 _ _ _ Hs), (L2 _ _ _ Hs), (L3 _ _ _ Hs).
  Qed.

  (* C08: any history of re-signing keeps the artefact verifiable under the last key, signed, with the original payload *)
  Fixpoint resign (hist : list (key * Z)) (f : bytes) : result bytes :=
    match hist with
    | [] => Ok f
    | (k, a) :: r => g <- sign_file k a f ;; resign r g
    end.
  Theorem resign_history : forall hist f g k a,
    resign (hist ++ [(k, a)]) f = Ok g ->
    verify_file g = Accept (pub k) a /\ is_signed g = true /\ f_payload F g = f_payload F f /\ f_hashin F g = f_hashin F f.
  Proof.
    induction hist as [|[k0 a0] hist IH]; intros f g k a Hr; cbn [app resign] in Hr.
    - destruct (sign_file k a f) as [g'| |] eqn:Hs; cbn [bind] in Hr; try discriminate.
      injection Hr as <-. exact (sign_file_spec _ _ _ _ Hs).
    - destruct (sign_file k0 a0 f) as [g0| |] eqn:Hs; cbn [bind] in Hr; try discriminate.
      destruct (IH _ _ _ _ Hr) as (Hv & Hi & Hp & Hh). destruct (sign_file_spec _ _ _ _ Hs) as (_ & _ & Hp0 & Hh0).
      now rewrite Hp, Hh.
  Qed.

  (* C08: the digest of an artefact does not depend on whether it already carries a signature *)
  Theorem digest_ignores_signature : forall f b g a, f_embed F f b = Ok g ->
    (pre <- f_hashin F g ;; Ok (H a pre)) = (pre <- f_hashin F f ;; Ok (H a pre)).
  Proof. intros. now rewrite (L2 _ _ _ H0). Qed.

  (* C02: under the symbolic idealisation (collision-free digest on the compared values, unforgeable signatures), an artefact
     accepted under key k's certificate has the digest preimage of some artefact k actually signed with that algorithm *)
  Variable issued : key -> Z -> bytes -> Prop.      (* k has signed digest d under algorithm a *)
  Hypothesis unforgeable : forall k a d s, vrfy (pub k) (tbs a d) s = true -> issued k a d.
  Hypothesis pub_injective : forall k k', pub k = pub k' -> k = k'.
  Theorem tamper_rejected : forall g' k a,
    verify_file g' = Accept (pub k) a ->
    exists pre, f_hashin F g' = Ok pre /\ issued k a (H a pre).
  Proof.
    unfold verify_file. intros g' k a Hv.
    destruct (f_extract F g') as [[bb|]| |]; try discriminate.
    destruct (deser bb) as [b|]; try discriminate.
    destruct (f_hashin F g') as [pre| |] eqn:Hh; try discriminate.
    destruct (blob_ok b) eqn:Hb; cbn [andb] in Hv; try discriminate.
    destruct (bytes_eqb (H (sb_alg b) pre) (sb_digest b)) eqn:He; try discriminate.
    inversion Hv as [[Hc Ha]]. exists pre. split; [reflexivity|].
    apply bytes_eqb_eq in He. unfold blob_ok in Hb. rewrite Hc in Hb. subst a. rewrite He.
    eapply unforgeable. exact Hb.
  Qed.
  (* ... so with a collision-free digest the preimage — i.e. every byte the format's digest covers — is unchanged *)
  Theorem tamper_rejected_preimage : forall g g' k a pre,
    (forall d, issued k a d -> d = H a pre) ->            (* k has signed only g's digest under a *)
    (forall x y, H a x = H a y -> x = y) ->                (* idealised collision freedom *)
    f_hashin F g = Ok pre ->
    verify_file g' = Accept (pub k) a -> f_hashin F g' = Ok pre.
  Proof.
    intros g g' k a pre Honly Hinj Hg Hv.
    destruct (tamper_rejected _ _ _ Hv) as [pre' [Hh Hi]].
    rewrite Hh. f_equal. apply Hinj. exact (Honly _ Hi).
  Qed.
End Pipeline.
